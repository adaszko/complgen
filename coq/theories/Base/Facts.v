(** Facts about the prelude's definitions, about strings and about characters that every layer of the
    development uses. *)
From CG Require Import Base.Prelude Proofs.ListFacts.

Lemma append_assoc (a b c : string) : append (append a b) c = append a (append b c).
Proof. induction a; cbn; congruence. Qed.

Lemma append_nil_r (a : string) : append a EmptyString = a.
Proof. induction a; cbn; congruence. Qed.

Lemma length_append (a b : string) :
  String.length (append a b) = (String.length a + String.length b)%nat.
Proof. induction a; cbn; congruence. Qed.

Lemma append_cancel_l (a b c : string) : append a b = append a c -> b = c.
Proof. induction a as [|x a IH]; cbn; intro H; [exact H|]. injection H as H. exact (IH H). Qed.

Lemma append_cancel_r (a b c : string) : append a c = append b c -> a = b.
Proof.
  revert b. induction a as [|x a IH]; intros [|y b] H; cbn [append] in H.
  - reflexivity.
  - exfalso. apply (f_equal String.length) in H. cbn [String.length] in H. rewrite length_append in H. lia.
  - exfalso. apply (f_equal String.length) in H. cbn [String.length] in H. rewrite length_append in H. lia.
  - injection H as -> H. f_equal. exact (IH b H).
Qed.

Lemma prefix_refl s : String.prefix s s = true.
Proof. induction s as [|c s IH]; cbn; [reflexivity|]. destruct (ascii_dec c c); [exact IH|congruence]. Qed.

Lemma prefix_app_l a b : String.prefix a (append a b) = true.
Proof. induction a as [|c a IH]; cbn; [destruct b; reflexivity|]. destruct (ascii_dec c c); [exact IH|congruence]. Qed.

Lemma prefix_trans a b c : String.prefix a b = true -> String.prefix b c = true -> String.prefix a c = true.
Proof.
  revert b c. induction a as [|x a IH]; intros b c H1 H2; [destruct c; reflexivity|].
  destruct b as [|y b]; cbn [String.prefix] in H1; [discriminate|].
  destruct (ascii_dec x y) as [->|]; [|discriminate].
  destruct c as [|z c]; cbn [String.prefix] in H2 |- *; [discriminate|].
  destruct (ascii_dec y z); [|discriminate]. exact (IH b c H1 H2).
Qed.

Lemma prefix_length p s : String.prefix p s = true -> (String.length p <= String.length s)%nat.
Proof.
  revert s. induction p as [|c p IH]; intros s H; cbn [String.length]; [lia|].
  destruct s as [|d s]; cbn [String.prefix] in H; [discriminate|].
  destruct (ascii_dec c d); [|discriminate]. specialize (IH s H). cbn [String.length]. lia.
Qed.

(** [all_ascii p]: [p] holds of the 256 characters; one evaluation decides a fact about all of them. *)
Definition both (f : bool -> bool) : bool := f true && f false.
Definition all_ascii (p : ascii -> bool) : bool :=
  both (fun a => both (fun b => both (fun c => both (fun d => both (fun e => both (fun f => both (fun g =>
  both (fun h => p (Ascii a b c d e f g h))))))))).

Lemma all_ascii_spec p : all_ascii p = true -> forall c, p c = true.
Proof.
  assert (B : forall f, both f = true -> forall x, f x = true).
  { intros f H x. apply andb_true_iff in H. destruct x; tauto. }
  intros H [a b c d e f g h]. revert h. apply B. revert g. apply B. revert f. apply B. revert e. apply B.
  revert d. apply B. revert c. apply B. revert b. apply B. revert a. apply B. exact H.
Qed.

(** the rewrite database [eqb] collects the boolean tests that reflect equality *)
#[export] Hint Rewrite andb_true_iff String.eqb_eq N.eqb_eq Bool.eqb_true_iff : eqb.

Lemma option_eqb_eq {A} (eqb : A -> A -> bool) :
  (forall x y, eqb x y = true <-> x = y) ->
  forall a b, option_eqb eqb a b = true <-> a = b.
Proof.
  intros H [x|] [y|]; cbn; try (split; discriminate); [|tauto].
  rewrite H. split; [intros ->; reflexivity|intro E; inversion E; reflexivity].
Qed.
#[export] Hint Rewrite (@option_eqb_eq string String.eqb String.eqb_eq) : eqb.

Lemma memN_In k l : memN k l = true <-> In k l.
Proof.
  unfold memN. rewrite existsb_exists. split.
  - intros [x [Hx E]]. apply N.eqb_eq in E. subst. exact Hx.
  - intros H. exists k. split; [exact H | apply N.eqb_refl].
Qed.

Lemma memN_false k l : memN k l = false <-> ~ In k l.
Proof. rewrite <- memN_In. destruct (memN k l); split; congruence. Qed.

Lemma assocN_In {V} k (l : list (N * V)) v : assocN k l = Some v -> In (k, v) l.
Proof.
  induction l as [|[k' v'] l IH]; cbn [assocN]; [discriminate|].
  destruct (N.eqb_spec k k') as [->|_]; intros H; [left; congruence | right; exact (IH H)].
Qed.

Lemma in_assocN {V} k (l : list (N * V)) v : NoDup (map fst l) -> In (k, v) l -> assocN k l = Some v.
Proof.
  induction l as [|[k' v'] l IH]; [intros _ []|]. cbn [assocN map fst]. intros Hnd H.
  inversion Hnd as [|? ? Hk Hnd']; subst. destruct H as [H|H].
  - inversion H; subst. rewrite N.eqb_refl. reflexivity.
  - destruct (N.eqb_spec k k') as [->|_]; [|auto].
    exfalso. apply Hk. exact (in_map fst _ _ H).
Qed.

Lemma assocN_None {V} k (l : list (N * V)) : assocN k l = None <-> ~ In k (map fst l).
Proof.
  induction l as [|[k' v'] r IH]; cbn [assocN map fst In]; [tauto|].
  destruct (N.eqb_spec k k') as [->|Hne].
  - split; [discriminate|]. intro H. exfalso. apply H. left. reflexivity.
  - rewrite IH. split; [intros H [F|F]; [congruence|contradiction]|tauto].
Qed.

Lemma assocN_app {V} k (l l' : list (N * V)) :
  assocN k (l ++ l') = match assocN k l with Some v => Some v | None => assocN k l' end.
Proof.
  induction l as [|[k' v'] r IH]; cbn [app assocN]; [reflexivity|]. destruct (N.eqb k k'); [reflexivity|exact IH].
Qed.

Lemma mem_str_In k l : mem_str k l = true <-> In k l.
Proof.
  unfold mem_str. rewrite existsb_exists. split.
  - intros [x [Hx E]]. apply String.eqb_eq in E. subst. exact Hx.
  - intros H. exists k. split; [exact H | apply String.eqb_refl].
Qed.

Lemma mem_str_false k l : mem_str k l = false <-> ~ In k l.
Proof. rewrite <- mem_str_In. destruct (mem_str k l); split; congruence. Qed.

Lemma assoc_In {V} k (l : list (string * V)) v : assoc k l = Some v -> In (k, v) l.
Proof.
  induction l as [|[k' v'] l IH]; cbn [assoc]; [discriminate|].
  destruct (String.eqb_spec k k') as [->|_]; intros H; [left; congruence | right; exact (IH H)].
Qed.

Lemma in_assoc {V} k (l : list (string * V)) v : NoDup (map fst l) -> In (k, v) l -> assoc k l = Some v.
Proof.
  induction l as [|[k' v'] l IH]; [intros _ []|]. cbn [assoc map fst]. intros Hnd H.
  inversion Hnd as [|? ? Hk Hnd']; subst. destruct H as [H|H].
  - inversion H; subst. rewrite String.eqb_refl. reflexivity.
  - destruct (String.eqb_spec k k') as [->|_]; [|auto].
    exfalso. apply Hk. exact (in_map fst _ _ H).
Qed.

Lemma assoc_None {V} k (l : list (string * V)) : assoc k l = None <-> ~ In k (map fst l).
Proof.
  induction l as [|[k' v'] r IH]; cbn [assoc map fst In]; [tauto|].
  destruct (String.eqb_spec k k') as [->|Hne].
  - split; [discriminate|]. intro H. exfalso. apply H. left. reflexivity.
  - rewrite IH. split; [intros H [F|F]; [congruence|contradiction]|tauto].
Qed.

Lemma assoc_Some_in {V} k (l : list (string * V)) v : assoc k l = Some v -> In k (map fst l).
Proof. intro H. apply assoc_In in H. exact (in_map fst _ _ H). Qed.

Lemma assoc_app {V} k (l l' : list (string * V)) :
  assoc k (l ++ l') = match assoc k l with Some v => Some v | None => assoc k l' end.
Proof.
  induction l as [|[k' v'] r IH]; cbn [app assoc]; [reflexivity|]. destruct (String.eqb k k'); [reflexivity|exact IH].
Qed.

Lemma assoc_map_snd {V W} (h : V -> W) k (l : list (string * V)) :
  assoc k (map (fun p => (fst p, h (snd p))) l) = option_map h (assoc k l).
Proof.
  induction l as [|[k' v] l IH]; cbn; [reflexivity|]. destruct (String.eqb k k'); [reflexivity|exact IH].
Qed.

Lemma nthN_In {A} (l : list A) i x : nthN l i = Some x -> In x l.
Proof. apply nth_error_In. Qed.

Lemma In_nthN {A} (x : A) l : In x l -> exists i, nthN l i = Some x.
Proof.
  intro H. apply In_nth_error in H. destruct H as [n Hn]. exists (N.of_nat n).
  unfold nthN. rewrite Nnat.Nat2N.id. exact Hn.
Qed.

Lemma nthN_some_lt {A} (l : list A) i x : nthN l i = Some x -> i < lenN l.
Proof.
  unfold nthN, lenN. intro H. assert (N.to_nat i < List.length l)%nat; [|lia].
  apply nth_error_Some. congruence.
Qed.

Lemma nthN_lt_some {A} (l : list A) i : i < lenN l -> exists x, nthN l i = Some x.
Proof.
  unfold nthN, lenN. intro H. destruct (nth_error l (N.to_nat i)) eqn:E; [eauto|].
  apply nth_error_None in E. lia.
Qed.

Lemma nthN_map {A B} (f : A -> B) l i : nthN (map f l) i = option_map f (nthN l i).
Proof. apply nth_error_map. Qed.

Lemma nthN_app_l {A} (l l' : list A) i : i < lenN l -> nthN (l ++ l') i = nthN l i.
Proof. unfold nthN, lenN. intro H. apply nth_error_app1. lia. Qed.

Lemma nthN_app_mid {A} (l : list A) x l' : nthN (l ++ x :: l') (lenN l) = Some x.
Proof. unfold nthN, lenN. rewrite Nnat.Nat2N.id, nth_error_app2, Nat.sub_diag; [reflexivity|lia]. Qed.

Lemma nthN_snoc_inv {A} (l : list A) x i y :
  nthN (l ++ [x]) i = Some y -> (i < lenN l /\ nthN l i = Some y) \/ (i = lenN l /\ y = x).
Proof.
  intro H. destruct (N.lt_ge_cases i (lenN l)) as [Hlt|Hge].
  - left. rewrite nthN_app_l in H by exact Hlt. split; [exact Hlt|exact H].
  - right. apply nthN_some_lt in H as Hi. unfold lenN in Hi, Hge. rewrite app_length in Hi. cbn in Hi.
    assert (i = lenN l) as -> by (unfold lenN; lia). rewrite nthN_app_mid in H. split; congruence.
Qed.

Lemma nthN_NoDup_inj {A} (l : list A) i j x : NoDup l -> nthN l i = Some x -> nthN l j = Some x -> i = j.
Proof.
  unfold nthN. intros Hnd Hi Hj. assert (N.to_nat i = N.to_nat j); [|lia].
  apply (proj1 (NoDup_nth_error l) Hnd); [apply nth_error_Some|]; congruence.
Qed.

Lemma lenN_snoc {A} (l : list A) x : lenN (l ++ [x]) = N.succ (lenN l).
Proof. unfold lenN. rewrite app_length. cbn. lia. Qed.

Lemma lenN_map {A B} (f : A -> B) l : lenN (map f l) = lenN l.
Proof. unfold lenN. rewrite map_length. reflexivity. Qed.

Lemma Forall2_lenN {A B} (P : A -> B -> Prop) l m : Forall2 P l m -> lenN l = lenN m.
Proof. intro H. unfold lenN. rewrite (Forall2_length _ _ _ H). reflexivity. Qed.

(** [injection] would evaluate the two sides, which are whole scripts where this is used *)
Lemma Ok_inj {E A} (a b : A) : @Ok E A a = Ok b -> a = b.
Proof. intro H. injection H as H. exact H. Qed.

Lemma obind_ok {E A B} (x : outcome E A) (f : A -> outcome E B) b :
  obind x f = Ok b -> exists a, x = Ok a /\ f a = Ok b.
Proof. destruct x; cbn; intros H; try discriminate. eauto. Qed.

Lemma omap_ok {E A B} (f : A -> outcome E B) l ys : omap f l = Ok ys <-> Forall2 (fun x y => f x = Ok y) l ys.
Proof.
  revert ys. induction l as [|a l IH]; intro ys; cbn [omap].
  - split; [intro H; injection H as <-; constructor|intro H; inversion H; reflexivity].
  - split.
    + intro H. apply obind_ok in H. destruct H as [y [Hy H]]. apply obind_ok in H. destruct H as [ys' [Hys H]].
      injection H as <-. constructor; [exact Hy|apply IH; exact Hys].
    + intro H. inversion H as [|? y ? ys' Hy Hys]; subst. apply IH in Hys. rewrite Hy, Hys. reflexivity.
Qed.

Lemma omap_eq {E A B} (f : A -> outcome E B) (g : A -> B) l :
  (forall x, In x l -> f x = Ok (g x)) -> omap f l = Ok (map g l).
Proof. intro H. apply omap_ok, Forall2_map_self, Forall_forall. exact H. Qed.

Lemma omap_ok_each {E A B} (f : A -> outcome E B) l ys :
  omap f l = Ok ys -> forall x, In x l -> exists y, f x = Ok y /\ In y ys.
Proof.
  intros H x Hx. apply omap_ok in H. destruct (Forall2_In_l _ _ _ _ H Hx) as [y [Hy Hf]]. eauto.
Qed.

Lemma omap_total {E A B} (f : A -> outcome E B) l :
  (forall x, In x l -> exists y, f x = Ok y) -> exists ys, omap f l = Ok ys.
Proof. intro H. destruct (Forall2_total _ l H) as [ys Hys]. exists ys. apply omap_ok. exact Hys. Qed.

(** [post Q R P F x]: [Q] holds of the value of [x] and [R] of its error; [x] is a panic only if [P]
    and has run out of fuel only if [F]. *)
Definition post {E A} (Q : A -> Prop) (R : E -> Prop) (P F : Prop) (x : outcome E A) : Prop :=
  match x with Ok a => Q a | Err e => R e | Panic _ => P | OutOfFuel => F end.

Definition any {A} (_ : A) : Prop := True.

Lemma post_bind {E A B} (Q : A -> Prop) (Q' : B -> Prop) (R : E -> Prop) P F x (f : A -> outcome E B) :
  post Q R P F x -> (forall a, x = Ok a -> Q a -> post Q' R P F (f a)) -> post Q' R P F (obind x f).
Proof. destruct x; cbn; auto. Qed.

Lemma post_omap {E A B} (R : E -> Prop) P F (f : A -> outcome E B) l :
  (forall a, In a l -> post any R P F (f a)) -> post any R P F (omap f l).
Proof.
  induction l as [|a l IH]; intro H; cbn [omap]; [exact I|].
  apply (post_bind any); [apply H; left; reflexivity|]. intros y _ _.
  apply (post_bind any); [apply IH; intros b Hb; apply H; right; exact Hb|]. intros ys _ _. exact I.
Qed.

Lemma post_impl {E A} {Q Q' : A -> Prop} {R R' : E -> Prop} {P P' F F' : Prop} {x : outcome E A} :
  post Q R P F x -> (forall a, Q a -> Q' a) -> (forall e, R e -> R' e) -> (P -> P') -> (F -> F') ->
  post Q' R' P' F' x.
Proof. destruct x; cbn; auto. Qed.

Lemma post_not_fuel {E A} Q R P (x : outcome E A) : post Q R P False x -> x <> OutOfFuel.
Proof. intros H ->. exact H. Qed.

Lemma post_not_panic {E A} Q R F (x : outcome E A) : post Q R False F x -> forall site, x <> Panic site.
Proof. intros H site ->. exact H. Qed.

Lemma post_cases {E A} (x : outcome E A) :
  post any any False False x -> (exists a, x = Ok a) \/ (exists e, x = Err e).
Proof. destruct x; cbn; intro H; [left|right| |]; eauto; contradiction. Qed.
