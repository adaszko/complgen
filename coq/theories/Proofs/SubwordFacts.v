(** The literal loop of the within-word matcher of Model/BashSem.v, without pattern matching.

    On glob-free literals and a glob-free typed word the loops of [Pinned] and [Fixed] are the string functions
    [lit_pure_pinned] and [lit_loop_str]; the loop of [Repaired] is [lit_loop_str] by definition.  So the fixed_
    lemmas, stated on [lit_loop_str], serve every variant other than [Pinned] ([lit_loop_nonpinned]).
    With the literal array in decreasing length (what dfa.rs produces), [lit_loop_str]
    - consumes a fully typed value [v] exactly (the first enabled literal equal to [v] wins, whatever longer or
      shorter literals exist and wherever else they are allowed);
    - stops in front of a partially typed value when completing;
    [lit_pure_pinned] consumes [v] when no literal of the array properly extends it and stops otherwise.
    __complgen_match ([match_fn]) is an exact prefix filter on printable text. *)
From CG Require Import Base.Prelude Base.Facts Model.Dfa Model.Glob Model.BashSem Proofs.GlobFacts.

Fixpoint lit_pure_pinned (lits : list (N * string)) (st : list (N * N)) (sub : string) : step :=
  match lits with
  | [] => SNone
  | (lid, lit) :: r =>
    match (if String.eqb lit sub then assocN lid st else None) with
    | Some to => SCont to (String.length lit)
    | None =>
      if String.prefix sub lit then SBreak
      else match (if String.prefix lit sub then assocN lid st else None) with
           | Some to => SCont to (String.length lit)
           | None => lit_pure_pinned r st sub
           end
    end
  end.

Definition all_plain (lits : list (N * string)) : Prop := forall id l, In (id, l) lits -> plain l = true.

Lemma all_plain_tail x lits : all_plain (x :: lits) -> all_plain lits.
Proof. intros H id l Hin. apply (H id l). now right. Qed.

Lemma globm_exact lit s : plain lit = true -> globm lit s = Ok (String.eqb lit s).
Proof. intros H. unfold globm. now rewrite (glob_plain_exact true lit s H). Qed.

Lemma globm_prefix p s : plain p = true -> globm (p ++ "*") s = Ok (String.prefix p s).
Proof. intros H. unfold globm. now rewrite (glob_plain_prefix true p s H). Qed.

Lemma lit_loop_fixed_plain complete st sub : forall lits,
    all_plain lits -> plain sub = true ->
    lit_loop_fixed complete lits st sub = Ok (lit_loop_str complete lits st sub).
Proof.
  induction lits as [|[lid lit] r IH]; intros Hl Hs; [reflexivity|].
  cbn [lit_loop_fixed lit_loop_str].
  assert (Hp : plain lit = true) by (apply (Hl lid lit); now left).
  specialize (IH (all_plain_tail _ _ Hl) Hs).
  destruct (assocN lid st) as [to|]; [|exact IH].
  rewrite (globm_exact lit sub Hp). cbn [obind].
  destruct (String.eqb lit sub); [reflexivity|].
  destruct complete.
  - rewrite (globm_prefix sub lit Hs). cbn [obind andb].
    destruct (String.prefix sub lit); [reflexivity|].
    rewrite (globm_prefix lit sub Hp). cbn [obind].
    destruct (String.prefix lit sub); [reflexivity|exact IH].
  - cbn [obind andb].
    rewrite (globm_prefix lit sub Hp). cbn [obind].
    destruct (String.prefix lit sub); [reflexivity|exact IH].
Qed.

(** both repaired loops are the string loop: [Repaired] always (quoted operands), [Fixed] on glob-free text *)
Definition strdom (v : variant) (lits : list (N * string)) (word : string) : Prop :=
  v = Repaired \/ (all_plain lits /\ plain word = true).

Lemma lit_loop_nonpinned v complete st sub lits :
  v <> Pinned -> (v = Repaired \/ (all_plain lits /\ plain sub = true)) ->
  lit_loop v complete lits st sub = Ok (lit_loop_str complete lits st sub).
Proof.
  intros Hv Hd. destruct v; [congruence| |reflexivity].
  destruct Hd as [Hd|[Hl Hs]]; [discriminate|]. now apply lit_loop_fixed_plain.
Qed.

Lemma lit_loop_pinned_plain st sub : forall lits,
    all_plain lits -> plain sub = true ->
    lit_loop_pinned lits st sub = Ok (lit_pure_pinned lits st sub).
Proof.
  induction lits as [|[lid lit] r IH]; intros Hl Hs; [reflexivity|].
  cbn [lit_loop_pinned lit_pure_pinned].
  assert (Hp : plain lit = true) by (apply (Hl lid lit); now left).
  specialize (IH (all_plain_tail _ _ Hl) Hs).
  rewrite (globm_exact lit sub Hp). cbn [obind].
  destruct (if String.eqb lit sub then assocN lid st else None); [reflexivity|].
  rewrite (globm_prefix sub lit Hs). cbn [obind].
  destruct (String.prefix sub lit); [reflexivity|].
  rewrite (globm_prefix lit sub Hp). cbn [obind].
  destruct (if String.prefix lit sub then assocN lid st else None); [reflexivity|exact IH].
Qed.

Lemma prefix_same_length p s :
  String.prefix p s = true -> String.length p = String.length s -> p = s.
Proof.
  revert s. induction p as [|c p IH]; intros s H L.
  - destruct s; [reflexivity|discriminate].
  - destruct s as [|d s]; cbn [String.prefix] in H; [discriminate|].
    destruct (ascii_dec c d); [|discriminate]. subst d. f_equal. apply IH; [exact H|].
    cbn [String.length] in L. lia.
Qed.

Lemma map_snd_indexed_from {A} (l : list A) : forall k, map snd (indexed_from k l) = l.
Proof. induction l as [|a r IH]; intros k; cbn; [reflexivity|]. now rewrite IH. Qed.

(** the order in which get_all_literals (dfa.rs) lays out the literal array: by decreasing length *)
Fixpoint sorted_desc (lits : list (N * string)) : Prop :=
  match lits with
  | [] => True
  | (_, l) :: r => (forall id l', In (id, l') r -> (String.length l' <= String.length l)%nat) /\ sorted_desc r
  end.

(** the first literal with text [v] that has a transition in [st] *)
Fixpoint first_enabled (lits : list (N * string)) (st : list (N * N)) (v : string) : option N :=
  match lits with
  | [] => None
  | (lid, lit) :: r =>
    if String.eqb lit v then
      match assocN lid st with Some to => Some to | None => first_enabled r st v end
    else first_enabled r st v
  end.

Lemma first_enabled_In st v : forall lits to, first_enabled lits st v = Some to -> exists id, In (id, v) lits.
Proof.
  induction lits as [|[i l] r IH]; intros to Hf; cbn [first_enabled] in Hf; [discriminate|].
  destruct (String.eqb l v) eqn:E.
  - apply String.eqb_eq in E. subst l. exists i. now left.
  - destruct (IH to Hf) as [id H]. exists id. now right.
Qed.

(** an enabled literal in front of the value [v] in the array that is a prefix of [v] is [v]: [v] comes later and
    is at most as long *)
Lemma prefix_before_value lid lit r st v to :
  sorted_desc ((lid, lit) :: r) -> first_enabled r st v = Some to -> String.prefix lit v = true -> lit = v.
Proof.
  intros [Hlen _] Hf Ep. destruct (first_enabled_In st v r to Hf) as [id Hin].
  pose proof (Hlen id v Hin). pose proof (prefix_length _ _ Ep). apply prefix_same_length; [exact Ep|lia].
Qed.

Lemma fixed_consumes_value st v : forall lits to,
    sorted_desc lits ->
    first_enabled lits st v = Some to ->
    lit_loop_str false lits st v = SCont to (String.length v).
Proof.
  induction lits as [|[lid lit] r IH]; intros to Hs Hf; [discriminate|].
  cbn [lit_loop_str first_enabled] in *.
  pose proof (proj2 Hs) as Hs'.
  destruct (assocN lid st) as [to'|] eqn:Ea.
  - destruct (String.eqb lit v) eqn:E.
    + apply String.eqb_eq in E. subst lit. injection Hf as <-. reflexivity.
    + cbn [andb]. destruct (String.prefix lit v) eqn:Ep; [|apply IH; assumption].
      apply String.eqb_neq in E. destruct E. exact (prefix_before_value lid lit r st v to Hs Hf Ep).
  - destruct (String.eqb lit v); apply IH; assumption.
Qed.

Lemma fixed_stops_at_partial st p : forall lits,
    sorted_desc lits ->
    (exists id v to, In (id, v) lits /\ assocN id st = Some to /\ String.prefix p v = true /\ p <> v) ->
    lit_loop_str true lits st p = SBreak.
Proof.
  induction lits as [|[lid lit] r IH]; intros Hs (id & v & to & Hin & Ha & Hp & Hne); [contradiction|].
  cbn [lit_loop_str].
  destruct Hs as [Hlen Hs].
  assert (Lv : (String.length p < String.length v)%nat).
  { pose proof (prefix_length _ _ Hp).
    destruct (Nat.eq_dec (String.length p) (String.length v)) as [E|E]; [|lia].
    exfalso. apply Hne. now apply prefix_same_length. }
  destruct Hin as [Hin|Hin].
  - injection Hin as -> ->. rewrite Ha.
    destruct (String.eqb v p) eqn:E.
    + apply String.eqb_eq in E. congruence.
    + rewrite Hp. reflexivity.
  - pose proof (Hlen id v Hin) as L1.
    destruct (assocN lid st) as [to'|] eqn:Ea.
    + destruct (String.eqb lit p) eqn:E.
      * apply String.eqb_eq in E. subst lit. lia.
      * cbn [andb]. destruct (String.prefix p lit); [reflexivity|].
        destruct (String.prefix lit p) eqn:Ep.
        -- pose proof (prefix_length _ _ Ep). lia.
        -- apply IH; [exact Hs|]. exists id, v, to. tauto.
    + apply IH; [exact Hs|]. exists id, v, to. tauto.
Qed.

(** the pinned loop outside the known finding: when NO literal of the array (enabled or not) properly extends the
    typed value, the pinned loop consumes it too *)
Lemma pinned_consumes_value st v : forall lits to,
    sorted_desc lits ->
    first_enabled lits st v = Some to ->
    (forall id l, In (id, l) lits -> String.prefix v l = true -> l = v /\ assocN id st <> None) ->
    lit_pure_pinned lits st v = SCont to (String.length v).
Proof.
  induction lits as [|[lid lit] r IH]; intros to Hs Hf Hk; [discriminate|].
  cbn [lit_pure_pinned first_enabled] in *.
  destruct Hs as [Hlen Hs].
  assert (Hk' : forall id l, In (id, l) r -> String.prefix v l = true -> l = v /\ assocN id st <> None)
    by (intros id l Hin; apply (Hk id l); now right).
  destruct (String.eqb lit v) eqn:E.
  - apply String.eqb_eq in E. subst lit.
    destruct (Hk lid v (or_introl eq_refl) (prefix_refl v)) as [_ Hen].
    destruct (assocN lid st) as [to'|]; [|congruence]. injection Hf as <-. reflexivity.
  - destruct (String.prefix v lit) eqn:E2.
    { destruct (Hk lid lit (or_introl eq_refl) E2) as [-> _]. rewrite String.eqb_refl in E. discriminate. }
    destruct (String.prefix lit v) eqn:Ep; [|now apply IH].
    destruct (assocN lid st) as [to'|] eqn:Ea; [|now apply IH].
    apply String.eqb_neq in E. destruct E. exact (prefix_before_value lid lit r st v to (conj Hlen Hs) Hf Ep).
Qed.

(** ... and inside the known finding it refuses: a literal in front of [v] in the array that [v] is a proper prefix
    of makes the pinned loop stop, whether that literal is expected at this point or not *)
Lemma pinned_refuses_shorter_value st v : forall lits,
    sorted_desc lits ->
    (exists id l, In (id, l) lits /\ String.prefix v l = true /\ l <> v) ->
    lit_pure_pinned lits st v = SBreak.
Proof.
  induction lits as [|[lid lit] r IH]; intros Hs (id & l & Hin & Hp & Hne); [contradiction|].
  assert (Lv : (String.length v < String.length l)%nat).
  { pose proof (prefix_length _ _ Hp).
    destruct (Nat.eq_dec (String.length v) (String.length l)) as [E|E]; [|lia].
    exfalso. apply Hne. symmetry. now apply prefix_same_length. }
  cbn [lit_pure_pinned]. destruct Hs as [Hlen Hs].
  destruct Hin as [Hin|Hin].
  - injection Hin as -> ->.
    destruct (String.eqb l v) eqn:E; [apply String.eqb_eq in E; congruence|].
    now rewrite Hp.
  - pose proof (Hlen id l Hin) as L1.
    destruct (String.eqb lit v) eqn:E; [apply String.eqb_eq in E; subst lit; lia|].
    destruct (String.prefix v lit); [reflexivity|].
    destruct (String.prefix lit v) eqn:Ep; [pose proof (prefix_length _ _ Ep); lia|].
    apply IH; [exact Hs|]. exists id, l. tauto.
Qed.

(** piece: the only literal enabled in [st], a prefix of the rest of the word (the [pre] of C12Chain.v) *)
Lemma fixed_consumes_piece complete st sub : forall lits lid lit to,
    (forall id l t, In (id, l) lits -> assocN id st = Some t -> id = lid /\ l = lit) ->
    In (lid, lit) lits ->
    assocN lid st = Some to ->
    String.prefix lit sub = true ->
    lit_loop_str complete lits st sub = SCont to (String.length lit).
Proof.
  induction lits as [|[i l] r IH]; intros lid lit to Hu Hin Ha Hp; [contradiction|].
  cbn [lit_loop_str].
  destruct (assocN i st) as [t|] eqn:Ea.
  - destruct (Hu i l t (or_introl eq_refl) Ea) as [-> ->].
    rewrite Ha in Ea. injection Ea as <-.
    destruct (String.eqb lit sub) eqn:E; [reflexivity|].
    destruct (complete && String.prefix sub lit) eqn:E2.
    + apply andb_true_iff in E2 as [_ E2].
      pose proof (prefix_length _ _ E2). pose proof (prefix_length _ _ Hp).
      assert (lit = sub) by (apply prefix_same_length; [exact Hp|lia]).
      apply String.eqb_neq in E. contradiction.
    + rewrite Hp. reflexivity.
  - destruct Hin as [Hin|Hin].
    + injection Hin as -> ->. congruence.
    + apply (IH lid lit to); try assumption.
      intros id l0 t Hin0 Ha0. apply (Hu id l0 t); [now right|exact Ha0].
Qed.

Lemma filterM_ok {A} (f : A -> M bool) (g : A -> bool) l :
  (forall x, In x l -> f x = Ok (g x)) -> filterM f l = Ok (filter g l).
Proof.
  induction l as [|x r IH]; intros H; [reflexivity|].
  cbn [filterM filter]. rewrite (H x (or_introl eq_refl)). cbn [obind].
  rewrite IH by (intros y Hy; apply H; now right). cbn [obind].
  destruct (g x); reflexivity.
Qed.

Lemma printf_q_printable p : printable_str p = true -> p <> EmptyString -> printf_q p = Some (q_chars None p).
Proof.
  intros H Hne. unfold printf_q. destruct p; [congruence|]. now rewrite H.
Qed.

Theorem match_fn_prefix_filter e p cands :
  e_ignore_case e = false -> printable_str p = true ->
  match_fn e p cands = Ok (filter (String.prefix p) cands).
Proof.
  intros Hi Hp. unfold match_fn. destruct p as [|c p].
  - f_equal. clear. induction cands as [|x r IH]; [reflexivity|].
    cbn [filter]. replace (String.prefix "" x) with true by (destruct x; reflexivity). f_equal. exact IH.
  - rewrite Hi.
    assert (Hne : String c p <> EmptyString) by discriminate.
    rewrite (printf_q_printable _ Hp Hne).
    apply filterM_ok. intros line _.
    unfold globm. rewrite (glob_printf_q_prefix (String c p) _ line (printf_q_printable _ Hp Hne) Hne).
    reflexivity.
Qed.

(** the shape of the call in [top_cmds_level] and [top_levels]: only when there is a candidate at all *)
Lemma match_fn_if_any e p cands :
  e_ignore_case e = false -> printable_str p = true ->
  match cands with [] => Ok [] | _ => match_fn e p cands end = Ok (filter (String.prefix p) cands).
Proof. intros Hi Hp. destruct cands; [reflexivity|]. now apply match_fn_prefix_filter. Qed.
