(** Source-level corollary of the capstone, C11: where the external commands of the emitted script
    come from.  Part A (checker, [from_grammar_cmds]): every [Command] leaf of the validated tree
    is a command written in a call variant or in a plain definition of the grammar, or the command
    [Spec.Choice.spec] chooses for a nonterminal the grammar refers to -- never a definition for
    another shell.  Part B (regex / automata / tables, [compiled_commands], an instance of
    [compiled_inputs]): every command [get_commands] lists for the compiled automata is the text
    of a [Command] leaf of the validated tree.  Part C (script, [script_bodies]): the function
    bodies among the statements the script is printed from ([script_stmts]) are exactly the bodies
    of [a_commands]; that the script reads back to those statements is [bash_script_read], used in
    CapstoneChoice.v. *)
From CG Require Import Base.Prelude Proofs.ListFacts Model.Ast Model.Check Spec.Choice.
From CG Require Import Proofs.CheckChoice Proofs.CheckLemmas Proofs.CheckSpans Proofs.CheckTotal Proofs.CheckProvenance
  Proofs.TreeAtoms.

Fixpoint cmd_texts (e : expr) : list string :=
  match e with
  | Terminal _ _ _ _ | NontermRef _ _ _ => []
  | Command c _ _ _ => [c]
  | Subword c _ _ | Optional c _ | Many1 c _ | DistDescr c _ _ => cmd_texts c
  | Sequence cs _ | Alternative cs _ | Fallback cs _ => flat_map cmd_texts cs
  end.

Definition atom_cmd (a : atom) : list string := match a with ACmd c _ _ => [c] | _ => [] end.

Lemma cmd_texts_atoms e : cmd_texts e = flat_map atom_cmd (atoms e).
Proof.
  induction e using expr_ind'; cbn [cmd_texts atoms flat_map]; try reflexivity; try assumption;
    rewrite flat_map_flat_map; apply flat_map_ext_Forall; exact H.
Qed.

Lemma in_cmd_texts e c : In c (cmd_texts e) <-> exists z sp, In (ACmd c z sp) (atoms e).
Proof.
  rewrite cmd_texts_atoms, in_flat_map. split.
  - intros [a [Ha Hc]]. destruct a as [| |c0 z sp|]; cbn [atom_cmd] in Hc; try contradiction.
    destruct Hc as [<-|[]]. eauto.
  - intros [z [sp H]]. exists (ACmd c z sp). split; [exact H|left; reflexivity].
Qed.

Definition plain_cmds (g : grammar) : list string :=
  flat_map (fun s => match s with
                     | CallVariant _ _ e => cmd_texts e
                     | NontermDef _ _ None rhs => cmd_texts rhs
                     | NontermDef _ _ (Some _) _ => []
                     end) g.

(** a command the script may run: written in a call variant or in a plain definition, or chosen
    by the specification [Spec.Choice.spec] for a nonterminal the grammar refers to (the
    [<X@shell>] definition for the TARGET shell, else the built-in for PATH / DIRECTORY) *)
Definition cmd_source (builtins : shell -> list (string * string)) (g : grammar) (sh : shell) (c : string) : Prop :=
  In c (plain_cmds g)
  \/ exists x, In x (map fst (grammar_refs g)) /\ Choice.spec builtins g sh x = ChCommand c.

Lemma source_cmds g c z sp : In (ACmd c z sp) (source_atoms g) -> In c (plain_cmds g).
Proof.
  intro H. apply in_flat_map in H. destruct H as [s [Hs Hx]]. apply in_flat_map. exists s. split; [exact Hs|].
  destruct s as [n nsp e|n nsp [shn|] rhs]; [|destruct Hx|]; apply in_cmd_texts; eauto.
Qed.

Theorem from_grammar_cmds builtins g sh v :
  from_grammar builtins g sh = Ok v -> forall c, In c (cmd_texts (v_expr v)) -> cmd_source builtins g sh c.
Proof.
  intros H c Hc. apply from_grammar_ok in H. rename H into A. apply in_cmd_texts in Hc. destruct Hc as [z [sp Hx]].
  destruct (from_grammar_atoms _ _ _ _ A _ Hx) as [y [Hy [D|[n [sp' [-> Hs]]]]]].
  - destruct D as [<-|[t [sp0 [d [_ [F _]]]]]]; [|discriminate F]. left. exact (source_cmds g c z sp Hy).
  - (* what [specialize_ref] puts for a reference of the grammar is what the specification chooses *)
    right. exists n. split; [exact (in_map fst _ _ (source_refs g n sp' Hy))|].
    rewrite <- (choice_correct builtins g sh _ _ _ n 0 sp' (a_specs _ _ _ _ A) (a_collect _ _ _ _ A)).
    replace (map d_name (a_defs0 _ _ _ _ A)) with (map d_name (a_defs1 _ _ _ _ A))
      by (unfold a_defs1, defs1_of; rewrite map_map; reflexivity).
    destruct (specialize_ref_cases sh (a_us _ _ _ _ A) (builtins sh) (a_fs _ _ _ _ A) (map d_name (a_defs1 _ _ _ _ A)) n 0 sp')
      as [E|[c' [z' [E _]]]]; rewrite E in Hs |- *; destruct Hs as [F|[]]; inversion F. reflexivity.
Qed.

From CG Require Import Base.Facts Model.Dfa Model.Subset Model.Driver Model.Tables Model.Regex.
From CG Require Import Proofs.TablesSound Proofs.FromExpr Proofs.SubCompiled Proofs.DriverFacts Proofs.DriverCorrect Proofs.C02Total
  Proofs.CompilerTotal Proofs.TreeFacts.

Definition input_atom (i : rinput) : list atom :=
  match i with
  | RLit t d _ sp => [ALit t d sp]
  | RNonterm n _ sp => [ARef n sp]
  | RCmd c z _ sp => [ACmd c z sp]
  | RSub _ _ _ => []
  end.

Definition atom_inp (a : atom) (l : N) : list inp :=
  match a with
  | ALit t d _ => [ILit t d l]
  | ARef _ _ => [IStar]
  | ACmd c z _ => [if z then ICompadd c l else ICmd c l]
  | ADist _ => []
  end.

Section Inputs.
  Variable A : atom -> Prop.
  Definition input_ok (i : rinput) : Prop := forall a, In a (input_atom i) -> A a.
  Definition pool_ok (pl : pool) : Prop := Forall (fun r => Forall input_ok (r_inputs r)) pl.

  (** the inputs the regex builder pushes, and those of the regexes it adds to the pool, stand for atoms of
      the tree *)
  Lemma builder_inputs :
    (forall e s pl id t s' pl', do_from_expr e s pl = Ok (id, t, s', pl') ->
       (forall a, In a (atoms e) -> A a) -> Forall input_ok (b_inputs s) -> pool_ok pl ->
       Forall input_ok (b_inputs s') /\ pool_ok pl') /\
    (forall cs s pl ids ts s' pl', do_children do_from_expr cs s pl = Ok (ids, ts, s', pl') ->
       (forall a, In a (flat_map atoms cs) -> A a) -> Forall input_ok (b_inputs s) -> pool_ok pl ->
       Forall input_ok (b_inputs s') /\ pool_ok pl').
  Proof.
    apply builder_run.
    - intros e i Hi s pl Ha Hs Hp. split; [|exact Hp]. apply Forall_app. split; [exact Hs|].
      constructor; [|constructor]. intros a Hin. apply Ha.
      destruct e; try discriminate Hi; injection Hi as <-; exact Hin.
    - intros c l sp s pl cid ct cs pl1 rid pl2 _ IH Ei Ha Hs Hp.
      destruct (IH Ha (Forall_nil _) Hp) as [Hcs Hp1]. split.
      + apply Forall_app. split; [exact Hs|]. constructor; [intros a []|constructor].
      + exact (pool_intern_Forall _ _ _ _ _ Ei Hcs Hp1).
    - intros cs sp s pl ids ts s1 pl1 _ IH. exact IH.
    - intros e cs sp [-> | ->] s pl ids ts s1 pl1 _ IH; exact IH.
    - intros c sp s pl cid ct s1 pl1 _ IH. exact IH.
    - intros c sp s pl cid ct s1 pl1 _ IH. exact IH.
    - intros s pl _ Hs Hp. split; assumption.
    - intros c cs s pl id t s1 pl1 ids ts s2 pl2 _ IH1 _ IH2 Ha Hs Hp.
      destruct (IH1 (fun a H => Ha a (in_or_app _ _ _ (or_introl H))) Hs Hp) as [Hs1 Hp1].
      exact (IH2 (fun a H => Ha a (in_or_app _ _ _ (or_intror H))) Hs1 Hp1).
  Qed.
End Inputs.

Lemma intern_dfa_in d : forall subs i k subs' x, intern_dfa d subs i = (k, subs') -> In x subs' -> In x subs \/ x = d.
Proof.
  induction subs as [|y r IH]; intros i k subs' x H Hx; cbn [intern_dfa] in H.
  - inversion H; subst. destruct Hx as [<-|[]]. auto.
  - destruct (DfaEqb.dfa_eqb y d).
    + inversion H; subst. auto.
    + destruct (intern_dfa d r (N.succ i)) as [k' r'] eqn:Ei. inversion H; subst.
      destruct Hx as [<-|Hx]; [left; left; reflexivity|].
      destruct (IH _ _ _ _ Ei Hx) as [H1|H1]; [left; right; exact H1|right; exact H1].
Qed.

Lemma compile_subs_all pick fuel pl : forall inputs cache subs cache' subs',
  (forall sd, In sd subs -> exists rid, sub_compiled pick fuel pl rid sd) ->
  compile_subs pick fuel inputs pl cache subs = Ok (cache', subs') ->
  forall sd, In sd subs' -> exists rid, sub_compiled pick fuel pl rid sd.
Proof.
  induction inputs as [|x inputs IH]; intros cache subs cache' subs' Hs H; cbn [compile_subs] in H.
  - inversion H; subst. exact Hs.
  - destruct x as [t d l sp|n l sp|c z l sp|rid l sp]; try (eapply IH; eauto; fail).
    destruct (assocN rid cache); [eapply IH; eauto|].
    destruct (nthN pl rid) as [r|] eqn:En; [|discriminate].
    destruct (compile_sub pick fuel r) as [d| | |] eqn:Ed; cbn [obind] in H; try discriminate.
    destruct (intern_dfa d subs 0) as [k subs1] eqn:Ei.
    eapply IH; [|exact H]. intros sd Hsd. destruct (intern_dfa_in d subs 0 k subs1 sd Ei Hsd) as [H1|H1]; [auto|subst sd].
    exists rid. destruct (compile_sub_ok pick fuel r d Ed) as [raw [st [A B]]]. exists r, raw, st. auto.
Qed.

(** what holds of the inputs the atoms of the validated tree become holds of every input of the
    compiled automata, main and within-word (inputs for words aside); CapstoneLits.v uses it for
    "no empty description" *)
Theorem compiled_inputs (Q : inp -> Prop) pick fuel v c :
  compile_valid pick fuel v = Ok c ->
  (forall a l x, In a (atoms (v_expr v)) -> In x (atom_inp a l) -> Q x) -> (forall k l, Q (ISub k l)) ->
  Forall Q (d_inputs (c_main c)) /\ forall sd, In sd (c_subs c) -> Forall Q (d_inputs sd).
Proof.
  intros H Ha Hsub. apply compile_valid_Ok in H. destruct H as (r & pl & submap & raw & st & E & Es & Ed & Em & _).
  apply from_valid_expr_ok in E.
  apply from_expr_Ok in E. destruct E as [id [t [s [E ->]]]].
  destruct (proj1 (builder_inputs (fun a => forall l x, In x (atom_inp a l) -> Q x)) _ _ _ _ _ _ _ E
              (fun a Hin l x => Ha a l x Hin) (Forall_nil _) (Forall_nil _)) as [Hr Hp].
  (* from the inputs of a regex to those of its automaton *)
  assert (Hdfa : forall sm rr d states, dfa_from_regex pick fuel sm rr = Ok (d, states) ->
                                        Forall (input_ok (fun a => forall l x, In x (atom_inp a l) -> Q x)) (r_inputs rr) ->
                                        Forall Q (d_inputs d)).
  { intros sm rr d states Hd Hrr. apply Forall_forall. intros x Hin.
    destruct (dfa_from_regex_input_origin _ _ _ _ _ _ _ Hd Hin) as [ri [Hri Hfi]].
    rewrite Forall_forall in Hrr. specialize (Hrr ri Hri).
    destruct ri as [t0 d0 l0 sp|n0 l0 sp|c0 z0 l0 sp|rid l0 sp]; cbn [from_input] in Hfi.
    - injection Hfi as <-. apply (Hrr _ (or_introl eq_refl) l0). left. reflexivity.
    - injection Hfi as <-. apply (Hrr _ (or_introl eq_refl) 0). left. reflexivity.
    - injection Hfi as <-. apply (Hrr _ (or_introl eq_refl) l0). left. reflexivity.
    - destruct (assocN rid sm); [|discriminate]. injection Hfi as <-. apply Hsub. }
  split.
  - rewrite (minimize_inputs raw _ Em). exact (Hdfa _ _ _ _ Ed Hr).
  - intros sd Hsd.
    destruct (compile_subs_all pick fuel pl _ _ _ _ _ (fun sd0 (F : In sd0 []) => match F with end) Es sd Hsd)
      as [rid [rr [raw' [st' [Hn [Hd' Hmin]]]]]].
    rewrite (minimize_inputs raw' sd Hmin). apply (Hdfa _ _ _ _ Hd').
    unfold pool_ok in Hp. rewrite Forall_forall in Hp. apply Hp. exact (nthN_In _ _ _ Hn).
Qed.

Lemma cmds_of_inputs_origin xs : forall acc c,
  In c (cmds_of_inputs acc xs) -> In c acc \/ exists x, In x xs /\ names_cmd x c.
Proof.
  unfold cmds_of_inputs. induction xs as [|x r IH]; intros acc c H; cbn [fold_left] in H; [auto|].
  destruct (IH _ _ H) as [H1|[y [Hy Hn]]]; [|right; exists y; split; [right; exact Hy|exact Hn]].
  destruct x as [t d lv|s lv|cm lv|cm lv|]; auto;
    (apply push_new_in in H1; destruct H1 as [->|H1]; [right; eexists; split; [left; reflexivity|exists lv; auto]|auto]).
Qed.

Lemma gc_fold_not_ok c rt0 : forall acc, (forall l, acc <> Ok l) -> forall l', fold_left (gc_step c) rt0 acc <> Ok l'.
Proof.
  induction rt0 as [|fxt r IH]; intros acc Hacc l'; cbn [fold_left]; [apply Hacc|].
  apply IH. intro l. unfold gc_step. destruct acc as [l0| | |]; cbn [obind]; try discriminate.
  exfalso. exact (Hacc l0 eq_refl).
Qed.

Lemma get_commands_origin c : forall rt0 l l',
  fold_left (gc_step c) rt0 (Ok l) = Ok l' ->
  forall cm, In cm l' ->
    In cm l
    \/ (exists f x to, In (f, x, to) rt0 /\ names_cmd x cm)
    \/ (exists f s lv to sd srt f' x' to',
          In (f, ISub s lv, to) rt0 /\ nthN (c_subs c) s = Some sd /\ rtrans sd = Ok srt
          /\ In (f', x', to') srt /\ names_cmd x' cm).
Proof.
  induction rt0 as [|[[f0 x0] t0] r IH]; intros l l' H cm Hcm; cbn [fold_left] in H.
  - inversion H; subst. auto.
  - destruct (gc_step c (Ok l) (f0, x0, t0)) as [l1| | |] eqn:E1;
      try (exfalso; eapply (gc_fold_not_ok c r); [|exact H]; intros l2 F; discriminate).
    destruct (IH l1 l' H cm Hcm) as [H1|[[f [x [to [Hin Hn]]]]|[f [s [lv [to [sd [srt [f' [x' [to' [Hin R]]]]]]]]]]]].
    + unfold gc_step in E1. cbn [obind] in E1. destruct x0 as [t d lv|s lv|cm0 lv|cm0 lv|].
      * inversion E1; subst. auto.
      * unfold lookup_sub in E1. destruct (nthN (c_subs c) s) as [sd|] eqn:Es; cbn [obind] in E1; try discriminate.
        destruct (rtrans sd) as [srt| | |] eqn:Er; cbn [obind] in E1; try discriminate. inversion E1; subst l1.
        apply cmds_of_inputs_origin in H1. destruct H1 as [H1|[y [Hy Hn]]]; [auto|].
        apply in_map_iff in Hy. destruct Hy as [[[f' x'] to'] [Ey Hy]]. cbn [fst snd] in Ey. subst y.
        right. right. exists f0, s, lv, t0, sd, srt, f', x', to'. split; [left; reflexivity|auto].
      * inversion E1; subst l1. apply push_new_in in H1. destruct H1 as [->|H1]; [|auto].
        right. left. exists f0, (ICmd cm0 lv), t0. split; [left; reflexivity|exists lv; auto].
      * inversion E1; subst l1. apply push_new_in in H1. destruct H1 as [->|H1]; [|auto].
        right. left. exists f0, (ICompadd cm0 lv), t0. split; [left; reflexivity|exists lv; auto].
      * inversion E1; subst. auto.
    + right. left. exists f, x, to. split; [right; exact Hin|exact Hn].
    + right. right. exists f, s, lv, to, sd, srt, f', x', to'. split; [right; exact Hin|exact R].
Qed.

(** trap: the hypothesis [alts_nonempty] is not used by the proof; the callers still discharge it *)
Theorem compiled_commands pick fuel v c cmds :
  compile_valid pick fuel v = Ok c ->
  get_commands c = Ok cmds -> forall cm, In cm cmds -> In cm (cmd_texts (v_expr v)).
Proof.
  intros H Hg cm Hcm.
  destruct (compiled_inputs (fun x => forall cm0, names_cmd x cm0 -> In cm0 (cmd_texts (v_expr v))) pick fuel v c H)
    as [Hmain Hsubs].
  { intros a l x Ha Hx cm0 [lv Hn]. apply in_cmd_texts.
    destruct a as [t d sp|n sp|c0 z sp|d]; [| | |destruct Hx]; destruct Hx as [<-|[]]; try (destruct Hn; discriminate).
    exists z, sp. destruct z; destruct Hn as [Hn|Hn]; inversion Hn; subst; exact Ha. }
  { intros k l cm0 [lv [Hn|Hn]]; discriminate. }
  unfold get_commands in Hg.
  destruct (rtrans (c_main c)) as [rt| | |] eqn:Hrt; cbn [obind] in Hg; try discriminate.
  rewrite Forall_forall in Hmain.
  destruct (get_commands_origin _ _ _ _ Hg cm Hcm)
    as [[]|[[f [x [to [Hin Hn]]]]|[f [s [lv [to [sd [srt [f' [x' [to' [Hin [Hsd [Hsrt [Hin' Hn]]]]]]]]]]]]]]].
  - exact (Hmain x (rt_input _ _ _ _ _ Hrt Hin) cm Hn).
  - (* a command of a within-word automaton *)
    pose proof (Hsubs sd (nthN_In _ _ _ Hsd)) as Hq. rewrite Forall_forall in Hq.
    exact (Hq x' (rt_input _ _ _ _ _ Hsrt Hin') cm Hn).
Qed.

From CG Require Import Spec.ScriptRead Model.EmitBash Proofs.BashCodec Proofs.BashScript.

Definition bodies (l : list stmt) : list string :=
  flat_map (fun s => match s with SBody b => [b] | _ => [] end) l.

Lemma in_bodies l b : In (SBody b) l <-> In b (bodies l).
Proof.
  unfold bodies. rewrite in_flat_map. split.
  - intros H. exists (SBody b). split; [exact H|left; reflexivity].
  - intros [s [Hs Hb]]. destruct s; cbn [In] in Hb; try contradiction. destruct Hb as [<-|[]]. exact Hs.
Qed.

Lemma bodies_app l1 l2 : bodies (l1 ++ l2) = bodies l1 ++ bodies l2.
Proof. apply flat_map_app. Qed.

Lemma bodies_cons s l : bodies (s :: l) = match s with SBody b => [b] | _ => [] end ++ bodies l.
Proof. reflexivity. Qed.

Lemma bodies_map {A} (f : A -> stmt) l : (forall x b, f x <> SBody b) -> bodies (map f l) = [].
Proof.
  intros Hf. induction l as [|x l IH]; [reflexivity|]. cbn [map]. rewrite bodies_cons, IH, app_nil_r.
  destruct (f x) eqn:E; try reflexivity. destruct (Hf x _ E).
Qed.

Lemma bodies_concat ls : (forall l, In l ls -> bodies l = []) -> bodies (List.concat ls) = [].
Proof.
  induction ls as [|l ls IH]; intro H; [reflexivity|]. cbn [List.concat].
  rewrite bodies_app, (H l (or_introl eq_refl)), IH; [reflexivity|]. intros l0 Hl0. apply H. right. exact Hl0.
Qed.

Lemma bodies_row_stmts var m : bodies (row_stmts var m) = [].
Proof. apply bodies_map. intros; discriminate. Qed.

Lemma bodies_level_stmts var ls : bodies (level_stmts var ls) = [].
Proof. apply bodies_map. intros; discriminate. Qed.

Lemma bodies_match_stmts t : bodies (match_stmts t) = [].
Proof.
  unfold match_stmts. rewrite bodies_cons, !bodies_app, bodies_row_stmts.
  destruct (t_mcmd t); [rewrite bodies_cons, bodies_row_stmts|]; destruct (t_mstar t); reflexivity.
Qed.

Lemma bodies_completion_stmts t : bodies (completion_stmts t) = [].
Proof.
  unfold completion_stmts. rewrite !bodies_app, bodies_level_stmts.
  destruct (t_ccmd t); [rewrite bodies_level_stmts|]; reflexivity.
Qed.

Lemma bodies_group command a sid g l : group_stmts command a sid g = Ok l -> bodies l = [].
Proof.
  unfold group_stmts. destruct g as [|id r]; [discriminate|]. destruct r as [|id2 r2].
  - intro H. apply obind_ok in H. destruct H as [t [_ H]]. apply obind_ok in H. destruct H as [acc [_ H]].
    apply Ok_inj in H. subst l. unfold wrapper_stmts.
    rewrite !bodies_app, bodies_match_stmts, bodies_completion_stmts. reflexivity.
  - intro H. apply obind_ok in H. destruct H as [lt [_ H]]. apply obind_ok in H. destruct H as [ws [Hws H]].
    apply Ok_inj in H. subst l. unfold shape_fn_stmts.
    rewrite !bodies_app, bodies_match_stmts, bodies_completion_stmts. apply bodies_concat.
    intros l0 Hl. apply (omap_ok_in _ _ _ Hws) in Hl. destruct Hl as [id' [_ Hf]].
    apply obind_ok in Hf. destruct Hf as [t [_ Hf]]. apply obind_ok in Hf. destruct Hf as [acc [_ Hf]].
    apply Ok_inj in Hf. subst l0. reflexivity.
Qed.

Lemma bodies_cmd_fns command : forall ics, bodies (cmd_fns_stmts command ics) = map (fun ic => cmd_body (snd ic)) ics.
Proof. induction ics as [|ic r IH]; [reflexivity|]. unfold cmd_fns_stmts in *. cbn [flat_map map]. rewrite bodies_app, IH. reflexivity. Qed.

Lemma map_snd_number_from {A} (l : list A) : forall n, map snd (number_from n l) = l.
Proof. induction l as [|x l IH]; intro n; cbn; [reflexivity|]. rewrite IH. reflexivity. Qed.

Theorem script_bodies command start nd a groups sts :
  script_stmts command start nd a groups = Ok sts ->
  forall b, In (SBody b) sts <-> exists cm, In cm (a_commands a) /\ b = cmd_body cm.
Proof.
  unfold script_stmts. intro H.
  apply obind_ok in H. destruct H as [gs [Hgs H]]. apply obind_ok in H. destruct H as [st [Hst H]].
  apply Ok_inj in H. subst sts.
  assert (Ngs : bodies gs = []).
  { destruct (n_subwords nd); [|apply Ok_inj in Hgs; subst gs; reflexivity].
    apply obind_ok in Hgs. destruct Hgs as [l [Hl Hgs]]. apply Ok_inj in Hgs. subst gs.
    rewrite bodies_app, app_nil_r. apply bodies_concat. intros l0 Hl0.
    apply (omap_ok_in _ _ _ Hl) in Hl0. destruct Hl0 as [[i g] [_ Hf]]. cbn [fst snd] in Hf. eapply bodies_group; eauto. }
  assert (Nst : bodies st = []).
  { destruct (n_subwords nd); [|apply Ok_inj in Hst; subst st; reflexivity].
    apply obind_ok in Hst. destruct Hst as [rows [_ Hst]]. apply Ok_inj in Hst. subst st.
    rewrite bodies_cons, bodies_row_stmts. reflexivity. }
  intro b. rewrite in_bodies, !bodies_app, bodies_cmd_fns, Ngs, Nst, bodies_match_stmts, bodies_completion_stmts.
  replace (bodies (if n_subwords nd then level_stmts "subword_transitions_level_" (a_csub a) else [])) with (@nil string)
    by (destruct (n_subwords nd); [rewrite bodies_level_stmts|]; reflexivity).
  cbn [bodies flat_map app]. rewrite app_nil_r, <- map_map, map_snd_number_from, in_map_iff.
  split.
  - intros [cm [E Hin]]. exists cm. split; [exact Hin|symmetry; exact E].
  - intros [cm [Hin E]]. exists cm. split; [symmetry; exact E|exact Hin].
Qed.
