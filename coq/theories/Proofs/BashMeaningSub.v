(** The two side conditions on the compiled automaton under which the within-word functions of
    the script are followed ([subs_deterministic], [sub_orders_ok]), and bash's associative arrays
    as the script fills them ([assoc_of]: a later entry for a key replaces the earlier one;
    [assoc_of_sub] and [assoc_of_keys] do not assume distinct keys, unlike
    [BashMeaningTop.assoc_of_in]). *)
From CG Require Import Base.Prelude Model.Ast Model.Dfa Model.Tables Model.BashSem.
From CG Require Import Spec.Lang.
From CG Require Import Proofs.TablesSound Proofs.BashMeaningTop.

(** within-word automata with the same language under the same level are not alternatives at a
    state: their transitions lead to the same state *)
Definition subs_deterministic (c : cdfa) : Prop :=
  forall s k k' l t t', trans_on (c_main c) s (ISub k l) t -> trans_on (c_main c) s (ISub k' l) t' ->
    (forall v, Lang.waccepts (sub_dfa c k) v <-> Lang.waccepts (sub_dfa c k') v) -> t = t'.

Definition sub_orders_ok (c : cdfa) (os : list (N * list (string * string))) : Prop :=
  forall pi sd, nthN (c_subs c) pi = Some sd ->
    NoDup (match assocN pi os with Some o => o | None => [] end)
    /\ valid_literal_order sd (match assocN pi os with Some o => o | None => [] end) = true.

Lemma replace_val_in {V} k (v : V) l x : In x (replace_val k v l) -> x = (k, v) \/ In x l.
Proof.
  induction l as [| [k' v'] r IH]; cbn [replace_val]; intro H; [destruct H |].
  destruct (N.eqb k k').
  - destruct H as [H | H]; [left; symmetry; exact H | right; right; exact H].
  - destruct H as [H | H]; [right; left; exact H |]. destruct (IH H) as [E | E]; [left; exact E | right; right; exact E].
Qed.

Lemma replace_val_keys {V} k (v : V) l : map fst (replace_val k v l) = map fst l.
Proof.
  induction l as [| [k' v'] r IH]; cbn [replace_val]; [reflexivity |].
  destruct (N.eqb k k') eqn:E; cbn [map fst]; [apply N.eqb_eq in E; subst; reflexivity | rewrite IH; reflexivity].
Qed.

Lemma assoc_of_sub {V} (l : list (N * V)) x : In x (assoc_of l) -> In x l.
Proof.
  unfold assoc_of.
  assert (G : forall (l : list (N * V)) acc, In x (fold_left (fun acc kv => match assocN (fst kv) acc with
                                                      | Some _ => replace_val (fst kv) (snd kv) acc
                                                      | None => bucket_insert (fst kv) (snd kv) acc
                                                      end) l acc) -> In x acc \/ In x l).
  { induction l0 as [| [k v] l0 IH]; intros acc H; cbn [fold_left] in H; [left; exact H |]. cbn [fst snd] in H.
    destruct (IH _ H) as [H1 | H1]; [| right; right; exact H1].
    destruct (assocN k acc).
    - apply replace_val_in in H1. destruct H1 as [E | H1]; [right; left; symmetry; exact E | left; exact H1].
    - apply bucket_insert_in in H1. destruct H1 as [E | H1]; [right; left; symmetry; exact E | left; exact H1]. }
  intro H. destruct (G l [] H) as [[] | H1]. exact H1.
Qed.

Lemma assoc_of_keys {V} (l : list (N * V)) k : In k (map fst l) -> In k (map fst (assoc_of l)).
Proof.
  unfold assoc_of.
  assert (G : forall (l : list (N * V)) acc, In k (map fst acc) \/ In k (map fst l) ->
              In k (map fst (fold_left (fun acc kv => match assocN (fst kv) acc with
                                                      | Some _ => replace_val (fst kv) (snd kv) acc
                                                      | None => bucket_insert (fst kv) (snd kv) acc
                                                      end) l acc))).
  { induction l0 as [| [k0 v0] l0 IH]; intros acc H; cbn [fold_left]; [destruct H as [H | []]; exact H |]. cbn [fst snd].
    apply IH. destruct H as [H | [H | H]]; [| | right; exact H].
    - left. destruct (assocN k0 acc); [rewrite replace_val_keys; exact H |].
      apply in_map_iff in H. destruct H as [[k1 v1] [E H]]. apply in_map_iff. exists (k1, v1). split; [exact E | apply bucket_insert_in; right; exact H].
    - cbn [fst] in H. subst k0. left. destruct (assocN k acc) eqn:Ea.
      + rewrite replace_val_keys. apply assocN_In in Ea. apply in_map_iff. exists (k, v). split; [reflexivity | exact Ea].
      + apply in_map_iff. exists (k, v0). split; [reflexivity | apply bucket_insert_in; left; reflexivity]. }
  intro H. apply G. right; exact H.
Qed.

