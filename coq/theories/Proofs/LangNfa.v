(** On-the-fly determinisation and the product exploration [explore] are sound. *)
From CG Require Import Base.Prelude Model.Ast Spec.Lang.

Section NfaFacts.
  Variable B : Type.
  Variable a : nfa B.
  Hypothesis eqb_spec : forall x y, n_eqb a x y = true <-> x = y.

  Definition sacc (q : list (ns a)) (w : list B) : Prop := exists s, In s q /\ nfa_acc a s w.

  Definition seq_set (p q : list (ns a)) : Prop := forall s, In s p <-> In s q.

  Lemma seq_refl : forall p, seq_set p p.
  Proof. intros p s. tauto. Qed.

  Lemma seq_trans : forall p q r, seq_set p q -> seq_set q r -> seq_set p r.
  Proof. intros p q r H1 H2 s. rewrite (H1 s). apply H2. Qed.

  Lemma seq_sym : forall p q, seq_set p q -> seq_set q p.
  Proof. intros p q H s. symmetry. apply H. Qed.

  Lemma mem_st_spec : forall s l, mem_st B a s l = true <-> In s l.
  Proof.
    intros s l. unfold mem_st. rewrite existsb_exists. split.
    - intros [x [Hin E]]. apply eqb_spec in E. subst. exact Hin.
    - intros Hin. exists s. split; auto. apply eqb_spec. reflexivity.
  Qed.

  Lemma In_dedup : forall l s, In s (dedup a l) <-> In s l.
  Proof.
    induction l as [|x r IH]; simpl; intros s; [tauto|].
    destruct (mem_st B a x r) eqn:E.
    - rewrite IH. split; auto. intros [H|H]; auto. subst. apply mem_st_spec. exact E.
    - simpl. rewrite IH. tauto.
  Qed.

  Lemma incl_b_spec : forall p q, incl_b B a p q = true <-> (forall s, In s p -> In s q).
  Proof.
    intros p q. unfold incl_b. rewrite forallb_forall. split; intros H s Hs.
    - apply mem_st_spec. auto.
    - apply mem_st_spec. auto.
  Qed.

  Lemma set_eqb_spec : forall p q, set_eqb a p q = true <-> seq_set p q.
  Proof.
    intros p q. unfold set_eqb. rewrite andb_true_iff, !incl_b_spec. unfold seq_set.
    split.
    - intros [H1 H2] s. split; auto.
    - intros H. split; intros s; apply H.
  Qed.

  Lemma sacc_seq : forall p q w, seq_set p q -> (sacc p w <-> sacc q w).
  Proof.
    intros p q w H. unfold sacc. split; intros [s [Hs Ha]]; exists s; split; auto; apply H; auto.
  Qed.

  Lemma dstep_In : forall q b s, In s (dstep a q b) <-> exists t, In t q /\ In s (n_delta a t b).
  Proof.
    intros q b s. unfold dstep. rewrite In_dedup, in_flat_map. tauto.
  Qed.

  Lemma dstep_seq : forall p q b, seq_set p q -> seq_set (dstep a p b) (dstep a q b).
  Proof.
    intros p q b H s. rewrite !dstep_In. split; intros [t [Ht Hs]]; exists t; split; auto; apply H; auto.
  Qed.

  Lemma dstep_spec : forall q b w, sacc (dstep a q b) w <-> sacc q (b :: w).
  Proof.
    intros q b w. unfold sacc. split.
    - intros [s [Hs Ha]]. apply dstep_In in Hs. destruct Hs as [t [Ht Hs]].
      exists t. split; auto. simpl. exists s. auto.
    - intros [t [Ht Ha]]. simpl in Ha. destruct Ha as [s [Hs Ha]].
      exists s. split; auto. apply dstep_In. exists t. auto.
  Qed.

  Lemma dfin_spec : forall q, dfin a q = true <-> sacc q [].
  Proof.
    intros q. unfold dfin, sacc. rewrite existsb_exists. simpl. tauto.
  Qed.

  Lemma dfin_seq : forall p q, seq_set p q -> dfin a p = dfin a q.
  Proof.
    intros p q H. apply eq_true_iff_eq. rewrite !dfin_spec. apply sacc_seq. exact H.
  Qed.

  Definition drun (q : list (ns a)) (w : list B) : list (ns a) := fold_left (dstep a) w q.

  Lemma drun_spec : forall w q, dfin a (drun q w) = true <-> sacc q w.
  Proof.
    induction w as [|b w IH]; intros q; simpl.
    - apply dfin_spec.
    - rewrite IH. apply dstep_spec.
  Qed.

  Lemma drun_app : forall u v q, drun q (u ++ v) = drun (drun q u) v.
  Proof. intros. unfold drun. apply fold_left_app. Qed.

  Lemma nfa_lang_sacc : forall w, nfa_lang a w <-> sacc (dedup a (n_init a)) w.
  Proof.
    intros w. unfold nfa_lang, sacc. split; intros [s [Hs Ha]]; exists s; split; auto;
      apply In_dedup; auto.
  Qed.
End NfaFacts.
Arguments sacc {B} a q w.
Arguments seq_set {B} a p q.
Arguments drun {B} a q w.

Section ExploreFacts.
  Variable B : Type.
  Variables x y : nfa B.
  Variable letters : list B.
  Hypothesis xeqb : forall s t, n_eqb x s t = true <-> s = t.
  Hypothesis yeqb : forall s t, n_eqb y s t = true <-> s = t.

  Notation pairs := (list (list (ns x) * list (ns y))).

  Definition covered (p : list (ns x)) (q : list (ns y)) (D : pairs) : Prop :=
    exists p' q', In (p', q') D /\ seq_set x p p' /\ seq_set y q q'.

  Definition closed (D : pairs) : Prop :=
    forall p q, In (p, q) D ->
      dfin x p = dfin y q /\
      forall b, In b letters -> covered (dstep x p b) (dstep y q b) D.

  Lemma covered_mono : forall p q D D', (forall d, In d D -> In d D') -> covered p q D -> covered p q D'.
  Proof. intros p q D D' H [p' [q' [Hin [H1 H2]]]]. exists p', q'. auto. Qed.

  Lemma covered_self : forall p q D, In (p, q) D -> covered p q D.
  Proof. intros p q D H. exists p, q. split; auto. split; apply seq_refl. Qed.

  Lemma pair_seen_spec : forall p q D, pair_seen B x y p q D = true <-> covered p q D.
  Proof.
    intros p q D. unfold pair_seen, covered. rewrite existsb_exists. split.
    - intros [[p' q'] [Hin E]]. simpl in E. apply andb_true_iff in E. destruct E as [E1 E2].
      apply (set_eqb_spec B x xeqb) in E1. apply (set_eqb_spec B y yeqb) in E2.
      exists p', q'. auto.
    - intros [p' [q' [Hin [H1 H2]]]]. exists (p', q'). split; auto. simpl.
      apply andb_true_iff. split; [apply (set_eqb_spec B x xeqb)|apply (set_eqb_spec B y yeqb)]; auto.
  Qed.

  (** a closed set of pairs is a bisimulation: covered pairs accept the same words *)
  Lemma closed_equiv : forall D, closed D -> forall w, Forall (fun b => In b letters) w ->
    forall p q, covered p q D -> (sacc x p w <-> sacc y q w).
  Proof.
    intros D HD w Hw. induction Hw as [|b w Hb Hw IH]; intros p q [p' [q' [Hin [H1 H2]]]].
    - rewrite <- !dfin_spec. destruct (HD _ _ Hin) as [E _].
      rewrite (dfin_seq B x p p' H1), (dfin_seq B y q q' H2), E. tauto.
    - rewrite <- (dstep_spec B x xeqb), <- (dstep_spec B y yeqb). apply IH.
      destruct (HD _ _ Hin) as [_ HC]. destruct (HC b Hb) as [p2 [q2 [Hin2 [H3 H4]]]].
      exists p2, q2. split; auto. split.
      + eapply seq_trans; [apply (dstep_seq B x xeqb); exact H1|exact H3].
      + eapply seq_trans; [apply (dstep_seq B y yeqb); exact H2|exact H4].
  Qed.

  Definition qpairs (queue : list (list (ns x) * list (ns y) * list B)) : pairs := map fst queue.

  Definition inv (done : pairs) (queue : list (list (ns x) * list (ns y) * list B)) : Prop :=
    forall p q, In (p, q) done ->
      dfin x p = dfin y q /\
      forall b, In b letters -> covered (dstep x p b) (dstep y q b) (done ++ qpairs queue).

  Lemma explore_equal : forall fuel queue done,
    explore B x y letters fuel queue done = Equal ->
    inv done queue ->
    exists D, (forall d, In d done -> In d D) /\
              (forall p q, In (p, q) (qpairs queue) -> covered p q D) /\
              closed D.
  Proof.
    induction fuel as [|f IH]; intros queue done HE HI; simpl in HE; [discriminate|].
    destruct queue as [|[[p q] w] rest].
    - exists done. split; [auto|]. split; [intros ? ? []|].
      intros p q Hin. destruct (HI _ _ Hin) as [E HC]. split; auto.
      intros b Hb. specialize (HC b Hb). simpl in HC. rewrite app_nil_r in HC. exact HC.
    - destruct (pair_seen B x y p q done) eqn:Seen.
      + apply pair_seen_spec in Seen.
        destruct (IH rest done HE) as [D [HD1 [HD2 HD3]]].
        * intros p1 q1 Hin. destruct (HI _ _ Hin) as [E HC]. split; auto.
          intros b Hb. destruct (HC b Hb) as [p2 [q2 [Hin2 [H1 H2]]]].
          apply in_app_iff in Hin2. destruct Hin2 as [Hin2|Hin2].
          -- exists p2, q2. split; [apply in_app_iff; auto|auto].
          -- simpl in Hin2. destruct Hin2 as [Hin2|Hin2].
             ++ inversion Hin2; subst p2 q2.
                destruct Seen as [p3 [q3 [Hin3 [H3 H4]]]].
                exists p3, q3. split; [apply in_app_iff; auto|].
                split; eapply seq_trans; eauto.
             ++ exists p2, q2. split; [apply in_app_iff; auto|auto].
        * exists D. split; auto. split; auto.
          intros p1 q1 Hin. simpl in Hin. destruct Hin as [Hin|Hin].
          -- inversion Hin; subst. eapply covered_mono; [exact HD1|exact Seen].
          -- apply HD2. exact Hin.
      + destruct (negb (Bool.eqb (dfin x p) (dfin y q))) eqn:Acc; [discriminate|].
        apply negb_false_iff in Acc. apply eqb_prop in Acc.
        set (succs := map (fun b => (dstep x p b, dstep y q b, b :: w)) letters) in *.
        destruct (IH (rest ++ succs) ((p, q) :: done) HE) as [D [HD1 [HD2 HD3]]].
        * intros p1 q1 Hin. simpl in Hin. destruct Hin as [Hin|Hin].
          -- inversion Hin; subst p1 q1. split; auto.
             intros b Hb. apply covered_self. apply in_app_iff. right.
             unfold qpairs. rewrite map_app. apply in_app_iff. right.
             unfold succs. rewrite map_map. simpl. apply in_map_iff. exists b. auto.
          -- destruct (HI _ _ Hin) as [E HC]. split; auto.
             intros b Hb. eapply covered_mono; [|apply (HC b Hb)].
             intros d Hd. apply in_app_iff in Hd. apply in_app_iff.
             destruct Hd as [Hd|Hd]; [left; right; exact Hd|].
             simpl in Hd. destruct Hd as [Hd|Hd]; [left; left; exact Hd|].
             right. unfold qpairs. rewrite map_app. apply in_app_iff. left. exact Hd.
        * exists D. split; [intros d Hd; apply HD1; right; exact Hd|]. split; auto.
          intros p1 q1 Hin. simpl in Hin. destruct Hin as [Hin|Hin].
          -- inversion Hin; subst. apply covered_self. apply HD1. left. reflexivity.
          -- apply HD2. unfold qpairs. rewrite map_app. apply in_app_iff. auto.
  Qed.

  Theorem equiv_nfa_equal : forall fuel,
    equiv_nfa x y letters fuel = Equal ->
    forall w, Forall (fun b => In b letters) w -> (nfa_lang x w <-> nfa_lang y w).
  Proof.
    intros fuel HE w Hw. unfold equiv_nfa in HE.
    destruct (explore_equal _ _ _ HE) as [D [_ [HD2 HD3]]].
    - intros p q [].
    - rewrite (nfa_lang_sacc B x xeqb), (nfa_lang_sacc B y yeqb).
      apply (closed_equiv D HD3 w Hw). apply HD2. simpl. auto.
  Qed.

  Lemma explore_differ : forall fuel queue done w p0 q0,
    explore B x y letters fuel queue done = Differ w ->
    (forall p q v, In (p, q, v) queue ->
       p = drun x p0 (rev v) /\ q = drun y q0 (rev v) /\ Forall (fun b => In b letters) v) ->
    dfin x (drun x p0 w) <> dfin y (drun y q0 w) /\ Forall (fun b => In b letters) w.
  Proof.
    induction fuel as [|f IH]; intros queue done w p0 q0 HE HQ; simpl in HE; [discriminate|].
    destruct queue as [|[[p q] v] rest]; [discriminate|].
    destruct (pair_seen B x y p q done).
    - apply (IH _ _ _ _ _ HE). intros p1 q1 v1 Hin. apply HQ. right. exact Hin.
    - destruct (negb (Bool.eqb (dfin x p) (dfin y q))) eqn:Acc.
      + inversion HE; subst w. destruct (HQ p q v (or_introl eq_refl)) as [Ep [Eq Hv]].
        subst p q. split.
        * intros E. rewrite E in Acc. rewrite eqb_reflx in Acc. discriminate.
        * apply Forall_rev. exact Hv.
      + apply (IH _ _ _ _ _ HE). intros p1 q1 v1 Hin. apply in_app_iff in Hin.
        destruct Hin as [Hin|Hin]; [apply HQ; right; exact Hin|].
        apply in_map_iff in Hin. destruct Hin as [b [E Hb]]. inversion E; subst.
        destruct (HQ p q v (or_introl eq_refl)) as [Ep [Eq Hv]]. subst p q.
        simpl. rewrite !drun_app. simpl. auto.
  Qed.

  Theorem equiv_nfa_differ : forall fuel w,
    equiv_nfa x y letters fuel = Differ w ->
    ~ (nfa_lang x w <-> nfa_lang y w) /\ Forall (fun b => In b letters) w.
  Proof.
    intros fuel w HE. unfold equiv_nfa in HE.
    destruct (explore_differ _ _ _ _ (dedup x (n_init x)) (dedup y (n_init y)) HE) as [H1 H2].
    - intros p q v [Hin|[]]. inversion Hin; subst. simpl. auto.
    - split; auto. intros H. apply H1. apply eq_true_iff_eq.
      rewrite (drun_spec B x xeqb), (drun_spec B y yeqb).
      rewrite <- (nfa_lang_sacc B x xeqb), <- (nfa_lang_sacc B y yeqb). exact H.
  Qed.
End ExploreFacts.
