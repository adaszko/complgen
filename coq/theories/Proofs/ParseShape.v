(** The shape of the parser's image, for arbitrary input and every lexer configuration:
    [parse_with c s = Ok g -> forallb stmt_shape g = true]; in particular every [|] and [||] of a
    parsed grammar has an operand ([grammar_alts_nonempty], the hypothesis of [C02_total] and
    its companions in Props/C02.v). *)
From CG Require Import Base.Prelude Proofs.ListFacts Model.Ast Model.Lexer Model.Parser Spec.Printer Spec.Shape
  Proofs.LexBase Proofs.LexBlanks Proofs.LexTerminal Proofs.ExprDefs Proofs.ParseDeriv Proofs.TreeFacts Proofs.CheckTree.
From CGgen Require Import Consts.

Section Flat.
  Variables lit nt cmd : string -> bool.
  Let G := gshapeb lit nt cmd.

  Lemma gshapeb_list : forall w o cs sp, G w (mk_op o cs sp) = Nat.leb 2 (List.length cs) && forallb (G w) cs.
  Proof. intros w []; reflexivity. Qed.

  Lemma flatten_shape : forall w e, G w e = true -> G true (flatten_expr e) = true.
  Proof.
    assert (L : forall w cs, Forall (fun x => forall w, G w x = true -> G true (flatten_expr x) = true) cs ->
                Nat.leb 2 (List.length cs) && forallb (G w) cs = true ->
                Nat.leb 2 (List.length (map flatten_expr cs)) && forallb (G true) (map flatten_expr cs) = true).
    { intros w cs H W. apply andb_true_iff in W as [Len F]. rewrite map_length, Len.
      rewrite forallb_map. eapply forallb_impl_Forall; [|exact F]. eapply Forall_impl; [|exact H]. intros a Ha. apply Ha. }
    intros w e. revert w. induction e using expr_ind_op; intros w W; cbn [flatten_expr gshapeb] in *; eauto.
    - rewrite gshapeb_list in W. destruct o; exact (L w cs H W).
    - apply andb_true_iff in W as [_ W]. destruct e; try discriminate. exact (L true children H W).
  Qed.
End Flat.

Lemma shape_alts : forall e w, shapeb w e = true -> alts_nonempty e = true.
Proof.
  unfold shapeb. induction e using expr_ind_op; intros w W; cbn [gshapeb alts_nonempty] in *; eauto.
  - rewrite gshapeb_list in W. apply andb_true_iff in W as [L F].
    assert (X : forallb alts_nonempty cs = true)
      by (rewrite forallb_forall in *; rewrite Forall_forall in H; intros x Hx; eapply H; eauto).
    destruct o; cbn [mk_op alts_nonempty]; [exact X|destruct cs; [discriminate|exact X]..].
  - apply andb_true_iff in W as [_ W3]. destruct e; try discriminate.
    apply (IHe true). exact W3.
Qed.

Section Shape.
  Variable c : cfg.
  Variables lit nt cmd : string -> bool.
  Hypothesis Hlit : forall i t i', terminal c i = Ok (t, i') -> lit t = true.
  Hypothesis Hnt : forall i nm sp i', nonterm i = Ok ((nm, sp), i') -> nt nm = true.
  Hypothesis Hcmd : forall i x i', triple_bracket_command i = Ok (x, i') -> cmd x = true.

  Let G := gshapeb lit nt cmd.

  Lemma parsed_shape :
    (forall i e i', Parsed c i e i' -> G false e = true)
    /\ (forall o i l i', Items c o i l i' -> forallb (G false) l = true).
  Proof.
    apply Parsed_Items_ind; unfold G; cbn [gshapeb]; auto.
    - intros i t i1 d i2 Ht _. rewrite (Hlit _ _ _ Ht). reflexivity.
    - intros i nm sp i1 Hn. rewrite (Hnt _ _ _ _ Hn). reflexivity.
    - intros i x i1 Hc. rewrite (Hcmd _ _ _ Hc). reflexivity.
    - intros i e i1 es i2 _ S1 _ S2 Ne. destruct es as [|m more]; [congruence|]. cbn [forallb] in S2.
      apply andb_true_iff in S2 as [Sm Smore].
      cbn [map List.length Nat.leb forallb negb andb N.eqb].
      rewrite (flatten_shape _ _ _ _ _ S1), (flatten_shape _ _ _ _ _ Sm). cbn [andb].
      rewrite forallb_map. eapply forallb_impl_Forall; [|exact Smore]. apply Forall_forall. intros x _. apply flatten_shape.
    - intros o i e i1 es i2 _ S1 _ S2 Ne. destruct es as [|m more]; [congruence|].
      rewrite gshapeb_list. cbn [List.length Nat.leb forallb andb]. rewrite S1. exact S2.
    - intros o i j e i1 es i2 _ _ S1 _ S2. cbn [forallb]. rewrite S1. exact S2.
  Qed.

  Definition stmt_expr (st : statement) : expr :=
    match st with CallVariant _ _ e => e | NontermDef _ _ _ rhs => rhs end.

  Lemma statement_cases : forall i st i', ParsedStmt c i st i' ->
      G false (stmt_expr st) = true /\
      match st with
      | CallVariant name _ _ => exists j, terminal c i = Ok (name, j)
      | NontermDef name nsp sh _ => exists j, nonterm_def i = Ok ((name, nsp, sh), j)
      end.
  Proof. intros i st i' []; (split; [eapply parsed_shape; eauto|eauto]). Qed.
End Shape.

Lemma terminal_nonempty : forall c i t i', terminal c i = Ok (t, i') -> nonempty t = true.
Proof. intros c i t i' H. apply terminal_ok in H as [N _]. destruct t; [congruence|reflexivity]. Qed.

Lemma take_while1_nonempty : forall p i a i', take_while1 p i = Ok (a, i') -> nonempty a = true.
Proof. intros p i a i' H. apply take_while1_ok in H as [N _]. destruct a; [congruence|reflexivity]. Qed.

Lemma nonterm_nonempty : forall i nm sp i', nonterm i = Ok ((nm, sp), i') -> nonempty nm = true.
Proof.
  intros i nm sp i' H. unfold nonterm in H. dobind H. dobind H. dobind H. inversion H; subst.
  eapply take_while1_nonempty; eauto.
Qed.

Lemma nonterm_def_nonempty : forall i nm nsp sh j, nonterm_def i = Ok ((nm, nsp, sh), j) ->
    nonempty nm = true /\ match sh with Some (s, _) => nonempty s = true | None => True end.
Proof.
  intros i nm nsp sh j ND. unfold nonterm_def in ND.
  destruct (nonterm_specialization i) as [[[[[nm' nsp'] sh'] ssp'] j']| | |] eqn:Sp; try discriminate ND.
  - inversion ND; subst. unfold nonterm_specialization in Sp.
    dobind Sp. dobind Sp. dobind Sp. dobind Sp. dobind Sp. inversion Sp; subst.
    split; eapply take_while1_nonempty; eauto.
  - destruct (nonterm i) as [[[nm' nsp'] j']| | |] eqn:N; try discriminate ND. inversion ND; subst.
    split; auto. eapply nonterm_nonempty; eauto.
Qed.

Theorem parse_shape : forall c s g, parse_with c s = Ok g -> forallb stmt_shape g = true.
Proof.
  intros c s g H. apply forallb_forall. apply Forall_forall.
  eapply Forall_impl; [|exact (parse_with_parsed c s g H)]. intros st (i & i' & Hs).
  destruct (statement_cases c nonempty nonempty (fun _ => true) (terminal_nonempty c) nonterm_nonempty
              (fun _ _ _ _ => eq_refl) i st i' Hs) as [Se Sn].
  destruct st as [name nsp e|name nsp sh rhs]; cbn [stmt_shape stmt_expr] in *.
  - destruct Sn as [j Sn]. rewrite (terminal_nonempty _ _ _ _ Sn). exact Se.
  - destruct Sn as [j Sn]. destruct (nonterm_def_nonempty _ _ _ _ _ Sn) as [N1 N2]. rewrite N1.
    destruct sh as [[sn ssp]|]; [rewrite N2|]; exact Se.
Qed.

(** in the form the regex/automaton totality theorems ask for *)
Theorem parse_alts_nonempty : forall c s g, parse_with c s = Ok g -> grammar_alts_nonempty g = true.
Proof.
  intros c s g H. apply parse_shape in H. unfold grammar_alts_nonempty.
  rewrite forallb_forall in *. intros st Hst. specialize (H st Hst).
  destruct st as [nm nsp e|nm nsp sh rhs]; cbn [stmt_shape] in H.
  - apply andb_true_iff in H as [_ H]. eapply shape_alts; eauto.
  - apply andb_true_iff in H as [_ H]. eapply shape_alts; eauto.
Qed.
