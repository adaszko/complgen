(** C09, second half, at the level of the specification: every candidate the [|] variant of a grammar offers is
    also offered by the [||] grammar unless a candidate of a strictly earlier level extends the typed prefix.

    [undercut e en ws p] lists (executably) the candidates of [e] that an earlier level undercuts, on the two tiers
    of [Spec.Meaning]: among the items expected as whole words ([state_cands], the levels of the [||] branches) and,
    inside a within-word expression, among its continuations ([wcands], the levels of the pieces). *)
From CG Require Import Base.Prelude Base.Facts Proofs.ListFacts Model.Ast Model.Check Spec.Rx Spec.Meaning Spec.Undercut
     Proofs.RxFacts Proofs.MeaningFacts Proofs.MeaningLevels.

Lemma has_lower_false l cs : has_lower l cs = false -> forall l' c', In (l', c') cs -> l <= l'.
Proof.
  intros H l' c' Hin. destruct (N.ltb l' l) eqn:E; [|apply N.ltb_ge in E; exact E].
  assert (has_lower l cs = true) as K.
  { unfold has_lower. apply existsb_exists. exists (l', c'). split; [exact Hin|exact E]. }
  congruence.
Qed.

Lemma has_lower_true l cs : has_lower l cs = true -> exists l' c', In (l', c') cs /\ l' < l.
Proof.
  unfold has_lower. intros H. apply existsb_exists in H as [[l' c'] [Hin E]]. cbn [fst] in E.
  apply N.ltb_lt in E. now exists l', c'.
Qed.

Lemma lowest_or_lower cs l c : In (l, c) cs -> In c (lowest cs) \/ has_lower l cs = true.
Proof.
  intros Hin. destruct (has_lower l cs) eqn:E; [now right|left].
  apply (lowest_offers cs l c Hin). now apply has_lower_false.
Qed.

(** candidate texts do not depend on levels and descriptions *)
Definition item_raw (en : env) (a : leaf) (p : string) : list string :=
  match a with
  | LLit t _ _ => if String.prefix p (append t " ") then [append t " "] else []
  | LCmd c _ => filter (String.prefix p) (candidates en c)
  | LAny => []
  | LSub x _ => filter (fun o => negb (String.eqb o p)) (map snd (wcands en x p))
  end.

Lemma map_snd_filter {A B} (f : B -> bool) (l : list (A * B)) :
  map snd (filter (fun c => f (snd c)) l) = filter f (map snd l).
Proof. induction l as [|x l IH]; [reflexivity|]. cbn. destruct (f (snd x)); cbn; now rewrite IH. Qed.

Lemma wcands_erase en x p : map snd (wcands en (rmap erase_w x) p) = map snd (wcands en x p).
Proof.
  unfold wcands, wsplits_of. rewrite wsplits_erase, flat_map_map, !map_flat_map.
  apply flat_map_ext. intros [[e' d] r]. unfold erase_split. cbn [fst snd].
  rewrite rmap_lf, flat_map_map, !map_flat_map.
  apply flat_map_ext. intros [a k]. cbn [fst snd].
  destruct a as [t dd lv|c lv|]; cbn [erase_w]; [|rewrite !map_map; reflexivity|reflexivity].
  destruct (String.prefix r t); reflexivity.
Qed.

Lemma item_raw_erase en a p : item_raw en (erase_l a) p = item_raw en a p.
Proof. destruct a; cbn [erase_l item_raw]; try reflexivity. now rewrite wcands_erase. Qed.

Lemma proper_wcands_raw en x p l c :
  In (l, c) (proper_wcands en x p) -> In c (filter (fun o => negb (String.eqb o p)) (map snd (wcands en x p))).
Proof.
  unfold proper_wcands. intros H. rewrite <- (map_snd_filter (fun o => negb (String.eqb o p))).
  apply in_map_iff. exists (l, c). split; [reflexivity|exact H].
Qed.

Lemma raw_proper_wcands en x p c :
  In c (filter (fun o => negb (String.eqb o p)) (map snd (wcands en x p))) -> exists l, In (l, c) (proper_wcands en x p).
Proof.
  rewrite <- (map_snd_filter (fun o => negb (String.eqb o p))). intros H.
  apply in_map_iff in H as ([l c'] & E & H). cbn [snd] in E. subst c'. now exists l.
Qed.

Lemma item_cands_raw en a p l c : In (l, c) (item_cands en a p) -> In c (item_raw en a p).
Proof.
  destruct a as [t d lv|cm lv| |x lv]; cbn [item_cands item_raw]; intros H.
  - destruct (String.prefix p (append t " ")); [|destruct H]. destruct H as [H|[]]. injection H as _ <-. now left.
  - apply in_map_iff in H as (o & E & Ho). now injection E as _ <-.
  - destruct H.
  - apply in_map_iff in H as (o & E & Ho). injection E as _ <-.
    apply wproper_incl in Ho as (l0 & Ho & Hne). apply filter_In. split.
    + apply in_map_iff. exists (l0, o). split; [reflexivity|exact Ho].
    + apply negb_true_iff. now apply String.eqb_neq.
Qed.

Lemma raw_offered_or_undercut en s p a k c0 :
  In (a, k) (moves s) -> In c0 (item_raw en a p) ->
  In c0 (lowest (state_cands en s p)) \/ In c0 (undercut_item en s p a).
Proof.
  intros Hmv Hraw.
  assert (Top : forall l, In (l, c0) (item_cands en a p) ->
                          In c0 (lowest (state_cands en s p)) \/ has_lower l (state_cands en s p) = true).
  { intros l Hl. apply lowest_or_lower. unfold state_cands. apply in_flat_map. exists (a, k). split; [exact Hmv|exact Hl]. }
  destruct a as [t d lv|cm lv| |x lv]; cbn [item_raw] in Hraw.
  - destruct (String.prefix p (append t " ")) eqn:E; [|destruct Hraw]. destruct Hraw as [<-|[]].
    assert (Hl : In (lv, append t " ") (item_cands en (LLit t d lv) p)) by (cbn [item_cands]; rewrite E; now left).
    destruct (Top lv Hl) as [H|H]; [now left|right].
    unfold undercut_item. apply in_map_iff. exists (lv, append t " "). split; [reflexivity|].
    apply filter_In. split; [exact Hl|exact H].
  - assert (Hl : In (lv, c0) (item_cands en (LCmd cm lv) p)).
    { cbn [item_cands]. apply in_map_iff. exists c0. split; [reflexivity|exact Hraw]. }
    destruct (Top lv Hl) as [H|H]; [now left|right].
    unfold undercut_item. apply in_map_iff. exists (lv, c0). split; [reflexivity|].
    apply filter_In. split; [exact Hl|exact H].
  - destruct Hraw.
  - destruct (raw_proper_wcands en x p c0 Hraw) as [lw Hw].
    destruct (lowest_or_lower _ lw c0 Hw) as [Hlow|Hlow].
    + assert (Hl : In (lv, c0) (item_cands en (LSub x lv) p)).
      { cbn [item_cands]. apply in_map_iff. exists c0. split; [reflexivity|exact Hlow]. }
      destruct (Top lv Hl) as [H|H]; [now left|right].
      unfold undercut_item. apply in_map_iff. exists (lw, c0). split; [reflexivity|].
      apply filter_In. split; [exact Hw|]. cbn [fst]. rewrite H. apply orb_true_r.
    + right. unfold undercut_item. apply in_map_iff. exists (lw, c0). split; [reflexivity|].
      apply filter_In. split; [exact Hw|]. cbn [fst]. now rewrite Hlow.
Qed.

Section Bar.
  Variables (en : env) (e : expr) (ws : list string) (p : string).
  Let s := run en (start (propagate e 0)) ws.
  Let s' := run en (start (propagate (bar_of_barbar e) 0)) ws.

  Lemma bar_item a' : In a' (map fst (moves s')) -> exists a, In a (map fst (moves s)) /\ erase_l a = erase_l a'.
  Proof.
    intros H. apply (expected_bar_of_barbar en e ws (erase_l a')). exists a'. split; [exact H|reflexivity].
  Qed.

  Lemma item_bar a : In a (map fst (moves s)) -> exists a', In a' (map fst (moves s')) /\ erase_l a' = erase_l a.
  Proof.
    intros H. apply (expected_bar_of_barbar en e ws (erase_l a)). exists a. split; [exact H|reflexivity].
  Qed.

  Theorem bar_raw_monotone c0 :
    In c0 (lowest (state_cands en s' p)) ->
    In c0 (lowest (state_cands en s p)) \/ In c0 (flat_map (undercut_item en s p) (map fst (moves s))).
  Proof.
    intros H. apply lowest_incl in H. apply in_map_iff in H as ([l0 c1] & E & H). cbn [snd] in E. subst c1.
    unfold state_cands in H. apply in_flat_map in H as ([a' k'] & Hmv' & Hc). cbn [fst] in Hc.
    apply item_cands_raw in Hc.
    destruct (bar_item a') as (a & Ha & Ee).
    { apply in_map_iff. exists (a', k'). split; [reflexivity|exact Hmv']. }
    assert (Hraw : In c0 (item_raw en a p)).
    { rewrite <- item_raw_erase, Ee, item_raw_erase. exact Hc. }
    pose proof Ha as Ha0. apply in_map_iff in Ha as ([a1 k] & E1 & Hmv). cbn [fst] in E1. subst a1.
    destruct (raw_offered_or_undercut en s p a k c0 Hmv Hraw) as [Hl|Hu]; [now left|right].
    apply in_flat_map. exists a. split; [exact Ha0|exact Hu].
  Qed.

  (** the typed word itself (a value or piece typed in full) is allowed in both or in neither *)
  Definition ident_item (a : leaf) : bool := match a with LSub x _ => widentical en x p | _ => false end.

  Lemma ident_item_erase a : ident_item (erase_l a) = ident_item a.
  Proof.
    destruct a; cbn [erase_l ident_item]; try reflexivity.
    unfold widentical.
    rewrite <- (existsb_map (fun o => String.eqb o p) snd (wcands en (rmap erase_w w) p)).
    rewrite <- (existsb_map (fun o => String.eqb o p) snd (wcands en w p)).
    now rewrite wcands_erase.
  Qed.

  Lemma state_identical_items st : state_identical en st p = existsb ident_item (map fst (moves st)).
  Proof. unfold state_identical. rewrite existsb_map. reflexivity. Qed.

  Lemma state_identical_bar : state_identical en s' p = state_identical en s p.
  Proof.
    rewrite !state_identical_items.
    destruct (existsb ident_item (map fst (moves s'))) eqn:E1; destruct (existsb ident_item (map fst (moves s))) eqn:E2;
      try reflexivity; exfalso.
    - apply existsb_exists in E1 as (a' & Ha' & Hi). destruct (bar_item a' Ha') as (a & Ha & Ee).
      assert (existsb ident_item (map fst (moves s)) = true) as K.
      { apply existsb_exists. exists a. split; [exact Ha|]. now rewrite <- ident_item_erase, Ee, ident_item_erase. }
      congruence.
    - apply existsb_exists in E2 as (a & Ha & Hi). destruct (item_bar a Ha) as (a' & Ha' & Ee).
      assert (existsb ident_item (map fst (moves s')) = true) as K.
      { apply existsb_exists. exists a'. split; [exact Ha'|]. now rewrite <- ident_item_erase, Ee, ident_item_erase. }
      congruence.
  Qed.

  Theorem complete_bar_monotone :
    match complete (propagate (bar_of_barbar e) 0) en ws p, complete (propagate e 0) en ws p with
    | None, None => True
    | Some (req', al'), Some (req, al) =>
      (forall c, In c req' -> In c req \/ In c (undercut (propagate e 0) en ws p))
      /\ (forall c, In c al' -> In c al \/ In c (undercut (propagate e 0) en ws p))
    | _, _ => False
    end.
  Proof.
    pose proof (matched_bar_of_barbar en e ws) as Hm. unfold matched in Hm.
    unfold complete, undercut. fold s s' in Hm |- *.
    destruct s' as [|k0' r0'] eqn:Es'; destruct s as [|k0 r0] eqn:Es; try discriminate; [exact I|].
    rewrite <- Es, <- Es'.
    assert (Req : forall c, In c (map (strip (e_wordbreaks en) p) (lowest (state_cands en s' p))) ->
                            In c (map (strip (e_wordbreaks en) p) (lowest (state_cands en s p)))
                            \/ In c (map (strip (e_wordbreaks en) p) (flat_map (undercut_item en s p) (map fst (moves s))))).
    { intros c Hc. apply in_map_iff in Hc as (c0 & <- & Hc0).
      destruct (bar_raw_monotone c0 Hc0) as [H|H]; [left|right]; now apply in_map. }
    split; [exact Req|].
    intros c Hc. rewrite map_app in Hc. apply in_app_or in Hc as [Hc|Hc].
    - destruct (Req c Hc) as [H|H]; [left|now right]. rewrite map_app. apply in_or_app. now left.
    - left. rewrite map_app. apply in_or_app. right. rewrite <- state_identical_bar. exact Hc.
  Qed.

  Theorem complete_bar_none :
    complete (propagate (bar_of_barbar e) 0) en ws p = None <-> complete (propagate e 0) en ws p = None.
  Proof.
    pose proof complete_bar_monotone as H.
    destruct (complete (propagate (bar_of_barbar e) 0) en ws p) as [[r' a']|];
      destruct (complete (propagate e 0) en ws p) as [[r a]|]; try contradiction; split; intros; try discriminate; reflexivity.
  Qed.
End Bar.

(** what membership in [undercut] means: a candidate of a strictly earlier level extends the typed word *)
Theorem undercut_meaning e en ws p c :
  In c (undercut e en ws p) ->
  let s := run en (start e) ws in
  exists a c0,
    In a (map fst (moves s)) /\ c = strip (e_wordbreaks en) p c0 /\ In c0 (item_raw en a p) /\
    ((exists l l' c', In (l, c0) (item_cands en a p) /\ In (l', c') (state_cands en s p) /\ l' < l
                      /\ String.prefix p c' = true)
     \/ (exists x l l' c', a = LSub x l /\ In (l', c') (state_cands en s p) /\ l' < l /\ String.prefix p c' = true)
     \/ (exists x l lw lw' c', a = LSub x l /\ In (lw, c0) (proper_wcands en x p) /\ In (lw', c') (proper_wcands en x p)
                               /\ lw' < lw /\ String.prefix p c' = true)).
Proof.
  intros H s. unfold undercut in H. fold s in H.
  apply in_map_iff in H as (c0 & <- & H). apply in_flat_map in H as (a & Ha & Hu).
  exists a, c0. split; [exact Ha|split; [reflexivity|]].
  destruct a as [t d lv|cm lv| |x lv]; unfold undercut_item in Hu.
  - apply in_map_iff in Hu as ([l c1] & E & Hf). cbn [snd] in E. subst c1.
    apply filter_In in Hf as [Hc Hl]. cbn [fst] in Hl. apply has_lower_true in Hl as (l' & c' & Hin & Hlt).
    split; [eapply item_cands_raw; eauto|]. left. exists l, l', c'. repeat split; try assumption.
    eapply state_cands_prefix; eauto.
  - apply in_map_iff in Hu as ([l c1] & E & Hf). cbn [snd] in E. subst c1.
    apply filter_In in Hf as [Hc Hl]. cbn [fst] in Hl. apply has_lower_true in Hl as (l' & c' & Hin & Hlt).
    split; [eapply item_cands_raw; eauto|]. left. exists l, l', c'. repeat split; try assumption.
    eapply state_cands_prefix; eauto.
  - apply in_map_iff in Hu as ([l c1] & E & Hf). apply filter_In in Hf as [[] _].
  - apply in_map_iff in Hu as ([lw c1] & E & Hf). cbn [snd] in E. subst c1.
    apply filter_In in Hf as [Hw Hl]. cbn [fst] in Hl.
    split; [cbn [item_raw]; eapply proper_wcands_raw; eauto|].
    apply orb_true_iff in Hl as [Hl|Hl].
    + right. right. apply has_lower_true in Hl as (lw' & c' & Hin & Hlt).
      exists x, lv, lw, lw', c'. repeat split; try assumption.
      unfold proper_wcands in Hin. apply filter_In in Hin as [Hin _]. eapply wcands_prefix; eauto.
    + right. left. apply has_lower_true in Hl as (l' & c' & Hin & Hlt).
      exists x, lv, l', c'. repeat split; try assumption. eapply state_cands_prefix; eauto.
Qed.
