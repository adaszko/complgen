(** C04, zsh: every printer of a data statement in [Model/EmitData.Z] is read back by the statement
    reader of [Spec/ScriptRead.v] (zsh: [declare] keywords, one-based states and literal ids,
    descriptions as C07 string constants, the compadd tables).  The lines are those of
    Proofs/BashCodec.v for the word "declare"; the variables carry the prefix of the templates. *)
From CG Require Import Base.Prelude Base.Facts Proofs.ListFacts Model.Ast Model.Dfa Model.Tpl Model.Quote Model.Tables Model.EmitBash Model.EmitData
     Spec.ShellDQ Spec.ScriptRead Proofs.QuoteRT Proofs.BashCodec.
From CGgen Require Import Consts TplZsh.
Open Scope N_scope.
Open Scope list_scope.

Definition zst := Z.st.

(** the two prefixes of the variables: none in the completion function, "subword_" in the wrappers *)
Definition pfx (p : string) : Prop := p = EmptyString \/ p = "subword_".

Lemma pfx_sub : pfx "subword_". Proof. right. reflexivity. Qed.
Lemma pfx_nil : pfx EmptyString. Proof. left. reflexivity. Qed.

Lemma pfx_vname p v : pfx p -> vname v -> vname (append p v).
Proof. intros [-> | ->] Hv; [exact Hv|]. split; [discriminate | apply (name_chars_append "subword_"); [reflexivity | apply Hv]]. Qed.

(** side conditions about a variable [p ++ v]: it is a name; what is decided by computing for each prefix *)
Ltac pname Hp := apply (pfx_vname _ _ Hp); vn.
Ltac pcase Hp := destruct Hp as [-> | ->]; reflexivity.

Definition zoff_row (row : N * list (N * N)) : N * list (N * N) :=
  (fst row + Z.st, map (fun q => (fst q, snd q + Z.st)) (snd row)).
Definition zoff_rows (m : list (N * list (N * N))) := map zoff_row m.
Definition zoff_pairs (l : list (N * N)) : list (N * N) := map (fun q => (fst q + Z.st, snd q + Z.st)) l.
Definition zoff_level (rows : list (N * list N)) : list (N * list N) := map (fun r => (fst r + Z.st, snd r)) rows.

Definition zmatch_stmts (p : string) (t : tables) : list stmt :=
  SAssoc (append p "literal_transitions") [] :: row_stmts (append p "literal_transitions") (zoff_rows (t_mlit t))
  ++ (match t_mcmd t with
      | Some m => SAssoc (append p "command_transitions") [] :: row_stmts (append p "command_transitions") (zoff_rows m)
      | None => []
      end)
  ++ (match t_mcompadd t with
      | Some m => SAssoc (append p "compadd_transitions") [] :: row_stmts (append p "compadd_transitions") (zoff_rows m)
      | None => []
      end)
  ++ (match t_mstar t with
      | Some l => [SAssoc (append p "star_transitions") (map (fun q => (fst q, [snd q])) (zoff_pairs l))]
      | None => []
      end).

(** the rows of a table, for a row template of the expected shape *)
Lemma zreads_rows tpl p v m :
  vname (append p v) -> is_descr_var (append p v) = false ->
  (forall a b, renderln [("prefix", p); ("0", a); ("transitions", b)] tpl
               = ("    " ++ p ++ v ++ "[" ++ a ++ "]=""(" ++ b ++ ")""" ++ nl)%string) ->
  reads_lines Zsh (Z.rows tpl p m) (row_stmts (append p v) (zoff_rows m)).
Proof.
  intros Hv Hd Ht. unfold Z.rows, row_stmts, zoff_rows. rewrite map_map. apply reads_map. intros row _.
  eapply reads_tpl; [exact (bz_reads_row bz_zsh p v _ _ Hv Hd)|]. rewrite Ht. unfold row_line. cbn [zoff_row fst snd].
  rewrite map_map. reflexivity.
Qed.

Lemma zreads_match p t : pfx p -> reads_lines Zsh (Z.write_match_transitions p t) (zmatch_stmts p t).
Proof.
  intros Hp. unfold Z.write_match_transitions, zmatch_stmts. cbn [sconcat]. rewrite append_nil_r.
  constructor; [by_line (bz_reads_pairs bz_zsh p "literal_transitions" []); pname Hp|].
  apply reads_app; [apply (zreads_rows _ p "literal_transitions"); [pname Hp | pcase Hp | reflexivity]|].
  apply reads_app; [|apply reads_app].
  - destruct (t_mcmd t) as [m|]; [|constructor].
    constructor; [by_line (bz_reads_pairs bz_zsh p "command_transitions" []); pname Hp|].
    apply (zreads_rows _ p "command_transitions"); [pname Hp | pcase Hp | reflexivity].
  - destruct (t_mcompadd t) as [m|]; [|constructor].
    constructor; [by_line (bz_reads_pairs bz_zsh p "compadd_transitions" []); pname Hp|].
    apply (zreads_rows _ p "compadd_transitions"); [pname Hp | pcase Hp | reflexivity].
  - destruct (t_mstar t) as [l|]; [|constructor]. apply reads_one.
    eapply reads_tpl; [apply (bz_reads_pairs bz_zsh p "star_transitions" (zoff_pairs l)); pname Hp|].
    unfold pairs_line, zoff_pairs. rewrite map_map. reflexivity.
Qed.

Definition zlevel_stmts var (levels : list (list (N * list N))) :=
  map (fun kl : N * list (N * list N) => SAssoc (append var (sN (fst kl))) (zoff_level (snd kl))) (number_from 0 levels).

Definition zcompletion_stmts (p : string) (t : tables) : list stmt :=
  zlevel_stmts (append p "literal_transitions_level_") (t_clit t)
  ++ (match t_ccmd t with Some m => zlevel_stmts (append p "commands_level_") m | None => [] end)
  ++ (match t_ccompadd t with Some m => zlevel_stmts (append p "compadd_commands_level_") m | None => [] end)
  ++ [SScalar (append p "max_fallback_level") (t_maxlevel t)].

(** the level printer for a cell template and a line template of the expected shape *)
Lemma zreads_levels cell line p v ls :
  vname (append p v) ->
  (forall a b, fmt cell [("from_state_zsh", a); ("0", b)] = ("[" ++ a ++ "]=" ++ """" ++ b ++ """")%string) ->
  (forall a b, renderln [("prefix", p); ("level", a); ("initializer", b)] line
               = ("    declare -A " ++ p ++ v ++ a ++ "=(" ++ b ++ ")" ++ nl)%string) ->
  reads_lines Zsh (Z.levels cell line p ls) (zlevel_stmts (append p v) ls).
Proof.
  intros Hv Hc Hl. apply reads_map. intros [k rows] _. cbn [fst snd].
  eapply reads_tpl; [exact (bz_reads_level bz_zsh p v k (zoff_level rows) Hv)|]. rewrite Hl. unfold level_line, zoff_level.
  rewrite map_map, (map_ext _ (fun x : N * list N => kcell (fst x + Z.st, snd x)) (fun r => Hc _ _)). reflexivity.
Qed.

Lemma zreads_completion p t : pfx p -> reads_lines Zsh (Z.write_completion_tables p t) (zcompletion_stmts p t).
Proof.
  intros Hp. unfold Z.write_completion_tables, zcompletion_stmts. cbn [sconcat]. rewrite append_nil_r.
  apply reads_app; [apply (zreads_levels _ _ p "literal_transitions_level_"); [pname Hp | reflexivity | reflexivity]|].
  apply reads_app; [|apply reads_app].
  - destruct (t_ccmd t); [apply (zreads_levels _ _ p "commands_level_"); [pname Hp | reflexivity | reflexivity] | constructor].
  - destruct (t_ccompadd t); [apply (zreads_levels _ _ p "compadd_commands_level_"); [pname Hp | reflexivity | reflexivity] | constructor].
  - apply reads_one. by_line (bz_reads_scalar bz_zsh p "max_fallback_level"); [pname Hp | pcase Hp].
Qed.

Definition zdescr_pairs (lits : list (N * string * string)) : list (N * N) :=
  let ds := descr_set lits in
  flat_map (fun l => match index_of (snd l) ds with Some d => [(fst (fst l), d)] | None => [] end) lits.

Definition zlits_stmts (p : string) (lits : list (N * string * string)) : list stmt :=
  SLits (append p "literals") (map (fun l => snd (fst l)) lits)
  :: SAssoc (append p "descriptions") []
  :: map (fun id : N * string => SStr (append p "descriptions") (fst id) (snd id)) (number_from 0 (descr_set lits))
  ++ [SAssoc (append p "descr_id_from_literal_id") (map (fun q => (fst q, [snd q])) (zdescr_pairs lits))].

Lemma zreads_lits p lits : pfx p -> reads_lines Zsh (Z.write_literals p lits) (zlits_stmts p lits).
Proof.
  intros Hp. unfold Z.write_literals, zlits_stmts. cbn [sconcat]. rewrite append_nil_r.
  constructor.
  { eapply reads_tpl; [apply (bz_reads_lits bz_zsh p "literals"); pname Hp|].
    unfold lits_line, Z.msc. rewrite map_map. reflexivity. }
  constructor; [by_line (bz_reads_pairs bz_zsh p "descriptions" []); pname Hp|].
  apply reads_app.
  - apply reads_map. intros [k d] _. by_line (bz_reads_descr bz_zsh p "descriptions"); [pname Hp | pcase Hp].
  - apply reads_one. eapply reads_tpl; [apply (bz_reads_pairs bz_zsh p "descr_id_from_literal_id" (zdescr_pairs lits)); pname Hp|].
    unfold pairs_line, zdescr_pairs. rewrite map_flat_map.
    erewrite (flat_map_ext (fun x => map kv _)); [reflexivity|]. intros l. cbv beta. destruct (index_of (snd l) (descr_set lits)); reflexivity.
Qed.

Lemma zreads_subrows (rows : list (N * list (N * N))) :
  reads_lines Zsh
    (append (fmtln write_completion_script_3 [])
            (sconcat (map (fun row : N * list (N * N) =>
                             fmtln write_completion_script_4
                               [("0", sN (fst row + Z.st)); ("state_transitions", join " " (map Z.zkv (snd row)))]) rows)))
    (SAssoc "subword_transitions" [] :: row_stmts "subword_transitions" (zoff_rows rows)).
Proof.
  constructor; [by_line (bz_reads_pairs bz_zsh "" "subword_transitions" []); vn|].
  unfold row_stmts, zoff_rows. rewrite map_map. apply reads_map. intros row _.
  eapply reads_tpl; [exact (bz_reads_row bz_zsh "" "subword_transitions" _ _ ltac:(vn) eq_refl)|].
  unfold row_line. cbn [zoff_row fst snd]. rewrite map_map. reflexivity.
Qed.

Lemma zreads_sublevels (ls : list (list (N * list N))) :
  reads_lines Zsh
    (sconcat (map (fun kl : N * list (N * list N) =>
                     fmtln write_completion_script_12
                       [("level", sN (fst kl));
                        ("initializer",
                         join " " (map (fun r : N * list N => fmt write_completion_script_11
                                                   [("from_state_zsh", sN (fst r + Z.st)); ("0", join " " (map sN (snd r)))])
                                       (snd kl)))])
                  (number_from 0 ls)))
    (zlevel_stmts "subword_transitions_level_" ls).
Proof.
  apply reads_map. intros [k rows] _. cbn [fst snd].
  eapply reads_tpl; [exact (bz_reads_level bz_zsh "" "subword_transitions_level_" k (zoff_level rows) ltac:(vn))|].
  unfold level_line, zoff_level. rewrite map_map. reflexivity.
Qed.
