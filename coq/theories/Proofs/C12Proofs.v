(** C12 on the within-word loop [sw_loop] of Model/BashSem.v.  Every variant other than [Pinned] ([Fixed] on
    glob-free text, [Repaired] on any text: [strdom]) recognises a fully typed value of a prefix chain and stops in
    front of a partially typed one, where the completion part offers exactly the extending values.  [Pinned]
    recognises a value when no literal of the array properly extends it and refuses it otherwise.  The
    fixed_ theorems are for any [var <> Pinned]. *)
From CG Require Import Base.Prelude Model.Dfa Model.Glob Model.BashSem Proofs.GlobFacts Proofs.SubwordFacts.

Definition lits_of (T : tables) : list (N * string) := indexed_from 0 (literal_texts T).

(** One round of the while loop, cut out of the body of [sw_loop] ([sw_loop_S]): the literals ([sw_round]), and
    when none of them decides, the commands ([sw_cmds]). *)
Definition sw_cmds (v : variant) (complete : bool) (tabs : alltables) (e : env) (T : tables)
           (word : string) (state : N) (ci : nat) (log : list invocation) : M (step * list invocation) :=
  match t_mcmd T with
  | Some ct =>
    match assocN state ct with
    | Some row => cmd_loop v complete tabs e (assoc_of row) (sdrop ci word) (stake ci word) log
    | None => Ok (SNone, log)
    end
  | None => Ok (SNone, log)
  end.

Definition sw_round (v : variant) (complete : bool) (tabs : alltables) (e : env) (T : tables)
           (word : string) (state : N) (ci : nat) (log : list invocation) : M (step * list invocation) :=
  do s1 <- match assocN state (t_mlit T) with
           | Some st => lit_loop v complete (lits_of T) st (sdrop ci word)
           | None => Ok SNone
           end;
  match s1 with
  | SNone => sw_cmds v complete tabs e T word state ci log
  | _ => Ok (s1, log)
  end.

(** the state expects an undefined nonterminal *)
Definition star_here (T : tables) (state : N) : bool :=
  match t_mstar T with Some stars => has_key state stars | None => false end.

Lemma sw_loop_S fuel v complete tabs e T acc word state ci log :
  sw_loop (S fuel) v complete tabs e T acc word state ci log =
  if Nat.leb (String.length word) ci then Ok (quirky v || complete || memN state acc, state, ci, log)
  else if star_first v complete T state then Ok (true, state, ci, log)
  else
    do (s, log') <- sw_round v complete tabs e T word state ci log;
    match s with
    | SCont st adv => sw_loop fuel v complete tabs e T acc word st (ci + adv) log'
    | SBreak => Ok (false, state, ci, log')
    | SNone => Ok (star_here T state, state, ci, log')
    end.
Proof.
  cbn [sw_loop]. destruct (Nat.leb (String.length word) ci); [reflexivity|].
  destruct (star_first v complete T state); [reflexivity|]. unfold sw_round, sw_cmds, lits_of.
  destruct (match assocN state (t_mlit T) with Some st => _ | None => _ end) as [s1| | |]; try reflexivity.
  destruct s1; try reflexivity. cbn [obind].
  destruct (match t_mcmd T with Some ct => _ | None => _ end) as [[s2 log2]| | |]; try reflexivity.
  destruct s2; try reflexivity. cbn [obind]. unfold star_here.
  destruct (t_mstar T) as [stars|]; [destruct (has_key state stars)|]; reflexivity.
Qed.

Lemma sw_loop_end fuel v complete tabs e T acc word state ci log :
  (String.length word <= ci)%nat ->
  sw_loop (S fuel) v complete tabs e T acc word state ci log
  = Ok (quirky v || complete || memN state acc, state, ci, log).
Proof. intros H. rewrite sw_loop_S. apply Nat.leb_le in H. now rewrite H. Qed.

Lemma sw_round_lit v complete tabs e T word state ci log st s :
  assocN state (t_mlit T) = Some st -> lit_loop v complete (lits_of T) st (sdrop ci word) = Ok s -> s <> SNone ->
  sw_round v complete tabs e T word state ci log = Ok (s, log).
Proof. intros Hst Hl Hs. unfold sw_round. rewrite Hst, Hl. destruct s; [reflexivity|reflexivity|congruence]. Qed.

Lemma sw_loop_lit_cont fuel v complete tabs e T acc word state ci log st to adv :
  (ci < String.length word)%nat -> star_first v complete T state = false ->
  assocN state (t_mlit T) = Some st -> lit_loop v complete (lits_of T) st (sdrop ci word) = Ok (SCont to adv) ->
  sw_loop (S fuel) v complete tabs e T acc word state ci log
  = sw_loop fuel v complete tabs e T acc word to (ci + adv) log.
Proof.
  intros Hci Hsf Hst Hl. rewrite sw_loop_S, Hsf, (sw_round_lit _ _ _ _ _ _ _ _ _ _ _ Hst Hl) by discriminate.
  apply Nat.leb_gt in Hci. now rewrite Hci.
Qed.

Lemma sw_loop_lit_break fuel v complete tabs e T acc word state ci log st :
  (ci < String.length word)%nat -> star_first v complete T state = false ->
  assocN state (t_mlit T) = Some st -> lit_loop v complete (lits_of T) st (sdrop ci word) = Ok SBreak ->
  sw_loop (S fuel) v complete tabs e T acc word state ci log = Ok (false, state, ci, log).
Proof.
  intros Hci Hsf Hst Hl. rewrite sw_loop_S, Hsf, (sw_round_lit _ _ _ _ _ _ _ _ _ _ _ Hst Hl) by discriminate.
  apply Nat.leb_gt in Hci. now rewrite Hci.
Qed.

Lemma star_first_complete v T state : star_first v true T state = false.
Proof. unfold star_first. cbn [negb]. now rewrite andb_false_r. Qed.

Lemma sdrop_app a : forall b, sdrop (String.length a) (a ++ b) = b.
Proof. induction a as [|c a IH]; intros b; cbn [String.length sdrop append]; [reflexivity|apply IH]. Qed.

Lemma stake_app a : forall b, stake (String.length a) (a ++ b) = a.
Proof.
  induction a as [|c a IH]; intros b; cbn [String.length stake append].
  - destruct b; reflexivity.
  - now rewrite IH.
Qed.

Lemma prefix_app_same a : forall b c, String.prefix (a ++ b) (a ++ c) = String.prefix b c.
Proof.
  induction a as [|x a IH]; intros b c; cbn [append]; [reflexivity|].
  cbn [String.prefix]. destruct (ascii_dec x x); [apply IH|congruence].
Qed.

Lemma strdom_sdrop var lits word ci :
  strdom var lits word -> var = Repaired \/ (all_plain lits /\ plain (sdrop ci word) = true).
Proof. intros [H|[H1 H2]]; [now left|right]. split; [exact H1|now apply plain_sdrop]. Qed.

(** (a) of C12 ([C12_values_recognised]), for every [var <> Pinned]: a fully typed value is recognised *)
Theorem fixed_value_recognised :
  forall var fuel tabs e T acc word s st ci v to log,
    var <> Pinned -> strdom var (lits_of T) word -> sorted_desc (lits_of T) ->
    assocN s (t_mlit T) = Some st ->
    sdrop ci word = v -> (ci < String.length word)%nat ->
    first_enabled (lits_of T) st v = Some to ->
    quirky var || memN to acc = true ->
    star_first var false T s = false ->
    sw_loop (S (S fuel)) var false tabs e T acc word s ci log = Ok (true, to, String.length word, log).
Proof.
  intros var fuel tabs e T acc word s st ci v to log Hvar Hdom Hs Hst Hv Hci Hf Hacc Hsf.
  assert (L : (ci + String.length v)%nat = String.length word) by (rewrite <- Hv, length_sdrop; lia).
  rewrite (sw_loop_lit_cont _ _ _ _ _ _ _ _ _ _ _ st to (String.length v) Hci Hsf Hst), L.
  - rewrite sw_loop_end by lia. now rewrite orb_false_r, Hacc.
  - rewrite (lit_loop_nonpinned var false st _ (lits_of T) Hvar (strdom_sdrop var _ word ci Hdom)), Hv.
    now rewrite (fixed_consumes_value st v (lits_of T) to Hs Hf).
Qed.

(** [Pinned] and (a): the value is recognised when no literal of the array, enabled or not, properly extends it
    ([C12_pinned_outside_known]) and refused when one does ([C12_pinned_known_class]) *)
Theorem pinned_value_recognised_outside_known :
  forall fuel tabs e T acc word s st ci v to log,
    all_plain (lits_of T) -> plain word = true -> sorted_desc (lits_of T) ->
    assocN s (t_mlit T) = Some st ->
    sdrop ci word = v -> (ci < String.length word)%nat ->
    first_enabled (lits_of T) st v = Some to ->
    (forall id l, In (id, l) (lits_of T) -> String.prefix v l = true -> l = v /\ assocN id st <> None) ->
    sw_loop (S (S fuel)) Pinned false tabs e T acc word s ci log = Ok (true, to, String.length word, log).
Proof.
  intros fuel tabs e T acc word s st ci v to log Hpl Hpw Hs Hst Hv Hci Hf Hk.
  assert (L : (ci + String.length v)%nat = String.length word) by (rewrite <- Hv, length_sdrop; lia).
  rewrite (sw_loop_lit_cont _ _ _ _ _ _ _ _ _ _ _ st to (String.length v) Hci (eq_refl : star_first Pinned false T s = false) Hst), L.
  - now rewrite sw_loop_end by lia.
  - cbn [lit_loop]. rewrite (lit_loop_pinned_plain st _ (lits_of T) Hpl (plain_sdrop ci word Hpw)), Hv.
    now rewrite (pinned_consumes_value st v (lits_of T) to Hs Hf Hk).
Qed.

Theorem pinned_value_refused :
  forall fuel tabs e T acc word s st ci v log,
    all_plain (lits_of T) -> plain word = true -> sorted_desc (lits_of T) ->
    assocN s (t_mlit T) = Some st ->
    sdrop ci word = v -> (ci < String.length word)%nat ->
    (exists id l, In (id, l) (lits_of T) /\ String.prefix v l = true /\ l <> v) ->
    sw_loop (S fuel) Pinned false tabs e T acc word s ci log = Ok (false, s, ci, log).
Proof.
  intros fuel tabs e T acc word s st ci v log Hpl Hpw Hs Hst Hv Hci Hex.
  apply (sw_loop_lit_break _ Pinned false _ _ T _ _ s _ _ st Hci eq_refl Hst).
  cbn [lit_loop]. rewrite (lit_loop_pinned_plain st _ (lits_of T) Hpl (plain_sdrop ci word Hpw)), Hv.
  now rewrite (pinned_refuses_shorter_value st v (lits_of T) Hs Hex).
Qed.

(** (b) of C12 ([C12_partial_stops]), for every [var <> Pinned]: completing, the loop stops in front of a partially
    typed value ... *)
Theorem fixed_partial_stops :
  forall var fuel tabs e T acc word s st ci log,
    var <> Pinned -> strdom var (lits_of T) word -> sorted_desc (lits_of T) ->
    assocN s (t_mlit T) = Some st ->
    (exists id v to, In (id, v) (lits_of T) /\ assocN id st = Some to
                     /\ String.prefix (sdrop ci word) v = true /\ sdrop ci word <> v) ->
    exists m, sw_loop (S fuel) var true tabs e T acc word s ci log = Ok (m, s, ci, log).
Proof.
  intros var fuel tabs e T acc word s st ci log Hvar Hdom Hs Hst Hex.
  destruct (Nat.le_gt_cases (String.length word) ci) as [Hci|Hci]; [rewrite sw_loop_end by exact Hci; eauto|].
  exists false. apply (sw_loop_lit_break _ _ _ _ _ _ _ _ _ _ _ st Hci (star_first_complete var T s) Hst).
  rewrite (lit_loop_nonpinned var true st _ (lits_of T) Hvar (strdom_sdrop var _ word ci Hdom)).
  now rewrite (fixed_stops_at_partial st _ (lits_of T) Hs Hex).
Qed.

(** ... and the completion part, whatever the variant, offers exactly the level-0 literals of that state that extend
    the typed word ([C12_partial_offers]; tables without completion commands, at least one such literal) *)
Theorem levels_offer_extensions :
  forall var n tabs e T word s ci log,
    e_ignore_case e = false -> printable_str word = true ->
    t_ccmd T = None ->
    filter (String.prefix word) (map (fun id => (stake ci word ++ literal_at T id)%string) (level_row (t_clit T) 0 s)) <> [] ->
    sw_levels (S n) 0 var tabs e T s (stake ci word) (sdrop ci word) [] [] log
    = Ok (filter (String.prefix word) (map (fun id => (stake ci word ++ literal_at T id)%string) (level_row (t_clit T) 0 s)), log).
Proof.
  intros var n tabs e T word s ci log Hi Hp Hc Hne.
  cbn [sw_levels]. rewrite stake_sdrop.
  replace (if quirky var then @nil string else []) with (@nil string) by (destruct (quirky var); reflexivity).
  cbn [List.app].
  rewrite (match_fn_prefix_filter e word _ Hi Hp). cbn [obind]. rewrite Hc. cbn [obind].
  destruct (filter _ _) eqn:E; [contradiction|reflexivity].
Qed.

Lemma offers_as_values (pre p : string) (vals : list string) :
  filter (String.prefix (pre ++ p)) (map (append pre) vals) = map (append pre) (filter (String.prefix p) vals).
Proof.
  induction vals as [|v r IH]; [reflexivity|].
  cbn [map filter]. rewrite prefix_app_same. destruct (String.prefix p v); cbn [map]; now rewrite IH.
Qed.

(** every [var <> Pinned]: the piece (see [fixed_consumes_piece]) in front of the value is consumed in one round *)
Theorem fixed_piece_consumed :
  forall var fuel complete tabs e T acc word s st ci lid lit to log,
    var <> Pinned -> strdom var (lits_of T) word ->
    assocN s (t_mlit T) = Some st ->
    (forall id l t, In (id, l) (lits_of T) -> assocN id st = Some t -> id = lid /\ l = lit) ->
    In (lid, lit) (lits_of T) -> assocN lid st = Some to ->
    String.prefix lit (sdrop ci word) = true ->
    (ci < String.length word)%nat ->
    star_first var complete T s = false ->
    sw_loop (S fuel) var complete tabs e T acc word s ci log
    = sw_loop fuel var complete tabs e T acc word to (ci + String.length lit) log.
Proof.
  intros var fuel complete tabs e T acc word s st ci lid lit to log Hvar Hdom Hst Hu Hin Ha Hp Hl Hsf.
  apply (sw_loop_lit_cont _ _ _ _ _ _ _ _ _ _ _ st to _ Hl Hsf Hst).
  rewrite (lit_loop_nonpinned var complete st _ (lits_of T) Hvar (strdom_sdrop var _ word ci Hdom)).
  now rewrite (fixed_consumes_piece complete st _ (lits_of T) lid lit to Hu Hin Ha Hp).
Qed.
