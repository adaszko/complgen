(** C08, end to end: the verdicts of the checker on the mistake classes of Spec/Mistakes.v, lifted
    from the tree to the SOURCE TEXT through [Driver.compile].

    For a printable grammar [g] and any layout [l], [compile (text g l)] behaves like the pipeline
    after the parser on [g] itself up to spans ([layout_rel]: parser round trip + the checker and
    the rest of the pipeline ignore spans), and the predicates of Spec/Mistakes.v do not read
    spans at all; so a theorem "class present (earlier ones absent) => from_grammar returns an
    error of the matching kind" becomes "=> compile returns [DCheck] of that kind" through
    [checker_error_lifts], the kind being a [span_blind] predicate.  The liftings themselves are
    in Props/C08b.v. *)
From CG Require Import Base.Prelude Proofs.ListFacts Model.Ast Model.Lexer Model.Parser Model.Check Model.Regex.
From CG Require Import Model.Dfa Model.Driver Spec.Printer Spec.Choice Spec.Mistakes.
From CG Require Import Proofs.GrammarRound Proofs.TreeFacts.
From CG Require Import Proofs.CheckSpans Proofs.PipelineSpans Proofs.PipelineLayout.

Section Bridge.
  Variable pick : nat -> list (list N) -> nat.
  Variable fuel : nat.
  Variable builtins : shell -> list (string * string).

  Theorem text_bridge g l sh :
    wf g ->
    layout_rel (compile pick fuel builtins (text g l) sh) (after_parse pick fuel builtins g sh).
  Proof.
    intro W. pose proof (roundtrip_cfg pinned g l W) as P.
    rewrite (compile_after_parse pick fuel builtins _ _ sh P).
    apply same_shape_pipeline. unfold same_shape. rewrite <- !erase_grammar_ms, erase_located. reflexivity.
  Qed.

  Definition span_blind (P : cerror -> Prop) : Prop :=
    forall e e', ms_err CheckSpans.erase e = ms_err CheckSpans.erase e' -> P e -> P e'.

  Theorem checker_error_lifts (P : cerror -> Prop) g l sh :
    span_blind P -> wf g ->
    (exists e, from_grammar builtins g sh = Err e /\ P e) ->
    exists e', compile pick fuel builtins (text g l) sh = Err (DCheck e') /\ P e'.
  Proof.
    intros HP W [e [He Pe]]. pose proof (text_bridge g l sh W) as B.
    unfold after_parse in B. rewrite He in B. cbn [lift obind] in B.
    destruct (compile pick fuel builtins (text g l) sh) as [[v c]|e2| |]; cbn [layout_rel] in B; try contradiction.
    destruct e2; cbn [ms_derr] in B; try discriminate.
    exists e0. split; [reflexivity|]. eapply HP; [|exact Pe]. inversion B. reflexivity.
  Qed.

  Theorem checker_ok_lifts g l sh v c :
    wf g -> from_grammar builtins g sh = Ok v -> compile_valid pick fuel v = Ok c ->
    exists v', compile pick fuel builtins (text g l) sh = Ok (v', c)
               /\ v_command v' = v_command v
               /\ ms CheckSpans.erase (v_expr v') = ms CheckSpans.erase (v_expr v).
  Proof.
    intros W Hv Hc. pose proof (text_bridge g l sh W) as B.
    unfold after_parse in B. rewrite Hv in B. cbn [lift obind] in B. rewrite Hc in B. cbn [obind] in B.
    destruct (compile pick fuel builtins (text g l) sh) as [[v' c']|e2| |]; cbn [layout_rel] in B; try contradiction.
    destruct B as (A1 & A2 & A3). subst c'. exists v'. auto.
  Qed.
End Bridge.

Definition ekind (e : cerror) : N :=
  match e with
  | MissingCallVariants => 0
  | VaryingCommandNames _ => 1
  | InvalidCommandName _ => 2
  | DuplicateNonterminalDefinition _ _ => 3
  | UnknownShell _ => 4
  | NonCommandSpecialization _ => 5
  | NonterminalDefinitionsCycle _ => 6
  | SubwordSpaces _ _ _ => 7
  end.

Lemma same_kind f e e' : ms_err f e = ms_err f e' -> ekind e = ekind e'.
Proof.
  intro H. assert (K : forall x, ekind (ms_err f x) = ekind x) by (intros []; reflexivity).
  rewrite <- (K e), H. apply K.
Qed.

Lemma blind_missing : span_blind (fun e => e = MissingCallVariants).
Proof. intros e e' H ->. apply same_kind in H. destruct e'; try discriminate H. reflexivity. Qed.
Lemma blind_varying : span_blind (fun e => exists spans, e = VaryingCommandNames spans).
Proof. intros e e' H [x ->]. apply same_kind in H. destruct e'; try discriminate H. eauto. Qed.
Lemma blind_invalid : span_blind (fun e => exists sp, e = InvalidCommandName sp).
Proof. intros e e' H [x ->]. apply same_kind in H. destruct e'; try discriminate H. eauto. Qed.
Lemma blind_duplicate : span_blind (fun e => exists a b, e = DuplicateNonterminalDefinition a b).
Proof. intros e e' H (x & y & ->). apply same_kind in H. destruct e'; try discriminate H. eauto. Qed.
Lemma blind_cycle : span_blind (fun e => exists spans, e = NonterminalDefinitionsCycle spans).
Proof. intros e e' H [x ->]. apply same_kind in H. destruct e'; try discriminate H. eauto. Qed.
Lemma blind_spaces : span_blind (fun e => exists l r t, e = SubwordSpaces l r t).
Proof. intros e e' H (x & y & z & ->). apply same_kind in H. destruct e'; try discriminate H. eauto. Qed.

Lemma blind_spec_errors (u n d : bool) :
  span_blind (fun e => match e with
                       | UnknownShell _ => u = true
                       | NonCommandSpecialization _ => n = true
                       | DuplicateNonterminalDefinition _ _ => d = true
                       | _ => False
                       end).
Proof.
  intros e e' H Hp. apply same_kind in H.
  destruct e; try contradiction; destruct e'; try discriminate H; exact Hp.
Qed.

From CG Require Import Proofs.CheckProvenance Proofs.CheckSpacesSpec Proofs.CheckCycleSpec Proofs.CheckFront.
From CG Require Import Proofs.CheckMistakes Proofs.PipelineTotal Proofs.DiagPipeline Proofs.DotFromExpr.

(** [grammar_word_roots_ok] is the hypothesis of the theorems about spaces inside words
    (CheckSpacesSpec.v); on the text of a printable grammar it comes for free *)
Lemma wfb_word_roots e : forall w, wfb w e = true -> word_roots_ok e = true.
Proof.
  induction e using expr_ind'; intros w Hw; cbn [wfb word_roots_ok] in *; try reflexivity;
    try (eapply IHe; exact Hw).
  1-3: apply andb_true_iff in Hw as [_ Hw]; revert Hw; apply forallb_impl_Forall;
    revert H; apply Forall_impl; intros c Hc; exact (Hc w).
  apply andb_true_iff in Hw. destruct Hw as [_ Hw]. destruct e; try discriminate.
  cbn [andb]. apply (IHe true). cbn [wfb]. exact Hw.
Qed.

Lemma wf_word_roots g : wf g -> grammar_word_roots_ok g = true.
Proof.
  unfold wf, grammar_word_roots_ok. intro H. rewrite forallb_forall in *. intros s Hs. specialize (H s Hs).
  destruct s as [n sp e|n sp [[sh shsp]|] rhs]; cbn [wf_stmt stmt_expr] in *.
  - apply andb_true_iff in H. destruct H as [_ H]. eapply wfb_word_roots; exact H.
  - apply andb_true_iff in H. destruct H as [_ H]. eapply wfb_word_roots; exact H.
  - apply andb_true_iff in H. destruct H as [_ H]. eapply wfb_word_roots; exact H.
Qed.

Lemma compile_valid_err_kind pick fuel v e :
  compile_valid pick fuel v = Err e -> match e with DParse _ | DCheck _ => False | _ => True end.
Proof. intro H. destruct (compile_valid_err pick fuel v e H) as [(re & -> & _)|[[x ->]|[x ->]]]; exact I. Qed.

Section Lifted.
  Variable pick : nat -> list (list N) -> nat.
  Variable fuel : nat.
  Variable builtins : shell -> list (string * string).

  Theorem lifted_cycle_converse g l sh spans :
    wf g ->
    compile pick fuel builtins (text g l) sh = Err (DCheck (NonterminalDefinitionsCycle spans)) ->
    exists spans', from_grammar builtins g sh = Err (NonterminalDefinitionsCycle spans').
  Proof.
    intros W H. pose proof (text_bridge pick fuel builtins g l sh W) as B. rewrite H in B.
    unfold after_parse in B.
    destruct (from_grammar builtins g sh) as [v|e| |]; cbn [lift obind] in B.
    - destruct (compile_valid pick fuel v) as [c|e| |] eqn:Ev; cbn [obind layout_rel] in B; try contradiction.
      apply compile_valid_err_kind in Ev. destruct e; try destruct Ev; discriminate.
    - cbn [layout_rel ms_derr] in B. destruct e; cbn in B; try discriminate. eexists; reflexivity.
    - contradiction.
    - contradiction.
  Qed.

  (** a grammar free of every class the checker decides before the walk of the words: the text
      compiles, or is rejected for one of the three remaining reasons *)
  Theorem lifted_clean_verdict g l sh :
    wf g -> fuel_covers fuel builtins (text g l) sh ->
    no_call_variant g = false -> varying_names g = false -> slash_in_name g = false ->
    duplicate_plain g = false ->
    unknown_shell g = false -> non_command_for_shell g = false -> duplicate_for_shell g sh = false ->
    specs_have_command_plain g = true -> cyclic g sh = false ->
    (exists vc, compile pick fuel builtins (text g l) sh = Ok vc) \/
    (exists a b t, compile pick fuel builtins (text g l) sh = Err (DCheck (SubwordSpaces a b t))) \/
    (exists a b, compile pick fuel builtins (text g l) sh = Err (DRegex (UnboundedMatchable a b))) \/
    (exists ae, compile pick fuel builtins (text g l) sh = Err (DAmb ae)).
  Proof.
    intros W Hfuel Hn Hv Hsl Hdp H1 H2 H3 Hsp Hcyc.
    destruct (compile_total pick fuel builtins (text g l) sh Hfuel) as [[vc Hc]|[e He]]; [left; eauto|].
    right.
    destruct (compile_error_kinds pick fuel builtins (text g l) sh e Hfuel He)
      as [[sp ->]|[[ce ->]|[(a & b & ->)|[ae ->]]]].
    - exfalso. pose proof (roundtrip_cfg pinned g l W) as P.
      rewrite (compile_after_parse pick fuel builtins _ _ sh P) in He. unfold after_parse in He.
      destruct (from_grammar builtins _ sh) as [v|e| |]; cbn [lift obind] in He; try discriminate.
      destruct (compile_valid pick fuel v) as [c|e| |] eqn:Ev; cbn [obind] in He; try discriminate.
      inversion He; subst. apply compile_valid_err_kind in Ev. exact Ev.
    - left. pose proof (text_bridge pick fuel builtins g l sh W) as B. rewrite He in B. unfold after_parse in B.
      destruct (clean_verdict builtins g sh Hn Hv Hsl Hdp H1 H2 H3 Hsp Hcyc) as [[v Hg]|(a & b & t & Hg)];
        rewrite Hg in B; cbn [lift obind] in B.
      + destruct (compile_valid pick fuel v) as [c|e| |] eqn:Ev; cbn [obind layout_rel] in B; try contradiction.
        apply compile_valid_err_kind in Ev. destruct e; try destruct Ev; discriminate.
      + cbn [layout_rel ms_derr] in B. destruct ce; cbn in B; try discriminate. do 3 eexists. exact He.
    - right. left. eauto.
    - right. right. eauto.
  Qed.
End Lifted.
