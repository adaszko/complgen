(** C13, checker part: every span reported by the model of [from_grammar] -- in an error or in
    one of the three warning maps -- is the span of a construct of the *source* grammar, of the
    kind the diagnostic talks about. *)
From CG Require Import Base.Prelude Base.Facts Proofs.ListFacts Model.Ast Model.Check Spec.Choice Spec.Mistakes.
From CG Require Import Proofs.CheckChoice Proofs.CheckMistakes Proofs.CheckLemmas Proofs.CheckWarnings.
From CG Require Import Proofs.CheckCycle Proofs.CheckTotal Proofs.CheckFront Proofs.CheckCycleSpec.

(** The nodes of a tree whose spans can be reported: every [NontermRef] (name and span), every
    [Terminal] (span) *)
Fixpoint ref_spans (e : expr) : list (string * span) :=
  match e with
  | Terminal _ _ _ _ | Command _ _ _ _ => []
  | NontermRef n _ sp => [(n, sp)]
  | Subword c _ _ | Optional c _ | Many1 c _ | DistDescr c _ _ => ref_spans c
  | Sequence cs _ | Alternative cs _ | Fallback cs _ => flat_map ref_spans cs
  end.

Fixpoint term_spans (e : expr) : list span :=
  match e with
  | NontermRef _ _ _ | Command _ _ _ _ => []
  | Terminal _ _ _ sp => [sp]
  | Subword c _ _ | Optional c _ | Many1 c _ | DistDescr c _ _ => term_spans c
  | Sequence cs _ | Alternative cs _ | Fallback cs _ => flat_map term_spans cs
  end.

Definition stmt_expr (s : statement) : expr :=
  match s with CallVariant _ _ e => e | NontermDef _ _ _ rhs => rhs end.

Definition grammar_refs (g : grammar) : list (string * span) :=
  flat_map (fun s => ref_spans (stmt_expr s)) g.
Definition grammar_terms (g : grammar) : list span :=
  flat_map (fun s => term_spans (stmt_expr s)) g.

Definition within (R : list (string * span)) (T : list span) (e : expr) : Prop :=
  incl (ref_spans e) R /\ incl (term_spans e) T.

Lemma incl_flat_map {A B} (h : A -> list B) l U :
  incl (flat_map h l) U <-> Forall (fun x => incl (h x) U) l.
Proof.
  induction l as [|x l IH]; cbn; split; intro H.
  - constructor.
  - intros y [].
  - constructor; [intros y Hy; apply H; apply in_or_app; left; exact Hy|].
    apply IH. intros y Hy. apply H. apply in_or_app. right. exact Hy.
  - inversion H; subst. intros y Hy. apply in_app_or in Hy. destruct Hy as [Hy|Hy]; [auto|].
    apply IH in H3. auto.
Qed.

Lemma within_list R T cs :
  Forall (within R T) cs <-> incl (flat_map ref_spans cs) R /\ incl (flat_map term_spans cs) T.
Proof.
  rewrite !incl_flat_map. unfold within. split.
  - intro H. split; eapply Forall_impl; try exact H; cbn; tauto.
  - intros [H1 H2]. rewrite Forall_forall in *. intros x Hx. split; auto.
Qed.

Lemma distribute_spans e : forall d,
  ref_spans (fst (distribute e d)) = ref_spans e /\ term_spans (fst (distribute e d)) = term_spans e.
Proof.
  assert (Hl : forall cs, Forall (fun e => forall d, ref_spans (fst (distribute e d)) = ref_spans e
                                                     /\ term_spans (fst (distribute e d)) = term_spans e) cs ->
                          forall d, flat_map ref_spans (fst (distribute_list cs d)) = flat_map ref_spans cs
                                    /\ flat_map term_spans (fst (distribute_list cs d)) = flat_map term_spans cs).
  { intros cs H d. split; apply Forall2_flat_map.
    - apply (distribute_list_Forall2 (fun c c' => ref_spans c' = ref_spans c)).
      eapply Forall_impl; [|exact H]. intros a Ha d'. apply Ha.
    - apply (distribute_list_Forall2 (fun c c' => term_spans c' = term_spans c)).
      eapply Forall_impl; [|exact H]. intros a Ha d'. apply Ha. }
  induction e using expr_ind'; intro d0; try (split; reflexivity);
    try (cbn [distribute]; specialize (IHe d0); destruct (distribute e d0); exact IHe).
  - cbn. destruct d; [split; reflexivity|]. destruct d0; split; reflexivity.
  - rewrite distribute_seq. specialize (Hl cs H d0). destruct (distribute_list cs d0). exact Hl.
  - cbn [distribute fst ref_spans term_spans]. rewrite !flat_map_map. split;
      apply flat_map_ext_Forall; eapply Forall_impl; try exact H; intros a Ha; apply Ha.
  - cbn [distribute fst ref_spans term_spans]. apply IHe.
  - rewrite distribute_fb. specialize (Hl cs H d0). destruct (distribute_list cs d0). exact Hl.
Qed.

Lemma distribute_within R T e : within R T e -> within R T (distribute_descriptions e).
Proof.
  unfold within, distribute_descriptions. destruct (distribute_spans e None) as [H1 H2].
  rewrite H1, H2. tauto.
Qed.

Lemma within_seq R T cs sp : within R T (Sequence cs sp) <-> Forall (within R T) cs.
Proof. rewrite within_list. reflexivity. Qed.
Lemma within_alt R T cs sp : within R T (Alternative cs sp) <-> Forall (within R T) cs.
Proof. rewrite within_list. reflexivity. Qed.
Lemma within_fb R T cs sp : within R T (Fallback cs sp) <-> Forall (within R T) cs.
Proof. rewrite within_list. reflexivity. Qed.

(** [within] asks something of the leaves only *)
Definition leaves_within (R : list (string * span)) (T : list span) (n : node) : Prop :=
  match n with
  | NTerminal sp => In sp T
  | NRef x sp => In (x, sp) R
  | _ => True
  end.

Lemma within_tree R T e : within R T e <-> tree_all (leaves_within R T) e.
Proof.
  apply (tree_all_char (within R T)). clear e. intro e.
  destruct e; cbn [node_of children_of leaves_within];
    rewrite ?within_seq, ?within_alt, ?within_fb; try tauto;
    try (change (within R T e <-> True /\ Forall (within R T) [e]);
         split; [intro H; split; [exact I|constructor; [exact H|constructor]]
                |intros [_ H]; inversion H; assumption]).
  - split; [intros [_ H]; split; [apply H; left; reflexivity|constructor]|].
    intros [H _]. split; [intros x []|intros x [<-|[]]; exact H].
  - split; [intros [H _]; split; [apply H; left; reflexivity|constructor]|].
    intros [H _]. split; [intros x [<-|[]]; exact H|intros x []].
  - split; [intros _; split; [exact I|constructor]|intros _; split; intros x []].
Qed.

Lemma specialize_within R T sh us bi fs plain e :
  within R T e -> within R T (specialize sh us bi fs plain e).
Proof. rewrite !within_tree. apply tree_all_specialize. exact I. Qed.

Definition table_within R T (t : list (string * expr)) : Prop :=
  forall n rhs, assoc n t = Some rhs -> within R T rhs.

Lemma table_within_all R T t : table_within R T t <-> table_all (leaves_within R T) t.
Proof. split; intros H n rhs Hn; apply within_tree; exact (H n rhs Hn). Qed.

Lemma resolve_within R T t e : table_within R T t -> within R T e -> within R T (resolve t e).
Proof. rewrite table_within_all, !within_tree. apply tree_all_resolve. Qed.

Lemma resolve_in_order_within R T ord t : table_within R T t -> table_within R T (resolve_in_order ord t).
Proof. rewrite !table_within_all. apply tree_all_resolve_in_order. Qed.

Lemma flatten_spans e : ref_spans (flatten e) = ref_spans e.
Proof.
  induction e using expr_ind'; cbn [flatten ref_spans]; try reflexivity; try assumption;
    rewrite flat_map_map; apply flat_map_ext_Forall; exact H.
Qed.

Lemma collapse_spans e : ref_spans (collapse e) = ref_spans e.
Proof.
  induction e using expr_ind'; cbn [collapse ref_spans]; try reflexivity; try assumption;
    try (rewrite flat_map_map; apply flat_map_ext_Forall; exact H).
  apply flatten_spans.
Qed.

Lemma propagate_spans e : forall lvl, ref_spans (propagate e lvl) = ref_spans e.
Proof.
  induction e using expr_ind'; intro lvl; try reflexivity; try (cbn [propagate ref_spans]; apply IHe);
    try (cbn [propagate ref_spans]; rewrite flat_map_map; apply flat_map_ext_Forall;
         eapply Forall_impl; [|exact H]; intros a Ha; apply Ha).
  rewrite propagate_fb. cbn [ref_spans]. generalize 0 as i.
  induction H as [|x l Hx _ IH]; intro i; cbn; [reflexivity|]. rewrite Hx, IH. reflexivity.
Qed.

Lemma nonterm_refs_incl e : incl (nonterm_refs e) (ref_spans e).
Proof.
  induction e using expr_ind'; cbn [nonterm_refs ref_spans]; try apply incl_refl; try assumption;
    try (intros x []);
    intros x Hx; apply in_flat_map in Hx; destruct Hx as [c [Hc Hx]]; apply in_flat_map; exists c;
    (split; [exact Hc|]); rewrite Forall_forall in H; apply (H c Hc); exact Hx.
Qed.

Lemma refs_map_incl l : forall acc, incl (refs_map l acc) (l ++ acc).
Proof.
  induction l as [|[n sp] r IH]; intro acc; cbn [refs_map app]; [apply incl_refl|].
  intros x Hx. apply IH in Hx. apply in_app_or in Hx. destruct Hx as [Hx|Hx].
  - right. apply in_or_app. left. exact Hx.
  - destruct (mem_str n (map fst acc)).
    + apply in_map_iff in Hx. destruct Hx as [[k v] [Hk Hx]]. cbn in Hk.
      destruct (String.eqb k n); [left; exact Hk|].
      subst x. right. apply in_or_app. right. exact Hx.
    + apply in_app_or in Hx. destruct Hx as [Hx|[Hx|[]]].
      * right. apply in_or_app. right. exact Hx.
      * left. exact Hx.
Qed.

Lemma get_nonterm_refs_incl e : incl (get_nonterm_refs e) (ref_spans e).
Proof.
  unfold get_nonterm_refs. intros x Hx. apply refs_map_incl in Hx. rewrite app_nil_r in Hx.
  apply nonterm_refs_incl. exact Hx.
Qed.

Definition follow_within (T : list span) (follow : option (list (string * expr))) : Prop :=
  forall n rhs, followed follow n = Some rhs -> incl (term_spans rhs) T.

Lemma expr_end_terminal T hd follow (Hf : follow_within T follow) f : forall e t d l sp,
  incl (term_spans e) T -> expr_end hd follow f e = Ok (Terminal t d l sp) -> In sp T.
Proof.
  induction f as [|f IH]; intros e t d l sp He Hh; [destruct hd; discriminate|]. rewrite expr_end_S in Hh.
  destruct e; try discriminate.
  - inversion Hh; subst. apply He. left. reflexivity.
  - destruct (followed follow name) as [rhs|] eqn:E; [|discriminate].
    eapply IH; [|exact Hh]. eapply Hf; eauto.
  - destruct (pick hd children) as [c|] eqn:El; [|discriminate]. apply pick_In in El.
    eapply IH; [|exact Hh].
    intros x Hx. apply He. cbn. apply in_flat_map. exists c. split; assumption.
  - eapply IH; [|exact Hh]. exact He.
Qed.

Lemma adjacent_terminals_spans T follow (Hf : follow_within T follow) f cs l r :
  incl (flat_map term_spans cs) T ->
  adjacent_terminals follow f cs = Ok (Some (l, r)) -> In l T /\ In r T.
Proof.
  induction cs as [|a rest IH]; intros Hc H; [discriminate|]. destruct rest as [|b rest']; [discriminate|].
  rewrite adjacent_terminals_eq in H.
  assert (Hrest : incl (flat_map term_spans (b :: rest')) T).
  { intros x Hx. apply Hc. cbn [flat_map]. apply in_or_app. right. exact Hx. }
  destruct (expr_end false follow f a) as [ta| | |] eqn:Et; cbn [obind] in H; try discriminate.
  destruct (expr_end true follow f b) as [hb| | |] eqn:Eh; cbn [obind] in H; try discriminate.
  destruct ta; try (apply IH; assumption). destruct hb; try (apply IH; assumption).
  inversion H; subst. split.
  - eapply expr_end_terminal; [exact Hf| |exact Et].
    intros x Hx. apply Hc. cbn [flat_map]. apply in_or_app. left. exact Hx.
  - eapply expr_end_terminal; [exact Hf| |exact Eh].
    intros x Hx. apply Hc. cbn [flat_map]. apply in_or_app. right. apply in_or_app. left. exact Hx.
Qed.

Definition spaces_report (R : list (string * span)) (T : list span) (trace0 : list span) (e : cerror) : Prop :=
  match e with
  | SubwordSpaces l r trace =>
      In l T /\ In r T /\ forall sp, In sp trace -> In sp trace0 \/ In sp (map snd R)
  | _ => False
  end.

Lemma spaces_report_weaken R T tr0 tr1 e :
  (forall sp, In sp tr1 -> In sp tr0 \/ In sp (map snd R)) ->
  spaces_report R T tr1 e -> spaces_report R T tr0 e.
Proof.
  intros Hw. destruct e; cbn; try tauto. intros (H1 & H2 & H3). repeat split; auto.
  intros sp Hsp. destruct (H3 sp Hsp) as [H|H]; auto.
Qed.

Lemma spaces_provenance R T table (Ht : table_within R T table) f : forall e trace within0 juxt err,
  within R T e ->
  spaces table f e trace within0 juxt = Err err -> spaces_report R T trace err.
Proof.
  induction f as [|f IH]; intros e trace w juxt err Hw H; [discriminate|].
  rewrite spaces_S in H.
  assert (Hall : forall cs err, Forall (within R T) cs ->
                                sp_all (fun c => spaces table f c trace w false) cs = Err err ->
                                spaces_report R T trace err).
  { intros cs err' Hcs H'. eapply sp_all_err; [|exact H']. rewrite Forall_forall in *.
    intros c Hc e' He'. eapply IH; [apply Hcs; exact Hc|exact He']. }
  destruct e; try discriminate.
  - (* NontermRef *)
    destruct (assoc name table) as [rhs|] eqn:En; [|discriminate].
    apply (IH _ _ _ _ _ (Ht _ _ En)) in H. eapply spaces_report_weaken; [|exact H].
    intros s Hs. apply in_app_or in Hs. destruct Hs as [Hs|[Hs|[]]]; [left; exact Hs|].
    right. subst s. destruct Hw as [Hr _]. apply in_map_iff. exists (name, sp).
    split; [reflexivity|apply Hr; left; reflexivity].
  - (* Sequence *)
    apply within_seq in Hw.
    destruct (sp_all _ children) as [[]|e'| |] eqn:E; cbn [obind] in H; try discriminate.
    + destruct w; [|discriminate].
      destruct (adjacent_terminals _ f children) as [[[l r]|]|e'| |] eqn:Ea; cbn [obind] in H;
        try discriminate.
      * inversion H; subst. apply within_list in Hw. destruct Hw as [_ HT].
        eapply adjacent_terminals_spans in Ea; [|clear Ea|exact HT].
        -- destruct Ea as [H1 H2]. cbn. repeat split; auto.
        -- intros n rhs Hn. destruct juxt; cbn in Hn; [discriminate|]. apply (Ht _ _ Hn).
      * exfalso. eapply adjacent_terminals_no_err; eauto.
    + inversion H; subst. eapply Hall; eauto.
  - apply within_alt in Hw. eapply Hall; eauto.
  - eapply IH; [|exact H]. exact Hw.
  - eapply IH; [|exact H]. exact Hw.
  - apply within_fb in Hw. eapply Hall; eauto.
  - eapply IH; [|exact H]. exact Hw.
Qed.

Definition same_kind (target : shell) (sh1 sh2 : option (string * span)) : Prop :=
  (sh1 = None /\ sh2 = None) \/
  (exists shn1 sp1 shn2 sp2, sh1 = Some (shn1, sp1) /\ sh2 = Some (shn2, sp2)
                             /\ is_shell shn1 target = true /\ is_shell shn2 target = true).

Definition defs_err_prov (target : shell) (all : defs_t) (e : cerror) : Prop :=
  match e with
  | UnknownShell sp =>
      exists n nsp shn rhs, In (n, nsp, Some (shn, sp), rhs) all /\ shell_of_string shn = None
  | NonCommandSpecialization sp =>
      exists n nsp sho rhs, In (n, nsp, sho, rhs) all /\ sp = expr_span rhs /\ is_command rhs = false
  | DuplicateNonterminalDefinition a b =>
      exists n p1 sh1 rhs1 p2 sh2 rhs2 r,
        all = p1 ++ (n, a, sh1, rhs1) :: p2 ++ (n, b, sh2, rhs2) :: r /\ same_kind target sh1 sh2
  | _ => False
  end.

Lemma app_cons_assoc {A} (pre : list A) x r : (pre ++ [x]) ++ r = pre ++ x :: r.
Proof. rewrite <- app_assoc. reflexivity. Qed.

Lemma collect_plain_defs_prov target ds : forall pre acc e,
  (forall d, In d acc -> exists rhs, In (d_name d, d_span d, None, rhs) pre) ->
  collect_plain_defs ds acc = Err e -> defs_err_prov target (pre ++ ds) e.
Proof.
  induction ds as [|[[[n nsp] sh] rhs] r IH]; intros pre acc e Hacc H; [discriminate|].
  cbn [collect_plain_defs] in H. destruct sh as [s|].
  - rewrite <- app_cons_assoc. eapply IH; [|exact H].
    intros d Hd. destruct (Hacc d Hd) as [rhs' Hin]. exists rhs'. apply in_or_app. left. exact Hin.
  - destruct (find (fun d => String.eqb (d_name d) n) acc) as [dup|] eqn:F.
    + inversion H; subst e. clear H. apply find_some in F. destruct F as [Hin Heq].
      apply String.eqb_eq in Heq. destruct (Hacc dup Hin) as [rhs' Hpre]. rewrite Heq in Hpre.
      apply in_split in Hpre. destruct Hpre as [p1 [p2 Hp]].
      exists n, p1, None, rhs', p2, None, rhs, r. split; [|left; split; reflexivity].
      rewrite Hp, <- app_assoc. reflexivity.
    + rewrite <- app_cons_assoc. eapply IH; [|exact H].
      intros d Hd. apply in_app_or in Hd. destruct Hd as [Hd|[Hd|[]]].
      * destruct (Hacc d Hd) as [rhs' Hin]. exists rhs'. apply in_or_app. left. exact Hin.
      * subst d. cbn. exists rhs. apply in_or_app. right. left. reflexivity.
Qed.

Lemma get_user_specs_prov target ds : forall pre acc e,
  (forall n s, In (n, s) acc ->
               exists shn shsp rhs, In (n, us_span s, Some (shn, shsp), rhs) pre
                                    /\ is_shell shn target = true) ->
  get_user_specs target ds acc = Err e -> defs_err_prov target (pre ++ ds) e.
Proof.
  induction ds as [|[[[n nsp] sh] rhs] r IH]; intros pre acc e Hacc H; [discriminate|].
  assert (Hacc' : forall n0 s, In (n0, s) acc ->
               exists shn shsp rhs0, In (n0, us_span s, Some (shn, shsp), rhs0) (pre ++ [(n, nsp, sh, rhs)])
                                     /\ is_shell shn target = true).
  { intros n0 s Hin. destruct (Hacc n0 s Hin) as (shn & shsp & rhs0 & Hp & Hs).
    exists shn, shsp, rhs0. split; [apply in_or_app; left; exact Hp|exact Hs]. }
  cbn [get_user_specs] in H. destruct sh as [[shn shsp]|].
  2:{ rewrite <- app_cons_assoc. eapply IH; eauto. }
  destruct (is_command rhs) eqn:Ec.
  2:{ assert (He : e = NonCommandSpecialization (expr_span rhs)) by (destruct rhs; inversion H; try reflexivity; discriminate).
      subst e. cbn. exists n, nsp, (Some (shn, shsp)), rhs. split; [|split; [reflexivity|exact Ec]].
      apply in_or_app. right. left. reflexivity. }
  destruct rhs as [| |cmd z lv csp| | | | | | |]; try discriminate.
  destruct (shell_of_string shn) as [s|] eqn:Hs.
  2:{ inversion H; subst e. cbn. exists n, nsp, shn, (Command cmd z lv csp).
      split; [apply in_or_app; right; left; reflexivity|exact Hs]. }
  destruct (shell_eqb s target) eqn:Est.
  2:{ rewrite <- app_cons_assoc. eapply IH; eauto. }
  destruct (assoc n acc) as [prev|] eqn:Ea.
  - inversion H; subst e. clear H. apply assoc_In in Ea.
    destruct (Hacc n prev Ea) as (shn1 & shsp1 & rhs1 & Hp & Hs1).
    apply in_split in Hp. destruct Hp as [p1 [p2 Hp]]. cbn.
    exists n, p1, (Some (shn1, shsp1)), rhs1, p2, (Some (shn, shsp)), (Command cmd z lv csp), r.
    split; [rewrite Hp, <- app_assoc; reflexivity|].
    right. exists shn1, shsp1, shn, shsp. repeat split; auto. unfold is_shell. rewrite Hs. exact Est.
  - rewrite <- app_cons_assoc. eapply IH; [|exact H].
    intros n0 s0 Hin. apply in_app_or in Hin. destruct Hin as [Hin|[Hin|[]]]; [apply Hacc'; exact Hin|].
    inversion Hin; subst. cbn. exists shn, shsp. eexists.
    split; [apply in_or_app; right; left; reflexivity|]. unfold is_shell. rewrite Hs. exact Est.
Qed.

Lemma get_fallback_specs_prov target sp ds : forall pre acc e,
  (forall n c s, In (n, (c, s)) acc -> exists rhs, In (n, s, None, rhs) pre) ->
  get_fallback_specs sp ds acc = Err e -> defs_err_prov target (pre ++ ds) e.
Proof.
  induction ds as [|[[[n nsp] sh] rhs] r IH]; intros pre acc e Hacc H; [discriminate|].
  assert (Hacc' : forall n0 c s, In (n0, (c, s)) acc ->
                                 exists rhs0, In (n0, s, None, rhs0) (pre ++ [(n, nsp, sh, rhs)])).
  { intros n0 c s Hin. destruct (Hacc n0 c s Hin) as [rhs0 Hp]. exists rhs0. apply in_or_app. left. exact Hp. }
  cbn [get_fallback_specs] in H. destruct sh as [s|].
  { rewrite <- app_cons_assoc. eapply IH; eauto. }
  destruct (mem_str n sp).
  2:{ rewrite <- app_cons_assoc. eapply IH; eauto. }
  destruct (is_command rhs) eqn:Ec.
  2:{ assert (He : e = NonCommandSpecialization (expr_span rhs)) by (destruct rhs; inversion H; try reflexivity; discriminate).
      subst e. cbn. exists n, nsp, None, rhs. split; [|split; [reflexivity|exact Ec]].
      apply in_or_app. right. left. reflexivity. }
  destruct rhs as [| |cmd z lv csp| | | | | | |]; try discriminate.
  destruct (assoc n acc) as [[c prev]|] eqn:Ea.
  - inversion H; subst e. clear H. apply assoc_In in Ea.
    destruct (Hacc n c prev Ea) as [rhs1 Hp].
    apply in_split in Hp. destruct Hp as [p1 [p2 Hp]]. cbn.
    exists n, p1, None, rhs1, p2, None, (Command cmd z lv csp), r.
    split; [rewrite Hp, <- app_assoc; reflexivity|left; split; reflexivity].
  - rewrite <- app_cons_assoc. eapply IH; [|exact H].
    intros n0 c0 s0 Hin. apply in_app_or in Hin. destruct Hin as [Hin|[Hin|[]]]; [eapply Hacc'; exact Hin|].
    inversion Hin; subst. eexists. apply in_or_app. right. left. reflexivity.
Qed.

Definition stmt_of (d : string * span * option (string * span) * expr) : statement :=
  match d with (n, nsp, sh, rhs) => NontermDef n nsp sh rhs end.

Lemma all_defs_split g : forall l1 d l2,
  all_defs g = l1 ++ d :: l2 ->
  exists g1 g2, g = g1 ++ stmt_of d :: g2 /\ all_defs g1 = l1 /\ all_defs g2 = l2.
Proof.
  induction g as [|s g IH]; intros l1 d l2 H; [destruct l1; discriminate|].
  destruct s as [n sp e|n sp sh rhs].
  - change (all_defs (CallVariant n sp e :: g)) with (all_defs g) in H.
    destruct (IH _ _ _ H) as (g1 & g2 & Hg & H1 & H2).
    exists (CallVariant n sp e :: g1), g2. subst g. repeat split; auto.
  - change (all_defs (NontermDef n sp sh rhs :: g)) with ((n, sp, sh, rhs) :: all_defs g) in H.
    destruct l1 as [|x l1]; cbn [app] in H; inversion H; subst.
    + exists [], g. repeat split; auto.
    + destruct (IH _ _ _ H2) as (g1 & g2 & Hg & H1 & H3).
      exists (NontermDef n sp sh rhs :: g1), g2. subst g. repeat split; auto. cbn. unfold all_defs in *.
      cbn. rewrite H1. reflexivity.
Qed.

Definition err_provenance (g : grammar) (sh : shell) (e : cerror) : Prop :=
  match e with
  | MissingCallVariants => True
  | VaryingCommandNames spans =>
      forall sp, In sp spans -> exists n e, In (CallVariant n sp e) g
  | InvalidCommandName sp => exists n e, In (CallVariant n sp e) g
  | DuplicateNonterminalDefinition a b =>
      exists n g1 sh1 rhs1 g2 sh2 rhs2 g3,
        g = g1 ++ NontermDef n a sh1 rhs1 :: g2 ++ NontermDef n b sh2 rhs2 :: g3
        /\ same_kind sh sh1 sh2
  | UnknownShell sp =>
      exists n nsp shn rhs, In (NontermDef n nsp (Some (shn, sp)) rhs) g /\ shell_of_string shn = None
  | NonCommandSpecialization sp =>
      exists n nsp sho rhs, In (NontermDef n nsp sho rhs) g /\ sp = expr_span rhs
                            /\ is_command rhs = false
  | NonterminalDefinitionsCycle spans =>
      exists nsp rest, spans = nsp :: rest
                       /\ (exists n rhs, In (NontermDef n nsp None rhs) g)
                       /\ forall sp, In sp rest -> In sp (map snd (grammar_refs g))
  | SubwordSpaces l r trace =>
      In l (grammar_terms g) /\ In r (grammar_terms g)
      /\ forall sp, In sp trace -> In sp (map snd (grammar_refs g))
  end.

Lemma defs_err_prov_grammar g sh e :
  defs_err_prov sh (all_defs g) e -> err_provenance g sh e.
Proof.
  destruct e; cbn; try tauto.
  - intros (n & p1 & sh1 & rhs1 & p2 & sh2 & rhs2 & r & Heq & Hk).
    destruct (all_defs_split _ _ _ _ Heq) as (g1 & g2' & Hg & H1 & H2).
    destruct (all_defs_split _ _ _ _ H2) as (g2 & g3 & Hg2 & H3 & H4).
    exists n, g1, sh1, rhs1, g2, sh2, rhs2, g3. split; [|exact Hk]. subst g g2'. reflexivity.
  - intros (n & nsp & shn & rhs & Hin & Hs). apply in_all_defs in Hin. eauto 10.
  - intros (n & nsp & sho & rhs & Hin & Hs). apply in_all_defs in Hin. eauto 10.
Qed.

Lemma dedup_names_incl l : forall seen, incl (dedup_names seen l) l.
Proof.
  induction l as [|[n sp] l IH]; intro seen; cbn; [apply incl_refl|].
  destruct (mem_str n seen).
  - intros x Hx. right. eapply IH; eauto.
  - intros x [Hx|Hx]; [left; exact Hx|right; eapply IH; eauto].
Qed.

Lemma cv_names_in g n sp : In (n, sp) (cv_names g) -> exists e, In (CallVariant n sp e) g.
Proof.
  unfold cv_names. rewrite in_map_iff. intros [[[n' sp'] e] [Heq Hin]].
  cbn in Heq. inversion Heq; subst. exists e. apply in_call_variants. exact Hin.
Qed.

Lemma stmt_within g s : In s g -> within (grammar_refs g) (grammar_terms g) (stmt_expr s).
Proof.
  intro H. split; intros x Hx; apply in_flat_map; exists s; split; assumption.
Qed.

Lemma expr0_within g : within (grammar_refs g) (grammar_terms g) (expr0_of g).
Proof.
  apply within_tree, expr0_of_tree_all; [exact I|]. intros n sp e Hin. apply within_tree.
  apply (stmt_within g _ Hin).
Qed.

Section Back.
  Variable builtins : shell -> list (string * string).
  Variable g : grammar.
  Variable sh : shell.
  Variable defs0 : list defn.
  Variable us : list (string * user_spec).
  Variable fs : list (string * (string * span)).
  Hypothesis Hcollect : collect_plain_defs (all_defs g) [] = Ok defs0.

  Let R := grammar_refs g.
  Let T := grammar_terms g.
  Let defs1 := defs1_of defs0.
  Let spec := spec_of builtins sh us fs defs1.
  Let defs2 := defs2_of spec defs1.

  Lemma defs2_in d2 :
    In d2 defs2 -> exists rhs0, In (NontermDef (d_name d2) (d_span d2) None rhs0) g
                                /\ d_rhs d2 = spec (distribute_descriptions rhs0).
  Proof.
    unfold defs2, defs2_of, defs1, defs1_of. rewrite map_map. intro H. apply in_map_iff in H.
    destruct H as [d0 [Heq Hin]]. subst d2. cbn. exists (d_rhs d0). split; [|reflexivity].
    apply plain_defs_in. pose proof (collect_plain_defs_eq _ _ _ Hcollect) as Hd. cbn in Hd.
    rewrite <- Hd. exact Hin.
  Qed.

  Lemma table0_within : table_within R T (table0_of defs2).
  Proof.
    intros n rhs Hn. apply assoc_In in Hn. unfold table0_of in Hn. apply in_map_iff in Hn.
    destruct Hn as [d2 [Heq Hin]]. inversion Heq; subst.
    destruct (defs2_in d2 Hin) as [rhs0 [Hg Hr]]. rewrite Hr.
    apply specialize_within. apply distribute_within. apply (stmt_within g _ Hg).
  Qed.

  Lemma expr2_within : within R T (spec (distribute_descriptions (expr0_of g))).
  Proof. apply specialize_within. apply distribute_within. apply expr0_within. Qed.

  Lemma children_refs a b sb :
    In (b, sb) (children (graph_of defs2) a) -> In sb (map snd R).
  Proof.
    unfold children, graph_of. rewrite assoc_graph_of'.
    destruct (assoc a (table0_of defs2)) as [rhs|] eqn:E; cbn [option_map]; [|intros []].
    intro H. apply filter_In in H. destruct H as [H _]. apply get_nonterm_refs_incl in H.
    apply in_map_iff. exists (b, sb). split; [reflexivity|].
    destruct (table0_within _ _ E) as [Hr _]. apply Hr. exact H.
  Qed.

  Lemma chain_refs a rest :
    chain (graph_of defs2) a rest -> forall sp, In sp (map snd rest) -> In sp (map snd R).
  Proof.
    revert a. induction rest as [|[b sb] r IH]; intros a Hc sp Hsp; [destruct Hsp|].
    cbn [chain] in Hc. destruct Hc as [Hb Hc]. destruct Hsp as [Hsp|Hsp].
    - cbn in Hsp. subst sp. eapply children_refs. exact Hb.
    - eapply IH; eauto.
  Qed.

  Lemma cycle_provenance e :
    resolution_order defs2 = Err e -> err_provenance g sh e.
  Proof.
    intro H. apply resolution_order_err in H.
    destruct H as (r & rsp & rest & c & sp & Hv & Hch & Hnd & Hc & Hin & He). subst e. cbn.
    exists rsp, (map snd rest ++ [sp]). split; [reflexivity|]. split.
    - unfold verts_of in Hv. apply in_map_iff in Hv. destruct Hv as [d2 [Heq Hd2]].
      inversion Heq; subst. destruct (defs2_in d2 Hd2) as [rhs0 [Hg _]]. eauto.
    - intros s Hs. apply in_app_or in Hs. destruct Hs as [Hs|[Hs|[]]].
      + eapply chain_refs; eauto.
      + subst s. eapply children_refs. exact Hc.
  Qed.

  Lemma spaces_provenance_top ord err :
    let table := resolve_in_order ord (table0_of defs2) in
    let expr2 := spec (distribute_descriptions (expr0_of g)) in
    spaces table (spaces_fuel table expr2) expr2 [] false false = Err err -> err_provenance g sh err.
  Proof.
    intros table expr2 H.
    eapply (spaces_provenance R T) in H.
    - destruct err; cbn in H; try contradiction. destruct H as (H1 & H2 & H3). cbn. repeat split; auto.
      intros s Hs. destruct (H3 s Hs) as [[]|H]. exact H.
    - apply resolve_in_order_within. apply table0_within.
    - apply expr2_within.
  Qed.

  Lemma undefined_provenance ord n sp :
    let table := resolve_in_order ord (table0_of defs2) in
    let expr2 := spec (distribute_descriptions (expr0_of g)) in
    In (n, sp) (get_nonterm_refs (propagate (collapse (resolve table expr2)) 0)) -> In (n, sp) R.
  Proof.
    intros table expr2 H. apply get_nonterm_refs_incl in H.
    rewrite propagate_spans, collapse_spans in H.
    assert (Hw : within R T (resolve table expr2)).
    { apply resolve_within; [apply resolve_in_order_within; apply table0_within|apply expr2_within]. }
    destruct Hw as [Hr _]. apply Hr. exact H.
  Qed.
End Back.

Theorem errors_provenance builtins g sh e :
  from_grammar builtins g sh = Err e -> err_provenance g sh e.
Proof.
  intro H. apply from_grammar_err in H.
  assert (Hin : forall n sp, In (n, sp) (dedup_names [] (cv_names g)) -> exists e0, In (CallVariant n sp e0) g).
  { intros n sp Hin. apply cv_names_in. eapply dedup_names_incl. exact Hin. }
  destruct H as [[_ ->]|[(c & sp & m & more & Hd & ->)|[(c & sp & Hd & ->)|[H|[H|[[us H]|H]]]]]].
  - exact I.
  - intros s Hs. change (In s (map snd ((c, sp) :: m :: more))) in Hs. apply in_map_iff in Hs.
    destruct Hs as [[n s'] [Heq Hs]]. cbn in Heq. subst s'. exists n. apply Hin. rewrite Hd. exact Hs.
  - exists c. apply Hin. rewrite Hd. left. reflexivity.
  - apply defs_err_prov_grammar.
    apply (collect_plain_defs_prov sh (all_defs g) [] [] e); [intros d []|exact H].
  - apply defs_err_prov_grammar.
    apply (get_user_specs_prov sh (all_defs g) [] [] e); [intros n s []|exact H].
  - apply defs_err_prov_grammar.
    apply (get_fallback_specs_prov sh (map fst us) (all_defs g) [] [] e); [intros n c s []|exact H].
  - destruct H as (command & defs0 & us & fs & Hc & H). apply back_end_err in H.
    destruct H as [H|(ord & _ & H)].
    + eapply cycle_provenance; eauto.
    + eapply spaces_provenance_top; eauto.
Qed.

Theorem warnings_provenance builtins g sh v :
  from_grammar builtins g sh = Ok v ->
  (forall n sp, In (n, sp) (v_undefined v) -> In (n, sp) (grammar_refs g)) /\
  (forall n sp, In (n, sp) (v_unused v) -> exists rhs, In (NontermDef n sp None rhs) g) /\
  (forall n sp, In (n, sp) (v_unused_specs v) ->
                exists shn shsp rhs, In (NontermDef n sp (Some (shn, shsp)) rhs) g
                                     /\ is_shell shn sh = true).
Proof.
  intro H. split; [|split].
  - apply from_grammar_ok in H. rename H into A. rewrite (a_v _ _ _ _ A). cbn [v_undefined].
    intros n sp Hin. eapply undefined_provenance; [exact (a_collect _ _ _ _ A)|exact Hin].
  - apply (unused_plain_exact builtins g sh v H).
  - apply (unused_for_shell_exact builtins g sh v H).
Qed.
