(** Structural facts about the tree returned by [Check.from_grammar] (statement in
    Proofs/TreeFacts.v): no [DistDescr] is left, composite words are flat, every leaf carries the
    index of its innermost [||] branch, and no [|] / [||] lost all its operands.

    The first and the last are properties of single nodes: what holds of every node of the source,
    the [DistDescr] nodes apart, holds of every node of the result ([v_expr_all],
    Proofs/CheckLemmas.v). *)
From CG Require Import Base.Prelude Proofs.ListFacts Model.Ast Model.Check Spec.Lang Proofs.CheckLemmas Proofs.TreeFacts.

Lemma tree_all_bool (p : expr -> bool) (qb : node -> bool) :
  (forall e, p e = qb (node_of e) && forallb p (children_of e)) ->
  forall e, p e = true <-> tree_all (fun n => qb n = true) e.
Proof.
  intro Hp. apply tree_all_char. intro e.
  rewrite Hp, andb_true_iff, forallb_forall, Forall_forall. reflexivity.
Qed.

Definition no_dd (n : node) : bool := match n with NDistDescr => false | _ => true end.
Definition no_subword (n : node) : bool := match n with NSubword => false | _ => true end.
Definition has_operands (n : node) : bool :=
  match n with NAlternative true | NFallback true => false | _ => true end.

Lemma dd_free_nodes e : dd_free e = true <-> tree_all (fun n => no_dd n = true) e.
Proof. apply tree_all_bool. intros []; cbn; rewrite ?andb_true_r; reflexivity. Qed.

Lemma subword_free_nodes e : subword_free e = true <-> tree_all (fun n => no_subword n = true) e.
Proof. apply tree_all_bool. intros []; cbn; rewrite ?andb_true_r; reflexivity. Qed.

Lemma alts_nonempty_nodes e : alts_nonempty e = true <-> tree_all (fun n => has_operands n = true) e.
Proof.
  apply tree_all_bool. intros []; cbn; rewrite ?andb_true_r; try reflexivity; destruct children; reflexivity.
Qed.

Lemma flatten_subword_free e : subword_free (flatten e) = true.
Proof.
  apply subword_free_nodes, tree_all_flatten, tree_all_any. intros [] H; try reflexivity. contradiction.
Qed.

Lemma collapse_flat_subwords e : flat_subwords (collapse e) = true.
Proof.
  induction e as [t dd l sp|n l sp|c z l sp|cs sp IH|cs sp IH|c sp IH|c sp IH|c dd sp IH
                  |cs sp IH|c l sp IH] using expr_ind'; cbn [collapse flat_subwords];
    try reflexivity; try exact IH;
    try (rewrite forallb_map; apply forallb_Forall; exact IH).
  apply flatten_subword_free.
Qed.

Fixpoint lv_list (i : N) (l : list expr) : bool :=
  match l with
  | [] => true
  | c :: r => levels_ok i c && lv_list (N.succ i) r
  end.

Lemma levels_ok_Fallback lvl cs sp : levels_ok lvl (Fallback cs sp) = lv_list 0 cs.
Proof. reflexivity. Qed.

Lemma propagate_list_levels cs :
  Forall (fun c => forall lvl, levels_ok lvl (propagate c lvl) = true) cs ->
  forall i, lv_list i (propagate_list i cs) = true.
Proof.
  induction 1 as [|c cs H _ IH]; intro i; cbn [propagate_list lv_list]; [reflexivity|].
  now rewrite H, IH.
Qed.

Lemma propagate_levels e : forall lvl, levels_ok lvl (propagate e lvl) = true.
Proof.
  induction e as [t dd l sp|n l sp|c z l sp|cs sp IH|cs sp IH|c sp IH|c sp IH|c dd sp IH
                  |cs sp IH|c l sp IH] using expr_ind'; intro lvl;
    try (rewrite propagate_fb, levels_ok_Fallback; apply propagate_list_levels, IH);
    cbn [propagate levels_ok]; rewrite ?N.eqb_refl; try reflexivity; try apply IH;
    rewrite forallb_map; apply forallb_Forall; (eapply Forall_impl; [|exact IH]); intros c H; apply H.
Qed.

Lemma propagate_flat_subwords e :
  forall lvl, flat_subwords e = true -> flat_subwords (propagate e lvl) = true.
Proof.
  induction e as [t dd l sp|n l sp|c z l sp|cs sp IH|cs sp IH|c sp IH|c sp IH|c dd sp IH
                  |cs sp IH|c l sp IH] using expr_ind'; intros lvl E;
    try (rewrite propagate_fb); cbn [propagate flat_subwords] in *;
    try reflexivity;
    try (apply IH; exact E);
    try (rewrite forallb_map; apply forallb_impl_Forall with (p := flat_subwords); [|exact E];
         eapply Forall_impl; [|exact IH]; intros c H; apply H).
  - revert E. generalize 0 as i. induction IH as [|c cs Hc _ IHl]; intros i E; [reflexivity|].
    cbn [propagate_list forallb] in *. apply andb_true_iff in E as [E1 E2]. now rewrite Hc, IHl.
  - apply subword_free_nodes, tree_all_propagate, subword_free_nodes, E.
Qed.

Theorem check_tree : check_tree_statement.
Proof.
  intros builtins g sh v H. apply from_grammar_ok in H. rename H into A.
  assert (Hne : is_nil (call_variants g) = false).
  { pose proof (a_dedup _ _ _ _ A) as Hd. unfold cv_names in Hd. destruct (call_variants g); [discriminate|reflexivity]. }
  split; [|split; [|split]].
  - (* nothing is asked of the source: its [DistDescr] nodes go *)
    assert (Hany : forall e, tree_all (fun n => n <> NDistDescr -> no_dd n = true) e).
    { intro e. apply tree_all_any. intros [] Hn; try reflexivity. contradiction. }
    apply dd_free_nodes, (v_expr_all _ _ _ _ _ A); auto.
  - rewrite (f_equal v_expr (a_v _ _ _ _ A)). apply propagate_flat_subwords, collapse_flat_subwords.
  - rewrite (f_equal v_expr (a_v _ _ _ _ A)). apply propagate_levels.
  - intro Hg. unfold grammar_alts_nonempty in Hg. rewrite forallb_forall in Hg.
    assert (Hsrc : forall e, alts_nonempty e = true ->
                             tree_all (fun n => n <> NDistDescr -> has_operands n = true) e).
    { intros e He. eapply tree_all_impl; [|apply alts_nonempty_nodes; exact He]. cbn. auto. }
    apply alts_nonempty_nodes, (v_expr_all _ _ _ _ _ A).
    + reflexivity.
    + rewrite Hne. reflexivity.
    + intros n sp e Hin. apply Hsrc. exact (Hg _ Hin).
    + intros n sp rhs Hin. apply Hsrc. exact (Hg _ Hin).
Qed.

Print Assumptions check_tree.
