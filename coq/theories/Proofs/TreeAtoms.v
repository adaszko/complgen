(** The atoms of a tree -- its literals, references and commands with their spans, and its distributive
    descriptions, without the fallback levels -- through the passes of the checker: every atom of the
    validated tree is an atom of a call variant or of a plain definition of the grammar (a literal without
    description possibly with a distributive description of the grammar), or what [specialize_ref] puts for
    a reference of the grammar. *)
From CG Require Import Base.Prelude Base.Facts Proofs.ListFacts Model.Ast Model.Check.
From CG Require Import Proofs.CheckLemmas Proofs.CheckSpans Proofs.CheckTotal Proofs.CheckProvenance.

Inductive atom :=
| ALit (t : string) (d : option string) (sp : span)
| ARef (n : string) (sp : span)
| ACmd (c : string) (z : bool) (sp : span)
| ADist (d : string).

Fixpoint atoms (e : expr) : list atom :=
  match e with
  | Terminal t d _ sp => [ALit t d sp]
  | NontermRef n _ sp => [ARef n sp]
  | Command c z _ sp => [ACmd c z sp]
  | DistDescr c d _ => ADist d :: atoms c
  | Subword c _ _ | Optional c _ | Many1 c _ => atoms c
  | Sequence cs _ | Alternative cs _ | Fallback cs _ => flat_map atoms cs
  end.

Definition dists (l : list atom) : list string :=
  flat_map (fun a => match a with ADist d => [d] | _ => [] end) l.

Lemma ref_spans_atoms e :
  ref_spans e = flat_map (fun a => match a with ARef n sp => [(n, sp)] | _ => [] end) (atoms e).
Proof.
  induction e using expr_ind'; cbn [ref_spans atoms flat_map]; try reflexivity; try assumption;
    rewrite flat_map_flat_map; apply flat_map_ext_Forall; exact H.
Qed.

Lemma flatten_atoms e : atoms (flatten e) = atoms e.
Proof.
  induction e using expr_ind'; cbn [flatten atoms]; try reflexivity; try assumption; try (f_equal; exact IHe);
    rewrite flat_map_map; apply flat_map_ext_Forall; exact H.
Qed.

Lemma collapse_atoms e : atoms (collapse e) = atoms e.
Proof.
  induction e using expr_ind'; cbn [collapse atoms]; try reflexivity; try assumption; try (f_equal; exact IHe);
    try (rewrite flat_map_map; apply flat_map_ext_Forall; exact H).
  apply flatten_atoms.
Qed.

Lemma propagate_atoms e : forall lvl, atoms (propagate e lvl) = atoms e.
Proof.
  induction e using expr_ind'; intro lvl; try reflexivity; try (cbn [propagate atoms]; apply IHe);
    try (cbn [propagate atoms]; f_equal; apply IHe).
  - cbn [propagate atoms]. rewrite flat_map_map. apply flat_map_ext_Forall.
    eapply Forall_impl; [|exact H]. intros a Ha. apply Ha.
  - cbn [propagate atoms]. rewrite flat_map_map. apply flat_map_ext_Forall.
    eapply Forall_impl; [|exact H]. intros a Ha. apply Ha.
  - rewrite propagate_fb. cbn [atoms]. generalize 0 as i.
    induction H as [|x l Hx _ IH]; intro i; cbn; [reflexivity|]. rewrite Hx, IH. reflexivity.
Qed.

Definition subst_refs (h : string -> span -> list atom) (a : atom) : list atom :=
  match a with ARef n sp => h n sp | _ => [a] end.

Lemma specialize_ref_level sh us bi fs plain n l sp :
  atoms (specialize_ref sh us bi fs plain n l sp) = atoms (specialize_ref sh us bi fs plain n 0 sp).
Proof.
  unfold specialize_ref. destruct (assoc n us); [reflexivity|]. destruct (assoc n fs) as [[c s]|]; [reflexivity|].
  destruct (mem_str n plain); [reflexivity|]. destruct (assoc n bi); reflexivity.
Qed.

Lemma specialize_ref_cases sh us bi fs plain n l sp :
  specialize_ref sh us bi fs plain n l sp = NontermRef n l sp
  \/ exists c z, specialize_ref sh us bi fs plain n l sp = Command c z l sp /\ (z = false \/ z = is_zsh sh).
Proof.
  unfold specialize_ref. destruct (assoc n us); [right; eauto|]. destruct (assoc n fs) as [[c s]|]; [right; eauto|].
  destruct (mem_str n plain); [left; reflexivity|]. destruct (assoc n bi); [right; eauto|left; reflexivity].
Qed.

Lemma specialize_atoms sh us bi fs plain e :
  atoms (specialize sh us bi fs plain e)
  = flat_map (subst_refs (fun n sp => atoms (specialize_ref sh us bi fs plain n 0 sp))) (atoms e).
Proof.
  induction e using expr_ind'; cbn [specialize atoms flat_map subst_refs app]; try reflexivity; try assumption;
    try (f_equal; exact IHe);
    try (rewrite flat_map_map, flat_map_flat_map; apply flat_map_ext_Forall; exact H).
  rewrite app_nil_r. apply specialize_ref_level.
Qed.

Lemma resolve_atoms t e :
  atoms (resolve t e)
  = flat_map (subst_refs (fun n sp => match assoc n t with Some rhs => atoms rhs | None => [ARef n sp] end)) (atoms e).
Proof.
  induction e using expr_ind'; cbn [resolve atoms flat_map subst_refs app]; try reflexivity; try assumption;
    try (f_equal; exact IHe);
    try (rewrite flat_map_map, flat_map_flat_map; apply flat_map_ext_Forall; exact H).
  rewrite app_nil_r. destruct (assoc n t); reflexivity.
Qed.

Lemma resolve_in_order_atoms ord : forall t m rhs' x,
  assoc m (resolve_in_order ord t) = Some rhs' -> In x (atoms rhs') ->
  exists n rhs, assoc n t = Some rhs /\ In x (atoms rhs).
Proof.
  induction ord as [|k r IH]; intros t m rhs' x Hm Hx; cbn [resolve_in_order] in Hm; [eauto|].
  destruct (assoc k t) as [rhs|] eqn:E; [|exact (IH _ _ _ _ Hm Hx)].
  destruct (IH _ _ _ _ Hm Hx) as [n [rhs1 [Hn Hx1]]]. rewrite assoc_update_def in Hn.
  destruct (String.eqb n k); [|eauto]. destruct (assoc n t); [|discriminate]. injection Hn as <-.
  rewrite resolve_atoms in Hx1. apply in_flat_map in Hx1. destruct Hx1 as [a [Ha Hx1]].
  destruct a as [t0 d sp|n0 sp|c z sp|d]; cbn [subst_refs] in Hx1;
    try (destruct Hx1 as [<-|[]]; eauto).
  destruct (assoc n0 t) as [rhs0|] eqn:E0; [eauto|]. destruct Hx1 as [<-|[]]. eauto.
Qed.

(** [distribute]: a literal without description may get the pending one or that of an enclosing
    distributive description; the distributive descriptions themselves go *)
Definition described (D : list string) (y x : atom) : Prop :=
  x = y \/ exists t sp d, y = ALit t None sp /\ x = ALit t (Some d) sp /\ In d D.

Lemma described_incl D D' y x : incl D D' -> described D y x -> described D' y x.
Proof. intros Hi [H|[t [sp [d [Hy [Hx Hd]]]]]]; [left; exact H|right; exists t, sp, d; auto]. Qed.

Definition pending (d : option string) : list string := match d with Some x => [x] | None => [] end.

Lemma distribute_pending_incl e : forall d, incl (pending (snd (distribute e d))) (pending d).
Proof.
  assert (Hl : forall cs, Forall (fun e => forall d, incl (pending (snd (distribute e d))) (pending d)) cs ->
                          forall d, incl (pending (snd (distribute_list cs d))) (pending d)).
  { induction 1 as [|c r Hc _ IH]; intro d; cbn [distribute_list]; [apply incl_refl|].
    specialize (Hc d). destruct (distribute c d) as [c' d1]. specialize (IH d1).
    destruct (distribute_list r d1) as [r' d2]. cbn [snd] in *. eapply incl_tran; eassumption. }
  induction e using expr_ind'; intro d0; try apply incl_refl.
  - cbn. destruct d; [apply incl_refl|]. destruct d0; [intros y []|apply incl_refl].
  - rewrite distribute_seq. specialize (Hl cs H d0). destruct (distribute_list cs d0). exact Hl.
  - cbn [distribute]. specialize (IHe d0). destruct (distribute e d0). exact IHe.
  - cbn [distribute]. specialize (IHe d0). destruct (distribute e d0). exact IHe.
  - rewrite distribute_fb. specialize (Hl cs H d0). destruct (distribute_list cs d0). exact Hl.
  - cbn [distribute]. specialize (IHe d0). destruct (distribute e d0). exact IHe.
Qed.

Definition from_source (d : option string) (e : expr) (x : atom) : Prop :=
  exists y, In y (atoms e) /\ described (pending d ++ dists (atoms e)) y x.

Lemma from_source_child d d' c cs x :
  In c cs -> incl (pending d') (pending d) -> from_source d' c x ->
  exists y, In y (flat_map atoms cs) /\ described (pending d ++ dists (flat_map atoms cs)) y x.
Proof.
  intros Hc Hd [y [Hy D]]. exists y. split; [apply in_flat_map; eauto|].
  eapply described_incl; [|exact D]. apply incl_app; [apply incl_appl; exact Hd|apply incl_appr].
  unfold dists. rewrite flat_map_flat_map. intros z Hz. apply in_flat_map. eauto.
Qed.

Lemma distribute_atoms e : forall d x, In x (atoms (fst (distribute e d))) -> from_source d e x.
Proof.
  assert (Hl : forall cs, Forall (fun e => forall d x, In x (atoms (fst (distribute e d))) -> from_source d e x) cs ->
                          forall d x, In x (flat_map atoms (fst (distribute_list cs d))) ->
                                      exists c d', In c cs /\ incl (pending d') (pending d) /\ from_source d' c x).
  { induction 1 as [|c r Hc _ IH]; intros d x Hx; cbn [distribute_list] in Hx; [destruct Hx|].
    specialize (Hc d x). pose proof (distribute_pending_incl c d) as Hp. destruct (distribute c d) as [c' d1].
    specialize (IH d1 x). destruct (distribute_list r d1) as [r' d2]. cbn [fst snd flat_map] in *.
    apply in_app_or in Hx. destruct Hx as [Hx|Hx].
    - exists c, d. split; [left; reflexivity|]. split; [apply incl_refl|exact (Hc Hx)].
    - destruct (IH Hx) as [c0 [d' [Hin [Hd F]]]]. exists c0, d'. split; [right; exact Hin|].
      split; [eapply incl_tran; eassumption|exact F]. }
  induction e using expr_ind'; intros d0 x Hx.
  - exists (ALit t d sp). split; [left; reflexivity|]. cbn in Hx.
    destruct d as [y|]; [destruct Hx as [<-|[]]; left; reflexivity|].
    destruct d0 as [y|]; destruct Hx as [<-|[]]; [|left; reflexivity].
    right. exists t, sp, y. split; [reflexivity|]. split; [reflexivity|left; reflexivity].
  - exists (ARef n sp). cbn in Hx. destruct Hx as [<-|[]]. split; [left; reflexivity|left; reflexivity].
  - exists (ACmd c z sp). cbn in Hx. destruct Hx as [<-|[]]. split; [left; reflexivity|left; reflexivity].
  - rewrite distribute_seq in Hx. specialize (Hl cs H d0 x). destruct (distribute_list cs d0). cbn [fst atoms] in Hx.
    destruct (Hl Hx) as [c [d' [Hc [Hd F]]]]. exact (from_source_child d0 d' c cs x Hc Hd F).
  - cbn [distribute fst atoms] in Hx. rewrite flat_map_map in Hx. apply in_flat_map in Hx.
    destruct Hx as [c [Hc Hx]]. rewrite Forall_forall in H.
    exact (from_source_child d0 d0 c cs x Hc (incl_refl _) (H c Hc d0 x Hx)).
  - cbn [distribute] in Hx. specialize (IHe d0 x). destruct (distribute e d0). exact (IHe Hx).
  - cbn [distribute] in Hx. specialize (IHe d0 x). destruct (distribute e d0). exact (IHe Hx).
  - cbn [distribute fst] in Hx. destruct (IHe (Some d) x Hx) as [y [Hy D]].
    exists y. split; [right; exact Hy|]. eapply described_incl; [|exact D].
    cbn [pending atoms dists flat_map app]. intros z [<-|Hz]; apply in_or_app; right; [left; reflexivity|right; exact Hz].
  - rewrite distribute_fb in Hx. specialize (Hl cs H d0 x). destruct (distribute_list cs d0). cbn [fst atoms] in Hx.
    destruct (Hl Hx) as [c [d' [Hc [Hd F]]]]. exact (from_source_child d0 d' c cs x Hc Hd F).
  - cbn [distribute] in Hx. specialize (IHe d0 x). destruct (distribute e d0). exact (IHe Hx).
Qed.

(** the atoms of the call variants and of the plain definitions *)
Definition source_atoms (g : grammar) : list atom :=
  flat_map (fun s => match s with
                     | NontermDef _ _ (Some _) _ => []
                     | _ => atoms (stmt_expr s)
                     end) g.

Lemma source_atoms_in g s x :
  In s g -> match s with NontermDef _ _ (Some _) _ => False | _ => True end ->
  In x (atoms (stmt_expr s)) -> In x (source_atoms g).
Proof.
  intros Hs Hp Hx. apply in_flat_map. exists s. split; [exact Hs|].
  destruct s as [n sp e|n sp [shn|] rhs]; [exact Hx|destruct Hp|exact Hx].
Qed.

Lemma source_atoms_inv g x : In x (source_atoms g) -> exists s, In s g /\ In x (atoms (stmt_expr s)).
Proof.
  intro H. apply in_flat_map in H. destruct H as [s [Hs Hx]]. exists s. split; [exact Hs|].
  destruct s as [n sp e|n sp [shn|] rhs]; [exact Hx|destruct Hx|exact Hx].
Qed.

Lemma source_refs g n sp : In (ARef n sp) (source_atoms g) -> In (n, sp) (grammar_refs g).
Proof.
  intro H. destruct (source_atoms_inv g _ H) as [s [Hs Hx]]. apply in_flat_map. exists s. split; [exact Hs|].
  rewrite ref_spans_atoms. apply in_flat_map. exists (ARef n sp). split; [exact Hx|left; reflexivity].
Qed.

Lemma expr0_atoms g x : In x (atoms (expr0_of g)) -> In x (source_atoms g).
Proof.
  assert (Hall : forall e, In e (map snd (call_variants g)) -> In x (atoms e) -> In x (source_atoms g)).
  { intros e He Hx. apply in_map_iff in He. destruct He as [[[n sp] e'] [Heq Hin]].
    cbn in Heq. subst e'. unfold call_variants in Hin. apply in_flat_map in Hin.
    destruct Hin as [s [Hs Hin]]. destruct s; [|destruct Hin]. destruct Hin as [Hin|[]].
    inversion Hin; subst. exact (source_atoms_in g _ x Hs I Hx). }
  unfold expr0_of. destruct (map snd (call_variants g)) as [|e [|e' r]] eqn:E.
  - intros [].
  - apply Hall. left. reflexivity.
  - cbn [atoms]. intro H. apply in_flat_map in H. destruct H as [e0 [He0 Hx]]. exact (Hall e0 He0 Hx).
Qed.

(** [x] is an atom of the source, possibly with a distributive description of the source, or what
    [specialize_ref] puts for a reference of the source *)
Definition sourced builtins g sh v (A : accepted builtins g sh v) (x : atom) : Prop :=
  exists y, In y (source_atoms g)
            /\ (described (dists (source_atoms g)) y x
                \/ exists n sp, y = ARef n sp
                                /\ In x (atoms (specialize_ref sh (a_us _ _ _ _ A) (builtins sh) (a_fs _ _ _ _ A)
                                                               (map d_name (a_defs1 _ _ _ _ A)) n 0 sp))).

Theorem from_grammar_atoms builtins g sh v (A : accepted builtins g sh v) x :
  In x (atoms (v_expr v)) -> sourced builtins g sh v A x.
Proof.
  intro Hx. rewrite (a_v _ _ _ _ A) in Hx. cbn [v_expr] in Hx. unfold a_expr5 in Hx.
  rewrite propagate_atoms, collapse_atoms, resolve_atoms in Hx.
  pose proof (a_collect _ _ _ _ A) as Hcol.
  (* an atom of a specialised and distributed source expression *)
  assert (Hspec : forall e, (forall y, In y (atoms e) -> In y (source_atoms g)) ->
                            In x (atoms (a_spec _ _ _ _ A (distribute_descriptions e))) -> sourced builtins g sh v A x).
  { intros e He Hs. unfold a_spec, spec_of in Hs. rewrite specialize_atoms in Hs. apply in_flat_map in Hs.
    destruct Hs as [a [Ha Hs]]. destruct (distribute_atoms e None a Ha) as [y [Hy D]]. cbn [pending app] in D.
    assert (D' : described (dists (source_atoms g)) y a).
    { eapply described_incl; [|exact D]. unfold dists. intros z Hz. apply in_flat_map in Hz.
      destruct Hz as [b [Hb Hz]]. apply in_flat_map. exists b. split; [apply He; exact Hb|exact Hz]. }
    destruct a as [t d sp|n sp|c z sp|d]; cbn [subst_refs] in Hs.
    2:{ exists (ARef n sp). destruct D as [<-|[t [sp' [d [_ [F _]]]]]]; [|discriminate F].
        split; [apply He; exact Hy|right; exists n, sp; split; [reflexivity|exact Hs]]. }
    all: destruct Hs as [<-|[]]; exists y; (split; [apply He; exact Hy|left; exact D']). }
  assert (Hroot : In x (atoms (a_expr2 _ _ _ _ A)) -> sourced builtins g sh v A x)
    by (apply (Hspec (expr0_of g)); apply expr0_atoms).
  apply in_flat_map in Hx. destruct Hx as [a [Ha Hx]].
  destruct a as [t d sp|n sp|c z sp|d]; cbn [subst_refs] in Hx; try (destruct Hx as [<-|[]]; exact (Hroot Ha)).
  destruct (assoc n (a_table _ _ _ _ A)) as [rhs|] eqn:E; [|destruct Hx as [<-|[]]; exact (Hroot Ha)].
  (* an atom of an entry of the resolved table *)
  destruct (resolve_in_order_atoms _ _ _ _ _ E Hx) as [m [rhs0 [Hm Hx0]]].
  apply assoc_In in Hm. unfold table0_of in Hm. apply in_map_iff in Hm.
  destruct Hm as [d2 [Heq Hin]]. inversion Heq; subst.
  destruct (defs2_in builtins g sh _ (a_us _ _ _ _ A) (a_fs _ _ _ _ A) Hcol d2 Hin) as [rhs1 [Hg Hr1]].
  rewrite Hr1 in Hx0. refine (Hspec rhs1 _ Hx0). intros y Hy. exact (source_atoms_in g _ y Hg I Hy).
Qed.
