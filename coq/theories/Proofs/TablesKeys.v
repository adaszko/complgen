(** The emitted tables are maps: the rows of a match table have pairwise different states, a row
    has pairwise different keys, and every level of a completion table has pairwise different
    states (they model [BTreeMap]s: strictly increasing keys).  Hence the way the script reads
    them ([assocN]: first entry) sees every entry ([tbl_has] / [mem3] of Proofs/TablesSound.v). *)
From CG Require Import Base.Prelude Model.Dfa Model.Tables Spec.MinimizeSpec Proofs.MinimizeBasics Proofs.TablesSound.

(** [insertN] is [bm_insert] of Model/Minimize.v under another name *)
Lemma insertN_sorted x l : sortedN l -> sortedN (insertN x l).
Proof. change (insertN x l) with (Minimize.bm_insert x l). apply bm_insert_sorted. Qed.

Lemma setN_sorted l : sortedN (setN l).
Proof.
  unfold setN. assert (G : forall acc, sortedN acc -> sortedN (fold_left (fun acc x => insertN x acc) l acc)).
  { induction l as [| x l IH]; intros acc H; [exact H |]. cbn [fold_left]. apply IH. apply insertN_sorted. exact H. }
  apply G. exact I.
Qed.

Lemma get_all_states_NoDup d : NoDup (get_all_states d).
Proof. unfold get_all_states. apply sortedN_NoDup. apply insertN_sorted. apply setN_sorted. Qed.

Lemma bt_update_keys {V} k (f : option V -> V) m x : In x (map fst (bt_update k f m)) <-> x = k \/ In x (map fst m).
Proof.
  induction m as [| [k' v'] r IH]; cbn [bt_update map fst In]; [intuition congruence |].
  destruct (N.ltb k k'); cbn [map fst In]; [intuition congruence |].
  destruct (N.eqb k k') eqn:E; cbn [map fst In].
  - apply N.eqb_eq in E. subst k'. intuition congruence.
  - rewrite IH. tauto.
Qed.

Lemma bt_update_sorted {V} k (f : option V -> V) m : sortedN (map fst m) -> sortedN (map fst (bt_update k f m)).
Proof.
  induction m as [| [k' v'] r IH]; intro H; cbn [bt_update]; [split; [intros z []|exact I] |].
  destruct (N.ltb k k') eqn:E1.
  - apply N.ltb_lt in E1. cbn [map fst]. split; [|exact H].
    cbn [map fst] in H. intros z [<- | Hz]; [assumption |]. pose proof (proj1 H z Hz). lia.
  - destruct (N.eqb k k') eqn:E2.
    + apply N.eqb_eq in E2. subst. exact H.
    + apply N.ltb_ge in E1. apply N.eqb_neq in E2. cbn [map fst] in *. split; [|apply IH, H].
      intros z Hz. apply bt_update_keys in Hz. destruct Hz as [-> | Hz]; [lia | apply (proj1 H z Hz)].
Qed.

Lemma bt_of_list_sorted {V} (l : list (N * V)) : sortedN (map fst (bt_of_list l)).
Proof.
  unfold bt_of_list.
  assert (G : forall acc : list (N * V), sortedN (map fst acc) ->
                                         sortedN (map fst (fold_left (fun acc kv => bt_insert (fst kv) (snd kv) acc) l acc))).
  { induction l as [| kv l IH]; intros acc H; [exact H |]. cbn [fold_left]. apply IH. apply bt_update_sorted. exact H. }
  apply G. exact I.
Qed.

Lemma match_table_keys d states sel tbl :
  NoDup states -> match_table d states sel = Ok tbl ->
  NoDup (map fst tbl) /\ forall s row, In (s, row) tbl -> NoDup (map fst row).
Proof.
  intros Hnd H. split.
  - unfold match_table in H. apply obind_ok in H. destruct H as [rows [Hrows H]]. inversion H; subst.
    assert (E : map fst rows = states).
    { clear H. revert rows Hrows. induction states as [| s states IH]; intros rows Hrows; cbn [omap] in Hrows.
      - inversion Hrows; subst. reflexivity.
      - apply obind_ok in Hrows. destruct Hrows as [y [Hy Hrows]]. apply obind_ok in Hrows. destruct Hrows as [ys [Hys Hrows]].
        inversion Hrows; subst. cbn [map]. f_equal.
        + apply obind_ok in Hy. destruct Hy as [tr [_ Hy]]. apply obind_ok in Hy. destruct Hy as [kvs [_ Hy]]. inversion Hy; subst. reflexivity.
        + apply IH; [inversion Hnd; assumption | assumption]. }
    rewrite <- E in Hnd. clear -Hnd. induction rows as [| r rows IH]; [constructor |].
    cbn [map] in Hnd. inversion Hnd as [| x xs Hnot Hnd']; subst. cbn [filter].
    destruct (match snd r with [] => false | _ :: _ => true end).
    + cbn [map]. constructor; [| apply IH; assumption]. intro Hin. apply Hnot.
      apply in_map_iff in Hin. destruct Hin as [y [Ey Hy]]. apply filter_In in Hy. destruct Hy as [Hy _].
      apply in_map_iff. exists y. split; assumption.
    + apply IH; assumption.
  - intros s row Hin. apply (match_table_rows _ _ _ _ H) in Hin. destruct Hin as [_ [_ [tr [_ ->]]]].
    apply sortedN_NoDup. apply bt_of_list_sorted.
Qed.

Lemma tbl_has_assoc tbl s k to :
  NoDup (map fst tbl) -> (forall s row, In (s, row) tbl -> NoDup (map fst row)) ->
  (tbl_has tbl s k to <-> exists row, assocN s tbl = Some row /\ assocN k row = Some to).
Proof.
  intros H1 H2. split.
  - intros [row [Hrow Hk]]. exists row. split; [apply in_assocN; assumption | apply in_assocN; [eapply H2; eassumption | assumption]].
  - intros [row [Hrow Hk]]. exists row. split; apply assocN_In; assumption.
Qed.

Lemma update_nth_forall {A} (P : A -> Prop) n (f : A -> A) : forall l l',
    (forall x, P x -> P (f x)) -> Forall P l -> update_nth n f l = Some l' -> Forall P l'.
Proof.
  induction n as [| n IH]; intros l l' Hf Hl H; destruct l as [| x r]; cbn [update_nth] in H; try discriminate.
  - inversion H; subst. inversion Hl; subst. constructor; [apply Hf; assumption | assumption].
  - destruct (update_nth n f r) as [r' |] eqn:E; [| discriminate]. inversion H; subst. inversion Hl; subst.
    constructor; [assumption | eapply IH; eassumption].
Qed.

Lemma completion_table_keys rt maxlevel sel add L :
  completion_table rt maxlevel sel add = Ok L -> Forall (fun lv => NoDup (map fst lv)) L.
Proof.
  intro H. change (fold_left (comp_step sel add) rt (Ok (repeat [] (N.to_nat maxlevel + 1))) = Ok L) in H.
  assert (G : forall rt0 L0 L1, Forall (fun lv : list (N * list N) => sortedN (map fst lv)) L0 ->
                                fold_left (comp_step sel add) rt0 (Ok L0) = Ok L1 ->
                                Forall (fun lv => sortedN (map fst lv)) L1).
  { induction rt0 as [| [[f x] t] rt0 IH]; intros L0 L1 H0 HF; cbn [fold_left] in HF.
    - inversion HF; subst. assumption.
    - destruct (comp_step sel add (Ok L0) (f, x, t)) as [L2 | | |] eqn:E;
        try (exfalso; revert HF; apply comp_fold_not_ok; intros L'; discriminate).
      apply (IH L2 L1); [| assumption]. cbn in E.
      destruct (sel x) as [[lvl rid] |]; [| inversion E; subst; assumption].
      destruct rid as [id0 | | |]; cbn in E; try discriminate.
      destruct (update_nth (N.to_nat lvl) _ L0) as [L2' |] eqn:Eu; [| discriminate]. inversion E; subst.
      eapply update_nth_forall; [| exact H0 | exact Eu]. intros lv Hlv. apply bt_update_sorted. assumption. }
  eapply Forall_impl; [| eapply G; [| exact H]].
  - intros lv Hlv. apply sortedN_NoDup. assumption.
  - apply Forall_forall. intros lv Hlv. apply repeat_spec in Hlv. subst. exact I.
Qed.

Lemma mem3_level_row L k s id :
  Forall (fun lv => NoDup (map fst lv)) L ->
  (mem3 L k s id <-> In id (match nth_error L (N.to_nat k) with
                            | Some rows => match assocN s rows with Some ids => ids | None => [] end
                            | None => []
                            end)).
Proof.
  intro HL. unfold mem3, mem2. split.
  - intros [row [Hr [ids [Hin Hid]]]]. rewrite Hr.
    assert (ND : NoDup (map fst row)). { rewrite Forall_forall in HL. apply HL. eapply nth_error_In. eassumption. }
    rewrite (in_assocN s row ids ND Hin). assumption.
  - intro H. destruct (nth_error L (N.to_nat k)) as [rows |] eqn:Er; [| destruct H].
    destruct (assocN s rows) as [ids |] eqn:Ea; [| destruct H].
    exists rows. split; [reflexivity |]. exists ids. split; [apply assocN_In; assumption | assumption].
Qed.

