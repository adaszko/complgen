(** C08, "the same literal expected at one point with two different descriptions": what the walk
    of [DFA::check_ambiguity_best_effort] (Model/Ambiguity.v) decides.

    - [check_state] accepts a state iff it has neither two literal inputs with equal text and
      different descriptions ([conflicting]) nor two or more star inputs one of which leads to a
      non-accepting state ([star_ambiguous]) -- the sort / dedup / neighbour comparison is a
      correct implementation of "some two labels clash";
    - the walk visits exactly the states reachable from the start state: [Ok] means every
      reachable state is clean, an error is the error of a reachable state and its path is the
      list of inputs of a real path from the start state to that state.
    (Totality -- no [Panic], no [OutOfFuel] -- is [AmbTotal.check_ambiguity_total]; here it is
    the hypothesis [fine] of [amb_decides].) *)
From CG Require Import Base.Prelude Base.Facts Model.Dfa Model.Ambiguity.

Lemma N_of_ascii_inj x y : N_of_ascii x = N_of_ascii y -> x = y.
Proof. intro H. rewrite <- (ascii_N_embedding x), <- (ascii_N_embedding y), H. reflexivity. Qed.

Lemma str_leb_refl a : str_leb a a = true.
Proof. induction a as [|x r IH]; cbn [str_leb]; [reflexivity|]. rewrite N.ltb_irrefl. exact IH. Qed.

Lemma str_leb_total a : forall b, str_leb a b = true \/ str_leb b a = true.
Proof.
  induction a as [|x r IH]; intro b; [left; reflexivity|]. destruct b as [|y s]; [right; reflexivity|].
  cbn [str_leb]. destruct (N.ltb_spec (N_of_ascii x) (N_of_ascii y)); [left; reflexivity|].
  destruct (N.ltb_spec (N_of_ascii y) (N_of_ascii x)); [right; reflexivity|].
  apply IH.
Qed.

Lemma str_leb_trans a : forall b c, str_leb a b = true -> str_leb b c = true -> str_leb a c = true.
Proof.
  induction a as [|x r IH]; intros b c Hab Hbc; [reflexivity|].
  destruct b as [|y s]; [discriminate|]. destruct c as [|z t]; [discriminate|].
  cbn [str_leb] in *.
  destruct (N.ltb_spec (N_of_ascii x) (N_of_ascii y)) as [Hxy|Hxy];
    destruct (N.ltb_spec (N_of_ascii y) (N_of_ascii z)) as [Hyz|Hyz];
    destruct (N.ltb_spec (N_of_ascii x) (N_of_ascii z)) as [Hxz|Hxz]; try reflexivity; try lia.
  - destruct (N.ltb_spec (N_of_ascii z) (N_of_ascii y)); [discriminate|]. lia.
  - destruct (N.ltb_spec (N_of_ascii y) (N_of_ascii x)); [discriminate|]. lia.
  - destruct (N.ltb_spec (N_of_ascii y) (N_of_ascii x)) as [H1|H1]; [discriminate|].
    destruct (N.ltb_spec (N_of_ascii z) (N_of_ascii y)) as [H2|H2]; [discriminate|].
    destruct (N.ltb_spec (N_of_ascii z) (N_of_ascii x)) as [H3|H3]; [lia|].
    eapply IH; eauto.
Qed.

Lemma str_leb_antisym a : forall b, str_leb a b = true -> str_leb b a = true -> a = b.
Proof.
  induction a as [|x r IH]; intros b Hab Hba; destruct b as [|y s]; try reflexivity; try discriminate.
  cbn [str_leb] in *.
  destruct (N.ltb_spec (N_of_ascii x) (N_of_ascii y)) as [Hxy|Hxy];
    destruct (N.ltb_spec (N_of_ascii y) (N_of_ascii x)) as [Hyx|Hyx]; try discriminate; try lia.
  assert (E : x = y) by (apply N_of_ascii_inj; lia). subst y. f_equal. apply IH; assumption.
Qed.

Definition lab := (string * option string)%type.

Fixpoint sortedT (l : list lab) : Prop :=
  match l with
  | x :: ((y :: _) as r) => str_leb (fst x) (fst y) = true /\ sortedT r
  | _ => True
  end.

Lemma sortedT_tail x l : sortedT (x :: l) -> sortedT l.
Proof. destruct l; cbn; tauto. Qed.

Lemma insert_In x l z : In z (insert_by_text x l) <-> z = x \/ In z l.
Proof.
  induction l as [|y r IH]; cbn; [intuition congruence|].
  destruct (str_leb (fst y) (fst x)); cbn [In]; rewrite ?IH; intuition congruence.
Qed.

Lemma insert_sorted x l : sortedT l -> sortedT (insert_by_text x l).
Proof.
  induction l as [|y r IH]; intro Hs; [exact I|]. cbn [insert_by_text].
  destruct (str_leb (fst y) (fst x)) eqn:E.
  - specialize (IH (sortedT_tail _ _ Hs)). destruct r as [|z r']; cbn [insert_by_text] in *.
    + cbn. split; [exact E|exact I].
    + destruct (str_leb (fst z) (fst x)) eqn:E2.
      * cbn in Hs |- *. destruct Hs as [Hyz _]. split; [exact Hyz|exact IH].
      * split; [exact E|exact IH].
  - cbn [sortedT]. split; [|exact Hs].
    destruct (str_leb_total (fst x) (fst y)) as [H|H]; [exact H|congruence].
Qed.

Lemma sort_In_acc l : forall acc z,
  In z (fold_left (fun a x => insert_by_text x a) l acc) <-> In z l \/ In z acc.
Proof.
  induction l as [|x r IH]; intros acc z; cbn [fold_left]; [cbn; tauto|].
  rewrite IH, insert_In. cbn. intuition congruence.
Qed.

Lemma sort_sorted_acc l : forall acc, sortedT acc -> sortedT (fold_left (fun a x => insert_by_text x a) l acc).
Proof.
  induction l as [|x r IH]; intros acc H; cbn [fold_left]; [exact H|]. apply IH. apply insert_sorted. exact H.
Qed.

Lemma sort_In l z : In z (sort_by_text l) <-> In z l.
Proof. unfold sort_by_text. rewrite sort_In_acc. cbn. tauto. Qed.

Lemma sort_sorted l : sortedT (sort_by_text l).
Proof. apply sort_sorted_acc. exact I. Qed.

Lemma sorted_head_le x l : sortedT (x :: l) -> forall b, In b l -> str_leb (fst x) (fst b) = true.
Proof.
  revert x. induction l as [|y r IH]; intros x Hs b Hb; [destruct Hb|].
  cbn in Hs. destruct Hs as [Hxy Hs]. destruct Hb as [Hb|Hb]; [subst; exact Hxy|].
  eapply str_leb_trans; [exact Hxy|]. apply (IH y Hs b Hb).
Qed.

Definition clash (a b : lab) : Prop := fst a = fst b /\ snd a <> snd b.

Definition has_clash (l : list lab) : Prop := exists a b, In a l /\ In b l /\ clash a b.

Fixpoint adj_clash (l : list lab) : Prop :=
  match l with
  | x :: ((y :: _) as r) => clash x y \/ adj_clash r
  | _ => False
  end.

Lemma option_str_dec (a b : option string) : a = b \/ a <> b.
Proof.
  destruct (option_eqb String.eqb a b) eqn:E; [left; apply (option_eqb_eq String.eqb String.eqb_eq); exact E|].
  right. intro H. apply (option_eqb_eq String.eqb String.eqb_eq) in H. congruence.
Qed.

Lemma adj_clash_in l : adj_clash l -> has_clash l.
Proof.
  induction l as [|x r IH]; [intros []|]. destruct r as [|y r']; [intros []|].
  cbn [adj_clash]. intros [H|H].
  - exists x, y. cbn. tauto.
  - destruct (IH H) as (a & b & Ha & Hb & Hc). exists a, b. cbn in *. tauto.
Qed.

Lemma sorted_clash_adj l : sortedT l -> has_clash l -> adj_clash l.
Proof.
  induction l as [|x r IH]; intros Hs (a & b & Ha & Hb & Hc); [destruct Ha|].
  assert (Hr : has_clash r -> adj_clash (x :: r)).
  { intro H. destruct r as [|y r']; [destruct H as (? & ? & [] & _)|].
    right. apply IH; [exact (sortedT_tail _ _ Hs)|exact H]. }
  (* one of the two is the head *)
  assert (Hhead : forall b, In b r -> fst x = fst b -> snd x <> snd b -> adj_clash (x :: r)).
  { intros b0 Hb0 Ht Hd. destruct r as [|y r']; [destruct Hb0|].
    assert (Hxy : str_leb (fst x) (fst y) = true) by (cbn in Hs; tauto).
    assert (Hyb : str_leb (fst y) (fst b0) = true).
    { destruct Hb0 as [Hb0|Hb0]; [subst; apply str_leb_refl|].
      apply (sorted_head_le y r' (sortedT_tail _ _ Hs) b0 Hb0). }
    assert (Hty : fst x = fst y).
    { apply str_leb_antisym; [exact Hxy|]. rewrite Ht. exact Hyb. }
    destruct (option_str_dec (snd x) (snd y)) as [Hd'|Hd'].
    - apply Hr. exists y, b0. split; [left; reflexivity|]. split; [exact Hb0|].
      split; [congruence|congruence].
    - left. split; assumption. }
  destruct Ha as [Ha|Ha], Hb as [Hb|Hb].
  - subst. destruct Hc as [_ Hc]. congruence.
  - subst a. destruct Hc as [Ht Hd]. apply (Hhead b Hb Ht Hd).
  - subst b. destruct Hc as [Ht Hd]. apply (Hhead a Ha); [congruence|congruence].
  - apply Hr. exists a, b. tauto.
Qed.

Lemma lit_eqb_eq (a b : lab) : lit_eqb a b = true <-> a = b.
Proof.
  unfold lit_eqb. rewrite andb_true_iff, String.eqb_eq, (option_eqb_eq String.eqb String.eqb_eq).
  destruct a, b; cbn. split; [intros [H1 H2]; congruence|intro H; inversion H; tauto].
Qed.

Lemma dedup_cons2 x y r :
  dedup (x :: y :: r) = if lit_eqb x y then dedup (y :: r) else x :: dedup (y :: r).
Proof. reflexivity. Qed.

Lemma dedup_head x r : exists r', dedup (x :: r) = x :: r'.
Proof.
  revert x. induction r as [|y r IH]; intro x; [exists []; reflexivity|].
  rewrite dedup_cons2. destruct (lit_eqb x y) eqn:E.
  - apply lit_eqb_eq in E. subst y. apply IH.
  - eexists. reflexivity.
Qed.

Lemma dedup_In l z : In z (dedup l) -> In z l.
Proof.
  induction l as [|x r IH]; [intros []|]. destruct r as [|y r']; [cbn; tauto|].
  rewrite dedup_cons2. destruct (lit_eqb x y); intro H.
  - right. apply IH. exact H.
  - destruct H as [H|H]; [left; exact H|right; apply IH; exact H].
Qed.

Lemma dedup_adj l : adj_clash (dedup l) <-> adj_clash l.
Proof.
  induction l as [|x r IH]; [reflexivity|]. destruct r as [|y r']; [reflexivity|].
  rewrite dedup_cons2. destruct (lit_eqb x y) eqn:E.
  - apply lit_eqb_eq in E. subst y. rewrite IH. cbn [adj_clash]. unfold clash. intuition congruence.
  - destruct (dedup_head y r') as [r'' Hd]. rewrite Hd in *. cbn [adj_clash] in *. tauto.
Qed.

Lemma first_conflict_adj l : first_conflict l <> None <-> adj_clash l.
Proof.
  induction l as [|[t1 d1] r IH]; [cbn; intuition congruence|]. destruct r as [|[t2 d2] r']; [cbn; intuition congruence|].
  cbn [first_conflict adj_clash]. unfold clash at 1. cbn [fst snd].
  destruct (String.eqb t1 t2) eqn:Et; cbn [andb].
  - apply String.eqb_eq in Et. subst t2.
    destruct (option_eqb String.eqb d1 d2) eqn:Ed; cbn [negb].
    + apply (option_eqb_eq String.eqb String.eqb_eq) in Ed. subst d2. rewrite IH. intuition congruence.
    + split; [intros _|discriminate]. left. split; [reflexivity|]. intro H.
      apply (option_eqb_eq String.eqb String.eqb_eq) in H. congruence.
  - apply String.eqb_neq in Et. rewrite IH. intuition congruence.
Qed.

Lemma first_conflict_some l t d1 d2 :
  first_conflict l = Some (t, d1, d2) -> In (t, d1) l /\ In (t, d2) l /\ d1 <> d2.
Proof.
  induction l as [|[t1 e1] r IH]; [discriminate|]. destruct r as [|[t2 e2] r']; [discriminate|].
  cbn [first_conflict].
  destruct (String.eqb t1 t2 && negb (option_eqb String.eqb e1 e2)) eqn:E.
  - intro H. inversion H; subst. apply andb_true_iff in E. destruct E as [Et Ed].
    apply String.eqb_eq in Et. subst t2. split; [left; reflexivity|]. split; [right; left; reflexivity|].
    intro Heq. apply (option_eqb_eq String.eqb String.eqb_eq) in Heq. rewrite Heq in Ed. discriminate.
  - intro H. destruct (IH H) as (A & B & C). split; [right; exact A|]. split; [right; exact B|exact C].
Qed.

Theorem conflict_search_correct (lits : list lab) :
  first_conflict (dedup (sort_by_text lits)) = None <-> ~ has_clash lits.
Proof.
  split.
  - intros H Hc. assert (Hs : has_clash (sort_by_text lits)).
    { destruct Hc as (a & b & Ha & Hb & Hc). exists a, b. rewrite !sort_In. tauto. }
    apply (sorted_clash_adj _ (sort_sorted lits)) in Hs. apply dedup_adj in Hs.
    apply first_conflict_adj in Hs. congruence.
  - intro H. destruct (first_conflict (dedup (sort_by_text lits))) as [[[t d1] d2]|] eqn:E; [|reflexivity].
    exfalso. apply H. apply first_conflict_some in E. destruct E as (A & B & C).
    apply dedup_In in A. apply dedup_In in B. rewrite sort_In in A, B.
    exists (t, d1), (t, d2). split; [exact A|]. split; [exact B|]. split; [reflexivity|]. cbn. congruence.
Qed.

Definition star_targets (d : dfa) (s : N) : list N :=
  flat_map (fun p => match nthN (d_inputs d) (fst p) with Some IStar => [snd p] | _ => [] end)
           (transitions_from d s).

Definition lit_labels (d : dfa) (s : N) : list lab :=
  flat_map (fun p => match nthN (d_inputs d) (fst p) with Some (ILit t de _) => [(t, de)] | _ => [] end)
           (transitions_from d s).

Definition star_ambiguous (d : dfa) (s : N) : Prop :=
  (2 <= List.length (star_targets d s))%nat /\ exists t, In t (star_targets d s) /\ is_accepting d t = false.

Definition conflicting (d : dfa) (s : N) : Prop := has_clash (lit_labels d s).

Definition inputs_in_range (d : dfa) (s : N) : Prop :=
  forall i t, In (i, t) (transitions_from d s) -> nthN (d_inputs d) i <> None.

Definition ins_of (d : dfa) (ts : list (N * N)) : ares (list (inp * N)) :=
  omap (fun p => do x <- input_of d (fst p); Ok (x, snd p)) ts.

Lemma ins_of_ok d ts ins : ins_of d ts = Ok ins ->
  (forall i t, In (i, t) ts -> nthN (d_inputs d) i <> None) /\
  map snd (filter (fun p => match fst p with IStar => true | _ => false end) ins)
  = flat_map (fun p => match nthN (d_inputs d) (fst p) with Some IStar => [snd p] | _ => [] end) ts /\
  flat_map (fun p => match fst p with ILit t de _ => [(t, de)] | _ => [] end) ins
  = flat_map (fun p => match nthN (d_inputs d) (fst p) with Some (ILit t de _) => [(t, de)] | _ => [] end) ts.
Proof.
  revert ins. induction ts as [|[i t] r IH]; intros ins H.
  - cbn in H. inversion H; subst. cbn. repeat split. intros ? ? [].
  - unfold ins_of in H. cbn [omap] in H. unfold input_of in H at 1. cbn [fst snd] in H.
    destruct (nthN (d_inputs d) i) as [x|] eqn:Ei; cbn [obind] in H; [|discriminate].
    fold (ins_of d r) in H. destruct (ins_of d r) as [ins'| | |] eqn:Er; cbn [obind] in H; try discriminate.
    inversion H; subst ins. destruct (IH ins' eq_refl) as (A & B & C). repeat split.
    + intros i0 t0 [Hin|Hin]; [inversion Hin; subst; congruence|eapply A; eauto].
    + cbn [filter flat_map fst snd]. rewrite Ei. destruct x; cbn; rewrite B; reflexivity.
    + cbn [flat_map fst snd]. rewrite Ei. destruct x; cbn; rewrite C; reflexivity.
Qed.

Lemma ins_of_total d ts :
  (forall i t, In (i, t) ts -> nthN (d_inputs d) i <> None) -> exists ins, ins_of d ts = Ok ins.
Proof.
  induction ts as [|[i t] r IH]; intro H; [eexists; reflexivity|].
  unfold ins_of. cbn [omap]. unfold input_of at 1. cbn [fst snd].
  destruct (nthN (d_inputs d) i) as [x|] eqn:Ei; [|exfalso; eapply H; [left; reflexivity|exact Ei]].
  cbn [obind]. destruct IH as [ins Hi]; [intros; eapply H; right; eauto|].
  fold (ins_of d r). rewrite Hi. cbn. eexists; reflexivity.
Qed.

Lemma ins_of_not_err d ts e : ins_of d ts <> Err e.
Proof.
  unfold ins_of. revert e. induction ts as [|[i t] r IH]; intros e H; [discriminate|].
  cbn [omap] in H. unfold input_of in H at 1. cbn [fst snd] in H.
  destruct (nthN (d_inputs d) i); cbn [obind] in H; [|discriminate].
  destruct (omap _ r) as [x|e'| |] eqn:Er; cbn [obind] in H; try discriminate. exact (IH e' eq_refl).
Qed.

Lemma check_state_unfold d s path :
  check_state d s path =
  do ins <- ins_of d (transitions_from d s);
  let stars := filter (fun p => match fst p with IStar => true | _ => false end) ins in
  if (Nat.leb 2 (List.length stars)) && existsb (fun p => negb (is_accepting d (snd p))) stars
  then Err (AmbiguousDFA path (map fst stars))
  else
    let lits := flat_map (fun p => match fst p with ILit t de _ => [(t, de)] | _ => [] end) ins in
    match first_conflict (dedup (sort_by_text lits)) with
    | Some (t, l, r) => Err (ConflictingDescriptions path t (descr_or_empty l) (descr_or_empty r))
    | None => Ok tt
    end.
Proof. reflexivity. Qed.

Lemma star_test d (stars : list (inp * N)) :
  (Nat.leb 2 (List.length stars)) && existsb (fun p => negb (is_accepting d (snd p))) stars = true
  <-> (2 <= List.length (map snd stars))%nat /\ exists t, In t (map snd stars) /\ is_accepting d t = false.
Proof.
  rewrite andb_true_iff, Nat.leb_le, map_length, existsb_exists. split.
  - intros [H1 [p [Hp Ha]]]. split; [exact H1|]. exists (snd p). split; [apply in_map; exact Hp|].
    destruct (is_accepting d (snd p)); [discriminate|reflexivity].
  - intros [H1 [t [Ht Ha]]]. split; [exact H1|]. apply in_map_iff in Ht. destruct Ht as [p [Hp Hin]].
    exists p. split; [exact Hin|]. subst t. rewrite Ha. reflexivity.
Qed.

Theorem check_state_ok d s path :
  check_state d s path = Ok tt <->
  inputs_in_range d s /\ ~ star_ambiguous d s /\ ~ conflicting d s.
Proof.
  rewrite check_state_unfold. split.
  - destruct (ins_of d (transitions_from d s)) as [ins| | |] eqn:Ei; cbn [obind]; try discriminate.
    destruct (ins_of_ok _ _ _ Ei) as (A & B & C). cbn zeta.
    destruct (_ && _) eqn:Es; [discriminate|].
    destruct (first_conflict _) as [[[t l] r]|] eqn:Ef; [discriminate|]. intros _.
    split; [exact A|]. split.
    + intro H. unfold star_ambiguous, star_targets in H. rewrite <- B in H.
      apply star_test in H. congruence.
    + unfold conflicting, lit_labels. rewrite <- C. apply conflict_search_correct. exact Ef.
  - intros (A & Hs & Hc). destruct (ins_of_total d _ A) as [ins Ei]. rewrite Ei. cbn [obind].
    destruct (ins_of_ok _ _ _ Ei) as (_ & B & C). cbn zeta.
    destruct (_ && _) eqn:Es.
    + exfalso. apply Hs. apply star_test in Es. unfold star_ambiguous, star_targets. rewrite <- B. exact Es.
    + unfold conflicting, lit_labels in Hc. rewrite <- C in Hc. apply conflict_search_correct in Hc.
      rewrite Hc. reflexivity.
Qed.

Theorem check_state_err d s path e :
  check_state d s path = Err e ->
  (exists ins, e = AmbiguousDFA path ins /\ star_ambiguous d s) \/
  (exists t l r, e = ConflictingDescriptions path t l r /\ conflicting d s).
Proof.
  rewrite check_state_unfold.
  destruct (ins_of d (transitions_from d s)) as [ins| | |] eqn:Ei; cbn [obind]; try discriminate.
  - destruct (ins_of_ok _ _ _ Ei) as (A & B & C). cbn zeta.
    destruct (_ && _) eqn:Es.
    + intro H. inversion H; subst. left. eexists. split; [reflexivity|].
      apply star_test in Es. unfold star_ambiguous, star_targets. rewrite <- B. exact Es.
    + destruct (first_conflict _) as [[[t l] r]|] eqn:Ef; [|discriminate].
      intro H. inversion H; subst. right. do 3 eexists. split; [reflexivity|].
      unfold conflicting, lit_labels. rewrite <- C.
      destruct (first_conflict_some _ _ _ _ Ef) as (X & Y & Z).
      apply dedup_In in X. apply dedup_In in Y. rewrite sort_In in X, Y.
      exists (t, l), (t, r). split; [exact X|]. split; [exact Y|]. split; [reflexivity|]. cbn. congruence.
  - intros _. destruct (ins_of_not_err _ _ _ Ei).
Qed.

Section Each.
  Variable d : dfa.
  Variable rec : N -> list N -> list inp -> ares (list N).
  Variable path : list inp.

  Fixpoint each (ts : list (N * N)) (visited : list N) : ares (list N) :=
    match ts with
    | [] => Ok visited
    | (i, to) :: r =>
        if memN to visited then each r visited
        else
          do x <- input_of d i;
          do v' <- rec to (to :: visited) (path ++ [x]);
          each r v'
    end.
End Each.

Lemma walk_S f d s visited path :
  walk (S f) d s visited path =
  do _ <- check_state d s path;
  each d (walk f d) path (transitions_from d s) visited.
Proof. reflexivity. Qed.

Section Walk.
  Variable d : dfa.

  Definition succ (s t : N) : Prop := exists i, In (i, t) (transitions_from d s).

  Inductive reachable : N -> Prop :=
  | reach_start : reachable (d_start d)
  | reach_step s t : reachable s -> succ s t -> reachable t.

  (** [lpath s t p]: [p] is the list of inputs along a path from [s] to [t] *)
  Inductive lpath (s : N) : N -> list inp -> Prop :=
  | lpath_nil : lpath s s []
  | lpath_snoc u t p i x : lpath s u p -> In (i, t) (transitions_from d u) ->
                           nthN (d_inputs d) i = Some x -> lpath s t (p ++ [x]).

  Definition clean (s : N) : Prop := exists p, check_state d s p = Ok tt.

  (** states entered during a call: checked, and all their successors end up visited *)
  Definition closed_new (visited v' : list N) : Prop :=
    forall u, In u v' -> ~ In u visited -> clean u /\ forall t, succ u t -> In t v'.

  Lemma each_ok rec path
        (IHrec : forall s visited p v', rec s visited p = Ok v' ->
                   incl visited v' /\ clean s /\ (forall t, succ s t -> In t v') /\ closed_new visited v') :
    forall ts visited v', each d rec path ts visited = Ok v' ->
      incl visited v' /\ (forall i t, In (i, t) ts -> In t v') /\
      (forall u, In u v' -> ~ In u visited ->
                 clean u /\ forall t, succ u t -> In t v').
  Proof.
    induction ts as [|[i t] r IH]; intros visited v' H.
    - cbn in H. inversion H; subst. split; [apply incl_refl|]. split; [intros ? ? []|]. intros u Hu Hn. contradiction.
    - cbn [each] in H. destruct (memN t visited) eqn:Em.
      + apply memN_In in Em. destruct (IH _ _ H) as (A & B & C). split; [exact A|]. split; [|exact C].
        intros i0 t0 [Hin|Hin]; [inversion Hin; subst; apply A; exact Em|eapply B; eauto].
      + destruct (input_of d i) as [x| | |]; cbn [obind] in H; try discriminate.
        destruct (rec t (t :: visited) (path ++ [x])) as [v1| | |] eqn:Er; cbn [obind] in H; try discriminate.
        destruct (IHrec _ _ _ _ Er) as (A1 & B1 & C1 & D1).
        destruct (IH _ _ H) as (A & B & C).
        assert (Hinc : incl visited v') by (intros u Hu; apply A; apply A1; right; exact Hu).
        split; [exact Hinc|]. split.
        * intros i0 t0 [Hin|Hin]; [inversion Hin; subst; apply A; apply A1; left; reflexivity|eapply B; eauto].
        * intros u Hu Hn. destruct (in_dec N.eq_dec u v1) as [Hu1|Hu1].
          -- destruct (N.eq_dec u t) as [Heq|Hne].
             ++ subst u. split; [exact B1|]. intros t0 Ht0. apply A. apply C1. exact Ht0.
             ++ destruct (D1 u Hu1) as [Hc Hs]; [intros [Hx|Hx]; [congruence|contradiction]|].
                split; [exact Hc|]. intros t0 Ht0. apply A. apply Hs. exact Ht0.
          -- apply C; assumption.
  Qed.

  Lemma walk_ok f : forall s visited p v', walk f d s visited p = Ok v' ->
    incl visited v' /\ clean s /\ (forall t, succ s t -> In t v') /\ closed_new visited v'.
  Proof.
    induction f as [|f IH]; intros s visited p v' H; [discriminate|].
    rewrite walk_S in H. destruct (check_state d s p) as [[]| | |] eqn:Ec; cbn [obind] in H; try discriminate.
    destruct (each_ok (walk f d) p IH _ _ _ H) as (A & B & C).
    split; [exact A|]. split; [exists p; exact Ec|]. split; [|exact C].
    intros t [i Hi]. eapply B; eauto.
  Qed.

  Lemma each_err rec path s0
        (IHrec : forall s visited p e, rec s visited p = Err e ->
                   exists u q, lpath s u q /\ check_state d u (p ++ q) = Err e) :
    forall ts visited e, incl ts (transitions_from d s0) -> each d rec path ts visited = Err e ->
      exists u q, lpath s0 u q /\ q <> [] /\ check_state d u (path ++ q) = Err e.
  Proof.
    induction ts as [|[i t] r IH]; intros visited e Hincl H; [discriminate|].
    assert (Hr : incl r (transitions_from d s0)) by (intros x Hx; apply Hincl; right; exact Hx).
    cbn [each] in H. destruct (memN t visited); [eapply IH; eauto|].
    unfold input_of in H. destruct (nthN (d_inputs d) i) as [x|] eqn:Ei; cbn [obind] in H; [|discriminate].
    destruct (rec t (t :: visited) (path ++ [x])) as [v1|e1| |] eqn:Er; cbn [obind] in H; try discriminate.
    - eapply IH; eauto.
    - inversion H; subst e1. destruct (IHrec _ _ _ _ Er) as (u & q & Hl & Hc).
      exists u, ([x] ++ q). split; [|split].
      + clear - Hl Hincl Ei. induction Hl as [|u' t' p' i' x' Hl IHl Hin Hx].
        * cbn. apply (lpath_snoc s0 s0 t [] i x); [constructor|apply Hincl; left; reflexivity|exact Ei].
        * rewrite app_assoc. eapply lpath_snoc; eauto.
      + discriminate.
      + rewrite app_assoc. exact Hc.
  Qed.

  Lemma walk_err f : forall s visited p e, walk f d s visited p = Err e ->
    exists u q, lpath s u q /\ check_state d u (p ++ q) = Err e.
  Proof.
    induction f as [|f IH]; intros s visited p e H; [discriminate|].
    rewrite walk_S in H. destruct (check_state d s p) as [[]|e0| |] eqn:Ec; cbn [obind] in H; try discriminate.
    - destruct (each_err (walk f d) p s IH _ _ _ (incl_refl _) H) as (u & q & Hl & _ & Hc). eauto.
    - inversion H; subst e0. exists s, []. rewrite app_nil_r. split; [constructor|exact Ec].
  Qed.

  Lemma lpath_reachable u q : lpath (d_start d) u q -> reachable u.
  Proof.
    induction 1 as [|u t p i x Hl IH Hin Hx]; [constructor|]. eapply reach_step; [exact IH|]. exists i. exact Hin.
  Qed.

  Theorem walk_complete :
    check_ambiguity_best_effort d = Ok tt -> forall u, reachable u -> clean u.
  Proof.
    unfold check_ambiguity_best_effort. intro H.
    destruct (walk _ d (d_start d) [] []) as [v'| | |] eqn:Ew; cbn [obind] in H; try discriminate.
    destruct (walk_ok _ _ _ _ _ Ew) as (_ & Hc & Hs & Hn).
    assert (Hinv : forall u, reachable u -> u = d_start d \/ In u v').
    { induction 1 as [|s t Hr IH Hst]; [left; reflexivity|]. right.
      destruct IH as [IH|IH]; [subst s; apply Hs; exact Hst|].
      destruct (Hn s IH) as [_ Hs']; [intros []|]. apply Hs'. exact Hst. }
    intros u Hu. destruct (Hinv u Hu) as [Heq|Hin]; [subst; exact Hc|].
    destruct (Hn u Hin) as [Hcl _]; [intros []|]. exact Hcl.
  Qed.
End Walk.

Definition fine {A} (x : ares A) : Prop := match x with Ok _ | Err _ => True | _ => False end.

Theorem amb_accepts d :
  check_ambiguity_best_effort d = Ok tt ->
  forall u, reachable d u ->
    inputs_in_range d u /\ ~ star_ambiguous d u /\ ~ conflicting d u.
Proof.
  intros H u Hu. destruct (walk_complete d H u Hu) as [p Hp]. apply check_state_ok in Hp. exact Hp.
Qed.

Theorem amb_rejects d e :
  check_ambiguity_best_effort d = Err e ->
  exists u q, lpath d (d_start d) u q /\ reachable d u /\
    ((exists ins, e = AmbiguousDFA q ins /\ star_ambiguous d u) \/
     (exists t l r, e = ConflictingDescriptions q t l r /\ conflicting d u)).
Proof.
  unfold check_ambiguity_best_effort. intro H.
  destruct (walk _ d (d_start d) [] []) as [v'|e0| |] eqn:Ew; cbn [obind] in H; try discriminate.
  inversion H; subst e0. destruct (walk_err d _ _ _ _ _ Ew) as (u & q & Hl & Hc). cbn [app] in Hc.
  exists u, q. split; [exact Hl|]. split; [eapply lpath_reachable; exact Hl|].
  apply check_state_err. exact Hc.
Qed.

Theorem amb_decides d :
  fine (check_ambiguity_best_effort d) ->
  (check_ambiguity_best_effort d = Ok tt <->
   forall u, reachable d u -> ~ star_ambiguous d u /\ ~ conflicting d u).
Proof.
  intro Hf. split.
  - intros H u Hu. destruct (amb_accepts d H u Hu) as (_ & A & B). split; assumption.
  - intro H. destruct (check_ambiguity_best_effort d) as [[]|e| |] eqn:E; try destruct Hf; [reflexivity|].
    exfalso. destruct (amb_rejects d e E) as (u & q & _ & Hu & [[ins [_ Hs]]|[t [l [r [_ Hc]]]]]).
    + apply (proj1 (H u Hu)). exact Hs.
    + apply (proj2 (H u Hu)). exact Hc.
Qed.
