(** The words of a validated tree and the pool of [from_expr]: every word is interned, its
    regex is accepted by [check_tail_only] iff the placeholder predicate holds of the word, and
    every within-word input of the main regex comes from a word ([do_from_expr_PG]).  With the
    walk of PhWalk.v: [from_valid_expr] fails with [UnboundedMatchable] iff some word of the tree
    has a placeholder that is not last, and fails in no other way
    ([from_valid_expr_placeholder]). *)
From CG Require Import Base.Prelude Model.Ast Model.Regex Spec.Mistakes.
From CG Require Import Proofs.RxLang Proofs.Glushkov Proofs.Useful Proofs.FromExpr Proofs.TreeFacts.
From CG Require Import Proofs.RegexFuel Proofs.RegexNoPanic Proofs.TailOnlySpec Proofs.C02Lang Proofs.WfTrim.
From CG Require Import Proofs.DotFromExpr Proofs.PhFollow Proofs.PhExpr Proofs.PhWalk.

Definition is_sub (i : rinput) : Prop := match i with RSub _ _ _ => True | _ => False end.

(** input [i] stands for the word [c] *)
Definition W (P : pool) (c : expr) (i : rinput) : Prop :=
  exists rid l sp x, i = RSub rid l sp /\ nthN P rid = Some x /\
                     (check_tail_only x = Ok tt <-> ph_last isref c = true) /\
                     (forall e, check_tail_only x = Err e -> ph_last isref c = false).

Definition cover (ws : list expr) (t : rx) (I : list rinput) (P : pool) : Prop :=
  (forall c, In c ws -> exists p i, In p (positions t) /\ nthN I p = Some i /\ W P c i) /\
  (forall p i, In p (positions t) -> nthN I p = Some i -> is_sub i -> exists c, In c ws /\ W P c i).

Definition PG (e : expr) : Prop :=
  forall s pl id t s' pl',
    do_from_expr e s pl = Ok (id, t, s', pl') -> flat_subwords e = true ->
    (forall c, In c (words_of e) -> ops_nonempty c = true) ->
    forall I P, prefix (b_inputs s') I -> prefix pl' P -> cover (words_of e) t I P.

Lemma words_of_form e :
  words_of e = match form_of e with
               | FLeaf _ => []
               | FNary _ cs => flat_map words_of cs
               | FUnary _ c | FDist c => words_of c
               | FSub c _ _ => [c]
               end.
Proof. destruct e; reflexivity. Qed.

Lemma children_PG cs : Forall PG cs ->
  forall s pl ids ts s' pl',
    do_children do_from_expr cs s pl = Ok (ids, ts, s', pl') ->
    forallb flat_subwords cs = true ->
    (forall c, In c (flat_map words_of cs) -> ops_nonempty c = true) ->
    forall I P, prefix (b_inputs s') I -> prefix pl' P -> cover (flat_map words_of cs) (XCat ts) I P.
Proof.
  revert cs. refine (do_children_ind PG _ _ _).
  - intros s pl _ _ I P _ _. split; [intros c []|intros p i []].
  - intros c cs s pl id t s1 pl1 ids ts s2 pl2 Hc E1 E2 IH Hf Ho I P HI HP.
    cbn [forallb] in Hf. apply andb_true_iff in Hf as [Hf1 Hf2]. cbn [flat_map] in Ho |- *.
    destruct (do_children_ext _ _ _ _ _ _ _ E2) as (_ & Pi2 & Pp2).
    destruct (Hc _ _ _ _ _ _ E1 Hf1 (fun w Hw => Ho w (in_or_app _ _ _ (or_introl Hw))) I P
                 (prefix_trans _ _ _ Pi2 HI) (prefix_trans _ _ _ Pp2 HP)) as [A1 B1].
    destruct (IH Hf2 (fun w Hw => Ho w (in_or_app _ _ _ (or_intror Hw))) I P HI HP) as [A2 B2].
    change (positions (XCat (t :: ts))) with (positions t ++ positions (XCat ts)). split.
    + intros w Hw. apply in_app_iff in Hw.
      destruct Hw as [Hw|Hw]; [destruct (A1 w Hw) as (p & i & Hp & R)|destruct (A2 w Hw) as (p & i & Hp & R)];
        exists p, i; (split; [apply in_or_app; auto|exact R]).
    + intros p i Hp Hn Hs. apply in_app_iff in Hp.
      destruct Hp as [Hp|Hp]; [destruct (B1 p i Hp Hn Hs) as (w & Hw & HW)|destruct (B2 p i Hp Hn Hs) as (w & Hw & HW)];
        exists w; (split; [apply in_or_app; auto|exact HW]).
Qed.

Lemma cover_same ws t t' I P : (forall p, In p (positions t') <-> In p (positions t)) -> cover ws t I P -> cover ws t' I P.
Proof.
  intros H [A B]. split.
  - intros c Hc. destruct (A c Hc) as (p & i & Hp & R). exists p, i. split; [apply H; exact Hp|exact R].
  - intros p i Hp. apply B. apply H. exact Hp.
Qed.

Theorem do_from_expr_PG : forall e, PG e.
Proof.
  induction e as [e IH] using expr_form_ind. intros s pl id t s' pl' E.
  rewrite do_from_expr_form in E. rewrite flat_subwords_form, words_of_form. intros Hf Ho I P HI HP.
  pose proof (leaf_not_sub e) as Hleaf.
  destruct (form_of e) as [i|cat cs|many c|c l sp|c]; try discriminate.
  - injection E as <- <- <- <-. cbn [pushed b_inputs] in HI. split; [intros c []|].
    intros p i' [<-|[]] Hn Hs. rewrite (nthN_prefix_mid _ _ _ HI) in Hn. injection Hn as <-.
    specialize (Hleaf i eq_refl). destruct i; contradiction.
  - destruct (do_children do_from_expr cs s pl) as [[[[ids ts] s1] pl1]| | |] eqn:E1; cbn [obind] in E; try discriminate.
    injection E as <- <- <- <-. destruct cat; exact (children_PG cs IH _ _ _ _ _ _ E1 Hf Ho I P HI HP).
  - destruct (do_from_expr c s pl) as [[[[cid ct] s1] pl1]| | |] eqn:E1; cbn [obind] in E; try discriminate.
    injection E as <- <- <- <-. eapply cover_same; [|apply (IH _ _ _ _ _ _ E1 Hf Ho I P HI HP)].
    intro p. destruct many; cbn [nary_rx aux_rx positions flat_map]; rewrite app_nil_r, ?in_app_iff; tauto.
  - clear IH.
    destruct (do_from_expr c empty_bst pl) as [[[[cid ct] cs] pl1]| | |] eqn:E1; cbn [obind] in E; try discriminate.
    destruct (pool_intern (finish_regex cid ct cs) pl1) as [rid pl2] eqn:Ei.
    injection E as <- <- <- <-. cbn [pushed b_inputs] in HI.
    destruct (FromExpr.pool_intern_spec _ _ _ _ Ei) as [_ Hnth].
    assert (Hoe : ops_nonempty c = true) by (apply Ho; left; reflexivity).
    pose proof (word_regex_verdict c pl cid ct cs pl1 E1 Hf Hoe) as Hv.
    assert (HW : W P c (RSub rid l sp)).
    { exists rid, l, sp, (finish_regex cid ct cs). split; [reflexivity|]. split; [eapply prefix_nthN; eauto|].
      split; [exact Hv|]. intros e0 He0. destruct (ph_last isref c) eqn:Ep; [|reflexivity].
      assert (Hk : check_tail_only (finish_regex cid ct cs) = Ok tt) by (apply Hv; reflexivity). congruence. }
    split.
    + intros c' [<-|[]]. exists (lenN (b_inputs s)), (RSub rid l sp). split; [left; reflexivity|].
      split; [eapply nthN_prefix_mid; eauto|exact HW].
    + intros p i [<-|[]] Hn _. rewrite (nthN_prefix_mid _ _ _ HI) in Hn. inversion Hn; subst.
      exists c. split; [left; reflexivity|exact HW].
Qed.

From CG Require Import Proofs.C02Total.

Theorem from_valid_expr_placeholder e :
  dd_free e = true -> flat_subwords e = true -> alts_nonempty e = true ->
  (forall c, In c (words_of e) -> ops_nonempty c = true) ->
  ((exists a b, from_valid_expr e = Err (UnboundedMatchable a b)) <->
   exists w, In w (words_of e) /\ ph_last isref w = false) /\
  ((exists rp, from_valid_expr e = Ok rp) \/ exists a b, from_valid_expr e = Err (UnboundedMatchable a b)).
Proof.
  intros Hd Hf Ha Ho.
  destruct (from_expr_total e [] Hd) as (r & pl & E).
  pose proof (check_ambiguities_result e r pl Hf E) as Hres.
  destruct (from_expr_good e [] r pl Ha E (Forall_nil _)) as [(t' & Ht' & Sh & Or & Rg & Hend) _].
  destruct (proj1 (from_expr_Ok _ _ _ _) E) as (id & t & s & E1 & ->).
  destruct (finish_regex_fields id t s) as [Hi [He Ht]]. set (r := finish_regex id t s) in *.
  assert (Htt : t' = t).
  { rewrite Ht in Ht'. unfold with_end in Ht'. inversion Ht'. reflexivity. }
  subst t'.
  destruct (do_from_expr_PG e _ _ _ _ _ _ E1 Hf Ho (b_inputs s) pl (prefix_refl _) (prefix_refl _)) as [CA CB]. rewrite <- Hi in CA, CB.
  assert (Hfv : from_valid_expr e = do _ <- check_ambiguities r pl; Ok (r, pl)).
  { unfold from_valid_expr. rewrite E. reflexivity. }
  assert (Hiff : (exists a b, check_ambiguities r pl = Err (UnboundedMatchable a b)) <->
                 exists w, In w (words_of e) /\ ph_last isref w = false).
  { split.
    - intros (a & b & Hc). destruct (check_ambiguities_rejects r pl _ Hc) as (p & Hp & Hne & rid & l & sp & x & Hn & Hx & Hce).
      destruct (reachable_positions r t Ht' p Hp) as [Hpos|Hpe]; [|contradiction].
      destruct (CB p _ Hpos Hn I) as (w & Hw & rid' & l' & sp' & x' & Heq & Hx' & _ & Herr).
      inversion Heq; subst rid' l' sp'. rewrite Hx in Hx'. inversion Hx'; subst x'.
      exists w. split; [exact Hw|]. eapply Herr. exact Hce.
    - intros (w & Hw & Hpl). destruct Hres as [Hok|Herr]; [|exact Herr]. exfalso.
      destruct (CA w Hw) as (p & i & Hpos & Hn & rid & l & sp & x & -> & Hx & Hv & _).
      assert (Hne : p <> r_end r).
      { intro Heq. specialize (Rg p Hpos). lia. }
      pose proof (check_ambiguities_accepts r pl Hok p (positions_reachable r t Ht' Sh Or Rg p Hpos) Hne) as Hs.
      destruct (Hs rid l sp Hn) as (x' & Hx' & Hok'). rewrite Hx in Hx'. inversion Hx'; subst x'.
      apply Hv in Hok'. congruence. }
  split.
  - rewrite <- Hiff, Hfv. split; intros (a & b & H); exists a, b.
    + destruct (check_ambiguities r pl) as [[]|e0| |]; cbn [obind] in H; try discriminate. inversion H. reflexivity.
    + rewrite H. reflexivity.
  - rewrite Hfv. destruct Hres as [Hok|(a & b & Herr)].
    + left. rewrite Hok. eexists. reflexivity.
    + right. exists a, b. rewrite Herr. reflexivity.
Qed.
