(** The model of the Hopcroft loop (Model/Minimize.v: intern pool, set ids, hash sets) takes
    exactly the abstract steps of Proofs/HopcroftAbs.v.  [abs] forgets the pool and the ids. *)
From CG Require Import Base.Prelude Base.Facts Model.Dfa Model.Minimize Spec.DfaEquiv Spec.MinimizeSpec
  Proofs.ListFacts Proofs.MinimizeBasics Proofs.HopcroftAbs.

Definition content (pool : list (list N)) (id : N) : list N :=
  match pool_lookup pool id with Some b => b | None => [] end.

Definition abs (h : hop) : astate :=
  map (fun id => (content (h_pool h) id, memN id (h_work h))) (h_parts h).

Record Good (U : list N) (h : hop) : Prop := mkGood {
  g_pool : NoDup (h_pool h);
  g_work : incl (h_work h) (h_parts h);
  g_part : APart U (abs h)
}.

Definition stable_lookup (h h' : hop) : Prop :=
  forall j b, pool_lookup (h_pool h) j = Some b -> pool_lookup (h_pool h') j = Some b.

Lemma stable_refl h : stable_lookup h h.
Proof. intros j b H. exact H. Qed.

Lemma stable_trans h1 h2 h3 : stable_lookup h1 h2 -> stable_lookup h2 h3 -> stable_lookup h1 h3.
Proof. intros A B j b H. apply B, A, H. Qed.

Lemma content_lookup pool id b : pool_lookup pool id = Some b -> content pool id = b.
Proof. intro H. unfold content. rewrite H. reflexivity. Qed.

Lemma blocks_abs h : blocks (abs h) = map (content (h_pool h)) (h_parts h).
Proof. unfold blocks, abs. rewrite map_map. reflexivity. Qed.

Lemma abs_In h b f :
  In (b, f) (abs h) <->
  exists id, In id (h_parts h) /\ content (h_pool h) id = b /\ memN id (h_work h) = f.
Proof.
  unfold abs. rewrite in_map_iff. split; intros [id H]; exists id.
  - destruct H as [E Hid]. inversion E. auto.
  - destruct H as [Hid [<- <-]]. auto.
Qed.

Lemma abs_work_nil h : h_work h = [] -> forall b, ~ In (b, true) (abs h).
Proof. intros E b F. apply abs_In in F. destruct F as [id [_ [_ F]]]. rewrite E in F. discriminate. Qed.

Lemma split_work_mem id id1 id2 (pick : bool) work j :
  ~ In id1 work -> ~ In id2 work -> id1 <> id2 ->
  memN j (if memN id work then hs_insert id2 (hs_insert id1 (hs_remove id work))
          else if pick then hs_insert id1 work else hs_insert id2 work)
  = if N.eqb j id1 then memN id work || pick
    else if N.eqb j id2 then memN id work || negb pick
    else negb (N.eqb j id) && memN j work.
Proof.
  intros H1 H2 H12. apply memN_false in H1, H2. apply N.eqb_neq in H12.
  destruct (memN id work) eqn:Ew; [|destruct pick]; rewrite ?memN_hs_insert, ?memN_hs_remove;
    destruct (N.eqb_spec j id1) as [->|_]; rewrite ?H12, ?H1, ?N.eqb_refl, ?orb_true_r; try reflexivity;
    destruct (N.eqb_spec j id2) as [->|_]; rewrite ?H2; try reflexivity;
    destruct (N.eqb_spec j id) as [->|_]; rewrite ?Ew; reflexivity.
Qed.

Section Sim.
  Variable U : list N.

  Lemma good_lookup h id :
    Good U h -> In id (h_parts h) ->
    exists b, pool_lookup (h_pool h) id = Some b /\ b <> [] /\ In b (blocks (abs h)).
  Proof.
    intros G Hid.
    assert (Hb : In (content (h_pool h) id) (blocks (abs h))).
    { rewrite blocks_abs. apply in_map. exact Hid. }
    assert (Hn := ap_nonempty _ _ (g_part _ _ G) _ Hb).
    unfold content in *. destruct (pool_lookup (h_pool h) id) as [b|]; [|congruence].
    exists b. auto.
  Qed.

  Lemma good_parts_nodup h : Good U h -> NoDup (h_parts h).
  Proof.
    intro G. assert (ND := ap_nodup _ _ (g_part _ _ G)). rewrite blocks_abs in ND.
    eapply NoDup_map_inv. exact ND.
  Qed.

  Lemma content_inj h i j :
    Good U h -> In i (h_parts h) -> In j (h_parts h) ->
    content (h_pool h) i = content (h_pool h) j -> i = j.
  Proof.
    intros G Hi Hj E. assert (ND := ap_nodup _ _ (g_part _ _ G)). rewrite blocks_abs in ND.
    eapply NoDup_map_inj; eauto.
  Qed.

  Lemma content_eqb h i j :
    Good U h -> In i (h_parts h) -> In j (h_parts h) ->
    bm_eqb (content (h_pool h) i) (content (h_pool h) j) = N.eqb i j.
  Proof.
    intros G Hi Hj. apply eq_true_iff_eq. rewrite bm_eqb_iff, N.eqb_eq.
    split; [apply content_inj; assumption|intros ->; reflexivity].
  Qed.

  Lemma aflag_abs h id B :
    Good U h -> In id (h_parts h) -> pool_lookup (h_pool h) id = Some B ->
    aflag B (abs h) = memN id (h_work h).
  Proof.
    intros G Hid HB. apply content_lookup in HB. apply eq_true_iff_eq. rewrite aflag_true, abs_In. split.
    - intros [j [Hj [Ej Fj]]]. rewrite <- (content_inj h j id G Hj Hid); [exact Fj|congruence].
    - intro E. exists id. auto.
  Qed.

  Lemma aremove_abs h id B (pool' : list (list N)) (work' : list N) :
    Good U h -> In id (h_parts h) -> pool_lookup (h_pool h) id = Some B ->
    (forall j b, pool_lookup (h_pool h) j = Some b -> pool_lookup pool' j = Some b) ->
    (forall j, In j (h_parts h) -> j <> id -> memN j work' = memN j (h_work h)) ->
    map (fun j => (content pool' j, memN j work')) (hs_remove id (h_parts h)) = aremove B (abs h).
  Proof.
    intros G Hid HB St Hw. apply content_lookup in HB.
    unfold aremove, abs, hs_remove.
    rewrite <- (map_filter_commute (fun j => (content (h_pool h) j, memN j (h_work h)))
                  (fun y => negb (N.eqb y id))).
    - apply map_ext_in. intros j Hj. apply filter_In in Hj. destruct Hj as [Hj Hne].
      apply negb_true_iff, N.eqb_neq in Hne.
      destruct (good_lookup h j G Hj) as [b [Lb _]].
      unfold content. rewrite Lb, (St _ _ Lb), (Hw j Hj Hne). reflexivity.
    - intros j Hj. cbn [fst]. rewrite <- HB, content_eqb by assumption. reflexivity.
  Qed.

  Lemma abs_split h id B B1 B2 pool2 id1 id2 (pick : bool) :
    Good U h -> In id (h_parts h) -> pool_lookup (h_pool h) id = Some B ->
    (forall j b, pool_lookup (h_pool h) j = Some b -> pool_lookup pool2 j = Some b) ->
    pool_lookup pool2 id1 = Some B1 -> pool_lookup pool2 id2 = Some B2 ->
    ~ In id1 (h_parts h) -> ~ In id2 (h_parts h) -> id1 <> id2 ->
    let parts' := hs_insert id2 (hs_insert id1 (hs_remove id (h_parts h))) in
    let work' := if memN id (h_work h) then hs_insert id2 (hs_insert id1 (hs_remove id (h_work h)))
                 else if pick then hs_insert id1 (h_work h) else hs_insert id2 (h_work h) in
    abs (mkhop pool2 parts' work')
    = areplace (abs h) B B1 B2 (aflag B (abs h) || pick) (aflag B (abs h) || negb pick)
    /\ incl work' parts'
    /\ (forall j, In j (h_parts h) -> j <> id -> In j parts').
  Proof.
    intros G Hid HB St L1 L2 Hid1 Hid2 Hid12 parts' work'.
    set (parts1 := hs_remove id (h_parts h)).
    assert (Pp : parts' = parts1 ++ [id1; id2]).
    { unfold parts'. fold parts1. rewrite (hs_insert_new id1 parts1).
      - rewrite hs_insert_new.
        + rewrite <- app_assoc. reflexivity.
        + rewrite in_app_iff. cbn [In]. unfold parts1. rewrite hs_remove_In. intros [[_ F]|[F|[]]]; auto.
      - unfold parts1. rewrite hs_remove_In. tauto. }
    assert (Wm := fun j => split_work_mem id id1 id2 pick (h_work h) j
                            (fun F => Hid1 (g_work _ _ G _ F)) (fun F => Hid2 (g_work _ _ G _ F)) Hid12).
    fold work' in Wm. rewrite Pp. split; [|split].
    - unfold abs at 1. cbn [h_pool h_parts h_work]. rewrite map_app. unfold areplace. f_equal.
      + apply aremove_abs; try assumption. intros j Hj Hne. rewrite Wm.
        destruct (N.eqb_spec j id1) as [->|_]; [contradiction|].
        destruct (N.eqb_spec j id2) as [->|_]; [contradiction|].
        rewrite (proj2 (N.eqb_neq j id) Hne). reflexivity.
      + cbn [map]. rewrite (content_lookup _ _ _ L1), (content_lookup _ _ _ L2), !Wm, !N.eqb_refl.
        rewrite (proj2 (N.eqb_neq id2 id1)) by auto. rewrite (aflag_abs h id B G Hid HB). reflexivity.
    - intros j Hj. apply memN_In in Hj. rewrite Wm in Hj. rewrite in_app_iff. cbn [In].
      destruct (N.eqb_spec j id1) as [E|_]; [auto|]. destruct (N.eqb_spec j id2) as [E|_]; [auto|].
      apply andb_true_iff in Hj. destruct Hj as [Hne Hj]. apply negb_true_iff, N.eqb_neq in Hne.
      left. apply hs_remove_In. split; [exact Hne|]. apply (g_work _ _ G), memN_In, Hj.
    - intros j Hj Hne. rewrite in_app_iff. left. apply hs_remove_In. auto.
  Qed.

  Lemma split_group_sim h fs id B :
    Good U h -> In id (h_parts h) -> pool_lookup (h_pool h) id = Some B ->
    (exists z, In z B /\ In z fs) ->
    exists h', split_group fs h id = Ok h' /\ Good U h' /\ abs h' = asplit (abs h) fs B
               /\ stable_lookup h h'
               /\ (forall j, In j (h_parts h) -> j <> id -> In j (h_parts h')).
  Proof.
    intros G Hid HB Hov.
    assert (P := g_part _ _ G).
    assert (HBb : In B (blocks (abs h))).
    { rewrite blocks_abs, <- (content_lookup _ _ _ HB). apply in_map, Hid. }
    unfold split_group. rewrite HB. cbv zeta.
    destruct (asplit_cases (abs h) fs B (ap_sorted _ _ P _ HBb) Hov) as [[-> [-> _]]|[Hv [_ [_ ->]]]].
    { exists h. split; [reflexivity|]. split; [exact G|]. split; [reflexivity|]. split; [apply stable_refl|auto]. }
    destruct (bm_diff B (bm_inter B fs)) as [|y0 r0] eqn:ED; [destruct (hv_ne2 _ _ _ Hv eq_refl)|].
    rewrite <- ED in *. clear ED y0 r0.
    set (B1 := bm_inter B fs) in *. set (B2 := bm_diff B B1) in *.
    destruct (pool_intern (h_pool h) B1) as [pool1 id1] eqn:I1.
    destruct (pool_intern pool1 B2) as [pool2 id2] eqn:I2.
    destruct (pool_intern_spec _ _ _ _ I1) as [L1 [_ [ND1 St1]]].
    destruct (pool_intern_spec _ _ _ _ I2) as [L2 [_ [ND2 St2]]].
    apply St2 in L1.
    assert (St : forall j b, pool_lookup (h_pool h) j = Some b -> pool_lookup pool2 j = Some b).
    { intros j b Hj. apply St2, St1, Hj. }
    (* the halves are not blocks, so their ids are not in the partition *)
    assert (Hold : forall j Bj, pool_lookup pool2 j = Some Bj -> In j (h_parts h) -> In Bj (blocks (abs h))).
    { intros j Bj Lj Hj. destruct (good_lookup h j G Hj) as [b [Lb [_ Hb]]].
      rewrite (St _ _ Lb) in Lj. inversion Lj; subst. exact Hb. }
    assert (Hid1 : ~ In id1 (h_parts h)).
    { intro F. exact (proj1 (half_not_block U _ B B1 B2 P HBb Hv B1 (Hold _ _ L1 F)) eq_refl). }
    assert (Hid2 : ~ In id2 (h_parts h)).
    { intro F. exact (proj2 (half_not_block U _ B B1 B2 P HBb Hv B2 (Hold _ _ L2 F)) eq_refl). }
    assert (Hid12 : id1 <> id2).
    { intro F. subst. apply (halves_neq _ _ _ Hv). congruence. }
    destruct (abs_split h id B B1 B2 pool2 id1 id2 (Nat.leb (List.length B1) (List.length B2))
                G Hid HB St L1 L2 Hid1 Hid2 Hid12) as [Habs [Hw Hk]].
    eexists. split; [reflexivity|]. split; [|split; [exact Habs|split; [exact St|exact Hk]]].
    constructor; cbn [h_pool h_parts h_work].
    - apply ND2, ND1, (g_pool _ _ G).
    - exact Hw.
    - rewrite Habs. apply areplace_APart; assumption.
  Qed.

  Lemma overlapping_sets_eq pool fs l :
    (forall id, In id l -> exists b, pool_lookup pool id = Some b) ->
    overlapping_sets pool fs l
    = Ok (filter (fun id => negb (bm_is_disjoint (content pool id) fs)) l).
  Proof.
    induction l as [|id r IH]; intro H; cbn [overlapping_sets filter]; [reflexivity|].
    destruct (H id (or_introl eq_refl)) as [b Hb]. unfold content at 1. rewrite Hb.
    rewrite IH by (intros j Hj; apply H; right; exact Hj). cbn [obind].
    destruct (bm_is_disjoint b fs); reflexivity.
  Qed.

  Lemma aov_abs h fs :
    map (content (h_pool h)) (filter (fun id => negb (bm_is_disjoint (content (h_pool h) id) fs)) (h_parts h))
    = aov (abs h) fs.
  Proof.
    unfold aov. rewrite blocks_abs. apply map_filter_commute. reflexivity.
  Qed.

  Lemma content_stable h h' j :
    Good U h -> In j (h_parts h) -> stable_lookup h h' -> content (h_pool h') j = content (h_pool h) j.
  Proof.
    intros G Hj St. destruct (good_lookup h j G Hj) as [b [Lb _]].
    unfold content. rewrite Lb, (St _ _ Lb). reflexivity.
  Qed.

  Lemma ofold_split_sim fs : forall ov h,
    Good U h -> NoDup ov ->
    (forall id, In id ov -> In id (h_parts h) /\ exists z, In z (content (h_pool h) id) /\ In z fs) ->
    exists h', ofold (split_group fs) ov h = Ok h' /\ Good U h'
               /\ abs h' = fold_left (fun A B => asplit A fs B) (map (content (h_pool h)) ov) (abs h)
               /\ stable_lookup h h'.
  Proof.
    induction ov as [|id r IH]; intros h G ND Hov; cbn [ofold map fold_left].
    - exists h. split; [reflexivity|]. split; [exact G|]. split; [reflexivity|apply stable_refl].
    - inversion ND as [|? ? Hn Hr]; subst.
      destruct (Hov id (or_introl eq_refl)) as [Hid Hz].
      destruct (good_lookup h id G Hid) as [B [LB _]].
      rewrite (content_lookup _ _ _ LB) in *.
      destruct (split_group_sim h fs id B G Hid LB Hz) as [h1 [E1 [G1 [A1 [St1 K1]]]]].
      rewrite E1. cbn [obind].
      destruct (IH h1 G1 Hr) as [h' [E' [G' [A' St']]]].
      { intros j Hj. destruct (Hov j (or_intror Hj)) as [Hjp Hjz].
        assert (j <> id) by (intro; subst; contradiction).
        split; [apply K1; assumption|]. rewrite (content_stable h h1 j G Hjp St1). exact Hjz. }
      exists h'. split; [exact E'|]. split; [exact G'|]. split; [|eapply stable_trans; eassumption].
      rewrite A', A1. f_equal. apply map_ext_in. intros j Hj.
      destruct (Hov j (or_intror Hj)) as [Hjp _]. apply (content_stable h h1 j G Hjp St1).
  Qed.

  Lemma refine_with_sim h fs :
    Good U h ->
    exists h', refine_with h fs = Ok h' /\ Good U h' /\ abs h' = arefine (abs h) fs /\ stable_lookup h h'.
  Proof.
    intro G. unfold refine_with.
    rewrite overlapping_sets_eq.
    2:{ intros id Hid. destruct (good_lookup h id G Hid) as [b [Lb _]]. eauto. }
    cbn [obind].
    destruct (ofold_split_sim fs (filter (fun id => negb (bm_is_disjoint (content (h_pool h) id) fs)) (h_parts h)) h G) as [h' [E [G' [A' St]]]].
    - apply NoDup_filter. apply good_parts_nodup. exact G.
    - intros id Hid. apply filter_In in Hid. destruct Hid as [Hid Hd]. split; [exact Hid|].
      apply negb_true_iff, bm_is_disjoint_false in Hd. exact Hd.
    - exists h'. split; [exact E|]. split; [exact G'|]. split; [|exact St].
      rewrite A'. unfold arefine. rewrite aov_abs. reflexivity.
  Qed.

  Lemma ofold_refine_sim : forall Xs h,
    Good U h ->
    exists h', ofold refine_with Xs h = Ok h' /\ Good U h' /\ abs h' = fold_left arefine Xs (abs h)
               /\ stable_lookup h h'.
  Proof.
    induction Xs as [|X r IH]; intros h G; cbn [ofold fold_left].
    - exists h. split; [reflexivity|]. split; [exact G|]. split; [reflexivity|apply stable_refl].
    - destruct (refine_with_sim h X G) as [h1 [E1 [G1 [A1 St1]]]]. rewrite E1. cbn [obind].
      destruct (IH h1 G1) as [h' [E' [G' [A' St']]]].
      exists h'. split; [exact E'|]. split; [exact G'|]. split; [rewrite A', A1; reflexivity|].
      eapply stable_trans; eassumption.
  Qed.

  Lemma abs_pop h gid G :
    Good U h -> In gid (h_parts h) -> pool_lookup (h_pool h) gid = Some G ->
    let h1 := mkhop (h_pool h) (h_parts h) (hs_remove gid (h_work h)) in
    Good U h1 /\ abs h1 = aclear G (abs h).
  Proof.
    intros Gd Hg LG h1. apply content_lookup in LG.
    assert (E : abs h1 = aclear G (abs h)).
    { unfold abs, aclear, h1. cbn [h_pool h_parts h_work]. rewrite map_map. apply map_ext_in.
      intros j Hj. cbn [fst]. rewrite memN_hs_remove, <- LG, content_eqb by assumption.
      destruct (N.eqb j gid); reflexivity. }
    split; [|exact E]. constructor; cbn [h_pool h_parts h_work].
    - apply (g_pool _ _ Gd).
    - intros j Hj. apply hs_remove_In in Hj. apply (g_work _ _ Gd). tauto.
    - rewrite E. apply aclear_APart, (g_part _ _ Gd).
  Qed.
End Sim.
