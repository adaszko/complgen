(** [do_from_expr] / [from_expr] against the specification: the tree built for an expression has
    the [shape] L-glushkov needs, and the expression denotes exactly the position words of the tree,
    read through the inputs of the positions. *)
From CG Require Import Base.Prelude Base.Facts Model.Ast Model.Regex Spec.Lang.
From CG Require Import Proofs.Limg Proofs.RxLang Proofs.Glushkov Proofs.SubsetConstr Proofs.LangDen.

Definition prefix {A} (l l' : list A) : Prop := exists m, l' = l ++ m.

Lemma prefix_refl : forall {A} (l : list A), prefix l l.
Proof. intros A l. exists []. rewrite app_nil_r. reflexivity. Qed.

Lemma prefix_trans : forall {A} (a b c : list A), prefix a b -> prefix b c -> prefix a c.
Proof. intros A a b c [m ->] [n ->]. exists (m ++ n). rewrite app_assoc. reflexivity. Qed.

Lemma prefix_snoc : forall {A} (l : list A) x, prefix l (l ++ [x]).
Proof. intros A l x. exists [x]. reflexivity. Qed.

Lemma prefix_nth_error : forall {A} (l l' : list A) n x,
  prefix l l' -> nth_error l n = Some x -> nth_error l' n = Some x.
Proof.
  intros A l l' n x [m ->] H. rewrite nth_error_app1; auto. apply nth_error_Some. congruence.
Qed.

Lemma prefix_nthN : forall {A} (l l' : list A) i x, prefix l l' -> nthN l i = Some x -> nthN l' i = Some x.
Proof. intros A l l' i x. apply prefix_nth_error. Qed.

Lemma prefix_lenN : forall {A} (l l' : list A), prefix l l' -> lenN l <= lenN l'.
Proof. intros A l l' [m ->]. unfold lenN. rewrite app_length. lia. Qed.

Lemma nthN_prefix_mid : forall {A} (l : list A) x l', prefix (l ++ [x]) l' -> nthN l' (lenN l) = Some x.
Proof.
  intros A l x l' [m ->]. rewrite <- app_assoc. simpl. apply nthN_app_mid.
Qed.

Lemma span_eqb_eq : forall a b, span_eqb a b = true <-> a = b.
Proof.
  intros [a1 a2 a3] [b1 b2 b3]. unfold span_eqb. cbn. autorewrite with eqb. intuition congruence.
Qed.
#[export] Hint Rewrite span_eqb_eq : eqb.

Lemma rinput_eqb_eq : forall a b, rinput_eqb a b = true <-> a = b.
Proof. intros a b. destruct a, b; cbn; autorewrite with eqb; intuition congruence. Qed.

Lemma rnode_eqb_eq : forall a b, rnode_eqb a b = true <-> a = b.
Proof. intros a b. destruct a, b; cbn; autorewrite with eqb; intuition congruence. Qed.

Lemma list_eqb_eq : forall {A} (eqb : A -> A -> bool),
  (forall a b, eqb a b = true -> a = b) -> forall l m, list_eqb eqb l m = true -> l = m.
Proof.
  intros A eqb H. induction l as [|x l IH]; intros [|y m] E; simpl in E; try discriminate; auto.
  apply andb_true_iff in E. destruct E as [E1 E2]. f_equal; auto.
Qed.

Lemma rx_eqb_eq : forall a b, rx_eqb a b = true -> a = b.
Proof.
  induction a using rx_ind'; intros b E; destruct b; simpl in E; try discriminate; auto.
  - apply andb_true_iff in E. destruct E as [E1 E2]. apply N.eqb_eq in E1. subst.
    destruct k, k0; try discriminate; reflexivity.
  - f_equal. revert cs0 E. induction H as [|x l Hx H IH]; intros [|y m] E; try discriminate; auto.
    apply andb_true_iff in E. destruct E as [E1 E2]. f_equal; auto.
  - f_equal. revert cs0 E. induction H as [|x l Hx H IH]; intros [|y m] E; try discriminate; auto.
    apply andb_true_iff in E. destruct E as [E1 E2]. f_equal; auto.
  - f_equal. auto.
Qed.

Lemma regex_eqb_eq : forall a b, regex_eqb a b = true -> a = b.
Proof.
  intros [a1 a2 a3 a4 a5] [b1 b2 b3 b4 b5]. unfold regex_eqb. cbn. intros H.
  autorewrite with eqb in H. destruct H as [[[[H1 H2] H3] H4] H5].
  apply (list_eqb_eq _ (fun a b => proj1 (rinput_eqb_eq a b))) in H2.
  apply (list_eqb_eq _ (fun a b => proj1 (rnode_eqb_eq a b))) in H4.
  apply rx_eqb_eq in H5. congruence.
Qed.

Lemma pool_find_spec : forall r p i j, pool_find r p i = Some j ->
  exists k, j = i + N.of_nat k /\ nth_error p k = Some r.
Proof.
  intros r. induction p as [|x p IH]; intros i j H; simpl in H; [discriminate|].
  destruct (regex_eqb x r) eqn:E.
  - inversion H; subst. apply regex_eqb_eq in E. subst. exists O. split; [simpl; lia|reflexivity].
  - apply IH in H. destruct H as [k [Hj Hn]]. exists (S k). split; [lia|exact Hn].
Qed.

Lemma pool_intern_spec : forall r p rid p', pool_intern r p = (rid, p') ->
  prefix p p' /\ nthN p' rid = Some r.
Proof.
  intros r p rid p' H. unfold pool_intern in H. destruct (pool_find r p 0) as [j|] eqn:E.
  - inversion H; subst. split; [apply prefix_refl|].
    apply pool_find_spec in E. destruct E as [k [-> Hn]]. unfold nthN.
    rewrite N.add_0_l, Nnat.Nat2N.id. exact Hn.
  - inversion H; subst. split; [apply prefix_snoc|]. unfold lenN. apply nthN_app_mid.
Qed.

Section PosImg.
  Variable A : Type.
  Variable R : rinput -> A -> Prop.

  Definition Rp (inputs : list rinput) (p : N) (a : A) : Prop :=
    exists x, nthN inputs p = Some x /\ R x a.

  Definition pimg (inputs : list rinput) (L : list N -> Prop) (w : list A) : Prop :=
    exists ps, L ps /\ Forall2 (Rp inputs) ps w.

  Lemma pimg_iff : forall I (L L' : list N -> Prop), (forall ps, L ps <-> L' ps) ->
    forall w, pimg I L w <-> pimg I L' w.
  Proof. intros I L L' H. apply limg_ext; [tauto | exact H]. Qed.

  Lemma pimg_eps : forall I w, pimg I (Lrx XEps) w <-> w = [].
  Proof.
    intros I. apply (limg_nil (Rp I)). intros v. split; intros H; [inversion H | subst]; constructor.
  Qed.

  Lemma pimg_pos : forall I k p w, pimg I (Lrx (XPos k p)) w <-> exists a, w = [a] /\ Rp I p a.
  Proof.
    intros I k p. apply (limg_one (Rp I)). intros v. split; intros H; [inversion H | subst]; constructor.
  Qed.

  Lemma pimg_cat_nil : forall I w, pimg I (Lrx (XCat [])) w <-> w = [].
  Proof. intros I. apply (limg_nil (Rp I)). apply Lrx_cat_nil. Qed.

  Lemma pimg_cat_cons : forall I c cs w,
    pimg I (Lrx (XCat (c :: cs))) w <->
    exists u v, w = u ++ v /\ pimg I (Lrx c) u /\ pimg I (Lrx (XCat cs)) v.
  Proof. intros I c cs. apply (limg_app (Rp I)). apply Lrx_cat_cons. Qed.

  Lemma pimg_or_nil : forall I w, pimg I (Lrx (XOr [])) w <-> False.
  Proof. intros I. apply (limg_none (Rp I)). apply Lrx_or_nil. Qed.

  Lemma pimg_or_cons : forall I c cs w,
    pimg I (Lrx (XOr (c :: cs))) w <-> pimg I (Lrx c) w \/ pimg I (Lrx (XOr cs)) w.
  Proof. intros I c cs. apply (limg_or (Rp I)). apply Lrx_or_cons. Qed.

  Lemma pimg_many : forall I c w,
    pimg I (Lrx (XCat [c; XStar c])) w <-> plusP (pimg I (Lrx c)) w.
  Proof. intros I c. apply (limg_plus (Rp I)). apply Lrx_many. Qed.

  Lemma pimg_mono : forall I I' L w, prefix I I' -> pimg I L w -> pimg I' L w.
  Proof.
    intros I I' L w HP [ps [H F]]. exists ps. split; [exact H|]. clear H.
    induction F as [|p a ps' w' Hpa F IH].
    - constructor.
    - constructor; [|exact IH]. destruct Hpa as [x [Hx Ra]].
      exists x. split; auto. eapply prefix_nthN; eauto.
  Qed.
End PosImg.

Lemma alloc_inputs : forall n s id s', alloc n s = (id, s') -> b_inputs s' = b_inputs s.
Proof. intros n s id s' H. unfold alloc in H. inversion H; subst. reflexivity. Qed.

Lemma push_input_spec : forall i s p s', push_input i s = (p, s') ->
  p = lenN (b_inputs s) /\ b_inputs s' = b_inputs s ++ [i].
Proof. intros i s p s' H. unfold push_input in H. inversion H; subst. auto. Qed.

Definition in_range (lo hi : N) (l : list N) : Prop := forall p, In p l -> lo <= p < hi.

Lemma not_in_range : forall lo hi l, in_range lo hi l -> ~ In hi l.
Proof. intros lo hi l H Hin. specialize (H hi Hin). lia. Qed.

Lemma in_range_disjoint : forall a b c l m, a <= b -> in_range a b l -> in_range b c m -> disjoint l m.
Proof. intros a b c l m _ H1 H2 x Hx Hy. specialize (H1 x Hx). specialize (H2 x Hy). lia. Qed.

(** How [do_from_expr] treats an expression: the three leaves alike, [Alternative] and [Fallback]
    alike, [Optional c] and [Many1 c] as a parent over [c] and one auxiliary node. *)
Inductive form :=
| FLeaf (i : rinput)
| FNary (cat : bool) (cs : list expr)
| FUnary (many : bool) (c : expr)
| FSub (c : expr) (l : N) (sp : span)
| FDist (c : expr).

Definition form_of (e : expr) : form :=
  match e with
  | Terminal t d l sp => FLeaf (RLit t d l sp)
  | NontermRef n l sp => FLeaf (RNonterm n l sp)
  | Command c z l sp => FLeaf (RCmd c z l sp)
  | Sequence cs _ => FNary true cs
  | Alternative cs _ | Fallback cs _ => FNary false cs
  | Optional c _ => FUnary false c
  | Many1 c _ => FUnary true c
  | Subword c l sp => FSub c l sp
  | DistDescr c _ _ => FDist c
  end.

Lemma expr_form_ind (P : expr -> Prop) :
  (forall e, match form_of e with
             | FLeaf _ => True
             | FNary _ cs => Forall P cs
             | FUnary _ c | FSub c _ _ | FDist c => P c
             end -> P e) ->
  forall e, P e.
Proof. intros H e. induction e using expr_ind'; apply H; cbn [form_of]; auto. Qed.

Definition input_kind (i : rinput) : pkind :=
  match i with RLit _ _ _ _ => KTerm | RNonterm _ _ _ => KNonterm | RCmd _ _ _ _ => KCmd | RSub _ _ _ => KSub end.

Definition input_node (i : rinput) (p : N) : rnode :=
  match i with RLit _ _ _ _ => NTerm p | RNonterm _ _ _ => NNonterm p | RCmd _ _ _ _ => NCmd p | RSub _ _ _ => NSub p end.

(** the state after [push_input i] and [alloc] of its node, and what the leaf hands back *)
Definition pushed (i : rinput) (s : bst) : bst :=
  mkbst (b_nodes s ++ [input_node i (lenN (b_inputs s))]) (b_inputs s ++ [i]).

Definition push_leaf (i : rinput) (s : bst) : N * rx * bst :=
  (lenN (b_nodes s), XPos (input_kind i) (lenN (b_inputs s)), pushed i s).

Definition add_node (n : rnode) (s : bst) : bst := mkbst (b_nodes s ++ [n]) (b_inputs s).

Definition nary_node (cat : bool) : list N -> rnode := if cat then NCat else NOr.
Definition nary_rx (cat : bool) : list rx -> rx := if cat then XCat else XOr.
Definition aux_node (many : bool) (c : N) : rnode := if many then NStar c else NEps.
Definition aux_rx (many : bool) (t : rx) : rx := if many then XStar t else XEps.

Lemma do_from_expr_form e s pl :
  do_from_expr e s pl =
  match form_of e with
  | FLeaf i => Ok (push_leaf i s, pl)
  | FNary cat cs =>
      do r <- do_children do_from_expr cs s pl;
      let '(ids, ts, s1, pl1) := r in
      Ok (lenN (b_nodes s1), nary_rx cat ts, add_node (nary_node cat ids) s1, pl1)
  | FUnary many c =>
      do r <- do_from_expr c s pl;
      let '(cid, ct, s1, pl1) := r in
      let s2 := add_node (aux_node many cid) s1 in
      Ok (lenN (b_nodes s2), nary_rx many [ct; aux_rx many ct],
          add_node (nary_node many [cid; lenN (b_nodes s1)]) s2, pl1)
  | FSub c l sp =>
      do r <- do_from_expr c empty_bst pl;
      let '(cid, ct, cs, pl1) := r in
      let (rid, pl2) := pool_intern (finish_regex cid ct cs) pl1 in
      Ok (push_leaf (RSub rid l sp) s, pl2)
  | FDist _ => Panic "do_from_expr: DistributiveDescription"
  end.
Proof. destruct e; reflexivity. Qed.

Lemma do_children_ind (P : expr -> Prop)
      (Q : list expr -> bst -> pool -> list N -> list rx -> bst -> pool -> Prop) :
  (forall s pl, Q [] s pl [] [] s pl) ->
  (forall c cs s pl id t s1 pl1 ids ts s2 pl2,
     P c -> do_from_expr c s pl = Ok (id, t, s1, pl1) ->
     do_children do_from_expr cs s1 pl1 = Ok (ids, ts, s2, pl2) -> Q cs s1 pl1 ids ts s2 pl2 ->
     Q (c :: cs) s pl (id :: ids) (t :: ts) s2 pl2) ->
  forall cs, Forall P cs -> forall s pl ids ts s' pl',
    do_children do_from_expr cs s pl = Ok (ids, ts, s', pl') -> Q cs s pl ids ts s' pl'.
Proof.
  intros Hnil Hcons. induction 1 as [|c cs Hc _ IH]; intros s pl ids ts s' pl' E; cbn [do_children] in E.
  - injection E as <- <- <- <-. apply Hnil.
  - apply obind_ok in E. destruct E as [[[[id t] s1] pl1] [E1 E]].
    apply obind_ok in E. destruct E as [[[[ids2 ts2] s2] pl2] [E2 E]].
    injection E as <- <- <- <-. exact (Hcons _ _ _ _ _ _ _ _ _ _ _ _ Hc E1 E2 (IH _ _ _ _ _ _ E2)).
Qed.

(** Induction over the runs of [do_from_expr] that return: to show [P] of every run (and [Q] of every
    run over a list of children) it is enough to show it for each kind of node from [P] of the runs
    below it.  The states are written out as the builder leaves them: a leaf adds an input and a node,
    every other node adds one or two nodes on top of what its children left. *)
Section Run.
  Variable P : expr -> bst -> pool -> N -> rx -> bst -> pool -> Prop.
  Variable Q : list expr -> bst -> pool -> list N -> list rx -> bst -> pool -> Prop.

  Hypothesis run_leaf : forall e i, form_of e = FLeaf i -> forall s pl,
    P e s pl (lenN (b_nodes s)) (XPos (input_kind i) (lenN (b_inputs s))) (pushed i s) pl.
  Hypothesis run_word : forall c l sp s pl cid ct cs pl1 rid pl2,
    do_from_expr c empty_bst pl = Ok (cid, ct, cs, pl1) -> P c empty_bst pl cid ct cs pl1 ->
    pool_intern (finish_regex cid ct cs) pl1 = (rid, pl2) ->
    P (Subword c l sp) s pl (lenN (b_nodes s)) (XPos KSub (lenN (b_inputs s)))
      (pushed (RSub rid l sp) s) pl2.
  Hypothesis run_seq : forall cs sp s pl ids ts s1 pl1,
    do_children do_from_expr cs s pl = Ok (ids, ts, s1, pl1) -> Q cs s pl ids ts s1 pl1 ->
    P (Sequence cs sp) s pl (lenN (b_nodes s1)) (XCat ts) (add_node (NCat ids) s1) pl1.
  Hypothesis run_alt : forall e cs sp, e = Alternative cs sp \/ e = Fallback cs sp ->
    forall s pl ids ts s1 pl1,
    do_children do_from_expr cs s pl = Ok (ids, ts, s1, pl1) -> Q cs s pl ids ts s1 pl1 ->
    P e s pl (lenN (b_nodes s1)) (XOr ts) (add_node (NOr ids) s1) pl1.
  Hypothesis run_opt : forall c sp s pl cid ct s1 pl1,
    do_from_expr c s pl = Ok (cid, ct, s1, pl1) -> P c s pl cid ct s1 pl1 ->
    P (Optional c sp) s pl (lenN (b_nodes s1 ++ [NEps])) (XOr [ct; XEps])
      (add_node (NOr [cid; lenN (b_nodes s1)]) (add_node NEps s1)) pl1.
  Hypothesis run_many : forall c sp s pl cid ct s1 pl1,
    do_from_expr c s pl = Ok (cid, ct, s1, pl1) -> P c s pl cid ct s1 pl1 ->
    P (Many1 c sp) s pl (lenN (b_nodes s1 ++ [NStar cid])) (XCat [ct; XStar ct])
      (add_node (NCat [cid; lenN (b_nodes s1)]) (add_node (NStar cid) s1)) pl1.
  Hypothesis run_nil : forall s pl, Q [] s pl [] [] s pl.
  Hypothesis run_cons : forall c cs s pl id t s1 pl1 ids ts s2 pl2,
    do_from_expr c s pl = Ok (id, t, s1, pl1) -> P c s pl id t s1 pl1 ->
    do_children do_from_expr cs s1 pl1 = Ok (ids, ts, s2, pl2) -> Q cs s1 pl1 ids ts s2 pl2 ->
    Q (c :: cs) s pl (id :: ids) (t :: ts) s2 pl2.

  Let P_run (e : expr) : Prop := forall s pl id t s' pl',
    do_from_expr e s pl = Ok (id, t, s', pl') -> P e s pl id t s' pl'.

  Lemma children_run : forall cs, Forall P_run cs -> forall s pl ids ts s' pl',
    do_children do_from_expr cs s pl = Ok (ids, ts, s', pl') -> Q cs s pl ids ts s' pl'.
  Proof.
    apply do_children_ind; [exact run_nil|].
    intros c cs s pl id t s1 pl1 ids ts s2 pl2 Hc E1 E2 HQ. exact (run_cons _ _ _ _ _ _ _ _ _ _ _ _ E1 (Hc _ _ _ _ _ _ E1) E2 HQ).
  Qed.

  Lemma do_from_expr_run : forall e, P_run e.
  Proof.
    induction e as [e IH] using expr_form_ind. intros s pl id t s' pl' E.
    pose proof (run_leaf e) as Hleaf. rewrite do_from_expr_form in E.
    destruct e; cbn [form_of] in IH, Hleaf, E; try discriminate.
    1-3: injection E as <- <- <- <-; exact (Hleaf _ eq_refl s pl).
    all: apply obind_ok in E; destruct E as [[[[i1 t1] s1] pl1] [E1 E]].
    - injection E as <- <- <- <-. exact (run_seq _ _ _ _ _ _ _ _ E1 (children_run _ IH _ _ _ _ _ _ E1)).
    - injection E as <- <- <- <-. exact (run_alt _ _ _ (or_introl eq_refl) _ _ _ _ _ _ E1 (children_run _ IH _ _ _ _ _ _ E1)).
    - injection E as <- <- <- <-. exact (run_opt _ _ _ _ _ _ _ _ E1 (IH _ _ _ _ _ _ E1)).
    - injection E as <- <- <- <-. exact (run_many _ _ _ _ _ _ _ _ E1 (IH _ _ _ _ _ _ E1)).
    - injection E as <- <- <- <-. exact (run_alt _ _ _ (or_intror eq_refl) _ _ _ _ _ _ E1 (children_run _ IH _ _ _ _ _ _ E1)).
    - destruct (pool_intern (finish_regex i1 t1 s1) pl1) as [rid pl2] eqn:Ei.
      injection E as <- <- <- <-. exact (run_word _ _ _ _ _ _ _ _ _ _ _ E1 (IH _ _ _ _ _ _ E1) Ei).
  Qed.

  Lemma builder_run :
    (forall e s pl id t s' pl', do_from_expr e s pl = Ok (id, t, s', pl') -> P e s pl id t s' pl') /\
    (forall cs s pl ids ts s' pl',
       do_children do_from_expr cs s pl = Ok (ids, ts, s', pl') -> Q cs s pl ids ts s' pl').
  Proof.
    split; [exact do_from_expr_run|].
    intros cs. apply children_run. apply Forall_forall. intros e _. exact (do_from_expr_run e).
  Qed.
End Run.

Definition grows (s : bst) (pl : pool) (s' : bst) (pl' : pool) : Prop :=
  prefix (b_inputs s) (b_inputs s') /\ prefix pl pl'.

Lemma grows_trans : forall s pl s1 pl1 s2 pl2,
  grows s pl s1 pl1 -> grows s1 pl1 s2 pl2 -> grows s pl s2 pl2.
Proof. intros s pl s1 pl1 s2 pl2 [H1 H2] [H3 H4]. split; eapply prefix_trans; eauto. Qed.

Lemma pushed_pos : forall i s,
  in_range (lenN (b_inputs s)) (lenN (b_inputs (pushed i s))) [lenN (b_inputs s)].
Proof. intros i s p [<-|[]]. cbn [pushed b_inputs]. rewrite lenN_snoc. lia. Qed.

Lemma builder_shape :
  (forall e s pl id t s' pl', do_from_expr e s pl = Ok (id, t, s', pl') ->
     grows s pl s' pl' /\ shape t /\ in_range (lenN (b_inputs s)) (lenN (b_inputs s')) (positions t)) /\
  (forall cs s pl ids ts s' pl', do_children do_from_expr cs s pl = Ok (ids, ts, s', pl') ->
     grows s pl s' pl' /\ Forall shape ts /\ pairwise_disjoint (map positions ts) /\
     in_range (lenN (b_inputs s)) (lenN (b_inputs s')) (flat_map positions ts)).
Proof.
  apply builder_run.
  - intros e i _ s pl. split; [split; [apply prefix_snoc | apply prefix_refl]|].
    split; [constructor; destruct i; discriminate | apply pushed_pos].
  - intros c l sp s pl cid ct cs pl1 rid pl2 _ [[_ Hp] _] Ei. apply pool_intern_spec in Ei.
    split; [split; [apply prefix_snoc | eapply prefix_trans; [exact Hp | apply Ei]]|].
    split; [constructor; discriminate | apply pushed_pos].
  - intros cs sp s pl ids ts s1 pl1 _ [G [Sh [Dj Rg]]]. split; [exact G|]. split; [apply Sh_cat; assumption | exact Rg].
  - intros e cs sp _ s pl ids ts s1 pl1 _ [G [Sh [Dj Rg]]]. split; [exact G|]. split; [apply Sh_or; assumption | exact Rg].
  - intros c sp s pl cid ct s1 pl1 _ [G [Sh Rg]]. split; [exact G|]. split.
    + apply Sh_or; [repeat constructor; exact Sh|]. cbn. repeat split; repeat constructor. intros x _ [].
    + cbn. rewrite app_nil_r. exact Rg.
  - intros c sp s pl cid ct s1 pl1 _ [G [Sh Rg]]. split; [exact G|]. split; [apply Sh_many; exact Sh|].
    cbn. rewrite app_nil_r. intros p Hp. apply in_app_iff in Hp. destruct Hp; apply Rg; assumption.
  - intros s pl. split; [split; apply prefix_refl|]. split; [constructor|]. split; [exact I | intros p []].
  - intros c cs s pl id t s1 pl1 ids ts s2 pl2 _ [G1 [Sh1 Rg1]] _ [G2 [Sh2 [Dj2 Rg2]]].
    pose proof (prefix_lenN _ _ (proj1 G1)) as Le1. pose proof (prefix_lenN _ _ (proj1 G2)) as Le2.
    split; [eapply grows_trans; eauto|]. split; [constructor; assumption|]. split.
    + split; [|exact Dj2]. apply Forall_forall. intros m Hm x Hx Hy. apply in_map_iff in Hm.
      destruct Hm as [t' [<- Ht']]. specialize (Rg1 x Hx).
      specialize (Rg2 x (proj2 (in_flat_map _ _ _) (ex_intro _ t' (conj Ht' Hy)))). lia.
    + intros p Hp. cbn in Hp. apply in_app_iff in Hp.
      destruct Hp as [Hp|Hp]; [specialize (Rg1 p Hp) | specialize (Rg2 p Hp)]; lia.
Qed.

Definition do_from_expr_shape := proj1 builder_shape.
Definition do_children_shape := proj2 builder_shape.

Lemma finish_regex_fields : forall id t s,
  r_inputs (finish_regex id t s) = b_inputs s /\
  r_end (finish_regex id t s) = lenN (b_inputs s) /\
  r_tree (finish_regex id t s) = with_end t (lenN (b_inputs s)).
Proof. intros id t s. unfold finish_regex, alloc. simpl. auto. Qed.

Lemma finish_regex_tree : forall c pl id t s pl1,
  do_from_expr c empty_bst pl = Ok (id, t, s, pl1) ->
  forall r, r = finish_regex id t s ->
  r_tree r = with_end t (r_end r) /\ shape t /\ in_range 0 (r_end r) (positions t) /\
  r_end r = lenN (r_inputs r).
Proof.
  intros c pl id t s pl1 E r ->. destruct (do_from_expr_shape _ _ _ _ _ _ _ E) as [_ [Sh Rg]].
  destruct (finish_regex_fields id t s) as [-> [-> ->]]. auto.
Qed.

Lemma from_expr_Ok : forall e pl r pl', from_expr e pl = Ok (r, pl') <->
  exists id t s, do_from_expr e empty_bst pl = Ok (id, t, s, pl') /\ r = finish_regex id t s.
Proof.
  intros e pl r pl'. unfold from_expr. split.
  - intros E. apply obind_ok in E. destruct E as [[[[id t] s] pl1] [E1 E]]. injection E as <- <-. eauto.
  - intros [id [t [s [-> ->]]]]. reflexivity.
Qed.

Lemma from_valid_expr_ok : forall e r pl, from_valid_expr e = Ok (r, pl) -> from_expr e [] = Ok (r, pl).
Proof.
  intros e r pl E. unfold from_valid_expr in E.
  destruct (from_expr e []) as [[r' pl']| | |] eqn:E1; simpl in E; try discriminate.
  destruct (check_ambiguities r' pl'); simpl in E; try discriminate. inversion E; subst. reflexivity.
Qed.

Lemma pool_intern_Forall : forall (P : regex -> Prop) r pl rid pl',
  pool_intern r pl = (rid, pl') -> P r -> Forall P pl -> Forall P pl'.
Proof.
  intros P r pl rid pl' H Hr Hp. unfold pool_intern in H. destruct (pool_find r pl 0).
  - injection H as _ <-. exact Hp.
  - injection H as _ <-. apply Forall_app. split; [exact Hp | constructor; [exact Hr | constructor]].
Qed.

Section Builder.
  Variable A : Type.
  Variable leaf : expr -> list A -> Prop.
  Variable R : rinput -> A -> Prop.
  Variable plF : pool.                 (* the final pool *)

  (** what is needed of the leaves: the input pushed means what the leaf denotes *)
  Hypothesis leaf_case : forall e i, form_of e = FLeaf i ->
    forall w, leaf e w <-> exists a, w = [a] /\ R i a.
  Hypothesis word_case : forall c l sp rid pl r pl1,
    from_expr c pl = Ok (r, pl1) -> nthN plF rid = Some r ->
    forall w, leaf (Subword c l sp) w <-> exists a, w = [a] /\ R (RSub rid l sp) a.

  Notation den := (den A leaf).
  Notation pimg := (pimg A R).

  (** a leaf denotes the one-letter words its input stands for, wherever the inputs end up *)
  Lemma pushed_den : forall e i k s I, is_leaf e = true ->
    (forall w, leaf e w <-> exists a, w = [a] /\ R i a) -> prefix (b_inputs (pushed i s)) I ->
    forall w, den e w <-> pimg I (Lrx (XPos k (lenN (b_inputs s)))) w.
  Proof.
    intros e i k s I Hl Hw HI w. rewrite den_leaf_iff, Hw, pimg_pos by exact Hl.
    pose proof (nthN_prefix_mid _ _ _ HI) as Hi.
    split; intros [a [-> Ha]]; exists a; split; auto.
    - exists i. auto.
    - destruct Ha as [x [Hx Ha]]. congruence.
  Qed.

  Theorem builder_den :
    (forall e s pl id t s' pl', do_from_expr e s pl = Ok (id, t, s', pl') -> prefix pl' plF ->
       forall I, prefix (b_inputs s') I -> forall w, den e w <-> pimg I (Lrx t) w) /\
    (forall cs s pl ids ts s' pl', do_children do_from_expr cs s pl = Ok (ids, ts, s', pl') ->
       prefix pl' plF -> forall I, prefix (b_inputs s') I ->
       (forall sp w, den (Sequence cs sp) w <-> pimg I (Lrx (XCat ts)) w) /\
       (forall w, (exists c, In c cs /\ den c w) <-> pimg I (Lrx (XOr ts)) w)).
  Proof.
    apply builder_run.
    - intros e i Hi s pl _ I HI. apply (pushed_den e i); [destruct e; try discriminate; reflexivity | auto | exact HI].
    - intros c l sp s pl cid ct cs pl1 rid pl2 E1 _ Ei HP I HI.
      apply pool_intern_spec in Ei. destruct Ei as [_ Hn].
      apply (pushed_den _ (RSub rid l sp)); [reflexivity | | exact HI].
      refine (word_case c l sp rid pl _ pl1 _ (prefix_nthN _ _ _ _ HP Hn)).
      apply from_expr_Ok. eauto.
    - intros cs sp s pl ids ts s1 pl1 _ L HP I HI w. apply (L HP I HI).
    - intros e cs sp He s pl ids ts s1 pl1 _ L HP I HI w.
      destruct He as [-> | ->]; [rewrite den_alt | rewrite den_fb]; apply (L HP I HI).
    - intros c sp s pl cid ct s1 pl1 _ L HP I HI w.
      rewrite den_opt, !pimg_or_cons, pimg_or_nil, pimg_eps, (L HP I HI w). tauto.
    - intros c sp s pl cid ct s1 pl1 _ L HP I HI w.
      rewrite den_many, pimg_many. apply plusP_iff. apply (L HP I HI).
    - intros s pl _ I _. split.
      + intros sp w. rewrite den_seq_nil, pimg_cat_nil. tauto.
      + intros w. rewrite pimg_or_nil. split; [intros [c [[] _]] | tauto].
    - intros c cs s pl id t s1 pl1 ids ts s2 pl2 _ L1 E2 L2 HP I HI.
      destruct (do_children_shape _ _ _ _ _ _ _ E2) as [[Pi2 Pp2] _].
      specialize (L1 (prefix_trans _ _ _ Pp2 HP) I (prefix_trans _ _ _ Pi2 HI)).
      destruct (L2 HP I HI) as [L2s L2a]. split.
      + intros sp w. rewrite den_seq_cons, pimg_cat_cons.
        split; intros [u [v [-> [H1 H2]]]]; exists u, v; (split; [reflexivity|]);
          (split; [apply L1; exact H1 | apply (L2s sp); exact H2]).
      + intros w. rewrite pimg_or_cons, <- L1, <- L2a. split.
        * intros [c' [[->|Hin] D]]; eauto.
        * intros [H|[c' [Hin D]]]; [exists c | exists c']; cbn; auto.
  Qed.

  Definition do_from_expr_den := proj1 builder_den.

  (** L-glushkov on top: the expression denotes the words of the finished regex's tables, read
      through its inputs *)
  Theorem from_expr_den : forall e pl r, from_expr e pl = Ok (r, plF) ->
    forall w, den e w <-> pimg (r_inputs r) (glushkov_word (r_tree r) (r_end r)) w.
  Proof.
    intros e pl r E w. apply from_expr_Ok in E. destruct E as [id [t [s [E ->]]]].
    destruct (do_from_expr_shape _ _ _ _ _ _ _ E) as [_ [Sh Rg]].
    destruct (finish_regex_fields id t s) as [-> [-> ->]].
    rewrite (do_from_expr_den _ _ _ _ _ _ _ E (prefix_refl _) _ (prefix_refl _) w).
    apply pimg_iff. intros ps. apply glushkov_root; [exact Sh | exact (not_in_range _ _ _ Rg)].
  Qed.
End Builder.
