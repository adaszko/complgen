(** C08, the passes of [from_grammar] in front of the cycle search: the verdicts on a slash in the
    command name and on a plain definition given twice; absence of the early mistake classes of
    Spec/Mistakes.v makes each of these passes succeed ([front_clean], [get_specializations_ok]);
    a specialisation mistake is reported with an error of a class that is present
    ([specialization_errors]). *)
From CG Require Import Base.Prelude Base.Facts Proofs.ListFacts Model.Ast Model.Check Spec.Choice Spec.Mistakes.
From CG Require Import Proofs.CheckMistakes Proofs.CheckLemmas Proofs.CheckWarnings.
From CG Require Import Proofs.CheckCycle Proofs.CheckTotal.

Lemma dedup_single g :
  no_call_variant g = false -> varying_names g = false ->
  exists command cspan, dedup_names [] (cv_names g) = [(command, cspan)]
                        /\ contains_char slash command = slash_in_name g.
Proof.
  unfold no_call_variant, varying_names, slash_in_name, cv_names. rewrite call_names_variants.
  destruct (call_variants g) as [|[[n sp] e] r]; cbn; [discriminate|].
  intros _ Hv. exists n, sp. split.
  - assert (Hd : dedup_names [n] (map (fun x => (fst (fst x), snd (fst x))) r) = []).
    { apply dedup_names_nil. apply forallb_forall. intros [m sp'] Hin. cbn [fst].
      rewrite mem_str_single. apply in_map_iff in Hin. destruct Hin as [[[m' sp''] e'] [Heq Hin]].
      cbn in Heq. inversion Heq; subst.
      rewrite (not_varying_all_equal _ _ Hv m); [apply String.eqb_refl|].
      apply in_map_iff. exists (m, sp', e'). split; [reflexivity|exact Hin]. }
    rewrite Hd. reflexivity.
  - unfold slash. destruct (contains_char "/" n) eqn:Hc; [reflexivity|]. symmetry. cbn [orb].
    destruct (existsb (contains_char "/") _) eqn:E; [|reflexivity]. apply existsb_exists in E.
    destruct E as [m [Hin Hm]]. rewrite (not_varying_all_equal _ _ Hv m Hin) in Hm. congruence.
Qed.

Theorem slash_in_name_rejected builtins g sh :
  varying_names g = false -> slash_in_name g = true ->
  exists sp, from_grammar builtins g sh = Err (InvalidCommandName sp).
Proof.
  intros Hv Hs.
  assert (Hn : no_call_variant g = false).
  { unfold no_call_variant, slash_in_name in *. destruct (call_names g); [discriminate|reflexivity]. }
  destruct (dedup_single g Hn Hv) as (command & cspan & Hd & Hc). exists cspan.
  rewrite from_grammar_named_eq. unfold from_grammar_named. rewrite Hd, Hc, Hs. reflexivity.
Qed.

Lemma duplicate_plain_iff g :
  duplicate_plain g = false <-> exists defs, collect_plain_defs (all_defs g) [] = Ok defs.
Proof.
  unfold duplicate_plain. rewrite plain_names_all_defs, has_dup_NoDup. symmetry.
  apply collect_plain_defs_ok_iff.
Qed.

Theorem duplicate_plain_rejected builtins g sh :
  no_call_variant g = false -> varying_names g = false -> slash_in_name g = false ->
  duplicate_plain g = true ->
  exists a b, from_grammar builtins g sh = Err (DuplicateNonterminalDefinition a b).
Proof.
  intros Hn Hv Hs Hd. destruct (dedup_single g Hn Hv) as (command & cspan & Hdd & Hc).
  destruct (collect_plain_defs_dup (all_defs g)) as [a [b Hcc]].
  { rewrite <- plain_names_all_defs, <- has_dup_NoDup. unfold duplicate_plain in Hd. congruence. }
  exists a, b. rewrite from_grammar_named_eq. unfold from_grammar_named.
  rewrite Hdd, Hc, Hs, Hcc. reflexivity.
Qed.

Lemma front_clean g :
  no_call_variant g = false -> varying_names g = false -> slash_in_name g = false ->
  duplicate_plain g = false ->
  exists command cspan defs0,
    dedup_names [] (cv_names g) = [(command, cspan)] /\ contains_char slash command = false
    /\ collect_plain_defs (all_defs g) [] = Ok defs0.
Proof.
  intros Hn Hv Hsl Hdp. destruct (dedup_single g Hn Hv) as (command & cspan & Hd & Hc).
  destruct (proj1 (duplicate_plain_iff g) Hdp) as [defs0 Hcd].
  exists command, cspan, defs0. rewrite Hc. auto.
Qed.

Definition user_error_present (unknown noncmd dup : bool) (e : cerror) : Prop :=
  match e with
  | UnknownShell _ => unknown = true
  | NonCommandSpecialization _ => noncmd = true
  | DuplicateNonterminalDefinition _ _ => dup = true
  | _ => False
  end.

Lemma unknown_shell_defs g : unknown_shell g = ds_unknown_shell (all_defs g).
Proof.
  unfold unknown_shell, ds_unknown_shell, all_defs. induction g as [|s g IH]; cbn; [reflexivity|].
  destruct s as [n sp e|n sp [[shn shsp]|] rhs]; cbn; rewrite IH; reflexivity.
Qed.

Lemma non_command_defs g : non_command_for_shell g = ds_non_command (all_defs g).
Proof.
  unfold non_command_for_shell, ds_non_command, all_defs. induction g as [|s g IH]; cbn; [reflexivity|].
  destruct s as [n sp e|n sp [[shn shsp]|] rhs]; cbn; rewrite IH; reflexivity.
Qed.

Lemma shell_names_defs g sh : shell_names g sh = shell_names_of sh (all_defs g).
Proof. unfold shell_names_of. symmetry. apply shell_defs_of_names. Qed.

Lemma has_dup_true_cons x l : has_dup (x :: l) = true <-> In x l \/ has_dup l = true.
Proof. cbn. rewrite orb_true_iff, mem_str_In. tauto. Qed.

Lemma get_user_specs_ok_iff g sh :
  (exists us, get_user_specs sh (all_defs g) [] = Ok us) <->
  unknown_shell g = false /\ non_command_for_shell g = false /\ duplicate_for_shell g sh = false.
Proof.
  pose proof (get_user_specs_spec sh (all_defs g) []) as S. cbn zeta in S.
  unfold duplicate_for_shell. rewrite unknown_shell_defs, non_command_defs, shell_names_defs, has_dup_NoDup.
  destruct (get_user_specs sh (all_defs g) []) as [us|e| |]; [| |destruct S|destruct S].
  - destruct S as (_ & H1 & H2 & H3 & _). split; [auto|intros _; eexists; reflexivity].
  - split; [intros [us Hu]; discriminate|]. intros (H1 & H2 & H3). exfalso.
    destruct e; try exact S; try congruence. apply S. split; [exact H3|intros x _ []].
Qed.

Lemma get_user_specs_err_present g sh e :
  get_user_specs sh (all_defs g) [] = Err e ->
  user_error_present (unknown_shell g) (non_command_for_shell g) (duplicate_for_shell g sh) e.
Proof.
  intro He. pose proof (get_user_specs_spec sh (all_defs g) []) as S. rewrite He in S. cbn zeta in S.
  unfold duplicate_for_shell. rewrite unknown_shell_defs, non_command_defs, shell_names_defs.
  destruct e; try exact S. cbn.
  destruct (has_dup (shell_names_of sh (all_defs g))) eqn:E; [reflexivity|]. exfalso. apply S.
  split; [apply has_dup_NoDup; exact E|intros x _ []].
Qed.

Lemma get_fallback_specs_ok specialized ds : forall acc,
  has_dup (plain_names_of ds) = false ->
  (forall x, In x (plain_names_of ds) -> ~ In x (map fst acc)) ->
  (forall n nsp rhs, In (n, nsp, None, rhs) ds -> mem_str n specialized = true ->
                     is_command rhs = true) ->
  exists fs, get_fallback_specs specialized ds acc = Ok fs.
Proof.
  induction ds as [|[[[n nsp] sh] rhs] r IH]; intros acc Hd Hacc Hcmd; cbn [get_fallback_specs].
  - eexists; reflexivity.
  - assert (Hcmd' : forall n nsp rhs, In (n, nsp, None, rhs) r -> mem_str n specialized = true ->
                                      is_command rhs = true).
    { intros. eapply Hcmd; [right; eassumption|assumption]. }
    destruct sh as [s|]; [apply IH; assumption|].
    cbn [plain_names_of has_dup] in Hd, Hacc. apply orb_false_iff in Hd. destruct Hd as [Hn Hd].
    assert (Hacc' : forall x, In x (plain_names_of r) -> ~ In x (map fst acc)).
    { intros x Hx. apply Hacc. right. exact Hx. }
    destruct (mem_str n specialized) eqn:Hm; [|apply IH; assumption].
    pose proof (Hcmd n nsp rhs (or_introl eq_refl) Hm) as Hc.
    destruct rhs; try discriminate.
    destruct (assoc n acc) as [[c p]|] eqn:Ea.
    + exfalso. apply (Hacc n); [left; reflexivity|]. eapply assoc_Some_in; eauto.
    + apply IH; [exact Hd| |exact Hcmd'].
      intros x Hx. rewrite map_app, in_app_iff. cbn. intros [H|[H|[]]].
      * apply (Hacc' x Hx H).
      * subst x. apply mem_str_false in Hn. contradiction.
Qed.

Definition plain_table (g : grammar) : list (string * expr) :=
  flat_map (fun s => match s with NontermDef n _ None rhs => [(n, rhs)] | _ => [] end) g.

Definition shell_table (g : grammar) (sh : shell) : list (string * expr) :=
  flat_map (fun s => match s with
                     | NontermDef n _ (Some (shn, _)) rhs => if is_shell shn sh then [(n, rhs)] else []
                     | _ => []
                     end) g.

Lemma plain_definition_assoc g x : plain_definition g x = assoc x (plain_table g).
Proof.
  unfold plain_table. induction g as [|s g IH]; cbn; [reflexivity|].
  destruct s as [n sp e|n sp [[shn shsp]|] rhs]; cbn; try exact IH.
  rewrite (String.eqb_sym x n). destruct (String.eqb n x); [reflexivity|exact IH].
Qed.

Lemma shell_definition_assoc g sh x : shell_definition g sh x = assoc x (shell_table g sh).
Proof.
  unfold shell_table. induction g as [|s g IH]; cbn; [reflexivity|].
  destruct s as [n sp e|n sp [[shn shsp]|] rhs]; cbn; try exact IH.
  destruct (is_shell shn sh); cbn; [|rewrite andb_false_r; exact IH].
  rewrite andb_true_r, (String.eqb_sym x n). destruct (String.eqb n x); [reflexivity|exact IH].
Qed.

Lemma plain_table_keys g : map fst (plain_table g) = plain_names g.
Proof.
  unfold plain_table, plain_names. rewrite map_flat_map. apply flat_map_ext.
  intros [n sp e|n sp [[shn shsp]|] rhs]; reflexivity.
Qed.

Lemma shell_table_keys g sh : map fst (shell_table g sh) = shell_names g sh.
Proof.
  unfold shell_table, shell_names. rewrite map_flat_map. apply flat_map_ext.
  intros [n sp e|n sp [[shn shsp]|] rhs]; try reflexivity. destruct (is_shell shn sh); reflexivity.
Qed.

Lemma in_plain_table g x rhs : In (x, rhs) (plain_table g) <-> exists nsp, In (NontermDef x nsp None rhs) g.
Proof.
  unfold plain_table. rewrite in_flat_map. split.
  - intros [[n sp e|n sp [[shn shsp]|] r] [Hs Hin]]; try (destruct Hin; fail). destruct Hin as [Hin|[]].
    inversion Hin; subst. eauto.
  - intros [nsp H]. eexists. split; [exact H|]. left. reflexivity.
Qed.

Lemma in_shell_table g sh x rhs :
  In (x, rhs) (shell_table g sh) <->
  exists nsp shn shsp, In (NontermDef x nsp (Some (shn, shsp)) rhs) g /\ is_shell shn sh = true.
Proof.
  unfold shell_table. rewrite in_flat_map. split.
  - intros [[n sp e|n sp [[shn shsp]|] r] [Hs Hin]]; try (destruct Hin; fail).
    destruct (is_shell shn sh) eqn:E; [|destruct Hin]. destruct Hin as [Hin|[]]. inversion Hin; subst. eauto 6.
  - intros (nsp & shn & shsp & H & E). eexists. split; [exact H|]. cbn. rewrite E. left. reflexivity.
Qed.

Lemma plain_definition_in g n nsp rhs :
  has_dup (plain_names g) = false -> In (NontermDef n nsp None rhs) g ->
  plain_definition g n = Some rhs.
Proof.
  intros Hd Hin. rewrite plain_definition_assoc.
  apply assoc_NoDup_In; [rewrite plain_table_keys; apply has_dup_NoDup; exact Hd|].
  apply in_plain_table. eauto.
Qed.

Lemma us_keys_shell_names g sh us :
  get_user_specs sh (all_defs g) [] = Ok us -> map fst us = shell_names g sh.
Proof.
  intro H. apply get_user_specs_spans in H.
  rewrite <- shell_defs_of_names, <- H. unfold us_spans. rewrite map_map. reflexivity.
Qed.

Lemma in_shell_names g sh n :
  In n (shell_names g sh) ->
  exists nsp shn shsp rhs, In (NontermDef n nsp (Some (shn, shsp)) rhs) g /\ is_shell shn sh = true.
Proof.
  rewrite <- shell_table_keys, in_map_iff. intros [[n' rhs] [Heq Hin]]. cbn in Heq. subst n'.
  apply in_shell_table in Hin. destruct Hin as (nsp & shn & shsp & Hin & Hs). eauto 6.
Qed.

Theorem get_specializations_ok g sh :
  duplicate_plain g = false ->
  unknown_shell g = false -> non_command_for_shell g = false -> duplicate_for_shell g sh = false ->
  specs_have_command_plain g = true ->
  exists us fs, get_specializations g sh = Ok (us, fs).
Proof.
  intros Hdp H1 H2 H3 Hs. unfold get_specializations.
  destruct (proj2 (get_user_specs_ok_iff g sh) (conj H1 (conj H2 H3))) as [us Hus].
  rewrite Hus. cbn [obind].
  destruct (get_fallback_specs_ok (map fst us) (all_defs g) []) as [fs Hfs].
  - rewrite <- plain_names_all_defs. exact Hdp.
  - intros x _ [].
  - intros n nsp rhs Hin Hm. apply in_all_defs in Hin. apply mem_str_In in Hm.
    rewrite (us_keys_shell_names _ _ _ Hus) in Hm. apply in_shell_names in Hm.
    destruct Hm as (nsp' & shn & shsp & rhs' & Hin' & _).
    unfold specs_have_command_plain in Hs. rewrite forallb_forall in Hs.
    specialize (Hs _ Hin'). cbn in Hs.
    rewrite (plain_definition_in g n nsp rhs Hdp Hin) in Hs. exact Hs.
  - rewrite Hfs. cbn. eexists; eexists; reflexivity.
Qed.

Theorem specialization_errors builtins g sh :
  no_call_variant g = false -> varying_names g = false -> slash_in_name g = false ->
  duplicate_plain g = false ->
  unknown_shell g || non_command_for_shell g || duplicate_for_shell g sh = true ->
  exists e, from_grammar builtins g sh = Err e /\
            user_error_present (unknown_shell g) (non_command_for_shell g)
                               (duplicate_for_shell g sh) e.
Proof.
  intros Hn Hv Hsl Hdp Hbad.
  destruct (front_clean g Hn Hv Hsl Hdp) as (command & cspan & defs0 & Hd & Hs & Hc).
  rewrite from_grammar_named_eq. unfold from_grammar_named, get_specializations.
  rewrite Hd, Hs, Hc. cbn [obind].
  pose proof (get_user_specs_fine sh (all_defs g) []) as Hf.
  destruct (get_user_specs sh (all_defs g) []) as [us|e| |] eqn:Hus.
  - exfalso. destruct (proj1 (get_user_specs_ok_iff g sh)) as (H1 & H2 & H3); [eexists; exact Hus|].
    rewrite H1, H2, H3 in Hbad. discriminate.
  - exists e. split; [reflexivity|]. apply get_user_specs_err_present. exact Hus.
  - destruct Hf.
  - destruct Hf.
Qed.
