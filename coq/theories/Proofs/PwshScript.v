(** C04, PowerShell: the WHOLE emitted script ([Model/EmitPwsh.script]) is read back by the
    specification-side reader.  Same construction as Proofs/ZshScript.v. *)
From Coq Require Import DecimalString.
From CG Require Import Base.Prelude Model.Ast Model.Dfa Model.Tpl Model.Quote Model.Tables Model.EmitBash Model.EmitData
     Model.EmitPwsh Spec.ShellDQ Spec.ScriptRead Proofs.TablesSound Proofs.QuoteRT Proofs.BashCodec Proofs.BashScript Proofs.ScriptGen
     Proofs.PwshCodec.
From CGgen Require Import Consts TplPwsh.
Open Scope N_scope.
Open Scope list_scope.

Notation envP := EmitPwsh.env_cmd.
Notation line_semP := (line_semG Pwsh).
Notation scansP := (scansE Pwsh).

Definition pdp : string := "         ".
Lemma pdeep x : stmt_of Pwsh (append pdp x) = None.
Proof. reflexivity. Qed.
Lemma pblank rest : stmt_of Pwsh (append nl rest) = None.
Proof. reflexivity. Qed.

(** the command name: name characters, and no single quote (it is written between single quotes in
    the registration line) *)
Definition no_squote (s : string) : bool := forallb (fun c => negb (Ascii.eqb c "'")) (list_ascii_of_string s).
Definition pname_ok (command : string) : Prop := name_ok command /\ no_squote command = true.

Lemma pheader_reads cmd suf :
  name_ok cmd -> forallb is_name_char (list_ascii_of_string suf) = true ->
  no_nl (append "function _" (append cmd (append suf " {"))) = true
  /\ forall rest, pwsh_stmt (append (append "function _" (append cmd (append suf " {"))) (append nl rest))
                  = Some (SFunc (append "_" (append cmd suf)), rest).
Proof.
  intros Hc Hsuf. split.
  - cbn [append no_nl]. rewrite !no_nl_app, (name_ok_no_nl _ Hc), (name_chars_no_nl _ Hsuf). reflexivity.
  - intros rest. rewrite !append_assoc. unfold pwsh_stmt.
    do 6 (rewrite alt_skip by reflexivity).
    apply alt_take. exact (function_reads " {" cmd suf rest Hc Hsuf eq_refl).
Qed.

Lemma pheader_sem cmd suf :
  name_ok cmd -> forallb is_name_char (list_ascii_of_string suf) = true -> strip "_cmd_" suf = None ->
  line_semP cmd (append "function _" (append cmd (append suf " {"))) (Some (SFunc (append "_" (append cmd suf)))).
Proof.
  intros Hc Hsuf. apply header_semG, pheader_reads; assumption.
Qed.

(** [    _<cmd><suffix> $args[0] $args[1]] *)
Lemma pcall_sem cmd suf :
  name_ok cmd -> forallb is_name_char (list_ascii_of_string suf) = true ->
  line_semP cmd (append "    _" (append cmd (append suf " $args[0] $args[1]")))
            (Some (SCall (append "_" (append cmd suf)))).
Proof.
  intros Hc Hsuf. split; [|split; [|exact I]].
  - nonl (name_ok_no_nl cmd Hc) (name_chars_no_nl suf Hsuf).
  - intros rest. rewrite !append_assoc. change (stmt_of Pwsh) with pwsh_stmt. unfold pwsh_stmt.
    do 5 (rewrite alt_skip by reflexivity).
    apply alt_take. exact (call_reads " $args" cmd suf "[0] $args[1]" rest Hc Hsuf eq_refl eq_refl).
Qed.

(** Register-ArgumentCompleter -Native -CommandName '<cmd>' -ScriptBlock { *)
Lemma pregister_sem cmd :
  pname_ok cmd ->
  line_semP cmd (append "Register-ArgumentCompleter -Native -CommandName '" (append cmd "' -ScriptBlock {"))
            (Some (SRegister [cmd])).
Proof.
  intros [[Hne Hc] Hq]. pose proof (name_ok_no_nl cmd (conj Hne Hc)) as Hnl.
  split; [|split; [|exact I]].
  - nonl Hnl Hnl.
  - intros rest. rewrite !append_assoc. change (stmt_of Pwsh) with pwsh_stmt. unfold pwsh_stmt.
    do 8 (rewrite alt_skip by reflexivity).
    rewrite pbind_lit.
    change ("' -ScriptBlock {" ++ nl ++ rest)%string with (String "'" (" -ScriptBlock {" ++ nl ++ rest))%string.
    rewrite (take_while_app _ cmd (String "'" _) Hq eq_refl). reflexivity.
Qed.

Lemma pscalar_sem cmd var n :
  vname var -> line_semP cmd (append "    $" (append var (append " = " (sN n)))) (Some (SScalar var n)).
Proof.
  intros Hv. apply (data_line Pwsh cmd _ (pscalar_line var n)); [unfold pscalar_line; rewrite !append_assoc; reflexivity | apply preads_scalar, Hv|].
  nonl (name_chars_no_nl var (proj2 Hv)) no_nl_sN.
Qed.

Lemma pclose_table_sem cmd : line_semP cmd "    }" None.
Proof. split; [reflexivity|]. split; [intros rest; reflexivity | exact I]. Qed.

(** the literal list and the descriptions: data lines, and the closing line of the table *)
Lemma plits_scans cmd lits : lits_smart_free lits -> scansP cmd (P.write_literals lits) (plits_stmts lits).
Proof.
  intros Hs. destruct (preads_lits lits Hs) as [body [-> Hb]]. rewrite <- (app_nil_r (plits_stmts lits)).
  apply scansE_app; [apply reads_scansG, Hb|]. unfold pdescr_close.
  destruct (pdescrs lits); [apply scansE_nil | apply (scansG_line Pwsh cmd "    }" None), pclose_table_sem].
Qed.

Definition pwrapper_stmts (command : string) (id : N) (t : tables) : list stmt :=
  [SFunc (fn_name command (append "_subword_" (sN id)))]
  ++ plits_stmts (t_literals t) ++ pmatch_stmts t ++ completion_stmts t
  ++ [SCall (fn_name command "_subword")] ++ [SEnd].

Definition pshape_fn_stmts (command : string) (sid : N) (t : tables) : list stmt :=
  [SFunc (fn_name command (append "_subword_shape_" (sN sid)))]
  ++ pmatch_stmts t ++ completion_stmts t ++ [SCall (fn_name command "_subword")] ++ [SEnd].

Definition pshape_wrapper_stmts (command : string) (id sid : N) (t : tables) : list stmt :=
  [SFunc (fn_name command (append "_subword_" (sN id)))] ++ plits_stmts (t_literals t)
  ++ [SCall (fn_name command (append "_subword_shape_" (sN sid)))] ++ [SEnd].

Section Wrappers.
Variable command : string.
Hypothesis Hc : name_ok command.

Lemma pwrapper_scans id t :
  lits_smart_free (t_literals t) ->
  scansP command (append (P.wrapper command id t) nl) (pwrapper_stmts command id t).
Proof.
  intros Hs. pose proof (sub_suffix_ok "_subword_" id eq_refl) as S1.
  unfold P.wrapper, pwrapper_stmts. cbn [sconcat]. rewrite !append_assoc.
  apply scansE_app; [unit_by pdeep ltac:(open_line (pheader_sem command _ Hc S1 eq_refl); constructor)|].
  apply scansE_app; [apply plits_scans; exact Hs|].
  apply scansE_app; [apply reads_scansG, preads_match|].
  apply scansE_app; [apply reads_scansG, preads_completion|].
  apply scansE_app; [unit_by pdeep ltac:(open_line (pcall_sem command "_subword" Hc eq_refl); constructor)|].
  apply scansE_cons; [plain_unit pdeep | apply (blank_scansG Pwsh pblank)].
Qed.

Lemma pshape_fn_scans sid t :
  scansP command (append (P.shape_fn command sid t) nl) (pshape_fn_stmts command sid t).
Proof.
  pose proof (sub_suffix_ok "_subword_shape_" sid eq_refl) as S1.
  unfold P.shape_fn, pshape_fn_stmts. cbn [sconcat]. rewrite !append_assoc.
  apply scansE_app; [unit_by pdeep ltac:(open_line (pheader_sem command _ Hc S1 eq_refl); constructor)|].
  apply scansE_app; [apply reads_scansG, preads_match|].
  apply scansE_app; [apply reads_scansG, preads_completion|].
  apply scansE_app; [unit_by pdeep ltac:(open_line (pcall_sem command "_subword" Hc eq_refl); constructor)|].
  apply scansE_cons; [plain_unit pdeep | apply (blank_scansG Pwsh pblank)].
Qed.

Lemma pshape_wrapper_scans id sid t :
  lits_smart_free (t_literals t) ->
  scansP command (append (P.shape_wrapper command id sid t) nl) (pshape_wrapper_stmts command id sid t).
Proof.
  intros Hs. pose proof (sub_suffix_ok "_subword_" id eq_refl) as S1.
  pose proof (sub_suffix_ok "_subword_shape_" sid eq_refl) as T1.
  unfold P.shape_wrapper, pshape_wrapper_stmts. cbn [sconcat]. rewrite !append_assoc.
  apply scansE_app; [unit_by pdeep ltac:(open_line (pheader_sem command _ Hc S1 eq_refl); constructor)|].
  apply scansE_app; [apply plits_scans; exact Hs|].
  apply scansE_app; [unit_by pdeep ltac:(open_line (pcall_sem command _ Hc T1); constructor)|].
  apply scansE_cons; [plain_unit pdeep | apply (blank_scansG Pwsh pblank)].
Qed.
End Wrappers.

Definition pcmd_fns_stmts (command : string) (ics : list (N * string)) : list stmt :=
  flat_map (fun ic => [SFunc (fn_name command (append "_cmd_" (sN (fst ic)))); SBody (P.cmd_body (snd ic)); SEnd]) ics.

Lemma pcmd_fns_scans command (Hc : name_ok command) ics :
  Forall (fun ic => body_okG Pwsh (P.cmd_body (snd ic))) ics ->
  scansP command
    (sconcat (map (fun ic : N * string => fmtln write_completion_script_1
                                            (("id", sN (fst ic)) :: ("cmd", P.cmd_body (snd ic)) :: envP command)) ics))
    (pcmd_fns_stmts command ics).
Proof.
  apply (cmd_fns_scansG Pwsh pdp pdeep pblank command
           (fun id => append "function _" (append command (append (append "_cmd_" (sN id)) " {")))
           (fun id => fn_name command (append "_cmd_" (sN id))) _ P.cmd_body).
  - intros ic. unfold cmd_fn_textG. rewrite fmtln_renderln, !append_assoc. reflexivity.
  - discriminate.
  - intros id. pose proof (sub_suffix_ok "_cmd_" id eq_refl) as S1. apply (pheader_reads command _ Hc S1).
  - intros id. apply is_cmd_fn_true.
Qed.

Definition psub_fn_stmts (command : string) : list stmt :=
  [SFunc (fn_name command "_subword"); SScalar "subword_state" 0; SScalar "char_index" 0] ++ [SLits "completions" []] ++ [SEnd].

Lemma psub_fn_scans command (Hp : pname_ok command) nc ns :
  scansP command (EmitPwsh.write_subword_fn command nc ns) (psub_fn_stmts command).
Proof.
  pose proof (proj1 Hp) as Hc.
  unfold EmitPwsh.write_subword_fn, fmt, psub_fn_stmts. cbn [sconcat]. rewrite fmtln_unit.
  apply scans_nl_after; [unit_by pdeep ltac:(open_line (pheader_sem command "_subword" Hc eq_refl eq_refl); constructor)|].
  apply scans_nl_if0; [reflexivity | plain_unit pdeep|].
  apply scans_nl_if0; [reflexivity | plain_unit pdeep|].
  apply scans_nl_app; [reflexivity | plain_unit pdeep|].
  apply scans_nl_if0; [reflexivity | plain_unit pdeep|].
  apply scans_nl_last; [reflexivity|]. rewrite append_nil_r. plain_unit pdeep.
Qed.

Definition pgroup_stmts (command : string) : alltables -> N -> list N -> res (list stmt) :=
  group_stmtsG (pwrapper_stmts command) (pshape_fn_stmts command) (pshape_wrapper_stmts command).

Definition psubtrans_stmts (rows : list (N * list (N * N))) : list stmt :=
  SAssoc "subword_transitions" [] :: row_stmts "subword_transitions" rows.

Definition pscript_stmts (command : string) (start : N) (nd : needs) (a : alltables) (groups : list (list N))
  : res (list stmt) :=
  let main := a_main a in
  do gs <- (if n_subwords nd then
              do l <- omap (fun ig : N * list N => pgroup_stmts command a (fst ig) (snd ig)) (number_from 0 groups);
              Ok (List.concat l)
            else Ok []);
  do rows <- (if n_subwords nd then resolve_rows a else Ok []);
  Ok (pcmd_fns_stmts command (number_from 0 (a_commands a)) ++ gs
      ++ (if n_subwords nd then psub_fn_stmts command else [])
      ++ [SRegister [command]] ++ plits_stmts (t_literals main) ++ pmatch_stmts main
      ++ (if n_subwords nd then psubtrans_stmts rows else [])
      ++ [SScalar "state" start; SScalar "word_index" 1]
      ++ completion_stmts main
      ++ (if n_subwords nd then level_stmts "subword_transitions_level_" (a_csub a) else [])
      ++ [SScalar "max_fallback_level" (t_maxlevel main); SLits "results" []] ++ [SEnd]).

Definition alltables_smart_free (a : alltables) : Prop :=
  lits_smart_free (t_literals (a_main a))
  /\ forall id t, tables_of a id = Ok t -> lits_smart_free (t_literals t).

Theorem pwsh_script_read command sig start nd a groups s :
  pname_ok command -> no_nl sig = true ->
  Forall (fun c => body_okG Pwsh (P.cmd_body c)) (a_commands a) ->
  alltables_smart_free a ->
  EmitPwsh.script command sig start nd a groups = Ok s ->
  exists sts, pscript_stmts command start nd a groups = Ok sts /\ read_stmts Pwsh command s = sts.
Proof.
  intros Hp Hsig Hbodies [Hmain Hsubs] H. pose proof (proj1 Hp) as Hc.
  unfold EmitPwsh.script in H. unfold pscript_stmts, pgroup_stmts.
  refine (script_readG Pwsh command _ _ _ _ _ _ (fun t => lits_smart_free (t_literals t))
            (pwrapper_scans command Hc) (pshape_fn_scans command Hc) (pshape_wrapper_scans command Hc)
            a groups _ _ _ _ s Hsubs _ H).
  intros groups_part gs rows Hgn.
  cbn [sconcat]. unfold fmt.
  apply scansE_app0; [apply (sig_scansG Pwsh command sig (fun _ => eq_refl) Hsig)|].
  apply scansE_app0; [plain_unit pdeep|].
  apply scansE_app; [apply (pcmd_fns_scans command Hc), (Forall_number_from (fun c => body_okG Pwsh (P.cmd_body c))), Hbodies|].
  apply scansE_app; [exact Hgn|].
  apply scansE_app; [apply scansE_if; apply (psub_fn_scans command Hp)|].
  apply scansE_app; [unit_by pdeep ltac:(open_line (pregister_sem command Hp); constructor)|].
  apply scansE_app0; [plain_unit pdeep|].
  apply scansE_app; [apply plits_scans; exact Hmain|].
  apply scansE_app; [apply reads_scansG, preads_match|].
  apply scansE_app; [apply scansE_if, reads_scansG, preads_subrows|].
  apply scans_nl_after; [unit_by pdeep ltac:(open_line (pscalar_sem command "state" start ltac:(vn)); constructor)|].
  apply scans_nl_if0; [reflexivity | plain_unit pdeep|].
  apply scans_nl_if0; [reflexivity | plain_unit pdeep|].
  apply scans_nl_if0; [reflexivity | plain_unit pdeep|].
  apply scans_nl_last; [reflexivity|].
  apply scansE_app0; [plain_unit pdeep|].
  apply scansE_app; [apply reads_scansG, preads_completion|].
  apply scansE_app; [apply scansE_if, reads_scansG, preads_sublevels|].
  apply scans_nl_after;
    [unit_by pdeep ltac:(open_line (pscalar_sem command "max_fallback_level" (t_maxlevel (a_main a)) ltac:(vn)); constructor)|].
  apply scans_nl_if0; [reflexivity | plain_unit pdeep|].
  apply scans_nl_if0; [reflexivity | plain_unit pdeep|].
  apply scans_nl_last; [reflexivity|]. rewrite append_nil_r. plain_unit pdeep.
Qed.

(** a decidable form of the hypothesis on literal texts *)
Definition lits_smart_freeb (lits : list (N * string * string)) : bool :=
  forallb (fun l : N * string * string => smart_free (snd (fst l)) && smart_free (snd l)) lits.
Definition alltables_smart_freeb (a : alltables) : bool :=
  lits_smart_freeb (t_literals (a_main a))
  && forallb (fun e => lits_smart_freeb (t_literals (snd e))) (a_subwords a).

Lemma lits_smart_freeb_sound lits : lits_smart_freeb lits = true -> lits_smart_free lits.
Proof.
  unfold lits_smart_freeb, lits_smart_free. rewrite forallb_forall, Forall_forall. intros H l Hl.
  apply andb_prop. apply H. exact Hl.
Qed.

Lemma alltables_smart_freeb_sound a : alltables_smart_freeb a = true -> alltables_smart_free a.
Proof.
  unfold alltables_smart_freeb. intros H. apply andb_prop in H. destruct H as [Hm Hs]. split.
  - apply lits_smart_freeb_sound. exact Hm.
  - intros id t Ht. unfold tables_of, tables_of_id in Ht.
    destruct (find (fun e => N.eqb (snd (fst e)) id) (a_subwords a)) as [e|] eqn:E; [|discriminate].
    assert (Et : snd e = t) by congruence. subst t. apply find_some in E. destruct E as [Hin _].
    rewrite forallb_forall in Hs. apply lits_smart_freeb_sound. apply Hs. exact Hin.
Qed.
