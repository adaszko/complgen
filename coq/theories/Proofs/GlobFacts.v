(** Facts about Model/Glob.v used by the BashSem proofs:
    - a pattern without glob characters matches exactly itself; followed by "*" it is a prefix test;
    - printf %q of printable text, followed by "*", is an exact prefix test ([[ $line = ${prefix}* ]]).
    Both go through [quotes]: a pattern that parses to the characters of the text it stands for.
    The [sdrop]/[stake] facts of the clients stand here too. *)
From CG Require Import Base.Prelude Base.Facts Model.Glob.

(** Characters that are ordinary in a pattern wherever they stand. *)
Definition plain_char (c : ascii) : bool :=
  negb (aeq c c_bslash || aeq c c_quest || aeq c c_star || aeq c c_lbrack || aeq c c_lparen).

Fixpoint plain (s : string) : bool :=
  match s with
  | EmptyString => true
  | String c r => plain_char c && plain r
  end.

Fixpoint chars (s : string) : list gtok :=
  match s with
  | EmptyString => []
  | String c r => TChar c :: chars r
  end.

Lemma aeq_refl c : aeq c c = true.
Proof. unfold aeq. apply Ascii.eqb_refl. Qed.

Lemma aeq_eq a b : aeq a b = true <-> a = b.
Proof. unfold aeq. apply Ascii.eqb_eq. Qed.

Lemma plain_app a b : plain (a ++ b) = plain a && plain b.
Proof.
  induction a as [|c a IH]; cbn [append plain]; [reflexivity|].
  rewrite IH. now rewrite andb_assoc.
Qed.

Lemma next_is_lparen_plain r : plain r = true -> next_is_lparen r = false.
Proof.
  destruct r as [|d r]; cbn; [reflexivity|].
  unfold plain_char. intros H. apply andb_true_iff in H as [H _].
  apply negb_true_iff in H. repeat (apply orb_false_iff in H as [H ?]). assumption.
Qed.

Lemma length_sdrop n : forall s, String.length (sdrop n s) = (String.length s - n)%nat.
Proof. induction n as [|n IH]; intros [|c s]; cbn [sdrop String.length]; try reflexivity. apply IH. Qed.

Lemma stake_sdrop n : forall s, (stake n s ++ sdrop n s)%string = s.
Proof. induction n as [|n IH]; intros [|c s]; cbn [stake sdrop append]; try reflexivity. rewrite IH. reflexivity. Qed.

Lemma plain_sdrop n : forall s, plain s = true -> plain (sdrop n s) = true.
Proof.
  induction n as [|n IH]; intros [|c s] H; cbn [sdrop]; try assumption.
  cbn [plain] in H. apply andb_true_iff in H as [_ H]. exact (IH s H).
Qed.

(** [q] quotes [s]: every character of [s] stands in [q] for itself where it is ordinary in a pattern, or behind
    a backslash; no kept character is followed by an unescaped "(" *)
Inductive quotes : string -> string -> Prop :=
| quotes_nil : quotes EmptyString EmptyString
| quotes_keep c q s : plain_char c = true -> next_is_lparen q = false -> quotes q s -> quotes (String c q) (String c s)
| quotes_esc c q s : quotes q s -> quotes (String c_bslash (String c q)) (String c s).

(** parsing a quoted string followed by an arbitrary parsable tail: one step per character quoted *)
Lemma parse_quotes ext q s : quotes q s -> forall fuel tail ts,
    next_is_lparen tail = false ->
    parse fuel ext tail = Some ts ->
    parse (String.length s + fuel) ext (q ++ tail) = Some (chars s ++ ts).
Proof.
  induction 1 as [|c q s Hc Hq _ IH|c q s _ IH]; intros fuel tail ts Hl Ht; [exact Ht| |];
    cbn [String.length Nat.add append parse chars List.app].
  - unfold plain_char in Hc. apply negb_true_iff in Hc. repeat (apply orb_false_iff in Hc as [Hc ?]).
    assert (Hnl : next_is_lparen (q ++ tail) = false) by (destruct q; [exact Hl|exact Hq]).
    rewrite Hnl, andb_false_r, Hc, H2, H1, H0, (IH fuel tail ts Hl Ht). reflexivity.
  - change (is_ext_opener c_bslash) with false. rewrite andb_false_r. cbn [andb].
    rewrite aeq_refl, (IH fuel tail ts Hl Ht). reflexivity.
Qed.

Lemma quotes_plain s : plain s = true -> quotes s s.
Proof.
  induction s as [|c s IH]; intros Hp; [constructor|]. cbn [plain] in Hp. apply andb_true_iff in Hp as [Hc Hs].
  constructor; [exact Hc| |exact (IH Hs)]. destruct s as [|d s']; [reflexivity|]. cbn [plain] in Hs.
  apply andb_true_iff in Hs as [Hd _]. unfold plain_char in Hd. apply negb_true_iff in Hd.
  repeat (apply orb_false_iff in Hd as [Hd ?]). assumption.
Qed.

Lemma parse_plain_then ext s fuel tail ts :
    plain s = true -> next_is_lparen tail = false -> parse fuel ext tail = Some ts ->
    parse (String.length s + fuel) ext (s ++ tail) = Some (chars s ++ ts).
Proof. intros Hp. apply parse_quotes. now apply quotes_plain. Qed.

Lemma parse_empty fuel ext : parse (S fuel) ext EmptyString = Some [].
Proof. reflexivity. Qed.

Lemma parse_star fuel ext : parse (S (S fuel)) ext "*" = Some [TStar].
Proof.
  cbn. rewrite andb_false_r. reflexivity.
Qed.

Lemma parse_plain ext s :
  plain s = true -> parse (S (String.length s)) ext s = Some (chars s).
Proof.
  intros H.
  pose proof (parse_plain_then ext s 1 EmptyString [] H eq_refl (parse_empty 0 ext)) as P.
  replace (s ++ "")%string with s in P.
  - rewrite app_nil_r in P. rewrite Nat.add_comm in P. exact P.
  - clear. induction s; cbn; [reflexivity|]. now rewrite <- IHs.
Qed.

Lemma parse_plain_star ext s :
  plain s = true ->
  parse (S (String.length (s ++ "*"))) ext (s ++ "*") = Some (chars s ++ [TStar]).
Proof.
  intros H.
  pose proof (parse_plain_then ext s 2 "*" [TStar] H eq_refl (parse_star 0 ext)) as P.
  rewrite length_append. cbn [String.length].
  replace (S (String.length s + 1)) with (String.length s + 2)%nat by lia. exact P.
Qed.

Lemma gmatch_chars p : forall s, gmatch (chars p) s = String.eqb p s.
Proof.
  induction p as [|c p IH]; intros s; destruct s as [|d s]; cbn [chars gmatch String.eqb]; try reflexivity.
  rewrite IH. unfold aeq. reflexivity.
Qed.

Lemma gmatch_star_nil : forall s, gmatch [TStar] s = true.
Proof.
  induction s as [|a s IH]; [reflexivity|]. cbn in *. exact IH.
Qed.

Lemma gmatch_chars_star p : forall s, gmatch (chars p ++ [TStar]) s = String.prefix p s.
Proof.
  induction p as [|c p IH]; intros s.
  - cbn [chars List.app]. rewrite gmatch_star_nil. destruct s; reflexivity.
  - destruct s as [|d s]; cbn [chars List.app gmatch String.prefix]; [reflexivity|].
    rewrite IH. unfold aeq.
    destruct (Ascii.eqb c d) eqn:E.
    + apply Ascii.eqb_eq in E. subst d. destruct (ascii_dec c c); [reflexivity|congruence].
    + apply Ascii.eqb_neq in E. destruct (ascii_dec c d); [congruence|reflexivity].
Qed.

(** the two pattern shapes of the script, on glob-free text: a literal alone, and a literal followed by "*" *)
Theorem glob_plain_exact ext lit s :
  plain lit = true -> glob_match ext lit s = Some (String.eqb lit s).
Proof.
  intros H. unfold glob_match. rewrite (parse_plain ext lit H). now rewrite gmatch_chars.
Qed.

Theorem glob_plain_prefix ext p s :
  plain p = true -> glob_match ext (p ++ "*") s = Some (String.prefix p s).
Proof.
  intros H. unfold glob_match. rewrite (parse_plain_star ext p H). now rewrite gmatch_chars_star.
Qed.

Lemma not_q_special c d : contains_char c q_special = false -> contains_char d q_special = true -> aeq c d = false.
Proof. intros H Hd. destruct (aeq c d) eqn:E; [|reflexivity]. apply aeq_eq in E. subst d. congruence. Qed.

Lemma contains_q_special_cases c :
  contains_char c q_special = false ->
  aeq c c_bslash = false /\ aeq c c_quest = false /\ aeq c c_star = false /\ aeq c c_lbrack = false
  /\ aeq c c_lparen = false.
Proof. intros H. repeat split; apply (not_q_special c _ H); reflexivity. Qed.

Lemma is_ext_opener_special c :
  contains_char c q_special = false -> aeq c c_quest = false /\ aeq c c_star = false /\ aeq c c_bang = false.
Proof. intros H. repeat split; apply (not_q_special c _ H); reflexivity. Qed.

Lemma quotes_q_chars s : forall prev, quotes (q_chars prev s) s.
Proof.
  induction s as [|c s IH]; intros prev; [constructor|]. cbn [q_chars].
  match goal with |- context [if ?b then _ else _] => destruct b eqn:E end; [apply quotes_esc, IH|].
  apply orb_false_iff in E as [E _]. apply orb_false_iff in E as [E _].
  pose proof (contains_q_special_cases c E) as (H1 & H2 & H3 & H4 & H5).
  constructor; [unfold plain_char; now rewrite H1, H2, H3, H4, H5| |apply IH].
  destruct s as [|d s']; [reflexivity|]. cbn [q_chars].
  match goal with |- context [if ?b then _ else _] => destruct b eqn:E' end; [reflexivity|].
  apply orb_false_iff in E' as [E' _]. apply orb_false_iff in E' as [E' _].
  apply contains_q_special_cases in E'. cbn. tauto.
Qed.

Lemma quotes_length q s : quotes q s -> (String.length s <= String.length q)%nat.
Proof. induction 1; cbn [String.length]; lia. Qed.

Lemma printf_q_some p q : printf_q p = Some q -> p <> EmptyString -> q = q_chars None p.
Proof.
  destruct p as [|c p]; [congruence|]. unfold printf_q.
  destruct (printable_str (String c p)); [|discriminate]. intros H _. now injection H.
Qed.

(** [[ $line = ${prefix}* ]] after prefix=$(printf '%q' "$prefix") is an exact prefix test *)
Theorem glob_printf_q_prefix p q line :
  printf_q p = Some q -> p <> EmptyString ->
  glob_match true (q ++ "*") line = Some (String.prefix p line).
Proof.
  intros Hq Hne. rewrite (printf_q_some p q Hq Hne). clear Hq.
  pose proof (quotes_q_chars p None) as Q. pose proof (quotes_length _ _ Q) as L.
  unfold glob_match. rewrite length_append. change (String.length "*") with 1%nat.
  replace (S (String.length (q_chars None p) + 1))
    with (String.length p + S (S (String.length (q_chars None p) - String.length p)))%nat by lia.
  rewrite (parse_quotes true _ _ Q _ "*" [TStar] eq_refl (parse_star _ true)).
  now rewrite gmatch_chars_star.
Qed.
