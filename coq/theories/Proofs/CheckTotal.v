(** C06, checker part: the model of [ValidGrammar::from_grammar] never panics and never runs out
    of fuel.

    - [Panic]: the only site is [check_subword_spaces] meeting a [DistributiveDescription];
      [distribute_descriptions] removes them all and no later pass creates one.
    - [OutOfFuel] in the cycle search: Proofs/CheckCycle.v.
    - [OutOfFuel] in [check_subword_spaces] (the pass that follows references itself, i.e. the
      unbounded recursion of the real code): when the cycle search succeeded, the order it
      returned is a topological order, so [resolve_in_order] leaves no reference to a defined
      name in the table, so the walk enters a definition at most once on every branch. *)
From CG Require Import Base.Prelude Base.Facts Proofs.ListFacts Model.Ast Model.Check Spec.Choice Spec.Mistakes.
From CG Require Import Proofs.CheckMistakes Proofs.CheckLemmas Proofs.CheckCycle.
From CG Require Import Proofs.CheckWarnings.

Definition table_dd_free (t : list (string * expr)) : Prop :=
  forall n rhs, assoc n t = Some rhs -> dd_free rhs.

Lemma table_dd_free_all t : table_dd_free t <-> table_all (fun n => n <> NDistDescr) t.
Proof. split; intros H n rhs Hn; apply dd_free_tree; exact (H n rhs Hn). Qed.

Lemma resolve_dd_free t e : table_dd_free t -> dd_free e -> dd_free (resolve t e).
Proof. rewrite table_dd_free_all, !dd_free_tree. apply tree_all_resolve. Qed.

Lemma overwrite_keys {V} n (x : V) (t : list (string * V)) :
  map fst (map (fun p => if String.eqb (fst p) n then (n, x) else p) t) = map fst t.
Proof.
  rewrite map_map. apply map_ext. intros [k v]. cbn. destruct (String.eqb k n) eqn:E; [|reflexivity].
  apply String.eqb_eq in E. subst. reflexivity.
Qed.

Lemma update_def_keys n x t : map fst (update_def n x t) = map fst t.
Proof. apply overwrite_keys. Qed.

Lemma resolve_in_order_keys ord : forall t, map fst (resolve_in_order ord t) = map fst t.
Proof.
  induction ord as [|n r IH]; intro t; cbn; [reflexivity|].
  destruct (assoc n t); rewrite IH; [apply update_def_keys|reflexivity].
Qed.

Lemma resolve_in_order_dd_free ord t : table_dd_free t -> table_dd_free (resolve_in_order ord t).
Proof. rewrite !table_dd_free_all. apply tree_all_resolve_in_order. Qed.

Lemma resolve_refs t e :
  all_refs (resolve t e)
  = flat_map (fun n => match assoc n t with Some rhs => all_refs rhs | None => [n] end) (all_refs e).
Proof.
  induction e using expr_ind'; cbn [resolve all_refs flat_map]; try reflexivity; try assumption;
    try (rewrite flat_map_map, flat_map_flat_map; apply flat_map_ext_Forall; exact H).
  destruct (assoc n t); cbn; rewrite ?app_nil_r; reflexivity.
Qed.

Definition closed (names : list string) (e : expr) : Prop :=
  forall c, In c (all_refs e) -> ~ In c names.

Lemma resolve_ext t t' e :
  (forall c, In c (all_refs e) -> assoc c t = assoc c t') -> resolve t e = resolve t' e.
Proof.
  induction e using expr_ind'; intro Hc; cbn [resolve]; try reflexivity;
    try (f_equal; apply IHe; exact Hc);
    try (f_equal; apply map_ext_Forall; rewrite Forall_forall in *; intros c Hin; apply H; [exact Hin|];
         intros x Hx; apply Hc; cbn; apply in_flat_map; exists c; split; assumption).
  rewrite (Hc n); [reflexivity|left; reflexivity].
Qed.

Lemma resolve_closed_id t e : closed (map fst t) e -> resolve t e = e.
Proof.
  intro Hc.
  assert (H : resolve t e = resolve [] e).
  { apply resolve_ext. intros c Hin. cbn. apply assoc_None. apply Hc. exact Hin. }
  rewrite H. clear. induction e using expr_ind'; cbn [resolve]; try reflexivity;
    try (f_equal; exact IHe); f_equal; rewrite <- (map_id cs) at 2; apply map_ext_Forall; exact H.
Qed.

(** What [resolve_in_order] computes on an acyclic graph: the table obtained by iterating "replace
    every reference by the current entry" on the original table until it is stable ([sol B], where
    [B] bounds the ranks). *)
Section Sol.
  Variable t0 : list (string * expr).
  Let names := map fst t0.

  Fixpoint sol (k : nat) : list (string * expr) :=
    match k with
    | O => t0
    | S k' => map (fun p => (fst p, resolve (sol k') (snd p))) t0
    end.

  Lemma assoc_sol_S k n : assoc n (sol (S k)) = option_map (resolve (sol k)) (assoc n t0).
  Proof. cbn [sol]. apply (assoc_map_snd (resolve (sol k))). Qed.

  Lemma sol_keys k : map fst (sol k) = names.
  Proof. destruct k; cbn [sol]; [reflexivity|]. rewrite map_map. reflexivity. Qed.

  Lemma assoc_sol_undefined k n : ~ In n names -> assoc n (sol k) = None.
  Proof. intro H. apply assoc_None. rewrite sol_keys. exact H. Qed.

  Variable graph : list (string * list (string * span)).
  Hypothesis edges : forall n rhs c,
      assoc n t0 = Some rhs -> In c (all_refs rhs) -> In c names -> edge graph n c.
  Variable rank : string -> nat.
  Hypothesis Hrank : forall u c, edge graph u c -> (rank c < rank u)%nat.

  Lemma sol_stable k : forall n, (rank n < k)%nat -> assoc n (sol k) = assoc n (sol (S k)).
  Proof.
    induction k as [|k IH]; intros n Hn; [lia|].
    rewrite !assoc_sol_S. destruct (assoc n t0) as [rhs|] eqn:En; [|reflexivity].
    cbn [option_map]. f_equal. apply resolve_ext. intros c Hc.
    destruct (in_dec string_dec c names) as [Hin|Hnin].
    - apply IH. pose proof (Hrank _ _ (edges _ _ _ En Hc Hin)). lia.
    - rewrite !assoc_sol_undefined by exact Hnin. reflexivity.
  Qed.

  Variable B : nat.
  Hypothesis HB : forall n, In n names -> (rank n < B)%nat.

  Lemma sol_stable_ge k : (B <= k)%nat -> forall n, assoc n (sol k) = assoc n (sol B).
  Proof.
    induction 1 as [|k Hle IH]; intro n; [reflexivity|].
    destruct (in_dec string_dec n names) as [Hin|Hnin].
    - rewrite <- IH. symmetry. apply sol_stable. pose proof (HB n Hin). lia.
    - rewrite !assoc_sol_undefined by exact Hnin. reflexivity.
  Qed.

  Lemma childless_closed n rhs : assoc n t0 = Some rhs -> childless graph n -> closed names rhs.
  Proof.
    intros Hn Hc c Hin Hnames. pose proof (edges _ _ _ Hn Hin Hnames) as He.
    unfold edge in He. rewrite Hc in He. destruct He.
  Qed.

  (** The invariant of [resolve_in_order] along an [ordered] list: an entry is final (closed, and
      the entry of [sol B]), or it is the original entry of a name with children that has not
      come up yet. *)
  Definition inv3 (done : list string) (t : list (string * expr)) : Prop :=
    map fst t = names /\
    forall n rhs, assoc n t = Some rhs ->
                  (closed names rhs /\ assoc n (sol B) = Some rhs)
                  \/ (assoc n t0 = Some rhs /\ ~ In n done /\ ~ childless graph n).

  Lemma closed_final n rhs : assoc n t0 = Some rhs -> closed names rhs -> forall k, assoc n (sol k) = Some rhs.
  Proof.
    intros Hn Hc k. destruct k; [exact Hn|]. rewrite assoc_sol_S, Hn. cbn. f_equal.
    apply resolve_closed_id. rewrite sol_keys. exact Hc.
  Qed.

  Lemma inv3_init : inv3 [] t0.
  Proof.
    split; [reflexivity|]. intros n rhs Hn.
    destruct (children graph n) eqn:E.
    - left. assert (Hc : closed names rhs) by (eapply childless_closed; eauto).
      split; [exact Hc|apply closed_final; assumption].
    - right. split; [exact Hn|]. split; [intros []|]. unfold childless. rewrite E. discriminate.
  Qed.

  Lemma inv3_step done t n :
    inv3 done t -> (forall c, edge graph n c -> In c done \/ childless graph c) ->
    inv3 (n :: done) (match assoc n t with
                      | Some rhs => update_def n (resolve t rhs) t
                      | None => t
                      end).
  Proof.
    intros [Hk Hi] Hn.
    assert (Hweak : forall m rhs, assoc m t = Some rhs -> m <> n ->
                (closed names rhs /\ assoc m (sol B) = Some rhs)
                \/ (assoc m t0 = Some rhs /\ ~ In m (n :: done) /\ ~ childless graph m)).
    { intros m rhs Hm Hne. destruct (Hi _ _ Hm) as [H|(H1 & H2 & H3)]; [left; exact H|].
      right. split; [exact H1|]. split; [|exact H3]. intros [H|H]; [congruence|contradiction]. }
    destruct (assoc n t) as [rhs|] eqn:En.
    - split; [rewrite update_def_keys; exact Hk|].
      intros m rhs' Hm. rewrite assoc_update_def in Hm.
      destruct (String.eqb m n) eqn:Emn.
      + apply String.eqb_eq in Emn. subst m. rewrite En in Hm. inversion Hm; subst rhs'. clear Hm.
        left. destruct (Hi _ _ En) as [[Hcl Hfin]|(G1 & G2 & G3)].
        * (* already final: unchanged *)
          rewrite resolve_closed_id by (rewrite Hk; exact Hcl). split; assumption.
        * (* original entry: every reference to a definition meets a final entry *)
          assert (Hch : forall c, In c (all_refs rhs) -> In c names ->
                                  exists rc, assoc c t = Some rc /\ closed names rc
                                             /\ assoc c (sol B) = Some rc).
          { intros c Hc Hcn. assert (He : edge graph n c) by (eapply edges; eauto).
            rewrite <- Hk in Hcn. apply In_assoc_some in Hcn. destruct Hcn as [rc Hrc].
            exists rc. split; [exact Hrc|].
            destruct (Hi _ _ Hrc) as [H|(H1 & H2 & H3)]; [exact H|].
            exfalso. destruct (Hn _ He); contradiction. }
          split.
          -- intros c Hc Hcn. rewrite resolve_refs in Hc. apply in_flat_map in Hc.
             destruct Hc as [c0 [Hc0 Hc]].
             destruct (assoc c0 t) as [rhs0|] eqn:Ec0.
             ++ assert (Hc0n : In c0 names) by (rewrite <- Hk; eapply assoc_Some_in; eauto).
                destruct (Hch c0 Hc0 Hc0n) as (rc & Hrc & Hcl & _). rewrite Ec0 in Hrc.
                inversion Hrc; subst. apply (Hcl c Hc Hcn).
             ++ destruct Hc as [Hc|[]]. subst c0. apply assoc_None in Ec0. rewrite Hk in Ec0.
                contradiction.
          -- assert (Heq : resolve t rhs = resolve (sol B) rhs).
             { apply resolve_ext. intros c Hc. destruct (in_dec string_dec c names) as [Hin|Hnin].
               - destruct (Hch c Hc Hin) as (rc & Hrc & _ & Hfin). rewrite Hrc, Hfin. reflexivity.
               - rewrite (assoc_sol_undefined B c Hnin). apply assoc_None. rewrite Hk. exact Hnin. }
             rewrite Heq.
             assert (Hin : In n names) by (eapply assoc_Some_in; exact G1).
             rewrite (sol_stable B n (HB n Hin)), assoc_sol_S, G1. reflexivity.
      + apply Hweak; [exact Hm|]. intro Heq. subst m. rewrite String.eqb_refl in Emn. discriminate.
    - split; [exact Hk|]. intros m rhs Hm. apply Hweak; [exact Hm|]. intro Heq. subst m. congruence.
  Qed.

  Lemma resolve_in_order_inv3 ord : forall done t,
    inv3 done t -> ordered graph done ord -> inv3 (rev ord ++ done) (resolve_in_order ord t).
  Proof.
    induction ord as [|n r IH]; intros done t Hi Ho; cbn [resolve_in_order rev app]; [exact Hi|].
    cbn [ordered] in Ho. destruct Ho as [Hn Ho].
    pose proof (inv3_step _ _ _ Hi Hn) as Hi'.
    rewrite <- app_assoc. cbn [app].
    destruct (assoc n t); apply IH; assumption.
  Qed.

  Theorem resolve_in_order_sol ord :
    ordered graph [] ord ->
    (forall n, In n names -> has_children graph n = true -> In n ord) ->
    forall n, assoc n (resolve_in_order ord t0) = assoc n (sol B)
              /\ forall rhs, assoc n (resolve_in_order ord t0) = Some rhs -> closed names rhs.
  Proof.
    intros Ho Hall n.
    destruct (resolve_in_order_inv3 ord [] t0 inv3_init Ho) as [Hk Hi].
    destruct (assoc n (resolve_in_order ord t0)) as [rhs|] eqn:En.
    - destruct (Hi _ _ En) as [[Hc H]|(H1 & H2 & H3)].
      + split; [symmetry; exact H|]. intros rhs' Heq. inversion Heq; subst. exact Hc.
      + exfalso. apply H2. rewrite app_nil_r. apply in_rev. rewrite rev_involutive. apply Hall.
        * eapply assoc_Some_in; eauto.
        * unfold has_children, childless in *. destruct (children graph n); [congruence|reflexivity].
    - split; [|discriminate]. symmetry. apply assoc_sol_undefined. rewrite <- Hk.
      apply assoc_None. exact En.
  Qed.
End Sol.

Lemma rank_bound (rank : string -> nat) (l : list string) :
  exists B, forall n, In n l -> (rank n < B)%nat.
Proof.
  induction l as [|x l [B HB]]; [exists O; intros n []|].
  exists (S (Nat.max B (rank x))). intros n [Hn|Hn]; [subst; lia|]. specialize (HB n Hn). lia.
Qed.

Lemma refs_map_names l : forall acc x,
  In x (map fst (refs_map l acc)) <-> In x (map fst l) \/ In x (map fst acc).
Proof.
  induction l as [|[n sp] r IH]; intros acc x; [cbn; tauto|]. cbn [refs_map map fst].
  rewrite IH. destruct (mem_str n (map fst acc)) eqn:E.
  - apply mem_str_In in E. rewrite overwrite_keys. cbn. split; [tauto|].
    intros [[H|H]|H]; auto. subst. auto.
  - rewrite map_app, in_app_iff. cbn. tauto.
Qed.

Lemma get_nonterm_refs_names e x :
  In x (map fst (get_nonterm_refs e)) <-> In x (map fst (nonterm_refs e)).
Proof. unfold get_nonterm_refs. rewrite refs_map_names. cbn. tauto. Qed.

Lemma assoc_graph_of' names defs n :
  assoc n (map (fun d => (d_name d, filter (fun p => mem_str (fst p) names)
                                           (get_nonterm_refs (d_rhs d)))) defs)
  = option_map (fun rhs => filter (fun p : string * span => mem_str (fst p) names) (get_nonterm_refs rhs))
               (assoc n (table0_of defs)).
Proof. unfold table0_of. rewrite <- assoc_map_snd, map_map. reflexivity. Qed.

Lemma graph_of_edges defs n rhs c :
  assoc n (table0_of defs) = Some rhs -> dd_free rhs ->
  In c (all_refs rhs) -> In c (map fst (table0_of defs)) -> edge (graph_of defs) n c.
Proof.
  intros Hn Hf Hc Hin. unfold edge, children, graph_of. rewrite assoc_graph_of', Hn. cbn.
  rewrite <- dd_free_refs in Hc by exact Hf. apply get_nonterm_refs_names in Hc.
  apply in_map_iff in Hc. destruct Hc as [[c' sp] [Hc' Hc]]. cbn in Hc'. subst c'.
  apply in_map_iff. exists (c, sp). split; [reflexivity|]. apply filter_In. split; [exact Hc|].
  cbn. apply mem_str_In. unfold table0_of in Hin. rewrite map_map in Hin. exact Hin.
Qed.

Section SpAll.
  Variable rec : expr -> res unit.
  Fixpoint sp_all (l : list expr) : res unit :=
    match l with
    | [] => Ok tt
    | c :: r => do _ <- rec c; sp_all r
    end.
End SpAll.

Definition follow_of (defs : list (string * expr)) (juxt : bool) : option (list (string * expr)) :=
  if juxt then None else Some defs.

Lemma spaces_S defs f e trace within juxt :
  spaces defs (S f) e trace within juxt =
  match e with
  | Sequence cs _ =>
      do _ <- sp_all (fun c => spaces defs f c trace within false) cs;
      if within then
        do adj <- adjacent_terminals (follow_of defs juxt) f cs;
        match adj with
        | Some (l, r) => Err (SubwordSpaces l r trace)
        | None => Ok tt
        end
      else Ok tt
  | Terminal _ _ _ _ | Command _ _ _ _ => Ok tt
  | NontermRef n _ sp =>
      match assoc n defs with
      | None => Ok tt
      | Some rhs => spaces defs f rhs (trace ++ [sp]) within false
      end
  | Subword c _ _ => spaces defs f c trace true true
  | Alternative cs _ | Fallback cs _ => sp_all (fun c => spaces defs f c trace within false) cs
  | Optional c _ | Many1 c _ => spaces defs f c trace within false
  | DistDescr _ _ _ => Panic "check_subword_spaces: DistributiveDescription"
  end.
Proof. reflexivity. Qed.

(** [expr_head] and [expr_tail] differ only in the item of a sequence they go down to:
    [expr_end true] is the one, [expr_end false] the other. *)
Definition pick (hd : bool) (cs : list expr) : option expr :=
  if hd then hd_error cs else last_opt cs.

Definition expr_end (hd : bool) follow (f : nat) (e : expr) : res expr :=
  if hd then expr_head follow f e else expr_tail follow f e.

Lemma expr_end_S hd follow f e :
  expr_end hd follow (S f) e =
  match e with
  | NontermRef n _ _ =>
      match followed follow n with Some rhs => expr_end hd follow f rhs | None => Ok e end
  | Sequence cs _ => match pick hd cs with Some c => expr_end hd follow f c | None => Ok e end
  | Subword c _ _ => expr_end hd follow f c
  | _ => Ok e
  end.
Proof. destruct hd; [|reflexivity]. destruct e; try reflexivity. destruct children; reflexivity. Qed.

Lemma adjacent_terminals_eq follow f cs :
  adjacent_terminals follow f cs =
  match cs with
  | a :: ((b :: _) as r) =>
      do ta <- expr_end false follow f a;
      do hb <- expr_end true follow f b;
      match ta, hb with
      | Terminal _ _ _ lsp, Terminal _ _ _ rsp => Ok (Some (lsp, rsp))
      | _, _ => adjacent_terminals follow f r
      end
  | _ => Ok None
  end.
Proof. destruct cs as [|a [|b r]]; reflexivity. Qed.

Definition list_size (cs : list expr) : nat := fold_right (fun c n => expr_size c + n)%nat O cs.

Lemma expr_size_pos e : (1 <= expr_size e)%nat.
Proof. destruct e; cbn; lia. Qed.

Lemma list_size_In c cs : In c cs -> (expr_size c <= list_size cs)%nat.
Proof.
  induction cs as [|x l IH]; [intros []|]. unfold list_size in *. cbn.
  intros [H|H]; [subst; lia|]. apply IH in H. lia.
Qed.

Lemma last_opt_In cs c : last_opt cs = Some c -> In c cs.
Proof.
  unfold last_opt. intro H. apply in_rev. destruct (rev cs); [discriminate|].
  inversion H. left. reflexivity.
Qed.

Lemma pick_In hd cs c : pick hd cs = Some c -> In c cs.
Proof.
  destruct hd; [|apply last_opt_In]. destruct cs; cbn; [discriminate|]. intro H. inversion H. left. reflexivity.
Qed.

Lemma pick_map hd (h : expr -> expr) cs : pick hd (map h cs) = option_map h (pick hd cs).
Proof.
  destruct hd; [destruct cs; reflexivity|]. unfold pick, last_opt. rewrite <- map_rev.
  destruct (rev cs); reflexivity.
Qed.

Lemma sp_all_fine rec cs :
  Forall (fun c => fine (rec c)) cs -> fine (sp_all rec cs).
Proof.
  induction 1; cbn; [exact I|]. destruct (rec x); cbn; try assumption; try contradiction.
Qed.

(** [expr_head]/[expr_tail] never fail; they only need fuel. *)
Definition is_okr {A} (x : res A) : Prop := exists a, x = Ok a.

Section HeadTailOk.
  Variable follow : option (list (string * expr)).
  Variable extra : nat.
  Variable Q : string -> Prop.
  Hypothesis HQ : forall hd n rhs f, Q n -> followed follow n = Some rhs -> (f >= extra)%nat ->
                                     is_okr (expr_end hd follow f rhs).

  Lemma expr_end_ok hd e : forall f,
    (forall c, In c (all_refs e) -> Q c) -> (f >= expr_size e + extra)%nat ->
    is_okr (expr_end hd follow f e).
  Proof.
    induction e using expr_ind'; intros f Hc Hf;
      (destruct f as [|f]; [cbn in Hf; lia|]); rewrite expr_end_S; try (eexists; reflexivity).
    - destruct (followed follow n) as [rhs|] eqn:E; [|eexists; reflexivity].
      eapply HQ; [apply Hc; left; reflexivity|exact E|cbn in Hf; lia].
    - destruct (pick hd cs) as [c|] eqn:El; [|eexists; reflexivity].
      apply pick_In in El. rewrite Forall_forall in H. apply (H c El).
      + intros x Hx. apply Hc. cbn. apply in_flat_map. exists c. split; assumption.
      + pose proof (list_size_In c cs El). cbn in Hf. unfold list_size in *. lia.
    - apply IHe; [exact Hc|cbn in Hf; lia].
  Qed.

  Lemma adjacent_terminals_ok cs : forall f,
    (forall c, In c (flat_map all_refs cs) -> Q c) -> (f >= list_size cs + extra)%nat ->
    is_okr (adjacent_terminals follow f cs).
  Proof.
    induction cs as [|a r IH]; intros f Hc Hf; [eexists; reflexivity|].
    destruct r as [|b r']; [eexists; reflexivity|].
    rewrite adjacent_terminals_eq.
    assert (Ha : is_okr (expr_end false follow f a)).
    { apply expr_end_ok.
      - intros x Hx. apply Hc. cbn. apply in_or_app. left. exact Hx.
      - unfold list_size in Hf. cbn in Hf. lia. }
    assert (Hb : is_okr (expr_end true follow f b)).
    { apply expr_end_ok.
      - intros x Hx. apply Hc. cbn. apply in_or_app. right. apply in_or_app. left. exact Hx.
      - unfold list_size in Hf. cbn in Hf. lia. }
    destruct Ha as [ta Ha]. destruct Hb as [hb Hb]. rewrite Ha, Hb. cbn [obind].
    assert (Hr : is_okr (adjacent_terminals follow f (b :: r'))).
    { apply IH.
      - intros x Hx. apply Hc. cbn [flat_map]. apply in_or_app. right. exact Hx.
      - unfold list_size in *. cbn in Hf |- *. lia. }
    destruct ta; try exact Hr. destruct hb; try exact Hr. eexists; reflexivity.
  Qed.
End HeadTailOk.

Section Spaces.
  Variable table : list (string * expr).

  (** One induction for both uses: [Q] says which references may be met, [HQ] how the walk
      continues below them with [extra] fuel left. *)
  Lemma spaces_fine_scheme (extra : nat) (Q : string -> Prop)
        (HQ : forall n rhs f trace within,
            Q n -> assoc n table = Some rhs -> (f >= extra)%nat ->
            fine (spaces table f rhs trace within false))
        (HQe : forall hd n rhs f, Q n -> assoc n table = Some rhs -> (f >= extra)%nat ->
                                  is_okr (expr_end hd (Some table) f rhs)) :
    forall e f trace within juxt,
      dd_free e -> (forall c, In c (all_refs e) -> Q c) ->
      (f >= expr_size e + extra)%nat -> fine (spaces table f e trace within juxt).
  Proof.
    assert (Hlist : forall cs f trace within,
               Forall (fun e => forall f trace within juxt,
                           dd_free e -> (forall c, In c (all_refs e) -> Q c) ->
                           (f >= expr_size e + extra)%nat -> fine (spaces table f e trace within juxt)) cs ->
               dd_free_list cs ->
               (forall c, In c (flat_map all_refs cs) -> Q c) ->
               (f >= list_size cs + extra)%nat ->
               Forall (fun c => fine (spaces table f c trace within false)) cs).
    { intros cs f trace within H. induction H as [|x l Hx Hl IH]; intros Hd Hc Hf; constructor.
      - destruct Hd as [Hdx Hdl]. apply Hx; [exact Hdx| |unfold list_size in *; cbn in Hf |- *; lia].
        intros c Hin. apply Hc. cbn. apply in_or_app. left. exact Hin.
      - destruct Hd as [Hdx Hdl]. apply IH; [exact Hdl| |unfold list_size in *; cbn in Hf |- *; lia].
        intros c Hin. apply Hc. cbn. apply in_or_app. right. exact Hin. }
    induction e using expr_ind'; intros f trace within juxt Hd Hc Hf;
      (destruct f as [|f]; [cbn in Hf; lia|]); rewrite spaces_S; try exact I.
    - (* NontermRef *)
      destruct (assoc n table) as [rhs|] eqn:En; [|exact I].
      apply (HQ n); [apply Hc; left; reflexivity|exact En|cbn in Hf; lia].
    - (* Sequence *)
      assert (Hs : fine (sp_all (fun c => spaces table f c trace within false) cs)).
      { apply sp_all_fine. apply Hlist; try assumption. cbn in Hf. unfold list_size. lia. }
      destruct (sp_all _ cs); cbn [obind]; try exact Hs.
      destruct within; [|exact I].
      assert (Ha : is_okr (adjacent_terminals (follow_of table juxt) f cs)).
      { destruct juxt; cbn [follow_of].
        - apply (adjacent_terminals_ok None O (fun _ => True)).
          + intros hd n rhs f0 _ Hn. discriminate.
          + auto.
          + cbn in Hf. unfold list_size. lia.
        - apply (adjacent_terminals_ok (Some table) extra Q); auto.
          cbn in Hf. unfold list_size. lia. }
      destruct Ha as [adj Ha]. rewrite Ha. cbn [obind]. destruct adj as [[l r]|]; exact I.
    - (* Alternative *)
      apply sp_all_fine. apply Hlist; try assumption. cbn in Hf. unfold list_size. lia.
    - apply IHe; [exact Hd|exact Hc|cbn in Hf; lia].
    - apply IHe; [exact Hd|exact Hc|cbn in Hf; lia].
    - destruct Hd.
    - (* Fallback *)
      apply sp_all_fine. apply Hlist; try assumption. cbn in Hf. unfold list_size. lia.
    - apply IHe; [exact Hd|exact Hc|cbn in Hf; lia].
  Qed.

  Variable bound : nat.
  Hypothesis t_dd : table_dd_free table.
  Hypothesis t_closed : forall n rhs, assoc n table = Some rhs -> closed (map fst table) rhs.
  Hypothesis t_size : forall n rhs, assoc n table = Some rhs -> (expr_size rhs <= bound)%nat.

  Lemma end_ok_closed hd e f :
    closed (map fst table) e -> (f >= expr_size e)%nat -> is_okr (expr_end hd (Some table) f e).
  Proof.
    intros Hc Hf.
    apply (expr_end_ok (Some table) O (fun n => ~ In n (map fst table))); [|exact Hc|lia].
    intros hd' n rhs f0 Hq Hn _. exfalso. apply Hq. eapply assoc_Some_in; exact Hn.
  Qed.

  Lemma spaces_fine_closed e f trace within juxt :
    dd_free e -> closed (map fst table) e -> (f >= expr_size e)%nat ->
    fine (spaces table f e trace within juxt).
  Proof.
    intros Hd Hc Hf.
    apply (spaces_fine_scheme O (fun n => ~ In n (map fst table))); [| |exact Hd|exact Hc|lia].
    - intros n rhs f' tr w Hq Hn _. exfalso. apply Hq. eapply assoc_Some_in; eauto.
    - intros hd n rhs f' Hq Hn _. exfalso. apply Hq. eapply assoc_Some_in; eauto.
  Qed.

  Theorem spaces_fine e f trace within juxt :
    dd_free e -> (f >= expr_size e + bound)%nat -> fine (spaces table f e trace within juxt).
  Proof.
    intros Hd Hf.
    apply (spaces_fine_scheme bound (fun _ => True)); [| |exact Hd|auto|exact Hf].
    - intros n rhs f' tr w _ Hn Hf'. apply spaces_fine_closed.
      + eapply t_dd; eauto.
      + eapply t_closed; eauto.
      + pose proof (t_size _ _ Hn). lia.
    - intros hd n rhs f' _ Hn Hf'. apply end_ok_closed; [eapply t_closed; eauto|].
      pose proof (t_size _ _ Hn). lia.
  Qed.
End Spaces.

Lemma collect_plain_defs_fine ds acc : fine (collect_plain_defs ds acc).
Proof.
  pose proof (collect_plain_defs_spec ds acc) as S. destruct (collect_plain_defs ds acc); try exact I; exact S.
Qed.

Lemma get_user_specs_fine target ds acc : fine (get_user_specs target ds acc).
Proof.
  pose proof (get_user_specs_spec target ds acc) as S. destruct (get_user_specs target ds acc); try exact I; exact S.
Qed.

Lemma get_fallback_specs_fine sp ds : forall acc, fine (get_fallback_specs sp ds acc).
Proof.
  induction ds as [|[[[n nsp] sh] rhs] r IH]; intro acc; cbn [get_fallback_specs]; [exact I|].
  destruct sh; [apply IH|]. destruct (mem_str n sp); [|apply IH].
  destruct rhs; try exact I. destruct (assoc n acc) as [[c p]|]; [exact I|apply IH].
Qed.

Lemma get_specializations_fine g sh : fine (get_specializations g sh).
Proof.
  apply (post_bind any); [apply get_user_specs_fine|]. intros us _ _.
  apply (post_bind any); [apply get_fallback_specs_fine|]. intros fs _ _. exact I.
Qed.

Lemma table0_dd_free builtins sh us fs defs0 :
  table_dd_free (table0_of (defs2_of (spec_of builtins sh us fs (defs1_of defs0)) (defs1_of defs0))).
Proof.
  apply table_dd_free_all, table0_all; [discriminate|].
  apply Forall_forall. intros d _. apply tree_all_any. auto.
Qed.

Lemma table_sum_bound (t : list (string * expr)) n rhs :
  assoc n t = Some rhs ->
  (expr_size rhs <= fold_right (fun p n => expr_size (snd p) + n) O t)%nat.
Proof.
  intro H. apply assoc_In in H. induction t as [|[k v] t IH]; [destruct H|].
  cbn. destruct H as [H|H]; [inversion H; subst; lia|]. apply IH in H. lia.
Qed.

Lemma fold_sum_base (t : list (string * expr)) b :
  fold_right (fun p n => expr_size (snd p) + n)%nat b t
  = (fold_right (fun p n => expr_size (snd p) + n) O t + b)%nat.
Proof. induction t as [|[k v] t IH]; cbn; [reflexivity|]. rewrite IH. lia. Qed.

Lemma spaces_fuel_enough t e :
  (spaces_fuel t e >= expr_size e + fold_right (fun p n => expr_size (snd p) + n) O t)%nat.
Proof. unfold spaces_fuel. rewrite fold_sum_base. nia. Qed.

Lemma table0_keys spec defs1 :
  map fst (table0_of (defs2_of spec defs1)) = map d_name defs1.
Proof. unfold table0_of, defs2_of. rewrite !map_map. reflexivity. Qed.

Lemma defs2_names spec defs1 : map d_name (defs2_of spec defs1) = map d_name defs1.
Proof. unfold defs2_of. rewrite map_map. reflexivity. Qed.

(** When the cycle search succeeded, the resolved table is [sol], and no entry of it refers to a
    definition. *)
Theorem resolved_table_sol defs2 ord :
  table_dd_free (table0_of defs2) -> resolution_order defs2 = Ok ord ->
  let table := resolve_in_order ord (table0_of defs2) in
  (exists B, forall k, (B <= k)%nat -> forall n, assoc n table = assoc n (sol (table0_of defs2) k))
  /\ forall n rhs, assoc n table = Some rhs -> closed (map fst (table0_of defs2)) rhs.
Proof.
  intros Hdd Ho table. apply resolution_order_ok in Ho. destruct Ho as ([rank Hr] & Hord & Hall).
  destruct (rank_bound rank (map fst (table0_of defs2))) as [B HB].
  assert (Hedges : forall n rhs c, assoc n (table0_of defs2) = Some rhs -> In c (all_refs rhs) ->
                                   In c (map fst (table0_of defs2)) -> edge (graph_of defs2) n c).
  { intros n rhs c Hn Hc Hin. eapply graph_of_edges; eauto. }
  assert (Hlisted : forall n, In n (map fst (table0_of defs2)) ->
                              has_children (graph_of defs2) n = true -> In n ord).
  { intros n Hn Hc. apply Hall. split; [|exact Hc]. unfold table0_of in Hn. rewrite map_map in Hn.
    exact Hn. }
  pose proof (resolve_in_order_sol _ _ Hedges rank Hr B HB ord Hord Hlisted) as Hsol. subst table. split.
  - exists B. intros k Hk n. rewrite (proj1 (Hsol n)). symmetry.
    apply (sol_stable_ge _ _ Hedges rank Hr B HB). exact Hk.
  - intros n rhs. apply (proj2 (Hsol n)).
Qed.

Theorem resolved_table_closed defs2 ord :
  table_dd_free (table0_of defs2) ->
  resolution_order defs2 = Ok ord ->
  let table := resolve_in_order ord (table0_of defs2) in
  forall n rhs, assoc n table = Some rhs -> closed (map fst table) rhs.
Proof.
  intros Hdd Ho table n rhs. unfold table. rewrite resolve_in_order_keys.
  apply (resolved_table_sol defs2 ord Hdd Ho).
Qed.

Theorem spaces_after_search_fine defs2 ord e :
  table_dd_free (table0_of defs2) -> dd_free e ->
  resolution_order defs2 = Ok ord ->
  let table := resolve_in_order ord (table0_of defs2) in
  fine (spaces table (spaces_fuel table e) e [] false false).
Proof.
  intros Hdd He Ho table.
  apply (spaces_fine table (fold_right (fun p n => expr_size (snd p) + n)%nat O table)).
  - apply resolve_in_order_dd_free. exact Hdd.
  - apply resolved_table_closed; assumption.
  - apply table_sum_bound.
  - exact He.
  - apply spaces_fuel_enough.
Qed.

Lemma back_end_fine builtins g sh command defs0 us fs :
  fine (back_end builtins g sh command defs0 us fs).
Proof.
  apply (post_bind any); [apply resolution_order_fine|]. intros ord Ho _.
  apply (post_bind any); [|intros; exact I].
  apply spaces_after_search_fine; [| |exact Ho].
  - apply table0_dd_free.
  - apply specialize_dd_free. apply distribute_dd_free.
Qed.

Theorem from_grammar_fine builtins g sh : fine (from_grammar builtins g sh).
Proof.
  rewrite from_grammar_named_eq. unfold from_grammar_named.
  destruct (dedup_names [] (cv_names g)) as [|[command cspan] [|m more]]; try exact I.
  destruct (contains_char slash command); [exact I|].
  apply (post_bind any); [apply collect_plain_defs_fine|]. intros defs0 _ _.
  apply (post_bind any); [apply get_specializations_fine|]. intros specs _ _. apply back_end_fine.
Qed.

Theorem from_grammar_total builtins g sh :
  (exists v, from_grammar builtins g sh = Ok v) \/ (exists e, from_grammar builtins g sh = Err e).
Proof. apply post_cases. apply from_grammar_fine. Qed.

Theorem resolution_order_total defs :
  (exists ord, resolution_order defs = Ok ord) \/ (exists e, resolution_order defs = Err e).
Proof. apply post_cases. apply resolution_order_fine. Qed.

Theorem spaces_after_search_total defs2 ord e :
  table_dd_free (table0_of defs2) -> dd_free e ->
  resolution_order defs2 = Ok ord ->
  let table := resolve_in_order ord (table0_of defs2) in
  spaces table (spaces_fuel table e) e [] false false = Ok tt \/
  exists err, spaces table (spaces_fuel table e) e [] false false = Err err.
Proof.
  intros Hdd He Ho table.
  pose proof (spaces_after_search_fine defs2 ord e Hdd He Ho) as H. cbn zeta in H.
  apply post_cases in H. destruct H as [[[] H]|H]; [left; exact H|right; exact H].
Qed.
