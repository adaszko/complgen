(** Facts about [Spec.Rx]: the inductive denotation of an expression (sequences of leaves), and the
    linear form as a sound and complete one-leaf derivative for it; residuals along a sequence of
    leaves ([rpath]); the leaves of folded sequences, alternatives and linear forms. *)
From CG Require Import Base.Prelude Spec.Rx.

Section Denotes.
  Context {A : Type}.

  Inductive denotes : rx A -> list A -> Prop :=
  | D_eps : denotes Eps []
  | D_leaf a : denotes (Leaf a) [a]
  | D_cat r s u v : denotes r u -> denotes s v -> denotes (Cat r s) (u ++ v)
  | D_alt_l r s u : denotes r u -> denotes (Alt r s) u
  | D_alt_r r s u : denotes s u -> denotes (Alt r s) u
  | D_plus_one r u : denotes r u -> denotes (Plus r) u
  | D_plus_more r u v : denotes r u -> denotes (Plus r) v -> denotes (Plus r) (u ++ v).

  Lemma denotes_zero w : ~ denotes (@Zero A) w.
  Proof. intro H; inversion H. Qed.

  Lemma denotes_eps w : denotes (@Eps A) w -> w = [].
  Proof. intro H; inversion H; reflexivity. Qed.

  Lemma nullable_denotes (r : rx A) : nullable r = true <-> denotes r [].
  Proof.
    induction r; cbn [nullable].
    - split; [discriminate | intro H; inversion H].
    - split; [constructor | reflexivity].
    - split; [discriminate | intro H; inversion H].
    - rewrite andb_true_iff, IHr1, IHr2. split.
      + intros [H1 H2]. change (@nil A) with (@nil A ++ @nil A). constructor; assumption.
      + intro H. inversion H as [| | r s u v Hu Hv Hr Hw | | | |]; subst.
        apply app_eq_nil in Hw. destruct Hw; subst. split; assumption.
    - rewrite orb_true_iff, IHr1, IHr2. split.
      + intros [H | H]; [apply D_alt_l | apply D_alt_r]; assumption.
      + intro H. inversion H; subst; [left | right]; assumption.
    - rewrite IHr. split.
      + intro H. apply D_plus_one; assumption.
      + intro H. remember (Plus r) as p eqn:Ep. remember (@nil A) as w eqn:Ew.
        induction H; try discriminate.
        * inversion Ep; subst. assumption.
        * inversion Ep; subst. apply app_eq_nil in Ew. destruct Ew; subst. assumption.
  Qed.

  Lemma cat_denotes (r s : rx A) w : denotes (cat r s) w <-> denotes (Cat r s) w.
  Proof.
    assert (Hz1 : forall s w, denotes (Cat (@Zero A) s) w -> False).
    { intros s0 w0 H; inversion H; subst. eapply denotes_zero; eassumption. }
    assert (Hz2 : forall r w, denotes (Cat r (@Zero A)) w -> False).
    { intros r0 w0 H; inversion H; subst. eapply denotes_zero; eassumption. }
    assert (He1 : forall s w, denotes s w <-> denotes (Cat (@Eps A) s) w).
    { intros s0 w0. split.
      - intro H. change w0 with ([] ++ w0). constructor; [constructor | assumption].
      - intro H. inversion H as [| | r1 s1 u v Hu Hv | | | |]; subst.
        apply denotes_eps in Hu; subst. assumption. }
    assert (He2 : forall r w, denotes r w <-> denotes (Cat r (@Eps A)) w).
    { intros r0 w0. split.
      - intro H. rewrite <- (app_nil_r w0). constructor; [assumption | constructor].
      - intro H. inversion H as [| | r1 s1 u v Hu Hv | | | |]; subst.
        apply denotes_eps in Hv; subst. rewrite app_nil_r. assumption. }
    destruct r; destruct s; cbn [cat];
      try (split; [intro H; exfalso; eapply denotes_zero; eassumption
                  | intro H; exfalso; first [eapply Hz1; eassumption | eapply Hz2; eassumption]]);
      try apply He1; try apply He2; try reflexivity.
  Qed.

  Lemma alt_denotes (r s : rx A) w : denotes (alt r s) w <-> denotes (Alt r s) w.
  Proof.
    destruct r; destruct s; cbn [alt]; try reflexivity;
      (split;
       [ intro H; first [apply D_alt_l; exact H | apply D_alt_r; exact H]
       | intro H; inversion H; subst; try assumption; exfalso; eapply denotes_zero; eassumption ]).
  Qed.

  Lemma star_denotes (r : rx A) w : denotes (star r) w <-> (w = [] \/ denotes (Plus r) w).
  Proof.
    unfold star. split.
    - intro H. inversion H; subst; [right; assumption | left; apply denotes_eps; assumption].
    - intros [-> | H]; [apply D_alt_r; constructor | apply D_alt_l; assumption].
  Qed.

  Lemma lf_sound (r : rx A) : forall a k w, In (a, k) (lf r) -> denotes k w -> denotes r (a :: w).
  Proof.
    induction r; cbn [lf]; intros a0 k w Hin Hk.
    - destruct Hin.
    - destruct Hin.
    - destruct Hin as [E | []]. inversion E; subst. apply denotes_eps in Hk; subst. constructor.
    - apply in_app_or in Hin. destruct Hin as [Hin | Hin].
      + apply in_map_iff in Hin. destruct Hin as [[a1 k1] [E Hin]]. cbn in E. inversion E; subst.
        apply cat_denotes in Hk.
        inversion Hk as [| | r s u v Hu Hv | | | |]; subst.
        change (a0 :: u ++ v) with ((a0 :: u) ++ v). constructor; [eapply IHr1; eassumption | assumption].
      + destruct (nullable r1) eqn:En; [| destruct Hin].
        change (a0 :: w) with ([] ++ a0 :: w). constructor.
        * apply nullable_denotes; assumption.
        * eapply IHr2; eassumption.
    - apply in_app_or in Hin. destruct Hin as [Hin | Hin].
      + apply D_alt_l. eapply IHr1; eassumption.
      + apply D_alt_r. eapply IHr2; eassumption.
    - apply in_map_iff in Hin. destruct Hin as [[a1 k1] [E Hin]]. cbn in E. inversion E; subst.
      apply cat_denotes in Hk.
      inversion Hk as [| | r0 s u v Hu Hv | | | |]; subst.
      apply star_denotes in Hv. destruct Hv as [-> | Hv].
      + rewrite app_nil_r. apply D_plus_one. eapply IHr; eassumption.
      + change (a0 :: u ++ v) with ((a0 :: u) ++ v). apply D_plus_more; [eapply IHr; eassumption | assumption].
  Qed.

  Lemma lf_complete (r : rx A) :
    forall a w, denotes r (a :: w) -> exists k, In (a, k) (lf r) /\ denotes k w.
  Proof.
    intros a w H. remember (a :: w) as aw eqn:E. revert a w E.
    induction H; intros a0 w0 E; try discriminate.
    - inversion E; subst. exists Eps. split; [left; reflexivity | constructor].
    - destruct u as [| b u'].
      + cbn in E. subst v. destruct (IHdenotes2 a0 w0 eq_refl) as [k [Hin Hk]].
        exists k. split; [| assumption]. cbn [lf]. apply in_or_app. right.
        assert (En : nullable r = true) by (apply nullable_denotes; assumption).
        rewrite En. assumption.
      + cbn in E. inversion E; subst.
        destruct (IHdenotes1 a0 u' eq_refl) as [k [Hin Hk]].
        exists (cat k s). split.
        * cbn [lf]. apply in_or_app. left. apply in_map_iff. exists (a0, k). split; [reflexivity | assumption].
        * apply cat_denotes. constructor; assumption.
    - destruct (IHdenotes a0 w0 E) as [k [Hin Hk]]. exists k. split; [| assumption].
      cbn [lf]. apply in_or_app. left; assumption.
    - destruct (IHdenotes a0 w0 E) as [k [Hin Hk]]. exists k. split; [| assumption].
      cbn [lf]. apply in_or_app. right; assumption.
    - destruct (IHdenotes a0 w0 E) as [k [Hin Hk]].
      exists (cat k (star r)). split.
      + cbn [lf]. apply in_map_iff. exists (a0, k). split; [reflexivity | assumption].
      + apply cat_denotes. rewrite <- (app_nil_r w0). constructor; [assumption |].
        apply star_denotes. left; reflexivity.
    - destruct u as [| b u'].
      + cbn in E. subst v. apply IHdenotes2. reflexivity.
      + cbn in E. inversion E; subst.
        destruct (IHdenotes1 a0 u' eq_refl) as [k [Hin Hk]].
        exists (cat k (star r)). split.
        * cbn [lf]. apply in_map_iff. exists (a0, k). split; [reflexivity | assumption].
        * apply cat_denotes. constructor; [assumption |]. apply star_denotes. right; assumption.
  Qed.

  Theorem lf_correct (r : rx A) a w :
    denotes r (a :: w) <-> exists k, In (a, k) (lf r) /\ denotes k w.
  Proof.
    split; [apply lf_complete |].
    intros [k [Hin Hk]]. eapply lf_sound; eassumption.
  Qed.

  Variable eqA : A -> A -> bool.
  Hypothesis eqA_sound : forall a b, eqA a b = true -> a = b.

  Lemma rx_eqb_sound (r : rx A) : forall s, rx_eqb eqA r s = true -> r = s.
  Proof.
    induction r; destruct s; cbn [rx_eqb]; intro H; try discriminate; try reflexivity.
    - apply eqA_sound in H. subst; reflexivity.
    - apply andb_true_iff in H. destruct H as [H1 H2].
      rewrite (IHr1 _ H1), (IHr2 _ H2). reflexivity.
    - apply andb_true_iff in H. destruct H as [H1 H2].
      rewrite (IHr1 _ H1), (IHr2 _ H2). reflexivity.
    - rewrite (IHr _ H). reflexivity.
  Qed.

  Lemma mem_rx_In r l : mem_rx eqA r l = true -> In r l.
  Proof.
    unfold mem_rx. intro H. apply existsb_exists in H. destruct H as [x [Hin Hx]].
    apply rx_eqb_sound in Hx. subst; assumption.
  Qed.

  Lemma dedup_rx_In r l : In r (dedup_rx eqA l) <-> In r l.
  Proof.
    induction l as [| x l IH]; cbn [dedup_rx]; [reflexivity |].
    destruct (mem_rx eqA x (dedup_rx eqA l)) eqn:E.
    - rewrite IH. split; [right; assumption |].
      intros [-> | H]; [| assumption]. apply IH. apply mem_rx_In. assumption.
    - cbn [In]. rewrite IH. reflexivity.
  Qed.
End Denotes.

Section Map.
  Context {A B : Type}.
  Variable f : A -> B.

  Fixpoint rmap (r : rx A) : rx B :=
    match r with
    | Zero => Zero
    | Eps => Eps
    | Leaf a => Leaf (f a)
    | Cat r s => Cat (rmap r) (rmap s)
    | Alt r s => Alt (rmap r) (rmap s)
    | Plus r => Plus (rmap r)
    end.

  Lemma rmap_nullable r : nullable (rmap r) = nullable r.
  Proof. induction r; cbn [rmap nullable]; congruence. Qed.

  Lemma rmap_cat r s : rmap (cat r s) = cat (rmap r) (rmap s).
  Proof. destruct r; destruct s; reflexivity. Qed.

  Lemma rmap_alt r s : rmap (alt r s) = alt (rmap r) (rmap s).
  Proof. destruct r; destruct s; reflexivity. Qed.

  Lemma rmap_lf r : lf (rmap r) = map (fun ak => (f (fst ak), rmap (snd ak))) (lf r).
  Proof.
    induction r; cbn [rmap lf]; try reflexivity.
    - rewrite map_app, IHr1, rmap_nullable. rewrite !map_map. cbn [fst snd].
      f_equal.
      + apply map_ext. intros [a k]. cbn [fst snd]. rewrite rmap_cat. reflexivity.
      + destruct (nullable r1); [assumption | reflexivity].
    - rewrite map_app, IHr1, IHr2. reflexivity.
    - rewrite IHr, !map_map. apply map_ext. intros [a k]. cbn [fst snd].
      rewrite rmap_cat. reflexivity.
  Qed.
End Map.

(** residual after reading a sequence of leaves *)
Inductive rpath {A} : rx A -> list A -> rx A -> Prop :=
| rpath_nil r : rpath r [] r
| rpath_cons r a k ls r' : In (a, k) (lf r) -> rpath k ls r' -> rpath r (a :: ls) r'.

Lemma rpath_denotes {A} (r : rx A) ls r' tail : rpath r ls r' -> denotes r' tail -> denotes r (ls ++ tail).
Proof.
  induction 1 as [r | r a k ls r' Hlf _ IH]; intro Hd; [exact Hd |].
  cbn [app]. eapply lf_sound; [exact Hlf | apply IH; exact Hd].
Qed.

Lemma denotes_rpath {A} (r : rx A) : forall ls tail, denotes r (ls ++ tail) -> exists r', rpath r ls r' /\ denotes r' tail.
Proof.
  intros ls. revert r. induction ls as [| a ls IH]; intros r tail Hd.
  - exists r. split; [constructor | exact Hd].
  - cbn [app] in Hd. apply lf_complete in Hd. destruct Hd as [k [Hlf Hk]].
    destruct (IH k tail Hk) as [r' [Hp Hr']]. exists r'. split; [econstructor; eassumption | exact Hr'].
Qed.

Lemma denotes_leaves {A} (r : rx A) w : denotes r w -> forall a, In a w -> In a (leaves r).
Proof.
  induction 1; intros a0 Hin; cbn [leaves] in *.
  - destruct Hin.
  - destruct Hin as [<- | []]. left; reflexivity.
  - apply in_app_or in Hin. apply in_or_app. destruct Hin; [left; apply IHdenotes1 | right; apply IHdenotes2]; assumption.
  - apply in_or_app. left. apply IHdenotes; assumption.
  - apply in_or_app. right. apply IHdenotes; assumption.
  - apply IHdenotes; assumption.
  - apply in_app_or in Hin. destruct Hin; [apply IHdenotes1 | apply IHdenotes2]; assumption.
Qed.

Lemma leaves_cat {A} (r s : rx A) a : In a (leaves (cat r s)) -> In a (leaves r) \/ In a (leaves s).
Proof.
  destruct r; destruct s; cbn [cat leaves]; intro H; try (destruct H; fail); auto;
    try (apply in_app_or in H; assumption); try (left; assumption); try (right; assumption).
Qed.

Lemma leaves_alt {A} (r s : rx A) a : In a (leaves (alt r s)) -> In a (leaves r) \/ In a (leaves s).
Proof.
  destruct r; destruct s; cbn [alt leaves]; intro H; try (destruct H; fail); auto;
    try (apply in_app_or in H; assumption); try (left; assumption); try (right; assumption).
Qed.

Lemma leaves_fold_cat {A} (l : list (rx A)) a :
  In a (leaves (fold_right cat Eps l)) -> exists r, In r l /\ In a (leaves r).
Proof.
  induction l as [| r l IH]; cbn [fold_right]; intro H; [destruct H |].
  apply leaves_cat in H. destruct H as [H | H].
  - exists r. split; [left; reflexivity | assumption].
  - destruct (IH H) as [r' [Hin Ha]]. exists r'. split; [right; assumption | assumption].
Qed.

Lemma leaves_fold_alt {A} (l : list (rx A)) a :
  In a (leaves (fold_right alt Zero l)) -> exists r, In r l /\ In a (leaves r).
Proof.
  induction l as [| r l IH]; cbn [fold_right]; intro H; [destruct H |].
  apply leaves_alt in H. destruct H as [H | H].
  - exists r. split; [left; reflexivity | assumption].
  - destruct (IH H) as [r' [Hin Ha]]. exists r'. split; [right; assumption | assumption].
Qed.

Lemma lf_leaves {A} (r : rx A) : forall a k, In (a, k) (lf r) -> In a (leaves r) /\ forall b, In b (leaves k) -> In b (leaves r).
Proof.
  induction r; cbn [lf leaves]; intros a0 k Hin.
  - destruct Hin.
  - destruct Hin.
  - destruct Hin as [E | []]. inversion E; subst. split; [left; reflexivity | intros b []].
  - apply in_app_or in Hin. destruct Hin as [Hin | Hin].
    + apply in_map_iff in Hin. destruct Hin as [[a1 k1] [E Hin]]. cbn in E. inversion E; subst.
      destruct (IHr1 _ _ Hin) as [Ha Hk]. split; [apply in_or_app; left; assumption |].
      intros b Hb. apply leaves_cat in Hb. apply in_or_app. destruct Hb as [Hb | Hb]; [left; apply Hk; assumption | right; assumption].
    + destruct (nullable r1); [| destruct Hin]. destruct (IHr2 _ _ Hin) as [Ha Hk].
      split; [apply in_or_app; right; assumption | intros b Hb; apply in_or_app; right; apply Hk; assumption].
  - apply in_app_or in Hin. destruct Hin as [Hin | Hin].
    + destruct (IHr1 _ _ Hin) as [Ha Hk]. split; [apply in_or_app; left; assumption | intros b Hb; apply in_or_app; left; apply Hk; assumption].
    + destruct (IHr2 _ _ Hin) as [Ha Hk]. split; [apply in_or_app; right; assumption | intros b Hb; apply in_or_app; right; apply Hk; assumption].
  - apply in_map_iff in Hin. destruct Hin as [[a1 k1] [E Hin]]. cbn in E. inversion E; subst.
    destruct (IHr _ _ Hin) as [Ha Hk]. split; [assumption |].
    intros b Hb. apply leaves_cat in Hb. destruct Hb as [Hb | Hb]; [apply Hk; assumption |].
    cbn [star leaves] in Hb. rewrite app_nil_r in Hb. assumption.
Qed.

Lemma denotes_fold_alt_in {A} (l : list (rx A)) r w : In r l -> denotes r w -> denotes (fold_right alt Zero l) w.
Proof.
  induction l as [| x l IH]; intros Hin Hd; [destruct Hin |].
  cbn [fold_right]. apply alt_denotes. destruct Hin as [<- | Hin]; [apply D_alt_l; assumption | apply D_alt_r; apply IH; assumption].
Qed.

Lemma denotes_fold_alt_inv {A} (l : list (rx A)) w : denotes (fold_right alt Zero l) w -> exists r, In r l /\ denotes r w.
Proof.
  induction l as [| x l IH]; cbn [fold_right]; intro H; [exfalso; eapply denotes_zero; eassumption |].
  apply alt_denotes in H. inversion H as [| | | r0 s0 u Hu | r0 s0 u Hu | |]; subst.
  - exists x. split; [left; reflexivity | assumption].
  - destruct (IH Hu) as [r [Hin Hr]]. exists r. split; [right; assumption | assumption].
Qed.
