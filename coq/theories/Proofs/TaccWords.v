(** The two descriptions of what a within-word automaton reads coincide: the token-level language
    of [Spec.TokAut] ([tacc] over [Spec.Ambig.dnext]/[dfinal]) is the set of typed words read
    ([Proofs.ReadWords.wreads]) by the item sequences the automaton accepts
    ([Spec.Lang.waccepts]). *)
From CG Require Import Base.Prelude Model.Ast Model.Dfa Spec.TokAut Spec.Ambig Spec.Lang
  Proofs.ReadWords Proofs.TablesSound.

Definition labelled (d : dfa) (ids : list N) (v : list witem) : Prop :=
  Forall2 (fun i a => exists x, nthN (d_inputs d) i = Some x /\ wlab x = Some a) ids v.

Lemma dnext_in d q tk q' :
  dfa_wf d ->
  (In (tk, q') (dnext d q) <->
   exists i x, step d q i = Some q' /\ nthN (d_inputs d) i = Some x /\ tok_of_inp x = Some tk).
Proof.
  intros [Hnd Hrows]. unfold dnext, step.
  destruct (assocN q (d_trans d)) as [tos|] eqn:E.
  - pose proof (assocN_In _ _ _ E) as Hin. destruct (Hrows _ _ Hin) as [Hnd2 _].
    rewrite in_flat_map. split.
    + intros [[i t] [Hit H]]. cbn [fst snd] in H.
      destruct (nthN (d_inputs d) i) as [x|] eqn:Ex; [|destruct H].
      destruct (tok_of_inp x) as [tk'|] eqn:Et; [|destruct H].
      destruct H as [H|[]]. inversion H; subst.
      exists i, x. split; [|split]; auto. apply in_assocN; assumption.
    + intros [i [x [Hs [Hx Ht]]]]. exists (i, q'). split.
      * apply assocN_In. exact Hs.
      * cbn [fst snd]. rewrite Hx, Ht. left. reflexivity.
  - split.
    + intros [].
    + intros [i [x [Hs _]]]. discriminate.
Qed.

Lemma accepts_from_cons d q i q' ids :
  step d q i = Some q' -> Dfa.accepts_from d q (i :: ids) = Dfa.accepts_from d q' ids.
Proof. intros H. unfold Dfa.accepts_from. cbn [run]. rewrite H. reflexivity. Qed.

Lemma tacc_to_words d : dfa_wf d -> forall q w,
  tacc N (dnext d) (dfinal d) q w ->
  exists ids v, Dfa.accepts_from d q ids = true /\ labelled d ids v /\ wreads v w.
Proof.
  intros Hwf q w H. induction H as [q Hf | q t q' w Hin Ht _ IH | q q' u w Hin Hu _ IH].
  - exists [], []. split; [|split].
    + unfold Dfa.accepts_from. cbn [run]. exact Hf.
    + constructor.
    + constructor.
  - destruct IH as [ids [v [Ha [Hl Hr]]]].
    apply (dnext_in _ _ _ _ Hwf) in Hin. destruct Hin as [i [x [Hs [Hx Hk]]]].
    destruct x as [t' de l|k l|c l|c l|]; cbn in Hk; try discriminate.
    inversion Hk; subst t'.
    exists (i :: ids), (WLit t de l :: v). split; [|split].
    + rewrite (accepts_from_cons _ _ _ _ _ Hs). exact Ha.
    + constructor; [|exact Hl]. exists (ILit t de l). split; [exact Hx|reflexivity].
    + constructor; [|exact Hr]. cbn. split; [reflexivity|exact Ht].
  - destruct IH as [ids [v [Ha [Hl Hr]]]].
    apply (dnext_in _ _ _ _ Hwf) in Hin. destruct Hin as [i [x [Hs [Hx Hk]]]].
    assert (Hw : exists a, wlab x = Some a /\ tok_reads a u).
    { destruct x as [t' de l|k l|c l|c l|]; cbn in Hk; try discriminate.
      - eexists. split; [reflexivity|exact Hu].
      - eexists. split; [reflexivity|exact Hu].
      - eexists. split; [reflexivity|exact Hu]. }
    destruct Hw as [a [Hla Hra]].
    exists (i :: ids), (a :: v). split; [|split].
    + rewrite (accepts_from_cons _ _ _ _ _ Hs). exact Ha.
    + constructor; [|exact Hl]. exists x. split; assumption.
    + constructor; assumption.
Qed.

Lemma words_to_tacc d : dfa_wf d -> forall ids q v w,
  Dfa.accepts_from d q ids = true -> labelled d ids v -> wreads v w ->
  tacc N (dnext d) (dfinal d) q w.
Proof.
  intros Hwf ids. induction ids as [|i ids IH]; intros q v w Ha Hl Hr.
  - inversion Hl; subst. inversion Hr; subst. apply tacc_nil.
    unfold Dfa.accepts_from in Ha. cbn [run] in Ha. exact Ha.
  - inversion Hl as [|i' a ids' v' [x [Hx Hla]] Hl']; subst.
    inversion Hr as [|a' v'' u w' Hra Hr']; subst.
    unfold Dfa.accepts_from in Ha. cbn [run] in Ha.
    destruct (step d q i) as [q'|] eqn:Hs; [|discriminate].
    assert (Ht : tacc N (dnext d) (dfinal d) q' w') by (apply (IH q' v' w'); assumption).
    destruct x as [t de l|k l|c l|c l|]; cbn in Hla; try discriminate;
      inversion Hla; subst a; cbn in Hra.
    + destruct Hra as [-> Hne]. apply tacc_lit with (q' := q'); auto.
      apply (dnext_in _ _ _ _ Hwf). exists i, (ILit t de l). auto.
    + apply tacc_wild with (q' := q'); auto.
      apply (dnext_in _ _ _ _ Hwf). exists i, (ICmd c l). auto.
    + apply tacc_wild with (q' := q'); auto.
      apply (dnext_in _ _ _ _ Hwf). exists i, (ICompadd c l). auto.
    + apply tacc_wild with (q' := q'); auto.
      apply (dnext_in _ _ _ _ Hwf). exists i, IStar. auto.
Qed.

Theorem tacc_words_from : forall d, dfa_wf d -> forall q w,
  tacc N (dnext d) (dfinal d) q w <->
  exists ids v, Dfa.accepts_from d q ids = true /\
    Forall2 (fun i a => exists x, nthN (d_inputs d) i = Some x /\ wlab x = Some a) ids v /\
    wreads v w.
Proof.
  intros d Hwf q w. split.
  - apply tacc_to_words. exact Hwf.
  - intros [ids [v [Ha [Hl Hr]]]]. eapply words_to_tacc; eauto.
Qed.

Theorem tacc_waccepts : forall d, dfa_wf d -> forall w,
  tacc N (dnext d) (dfinal d) (d_start d) w <-> exists v, waccepts d v /\ wreads v w.
Proof.
  intros d Hwf w. rewrite (tacc_words_from d Hwf). unfold waccepts, accepts. split.
  - intros [ids [v [Ha [Hl Hr]]]]. exists v. split; [|exact Hr]. exists ids. split; assumption.
  - intros [v [[ids [Ha Hl]] Hr]]. exists ids, v. split; [|split]; assumption.
Qed.

Print Assumptions tacc_waccepts.
