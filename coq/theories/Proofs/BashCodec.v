(** C04, bash: every printer of a data statement in [Model/EmitBash.v] is read back by the
    statement reader of [Spec/ScriptRead.v] (codec style: the leaves are decimal numbers, bracket
    pairs and C07's string constants; lists by [sep_by]).  The leaves, the lists, the lines of
    [bz_stmt] (Section Bz: bash and zsh differ in the declaration word only), the relation between a
    printed text and the statements it is read as ([reads_lines]) and the reading of a template line
    ([reads_tpl]) serve the codecs of the other shells as well. *)
From Coq Require Import DecimalString DecimalN DecimalPos.
From CG Require Import Base.Prelude Base.Facts Model.Ast Model.Dfa Model.Tpl Model.Quote Model.Tables Model.EmitBash
     Spec.ShellDQ Spec.ScriptRead Proofs.QuoteRT.
From CGgen Require Import Consts TplBash.
Open Scope N_scope.
Open Scope list_scope.

Lemma strip_app p r : strip p (append p r) = Some r.
Proof. induction p; cbn; [reflexivity|]. rewrite Ascii.eqb_refl. exact IHp. Qed.

Lemma lit_app p r : lit p (append p r) = Some (tt, r).
Proof. unfold lit. rewrite strip_app. reflexivity. Qed.

Lemma lit_app_both a b c : lit (append a b) (append a c) = lit b c.
Proof. unfold lit. induction a; cbn [append strip]; [reflexivity | rewrite Ascii.eqb_refl; exact IHa]. Qed.

Lemma take_while_app f a r :
  forallb f (list_ascii_of_string a) = true -> match r with String c _ => f c = false | EmptyString => True end ->
  take_while f (append a r) = (a, r).
Proof.
  intros Ha Hr. induction a as [|c a IH]; cbn [append take_while].
  - destruct r; cbn [take_while]; [reflexivity | rewrite Hr; reflexivity].
  - cbn [list_ascii_of_string forallb] in Ha. apply andb_prop in Ha. destruct Ha as [Hc Ha].
    rewrite Hc, (IH Ha). reflexivity.
Qed.

Definition no_digit_head (r : string) : Prop :=
  match r with String c _ => is_digit c = false | EmptyString => True end.

(** a decimal numeral is a non-empty string of digits: what holds of the ten digits holds of all its
    characters *)
Lemma uint_chars (P : ascii -> bool) d :
  forallb P (list_ascii_of_string "0123456789") = true ->
  forallb P (list_ascii_of_string (NilZero.string_of_uint d)) = true.
Proof.
  intros H. cbn [list_ascii_of_string forallb] in H.
  repeat (apply andb_prop in H; destruct H as [? H]).
  assert (G : forall u, forallb P (list_ascii_of_string (NilEmpty.string_of_uint u)) = true).
  { induction u; cbn [NilEmpty.string_of_uint list_ascii_of_string forallb];
      [reflexivity | rewrite IHu, andb_true_r; assumption ..]. }
  destruct d; [cbn; rewrite andb_true_r; assumption | apply G ..].
Qed.

Lemma sN_chars (P : ascii -> bool) n :
  forallb P (list_ascii_of_string "0123456789") = true -> forallb P (list_ascii_of_string (sN n)) = true.
Proof. apply uint_chars. Qed.

Lemma sN_nonempty n : exists c s, sN n = String c s.
Proof.
  unfold sN. destruct n as [|p]; [cbn; eauto|].
  cbn [N.to_uint]. destruct (Pos.to_uint p); cbn; eexists; eexists; reflexivity.
Qed.

Lemma sN_digit n : exists c s, sN n = String c s /\ is_digit c = true.
Proof.
  destruct (sN_nonempty n) as [c [s E]]. exists c, s. split; [exact E|].
  pose proof (sN_chars is_digit n eq_refl) as H. rewrite E in H. apply andb_prop in H. apply H.
Qed.

Lemma take_digits_uint d r :
  no_digit_head r ->
  take_while is_digit (append (NilZero.string_of_uint d) r) = (NilZero.string_of_uint d, r).
Proof. apply take_while_app, uint_chars. reflexivity. Qed.

Lemma nat10_sN n r : no_digit_head r -> nat10 (append (sN n) r) = Some (n, r).
Proof.
  intros Hr. unfold nat10, sN. rewrite (take_digits_uint _ _ Hr).
  destruct (sN_nonempty n) as [c [s E]]. unfold sN in E. rewrite E. rewrite <- E.
  rewrite NilZero.usu by (destruct n; [discriminate | apply DecimalPos.Unsigned.to_uint_nonnil]).
  rewrite DecimalN.Unsigned.of_to. reflexivity.
Qed.

Lemma nat10_not_digit c r : is_digit c = false -> nat10 (String c r) = None.
Proof. intros H. unfold nat10. cbn [take_while]. rewrite H. reflexivity. Qed.

Definition vname (v : string) : Prop := v <> EmptyString /\ forallb is_name_char (list_ascii_of_string v) = true.

Lemma name_app v c k r :
  vname v -> is_name_char c = false -> name (append v (append (String c k) r)) = Some (v, append (String c k) r).
Proof.
  intros [Hne Hv] Hc. unfold name. cbn [append]. rewrite (take_while_app is_name_char v (String c (append k r)) Hv Hc).
  destruct v; [congruence | reflexivity].
Qed.

Lemma name_chars_append a b :
  forallb is_name_char (list_ascii_of_string a) = true -> forallb is_name_char (list_ascii_of_string b) = true ->
  forallb is_name_char (list_ascii_of_string (append a b)) = true.
Proof.
  intros Ha Hb. induction a as [|c a IH]; [exact Hb|]. cbn [append list_ascii_of_string forallb] in *.
  apply andb_prop in Ha. destruct Ha as [Hc Ha]. rewrite Hc, (IH Ha). reflexivity.
Qed.

Lemma vname_app v s : vname v -> forallb is_name_char (list_ascii_of_string s) = true -> vname (append v s).
Proof.
  intros [Hne Hv] Hs. split; [destruct v; [congruence | discriminate] | apply name_chars_append; assumption].
Qed.

Lemma vname_app_sN v k : vname v -> vname (append v (sN k)).
Proof. intros Hv. apply vname_app; [exact Hv | apply sN_chars; reflexivity]. Qed.

Definition no_dash (var : string) : bool :=
  match var with String c _ => negb (Ascii.eqb c "-") | EmptyString => false end.

Lemma lit_dash_none k var x : no_dash var = true -> lit (String "-" k) (append var x) = None.
Proof.
  intros H. destruct var as [|c v]; [discriminate H|]. unfold lit. cbn [append strip].
  cbn [no_dash] in H. apply negb_true_iff in H. rewrite Ascii.eqb_sym in H. rewrite H. reflexivity.
Qed.

(** a word of name characters followed by a blank is not read where a name followed by [c] stands *)
Lemma lit_word_none w k v c x :
  forallb is_name_char (list_ascii_of_string w) = true -> forallb is_name_char (list_ascii_of_string v) = true ->
  is_name_char c = false -> c <> " "%char ->
  lit (append w (String " " k)) (append v (String c x)) = None.
Proof.
  intros Hw Hv Hc Hsp. unfold lit.
  enough (E : strip (append w (String " " k)) (append v (String c x)) = None) by (rewrite E; reflexivity).
  revert v Hv. induction w as [|b w IH]; intros [|a v] Hv; cbn [append strip]; cbn [list_ascii_of_string forallb] in Hw, Hv.
  - destruct (Ascii.eqb_spec " " c); [congruence | reflexivity].
  - destruct (Ascii.eqb_spec " " a) as [<-|]; [discriminate Hv | reflexivity].
  - apply andb_prop in Hw. destruct Hw as [Hb _]. destruct (Ascii.eqb_spec b c) as [->|]; [congruence | reflexivity].
  - apply andb_prop in Hw, Hv. destruct (Ascii.eqb b a); [apply IH; [apply Hw | apply Hv] | reflexivity].
Qed.

Lemma append_assoc3 (a b c : string) : append (append a b) c = append a (append b c).
Proof. apply append_assoc. Qed.

Lemma length_sconcat_ge {A} (enc : A -> string) (sep : string) (l : list A) r :
  sep <> EmptyString ->
  (List.length l <= String.length (sconcat (map (fun a => append sep (enc a)) l) ++ r)%string)%nat.
Proof.
  intros Hne.
  assert (Hs : (1 <= String.length sep)%nat) by (destruct sep; cbn; [congruence | lia]).
  induction l as [|a l IH]; cbn [map sconcat List.length]; [lia|].
  rewrite !length_append. rewrite !length_append in IH. lia.
Qed.

Lemma sconcat_app a b : sconcat (a ++ b) = append (sconcat a) (sconcat b).
Proof. induction a; cbn; [reflexivity | rewrite IHa, append_assoc; reflexivity]. Qed.

Lemma join_cons_cons sep (x y : string) l : join sep (x :: y :: l) = append x (append sep (join sep (y :: l))).
Proof. reflexivity. Qed.

Lemma join_one sep (x : string) : join sep [x] = x.
Proof. reflexivity. Qed.

Lemma join_head sep x l r : exists r', append (join sep (x :: l)) r = append x r'.
Proof. destruct l; [exists r; reflexivity | eexists; rewrite join_cons_cons, append_assoc; reflexivity]. Qed.

(** [sep_by p sep] reads back a list printed with [join sep]: items of the class [ok], each read back
    before any text of the class [next] (the separator, the text after the list); at the text after the
    list neither the separator nor an item is read *)
Section SepBy.
Context {A : Type} (p : parser A) (enc : A -> string) (sep : string) (ok : A -> Prop) (next stop : string -> Prop).
Hypothesis item_ok : forall a r, ok a -> next r -> p (append (enc a) r) = Some (a, r).
Hypothesis next_sep : forall x, next (append sep x).
Hypothesis next_stop : forall r, stop r -> next r.
Hypothesis stop_sep : forall r, stop r -> strip sep r = None.
Hypothesis stop_item : forall r, stop r -> p r = None.
Hypothesis sep_nonempty : sep <> EmptyString.

Local Notation tail l r := (sconcat (map (fun a => append sep (enc a)) l) ++ r)%string.

Lemma next_tail l r : stop r -> next (tail l r).
Proof. intros Hr. destruct l; cbn; [apply next_stop, Hr | rewrite !append_assoc; apply next_sep]. Qed.

Lemma sep_by_go_join l r fuel :
  Forall ok l -> stop r -> (List.length l <= fuel)%nat -> sep_by_go fuel p sep (tail l r) = (l, r).
Proof.
  intros Hl Hr. revert fuel. induction Hl as [|a l Ha _ IH]; intros fuel Hf.
  - destruct fuel; [reflexivity|]. cbn. rewrite (stop_sep r Hr). reflexivity.
  - destruct fuel as [|fuel]; [cbn in Hf; lia|]. cbn [map sconcat]. rewrite !append_assoc. cbn [sep_by_go].
    rewrite strip_app. rewrite (item_ok a _ Ha (next_tail l r Hr)).
    rewrite IH by (cbn in Hf; lia). reflexivity.
Qed.

Lemma join_cons a (l : list A) :
  join sep (enc a :: map enc l) = append (enc a) (sconcat (map (fun a => append sep (enc a)) l)).
Proof.
  revert a. induction l as [|b l IH]; intros a; cbn [map sconcat].
  - cbn. rewrite append_nil_r. reflexivity.
  - rewrite join_cons_cons, (IH b), append_assoc. reflexivity.
Qed.

Theorem sep_by_join_ok l r :
  Forall ok l -> stop r -> sep_by p sep (append (join sep (map enc l)) r) = Some (l, r).
Proof.
  intros Hl Hr. unfold sep_by. destruct Hl as [|a l Ha Hl]; cbn [map].
  - cbn [join append]. rewrite (stop_item r Hr). reflexivity.
  - rewrite join_cons, append_assoc. rewrite (item_ok a _ Ha (next_tail l r Hr)).
    rewrite sep_by_go_join; [reflexivity | exact Hl | exact Hr | apply length_sconcat_ge; exact sep_nonempty].
Qed.
End SepBy.

Lemma Forall_all {A} (l : list A) : Forall (fun _ => True) l.
Proof. induction l; constructor; auto. Qed.

Definition starts_with (c : ascii) (r : string) : Prop := exists r', r = String c r'.

(** the usual case: every item is read, and the list ends at the character [c] *)
Corollary sep_by_join {A} (p : parser A) enc sep (next : string -> Prop) (c : ascii) :
  (forall a r, next r -> p (append (enc a) r) = Some (a, r)) -> (forall x, next (append sep x)) ->
  (forall x, next (String c x)) -> (forall x, strip sep (String c x) = None) -> (forall x, p (String c x) = None) ->
  sep <> EmptyString ->
  forall l r, starts_with c r -> sep_by p sep (append (join sep (map enc l)) r) = Some (l, r).
Proof.
  intros H1 H2 H3 H4 H5 H6 l r Hr.
  apply (sep_by_join_ok p enc sep (fun _ => True) next (starts_with c));
    [intros a r0 _; apply H1 | exact H2 | intros r0 [x ->]; apply H3 | intros r0 [x ->]; apply H4
    | intros r0 [x ->]; apply H5 | exact H6 | apply Forall_all | exact Hr].
Qed.

Lemma starts_no_digit c r : is_digit c = false -> starts_with c r -> no_digit_head r.
Proof. intros H [r' ->]. exact H. Qed.

Lemma br_pair_kv p r : no_digit_head r -> br_pair (append (kv p) r) = Some (p, r).
Proof.
  intros Hr. destruct p as [k v]. unfold br_pair, kv, pbind, pret. cbn [fst snd].
  rewrite !append_assoc. rewrite lit_app. rewrite nat10_sN by reflexivity.
  rewrite lit_app. rewrite nat10_sN by exact Hr. reflexivity.
Qed.

Lemma kv_list l r :
  starts_with ")"%char r -> sep_by br_pair " " (append (join " " (map kv l)) r) = Some (l, r).
Proof.
  apply (sep_by_join br_pair kv " " no_digit_head ")"%char);
    [intros a r0; apply br_pair_kv | reflexivity | reflexivity | reflexivity | reflexivity | discriminate].
Qed.

Lemma num_list l r :
  starts_with c_dq r -> sep_by nat10 " " (append (join " " (map sN l)) r) = Some (l, r).
Proof.
  apply (sep_by_join nat10 sN " " no_digit_head c_dq);
    [intros a r0; apply nat10_sN | reflexivity | reflexivity | reflexivity | reflexivity | discriminate].
Qed.

Definition cell (ids : list N) : string := append """" (append (join " " (map sN ids)) """").

Lemma num_cell_cell ids r : num_cell (append (cell ids) r) = Some (ids, r).
Proof.
  unfold num_cell, cell, pbind, pret. rewrite !append_assoc. rewrite lit_app.
  rewrite num_list by (eexists; reflexivity). rewrite lit_app. reflexivity.
Qed.

Definition kcell (p : N * list N) : string := append "[" (append (sN (fst p)) (append "]=" (cell (snd p)))).

Lemma br_cell_kcell p r : br_cell (append (kcell p) r) = Some (p, r).
Proof.
  destruct p as [k ids]. unfold br_cell, kcell, pbind, pret. cbn [fst snd]. rewrite !append_assoc.
  rewrite lit_app. rewrite nat10_sN by reflexivity. rewrite lit_app.
  rewrite num_cell_cell. reflexivity.
Qed.

Lemma kcell_list l r :
  starts_with ")"%char r -> sep_by br_cell " " (append (join " " (map kcell l)) r) = Some (l, r).
Proof.
  apply (sep_by_join br_cell kcell " " (fun _ => True) ")"%char);
    [intros a r0 _; apply br_cell_kcell | exact (fun _ => I) | exact (fun _ => I) | reflexivity | reflexivity | discriminate].
Qed.

Lemma br_cell_on_kv p r : br_cell (append (kv p) r) = None.
Proof.
  destruct p as [k v]. unfold br_cell, kv, pbind. cbn [fst snd]. rewrite !append_assoc. rewrite lit_app.
  rewrite nat10_sN by reflexivity. rewrite lit_app. unfold num_cell, pbind, lit.
  destruct (sN_digit v) as [c [s' [E Hd]]]. rewrite E. cbn [append strip].
  destruct (Ascii.eqb_spec """"%char c) as [<-|Hne]; [discriminate Hd | reflexivity].
Qed.

(** string constants separated by [sep], for every shell: [P] is the class of texts the shell's
    constant reads back for (C07) *)
Section DqList.
Variable sh : shell.
Variable P : string -> Prop.
Hypothesis RT : forall s rest, P s -> safe sh rest = true -> read sh (append (make_string_constant sh s) rest) = Some (s, rest).
Variable sep : string.
Hypothesis sep_ne : sep <> EmptyString.
Hypothesis sep_safe : forall x, safe sh (append sep x) = true.

Lemma dq_listG texts r :
  Forall P texts -> safe sh r = true -> dq sh r = None -> strip sep r = None ->
  sep_by (dq sh) sep (append (join sep (map (make_string_constant sh) texts)) r) = Some (texts, r).
Proof.
  intros Ht Hsafe Hstop Hstrip.
  apply (sep_by_join_ok (dq sh) (make_string_constant sh) sep P (fun x => safe sh x = true) (eq r));
    [exact RT | exact sep_safe | intros r0 <-; exact Hsafe | intros r0 <-; exact Hstrip | intros r0 <-; exact Hstop
    | exact sep_ne | exact Ht | reflexivity].
Qed.
End DqList.

(** lists of constants separated by blanks and closed by [)], for the shells without an inadmissible text *)
Lemma dq_list sh texts r :
  sh <> Pwsh -> starts_with ")"%char r ->
  sep_by (dq sh) " " (append (join " " (map (make_string_constant sh) texts)) r) = Some (texts, r).
Proof.
  intros Hsh [r' ->].
  apply (dq_listG sh (fun _ => True) (fun s rest _ => quote_roundtrip sh s rest (admissible_all sh s Hsh)) " ");
    try (destruct sh; reflexivity); [discriminate | apply Forall_all].
Qed.

Lemma alt_skip {A} (p q : parser A) s : p s = None -> alt p q s = q s.
Proof. unfold alt. intros ->. reflexivity. Qed.

Lemma alt_take {A} (p q : parser A) s x : p s = Some x -> alt p q s = Some x.
Proof. unfold alt. intros ->. reflexivity. Qed.

Lemma pbind_lit {A} a (f : unit -> parser A) r : pbind (lit a) f (append a r) = f tt r.
Proof. unfold pbind. rewrite lit_app. reflexivity. Qed.

Lemma pbind_lit' {A} a (f : unit -> parser A) s r : strip a s = Some r -> pbind (lit a) f s = f tt r.
Proof. unfold pbind, lit. intros ->. reflexivity. Qed.

Lemma pbind_none {A B} (p : parser A) (f : A -> parser B) s : p s = None -> pbind p f s = None.
Proof. unfold pbind. intros ->. reflexivity. Qed.

Lemma pbind_some {A B} (p : parser A) (f : A -> parser B) s a r : p s = Some (a, r) -> pbind p f s = f a r.
Proof. unfold pbind. intros ->. reflexivity. Qed.

Lemma eol_nl r : eol (append nl r) = Some (tt, r).
Proof. apply lit_app. Qed.

Opaque sN join.

Definition not_func (st : stmt) : Prop := match st with SFunc _ => False | _ => True end.

(** a line with its newline that is read as the statement [st], whatever follows it *)
Definition reads_as (sh : shell) (ln : string) (st : stmt) : Prop :=
  ln <> EmptyString /\ not_func st /\ forall rest, stmt_of sh (append ln rest) = Some (st, rest).

Lemma reads_as_of sh ln st :
  not_func st -> (forall rest, stmt_of sh (append ln rest) = Some (st, rest)) -> reads_as sh ln st.
Proof. intros Hf H. split; [|split; assumption]. intros ->. specialize (H EmptyString). destruct sh; discriminate H. Qed.

(** bash and zsh: the reader is [bz_stmt] for a declaration word [w] ("local", "declare"); the lines
    below are read back whatever the variable is called *)
Record bz_shell (sh : shell) (w : string) : Prop := {
  bz_word : forallb is_name_char (list_ascii_of_string w) = true;
  bz_head : forall x r, lit (append w x) (String "_" r) = None;
  bz_reader : stmt_of sh = bz_stmt sh (append w " -a ") (append w " -A ") (append w " ");
  bz_dq : sh <> Pwsh
}.

Lemma bz_bash : bz_shell Bash "local".
Proof. split; [reflexivity | reflexivity | reflexivity | discriminate]. Qed.

Lemma bz_zsh : bz_shell Zsh "declare".
Proof. split; [reflexivity | reflexivity | reflexivity | discriminate]. Qed.

(** the variable of a line is written as a prefix [p] followed by a name [v] (zsh templates have a hole
    for the prefix; for bash it is empty) *)
(** X[s]="([k]=v ...)" *)
Definition row_line (p v : string) (s : N) (row : list (N * N)) : string :=
  append "    " (append p (append v (append "[" (append (sN s) (append "]=""(" (append (join " " (map kv row)) (append ")""" nl))))))).

(** X[k]="..." *)
Definition descr_line (sh : shell) (p v : string) (k : N) (d : string) : string :=
  append "    " (append p (append v (append "[" (append (sN k) (append "]=" (append (make_string_constant sh d) nl)))))).

(** W -a X=("a" "b" ...) *)
Definition lits_line (sh : shell) (w p v : string) (texts : list string) : string :=
  append "    " (append (append w " -a ") (append p (append v (append "=(" (append (join " " (map (make_string_constant sh) texts)) (append ")" nl)))))).

(** W -A X=([k]=v ...) *)
Definition pairs_line (w p v : string) (l : list (N * N)) : string :=
  append "    " (append (append w " -A ") (append p (append v (append "=(" (append (join " " (map kv l)) (append ")" nl)))))).

(** W -A X_level_K=([s]="l l" ...) *)
Definition level_line (w p v : string) (k : N) (rows : list (N * list N)) : string :=
  append "    " (append (append w " -A ") (append p (append v (append (sN k) (append "=(" (append (join " " (map kcell rows)) (append ")" nl))))))).

(** W X=N *)
Definition scalar_line (w p v : string) (n : N) : string :=
  append "    " (append (append w " ") (append p (append v (append "=" (append (sN n) nl))))).

(** [vn]: a variable name written out is a name *)
Ltac vn := split; [discriminate | reflexivity].

Section Bz.
Variables (sh : shell) (w : string).
Hypothesis B : bz_shell sh w.
Local Notation ks := (append w " ").
Local Notation ka := (append w " -a ").
Local Notation kA := (append w " -A ").

(** no keyword is read where a variable, or another keyword, stands *)
Lemma kw_not_var k v x : vname v -> lit (append w (String " " k)) (append v (String "[" x)) = None.
Proof. intros [_ Hv]. apply lit_word_none; [exact (bz_word _ _ B) | exact Hv | reflexivity | discriminate]. Qed.

Lemma ka_not_kA x : lit ka (append kA x) = None.
Proof. rewrite (append_assoc w), lit_app_both. reflexivity. Qed.

Lemma opt_not_var o v x : no_dash v = true -> lit (append w (String " " (String "-" o))) (append ks (append v x)) = None.
Proof. intros H. rewrite (append_assoc w), lit_app_both. exact (lit_dash_none o v x H). Qed.

Lemma bz_reads_row p v s row :
  vname (append p v) -> is_descr_var (append p v) = false -> reads_as sh (row_line p v s row) (SRow (append p v) s row).
Proof.
  intros Hv Hd. apply reads_as_of; [exact I|]. intros rest. rewrite (bz_reader _ _ B). unfold row_line.
  rewrite !append_assoc, <- (append_assoc p v). unfold bz_stmt.
  do 3 (rewrite alt_skip by (rewrite pbind_lit; apply pbind_none, kw_not_var, Hv)).
  apply alt_take. rewrite pbind_lit.
  rewrite (pbind_some _ _ _ _ _ (name_app _ "[" _ _ Hv eq_refl)).
  erewrite pbind_lit' by reflexivity.
  erewrite pbind_some by (apply nat10_sN; reflexivity).
  erewrite pbind_lit' by reflexivity. rewrite Hd.
  apply alt_take. erewrite pbind_lit' by reflexivity.
  erewrite pbind_some by (apply kv_list; eexists; reflexivity).
  erewrite pbind_lit' by reflexivity. rewrite (pbind_some _ _ _ _ _ (eol_nl rest)). reflexivity.
Qed.

(** a string constant (C07) *)
Lemma bz_reads_descr p v k d :
  vname (append p v) -> is_descr_var (append p v) = true -> reads_as sh (descr_line sh p v k d) (SStr (append p v) k d).
Proof.
  intros Hv Hd. apply reads_as_of; [exact I|]. intros rest. rewrite (bz_reader _ _ B). unfold descr_line.
  rewrite !append_assoc, <- (append_assoc p v). unfold bz_stmt.
  do 3 (rewrite alt_skip by (rewrite pbind_lit; apply pbind_none, kw_not_var, Hv)).
  apply alt_take. rewrite pbind_lit.
  rewrite (pbind_some _ _ _ _ _ (name_app _ "[" _ _ Hv eq_refl)).
  erewrite pbind_lit' by reflexivity.
  erewrite pbind_some by (apply nat10_sN; reflexivity).
  erewrite pbind_lit' by reflexivity. rewrite Hd.
  unfold dq. erewrite pbind_some by (apply quote_roundtrip; [exact (admissible_all sh d (bz_dq _ _ B)) | destruct sh; reflexivity]).
  rewrite (pbind_some _ _ _ _ _ (eol_nl rest)). reflexivity.
Qed.

(** the constants are C07's *)
Lemma bz_reads_lits p v texts : vname (append p v) -> reads_as sh (lits_line sh w p v texts) (SLits (append p v) texts).
Proof.
  intros Hv. apply reads_as_of; [exact I|]. intros rest. rewrite (bz_reader _ _ B). unfold lits_line.
  rewrite !append_assoc, <- (append_assoc w), <- (append_assoc p v). unfold bz_stmt.
  apply alt_take. rewrite !pbind_lit.
  rewrite (pbind_some _ _ _ _ _ (name_app _ "=" _ _ Hv eq_refl)).
  erewrite pbind_lit' by reflexivity.
  erewrite pbind_some by (apply dq_list; [exact (bz_dq _ _ B) | eexists; reflexivity]).
  erewrite pbind_lit' by reflexivity. rewrite (pbind_some _ _ _ _ _ (eol_nl rest)). reflexivity.
Qed.

(** also with no pair at all *)
Lemma bz_reads_pairs p v l :
  vname (append p v) -> reads_as sh (pairs_line w p v l) (SAssoc (append p v) (map (fun q => (fst q, [snd q])) l)).
Proof.
  intros Hv. apply reads_as_of; [exact I|]. intros rest. rewrite (bz_reader _ _ B). unfold pairs_line.
  rewrite !append_assoc, <- (append_assoc w), <- (append_assoc p v). unfold bz_stmt.
  rewrite alt_skip by (rewrite pbind_lit; apply pbind_none, ka_not_kA).
  apply alt_take. rewrite !pbind_lit.
  rewrite (pbind_some _ _ _ _ _ (name_app _ "=" _ _ Hv eq_refl)).
  rewrite alt_skip by reflexivity.
  destruct l as [|q l]; [apply alt_take; reflexivity|]. cbn [map].
  destruct (join_head " " (kv q) (map kv l) (")" ++ nl ++ rest)) as [r' E].
  rewrite alt_skip by (rewrite E; reflexivity).
  rewrite alt_skip by (erewrite pbind_lit' by reflexivity; unfold pbind, sep_by; rewrite E, br_cell_on_kv; reflexivity).
  erewrite pbind_lit' by reflexivity. erewrite pbind_some by (apply (kv_list (q :: l)); eexists; reflexivity).
  erewrite pbind_lit' by reflexivity. rewrite (pbind_some _ _ _ _ _ (eol_nl rest)). reflexivity.
Qed.

Lemma bz_reads_level p v k rows :
  vname (append p v) -> reads_as sh (level_line w p v k rows) (SAssoc (append (append p v) (sN k)) rows).
Proof.
  intros Hv. apply reads_as_of; [exact I|]. intros rest. rewrite (bz_reader _ _ B). unfold level_line.
  set (st := SAssoc _ rows). rewrite !append_assoc, <- (append_assoc w), <- (append_assoc p v), <- (append_assoc (append p v)). unfold bz_stmt.
  rewrite alt_skip by (rewrite pbind_lit; apply pbind_none, ka_not_kA).
  apply alt_take. rewrite !pbind_lit.
  rewrite (pbind_some _ _ _ _ _ (name_app _ "=" _ _ (vname_app_sN _ k Hv) eq_refl)).
  rewrite alt_skip by reflexivity.
  destruct rows as [|q rows]; [apply alt_take; reflexivity|]. cbn [map].
  destruct (join_head " " (kcell q) (map kcell rows) (")" ++ nl ++ rest)) as [r' E].
  rewrite alt_skip by (rewrite E; reflexivity).
  apply alt_take.
  erewrite pbind_lit' by reflexivity. erewrite pbind_some by (apply (kcell_list (q :: rows)); eexists; reflexivity).
  erewrite pbind_lit' by reflexivity. rewrite (pbind_some _ _ _ _ _ (eol_nl rest)). reflexivity.
Qed.

Lemma bz_reads_scalar p v n :
  vname (append p v) -> no_dash (append p v) = true -> reads_as sh (scalar_line w p v n) (SScalar (append p v) n).
Proof.
  intros Hv Hd. apply reads_as_of; [exact I|]. intros rest. rewrite (bz_reader _ _ B). unfold scalar_line.
  rewrite !append_assoc, <- (append_assoc w), <- (append_assoc p v). unfold bz_stmt.
  do 2 (rewrite alt_skip by (rewrite pbind_lit; apply pbind_none, opt_not_var, Hd)).
  apply alt_take. rewrite !pbind_lit.
  rewrite (pbind_some _ _ _ _ _ (name_app _ "=" _ _ Hv eq_refl)).
  erewrite pbind_lit' by reflexivity.
  erewrite pbind_some by (apply nat10_sN; reflexivity).
  rewrite (pbind_some _ _ _ _ _ (eol_nl rest)). reflexivity.
Qed.
End Bz.
Arguments bz_reads_row {sh w} B.
Arguments bz_reads_descr {sh w} B.
Arguments bz_reads_lits {sh w} B.
Arguments bz_reads_pairs {sh w} B.
Arguments bz_reads_level {sh w} B.
Arguments bz_reads_scalar {sh w} B.

Inductive reads_lines (sh : shell) : string -> list stmt -> Prop :=
| reads_nil : reads_lines sh EmptyString []
| reads_cons ln st text sts :
    reads_as sh ln st -> reads_lines sh text sts -> reads_lines sh (append ln text) (st :: sts).

Lemma reads_one sh ln st : reads_as sh ln st -> reads_lines sh ln [st].
Proof. intros H. rewrite <- (append_nil_r ln). exact (reads_cons sh ln st _ _ H (reads_nil sh)). Qed.

Lemma reads_app sh t1 s1 t2 s2 :
  reads_lines sh t1 s1 -> reads_lines sh t2 s2 -> reads_lines sh (append t1 t2) (s1 ++ s2).
Proof. induction 1; intros H2; [exact H2|]. rewrite append_assoc. cbn [app]. constructor; auto. Qed.

Lemma reads_map {A} sh (f : A -> string) (g : A -> stmt) l :
  (forall x, In x l -> reads_as sh (f x) (g x)) -> reads_lines sh (sconcat (map f l)) (map g l).
Proof.
  intros H. induction l as [|a l IH]; cbn [map sconcat]; constructor.
  - apply H. left. reflexivity.
  - apply IH. intros x Hx. apply H. right. exact Hx.
Qed.

Lemma reads_flat_map {A} sh (f : A -> string) (g : A -> list stmt) l :
  (forall x, reads_lines sh (f x) (g x)) -> reads_lines sh (sconcat (map f l)) (flat_map g l).
Proof. intros H. induction l; cbn [map sconcat flat_map]; [constructor | apply reads_app; auto]. Qed.

Lemma reads_scan sh text sts :
  reads_lines sh text sts ->
  forall cmd k rest, scan (List.length sts + k) sh cmd (append text rest) = sts ++ scan k sh cmd rest.
Proof.
  induction 1 as [|ln st text sts [Hne [Hnf Hrd]] _ IH]; intros cmd k rest; [reflexivity|].
  cbn [List.length Nat.add]. rewrite append_assoc. cbn [scan].
  destruct (ln ++ text ++ rest)%string eqn:E.
  - destruct ln; [congruence | discriminate E].
  - rewrite <- E. rewrite Hrd.
    destruct st; try (cbn [app]; f_equal; apply IH). destruct Hnf.
Qed.

(** a template line is the text of its segments followed by the newline, associated to the right, so
    that a template with given hole values is a line by computation *)
Fixpoint renderln (env : list (string * string)) (t : list seg) : string :=
  match t with
  | [] => nl
  | Text s :: r => append s (renderln env r)
  | Hole n :: r => append (match assoc n env with Some v => v | None => append "{?" (append n "}") end) (renderln env r)
  end.

Lemma fmtln_renderln t env : fmtln t env = renderln env t.
Proof.
  unfold fmtln. induction t as [|[s|n] t IH]; cbn [render renderln]; [reflexivity | rewrite append_assoc, IH; reflexivity ..].
Qed.

Lemma reads_tpl sh t env ln st : reads_as sh ln st -> renderln env t = ln -> reads_as sh (fmtln t env) st.
Proof. intros H <-. rewrite fmtln_renderln. exact H. Qed.

(** [by_line L]: a template line that has the shape of the line of lemma [L] (by computation) is read as
    [L] says; the hypotheses of [L] are left *)
Ltac by_line L := eapply reads_tpl; [apply L | reflexivity].

(** The printers of Model/EmitBash.v, line by line.  The template texts come from gen/TplBash.v: a
    change of a template makes the proofs below fail. *)
Definition row_stmts var m := map (fun row : N * list (N * N) => SRow var (fst row) (snd row)) m.

Definition match_stmts (t : tables) : list stmt :=
  SAssoc "literal_transitions" [] :: row_stmts "literal_transitions" (t_mlit t)
  ++ (match t_mcmd t with
      | Some m => SAssoc "command_transitions" [] :: row_stmts "command_transitions" m
      | None => []
      end)
  ++ (match t_mstar t with Some l => [SAssoc "star_transitions" (map (fun p => (fst p, [snd p])) l)] | None => [] end).

Lemma reads_match t : reads_lines Bash (write_match_transitions t) (match_stmts t).
Proof.
  unfold write_match_transitions, match_stmts.
  constructor; [by_line (bz_reads_pairs bz_bash "" "literal_transitions" []); vn|].
  apply reads_app; [apply reads_map; intros row _; by_line (bz_reads_row bz_bash ""); [vn | reflexivity]|].
  apply reads_app.
  - destruct (t_mcmd t) as [m|]; [|constructor].
    constructor; [by_line (bz_reads_pairs bz_bash "" "command_transitions" []); vn|].
    apply reads_map. intros row _. by_line (bz_reads_row bz_bash ""); [vn | reflexivity].
  - destruct (t_mstar t) as [l|]; [|constructor]. apply reads_one. by_line (bz_reads_pairs bz_bash ""). vn.
Qed.

Definition level_stmts var (levels : list (list (N * list N))) :=
  map (fun kl : N * list (N * list N) => SAssoc (append var (sN (fst kl))) (snd kl)) (number_from 0 levels).

Definition completion_stmts (t : tables) : list stmt :=
  level_stmts "literal_transitions_level_" (t_clit t)
  ++ (match t_ccmd t with Some m => level_stmts "commands_level_" m | None => [] end)
  ++ [SScalar "max_fallback_level" (t_maxlevel t)].

(** the level printer for a cell template and a line template that have the expected shape *)
Lemma reads_levels cell line var levels :
  vname var ->
  (forall a b, fmt cell [("from_state", a); ("0", b)] = ("[" ++ a ++ "]=" ++ """" ++ b ++ """")%string) ->
  (forall a b, fmtln line [("level", a); ("initializer", b)] = ("    local -A " ++ var ++ a ++ "=(" ++ b ++ ")" ++ nl)%string) ->
  reads_lines Bash (write_levels cell line levels) (level_stmts var levels).
Proof.
  intros Hv Hc Hl. apply reads_map. intros [k rows] _. rewrite Hl. unfold level_rows.
  rewrite (map_ext _ kcell (fun r => Hc _ _)). apply (bz_reads_level bz_bash "" var k rows Hv).
Qed.

Lemma reads_completion t : reads_lines Bash (write_completion_tables t) (completion_stmts t).
Proof.
  unfold write_completion_tables, completion_stmts.
  apply reads_app; [apply reads_levels; [vn | reflexivity | intros; apply fmtln_renderln]|]. apply reads_app.
  - destruct (t_ccmd t); [apply reads_levels; [vn | reflexivity | intros; apply fmtln_renderln] | constructor].
  - apply reads_one. by_line (bz_reads_scalar bz_bash ""); [vn | reflexivity].
Qed.

Lemma reads_literals t : reads_as Bash (write_literals t) (SLits "literals" (map (fun l => snd (fst l)) (t_literals t))).
Proof.
  unfold write_literals. rewrite <- (map_map (fun l => snd (fst l)) (make_string_constant Bash)).
  by_line (bz_reads_lits bz_bash ""). vn.
Qed.

Definition table_stmts (t : tables) : list stmt :=
  SLits "literals" (map (fun l => snd (fst l)) (t_literals t)) :: match_stmts t ++ completion_stmts t.

Theorem bash_tables_roundtrip t :
  forall cmd k rest,
    scan (List.length (table_stmts t) + k) Bash cmd
         (append (write_literals t) (append (write_match_transitions t) (append (write_completion_tables t) rest)))
    = table_stmts t ++ scan k Bash cmd rest.
Proof.
  intros cmd k rest. rewrite <- (append_assoc (write_match_transitions t)), <- append_assoc.
  apply reads_scan. constructor; [apply reads_literals | apply reads_app; [apply reads_match | apply reads_completion]].
Qed.

(** the tables are recovered from the statements (bash view: literal texts, no descriptions,
    no compadd tables) *)
Definition rows_of (var : string) (l : list stmt) : list (N * list (N * N)) :=
  flat_map (fun st => match st with SRow v s r => if String.eqb v var then [(s, r)] else [] | _ => [] end) l.

(** the statements only the completion function itself has *)
Lemma reads_subrows (m : list (N * list (N * N))) :
  reads_lines Bash
    (sconcat (map (fun row => fmtln write_completion_script_5
                                [("state", sN (fst row)); ("state_transitions", join " " (map kv (snd row)))]) m))
    (row_stmts "subword_transitions" m).
Proof. apply reads_map. intros row _. by_line (bz_reads_row bz_bash ""); [vn | reflexivity]. Qed.

Lemma reads_sublevels levels :
  reads_lines Bash (write_levels write_completion_script_11 write_completion_script_12 levels)
              (level_stmts "subword_transitions_level_" levels).
Proof. apply reads_levels; [vn | reflexivity | intros; apply fmtln_renderln]. Qed.

Theorem bash_subword_rows_roundtrip (m : list (N * list (N * N))) cmd k rest :
  scan (List.length m + k) Bash cmd
       (append (sconcat (map (fun row => fmtln write_completion_script_5
                                [("state", sN (fst row)); ("state_transitions", join " " (map kv (snd row)))]) m)) rest)
  = row_stmts "subword_transitions" m ++ scan k Bash cmd rest.
Proof.
  rewrite <- (map_length (fun row : N * list (N * N) => SRow "subword_transitions" (fst row) (snd row)) m).
  apply reads_scan, reads_subrows.
Qed.

Lemma length_number_from {A} (l : list A) n : List.length (number_from n l) = List.length l.
Proof. revert n. induction l; intros n; cbn [number_from List.length]; [reflexivity | f_equal; apply IHl]. Qed.

Theorem bash_subword_levels_roundtrip levels cmd k rest :
  scan (List.length levels + k) Bash cmd
       (append (write_levels write_completion_script_11 write_completion_script_12 levels) rest)
  = level_stmts "subword_transitions_level_" levels ++ scan k Bash cmd rest.
Proof.
  rewrite <- (length_number_from levels 0),
          <- (map_length (fun kl : N * list (N * list N) => SAssoc (append "subword_transitions_level_" (sN (fst kl))) (snd kl))).
  apply reads_scan, reads_sublevels.
Qed.
