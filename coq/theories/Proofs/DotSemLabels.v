(** C16, meaning level, for the --regex file: in a file made only of labelled node statements,
    edges, attribute assignments and subgraphs (no default-attribute statements), when a node name
    determines its label, every node statement [ID[label=L]] -- at any depth -- yields a node ID with
    label L in the graph, and the nodes stated inside a top-level subgraph are members of it. *)
From CG Require Import Base.Prelude Base.Facts Proofs.ListFacts Model.Dfa Spec.DotRead Spec.DotSpec Proofs.DotSem Proofs.DotStates.
Local Open Scope string_scope.

Section StmtInd.
  Variable P : stmt -> Prop.
  Hypothesis Hattr : forall k a, P (SAttr k a).
  Hypothesis Hnode : forall i a, P (SNode i a).
  Hypothesis Hedge : forall l a, P (SEdge l a).
  Hypothesis Hassign : forall k v, P (SAssign k v).
  Hypothesis Hsub : forall name body, Forall P body -> P (SSub name body).
  Fixpoint stmt_ind2 (s : stmt) : P s :=
    match s with
    | SAttr k a => Hattr k a
    | SNode i a => Hnode i a
    | SEdge l a => Hedge l a
    | SAssign k v => Hassign k v
    | SSub name body =>
        Hsub name body
          ((fix go (l : list stmt) : Forall P l :=
              match l with
              | [] => Forall_nil _
              | x :: r => Forall_cons _ (stmt_ind2 x) (go r)
              end) body)
    end.
End StmtInd.

(** the statements allowed, and the (name, label) pairs they state *)
Inductive simple : stmt -> Prop :=
| simple_node i L : simple (SNode i [("label", L)])
| simple_edge l a : simple (SEdge l a)
| simple_assign k v : simple (SAssign k v)
| simple_sub name body : Forall simple body -> simple (SSub name body).

Fixpoint stated (s : stmt) : list (string * string) :=
  match s with
  | SNode i [(_, L)] => [(i, L)]
  | SSub _ body => flat_map stated body
  | _ => []
  end.
Definition stated_all (l : list stmt) : list (string * string) := flat_map stated l.

Lemma add_members_in new : forall l j, In j new \/ In j l -> In j (add_members new l).
Proof.
  unfold add_members. induction new as [|x r IH]; intros l j H; cbn [fold_left].
  - destruct H as [[]|H]; exact H.
  - apply IH. destruct H as [[<-|H]|H].
    + right. unfold add_member. destruct (mem_str x l) eqn:E; [now apply mem_str_In|apply in_or_app; right; now left].
    + now left.
    + right. unfold add_member. destruct (mem_str x l); [exact H|apply in_or_app; now left].
Qed.

Section Labels.
  Variable ALL : list (string * string).
  Hypothesis ALL_fun : forall i L L', In (i, L) ALL -> In (i, L') ALL -> L = L'.

  Definition lab (n : gnode) : option string := assoc "label" (gn_attrs n).

  Definition good (o : objs) : Prop :=
    NoDup (ids (o_nodes o))
    /\ forall n L, In n (o_nodes o) -> lab n = Some L -> In (gn_id n, L) ALL.

  Definition has (o : objs) (i L : string) : Prop :=
    exists n, In n (o_nodes o) /\ gn_id n = i /\ lab n = Some L.

  (** what one statement (or a list) keeps true *)
  Definition keeps (st st' : objs * scope) : Prop :=
    good (fst st') /\ s_ndef (snd st') = []
    /\ (forall j L, has (fst st) j L -> has (fst st') j L)
    /\ (forall j, In j (s_members (snd st)) -> In j (s_members (snd st')))
    /\ (exists extra, s_subs (snd st') = s_subs (snd st) ++ extra)%list.

  Lemma keeps_refl st : good (fst st) -> s_ndef (snd st) = [] -> keeps st st.
  Proof. intros Hg Hd. repeat split; auto; try apply Hg. exists []. now rewrite app_nil_r. Qed.

  Lemma keeps_trans a b c : keeps a b -> keeps b c -> keeps a c.
  Proof.
    intros [_ [_ [H1 [M1 [e1 S1]]]]] [Hg [Hd [H2 [M2 [e2 S2]]]]]. repeat split; auto; try apply Hg.
    exists (e1 ++ e2)%list. now rewrite S2, S1, app_assoc.
  Qed.

  Lemma touch_keeps i st :
    s_ndef (snd st) = [] -> good (fst st) ->
    keeps st (touch i st) /\ In i (ids (o_nodes (fst (touch i st)))) /\ In i (s_members (snd (touch i st))).
  Proof.
    destruct st as [o sc]. cbn [fst snd]. intros Hd [Hnd Hg]. unfold touch, keeps. rewrite has_node_ids.
    cbn [fst snd s_ndef s_edef s_members s_subs].
    assert (Hm : In i (add_member i (s_members sc))
                 /\ forall j, In j (s_members sc) -> In j (add_member i (s_members sc))).
    { unfold add_member. destruct (mem_str i (s_members sc)) eqn:E.
      - split; [now apply mem_str_In|auto].
      - split; [apply in_or_app; right; now left|intros; apply in_or_app; now left]. }
    assert (Hx : exists extra, s_subs sc = (s_subs sc ++ extra)%list) by (exists []; now rewrite app_nil_r).
    destruct (mem_str i (ids (o_nodes o))) eqn:E.
    - refine (conj (conj (conj Hnd Hg) (conj Hd (conj _ (conj _ Hx)))) (conj _ _)).
      + auto.
      + exact (proj2 Hm).
      + now apply mem_str_In.
      + exact (proj1 Hm).
    - cbn [o_nodes]. assert (Hni : ~ In i (ids (o_nodes o))).
      { intro H. apply mem_str_In in H. congruence. }
      refine (conj (conj (conj _ _) (conj Hd (conj _ (conj _ Hx)))) (conj _ _)).
      + cbn [o_nodes]. rewrite ids_app. apply NoDup_snoc; assumption.
      + cbn [o_nodes]. intros n L Hn Hl. apply in_app_or in Hn as [Hn|[<-|[]]]; [now apply Hg|].
        unfold lab in Hl. cbn in Hl. rewrite Hd in Hl. discriminate.
      + unfold has. cbn [o_nodes]. intros j L [n [Hn [Hi Hl]]]. exists n. split; [apply in_or_app; now left|now split].
      + exact (proj2 Hm).
      + rewrite ids_app. apply in_or_app. right. now left.
      + exact (proj1 Hm).
  Qed.

  Lemma assoc_set_attr_same k v a : assoc k (set_attr k v a) = Some v.
  Proof.
    induction a as [|[k' v'] r IH]; cbn; [now rewrite String.eqb_refl|].
    destruct (String.eqb k k') eqn:E; cbn; [now rewrite String.eqb_refl|]. now rewrite E.
  Qed.

  Lemma update_label i L ns :
    NoDup (ids ns) -> In i (ids ns) ->
    ids (update_node i [("label", L)] ns) = ids ns
    /\ (exists n, In n (update_node i [("label", L)] ns) /\ gn_id n = i /\ lab n = Some L)
    /\ (forall n, In n (update_node i [("label", L)] ns) -> gn_id n <> i -> In n ns)
    /\ (forall n, In n ns -> gn_id n <> i -> In n (update_node i [("label", L)] ns))
    /\ (forall n, In n (update_node i [("label", L)] ns) -> gn_id n = i -> lab n = Some L).
  Proof.
    induction ns as [|m r IH]; intros Hnd Hin; [destruct Hin|]. cbn [update_node].
    inversion Hnd as [|? ? Hm Hr]; subst.
    destruct (String.eqb i (gn_id m)) eqn:E.
    - apply String.eqb_eq in E. subst i. cbn [ids map gn_id]. split; [reflexivity|].
      assert (Hl : lab (mkgnode (gn_id m) (set_attrs [("label", L)] (gn_attrs m))) = Some L).
      { unfold lab. cbn. apply assoc_set_attr_same. }
      split; [eexists; split; [now left|split; [reflexivity|exact Hl]]|].
      split; [intros n [<-|Hn] Hne; [now elim Hne|now right]|].
      split; [intros n [->|Hn] Hne; [now elim Hne|now right]|].
      intros n [<-|Hn] Hi; [exact Hl|]. elim Hm. rewrite <- Hi. now apply in_map.
    - assert (Hin' : In i (ids r)).
      { destruct Hin as [Hin|Hin]; [|exact Hin]. cbn in Hin. subst i. now rewrite String.eqb_refl in E. }
      destruct (IH Hr Hin') as [A [[n [Bn [Bi Bl]]] [C [D F]]]]. cbn [ids map]. fold (ids (update_node i [("label", L)] r)).
      rewrite A. split; [reflexivity|]. split; [exists n; split; [now right|now split]|].
      split; [intros x [<-|Hx] Hne; [now left|right; now apply C]|].
      split; [intros x [<-|Hx] Hne; [now left|right; now apply D]|].
      intros x [<-|Hx] Hi; [|now apply F]. symmetry in Hi. apply String.eqb_eq in Hi. congruence.
  Qed.

  Lemma node_keeps i L st :
    s_ndef (snd st) = [] -> good (fst st) -> In (i, L) ALL ->
    let st' := run_stmt (SNode i [("label", L)]) st in
    keeps st st' /\ has (fst st') i L /\ In i (s_members (snd st')).
  Proof.
    intros Hd Hg Hall. cbn zeta. cbn [run_stmt].
    destruct (touch_keeps i st Hd Hg) as [[Hg1 [Hd1 [Hh1 [Hm1 Hs1]]]] [Hin Hmem]].
    destruct (touch i st) as [o1 sc1] eqn:Et. cbn [fst snd] in *.
    destruct Hg1 as [Hnd1 Hall1].
    destruct (update_label i L (o_nodes o1) Hnd1 Hin) as [A [[n [Bn [Bi Bl]]] [C [D F]]]].
    split; [|split; [exists n; now repeat split|exact Hmem]].
    unfold keeps. cbn [fst snd o_nodes].
    refine (conj (conj _ _) (conj Hd1 (conj _ (conj Hm1 Hs1)))).
    - cbn [o_nodes]. now rewrite A.
    - cbn [o_nodes]. intros x Lx Hx Hl. destruct (String.eqb (gn_id x) i) eqn:E.
      + apply String.eqb_eq in E. rewrite (F x Hx E) in Hl. injection Hl as <-. now rewrite E.
      + apply String.eqb_neq in E. apply Hall1; [now apply C|exact Hl].
    - unfold has. cbn [o_nodes]. intros j Lj Hj. destruct (Hh1 j Lj Hj) as [x [Hx [Hi Hl]]].
      destruct (String.eqb j i) eqn:E.
      + apply String.eqb_eq in E. exists n. split; [exact Bn|]. split; [now rewrite E|].
        rewrite Bl. f_equal. apply (ALL_fun i); [exact Hall|]. rewrite <- E, <- Hi. now apply Hall1.
      + apply String.eqb_neq in E. exists x. split; [apply D; [exact Hx|congruence]|now split].
  Qed.

  Lemma edge_keeps l a st : s_ndef (snd st) = [] -> good (fst st) -> keeps st (run_stmt (SEdge l a) st).
  Proof.
    intros Hd Hg. cbn [run_stmt].
    assert (H : keeps st (fold_left (fun acc i => touch i acc) l st)).
    { revert st Hd Hg. induction l as [|i r IH]; intros st Hd Hg; [now apply keeps_refl|]. cbn [fold_left].
      destruct (touch_keeps i st Hd Hg) as [Hk _]. eapply keeps_trans; [exact Hk|].
      apply IH; [apply Hk|apply Hk]. }
    destruct (fold_left (fun acc i => touch i acc) l st) as [o1 sc1]. destruct H as [Hg1 [Hd1 [Hh1 [Hm1 Hs1]]]].
    unfold keeps. cbn [fst snd] in *. repeat split; auto; apply Hg1.
  Qed.

  Lemma assign_keeps k v st : s_ndef (snd st) = [] -> good (fst st) -> keeps st (run_stmt (SAssign k v) st).
  Proof.
    destruct st as [o sc]. cbn [fst snd run_stmt]. intros Hd Hg. unfold keeps. cbn [fst snd s_ndef s_members s_subs].
    repeat split; auto; try apply Hg. exists []. now rewrite app_nil_r.
  Qed.

  (** the statement-level invariant, with what each statement adds *)
  Definition step_ok (s : stmt) : Prop :=
    forall st, s_ndef (snd st) = [] -> good (fst st) ->
      let st' := run_stmt s st in
      keeps st st'
      /\ (forall i L, In (i, L) (stated s) -> has (fst st') i L /\ In i (s_members (snd st')))
      /\ (forall name body, s = SSub (Some name) body ->
                            forall i L, In (i, L) (stated s) -> in_cluster name i (s_subs (snd st')) = true).

  Lemma list_ok l : Forall step_ok l -> forall st, s_ndef (snd st) = [] -> good (fst st) ->
    let st' := run_stmts l st in
    keeps st st'
    /\ (forall i L, In (i, L) (stated_all l) -> has (fst st') i L /\ In i (s_members (snd st')))
    /\ (forall name body, In (SSub (Some name) body) l ->
                          forall i L, In (i, L) (stated_all body) -> in_cluster name i (s_subs (snd st')) = true).
  Proof.
    induction 1 as [|s r Hs Hr IH]; intros st Hd Hg; cbn zeta.
    - split; [now apply keeps_refl|]. split; [intros ? ? []|intros ? ? []].
    - rewrite run_stmts_cons. destruct (Hs st Hd Hg) as [Hk [Hst Hcl]]. cbn zeta in *.
      destruct (IH (run_stmt s st)) as [Hk2 [Hst2 Hcl2]]; [apply Hk|apply Hk|]. cbn zeta in *.
      split; [eapply keeps_trans; eassumption|]. split.
      + intros i L Hin. cbn [stated_all flat_map] in Hin. apply in_app_or in Hin as [Hin|Hin]; [|now apply Hst2].
        destruct (Hst i L Hin) as [A B]. destruct Hk2 as [_ [_ [Hh [Hm _]]]]. split; [now apply Hh|now apply Hm].
      + intros name body [->|Hin] i L Hi; [|exact (Hcl2 name body Hin i L Hi)].
        specialize (Hcl name body eq_refl i L Hi). destruct Hk2 as [_ [_ [_ [_ [extra He]]]]]. rewrite He.
        unfold in_cluster in *. rewrite existsb_app, Hcl. reflexivity.
  Qed.

  Lemma simple_step_ok s : simple s -> (forall p, In p (stated s) -> In p ALL) -> step_ok s.
  Proof.
    induction s as [k a|i a|l a|k v|name body IH] using stmt_ind2; intros Hs Hall st Hd Hg; cbn zeta.
    - inversion Hs.
    - inversion Hs as [i' L| | |]; subst.
      destruct (node_keeps i L st Hd Hg (Hall _ (or_introl eq_refl))) as [Hk [Hh Hm]]. cbn zeta in *.
      split; [exact Hk|]. split; [|intros ? ? E; discriminate E].
      intros j Lj [E|[]]. injection E as <- <-. now split.
    - split; [now apply edge_keeps|]. split; [intros ? ? []|intros ? ? E; discriminate E].
    - split; [now apply assign_keeps|]. split; [intros ? ? []|intros ? ? E; discriminate E].
    - inversion Hs as [| | |n b Hb]; subst. destruct st as [o sc]. cbn [fst snd] in Hd, Hg. rewrite run_sub.
      assert (Hbody : Forall step_ok body).
      { apply Forall_forall. intros x Hx. rewrite Forall_forall in IH, Hb. apply IH; [exact Hx|now apply Hb|].
        intros p Hp. apply Hall. cbn [stated]. apply in_flat_map. now exists x. }
      destruct (list_ok body Hbody (o, mkscope (s_ndef sc) (s_edef sc) [] [] [])) as [Hk [Hst _]];
        [exact Hd|exact Hg|]. cbn zeta in *.
      destruct (run_stmts body (o, mkscope (s_ndef sc) (s_edef sc) [] [] [])) as [o' inner] eqn:Er.
      cbn [fst snd] in *. destruct Hk as [Hg' [Hd' [Hh' [Hm' Hs']]]]. cbn [s_ndef s_members s_subs] in *.
      pose proof (add_members_in (s_members inner) (s_members sc)) as Hadd.
      split; [|split].
      + unfold keeps. cbn [fst snd s_ndef s_members s_subs]. repeat split; auto; try apply Hg'.
        eexists. reflexivity.
      + intros i L Hin. destruct (Hst i L Hin) as [A B]. split; [exact A|]. apply Hadd. now left.
      + intros nm bd E i L Hin. injection E as -> <-. cbn [s_subs]. unfold in_cluster. rewrite existsb_app. cbn [existsb].
        rewrite String.eqb_refl. destruct (Hst i L Hin) as [_ B]. rewrite (proj2 (mem_str_In _ _) B). cbn. apply orb_true_r.
  Qed.
End Labels.

Theorem labels_kept (ss : list stmt) strict name :
  Forall simple ss ->
  (forall i L L', In (i, L) (stated_all ss) -> In (i, L') (stated_all ss) -> L = L') ->
  let g := graph_of_ast (mkast strict true name ss) in
  (forall i L, In (i, L) (stated_all ss) ->
               exists n, In n (g_nodes g) /\ gn_id n = i /\ assoc "label" (gn_attrs n) = Some L)
  /\ (forall cname body i L, In (SSub (Some cname) body) ss -> In (i, L) (stated_all body) ->
                             in_cluster cname i (g_subs g) = true).
Proof.
  intros Hs Hfun. cbn zeta. unfold graph_of_ast. cbn [a_body a_strict a_directed a_name].
  assert (Hok : Forall (step_ok (stated_all ss)) ss).
  { apply Forall_forall. intros s Hin. apply simple_step_ok; [exact Hfun|rewrite Forall_forall in Hs; now apply Hs|].
    intros p Hp. unfold stated_all. apply in_flat_map. now exists s. }
  destruct (list_ok (stated_all ss) ss Hok (mkobjs [] [], mkscope [] [] [] [] [])) as [Hk [Hst Hcl]].
  - reflexivity.
  - split; [constructor|intros ? ? []].
  - cbn zeta in *. destruct (run_stmts ss (mkobjs [] [], mkscope [] [] [] [] [])) as [o sc]. cbn [fst snd] in *.
    cbn [g_nodes g_subs]. split.
    + intros i L Hin. exact (proj1 (Hst i L Hin)).
    + intros cname body i L Hin Hi. exact (Hcl cname body Hin i L Hi).
Qed.
