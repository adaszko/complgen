(** C16: the graph the reader makes of the statements of the lines [x_items], which the
    ([patched]) model of DFA::to_dot writes, is [x_graph] ([graph_of_x_items]).  [named_by] records
    the prefixes in use, so that the node names of each further cluster are fresh. *)
From CG Require Import Base.Prelude Base.Facts Proofs.ListFacts Model.Dfa Spec.DotRead Spec.DotSpec Model.Dot
     Proofs.DotLex Proofs.DotParse Proofs.DotSem Proofs.DotNames Proofs.DotStates Proofs.DotDfaItems
     Proofs.DotDfaSem.
Local Open Scope string_scope.

Definition named_by (S : list string) (l : list string) : Prop :=
  forall i, In i l -> exists p' n, In p' S /\ prefix_ok p' /\ i = node_id p' n.

Lemma named_fresh S l p s : named_by S l -> prefix_ok p -> ~ In p S -> ~ In (node_id p s) l.
Proof.
  intros Hn Hp Hs Hi. destruct (Hn _ Hi) as [p' [n [Hin [Hp' E]]]].
  destruct (node_id_inj _ _ _ _ Hp Hp' E) as [-> _]. contradiction.
Qed.

Lemma named_app S l1 l2 : named_by S l1 -> named_by S l2 -> named_by S (l1 ++ l2).
Proof. intros H1 H2 i Hi. apply in_app_or in Hi as [Hi|Hi]; [now apply H1|now apply H2]. Qed.

Lemma named_weaken S S' l : (forall p, In p S -> In p S') -> named_by S l -> named_by S' l.
Proof. intros Hs H i Hi. destruct (H i Hi) as [p' [n [A [B C]]]]. exists p', n. auto. Qed.

Definition names (base : N) (p : string) (d : dfa) : list string :=
  map (fun s => node_id p (s + base)) (st_list d).

Lemma names_named base p d : prefix_ok p -> named_by [p] (names base p d).
Proof.
  intros Hp i Hi. apply in_map_iff in Hi as [s [<- _]]. exists p, (s + base). split; [now left|now split].
Qed.

Lemma names_nodup base p d : prefix_ok p -> NoDup (d_accepting d) -> NoDup (names base p d).
Proof.
  intros Hp Ha. apply FinFun.Injective_map_NoDup; [|now apply st_list_nodup].
  intros a b E. exact (nm_inj base p _ _ Hp E).
Qed.

Lemma trans_in_states d t :
  In t (iter_transitions d) -> In (fst (fst t)) (trans_states d) /\ In (snd t) (trans_states d).
Proof.
  unfold iter_transitions, trans_states. intro H. apply in_flat_map in H as [row [Hrow Ht]].
  apply in_map_iff in Ht as [q [<- Hq]]. cbn [fst snd]. split; apply in_flat_map; exists row; (split; [exact Hrow|]).
  - now left.
  - right. apply in_map_iff. now exists q.
Qed.

Definition x_edge_list (base : N) (subs : list dfa) (ids' : list (N * N)) (d : dfa) (p : string)
  : list (string * string * attrs) :=
  map conv (flat_map (x_edges base subs ids' d p) (iter_transitions d)).

Lemma run_edge_items base subs ids' d p o sc :
  s_edef sc = [] ->
  (forall e, In e (x_edge_list base subs ids' d p) ->
             (In (fst (fst e)) (ids (o_nodes o)) /\ In (fst (fst e)) (s_members sc))
             /\ (In (snd (fst e)) (ids (o_nodes o)) /\ In (snd (fst e)) (s_members sc))) ->
  run_stmts (items_stmts (map edge_item (flat_map (x_edges base subs ids' d p) (iter_transitions d)))) (o, sc)
  = (mkobjs (o_nodes o) (o_edges o ++ map edge_of (x_edge_list base subs ids' d p)), sc).
Proof. intros He Hex. rewrite stmts_edge_items. exact (run_edges _ o sc He Hex). Qed.

(** an edge written for a transition joins its two states, or leads into / out of the cluster of
    the within-word automaton the transition names *)
Lemma x_edges_ends base subs ids' d p t e a b :
  In e (x_edges base subs ids' d p t) -> fst (conv e) = (a, b) ->
  (a = node_id p (fst (fst t) + base) /\ b = node_id p (snd t + base))
  \/ exists k l sd id, nthN (d_inputs d) (snd (fst t)) = Some (ISub k l) /\ nthN subs k = Some sd
                       /\ assocN k ids' = Some id
                       /\ ((a = node_id p (fst (fst t) + base) /\ b = node_id (sub_pre id) (d_start sd + base))
                           \/ (exists s, In s (d_accepting sd) /\ a = node_id (sub_pre id) (s + base))
                              /\ b = node_id p (snd t + base)).
Proof.
  unfold x_edges. destruct (nthN (d_inputs d) (snd (fst t))) as [x|]; [|intros []].
  destruct x as [t' dd l|k l|cm l|cm l|].
  2:{ destruct (nthN subs k) as [sd|] eqn:Esd; [|intros []]. destruct (assocN k ids') as [id|] eqn:Eid; [|intros []].
      intros H E. right. exists k, l, sd, id. split; [reflexivity|]. split; [exact Esd|]. split; [exact Eid|].
      destruct H as [<-|H].
      - injection E as <- <-. left. now split.
      - apply in_map_iff in H as [s [<- Hs]]. injection E as <- <-. right. split; [now exists s|reflexivity]. }
  all: match goal with |- context [display ?x] => destruct (display x) end; [|intros []].
  all: intros [<-|[]] E; injection E as <- <-; left; now split.
Qed.

(** end points of the edges of a within-word automaton: its own states *)
Lemma sub_edge_ends base sd p e :
  In e (x_edge_list base [] [] sd p) ->
  In (fst (fst e)) (names base p sd) /\ In (snd (fst e)) (names base p sd).
Proof.
  unfold x_edge_list. intro H. apply in_map_iff in H as [e4 [<- H]]. apply in_flat_map in H as [t [Ht H]].
  destruct (trans_in_states sd t Ht) as [Hf Hto].
  assert (Hn : forall s, In s (trans_states sd) -> In (node_id p (s + base)) (names base p sd)).
  { intros s Hs. apply in_map_iff. exists s. split; [reflexivity|]. apply st_list_in. auto. }
  destruct (x_edges_ends _ _ _ _ _ _ _ _ _ H (surjective_pairing _)) as [[-> ->]|(k & l & sd' & id & _ & E & _)];
    [split; now apply Hn|]. unfold nthN in E. destruct (N.to_nat k); discriminate E.
Qed.

Definition sub_nodes (base : N) (q : N * dfa) : list gnode :=
  map (x_node base (sub_pre (fst q)) (snd q)) (st_list (snd q)).
Definition sub_names (base : N) (q : N * dfa) : list string := names base (sub_pre (fst q)) (snd q).
Definition sub_edges (base : N) (q : N * dfa) : list gedge :=
  map edge_of (x_edge_list base [] [] (snd q) (sub_pre (fst q))).
Definition sub_cluster (base : N) (q : N * dfa) : cluster :=
  Cluster (Some ("cluster_" ++ dec (fst q)))
          [("label", "subword " ++ dec (fst q)); ("color", "grey91"); ("style", "filled")]
          (sub_names base q) [].

Lemma subword_label_qdec id : qdec ("subword " ++ dec id) = "subword " ++ dec id.
Proof.
  apply plain_body. apply plain_app; [reflexivity|apply dec_plain].
Qed.

Lemma run_cluster base q o sc :
  NoDup (d_accepting (snd q)) ->
  one_shape (s_ndef sc) -> s_edef sc = [] -> NoDup (ids (o_nodes o)) ->
  (forall s, ~ In (node_id (sub_pre (fst q)) s) (ids (o_nodes o))
             /\ ~ In (node_id (sub_pre (fst q)) s) (s_members sc)) ->
  run_stmts (item_stmts (x_cluster base q)) (o, sc)
  = (mkobjs (o_nodes o ++ sub_nodes base q) (o_edges o ++ sub_edges base q),
     mkscope (s_ndef sc) (s_edef sc) (s_gattrs sc) (s_members sc ++ sub_names base q)
             (s_subs sc ++ [sub_cluster base q])).
Proof.
  intros Hacc H1 He Hnd Hf. destruct q as [id sd]. cbn [fst snd] in *.
  unfold x_cluster, cluster_block. cbn [item_stmts fst snd].
  change (flat_map item_stmts ?l) with (items_stmts l).
  cbn [run_stmts fold_left]. rewrite run_sub.
  change (items_stmts (ILine (LAssignQ "label" ("subword " ++ dec id))
                       :: ILine (LAssign "color" "grey91") :: ILine (LAssign "style" "filled")
                       :: x_sub_items base sd (sub_pre id)))
    with (SAssign "label" (qdec ("subword " ++ dec id)) :: SAssign "color" "grey91" :: SAssign "style" "filled"
          :: items_stmts (x_sub_items base sd (sub_pre id))).
  rewrite subword_label_qdec. rewrite !run_stmts_cons. cbn [run_stmt s_ndef s_edef s_gattrs s_members s_subs set_attr].
  change (String.eqb "color" "label") with false. change (String.eqb "style" "label") with false.
  change (String.eqb "style" "color") with false. cbn match.
  unfold x_sub_items. rewrite items_stmts_app, run_stmts_app.
  rewrite (run_node_lines base sd (sub_pre id)); cbn [s_ndef s_edef s_gattrs s_members s_subs o_nodes o_edges];
    [|constructor|exact Hacc|exact H1|exact Hnd|intro s; split; [apply Hf|intros []]].
  rewrite run_edge_items; cbn [s_ndef s_edef s_gattrs s_members s_subs o_nodes o_edges].
  - rewrite add_members_fresh.
    + reflexivity.
    + apply names_nodup; [constructor|exact Hacc].
    + intros i Hi. apply in_map_iff in Hi as [s [<- _]]. apply Hf.
  - exact He.
  - intros e Hin. destruct (sub_edge_ends base sd (sub_pre id) e Hin) as [A B].
    rewrite ids_app, ids_x_nodes. fold (names base (sub_pre id) sd).
    repeat split; try (apply in_or_app; right); assumption.
Qed.

Lemma run_clusters base qs : forall o sc S,
  (forall q, In q qs -> NoDup (d_accepting (snd q))) ->
  NoDup (map fst qs) ->
  one_shape (s_ndef sc) -> s_edef sc = [] -> NoDup (ids (o_nodes o)) ->
  named_by S (ids (o_nodes o)) -> named_by S (s_members sc) ->
  (forall q, In q qs -> ~ In (sub_pre (fst q)) S) ->
  run_stmts (items_stmts (map (x_cluster base) qs)) (o, sc)
  = (mkobjs (o_nodes o ++ flat_map (sub_nodes base) qs) (o_edges o ++ flat_map (sub_edges base) qs),
     mkscope (s_ndef sc) (s_edef sc) (s_gattrs sc) (s_members sc ++ flat_map (sub_names base) qs)
             (s_subs sc ++ map (sub_cluster base) qs)).
Proof.
  induction qs as [|q r IH]; intros o sc S Hacc Hnd H1 He Hn Hno Hnm Hs.
  - cbn. rewrite !app_nil_r. destruct o, sc. reflexivity.
  - cbn [map]. change (items_stmts (x_cluster base q :: map (x_cluster base) r))
      with (item_stmts (x_cluster base q) ++ items_stmts (map (x_cluster base) r))%list.
    rewrite run_stmts_app.
    assert (Hfq : forall s, ~ In (node_id (sub_pre (fst q)) s) (ids (o_nodes o))
                            /\ ~ In (node_id (sub_pre (fst q)) s) (s_members sc)).
    { intro s. split; (eapply named_fresh; [eassumption|constructor|apply Hs; now left]). }
    rewrite (run_cluster base q o sc (Hacc q (or_introl eq_refl)) H1 He Hn Hfq).
    inversion Hnd as [|? ? Hq Hr]; subst.
    rewrite (IH _ _ (sub_pre (fst q) :: S)); cbn [o_nodes o_edges s_ndef s_edef s_gattrs s_members s_subs].
    + cbn [flat_map map]. rewrite <- !app_assoc. reflexivity.
    + intros q' Hq'. apply Hacc. now right.
    + exact Hr.
    + exact H1.
    + exact He.
    + rewrite ids_app. apply NoDup_app. split; [exact Hn|split].
      * unfold sub_nodes. rewrite ids_x_nodes. apply names_nodup; [constructor|apply Hacc; now left].
      * intros x Hx Hx'. unfold sub_nodes in Hx'. rewrite ids_x_nodes in Hx'.
        apply in_map_iff in Hx' as [s [<- _]]. now apply (proj1 (Hfq (s + base))).
    + rewrite ids_app. apply named_app.
      * eapply named_weaken; [|exact Hno]. intros p Hp. now right.
      * unfold sub_nodes. rewrite ids_x_nodes. eapply named_weaken; [|apply names_named; constructor].
        intros p [<-|[]]. now left.
    + apply named_app.
      * eapply named_weaken; [|exact Hnm]. intros p Hp. now right.
      * eapply named_weaken; [|apply names_named; constructor]. intros p [<-|[]]. now left.
    + intros q' Hq' [E|Hin].
      * apply sub_pre_inj in E. apply Hq. rewrite E. now apply in_map.
      * apply (Hs q'); [now right|exact Hin].
Qed.

Definition x_graph (base : N) (c : cdfa) : graph :=
  mkgraph false true (Some "dfa") [("rankdir", "LR")]
          (map (x_node base "" (c_main c)) (st_list (c_main c)) ++ flat_map (sub_nodes base) (used base c))
          (flat_map (sub_edges base) (used base c)
           ++ map edge_of (x_edge_list base (c_subs c) (sub_ids base (c_main c)) (c_main c) ""))
          (map (sub_cluster base) (used base c)).

Lemma used_in base c id sd :
  In (id, sd) (used base c) <-> exists k, In (k, id) (sub_ids base (c_main c)) /\ nthN (c_subs c) k = Some sd.
Proof.
  unfold used. rewrite in_flat_map. split.
  - intros [[k id'] [Hin H]]. cbn [fst snd] in H. destruct (nthN (c_subs c) k) as [sd'|] eqn:E; [|destruct H].
    destruct H as [H|[]]. injection H as -> ->. now exists k.
  - intros [k [Hin E]]. exists (k, id). split; [exact Hin|]. cbn [fst snd]. rewrite E. now left.
Qed.

Lemma used_wf base c q :
  wf_cdfa c = true -> In q (used base c) -> wf_dfa (snd q) = true /\ no_sub_trans (snd q) = true.
Proof.
  intros Hwf Hq. destruct q as [id sd]. apply used_in in Hq as [k [Hin E]].
  destruct (sub_ids_used c base k id Hin) as [t [l [Ht Ei]]].
  destruct (wf_used c t k l Hwf Ht Ei) as [sd' [E' [A B]]]. rewrite E in E'. injection E' as <-. now split.
Qed.

Lemma wf_dfa_acc d : wf_dfa d = true -> NoDup (d_accepting d).
Proof. unfold wf_dfa. intro H. apply andb_true_iff in H as [_ H]. now apply nodupb_NoDup. Qed.

Lemma used_ids_nodup base c : NoDup (map fst (used base c)).
Proof.
  unfold used, sub_ids. generalize (sub_order (c_main c)). intro l. generalize base at 1. intro n.
  revert n. induction l as [|k r IH]; intro n; cbn [number_from flat_map]; [constructor|].
  rewrite map_app. destruct (number_from_ids r (n + 1)) as [_ Hge].
  assert (Hlt : forall id, In id (map fst (flat_map (fun p : N * N => match nthN (c_subs c) (fst p) with
                                                     | Some sd => [(snd p, sd)] | None => [] end)
                                                    (number_from (n + 1) r))) -> (n + 1 <= id)%N).
  { intros id Hid. apply in_map_iff in Hid as [[id' sd] [<- Hin]]. apply in_flat_map in Hin as [[k' id''] [Hin H]].
    cbn [fst snd] in H. destruct (nthN (c_subs c) k'); [|destruct H]. destruct H as [H|[]]. injection H as -> _.
    cbn [fst]. exact (Hge _ _ Hin). }
  cbn [fst snd]. destruct (nthN (c_subs c) k) as [sd|]; cbn [map app fst]; [|apply IH].
  constructor; [|apply IH]. intro H. specialize (Hlt _ H). lia.
Qed.

(** end points of the edges of the main automaton: its states and the states of used clusters *)
Lemma main_edge_ends base c e :
  In e (x_edge_list base (c_subs c) (sub_ids base (c_main c)) (c_main c) "") ->
  let all := (names base "" (c_main c) ++ flat_map (sub_names base) (used base c))%list in
  In (fst (fst e)) all /\ In (snd (fst e)) all.
Proof.
  unfold x_edge_list. intro H. apply in_map_iff in H as [e4 [<- H]]. apply in_flat_map in H as [t [Ht H]].
  destruct (trans_in_states (c_main c) t Ht) as [Hf Hto].
  assert (Hn : forall s, In s (trans_states (c_main c)) ->
                         In (node_id "" (s + base))
                            (names base "" (c_main c) ++ flat_map (sub_names base) (used base c))).
  { intros s Hs. apply in_or_app. left. apply in_map_iff. exists s. split; [reflexivity|]. apply st_list_in. auto. }
  cbv zeta. destruct (x_edges_ends _ _ _ _ _ _ _ _ _ H (surjective_pairing _)) as [[-> ->]|(k & l & sd & id & _ & Esd & Eid & Hab)];
    [split; now apply Hn|].
  assert (Hs : forall s, In s (st_list sd) ->
                         In (node_id (sub_pre id) (s + base))
                            (names base "" (c_main c) ++ flat_map (sub_names base) (used base c))).
  { intros s Hs. apply in_or_app. right. apply in_flat_map. exists (id, sd). split.
    - apply used_in. exists k. split; [now apply assocN_In|exact Esd].
    - apply in_map_iff. now exists s. }
  destruct Hab as [[-> ->]|[(s & Hs' & ->) ->]].
  - split; [now apply Hn|]. apply Hs. now left.
  - split; [|now apply Hn]. apply Hs. apply st_list_in. auto.
Qed.

Lemma graph_of_x_items base c :
  wf_cdfa c = true ->
  graph_of_ast (mkast false true (Some "dfa") (items_stmts (x_items base c))) = x_graph base c.
Proof.
  intro Hwf. unfold graph_of_ast, x_items. cbn [a_body a_strict a_directed a_name].
  change (items_stmts (ILine (LAssign "rankdir" "LR") :: ?l)) with (SAssign "rankdir" "LR" :: items_stmts l).
  rewrite run_stmts_cons. cbn [run_stmt s_ndef s_edef s_gattrs s_members s_subs set_attr].
  rewrite !items_stmts_app, !run_stmts_app.
  pose proof Hwf as Hwf'. unfold wf_cdfa in Hwf'. apply andb_true_iff in Hwf' as [Hm _].
  pose proof (wf_dfa_acc _ Hm) as Hacc.
  rewrite (run_node_lines base (c_main c) ""); cbn [s_ndef s_edef s_gattrs s_members s_subs o_nodes o_edges];
    [|constructor|exact Hacc|now left|constructor|intro s; split; intros []].
  rewrite !app_nil_l.
  rewrite (run_clusters base (used base c) _ _ [""]);
    cbn [s_ndef s_edef s_gattrs s_members s_subs o_nodes o_edges].
  - rewrite run_edge_items; cbn [s_ndef s_edef s_gattrs s_members s_subs o_nodes o_edges].
    + reflexivity.
    + reflexivity.
    + intros e He. destruct (main_edge_ends base c e He) as [A B]. cbv zeta in A, B.
      rewrite ids_app, ids_x_nodes. fold (names base "" (c_main c)).
      assert (Hids : ids (flat_map (sub_nodes base) (used base c)) = flat_map (sub_names base) (used base c)).
      { unfold ids. rewrite flat_map_concat_map, concat_map, map_map, <- flat_map_concat_map.
        apply flat_map_ext. intro q. unfold sub_nodes. apply ids_x_nodes. }
      rewrite Hids. repeat split; assumption.
  - intros q Hq. apply wf_dfa_acc. exact (proj1 (used_wf base c q Hwf Hq)).
  - apply used_ids_nodup.
  - right. now exists "doublecircle".
  - reflexivity.
  - rewrite ids_x_nodes. apply (names_nodup base "" (c_main c)); [constructor|exact Hacc].
  - rewrite ids_x_nodes. apply (names_named base "" (c_main c)). constructor.
  - apply (names_named base "" (c_main c)). constructor.
  - intros q _ [E|[]]. symmetry in E. exact (sub_pre_not_main _ E).
Qed.
