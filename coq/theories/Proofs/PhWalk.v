(** [word_regex_verdict]: on the regex [from_expr] builds for a word, [check_tail_only] accepts iff
    [ph_last] holds of the word.  [check_tail_only_decides] (TailOnlySpec.v) turns acceptance into
    "no reachable [bad_pos]"; every position of the tree is reachable, so that is [nofollow] of the
    tree ([no_bad_iff_nofollow]), which PhExpr.v reads off the word.
    Then the walk [check_subwords] of the main regex: [check_ambiguities] accepts only if the regex
    of every [RSub] input at a reachable position passes [check_tail_only], and an error it returns
    is the error of such a regex. *)
From CG Require Import Base.Prelude Proofs.ListFacts Model.Ast Model.Regex.
From CG Require Import Proofs.RxLang Proofs.Glushkov Proofs.Useful Proofs.FromExpr Proofs.SubsetConstr.
From CG Require Import Proofs.TreeFacts Proofs.RegexFuel Proofs.RegexNoPanic Proofs.TailOnlySpec.
From CG Require Import Spec.Mistakes Proofs.C02Lang.
From CG Require Import Proofs.PhFollow Proofs.PhExpr.

Section Bridge.
  Variable r : regex.
  Variable t : rx.
  Hypothesis Htree : r_tree r = with_end t (r_end r).
  Hypothesis Hsh : shape t.
  Hypothesis Hor : ors_nonempty t = true.
  Hypothesis Hrg : in_range 0 (r_end r) (positions t).

  Let fw := regex_follow r.
  Let e := r_end r.

  Lemma end_not_pos : ~ In e (positions t).
  Proof. intro H. specialize (Hrg e H). unfold e in Hrg. lia. Qed.

  Lemma fw_tin p q : tin fw p q <-> In (p, q) (followpos (with_end t e)).
  Proof. unfold fw, regex_follow. rewrite Htree. apply follow_table_tin. Qed.

  Lemma first_in a : In a (firstpos t) -> In a (regex_first r).
  Proof. intro H. unfold regex_first. rewrite Htree. apply firstpos_with_end. left. exact H. Qed.

  Lemma chain_reach S a : reach_from r fw S a -> forall w, chain (followpos t) a w -> reach_from r fw S (last w a).
  Proof.
    intros Ha w. revert a Ha. induction w as [|b w IH]; intros a Ha C; [exact Ha|].
    cbn [chain] in C. destruct C as [Hab C]. rewrite last_cons. apply IH; [|exact C].
    assert (Ht : tin fw a b) by (apply fw_tin; apply followpos_with_end; left; exact Hab).
    destruct Ht as [s [Hs Hb]]. eapply rf_step; [exact Ha| |exact Hs|exact Hb].
    intro Heq. apply follow_pos in Hab. destruct Hab as [Hp _]. rewrite Heq in Hp. exact (end_not_pos Hp).
  Qed.

  Lemma positions_reachable p : In p (positions t) -> reachable_pos r p.
  Proof.
    intro Hp. destruct (reached_first t Hsh Hor p Hp) as (a & w & Ha & C & Hl). rewrite <- Hl.
    apply chain_reach; [|exact C]. apply rf_start. apply first_in. exact Ha.
  Qed.

  Lemma reachable_positions p : reachable_pos r p -> In p (positions t) \/ p = e.
  Proof.
    induction 1 as [p Hp|p s q Hr IH Hne Hs Hq].
    - unfold regex_first in Hp. rewrite Htree in Hp. apply firstpos_with_end in Hp.
      destruct Hp as [Hp|[_ Hp]]; [left; apply first_pos; exact Hp|right; exact Hp].
    - assert (Ht : tin fw p q) by (exists s; split; assumption).
      apply fw_tin in Ht. apply followpos_with_end in Ht. destruct Ht as [Ht|[_ Ht]]; [|right; exact Ht].
      apply follow_pos in Ht. left. tauto.
  Qed.

  Lemma not_only_end_ex s : ~ only_end r s -> exists q, In q s /\ q <> e.
  Proof.
    induction s as [|x s IH]; intro H.
    - exfalso. apply H. intros q [].
    - destruct (N.eq_dec x e) as [Heq|Hne].
      + destruct IH as [q [Hq Hne]].
        * intro Ho. apply H. intros q [Hq|Hq]; [rewrite <- Hq; exact Heq|apply Ho; exact Hq].
        * exists q. split; [right; exact Hq|exact Hne].
      + exists x. split; [left; reflexivity|exact Hne].
  Qed.

  Theorem no_bad_iff_nofollow :
    (forall p, reachable_pos r p -> ~ bad_pos r p) <-> nofollow (starI (r_inputs r)) t.
  Proof.
    rewrite (nofollow_with_end (starI (r_inputs r)) t e end_not_pos). split.
    - intros H p q Hpq Hm.
      destruct (N.eq_dec q e) as [Hq|Hq]; [exact Hq|]. exfalso.
      assert (Hpp : In p (positions t)).
      { apply followpos_with_end in Hpq. destruct Hpq as [Hpq|[Hl _]].
        - apply follow_pos in Hpq. tauto.
        - apply last_pos. exact Hl. }
      apply (H p (positions_reachable p Hpp)).
      apply fw_tin in Hpq. destruct Hpq as [s [Hs Hqs]].
      split; [intro Heq; rewrite Heq in Hpp; exact (end_not_pos Hpp)|]. split; [exact Hm|].
      exists s. split; [exact Hs|]. intro Ho. apply Hq. apply Ho. exact Hqs.
    - intros H p _ (Hne & Hst & s & Hs & Hno).
      destruct (not_only_end_ex s Hno) as [q [Hq Hqe]]. apply Hqe.
      apply (H p q); [|exact Hst]. apply fw_tin. exists s. split; assumption.
  Qed.
End Bridge.

Lemma finish_regex_good c pl cid ct cs pl1 :
  do_from_expr c empty_bst pl = Ok (cid, ct, cs, pl1) ->
  subword_free c = true -> ops_nonempty c = true ->
  let r := finish_regex cid ct cs in
  r_tree r = with_end ct (r_end r) /\ shape ct /\ ors_nonempty ct = true /\
  in_range 0 (r_end r) (positions ct) /\ r_inputs r = b_inputs cs.
Proof.
  intros E Hf Ho r.
  destruct (do_from_expr_shape _ _ _ _ _ _ _ E) as (_ & Sh & Rg). destruct (do_from_expr_PhG c _ _ _ _ _ _ E Hf Ho) as (Or & _).
  destruct (finish_regex_fields cid ct cs) as [Hi [He Ht]]. fold r in Hi, He, Ht.
  rewrite Ht, He. split; [reflexivity|]. split; [exact Sh|]. split; [exact Or|]. split; [|exact Hi].
  intros q Hq. specialize (Rg q Hq). cbn in Rg. lia.
Qed.

Theorem word_regex_verdict c pl cid ct cs pl1 :
  do_from_expr c empty_bst pl = Ok (cid, ct, cs, pl1) ->
  subword_free c = true -> ops_nonempty c = true ->
  (check_tail_only (finish_regex cid ct cs) = Ok tt <-> ph_last isref c = true).
Proof.
  intros E Hf Ho. destruct (finish_regex_good c pl cid ct cs pl1 E Hf Ho) as (Ht & Sh & Or & Rg & Hi).
  assert (Hok : pool_ok (finish_regex cid ct cs)).
  { split; [eapply finish_ranged; exact E|]. rewrite Hi.
    destruct (do_from_expr_pure _ _ _ _ _ _ _ Hf E) as [_ Hp]. apply Hp. constructor. }
  rewrite (check_tail_only_decides _ Hok), (no_bad_iff_nofollow _ ct Ht Sh Or Rg), Hi.
  destruct (do_from_expr_PhG c _ _ _ _ _ _ E Hf Ho) as (_ & _ & L).
  destruct (L (b_inputs cs) (prefix_refl _)) as [_ Ln]. exact Ln.
Qed.

From CG Require Import Base.Facts Proofs.DiagSpans Proofs.FollowWalk Proofs.PipelineSpans.

Lemma omap_In_iff {E A B} (h : A -> outcome E B) l : forall l', omap h l = Ok l' ->
  forall y, In y l' <-> exists x, In x l /\ h x = Ok y.
Proof.
  intros l' H y. apply omap_ok in H. split.
  - intro Hy. destruct (Forall2_In_r _ _ _ _ H Hy) as [x [Hx Hh]]. eauto.
  - intros [x [Hx Hh]]. destruct (Forall2_In_l _ _ _ _ H Hx) as [y' [Hy' Hh']]. congruence.
Qed.

Lemma all_checks_ok pl ids :
  all_checks pl ids = Ok tt -> forall rid, In rid ids -> exists x, nthN pl rid = Some x /\ check_tail_only x = Ok tt.
Proof.
  induction ids as [|a ids IH]; intros H rid Hr; [destruct Hr|]. cbn [all_checks] in H.
  destruct (nthN pl a) as [x|] eqn:Ex; [|discriminate].
  destruct (check_tail_only x) as [[]| | |] eqn:Ec; cbn [obind] in H; try discriminate.
  destruct Hr as [Hr|Hr]; [subst; eauto|apply IH; assumption].
Qed.

Lemma all_checks_err pl ids e :
  all_checks pl ids = Err e -> exists rid x, In rid ids /\ nthN pl rid = Some x /\ check_tail_only x = Err e.
Proof.
  induction ids as [|a ids IH]; intro H; [discriminate|]. cbn [all_checks] in H.
  destruct (nthN pl a) as [x|] eqn:Ex; [|discriminate].
  destruct (check_tail_only x) as [[]|e1| |] eqn:Ec; cbn [obind] in H; try discriminate.
  - destruct (IH H) as (rid & y & Hr & Hy & Hc). exists rid, y. split; [right; exact Hr|auto].
  - inversion H; subst. exists a, x. split; [left; reflexivity|auto].
Qed.

Section SubWalk.
  Variable r : regex.
  Variable fw : list (N * list N).
  Variable pl : pool.

  Definition sub_ok (p : N) : Prop :=
    forall rid l sp, nthN (r_inputs r) p = Some (RSub rid l sp) ->
                     exists x, nthN pl rid = Some x /\ check_tail_only x = Ok tt.
  Definition sub_err (p : N) (e : rerror) : Prop :=
    exists rid l sp x, nthN (r_inputs r) p = Some (RSub rid l sp) /\ nthN pl rid = Some x /\ check_tail_only x = Err e.

  Lemma inputs_of_pos S inputs : inputs_of r S = Ok inputs ->
    forall i, In i inputs <-> exists p, In p S /\ p <> r_end r /\ nthN (r_inputs r) p = Some i.
  Proof.
    unfold inputs_of. intros H i. rewrite (omap_In_iff _ _ _ H i). split.
    - intros [p [Hp Hi]]. apply filter_In in Hp. destruct Hp as [Hp Hne]. exists p. split; [exact Hp|]. split.
      + intro Heq. subst p. rewrite N.eqb_refl in Hne. discriminate.
      + unfold input_at in Hi. destruct (nthN (r_inputs r) p); inversion Hi; reflexivity.
    - intros [p (Hp & Hne & Hi)]. exists p. split.
      + apply filter_In. split; [exact Hp|]. apply negb_true_iff. apply N.eqb_neq. exact Hne.
      + unfold input_at. rewrite Hi. reflexivity.
  Qed.

  Lemma sub_ids_in inputs rid : In rid (sub_ids_of inputs) <-> exists l sp, In (RSub rid l sp) inputs.
  Proof.
    unfold sub_ids_of. rewrite in_flat_map. split.
    - intros [i [Hi Hr]]. destruct i; cbn in Hr; try contradiction. destruct Hr as [Hr|[]]. subst. eauto.
    - intros (l & sp & H). exists (RSub rid l sp). split; [exact H|left; reflexivity].
  Qed.

  (** what a finished call knows of a position it entered: the words that follow it are fine *)
  Definition follow_ok (u : N) : Prop :=
    forall s q, assocN u fw = Some s -> In q s -> q <> r_end r -> sub_ok q.
  Definition winv (s : list N * list N) : Prop := In (r_end r) (fst s) /\ Cinv pl (snd s).

  Lemma check_subwords_ok f : forall S visited checked v' c',
    In (r_end r) visited -> Cinv pl checked ->
    check_subwords r fw pl f S visited checked = Ok (v', c') ->
    Cinv pl c' /\ (forall p, In p S -> p <> r_end r -> sub_ok p) /\ ok_post fw follow_ok S visited v'.
  Proof.
    induction f as [|f IHf]; intros S visited checked v' c' Hend Hc H; [discriminate|].
    rewrite check_subwords_S in H.
    destruct (inputs_of r S) as [inputs| | |] eqn:Ei; cbn [obind] in H; try discriminate.
    pose proof (check_each_sub_char pl (sub_ids_of inputs) checked checked Hc Hc) as Hch.
    destruct (check_each_sub pl (filter (fun rid => negb (memN rid checked)) (sub_ids_of inputs)) checked)
      as [c1| | |]; cbn [obind] in H; try discriminate.
    destruct Hch as [Hall Hc1].
    assert (HS : forall p, In p S -> p <> r_end r -> sub_ok p).
    { intros p Hp Hne rid l sp Hn. apply (all_checks_ok _ _ Hall). apply sub_ids_in. exists l, sp.
      apply (inputs_of_pos _ _ Ei). exists p. auto. }
    apply (each_post _ _ _ fw _ follow_ok winv) in H as ((_ & Hc') & P); [auto| |split; assumption].
    intros p follow [v c] [v1 c2] [Hv Hc2] Hn Ha Hr. cbn [fst snd] in *.
    destruct (IHf _ (p :: v) _ _ _ (or_intror Hv) Hc2 Hr) as (Cc2 & HS1 & A1 & B1 & C1).
    split; [split; [apply A1; right; exact Hv|exact Cc2]|].
    split; [|split; [exact A1|split; [exact B1|exact C1]]].
    intros s q Hs Hq. rewrite Ha in Hs. injection Hs as <-. apply HS1. exact Hq.
  Qed.

  Lemma check_subwords_err f : forall S visited checked e,
    In (r_end r) visited -> Cinv pl checked ->
    check_subwords r fw pl f S visited checked = Err e ->
    exists u, reach_from r fw S u /\ u <> r_end r /\ sub_err u e.
  Proof.
    induction f as [|f IHf]; intros S visited checked e Hend Hc H; [discriminate|].
    rewrite check_subwords_S in H.
    destruct (inputs_of r S) as [inputs| | |] eqn:Ei; cbn [obind] in H; try discriminate.
    2:{ destruct (inputs_of_no_err _ _ _ Ei). }
    pose proof (check_each_sub_char pl (sub_ids_of inputs) checked checked Hc Hc) as Hch.
    destruct (check_each_sub pl (filter (fun rid => negb (memN rid checked)) (sub_ids_of inputs)) checked)
      as [c1|e1| |]; cbn [obind] in H; try discriminate.
    2:{ inversion H; subst e1. destruct (all_checks_err _ _ _ Hch) as (rid & x & Hr & Hx & Hce).
        apply sub_ids_in in Hr. destruct Hr as (l & sp & Hr). apply (inputs_of_pos _ _ Ei) in Hr.
        destruct Hr as (p & Hp & Hne & Hn). exists p. split; [apply rf_start; exact Hp|]. split; [exact Hne|].
        exists rid, l, sp, x. auto. }
    destruct Hch as [_ Hc1].
    apply (each_err _ _ _ fw _ winv) in H as (p & follow & [v c] & Hp & Hn & Ha & [Hv Hcv] & Hr); [| |split; assumption].
    2:{ intros p follow [v c] [v1 c2] [Hv Hc2] Hn Ha Hr. cbn [fst snd] in *.
        destruct (check_subwords_ok _ _ (p :: v) _ _ _ (or_intror Hv) Hc2 Hr) as (Cc2 & _ & A1 & _).
        split; [apply A1; right; exact Hv|exact Cc2]. }
    cbn [fst snd] in *. destruct (IHf _ (p :: v) _ _ (or_intror Hv) Hcv Hr) as (u & Hu & Hb). exists u. split; [|exact Hb].
    eapply reach_from_follow; [exact Hp|intros ->; contradiction|exact Ha|exact Hu].
  Qed.
End SubWalk.

Theorem check_ambiguities_accepts r pl :
  check_ambiguities r pl = Ok tt -> forall p, reachable_pos r p -> p <> r_end r -> sub_ok r pl p.
Proof.
  unfold check_ambiguities. intro H.
  destruct (check_subwords r (regex_follow r) pl (regex_fuel r) (regex_first r) [r_end r] []) as [[v' c']| | |] eqn:E;
    cbn [obind] in H; try discriminate.
  assert (He : In (r_end r) [r_end r]) by (left; reflexivity).
  assert (Hc0 : Cinv pl []) by (intros rid []).
  destruct (check_subwords_ok r (regex_follow r) pl _ _ _ _ _ _ He Hc0 E) as (_ & HS & A & B & C).
  intros p [p' Hp|p' s q Hr Hne' Hs Hq] Hne; [exact (HS _ Hp Hne)|].
  destruct (post_reached r (regex_follow r) _ _ _ (conj A (conj B C)) p' Hr) as [[Hin|Hno] D]; [|congruence].
  exact (proj1 (D Hne' Hin) s q Hs Hq Hne).
Qed.

Theorem check_ambiguities_rejects r pl e :
  check_ambiguities r pl = Err e -> exists p, reachable_pos r p /\ p <> r_end r /\ sub_err r pl p e.
Proof.
  unfold check_ambiguities. intro H.
  destruct (check_subwords r (regex_follow r) pl (regex_fuel r) (regex_first r) [r_end r] []) as [[v' c']|e'| |] eqn:E;
    cbn [obind] in H; try discriminate.
  inversion H; subst e'. eapply check_subwords_err; [| |exact E]; [left; reflexivity|intros rid []].
Qed.
