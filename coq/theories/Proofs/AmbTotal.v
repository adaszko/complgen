(** Totality of [check_ambiguity_best_effort] (Model/Ambiguity.v): on an automaton whose
    transitions only mention input ids of the input pool the walk returns [Ok tt] or an [Err],
    never [Panic] (the only site is [input_of]) and never [OutOfFuel].

    Fuel measure: the number of entries (with multiplicity) of [trans_states d] that are not yet
    visited.  A recursive call is made on a target [to] of a row of [d_trans d] that has not been
    visited, and marks it, so the measure strictly decreases; the visited list returned by a call
    extends the one given, so the measure never increases along the inner loop. *)
From CG Require Import Base.Prelude Base.Facts Model.Dfa Model.Ambiguity Spec.MinimizeSpec Proofs.Walks.

Definition inputs_in_range (d : dfa) : Prop :=
  forall s i t, In (i, t) (transitions_from d s) -> i < lenN (d_inputs d).

Lemma transitions_from_row d s i t :
  In (i, t) (transitions_from d s) ->
  exists row, In (s, row) (d_trans d) /\ In (i, t) row.
Proof.
  unfold transitions_from. destruct (assocN s (d_trans d)) as [row|] eqn:E.
  - intros H. exists row. split; [apply assocN_In; exact E|exact H].
  - intros [].
Qed.

Lemma wf_inputs_in_range : forall d, wf d -> inputs_in_range d.
Proof.
  intros d W s i t H. destruct (transitions_from_row _ _ _ _ H) as [row [Hr Hi]].
  exact (wf_inputs d W s row i t Hr Hi).
Qed.

Lemma transitions_from_target d s i t :
  In (i, t) (transitions_from d s) -> In t (trans_states d).
Proof.
  intros H. destruct (transitions_from_row _ _ _ _ H) as [row [Hr Hi]].
  unfold trans_states. apply in_flat_map. exists (s, row). split; [exact Hr|].
  cbn [fst snd]. right. change t with (snd (i, t)). apply in_map. exact Hi.
Qed.

Lemma input_of_ok d i : i < lenN (d_inputs d) -> exists x, input_of d i = Ok x.
Proof.
  intros Hlt. unfold input_of. destruct (nthN_lt_some _ _ Hlt) as [x ->]. exists x. reflexivity.
Qed.

Lemma check_state_total d s path : inputs_in_range d -> total (check_state d s path).
Proof.
  intros Hr. unfold check_state.
  apply (post_bind any).
  - apply post_omap. intros [i t] Hin. cbn [fst snd].
    destruct (input_of_ok d i (Hr s i t Hin)) as [x ->]. exact I.
  - intros ins _ _. cbv zeta.
    match goal with |- total (if ?c then _ else _) => destruct c end; [exact I|].
    match goal with |- total (match ?c with _ => _ end) => destruct c as [[[t l] r]|] end; exact I.
Qed.

Section WalkTotal.
  Variable d : dfa.
  Hypothesis Hrange : inputs_in_range d.

  Lemma walk_grows : forall fuel s visited path v',
    walk fuel d s visited path = Ok v' -> incl visited v'.
  Proof.
    induction fuel as [|f IHf]; intros s visited path v' H; [discriminate|]. cbn [walk] in H.
    apply obind_ok in H. destruct H as [u [_ H]].
    revert visited H. induction (transitions_from d s) as [|[i to] rest IH]; intros visited H.
    - injection H as <-. apply incl_refl.
    - cbn -[memN walk] in H. destruct (memN to visited); [exact (IH _ H)|].
      apply obind_ok in H. destruct H as [x [_ H]]. apply obind_ok in H. destruct H as [v1 [H1 H]].
      exact (incl_tran (incl_tl to (incl_refl _)) (incl_tran (IHf _ _ _ _ H1) (IH _ H))).
  Qed.

  Lemma walk_total_gen : forall fuel s visited path,
    (unvisited (trans_states d) visited < fuel)%nat -> total (walk fuel d s visited path).
  Proof.
    induction fuel as [|f IHf]; intros s visited path Hlt; [lia|]. cbn [walk].
    apply (post_bind any); [apply check_state_total; exact Hrange|]. intros u _ _.
    assert (Hle : (unvisited (trans_states d) visited <= f)%nat) by lia. clear Hlt.
    pose proof (fun i t => Hrange s i t) as Hi. pose proof (transitions_from_target d s) as Ht.
    revert visited Hle. induction (transitions_from d s) as [|[i to] rest IH]; intros visited Hle.
    - exact I.
    - cbn -[memN walk].
      specialize (IH (fun i t H => Hi i t (or_intror H)) (fun i t H => Ht i t (or_intror H))).
      destruct (memN to visited) eqn:Hm; [exact (IH _ Hle)|].
      destruct (input_of_ok d i (Hi i to (or_introl eq_refl))) as [x ->]. cbn [obind].
      pose proof (unvisited_mark _ to visited Hm (Ht i to (or_introl eq_refl))) as Hmk.
      apply (post_bind any); [apply IHf; lia|]. intros v1 H1 _. apply IH.
      pose proof (unvisited_antitone (trans_states d) _ _ (walk_grows _ _ _ _ _ H1)). lia.
  Qed.
End WalkTotal.

Theorem check_ambiguity_total : forall d, inputs_in_range d ->
  check_ambiguity_best_effort d = Ok tt \/ exists e, check_ambiguity_best_effort d = Err e.
Proof.
  intros d Hr. unfold check_ambiguity_best_effort.
  assert (Hlt : (unvisited (trans_states d) [] < S (S (List.length (trans_states d))))%nat).
  { pose proof (unvisited_le_length (trans_states d) []). lia. }
  destruct (post_cases _ (walk_total_gen d Hr _ (d_start d) [] [] Hlt)) as [[v ->]|[e ->]]; cbn [obind].
  - left. reflexivity.
  - right. exists e. reflexivity.
Qed.

Corollary check_ambiguity_no_panic : forall d, inputs_in_range d ->
  forall site, check_ambiguity_best_effort d <> Panic site.
Proof. intros d Hr site. destruct (check_ambiguity_total d Hr) as [->|[e ->]]; discriminate. Qed.

Corollary check_ambiguity_fuel : forall d, inputs_in_range d ->
  check_ambiguity_best_effort d <> OutOfFuel.
Proof. intros d Hr. destruct (check_ambiguity_total d Hr) as [->|[e ->]]; discriminate. Qed.

Corollary check_ambiguity_total_wf : forall d, wf d ->
  check_ambiguity_best_effort d = Ok tt \/ exists e, check_ambiguity_best_effort d = Err e.
Proof. intros d W. apply check_ambiguity_total. apply wf_inputs_in_range. exact W. Qed.

Print Assumptions check_ambiguity_total.
Print Assumptions check_ambiguity_total_wf.
