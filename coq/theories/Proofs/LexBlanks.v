(** [multiblanks0] / [multiblanks1] characterised character by character ([skipb]), and what they
    do on a printed gap. *)
From CG Require Import Base.Prelude Base.Facts Model.Ast Model.Lexer Model.Parser Spec.Printer Spec.Spans Proofs.LexBase.
From CGgen Require Import Consts.

(** [com] = inside a comment *)
Fixpoint skipb (com : bool) (s : string) (p : pos) : string * pos :=
  match s with
  | EmptyString => (EmptyString, p)
  | String c r =>
      if com then
        (if Ascii.eqb c comment_end_char then skipb false r (adv_char c p) else skipb true r (adv_char c p))
      else if is_multispace c || Ascii.eqb c form_feed_char then skipb false r (adv_char c p)
      else if Ascii.eqb c comment_start_char then skipb true r (adv_char c p)
      else (s, p)
  end.

Definition skip (i : input) : input :=
  let (s, p) := skipb false (rest i) (at_ i) in mkin s p.

Definition skips (s : string) : string := fst (skipb false s pos0).

Lemma comment_end_multispace : is_multispace comment_end_char = true.
Proof. reflexivity. Qed.

Lemma span_while_app : forall f s a b, span_while f s = (a, b) -> s = append a b.
Proof.
  induction s; cbn; intros a0 b H.
  - inversion H; reflexivity.
  - destruct (f a).
    + destruct (span_while f s) as [x y] eqn:E. inversion H; subst. cbn. f_equal. apply IHs; reflexivity.
    + inversion H; reflexivity.
Qed.

Lemma span_while_stop : forall f s a b, span_while f s = (a, b) -> hd_in (fun c => negb (f c)) b = true.
Proof.
  induction s; cbn; intros a0 b H.
  - inversion H; reflexivity.
  - destruct (f a) eqn:F.
    + destruct (span_while f s) as [x y] eqn:E. inversion H; subst. eapply IHs; reflexivity.
    + inversion H; subst. cbn. rewrite F; reflexivity.
Qed.

Lemma span_while_all : forall f s a b, span_while f s = (a, b) -> all_chars f a = true.
Proof.
  induction s; cbn; intros a0 b H.
  - inversion H; reflexivity.
  - destruct (f a) eqn:F.
    + destruct (span_while f s) as [x y] eqn:E. inversion H; subst. cbn. rewrite F. eapply IHs; reflexivity.
    + inversion H; reflexivity.
Qed.

Lemma span_while_exact : forall f a b,
    all_chars f a = true -> hd_in (fun c => negb (f c)) b = true -> span_while f (append a b) = (a, b).
Proof.
  induction a; cbn; intros b Ha Hb.
  - destruct b; cbn in *; auto. destruct (f a); [discriminate|reflexivity].
  - apply andb_true_iff in Ha as [H1 H2]. rewrite H1, (IHa b H2 Hb). reflexivity.
Qed.

Lemma span_while_len : forall f s a b, span_while f s = (a, b) ->
    String.length s = (String.length a + String.length b)%nat.
Proof. intros. rewrite (span_while_app _ _ _ _ H). apply length_append. Qed.

Lemma take_while1_ok : forall f i a i', take_while1 f i = Ok (a, i') ->
    a <> EmptyString /\ rest i = append a (rest i') /\ at_ i' = adv_str a (at_ i)
    /\ all_chars f a = true /\ hd_in (fun c => negb (f c)) (rest i') = true.
Proof.
  intros f [s q] a i' H. unfold take_while1, take_while in H. cbn [rest at_] in *.
  destruct (span_while f s) as [x y] eqn:E. destruct x; [discriminate|]. inversion H; subst. cbn [rest at_].
  split; [discriminate|]. split; [exact (span_while_app _ _ _ _ E)|]. split; [reflexivity|].
  split; [exact (span_while_all _ _ _ _ E)|exact (span_while_stop _ _ _ _ E)].
Qed.

Lemma skip_ws_run : forall s p a b, span_while is_multispace s = (a, b) ->
    skipb false s p = skipb false b (adv_str a p).
Proof.
  induction s; cbn; intros p a0 b H.
  - inversion H; reflexivity.
  - destruct (is_multispace a) eqn:M.
    + destruct (span_while is_multispace s) as [x y] eqn:E. inversion H; subst. cbn. apply IHs; reflexivity.
    + inversion H; subst. cbn. rewrite M. reflexivity.
Qed.

Lemma skip_comment_run : forall s p a b,
    span_while (fun c => negb (Ascii.eqb c comment_end_char)) s = (a, b) ->
    skipb true s p = skipb false b (adv_str a p).
Proof.
  induction s; cbn [span_while]; intros p a0 b H.
  - inversion H; reflexivity.
  - destruct (Ascii.eqb a comment_end_char) eqn:M; cbn [negb] in H.
    + inversion H; subst. cbn [skipb adv_str]. rewrite M.
      assert (is_multispace a = true) as -> by (apply Ascii.eqb_eq in M; subst; exact comment_end_multispace).
      reflexivity.
    + destruct (span_while _ s) as [x y] eqn:E. inversion H; subst. cbn [adv_str skipb]. rewrite M. apply IHs; reflexivity.
Qed.

Lemma take_while1_exact : forall f a b p,
    a <> EmptyString -> all_chars f a = true -> hd_in (fun c => negb (f c)) b = true ->
    take_while1 f (mkin (append a b) p) = Ok (a, mkin b (adv_str a p)).
Proof.
  intros f a b p Na Ha Hb. unfold take_while1, take_while. cbn [rest at_]. rewrite (span_while_exact f a b Ha Hb).
  destruct a; [congruence|reflexivity].
Qed.

Lemma blanks_spec : forall i,
    if hd_is blank_start (rest i)
    then exists i1, blanks i = Ok (tt, i1) /\ skip i1 = skip i
                    /\ (String.length (rest i1) < String.length (rest i))%nat
    else blanks i = Err tt.
Proof.
  intros [s p]. unfold blanks, take_while1, take_while, comment, form_feed, char_p, skip. cbn [rest at_].
  destruct s as [|c r]; cbn [hd_is].
  - cbn. reflexivity.
  - unfold blank_start.
    destruct (is_multispace c) eqn:M.
    + cbn [orb]. cbn [span_while]. rewrite M.
      destruct (span_while is_multispace r) as [a b] eqn:E.
      eexists; split; [reflexivity|]. cbn [rest at_]. split.
      * cbn [skipb]. rewrite M. cbn [orb]. rewrite (skip_ws_run r _ a b E). reflexivity.
      * pose proof (span_while_len _ _ _ _ E). cbn. lia.
    + cbn [orb]. cbn [span_while]. rewrite M. cbn [obind fail].
      destruct (Ascii.eqb c form_feed_char) eqn:F; cbn [orb].
      * (* form feed; it is not the comment character *)
        destruct (Ascii.eqb c comment_start_char) eqn:C.
        { apply Ascii.eqb_eq in F, C. subst c. exfalso. revert C. vm_compute. discriminate. }
        cbn [obind]. eexists; split; [reflexivity|]. cbn [rest at_ skipb]. rewrite M, F. cbn [orb].
        split; [reflexivity| cbn; lia].
      * destruct (Ascii.eqb c comment_start_char) eqn:C.
        { cbn [obind rest at_]. unfold take_while. cbn [rest at_].
          destruct (span_while (fun c0 => negb (Ascii.eqb c0 comment_end_char)) r) as [a b] eqn:E.
          eexists; split; [reflexivity|]. cbn [rest at_ skipb]. rewrite M, F, C. cbn [orb]. split.
          - rewrite (skip_comment_run r _ a b E). reflexivity.
          - pose proof (span_while_len _ _ _ _ E). cbn. lia. }
        { cbn [obind]. reflexivity. }
Qed.

Lemma skipb_no_blank : forall s p, hd_in (fun c => negb (blank_start c)) s = true -> skipb false s p = (s, p).
Proof.
  intros [|c r] p H; cbn in *; auto. unfold blank_start in H.
  destruct (is_multispace c); cbn in H; [discriminate|].
  destruct (Ascii.eqb c form_feed_char); cbn in H; [discriminate|].
  destruct (Ascii.eqb c comment_start_char); cbn in H; [discriminate|]. reflexivity.
Qed.

Lemma hd_is_in : forall P s, hd_is P s = false -> hd_in (fun c => negb (P c)) s = true.
Proof. intros P [|c r]; cbn; auto. intros ->; reflexivity. Qed.

Lemma multiblanks0_f_spec : forall fuel i, (String.length (rest i) < fuel)%nat ->
    multiblanks0_f fuel i = Ok (tt, skip i).
Proof.
  induction fuel; intros i H; [lia|]. cbn [multiblanks0_f].
  pose proof (blanks_spec i) as B. destruct (hd_is blank_start (rest i)) eqn:E.
  - destruct B as (i1 & -> & S1 & L1). rewrite IHfuel by lia. rewrite S1. reflexivity.
  - rewrite B. unfold skip. rewrite skipb_no_blank by (apply hd_is_in; assumption). destruct i; reflexivity.
Qed.

Lemma multiblanks0_spec : forall i, multiblanks0 i = Ok (tt, skip i).
Proof. intros. unfold multiblanks0. apply multiblanks0_f_spec. lia. Qed.

Lemma multiblanks1_spec : forall i,
    multiblanks1 i = if hd_is blank_start (rest i) then Ok (tt, skip i) else Err tt.
Proof.
  intros i. unfold multiblanks1. pose proof (blanks_spec i) as B.
  destruct (hd_is blank_start (rest i)).
  - destruct B as (i1 & -> & S1 & _). cbn [obind]. rewrite multiblanks0_spec, S1. reflexivity.
  - rewrite B. reflexivity.
Qed.

Lemma no_lf_comment : forall body r p,
    skipb true (append (no_lf body) (String LF r)) p
    = skipb false r (adv_str (append (no_lf body) (String LF EmptyString)) p).
Proof.
  induction body; cbn [no_lf append]; intros.
  - cbn. change (Ascii.eqb LF comment_end_char) with true. cbn. reflexivity.
  - destruct (Ascii.eqb a LF) eqn:E; [apply IHbody|].
    cbn [append skipb adv_str]. change comment_end_char with LF. rewrite E. apply IHbody.
Qed.

Lemma skipb_blank_text : forall b r p,
    skipb false (append (blank_text b) r) p = skipb false r (adv_str (blank_text b) p).
Proof.
  intros [w| |body] r p; cbn [blank_text append].
  - destruct w; reflexivity.
  - reflexivity.
  - cbn [skipb]. change (is_multispace HASH || Ascii.eqb HASH form_feed_char) with false.
    change (Ascii.eqb HASH comment_start_char) with true. cbn iota.
    rewrite append_assoc. cbn [append]. rewrite no_lf_comment. cbn [adv_str]. reflexivity.
Qed.

Lemma skipb_gap : forall g r p,
    skipb false (append (gap_text g) r) p = skipb false r (adv_str (gap_text g) p).
Proof.
  induction g; cbn [gap_text append]; intros; auto.
  rewrite append_assoc, skipb_blank_text, IHg, adv_str_app. reflexivity.
Qed.

Lemma skip_gap : forall g r p,
    skip (mkin (append (gap_text g) r) p) = skip (mkin r (adv_str (gap_text g) p)).
Proof. intros. unfold skip. cbn [rest at_]. rewrite skipb_gap. reflexivity. Qed.

Lemma skip_no_blank : forall s p, hd_in (fun c => negb (blank_start c)) s = true -> skip (mkin s p) = mkin s p.
Proof. intros. unfold skip. cbn [rest at_]. rewrite skipb_no_blank; auto. Qed.

Definition nonblank (s : string) : Prop := hd_in (fun ch => negb (blank_start ch)) s = true.

Lemma multiblanks0_gap : forall g s p, nonblank s ->
    multiblanks0 (mkin (append (gap_text g) s) p) = Ok (tt, mkin s (adv_str (gap_text g) p)).
Proof. intros. rewrite multiblanks0_spec, skip_gap, skip_no_blank by assumption. reflexivity. Qed.

Lemma multiblanks0_nonblank : forall s p, nonblank s -> multiblanks0 (mkin s p) = Ok (tt, mkin s p).
Proof. intros s p. exact (multiblanks0_gap [] s p). Qed.

Lemma skipb_fst_pos : forall s com p q, fst (skipb com s p) = fst (skipb com s q).
Proof.
  induction s; cbn; intros; auto.
  destruct com.
  - destruct (Ascii.eqb a comment_end_char); auto.
  - destruct (is_multispace a || Ascii.eqb a form_feed_char); auto.
    destruct (Ascii.eqb a comment_start_char); auto.
Qed.

Lemma rest_skip : forall s p, rest (skip (mkin s p)) = skips s.
Proof.
  intros. unfold skip, skips. cbn [rest at_].
  rewrite (skipb_fst_pos s false pos0 p). destruct (skipb false s p); reflexivity.
Qed.

Lemma skips_gap : forall g r, skips (append (gap_text g) r) = skips r.
Proof.
  intros. unfold skips. rewrite skipb_gap. apply skipb_fst_pos.
Qed.

Lemma skips_no_blank : forall s, hd_in (fun c => negb (blank_start c)) s = true -> skips s = s.
Proof. intros. unfold skips. rewrite skipb_no_blank; auto. Qed.

Lemma post_gap_hd : forall g r,
    hd_in no_unary r = true -> hd_in no_unary (append (gap_text (post_gap g)) r) = true.
Proof.
  intros [|b g] r H; cbn; auto.
  destruct b as [w| |body]; cbn; auto. destruct w; reflexivity.
Qed.

Lemma gap1_hd : forall g r, hd_is ws_start (append (gap_text (gap1 g)) r) = true.
Proof.
  intros [|b g] r; cbn; auto.
  destruct b as [w| |body]; cbn; auto. destruct w; reflexivity.
Qed.

Lemma gap1_blank : forall g s, hd_is blank_start (append (gap_text (gap1 g)) s) = true.
Proof.
  intros. pose proof (gap1_hd g s) as H. destruct (append (gap_text (gap1 g)) s); [discriminate|].
  apply ws_blank. exact H.
Qed.

Lemma gap1_no_unary : forall g s, hd_in no_unary (append (gap_text (gap1 g)) s) = true.
Proof.
  intros. pose proof (gap1_hd g s) as H. destruct (append (gap_text (gap1 g)) s); [discriminate|].
  apply ws_no_unary. exact H.
Qed.

Lemma multiblanks1_gap1 : forall g s p, nonblank s ->
    multiblanks1 (mkin (append (gap_text (gap1 g)) s) p) = Ok (tt, mkin s (adv_str (gap_text (gap1 g)) p)).
Proof.
  intros. rewrite multiblanks1_spec. cbn [rest]. rewrite gap1_blank, skip_gap, skip_no_blank by assumption.
  reflexivity.
Qed.

Lemma skipb_adv : forall s com q, exists w, s = append w (fst (skipb com s q)) /\ snd (skipb com s q) = adv_str w q.
Proof.
  induction s as [|c r IH]; intros com q; cbn [skipb].
  - exists EmptyString. split; reflexivity.
  - destruct com.
    + destruct (Ascii.eqb c comment_end_char);
        [destruct (IH false (adv_char c q)) as (w & E & P)|destruct (IH true (adv_char c q)) as (w & E & P)];
        exists (String c w); cbn [append adv_str]; split; congruence.
    + destruct (is_multispace c || Ascii.eqb c form_feed_char).
      { destruct (IH false (adv_char c q)) as (w & E & P). exists (String c w). cbn [append adv_str]. split; congruence. }
      destruct (Ascii.eqb c comment_start_char).
      { destruct (IH true (adv_char c q)) as (w & E & P). exists (String c w). cbn [append adv_str]. split; congruence. }
      exists EmptyString. split; reflexivity.
Qed.

Lemma skip_adv : forall i, adv i (skip i).
Proof.
  intros [s q]. unfold skip. cbn [rest at_]. destruct (skipb_adv s false q) as (w & E & P).
  destruct (skipb false s q) as [s' q']. cbn [fst snd] in *. exists w. cbn [rest at_]. split; auto.
Qed.
