(** Elementary facts about the data structures of Model/Minimize.v: bitmaps as increasing lists,
    the intern pool, hash sets as lists, maps as association lists. *)
From CG Require Import Base.Prelude Base.Facts Model.Dfa Model.Minimize Spec.DfaEquiv Spec.MinimizeSpec
  Proofs.ListFacts.

Lemma sortedNb_iff l : sortedNb l = true <-> sortedN l.
Proof.
  induction l as [|x r IH]; cbn [sortedNb sortedN]; [tauto|].
  rewrite andb_true_iff, forallb_forall, IH. split; intros [A B]; split; auto.
  - intros y Hy. apply N.ltb_lt. apply A. exact Hy.
  - intros y Hy. apply N.ltb_lt. apply A. exact Hy.
Qed.

Lemma sortedN_filter f l : sortedN l -> sortedN (filter f l).
Proof.
  induction l as [|x r IH]; cbn [filter sortedN]; [tauto|].
  intros [A B]. destruct (f x); cbn [sortedN]; auto.
  split; auto. intros y Hy. apply filter_In in Hy. apply A. tauto.
Qed.

Lemma sortedN_NoDup l : sortedN l -> NoDup l.
Proof.
  induction l as [|x r IH]; cbn [sortedN]; intros H; constructor.
  - intro Hx. destruct H as [A _]. specialize (A x Hx). lia.
  - apply IH. tauto.
Qed.

Lemma sortedN_ext a b : sortedN a -> sortedN b -> (forall x, In x a <-> In x b) -> a = b.
Proof.
  revert b. induction a as [|x r IH]; intros b Sa Sb E.
  - destruct b as [|y r']; [reflexivity|]. exfalso. apply (proj2 (E y)). left. reflexivity.
  - destruct b as [|y r']; [exfalso; apply (proj1 (E x)); left; reflexivity|].
    cbn [sortedN] in Sa, Sb. destruct Sa as [A Sa], Sb as [B Sb].
    assert (x = y).
    { destruct (proj1 (E x) (or_introl eq_refl)) as [H|H]; [auto|].
      destruct (proj2 (E y) (or_introl eq_refl)) as [H'|H']; [auto|].
      specialize (A _ H'). specialize (B _ H). lia. }
    subst y. f_equal. apply IH; auto.
    intro z. split; intro Hz.
    + destruct (proj1 (E z) (or_intror Hz)) as [H|H]; [|exact H]. subst z. specialize (A _ Hz). lia.
    + destruct (proj2 (E z) (or_intror Hz)) as [H|H]; [|exact H]. subst z. specialize (B _ Hz). lia.
Qed.

Lemma bm_insert_In x s y : In y (bm_insert x s) <-> y = x \/ In y s.
Proof.
  induction s as [|z r IH]; cbn [bm_insert].
  - cbn. intuition.
  - destruct (N.ltb_spec x z).
    + cbn [In]. intuition.
    + destruct (N.eqb_spec x z).
      * subst. cbn [In]. intuition.
      * cbn [In]. rewrite IH. intuition.
Qed.

Lemma bm_insert_sorted x s : sortedN s -> sortedN (bm_insert x s).
Proof.
  induction s as [|z r IH]; cbn [bm_insert sortedN].
  - intros _. split; [intros y []|exact I].
  - intros [A B]. destruct (N.ltb_spec x z).
    + cbn [sortedN]. split; [|split; assumption].
      intros y [Hy|Hy]; [subst; assumption|]. specialize (A _ Hy). lia.
    + destruct (N.eqb_spec x z); cbn [sortedN]; [split; assumption|].
      split; [|apply IH; assumption].
      intros y Hy. apply bm_insert_In in Hy. destruct Hy as [Hy|Hy]; [subst; lia|auto].
Qed.

Lemma bm_from_iter_gen l s y :
  In y (fold_left (fun s x => bm_insert x s) l s) <-> In y l \/ In y s.
Proof.
  revert s. induction l as [|x r IH]; intro s; cbn [fold_left].
  - cbn. tauto.
  - rewrite IH, bm_insert_In. cbn [In]. intuition.
Qed.

Lemma bm_from_iter_In l y : In y (bm_from_iter l) <-> In y l.
Proof. unfold bm_from_iter. rewrite bm_from_iter_gen. cbn. tauto. Qed.

Lemma bm_from_iter_sorted l : sortedN (bm_from_iter l).
Proof. apply (fold_left_inv sortedN); [exact I|]. intros s x. apply bm_insert_sorted. Qed.

Lemma bm_inter_In a b y : In y (bm_inter a b) <-> In y a /\ In y b.
Proof. unfold bm_inter. rewrite filter_In, memN_In. tauto. Qed.

Lemma bm_diff_In a b y : In y (bm_diff a b) <-> In y a /\ ~ In y b.
Proof.
  unfold bm_diff. rewrite filter_In, negb_true_iff, memN_false. tauto.
Qed.

Lemma bm_diff_inter a b : bm_diff a (bm_inter a b) = bm_diff a b.
Proof.
  unfold bm_diff. apply filter_ext_in. intros x Hx. f_equal. apply eq_true_iff_eq.
  rewrite !memN_In, bm_inter_In. tauto.
Qed.

Lemma bm_is_disjoint_true a b : bm_is_disjoint a b = true <-> (forall y, In y a -> ~ In y b).
Proof.
  unfold bm_is_disjoint. rewrite forallb_forall. split; intros H y Hy.
  - apply memN_false. apply negb_true_iff. apply H. exact Hy.
  - apply negb_true_iff. apply memN_false. apply H. exact Hy.
Qed.

Lemma bm_is_disjoint_false a b : bm_is_disjoint a b = false <-> exists y, In y a /\ In y b.
Proof.
  unfold bm_is_disjoint. split.
  - intro H. induction a as [|x r IH]; cbn [forallb] in H; [discriminate|].
    apply andb_false_iff in H. destruct H as [H|H].
    + apply negb_false_iff in H. apply memN_In in H. exists x. split; [left; reflexivity|exact H].
    + destruct (IH H) as [y [A B]]. exists y. split; [right; exact A|exact B].
  - intros [y [A B]]. destruct (forallb _ a) eqn:E; [|reflexivity].
    rewrite forallb_forall in E. specialize (E y A). apply negb_true_iff, memN_false in E. contradiction.
Qed.

Lemma bm_min_spec s m : sortedN s -> bm_min s = Some m -> In m s /\ forall y, In y s -> m <= y.
Proof.
  destruct s as [|x r]; cbn; [discriminate|]. intros [A _] E. inversion E; subst.
  split; [left; reflexivity|]. intros y [Hy|Hy]; [subst; lia|]. specialize (A _ Hy). lia.
Qed.

Lemma bm_max_spec s m : sortedN s -> bm_max s = Some m -> In m s /\ forall y, In y s -> y <= m.
Proof.
  induction s as [|x r IH]; [discriminate|].
  destruct r as [|x' r'].
  - cbn. intros _ E. inversion E; subst. split; [left; reflexivity|]. intros y [Hy|[]]. subst. lia.
  - intros S E. change (bm_max (x' :: r') = Some m) in E.
    destruct S as [A S]. destruct (IH S E) as [I1 I2]. split; [right; exact I1|].
    intros y [Hy|Hy]; [|apply I2; exact Hy]. subst y. specialize (A m I1). lia.
Qed.

Lemma bm_min_some s : s <> [] -> exists m, bm_min s = Some m.
Proof. destruct s; [congruence|]. intros _. eexists. reflexivity. Qed.

Lemma bm_max_some s : s <> [] -> exists m, bm_max s = Some m.
Proof.
  induction s as [|x r IH]; [congruence|]. intros _.
  destruct r as [|y r']; [exists x; reflexivity|].
  destruct IH as [m Hm]; [congruence|]. exists m. exact Hm.
Qed.

Lemma bm_eqb_iff a b : bm_eqb a b = true <-> a = b.
Proof.
  revert b. induction a as [|x r IH]; intros [|y r']; cbn [bm_eqb]; try (split; congruence).
  rewrite andb_true_iff, N.eqb_eq, IH. split; [intros [-> ->]; reflexivity|intro E; inversion E; auto].
Qed.

Lemma bm_eqb_refl a : bm_eqb a a = true.
Proof. apply bm_eqb_iff. reflexivity. Qed.

Lemma bm_eqb_false a b : bm_eqb a b = false <-> a <> b.
Proof. rewrite <- bm_eqb_iff. destruct (bm_eqb a b); split; congruence. Qed.

Lemma hs_insert_In x s y : In y (hs_insert x s) <-> y = x \/ In y s.
Proof.
  unfold hs_insert. destruct (memN x s) eqn:E.
  - apply memN_In in E. split; [auto|]. intros [->|H]; assumption.
  - rewrite in_app_iff. cbn [In]. intuition.
Qed.

Lemma hs_remove_In x s y : In y (hs_remove x s) <-> y <> x /\ In y s.
Proof.
  unfold hs_remove. rewrite filter_In, negb_true_iff, N.eqb_neq. tauto.
Qed.

Lemma hs_insert_new x s : ~ In x s -> hs_insert x s = s ++ [x].
Proof. intro H. unfold hs_insert. apply memN_false in H. rewrite H. reflexivity. Qed.

Lemma memN_hs_insert x y s : memN x (hs_insert y s) = N.eqb x y || memN x s.
Proof.
  apply eq_true_iff_eq. rewrite orb_true_iff, N.eqb_eq, !memN_In. apply hs_insert_In.
Qed.

Lemma memN_hs_remove x y s : memN x (hs_remove y s) = negb (N.eqb x y) && memN x s.
Proof.
  apply eq_true_iff_eq. rewrite andb_true_iff, negb_true_iff, N.eqb_neq, !memN_In. apply hs_remove_In.
Qed.

Lemma hs_insert_NoDup x s : NoDup s -> NoDup (hs_insert x s).
Proof.
  intro H. unfold hs_insert. destruct (memN x s) eqn:E; [exact H|].
  apply memN_false in E. apply NoDup_snoc; auto.
Qed.

Lemma hs_remove_NoDup x s : NoDup s -> NoDup (hs_remove x s).
Proof. intro H. unfold hs_remove. apply NoDup_filter. exact H. Qed.

Lemma pool_find_some set pool i j :
  pool_find set pool i = Some j -> exists k, j = i + N.of_nat k /\ nth_error pool k = Some set.
Proof.
  revert i. induction pool as [|s r IH]; intros i; cbn [pool_find]; [discriminate|].
  destruct (bm_eqb s set) eqn:E.
  - intro H. inversion H; subst. apply bm_eqb_iff in E. subst. exists 0%nat. split; [cbn; lia|reflexivity].
  - intro H. destruct (IH _ H) as [k [A B]]. exists (S k). split; [lia|exact B].
Qed.

Lemma pool_find_none set pool i : pool_find set pool i = None -> ~ In set pool.
Proof.
  revert i. induction pool as [|s r IH]; intros i; cbn [pool_find]; [auto|].
  destruct (bm_eqb s set) eqn:E; [discriminate|].
  intros H [F|F]; [subst; rewrite bm_eqb_refl in E; discriminate|].
  exact (IH _ H F).
Qed.

Lemma pool_find_not_in set pool i : ~ In set pool -> pool_find set pool i = None.
Proof.
  revert i. induction pool as [|s r IH]; intros i H; cbn [pool_find]; [reflexivity|].
  destruct (bm_eqb s set) eqn:E.
  - apply bm_eqb_iff in E. subst. exfalso. apply H. left. reflexivity.
  - apply IH. intro F. apply H. right. exact F.
Qed.

Lemma pool_intern_new pool set : ~ In set pool -> pool_intern pool set = (pool ++ [set], lenN pool).
Proof. intro H. unfold pool_intern. rewrite (pool_find_not_in _ _ _ H). reflexivity. Qed.

Lemma nthN_In {A} (l : list A) i x : nthN l i = Some x -> In x l.
Proof. exact (Facts.nthN_In l i x). Qed.

Lemma pool_intern_spec pool set pool' id :
  pool_intern pool set = (pool', id) ->
  pool_lookup pool' id = Some set
  /\ (exists ext, pool' = pool ++ ext)
  /\ (NoDup pool -> NoDup pool')
  /\ (forall j b, pool_lookup pool j = Some b -> pool_lookup pool' j = Some b).
Proof.
  unfold pool_intern, pool_lookup. destruct (pool_find set pool 0) as [j|] eqn:E; intro H; inversion H; subst.
  - apply pool_find_some in E. destruct E as [k [A B]]. subst.
    repeat split; auto.
    + unfold nthN. replace (N.to_nat (0 + N.of_nat k)) with k by lia. exact B.
    + exists []. rewrite app_nil_r. reflexivity.
  - apply pool_find_none in E. repeat split.
    + apply nthN_app_mid.
    + exists [set]. reflexivity.
    + intro ND. apply NoDup_snoc; assumption.
    + intros j b Hj. rewrite nthN_app_l; [exact Hj|]. eapply nthN_some_lt; eauto.
Qed.

(** The common shape of [HashMap::entry] and [IndexMap::insert] on an association list: update the
    value in place, or append a new entry. *)
Fixpoint aupd {V} (k : N) (g : option V -> V) (m : list (N * V)) : list (N * V) :=
  match m with
  | [] => [(k, g None)]
  | (k', v) :: r => if N.eqb k' k then (k', g (Some v)) :: r else (k', v) :: aupd k g r
  end.

Lemma aupd_assoc {V} k g (m : list (N * V)) j :
  assocN j (aupd k g m) = if N.eqb j k then Some (g (assocN k m)) else assocN j m.
Proof.
  induction m as [|[k' v] r IH]; cbn [aupd assocN]; [reflexivity|].
  rewrite (N.eqb_sym k k'). destruct (N.eqb_spec k' k) as [->|Hn]; cbn [assocN].
  - destruct (N.eqb j k); reflexivity.
  - rewrite IH. destruct (N.eqb_spec j k') as [->|_]; [|reflexivity].
    rewrite (proj2 (N.eqb_neq k' k) Hn). reflexivity.
Qed.

Lemma aupd_keys {V} k g (m : list (N * V)) :
  map fst (aupd k g m) = map fst m ++ (if memN k (map fst m) then [] else [k]).
Proof.
  induction m as [|[k' v] r IH]; cbn [aupd map fst app]; [reflexivity|].
  change (memN k (k' :: map fst r)) with (N.eqb k k' || memN k (map fst r)). rewrite (N.eqb_sym k k').
  destruct (N.eqb k' k); cbn [map fst orb]; [rewrite app_nil_r|rewrite IH]; reflexivity.
Qed.

Lemma aupd_NoDup {V} k g (m : list (N * V)) : NoDup (map fst m) -> NoDup (map fst (aupd k g m)).
Proof.
  intro ND. rewrite aupd_keys. destruct (memN k (map fst m)) eqn:E; [rewrite app_nil_r; exact ND|].
  apply NoDup_snoc; [exact ND|apply memN_false, E].
Qed.

Lemma aupd_In {V} k g (m : list (N * V)) j v :
  In (j, v) (aupd k g m) ->
  In (j, v) m \/ (j = k /\ exists o, v = g o /\ forall v0, o = Some v0 -> In (k, v0) m).
Proof.
  induction m as [|[k' v'] r IH]; cbn [aupd].
  - intros [E|[]]. inversion E; subst. right. split; [reflexivity|]. exists None. split; [reflexivity|discriminate].
  - destruct (N.eqb_spec k' k) as [->|Hn]; (intros [E|H]; [|]).
    + inversion E; subst. right. split; [reflexivity|]. exists (Some v'). split; [reflexivity|].
      intros v0 E0. inversion E0; subst. left. reflexivity.
    + left. right. exact H.
    + left. left. exact E.
    + destruct (IH H) as [H'|[Ej [o [Ev Ho]]]]; [left; right; exact H'|].
      right. split; [exact Ej|]. exists o. split; [exact Ev|]. intros v0 E0. right. exact (Ho v0 E0).
Qed.
