(** Within-word expressions with all kinds of pieces (literals, commands, undefined
    nonterminals), specification side.

    The splittings of a text by a word expression are a relation ([sp]); [Meaning.wcands] and
    [Meaning.waccepts] are read through it ([wcands_cand], [waccepts_splits]).  [env_word_ok] is the
    declarative reading of [Domain.C01_env_ok] for one word expression ([env_ok_sound]): piece
    texts are non-empty, a text has one source, no text begins a different one.  Under it, inside
    the decided domain, the piece that begins a text is unique, so a splitting goes through it
    ([splits_round]), and the candidates that add something to the typed text are those offered
    where the greedy run [grun] stops ([cand_grun]).  The greedy reading [KnownC01.gacc] is one of
    the splittings ([gacc_sound]); [waccepts] depends only on the language of the expression
    ([waccepts_same_lang]). *)
From CG Require Import Base.Prelude Model.Ast Spec.Rx Spec.Meaning Spec.Domain Spec.KnownC01.
From CG Require Import Base.Facts Proofs.RxFacts Proofs.MeaningFacts Proofs.DfaMeaning Proofs.DomainFacts Proofs.SubwordFacts
     Proofs.WordSim.

Definition tok_of (en : env) (a : wleaf) (o : string) : Prop :=
  match a with WLit t _ _ => o = t | WCmd c _ => In o (candidates en c) | WAny => False end.

Definition src_of (a : wleaf) : wsrc := match a with WCmd c _ => SCmd c | _ => SLit end.

Lemma nonempty_true s : nonempty s = true <-> s <> EmptyString.
Proof.
  destruct s; cbn; split; intro H.
  - discriminate.
  - contradiction.
  - discriminate.
  - reflexivity.
Qed.

Lemma wconsume_spec en a r o r' :
  In (o, r') (wconsume en a r) <->
  o <> EmptyString /\ r = append o r'
  /\ match a with WLit t _ _ => o = t | WCmd c _ => In o (candidates en c) | WAny => r' = EmptyString end.
Proof.
  destruct a as [t d l | c l |]; cbn [wconsume].
  - destruct (nonempty t && String.prefix t r) eqn:E.
    + apply andb_true_iff in E. destruct E as [E1 E2]. split.
      * intros [H | []]. inversion H; subst. split; [apply nonempty_true; exact E1 | split; [apply prefix_split; exact E2 | reflexivity]].
      * intros [_ [Hr ->]]. left. f_equal. rewrite Hr. apply sdrop_app.
    + split; [intros [] |]. intros [Hn [Hr ->]]. exfalso. apply nonempty_true in Hn. rewrite Hn in E. cbn in E.
      rewrite Hr, prefix_app_l in E. discriminate.
  - rewrite in_flat_map. split.
    + intros [o' [Hin H]]. destruct (nonempty o' && String.prefix o' r) eqn:E; [| destruct H].
      apply andb_true_iff in E. destruct E as [E1 E2]. destruct H as [H | []]. inversion H; subst.
      split; [apply nonempty_true; exact E1 | split; [apply prefix_split; exact E2 | exact Hin]].
    + intros [Hn [Hr Hin]]. exists o. split; [exact Hin |]. apply nonempty_true in Hn. rewrite Hn. cbn.
      rewrite Hr, prefix_app_l. left. f_equal. apply sdrop_app.
  - destruct (nonempty r) eqn:E.
    + split.
      * intros [H | []]. inversion H; subst. split; [apply nonempty_true; exact E | split; [symmetry; apply append_nil_r | reflexivity]].
      * intros [_ [Hr ->]]. rewrite append_nil_r in Hr. subst. left. reflexivity.
    + split; [intros [] |]. intros [Hn [Hr ->]]. rewrite append_nil_r in Hr. subst. apply nonempty_true in Hn. congruence.
Qed.

Definition env_word_ok (en : env) (x : rx wleaf) : Prop :=
  (forall p, In p (wtokens_src en x) -> snd p <> EmptyString)
  /\ (forall p q, In p (wtokens_src en x) -> In q (wtokens_src en x) ->
        (snd p = snd q -> fst p = fst q) /\ (snd p <> snd q -> String.prefix (snd p) (snd q) = false)).

Lemma wsrc_eqb_sound a b : wsrc_eqb a b = true -> a = b.
Proof. destruct a, b; cbn; intro H; try discriminate; [reflexivity |]. apply String.eqb_eq in H. subst. reflexivity. Qed.

Lemma tok_free2_sound p q : tok_free2 p q = true ->
  (snd p = snd q -> fst p = fst q) /\ (snd p <> snd q -> String.prefix (snd p) (snd q) = false /\ String.prefix (snd q) (snd p) = false).
Proof.
  unfold tok_free2. destruct (String.eqb (snd p) (snd q)) eqn:E; intro H.
  - apply String.eqb_eq in E. split; [intros _; apply wsrc_eqb_sound; exact H | intro Hn; contradiction].
  - apply String.eqb_neq in E. split; [intro; contradiction |]. intros _. apply negb_true_iff, orb_false_iff in H. exact H.
Qed.

Lemma env_ok_sound e en : C01_env_ok e en = true -> forall x, In x (subwords_of (tr e)) -> env_word_ok en x.
Proof.
  unfold C01_env_ok. intros H x Hx. apply andb_true_iff in H. destruct H as [H _].
  rewrite forallb_forall in H. specialize (H x Hx). cbn zeta in H. apply andb_true_iff in H. destruct H as [Hn Hp].
  split.
  - intros p Hin. rewrite forallb_forall in Hn. apply nonempty_true. apply (Hn p Hin).
  - intros p q Hp' Hq'. destruct (all_pairs_spec _ _ Hp p q Hp' Hq') as [E | [E | E]].
    + subst q. split; [reflexivity | intro Hne; contradiction].
    + destruct (tok_free2_sound p q E) as [A B]. split; [exact A | intro Hne; apply (B Hne)].
    + destruct (tok_free2_sound q p E) as [A B]. split; [intro Ee; symmetry; apply A; symmetry; exact Ee |].
      intro Hne. apply B. intro Ee. apply Hne. symmetry. exact Ee.
Qed.

(** without commands in the word, the decided domain says it all *)
Lemma lit_word_env_ok en x :
  (forall b, In b (leaves x) -> exists t d l, b = WLit t d l) -> word_in_domain x -> env_word_ok en x.
Proof.
  intros Hlit [Hne [Hpf _]].
  assert (Hsrc : forall p, In p (wtokens_src en x) -> fst p = SLit /\ In (snd p) (wlit_texts x)).
  { intros p Hp. apply in_flat_map in Hp. destruct Hp as [b [Hb Hp]]. destruct (Hlit b Hb) as [t [d [l ->]]].
    destruct Hp as [<- | []]. split; [reflexivity |]. apply in_flat_map. exists (WLit t d l). split; [exact Hb | left; reflexivity]. }
  split.
  - intros p Hp. apply Hne. apply (Hsrc p Hp).
  - intros p q Hp Hq. destruct (Hsrc p Hp) as [Ep Tp]. destruct (Hsrc q Hq) as [Eq Tq]. split.
    + intros _. rewrite Ep, Eq. reflexivity.
    + intro Hd. destruct (Hpf _ _ Tp Tq) as [E | [E _]]; [contradiction | exact E].
Qed.

Lemma tok_in_src en x a o : In a (leaves x) -> tok_of en a o -> In (src_of a, o) (wtokens_src en x).
Proof.
  intros Ha Ht. unfold wtokens_src. apply in_flat_map. exists a. split; [exact Ha |].
  destruct a as [t d l | c l |]; cbn in Ht |- *.
  - subst. left; reflexivity.
  - apply in_map_iff. exists o. split; [reflexivity | exact Ht].
  - destruct Ht.
Qed.

Record winv (x : rx wleaf) (S : list (rx wleaf)) : Prop := {
  wi_reach : reach wsame_item [x] S;
  wi_leaves : forall e, In e S -> forall b, In b (leaves e) -> In b (leaves x)
}.

Lemma winv_start x : winv x [x].
Proof. constructor; [apply reach_here; intro k; reflexivity | intros e [<- | []] b Hb; exact Hb]. Qed.

Lemma after_lit_In t mv k : In k (after_lit t mv) <-> exists d l, In (WLit t d l, k) mv.
Proof.
  unfold after_lit. rewrite in_flat_map. split.
  - intros [[a k'] [Hin H]]. cbn [fst snd] in H. destruct a as [t' d l | |]; try (destruct H; fail).
    destruct (String.eqb t' t) eqn:E; [| destruct H]. apply String.eqb_eq in E. destruct H as [<- | []]. subst t'. eauto.
  - intros [d [l Hin]]. exists (WLit t d l, k). split; [exact Hin |]. cbn [fst snd]. rewrite String.eqb_refl. left; reflexivity.
Qed.

Lemma after_cmd_In c mv k : In k (after_cmd c mv) <-> exists l, In (WCmd c l, k) mv.
Proof.
  unfold after_cmd. rewrite in_flat_map. split.
  - intros [[a k'] [Hin H]]. cbn [fst snd] in H. destruct a as [| c' l |]; try (destruct H; fail).
    destruct (String.eqb c' c) eqn:E; [| destruct H]. apply String.eqb_eq in E. destruct H as [<- | []]. subst c'. eauto.
  - intros [l Hin]. exists (WCmd c l, k). split; [exact Hin |]. cbn [fst snd]. rewrite String.eqb_refl. left; reflexivity.
Qed.

Section InDomain.
  Variable x : rx wleaf.
  Hypothesis Hdom : word_in_domain x.

  Lemma winv_point S : winv x S -> wpoint_decl (mvs S).
  Proof. intro I. destruct Hdom as [_ [_ Hp]]. apply Hp. apply (wi_reach _ _ I). Qed.

  Lemma winv_moves S a k : winv x S -> In (a, k) (mvs S) -> In a (leaves x) /\ forall b, In b (leaves k) -> In b (leaves x).
  Proof.
    intros I Hin. apply mvs_In in Hin. destruct Hin as [r [Hr Hlf]]. destruct (lf_leaves r a k Hlf) as [Ha Hk].
    split; [apply (wi_leaves _ _ I r Hr); exact Ha | intros b Hb; apply (wi_leaves _ _ I r Hr); apply Hk; exact Hb].
  Qed.

  Lemma winv_lit S t d l k0 : winv x S -> In (WLit t d l, k0) (mvs S) -> winv x (after_lit t (mvs S)).
  Proof.
    intros I Hin. constructor.
    - eapply reach_next; [apply (wi_reach _ _ I) | |].
      + apply in_map_iff. exists (WLit t d l, k0). split; [reflexivity | exact Hin].
      + intro k. rewrite after_lit_In. split.
        * intros [d' [l' H]]. exists (WLit t d' l'). split; [exact H | cbn; apply String.eqb_refl].
        * intros [a' [H Ha]]. destruct a'; cbn in Ha; try discriminate. apply String.eqb_eq in Ha. subst. eauto.
    - intros e He b Hb. apply after_lit_In in He. destruct He as [d' [l' H]]. apply (proj2 (winv_moves S _ e I H)). exact Hb.
  Qed.

  Lemma winv_cmd S c l k0 : winv x S -> In (WCmd c l, k0) (mvs S) -> winv x (after_cmd c (mvs S)).
  Proof.
    intros I Hin. destruct (winv_point S I) as [_ [P2 _]]. constructor.
    - eapply reach_next; [apply (wi_reach _ _ I) | |].
      + apply in_map_iff. exists (WCmd c l, k0). split; [reflexivity | exact Hin].
      + intro k. rewrite after_cmd_In. split.
        * intros [l' H]. exists (WCmd c l'). split; [exact H |]. rewrite (P2 c l' l k k0 H Hin). apply wsame_refl.
        * intros [a' [H Ha]]. destruct a'; cbn in Ha; try discriminate.
          apply andb_true_iff in Ha. destruct Ha as [Ha _]. apply String.eqb_eq in Ha. subst. eauto.
    - intros e He b Hb. apply after_cmd_In in He. destruct He as [l' H]. apply (proj2 (winv_moves S _ e I H)). exact Hb.
  Qed.
End InDomain.

Lemma first_lit_some mv rest t : first_lit mv rest = Some t ->
  exists d l k, In (WLit t d l, k) mv /\ t <> EmptyString /\ String.prefix t rest = true.
Proof.
  unfold first_lit. destruct (filter _ mv) as [| [a k] r] eqn:E; [discriminate |].
  assert (Hin : In (a, k) (filter (fun ak : wleaf * rx wleaf => match fst ak with
                          | WLit t0 _ _ => nonempty t0 && String.prefix t0 rest | _ => false end) mv)) by (rewrite E; left; reflexivity).
  apply filter_In in Hin. destruct Hin as [Hin Hf]. cbn [fst] in Hf.
  destruct a as [t0 d l | |]; try discriminate. intro H. inversion H; subst t0.
  apply andb_true_iff in Hf. destruct Hf as [H1 H2]. exists d, l, k. split; [exact Hin | split; [apply nonempty_true; exact H1 | exact H2]].
Qed.

Lemma first_cmd_some en mv rest c o : first_cmd en mv rest = Some (c, o) ->
  exists l k, In (WCmd c l, k) mv /\ In o (candidates en c) /\ o <> EmptyString /\ String.prefix o rest = true.
Proof.
  unfold first_cmd. destruct (flat_map _ mv) as [| co r] eqn:E; [discriminate |]. intro H. inversion H; subst co.
  assert (Hin : In (c, o) (flat_map (fun ak : wleaf * rx wleaf => match fst ak with
                            | WCmd c0 _ => map (fun o0 => (c0, o0)) (filter (fun o0 => nonempty o0 && String.prefix o0 rest) (candidates en c0))
                            | _ => [] end) mv)) by (rewrite E; left; reflexivity).
  apply in_flat_map in Hin. destruct Hin as [[a k] [Hin Hf]]. cbn [fst] in Hf.
  destruct a as [| c0 l |]; try (destruct Hf; fail). apply in_map_iff in Hf. destruct Hf as [o0 [Eo Hf]]. inversion Eo; subst c0 o0.
  apply filter_In in Hf. destruct Hf as [Hc Hf]. apply andb_true_iff in Hf. destruct Hf as [H1 H2].
  exists l, k. split; [exact Hin | split; [exact Hc | split; [apply nonempty_true; exact H1 | exact H2]]].
Qed.

Lemma eps_only_sound k : eps_only k = true -> nullable k = true /\ lf k = [].
Proof. unfold eps_only. intro H. apply andb_true_iff in H. destruct H as [H1 H2]. split; [exact H1 |]. destruct (lf k); [reflexivity | discriminate]. Qed.

Section Splits.
  Variable en : env.

  Inductive sp : rx wleaf -> string -> rx wleaf -> string -> string -> Prop :=
  | sp_here e w : sp e w e EmptyString w
  | sp_step e w a k o r1 e' dn rest :
      In (a, k) (lf e) -> In (o, r1) (wconsume en a w) -> sp k r1 e' dn rest -> sp e w e' (append o dn) rest.

  Lemma wsplits_sp : forall fuel e dn rest e' dn' rest',
      In (e', dn', rest') (wsplits en fuel e dn rest) -> exists d2, sp e rest e' d2 rest' /\ dn' = append dn d2.
  Proof.
    induction fuel as [| f IH]; intros e dn rest e' dn' rest' H; cbn [wsplits] in H.
    - destruct H as [H | []]. inversion H; subst. exists EmptyString. split; [constructor | symmetry; apply append_nil_r].
    - destruct H as [H | H].
      + inversion H; subst. exists EmptyString. split; [constructor | symmetry; apply append_nil_r].
      + apply in_flat_map in H. destruct H as [[a k] [Hlf H]]. cbn [fst snd] in H.
        apply in_flat_map in H. destruct H as [[o r1] [Hc H]]. cbn [fst snd] in H.
        destruct (IH _ _ _ _ _ _ H) as [d2 [Hsp ->]]. exists (append o d2). split; [econstructor; eassumption | apply append_assoc].
  Qed.

  Lemma sp_wsplits e rest e' d2 rest' : sp e rest e' d2 rest' ->
    forall fuel dn, (String.length rest <= fuel)%nat -> In (e', append dn d2, rest') (wsplits en fuel e dn rest).
  Proof.
    induction 1 as [e w | e w a k o r1 e' d rest' Hlf Hc _ IH]; intros fuel dn Hf.
    - rewrite append_nil_r. destruct fuel; cbn [wsplits]; left; reflexivity.
    - pose proof Hc as Hc'. apply wconsume_spec in Hc'. destruct Hc' as [Hne [Hw _]].
      destruct fuel as [| f]; [rewrite Hw, length_append in Hf; destruct o; [contradiction | cbn in Hf; lia] |].
      cbn [wsplits]. right. apply in_flat_map. exists (a, k). split; [exact Hlf |]. cbn [fst snd].
      apply in_flat_map. exists (o, r1). split; [exact Hc |]. cbn [fst snd]. rewrite <- append_assoc. apply IH.
      rewrite Hw, length_append in Hf. destruct o; [contradiction | cbn [String.length] in Hf; lia].
  Qed.

  Lemma sp_concat e w e' dn rest : sp e w e' dn rest -> w = append dn rest.
  Proof.
    induction 1 as [e w | e w a k o r1 e' d rest' Hlf Hc _ IH]; [reflexivity |].
    apply wconsume_spec in Hc. destruct Hc as [_ [Hw _]]. rewrite Hw, IH. symmetry. apply append_assoc.
  Qed.

  (** what an expected piece offers for the text [rest] typed so far *)
  Definition item_offer (a : wleaf) (rest : string) (l : N) (o' : string) : Prop :=
    match a with
    | WLit t _ l' => l' = l /\ o' = t /\ String.prefix rest t = true
    | WCmd c l' => l' = l /\ In o' (candidates en c) /\ String.prefix rest o' = true
    | WAny => False
    end.

  Definition cand (S : list (rx wleaf)) (w : string) (l : N) (o : string) : Prop :=
    exists e e' dn rest a k o', In e S /\ sp e w e' dn rest /\ In (a, k) (lf e') /\ item_offer a rest l o' /\ o = append dn o'.

  Definition offers (S : list (rx wleaf)) (rest : string) (l : N) (o' : string) : Prop :=
    exists a k, In (a, k) (mvs S) /\ item_offer a rest l o'.

  Lemma wcands_cand x p l o : In (l, o) (wcands en x p) <-> cand [x] p l o.
  Proof.
    unfold wcands, wsplits_of. rewrite in_flat_map. split.
    - intros [[[e' dn] rest] [Hs H]]. apply in_flat_map in H. destruct H as [[a k] [Hlf H]]. cbn [fst] in H.
      destruct (wsplits_sp _ _ _ _ _ _ _ Hs) as [d2 [Hsp Hd]]. cbn [append] in Hd. subst dn.
      destruct a as [t d l0 | c l0 |].
      + destruct (String.prefix rest t) eqn:Ep; [| destruct H]. destruct H as [E | []]. inversion E; subst.
        exists x, e', d2, rest, (WLit t d l), k, t. split; [left; reflexivity | split; [exact Hsp | split; [exact Hlf | split; [| reflexivity]]]].
        cbn. auto.
      + apply in_map_iff in H. destruct H as [o' [E Ho]]. inversion E; subst. apply filter_In in Ho. destruct Ho as [Ho Hp].
        exists x, e', d2, rest, (WCmd c l), k, o'. split; [left; reflexivity | split; [exact Hsp | split; [exact Hlf | split; [| reflexivity]]]].
        cbn. auto.
      + destruct H.
    - intros [e [e' [dn [rest [a [k [o' [[<- | []] [Hsp [Hlf [Hoff ->]]]]]]]]]]].
      exists (e', dn, rest). split.
      + pose proof (sp_wsplits _ _ _ _ _ Hsp (String.length p) EmptyString (le_n _)) as H. cbn [append] in H. exact H.
      + apply in_flat_map. exists (a, k). split; [exact Hlf |]. cbn [fst].
        destruct a as [t d l0 | c l0 |]; cbn [item_offer] in Hoff.
        * destruct Hoff as [-> [-> Hp]]. rewrite Hp. left; reflexivity.
        * destruct Hoff as [-> [Hc Hp]]. apply in_map_iff. exists o'. split; [reflexivity | apply filter_In; split; assumption].
        * destruct Hoff.
  Qed.

  Lemma cand_inv S w l o :
    cand S w l o <->
    offers S w l o
    \/ exists a k o1 r1 o2, In (a, k) (mvs S) /\ In (o1, r1) (wconsume en a w) /\ cand [k] r1 l o2 /\ o = append o1 o2.
  Proof.
    split.
    - intros [e [e' [dn [rest [a [k [o' [He [Hsp [Hlf [Hoff ->]]]]]]]]]]].
      destruct Hsp as [e w | e w a1 k1 o1 r1 e' d rest Hlf1 Hc Hsp'].
      + left. exists a, k. split; [apply mvs_In; exists e; split; assumption | exact Hoff].
      + right. exists a1, k1, o1, r1, (append d o'). split; [apply mvs_In; exists e; split; assumption | split; [exact Hc | split; [| apply append_assoc]]].
        exists k1, e', d, rest, a, k, o'. split; [left; reflexivity | split; [exact Hsp' | split; [exact Hlf | split; [exact Hoff | reflexivity]]]].
    - intros [[a [k [Hmv Hoff]]] | [a [k [o1 [r1 [o2 [Hmv [Hc [Hcd ->]]]]]]]]].
      + apply mvs_In in Hmv. destruct Hmv as [e [He Hlf]].
        exists e, e, EmptyString, w, a, k, o. split; [exact He | split; [constructor | split; [exact Hlf | split; [exact Hoff | reflexivity]]]].
      + apply mvs_In in Hmv. destruct Hmv as [e [He Hlf]].
        destruct Hcd as [e1 [e' [dn [rest [a2 [k2 [o' [[<- | []] [Hsp [Hlf2 [Hoff ->]]]]]]]]]]].
        exists e, e', (append o1 dn), rest, a2, k2, o'. split; [exact He | split; [econstructor; eassumption | split; [exact Hlf2 | split; [exact Hoff |]]]].
        symmetry. apply append_assoc.
  Qed.

  Lemma cand_mono S S' w l o : (forall e, In e S -> In e S') -> cand S w l o -> cand S' w l o.
  Proof. intros H [e [e' [dn [rest [a [k [o' [He Hr]]]]]]]]. exists e, e', dn, rest, a, k, o'. split; [apply H; exact He | exact Hr]. Qed.

  Lemma cand_single S w l o : cand S w l o -> exists e, In e S /\ cand [e] w l o.
  Proof. intros [e [e' [dn [rest [a [k [o' [He Hr]]]]]]]]. exists e. split; [exact He |]. exists e, e', dn, rest, a, k, o'. split; [left; reflexivity | exact Hr]. Qed.

  Lemma cand_eps k r l o : lf k = [] -> ~ cand [k] r l o.
  Proof.
    intros Hlf H. apply cand_inv in H. unfold offers, mvs in H. cbn [flat_map] in H. rewrite Hlf in H. cbn in H.
    destruct H as [[a [k' [[] _]]] | [a [k' [o1 [r1 [o2 [[] _]]]]]]].
  Qed.

  Definition etok (S : list (rx wleaf)) (a : wleaf) (k : rx wleaf) (o : string) : Prop := In (a, k) (mvs S) /\ tok_of en a o.

  Definition nextS (S : list (rx wleaf)) (a : wleaf) : list (rx wleaf) :=
    match a with
    | WLit t _ _ => after_lit t (mvs S)
    | WCmd c _ => after_cmd c (mvs S)
    | WAny => []
    end.

  Inductive grun : list (rx wleaf) -> string -> list (rx wleaf) -> string -> string -> Prop :=
  | gr_stop S w : (forall a k o, etok S a k o -> String.prefix o w = false) -> grun S w S EmptyString w
  | gr_step S a k o w' S' mp cp : etok S a k o -> grun (nextS S a) w' S' mp cp -> grun S (append o w') S' (append o mp) cp.

  Section CandGreedy.
    Variable x : rx wleaf.
    Hypothesis Hdom : word_in_domain x.
    Hypothesis Henv : env_word_ok en x.

    Lemma etok_src S a k o : winv x S -> etok S a k o -> o <> EmptyString /\ In (src_of a, o) (wtokens_src en x).
    Proof.
      intros I [Hmv Ht]. destruct (winv_moves x S a k I Hmv) as [Ha _].
      pose proof (tok_in_src en x a o Ha Ht) as Hin. split; [apply (proj1 Henv _ Hin) | exact Hin].
    Qed.

    Lemma etok_prefix S a1 k1 o1 a2 k2 o2 : winv x S -> etok S a1 k1 o1 -> etok S a2 k2 o2 ->
      String.prefix o1 o2 = true -> o1 = o2 /\ src_of a1 = src_of a2.
    Proof.
      intros I E1 E2 Hp. destruct (etok_src S _ _ _ I E1) as [_ H1]. destruct (etok_src S _ _ _ I E2) as [_ H2].
      destruct (proj2 Henv _ _ H1 H2) as [A B]. cbn [fst snd] in A, B.
      destruct (string_dec o1 o2) as [E | Ne]; [split; [exact E | apply A; exact E] |].
      rewrite (B Ne) in Hp. discriminate.
    Qed.

    Lemma etok_consume S a k o w r1 : In (a, k) (mvs S) -> In (o, r1) (wconsume en a w) ->
      (a = WAny /\ r1 = EmptyString) \/ (etok S a k o /\ w = append o r1).
    Proof.
      intros Hmv Hc. apply wconsume_spec in Hc. destruct Hc as [_ [Hw Hk]].
      destruct a as [t d l | c l |]; [right | right | left; split; [reflexivity | exact Hk]];
        (split; [split; [exact Hmv | exact Hk] | exact Hw]).
    Qed.

    Lemma same_src_next S a1 k1 a2 k2 o : etok S a1 k1 o -> etok S a2 k2 o -> src_of a1 = src_of a2 -> In k2 (nextS S a1).
    Proof.
      intros [H1 T1] [H2 T2] Hs. destruct a1 as [t1 d1 l1 | c1 l1 |]; destruct a2 as [t2 d2 l2 | c2 l2 |]; cbn in T1, T2, Hs; try discriminate; try contradiction.
      - subst. cbn [nextS]. apply after_lit_In. eauto.
      - inversion Hs; subst. cbn [nextS]. apply after_cmd_In. eauto.
    Qed.

    Lemma next_member S a k o k2 : etok S a k o -> In k2 (nextS S a) -> exists a2, etok S a2 k2 o.
    Proof.
      intros [H1 T1] Hk. destruct a as [t d l | c l |]; cbn [nextS] in Hk; cbn in T1.
      - apply after_lit_In in Hk. destruct Hk as [d' [l' H]]. exists (WLit t d' l'). split; [exact H | exact T1].
      - apply after_cmd_In in Hk. destruct Hk as [l' H]. exists (WCmd c l'). split; [exact H | exact T1].
      - destruct T1.
    Qed.

    Lemma winv_next S a k o : winv x S -> etok S a k o -> winv x (nextS S a).
    Proof.
      intros I [H1 T1]. destruct a as [t d l | c l |]; cbn [nextS]; cbn in T1.
      - apply (winv_lit x S t d l k I H1).
      - apply (winv_cmd x Hdom S c l k I H1).
      - destruct T1.
    Qed.

    Lemma offer_tok a rest l o : item_offer a rest l o -> tok_of en a o /\ String.prefix rest o = true.
    Proof. destruct a; cbn; intro H; [destruct H as [_ [-> Hp]]; split; [reflexivity | exact Hp] | destruct H as [_ [Hc Hp]]; split; assumption | destruct H]. Qed.

    Lemma cand_stop S w l o : winv x S -> (forall a k o, etok S a k o -> String.prefix o w = false) ->
      (cand S w l o <-> offers S w l o).
    Proof.
      intros I Hstop. rewrite cand_inv. split; [| intro H; left; exact H].
      intros [H | [a [k [o1 [r1 [o2 [Hmv [Hc [Hcd _]]]]]]]]]; [exact H | exfalso].
      destruct (etok_consume S a k o1 w r1 Hmv Hc) as [[-> ->] | [He Hw]].
      - destruct (winv_point x Hdom S I) as [_ [_ P3]]. destruct (eps_only_sound k (P3 k Hmv)) as [_ Hlf].
        apply (cand_eps k _ l o2 Hlf Hcd).
      - pose proof (Hstop _ _ _ He) as Hf. rewrite Hw, prefix_app_l in Hf. discriminate.
    Qed.

    Theorem cand_grun S w S' mp cp : grun S w S' mp cp -> winv x S ->
      w = append mp cp /\ winv x S'
      /\ (forall a k o, etok S' a k o -> String.prefix o cp = false)
      /\ forall l o, (cand S w l o /\ o <> w) <-> exists o', o = append mp o' /\ offers S' cp l o'.
    Proof.
      induction 1 as [S w Hstop | S a k o1 w' S' mp cp He Hg IH]; intro I.
      - split; [reflexivity | split; [exact I | split; [exact Hstop |]]]. intros l o. cbn [append]. split.
        + intros [Hc _]. exists o. split; [reflexivity | apply (cand_stop S w l o I Hstop); exact Hc].
        + intros [o' [-> Hoff]]. split; [apply (cand_stop S w l o' I Hstop); exact Hoff |].
          intro E. subst o'. destruct Hoff as [a [k [Hmv Hoff]]]. destruct (offer_tok _ _ _ _ Hoff) as [Ht _].
          pose proof (Hstop a k w (conj Hmv Ht)) as Hf. rewrite prefix_refl in Hf. discriminate.
      - pose proof (winv_next S a k o1 I He) as I1. destruct (IH I1) as [Ew [I' [Hstop Hiff]]].
        destruct (etok_src S _ _ _ I He) as [Hne1 _].
        split; [rewrite Ew; symmetry; apply append_assoc | split; [exact I' | split; [exact Hstop |]]].
        intros l o. split.
        + intros [Hc Hne]. apply cand_inv in Hc. destruct Hc as [[a2 [k2 [Hmv Hoff]]] | [a2 [k2 [o2 [r1 [o3 [Hmv [Hc [Hcd ->]]]]]]]]].
          * exfalso. destruct (offer_tok _ _ _ _ Hoff) as [Ht Hp].
            assert (Hp1 : String.prefix o1 o = true) by (eapply prefix_trans; [apply prefix_app_l | exact Hp]).
            destruct (etok_prefix S a k o1 a2 k2 o I He (conj Hmv Ht) Hp1) as [E _]. subst o.
            apply prefix_app_self in Hp. apply Hne. rewrite Hp. symmetry. apply append_nil_r.
          * destruct (etok_consume S a2 k2 o2 _ r1 Hmv Hc) as [[-> ->] | [He2 Hw]].
            -- exfalso. destruct (winv_point x Hdom S I) as [_ [_ P3]]. destruct (eps_only_sound k2 (P3 k2 Hmv)) as [_ Hlf].
               apply (cand_eps k2 _ l o3 Hlf Hcd).
            -- assert (P1 : String.prefix o1 (append o1 w') = true) by apply prefix_app_l.
               assert (P2 : String.prefix o2 (append o1 w') = true) by (rewrite Hw; apply prefix_app_l).
               assert (E : o1 = o2 /\ src_of a = src_of a2).
               { destruct (prefixes_comparable o1 o2 _ P1 P2) as [Hc' | Hc'].
                 - apply (etok_prefix S a k o1 a2 k2 o2 I He He2 Hc').
                 - destruct (etok_prefix S a2 k2 o2 a k o1 I He2 He Hc') as [E1 E2]. split; [symmetry; exact E1 | symmetry; exact E2]. }
               destruct E as [<- Hsrc]. apply append_cancel_l in Hw. subst r1.
               assert (Hk2 : In k2 (nextS S a)) by (apply (same_src_next S a k a2 k2 o1 He He2 Hsrc)).
               assert (Hc1 : cand (nextS S a) w' l o3) by (apply (cand_mono [k2]); [intros e [<- | []]; exact Hk2 | exact Hcd]).
               assert (Hne3 : o3 <> w') by (intro E; subst; apply Hne; reflexivity).
               destruct (proj1 (Hiff l o3) (conj Hc1 Hne3)) as [o' [-> Hoff]].
               exists o'. split; [symmetry; apply append_assoc | exact Hoff].
        + intros [o' [-> Hoff]]. destruct (proj2 (Hiff l (append mp o')) (ex_intro _ o' (conj eq_refl Hoff))) as [Hc1 Hne1'].
          rewrite append_assoc. split.
          * apply cand_single in Hc1. destruct Hc1 as [k2 [Hk2 Hcd]].
            destruct (next_member S a k o1 k2 He Hk2) as [a2 [Hmv2 Ht2]].
            apply cand_inv. right. exists a2, k2, o1, w', (append mp o'). split; [exact Hmv2 | split; [| split; [exact Hcd | reflexivity]]].
            apply wconsume_spec. split; [exact Hne1 | split; [reflexivity |]].
            destruct a2; cbn in Ht2 |- *; [exact Ht2 | exact Ht2 | destruct Ht2].
          * intro E. apply append_cancel_l in E. contradiction.
    Qed.
  End CandGreedy.
End Splits.

Definition has_any (mv : list (wleaf * rx wleaf)) : bool :=
  existsb (fun ak => match fst ak with WAny => true | _ => false end) mv.

Section Readings.
  Variable en : env.

  Definition splits_all (S : list (rx wleaf)) (rest : string) : Prop :=
    exists e e' dn, In e S /\ sp en e rest e' dn EmptyString /\ nullable e' = true.

  Lemma splits_nil S : existsb nullable S = true -> splits_all S EmptyString.
  Proof. intro H. apply existsb_exists in H. destruct H as [e [He Hn]]. exists e, e, EmptyString. split; [exact He | split; [constructor | exact Hn]]. Qed.

  Lemma splits_step S a k o rest : In (a, k) (mvs S) -> In (o, sdrop (String.length o) rest) (wconsume en a rest) ->
    splits_all [k] (sdrop (String.length o) rest) -> splits_all S rest.
  Proof.
    intros Hmv Hc [k' [e' [dn [[<- | []] [Hsp Hn]]]]]. apply mvs_In in Hmv. destruct Hmv as [e [He Hlf]].
    exists e, e', (append o dn). split; [exact He | split; [econstructor; eassumption | exact Hn]].
  Qed.

  Lemma splits_lit S rest t : first_lit (mvs S) rest = Some t ->
    splits_all (after_lit t (mvs S)) (sdrop (String.length t) rest) -> splits_all S rest.
  Proof.
    intros El [k [e' [dn [Hk Hr]]]]. destruct (first_lit_some _ _ _ El) as [_ [_ [_ [_ [Hne Hp]]]]].
    apply after_lit_In in Hk. destruct Hk as [d [l Hmv]]. apply (splits_step S (WLit t d l) k t rest Hmv).
    - apply wconsume_spec. split; [exact Hne | split; [apply prefix_split; exact Hp | reflexivity]].
    - exists k, e', dn. split; [left; reflexivity | exact Hr].
  Qed.

  Lemma splits_cmd S rest c o : first_cmd en (mvs S) rest = Some (c, o) ->
    splits_all (after_cmd c (mvs S)) (sdrop (String.length o) rest) -> splits_all S rest.
  Proof.
    intros Ec [k [e' [dn [Hk Hr]]]]. destruct (first_cmd_some _ _ _ _ _ Ec) as [_ [_ [_ [Hc [Hne Hp]]]]].
    apply after_cmd_In in Hk. destruct Hk as [l Hmv]. apply (splits_step S (WCmd c l) k o rest Hmv).
    - apply wconsume_spec. split; [exact Hne | split; [apply prefix_split; exact Hp | exact Hc]].
    - exists k, e', dn. split; [left; reflexivity | exact Hr].
  Qed.

  Lemma splits_waccepts x w : splits_all [x] w -> waccepts en x w = true.
  Proof.
    intros [e [e' [dn [[<- | []] [Hsp Hn]]]]]. unfold waccepts, wsplits_of. apply existsb_exists. exists (e', dn, EmptyString).
    split; [| cbn; exact Hn]. apply (sp_wsplits en _ _ _ _ _ Hsp (String.length w) EmptyString (le_n _)).
  Qed.

  Lemma splits_nil_iff S : splits_all S EmptyString <-> existsb nullable S = true.
  Proof.
    split; [| apply splits_nil]. intros [e [e' [dn [He [Hsp Hn]]]]].
    inversion Hsp as [e0 w0 | e0 w0 a k o r1 e1 d rest0 Hlf Hc Hsp']; subst.
    - apply existsb_exists. exists e'. split; assumption.
    - apply wconsume_spec in Hc. destruct Hc as [Hne [Hw _]]. destruct o; [contradiction | discriminate].
  Qed.

  Lemma splits_first S sub : has_any (mvs S) = false -> sub <> EmptyString -> splits_all S sub ->
    exists a k o, etok en S a k o /\ String.prefix o sub = true /\ splits_all [k] (sdrop (String.length o) sub).
  Proof.
    intros Ha Hne [e [e' [dn [He [Hsp Hn]]]]].
    inversion Hsp as [e0 w0 | e0 w0 a k o r1 e1 d rest0 Hlf Hc Hsp']; subst; [contradiction |].
    assert (Hmv : In (a, k) (mvs S)) by (apply mvs_In; exists e; split; assumption).
    destruct (etok_consume en S a k o sub r1 Hmv Hc) as [[-> _] | [Het Hw]].
    { assert (Ht : has_any (mvs S) = true) by (unfold has_any; apply existsb_exists; exists (WAny, k); split; [exact Hmv | reflexivity]). congruence. }
    exists a, k, o. split; [exact Het | split; [rewrite Hw; apply prefix_app_l |]].
    rewrite Hw, sdrop_app. exists k, e', d. split; [left; reflexivity | split; assumption].
  Qed.

  Lemma splits_stop S sub : has_any (mvs S) = false -> sub <> EmptyString ->
    (forall a k o, etok en S a k o -> String.prefix o sub = false) -> ~ splits_all S sub.
  Proof.
    intros Ha Hne Hstop H. destruct (splits_first S sub Ha Hne H) as [a [k [o [He [Hp _]]]]]. rewrite (Hstop a k o He) in Hp. discriminate.
  Qed.

  Lemma waccepts_splits x w : waccepts en x w = true <-> splits_all [x] w.
  Proof.
    split; [| apply splits_waccepts]. unfold waccepts, wsplits_of. intro H. apply existsb_exists in H.
    destruct H as [[[e' dn'] rest'] [Hin H]]. apply andb_true_iff in H. destruct H as [Hr Hn]. destruct rest'; [| discriminate].
    destruct (wsplits_sp en _ _ _ _ _ _ _ Hin) as [d2 [Hsp _]]. exists x, e', d2. split; [left; reflexivity | split; assumption].
  Qed.
  Variable x : rx wleaf.
  Hypothesis Hdom : word_in_domain x.

  (** inside the decided domain nothing follows an undefined nonterminal: it takes what is left *)
  Lemma splits_any S rest k : winv x S -> In (WAny, k) (mvs S) -> rest <> EmptyString -> splits_all S rest.
  Proof.
    intros I Hmv Hne. destruct (winv_point x Hdom S I) as [_ [_ P3]]. destruct (eps_only_sound k (P3 k Hmv)) as [Hn _].
    apply mvs_In in Hmv. destruct Hmv as [e [He Hlf]].
    exists e, k, (append rest EmptyString). split; [exact He | split; [| exact Hn]].
    eapply sp_step; [exact Hlf | | apply sp_here]. apply wconsume_spec. split; [exact Hne | split; [symmetry; apply append_nil_r | reflexivity]].
  Qed.
End Readings.

Section Greedy.
  Variables (en : env) (x : rx wleaf).
  Hypothesis Hdom : word_in_domain x.

  Lemma gacc_sound : forall fuel S rest, winv x S -> gacc en fuel S rest = true -> splits_all en S rest.
  Proof.
    induction fuel as [| fuel IH]; intros S rest I H; (destruct rest as [| ch r]; [apply splits_nil; exact H |]); [discriminate |].
    cbn [gacc] in H. set (rest := String ch r) in *. fold (mvs S) in H.
    destruct (first_lit (mvs S) rest) as [t |] eqn:El.
    - destruct (first_lit_some _ _ _ El) as [d [l [k0 [Hin _]]]].
      apply (splits_lit en S rest t El). apply (IH _ _ (winv_lit x S t d l k0 I Hin) H).
    - destruct (first_cmd en (mvs S) rest) as [[c o] |] eqn:Ec.
      + destruct (first_cmd_some _ _ _ _ _ Ec) as [l [k0 [Hin _]]].
        apply (splits_cmd en S rest c o Ec). apply (IH _ _ (winv_cmd x Hdom S c l k0 I Hin) H).
      + apply existsb_exists in H. destruct H as [[a k] [Hmv Ha]]. cbn [fst] in Ha. destruct a; try discriminate.
        apply (splits_any en x Hdom S rest k I Hmv). discriminate.
  Qed.

  Theorem gaccepts_waccepts w : gaccepts en x w = true -> waccepts en x w = true.
  Proof. intro H. apply splits_waccepts. apply (gacc_sound _ _ _ (winv_start x) H). Qed.
End Greedy.

Section Lang.
  Variable en : env.

  Inductive wmatchr : list wleaf -> string -> string -> Prop :=
  | wmr_nil w : wmatchr [] w w
  | wmr_cons a ls w o r1 rest : In (o, r1) (wconsume en a w) -> wmatchr ls r1 rest -> wmatchr (a :: ls) w rest.

  Lemma sp_rpath e w e' dn rest : sp en e w e' dn rest -> exists ls, rpath e ls e' /\ wmatchr ls w rest.
  Proof.
    induction 1 as [e w | e w a k o r1 e' d rest Hlf Hc _ IH].
    - exists []. split; constructor.
    - destruct IH as [ls [Hp Hm]]. exists (a :: ls). split; [econstructor; eassumption | econstructor; eassumption].
  Qed.

  Lemma rpath_sp e ls e' : rpath e ls e' -> forall w rest, wmatchr ls w rest -> exists dn, sp en e w e' dn rest.
  Proof.
    induction 1 as [r | r a k ls r' Hlf _ IH]; intros w rest Hm.
    - inversion Hm; subst. eexists. constructor.
    - inversion Hm as [| a' ls' w' o r1 rest' Hc Hm']; subst. destruct (IH _ _ Hm') as [dn Hsp].
      eexists. econstructor; eassumption.
  Qed.

  Lemma waccepts_lang x w : waccepts en x w = true <-> exists ls, RxFacts.denotes x ls /\ wmatchr ls w EmptyString.
  Proof.
    unfold waccepts, wsplits_of. rewrite existsb_exists. split.
    - intros [[[e' dn'] rest'] [Hin H]]. apply andb_true_iff in H. destruct H as [Hr Hn]. destruct rest'; [| discriminate].
      destruct (wsplits_sp en _ _ _ _ _ _ _ Hin) as [d2 [Hsp _]]. destruct (sp_rpath _ _ _ _ _ Hsp) as [ls [Hp Hm]].
      exists ls. split; [| exact Hm]. rewrite <- (app_nil_r ls). eapply rpath_denotes; [exact Hp | apply nullable_denotes; exact Hn].
    - intros [ls [Hd Hm]]. rewrite <- (app_nil_r ls) in Hd. apply denotes_rpath in Hd. destruct Hd as [e' [Hp Hn]].
      destruct (rpath_sp _ _ _ Hp _ _ Hm) as [dn Hsp].
      exists (e', dn, EmptyString). split.
      + pose proof (sp_wsplits en _ _ _ _ _ Hsp (String.length w) EmptyString (le_n _)) as H. cbn [append] in H. exact H.
      + cbn. apply nullable_denotes. exact Hn.
  Qed.

  Lemma waccepts_same_lang x0 x1 w :
    (forall ls, RxFacts.denotes x0 ls <-> RxFacts.denotes x1 ls) -> waccepts en x0 w = waccepts en x1 w.
  Proof.
    intro H.
    assert (E : waccepts en x0 w = true <-> waccepts en x1 w = true).
    { rewrite !waccepts_lang. split; intros [ls [Hd Hm]]; exists ls; (split; [apply H; exact Hd | exact Hm]). }
    destruct (waccepts en x0 w), (waccepts en x1 w); try reflexivity; [symmetry; apply E; reflexivity | apply E; reflexivity].
  Qed.
End Lang.

Section Unique.
  Variables (en : env) (x : rx wleaf).
  Hypothesis Hdom : word_in_domain x.
  Hypothesis Henv : env_word_ok en x.

  Lemma etok_comparable S a1 k1 o1 a2 k2 o2 sub : winv x S -> etok en S a1 k1 o1 -> etok en S a2 k2 o2 ->
    String.prefix o1 sub = true -> String.prefix o2 sub = true -> o1 = o2 /\ src_of a1 = src_of a2.
  Proof.
    intros I E1 E2 P1 P2. destruct (prefixes_comparable o1 o2 _ P1 P2) as [Hc | Hc].
    - apply (etok_prefix en x Henv S a1 k1 o1 a2 k2 o2 I E1 E2 Hc).
    - destruct (etok_prefix en x Henv S a2 k2 o2 a1 k1 o1 I E2 E1 Hc) as [A B]. split; symmetry; assumption.
  Qed.

  Lemma splits_round S a k o sub : winv x S -> has_any (mvs S) = false -> etok en S a k o -> String.prefix o sub = true ->
    (splits_all en S sub <-> splits_all en (nextS S a) (sdrop (String.length o) sub)).
  Proof.
    intros I Ha He Hp. destruct (etok_src en x Henv S _ _ _ I He) as [Hne _]. split.
    - intro H. destruct (splits_first en S sub Ha) as [a' [k' [o' [He' [Hp' [k0 [e' [dn [[<- | []] Hr]]]]]]]]]; [| exact H |].
      { intro E. subst sub. destruct o; [contradiction | discriminate]. }
      destruct (etok_comparable S a k o a' k' o' sub I He He' Hp Hp') as [<- Hsrc].
      exists k', e', dn. split; [apply (same_src_next en S a k a' k' o He He' Hsrc) | exact Hr].
    - intros [k' [e' [dn [Hk' Hr]]]]. destruct (next_member en S a k o k' He Hk') as [a2 [Hmv2 Ht2]].
      apply (splits_step en S a2 k' o sub Hmv2); [| exists k', e', dn; split; [left; reflexivity | exact Hr]].
      apply wconsume_spec. split; [exact Hne | split; [apply prefix_split; exact Hp |]].
      destruct a2; cbn in Ht2 |- *; [exact Ht2 | exact Ht2 | destruct Ht2].
  Qed.

End Unique.
