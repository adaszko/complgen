(** The literal lists of the tables have no repeated entry unless the grammar text contains an EMPTY
    description string: Rust's get_all_literals (src/dfa.rs) de-duplicates (text, description) with the description
    as an OPTION and then prints unwrap_or(""), so a literal that occurs both without a
    description and with the description "" is listed twice ([cmd (x a | y a "");] gives
    [literals=("y" "x" "a" "a")]; harmless in the script: the first entry has no transition anywhere
    and both matchers skip an entry without a transition).  The emitted tables are then not a
    function of the automata, so the capstone theorems exclude the case at the source
    ([grammar_descr_ok]).  This file proves the two ends of "that is the only way": no empty
    description in the grammar leaves none in the validated tree ([from_grammar_tok]), and a valid
    literal order of an automaton without empty descriptions is duplicate-free
    ([valid_order_NoDup]); CapstoneLits.v joins the two through the compiled automata. *)
From CG Require Import Base.Prelude Proofs.ListFacts Model.Ast Model.Check Spec.Choice.
From CG Require Import Proofs.CheckChoice Proofs.CheckLemmas Proofs.CheckSpans Proofs.CheckTotal Proofs.CheckProvenance
  Proofs.TreeAtoms.

Fixpoint tdescrs (e : expr) : list (option string) :=
  match e with
  | Terminal _ d _ _ => [d]
  | NontermRef _ _ _ | Command _ _ _ _ => []
  | Subword c _ _ | Optional c _ | Many1 c _ | DistDescr c _ _ => tdescrs c
  | Sequence cs _ | Alternative cs _ | Fallback cs _ => flat_map tdescrs cs
  end.

Fixpoint ddescrs (e : expr) : list string :=
  match e with
  | Terminal _ _ _ _ | NontermRef _ _ _ | Command _ _ _ _ => []
  | DistDescr c d _ => d :: ddescrs c
  | Subword c _ _ | Optional c _ | Many1 c _ => ddescrs c
  | Sequence cs _ | Alternative cs _ | Fallback cs _ => flat_map ddescrs cs
  end.

Definition dgood (d : option string) : Prop := d <> Some EmptyString.
Definition tok (e : expr) : Prop := forall x, In x (tdescrs e) -> dgood x.
Definition dok (e : expr) : Prop := forall s, In s (ddescrs e) -> s <> EmptyString.

Lemma tdescrs_atoms e : tdescrs e = flat_map (fun a => match a with ALit _ d _ => [d] | _ => [] end) (atoms e).
Proof.
  induction e using expr_ind'; cbn [tdescrs atoms flat_map]; try reflexivity; try assumption;
    rewrite flat_map_flat_map; apply flat_map_ext_Forall; exact H.
Qed.

Lemma ddescrs_atoms e : ddescrs e = dists (atoms e).
Proof.
  unfold dists. induction e using expr_ind'; cbn [ddescrs atoms flat_map app]; try reflexivity; try assumption;
    try (f_equal; exact IHe); rewrite flat_map_flat_map; apply flat_map_ext_Forall; exact H.
Qed.

Definition grammar_descr_ok (g : grammar) : Prop :=
  forall s, In s g -> tok (stmt_expr s) /\ dok (stmt_expr s).

(** a description of a literal of the validated tree is that of a literal of the grammar or one a
    [DistDescr] node distributed onto it: hence the two halves of [grammar_descr_ok] *)
Theorem from_grammar_tok builtins g sh v :
  grammar_descr_ok g -> from_grammar builtins g sh = Ok v -> tok (v_expr v).
Proof.
  intros Hg H d Hd. apply from_grammar_ok in H. rename H into A.
  rewrite tdescrs_atoms in Hd. apply in_flat_map in Hd. destruct Hd as [a [Ha Hd]].
  destruct a as [t d0 sp| | |]; cbn [In] in Hd; try contradiction. destruct Hd as [<-|[]].
  destruct (from_grammar_atoms _ _ _ _ A _ Ha) as [y [Hy [[<-|[t0 [sp0 [d [_ [E Hin]]]]]]|[n [sp' [-> Hs]]]]]].
  - destruct (source_atoms_inv g _ Hy) as [s [Hs Hx]]. apply (proj1 (Hg s Hs)).
    rewrite tdescrs_atoms. apply in_flat_map. exists (ALit t d0 sp). split; [exact Hx|left; reflexivity].
  - injection E as _ -> _. unfold dists in Hin. apply in_flat_map in Hin. destruct Hin as [b [Hb Hin]].
    destruct (source_atoms_inv g _ Hb) as [s [Hs Hx]]. intro F. injection F as ->.
    apply (proj2 (Hg s Hs) EmptyString); [|reflexivity]. rewrite ddescrs_atoms. apply in_flat_map. eauto.
  - destruct (specialize_ref_cases sh (a_us _ _ _ _ A) (builtins sh) (a_fs _ _ _ _ A) (map d_name (a_defs1 _ _ _ _ A)) n 0 sp')
      as [E|[c' [z' [E _]]]]; rewrite E in Hs; destruct Hs as [F|[]]; discriminate F.
Qed.

From CG Require Import Model.Dfa Model.Tables Proofs.TablesSound.

Definition no_empty_descr (d : dfa) : Prop := forall t l, ~ In (ILit t (Some EmptyString) l) (d_inputs d).

Lemma literal_pairs_spec d :
  NoDup (literal_pairs d) /\ forall t ds, In (t, ds) (literal_pairs d) -> exists l, In (ILit t ds l) (d_inputs d).
Proof.
  unfold literal_pairs.
  assert (G : forall xs acc,
             NoDup acc -> (forall t ds, In (t, ds) acc -> exists l, In (ILit t ds l) (d_inputs d)) ->
             (forall x, In x xs -> In x (d_inputs d)) ->
             let r := fold_left (fun acc i => match i with
                                               | ILit t ds _ => if existsb (opair_eqb (t, ds)) acc then acc else acc ++ [(t, ds)]
                                               | _ => acc
                                               end) xs acc in
             NoDup r /\ forall t ds, In (t, ds) r -> exists l, In (ILit t ds l) (d_inputs d)).
  { induction xs as [|x r IH]; intros acc ND Ho Hin; cbn [fold_left]; [auto|].
    apply IH; [| |intros y Hy; apply Hin; right; exact Hy].
    - destruct x; try exact ND. destruct (existsb (opair_eqb (text, descr)) acc) eqn:E; [exact ND|].
      apply NoDup_app_single; [exact ND|]. intro F.
      assert (existsb (opair_eqb (text, descr)) acc = true); [|congruence].
      apply existsb_exists. exists (text, descr). split; [exact F|apply opair_eqb_eq; reflexivity].
    - destruct x; try exact Ho. destruct (existsb (opair_eqb (text, descr)) acc); [exact Ho|].
      intros t ds H. apply in_app_or in H. destruct H as [H|[H|[]]]; [apply Ho; exact H|].
      inversion H; subst. exists level. apply Hin. left. reflexivity. }
  apply (G (d_inputs d) []); [constructor|intros ? ? []|auto].
Qed.

Lemma count_pair_NoDup x l : NoDup l -> (count_pair x l <= 1)%nat.
Proof.
  unfold count_pair. induction 1 as [|y r Hn Hr IH]; cbn [filter List.length]; [lia|].
  destruct (pair_eqb x y) eqn:E; [|exact IH]. apply pair_eqb_eq in E. subst y. cbn [List.length].
  assert (filter (pair_eqb x) r = []); [|rewrite H; cbn; lia].
  destruct (filter (pair_eqb x) r) as [|z zs] eqn:F; [reflexivity|].
  assert (In z (filter (pair_eqb x) r)) by (rewrite F; left; reflexivity).
  apply filter_In in H. destruct H as [H1 H2]. apply pair_eqb_eq in H2. subst z. contradiction.
Qed.

Lemma count_le_one_NoDup l : (forall x, In x l -> (count_pair x l <= 1)%nat) -> NoDup l.
Proof.
  induction l as [|y r IH]; intro H; constructor.
  - intro F. specialize (H y (or_introl eq_refl)). unfold count_pair in H. cbn [filter] in H.
    rewrite (proj2 (pair_eqb_eq y y) eq_refl) in H. cbn [List.length] in H.
    assert (0 < count_pair y r)%nat by (apply count_pair_pos; exact F). unfold count_pair in H0. lia.
  - apply IH. intros x Hx. specialize (H x (or_intror Hx)). unfold count_pair in *. cbn [filter] in H.
    destruct (pair_eqb x y); cbn [List.length] in H; lia.
Qed.

Theorem valid_order_NoDup d ord :
  valid_literal_order d ord = true -> no_empty_descr d -> NoDup ord.
Proof.
  intros V Hne. unfold valid_literal_order in V. apply andb_prop in V. destruct V as [V _].
  apply andb_prop in V. destruct V as [_ V]. rewrite forallb_forall in V.
  destruct (literal_pairs_spec d) as [ND Ho].
  set (ref := map (fun p : string * option string => (fst p, unwrap_descr (snd p))) (literal_pairs d)) in *.
  assert (NDref : NoDup ref).
  { apply NoDup_map_of_inj; [exact ND|]. intros [t ds] [t' ds'] H1 H2 E. cbn [fst snd] in E. inversion E as [[Et Ed]]. subst t'.
    f_equal. destruct (Ho _ _ H1) as [l Hl]. destruct (Ho _ _ H2) as [l' Hl'].
    destruct ds as [a|], ds' as [b|]; cbn [unwrap_descr] in Ed; try reflexivity; subst.
    - reflexivity.
    - exfalso. eapply Hne. exact Hl.
    - exfalso. eapply Hne. exact Hl'. }
  apply count_le_one_NoDup. intros x Hx.
  specialize (V x (in_or_app _ _ _ (or_introl Hx))). apply Nat.eqb_eq in V. rewrite V.
  apply count_pair_NoDup. exact NDref.
Qed.
