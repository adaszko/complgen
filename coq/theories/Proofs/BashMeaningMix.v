(** The trees of layers (b) and (c) of C01 together ([C01Layers.bash_meaning_mixed]): the leaves
    are literals, external commands, undefined nonterminals and within-word expressions made of
    literals ([mix_tree]).  They are [sub_tree]s ([mix_sub_tree]), and their within-word
    expressions satisfy [WordGen.env_word_ok] in every environment ([mix_words_ok]: no command
    inside a word). *)
From CG Require Import Base.Prelude Model.Ast Spec.Rx Spec.Meaning Spec.Domain.
From CG Require Import Proofs.RxFacts Proofs.MeaningFacts Proofs.MeaningLevels Proofs.TreeFacts Proofs.DomainFacts
     Proofs.LangBridge Proofs.SubBridge Proofs.SubTreeFacts Proofs.BashMeaningLit Proofs.WordGen.

Fixpoint mix_tree (e : expr) : bool :=
  match e with
  | Terminal _ _ _ _ | NontermRef _ _ _ => true
  | Command _ z _ _ => negb z
  | Subword c _ _ => lit_tree c
  | DistDescr _ _ _ => false
  | Sequence cs _ | Alternative cs _ | Fallback cs _ => forallb mix_tree cs
  | Optional c _ | Many1 c _ => mix_tree c
  end.

Lemma mix_sub_tree e : mix_tree e = true -> sub_tree e = true.
Proof.
  induction e using expr_ind'; cbn [mix_tree sub_tree]; intro Ht; try discriminate; try reflexivity; try assumption;
    try (apply IHe; assumption); try (apply lit_tree_toplevel; assumption);
    (rewrite forallb_forall in *; rewrite Forall_forall in H; intros x Hx; apply H; [assumption | apply Ht; assumption]).
Qed.

Lemma subw_mix_tree e : subw_tree e = true -> mix_tree e = true.
Proof.
  induction e using expr_ind'; cbn [subw_tree mix_tree]; intro Ht; try discriminate; try reflexivity; try assumption;
    try (apply IHe; assumption);
    (rewrite forallb_forall in *; rewrite Forall_forall in H; intros x Hx; apply H; [assumption | apply Ht; assumption]).
Qed.

Definition ml_leaf (a : leaf) : Prop :=
  match a with
  | LSub x _ => forall b, In b (leaves x) -> wlit_leaf b
  | _ => True
  end.

Lemma mix_tree_leaves e : mix_tree e = true -> forall a, In a (leaves (tr e)) -> ml_leaf a.
Proof.
  apply (tr_leaves mix_tree ml_leaf).
  intros e0 H. destruct e0; cbn in H |- *; try discriminate; try exact I; try exact H. apply lit_tree_wleaves. exact H.
Qed.

Lemma mix_words_ok e en : mix_tree e = true -> C01_domain e = true ->
  forall x, In x (subwords_of (tr e)) -> env_word_ok en x.
Proof.
  intros Ht Hdom x Hx. apply lit_word_env_ok.
  - apply in_flat_map in Hx. destruct Hx as [a [Ha Hx]]. destruct a as [| | | r l]; try contradiction. destruct Hx as [<- | []].
    exact (mix_tree_leaves e Ht _ Ha).
  - destruct (C01_domain_sound e Hdom) as [Hw _]. apply Hw. exact Hx.
Qed.

Section Mix.
  Variable en : Meaning.env.

  Lemma step_when_lit S w : lit_expected (moves S) w ->
    forall k, In k (step en S w) <-> exists d0 l0, In (LLit w d0 l0, k) (moves S).
  Proof. apply step_lit_expected. Qed.
End Mix.
