(** C14, checker part: no pass of the model of [from_grammar] inspects a span.  Mapping any
    function over all the spans of a grammar commutes with every pass, hence with
    [from_grammar]: verdict, error class, command, validated tree and warnings are the same up
    to the same mapping of spans. *)
From CG Require Import Base.Prelude Base.Facts Proofs.ListFacts Model.Ast Model.Check.
From CG Require Import Proofs.CheckChoice Proofs.CheckMistakes Proofs.CheckLemmas.
From CG Require Import Proofs.CheckCycle Proofs.CheckTotal.

Section MapSpans.
  Variable f : span -> span.

  Fixpoint ms (e : expr) : expr :=
    match e with
    | Terminal t d l sp => Terminal t d l (f sp)
    | NontermRef n l sp => NontermRef n l (f sp)
    | Command c z l sp => Command c z l (f sp)
    | Sequence cs sp => Sequence (map ms cs) (f sp)
    | Alternative cs sp => Alternative (map ms cs) (f sp)
    | Optional c sp => Optional (ms c) (f sp)
    | Many1 c sp => Many1 (ms c) (f sp)
    | DistDescr c d sp => DistDescr (ms c) d (f sp)
    | Fallback cs sp => Fallback (map ms cs) (f sp)
    | Subword c l sp => Subword (ms c) l (f sp)
    end.

  Definition ms_stmt (s : statement) : statement :=
    match s with
    | CallVariant n sp e => CallVariant n (f sp) (ms e)
    | NontermDef n sp sh rhs =>
        NontermDef n (f sp) (option_map (fun p => (fst p, f (snd p))) sh) (ms rhs)
    end.

  Definition ms_grammar (g : grammar) : grammar := map ms_stmt g.

  Definition ms_err (e : cerror) : cerror :=
    match e with
    | MissingCallVariants => MissingCallVariants
    | VaryingCommandNames spans => VaryingCommandNames (map f spans)
    | InvalidCommandName sp => InvalidCommandName (f sp)
    | DuplicateNonterminalDefinition a b => DuplicateNonterminalDefinition (f a) (f b)
    | UnknownShell sp => UnknownShell (f sp)
    | NonCommandSpecialization sp => NonCommandSpecialization (f sp)
    | NonterminalDefinitionsCycle spans => NonterminalDefinitionsCycle (map f spans)
    | SubwordSpaces l r trace => SubwordSpaces (f l) (f r) (map f trace)
    end.

  Definition msp (l : list (string * span)) : list (string * span) :=
    map (fun p => (fst p, f (snd p))) l.

  Definition ms_valid (v : valid_grammar) : valid_grammar :=
    mkvalid (v_command v) (ms (v_expr v)) (msp (v_undefined v)) (msp (v_unused v))
            (msp (v_unused_specs v)).

  Definition ms_res {A} (fa : A -> A) (r : res A) : res A :=
    match r with
    | Ok a => Ok (fa a)
    | Err e => Err (ms_err e)
    | Panic s => Panic s
    | OutOfFuel => OutOfFuel
    end.

  Lemma ms_res_bind {A B} (fa : A -> A) (fb : B -> B) (x : res A) (k k' : A -> res B) :
    (forall a, k' (fa a) = ms_res fb (k a)) ->
    obind (ms_res fa x) k' = ms_res fb (obind x k).
  Proof. intro H. destruct x; cbn; [apply H|reflexivity|reflexivity|reflexivity]. Qed.

  Lemma expr_span_ms e : expr_span (ms e) = f (expr_span e).
  Proof. destruct e; reflexivity. Qed.

  Lemma expr_size_ms e : expr_size (ms e) = expr_size e.
  Proof.
    induction e using expr_ind'; cbn [ms expr_size]; try reflexivity; try (rewrite IHe; reflexivity);
      (f_equal; induction H; cbn; [reflexivity|rewrite H, IHForall; reflexivity]).
  Qed.

  Lemma map_fst_msp l : map fst (msp l) = map fst l.
  Proof. unfold msp. rewrite map_map. reflexivity. Qed.

  Lemma map_snd_msp l : map snd (msp l) = map f (map snd l).
  Proof. unfold msp. rewrite !map_map. reflexivity. Qed.

  Definition ms_cv (x : string * span * expr) : string * span * expr :=
    (fst (fst x), f (snd (fst x)), ms (snd x)).

  Lemma call_variants_ms g : call_variants (ms_grammar g) = map ms_cv (call_variants g).
  Proof.
    unfold call_variants, ms_grammar. induction g as [|s g IH]; cbn; [reflexivity|].
    destruct s; cbn; rewrite IH; reflexivity.
  Qed.

  Lemma cv_names_ms g : cv_names (ms_grammar g) = msp (cv_names g).
  Proof. unfold cv_names, msp. rewrite call_variants_ms, !map_map. reflexivity. Qed.

  Lemma dedup_names_ms l : forall seen, dedup_names seen (msp l) = msp (dedup_names seen l).
  Proof.
    induction l as [|[n sp] l IH]; intro seen; cbn; [reflexivity|].
    destruct (mem_str n seen); [apply IH|]. cbn. rewrite IH. reflexivity.
  Qed.

  Lemma expr0_ms g : call_variants g <> [] -> expr0_of (ms_grammar g) = ms (expr0_of g).
  Proof.
    unfold expr0_of. rewrite call_variants_ms, map_map. intro Hne.
    destruct (call_variants g) as [|[[n sp] e] [|[[n' sp'] e'] r]]; [congruence|reflexivity|].
    cbn [map snd ms_cv fst ms]. rewrite expr_span_ms, !map_map. reflexivity.
  Qed.

  Definition ms_def (x : string * span * option (string * span) * expr)
    : string * span * option (string * span) * expr :=
    match x with
    | (n, nsp, sh, rhs) => (n, f nsp, option_map (fun p => (fst p, f (snd p))) sh, ms rhs)
    end.

  Lemma all_defs_ms g : all_defs (ms_grammar g) = map ms_def (all_defs g).
  Proof.
    unfold all_defs, ms_grammar. induction g as [|s g IH]; cbn; [reflexivity|].
    destruct s; cbn; rewrite IH; reflexivity.
  Qed.

  Lemma distribute_ms e : forall d,
    distribute (ms e) d = (ms (fst (distribute e d)), snd (distribute e d)).
  Proof.
    assert (Hl : forall cs, Forall (fun e => forall d, distribute (ms e) d
                                                        = (ms (fst (distribute e d)), snd (distribute e d))) cs ->
                            forall d, distribute_list (map ms cs) d
                                      = (map ms (fst (distribute_list cs d)), snd (distribute_list cs d))).
    { induction 1 as [|x l Hx _ IH]; intro d; cbn; [reflexivity|].
      rewrite Hx. destruct (distribute x d) as [c' d1]. cbn. rewrite IH.
      destruct (distribute_list l d1) as [r' d2]. reflexivity. }
    induction e using expr_ind'; intro d0.
    - cbn. destruct d; [reflexivity|]. destruct d0; reflexivity.
    - reflexivity.
    - reflexivity.
    - cbn [ms]. rewrite !distribute_seq, Hl by exact H.
      destruct (distribute_list cs d0). reflexivity.
    - cbn [ms distribute fst snd]. f_equal. f_equal. rewrite !map_map.
      apply map_ext_Forall. eapply Forall_impl; [|exact H]. intros a Ha. cbn beta. rewrite Ha. reflexivity.
    - cbn [ms distribute]. rewrite IHe. destruct (distribute e d0). reflexivity.
    - cbn [ms distribute]. rewrite IHe. destruct (distribute e d0). reflexivity.
    - cbn [ms distribute fst snd]. rewrite IHe. reflexivity.
    - cbn [ms]. rewrite !distribute_fb, Hl by exact H.
      destruct (distribute_list cs d0). reflexivity.
    - cbn [ms distribute]. rewrite IHe. destruct (distribute e d0). reflexivity.
  Qed.

  Lemma distribute_descriptions_ms e :
    distribute_descriptions (ms e) = ms (distribute_descriptions e).
  Proof. unfold distribute_descriptions. rewrite distribute_ms. reflexivity. Qed.

  Definition ms_us (us : list (string * user_spec)) : list (string * user_spec) :=
    map (fun p => (fst p, mkspec (us_cmd (snd p)) (f (us_span (snd p))))) us.

  Definition ms_fs (fs : list (string * (string * span))) : list (string * (string * span)) :=
    map (fun p => (fst p, (fst (snd p), f (snd (snd p))))) fs.

  Lemma get_user_specs_ms target ds : forall acc,
    get_user_specs target (map ms_def ds) (ms_us acc) = ms_res ms_us (get_user_specs target ds acc).
  Proof.
    induction ds as [|[[[n nsp] sh] rhs] r IH]; intro acc; cbn [map ms_def get_user_specs]; [reflexivity|].
    destruct sh as [[shn shsp]|]; cbn [option_map fst snd]; [|apply IH].
    destruct rhs; cbn [ms ms_res ms_err expr_span]; try reflexivity.
    destruct (shell_of_string shn); [|reflexivity].
    destruct (shell_eqb s target); [|apply IH].
    unfold ms_us at 1. rewrite (assoc_map_snd (fun s => mkspec (us_cmd s) (f (us_span s)))).
    destruct (assoc n acc); cbn [option_map]; [reflexivity|].
    rewrite <- IH. unfold ms_us. rewrite map_app. reflexivity.
  Qed.

  Lemma get_fallback_specs_ms sp ds : forall acc,
    get_fallback_specs sp (map ms_def ds) (ms_fs acc) = ms_res ms_fs (get_fallback_specs sp ds acc).
  Proof.
    induction ds as [|[[[n nsp] sh] rhs] r IH]; intro acc; cbn [map ms_def get_fallback_specs]; [reflexivity|].
    destruct sh as [[shn shsp]|]; cbn [option_map]; [apply IH|].
    destruct (mem_str n sp); [|apply IH].
    destruct rhs; cbn [ms ms_res ms_err expr_span]; try reflexivity.
    unfold ms_fs at 1. rewrite (assoc_map_snd (fun s : string * span => (fst s, f (snd s)))).
    destruct (assoc n acc) as [[c p]|]; cbn [option_map]; [reflexivity|].
    rewrite <- IH. unfold ms_fs. rewrite map_app. reflexivity.
  Qed.

  Definition ms_specs (x : list (string * user_spec) * list (string * (string * span))) :=
    (ms_us (fst x), ms_fs (snd x)).

  Lemma get_specializations_ms g target :
    get_specializations (ms_grammar g) target = ms_res ms_specs (get_specializations g target).
  Proof.
    unfold get_specializations. rewrite all_defs_ms.
    pose proof (get_user_specs_ms target (all_defs g) []) as H1. cbn in H1. rewrite H1.
    destruct (get_user_specs target (all_defs g) []) as [us| | |]; cbn [ms_res obind]; try reflexivity.
    assert (Hk : map fst (ms_us us) = map fst us) by (unfold ms_us; rewrite map_map; reflexivity).
    rewrite Hk.
    pose proof (get_fallback_specs_ms (map fst us) (all_defs g) []) as H2. cbn in H2. rewrite H2.
    destruct (get_fallback_specs (map fst us) (all_defs g) []); reflexivity.
  Qed.

  Definition ms_defn (d : defn) : defn := mkdefn (d_name d) (f (d_span d)) (ms (d_rhs d)).

  Lemma collect_plain_defs_ms ds : forall acc,
    collect_plain_defs (map ms_def ds) (map ms_defn acc)
    = ms_res (map ms_defn) (collect_plain_defs ds acc).
  Proof.
    induction ds as [|[[[n nsp] sh] rhs] r IH]; intro acc; cbn [map ms_def collect_plain_defs]; [reflexivity|].
    destruct sh as [[shn shsp]|]; cbn [option_map]; [apply IH|].
    rewrite find_name_map by reflexivity. destruct (find _ acc); cbn [option_map]; [reflexivity|].
    rewrite <- IH, map_app. reflexivity.
  Qed.

  Lemma specialize_ms sh us bi fs plain e :
    specialize sh (ms_us us) bi (ms_fs fs) plain (ms e) = ms (specialize sh us bi fs plain e).
  Proof.
    induction e using expr_ind'; cbn [ms specialize]; try reflexivity; try (rewrite IHe; reflexivity);
      try (f_equal; rewrite !map_map; apply map_ext_Forall; exact H).
    unfold specialize_ref, ms_us, ms_fs.
    rewrite (assoc_map_snd (fun s => mkspec (us_cmd s) (f (us_span s)))).
    rewrite (assoc_map_snd (fun s : string * span => (fst s, f (snd s)))).
    destruct (assoc n us); cbn [option_map]; [reflexivity|].
    destruct (assoc n fs) as [[c p]|]; cbn [option_map]; [reflexivity|].
    destruct (mem_str n plain); [reflexivity|]. destruct (assoc n bi); reflexivity.
  Qed.

  Lemma nonterm_refs_ms e : nonterm_refs (ms e) = msp (nonterm_refs e).
  Proof.
    induction e using expr_ind'; cbn [ms nonterm_refs]; try reflexivity; try assumption;
      rewrite flat_map_map; unfold msp; rewrite map_flat_map; apply flat_map_ext_Forall; exact H.
  Qed.

  Lemma refs_map_ms l : forall acc, refs_map (msp l) (msp acc) = msp (refs_map l acc).
  Proof.
    induction l as [|[n sp] l IH]; intro acc; cbn [msp map refs_map fst snd]; [reflexivity|].
    fold (msp l). fold (msp acc). rewrite map_fst_msp.
    destruct (mem_str n (map fst acc)).
    - rewrite <- IH. f_equal. unfold msp. rewrite !map_map. apply map_ext. intros [k v]. cbn.
      destruct (String.eqb k n); reflexivity.
    - rewrite <- IH. f_equal. unfold msp. rewrite map_app. reflexivity.
  Qed.

  Lemma get_nonterm_refs_ms e : get_nonterm_refs (ms e) = msp (get_nonterm_refs e).
  Proof. unfold get_nonterm_refs. rewrite nonterm_refs_ms. apply (refs_map_ms _ []). Qed.

  Definition msg (graph : list (string * list (string * span))) :=
    map (fun p => (fst p, msp (snd p))) graph.

  Lemma children_ms graph v : children (msg graph) v = msp (children graph v).
  Proof.
    unfold children, msg. rewrite (assoc_map_snd msp). destruct (assoc v graph); reflexivity.
  Qed.

  Lemma each_ms rec rec' v path
        (Hrec : forall c path st, rec' c (msp path) st = ms_res (fun x => x) (rec c path st)) :
    forall cs st,
      each rec' v (msp path) (msp cs) st = ms_res (fun x => x) (each rec v path cs st).
  Proof.
    induction cs as [|[c sp] r IH]; intro st; cbn [msp map each fst snd]; [reflexivity|].
    fold (msp r). fold (msp path). rewrite map_fst_msp.
    destruct (mem_str c (map fst path)).
    - cbn [ms_res ms_err]. f_equal. f_equal. rewrite <- map_snd_msp. unfold msp. rewrite !map_app.
      reflexivity.
    - destruct (mem_str c (visited st)); [apply IH|].
      assert (Hp : msp path ++ [(c, f sp)] = msp (path ++ [(c, sp)])).
      { unfold msp. rewrite map_app. reflexivity. }
      rewrite Hp, Hrec. destruct (rec c (path ++ [(c, sp)]) st); cbn [ms_res obind]; try reflexivity.
      apply IH.
  Qed.

  Lemma dfs_ms graph fuel : forall v path st,
    dfs (msg graph) fuel v (msp path) st = ms_res (fun x => x) (dfs graph fuel v path st).
  Proof.
    induction fuel as [|fuel IH]; intros v path st; [reflexivity|].
    rewrite !dfs_S, children_ms. apply each_ms. exact IH.
  Qed.

  Lemma indegree_zero_ms graph v : indegree_zero (msg graph) v = indegree_zero graph v.
  Proof.
    unfold indegree_zero, msg. f_equal. induction graph as [|[k cs] g IH]; cbn; [reflexivity|].
    rewrite map_fst_msp, IH. reflexivity.
  Qed.

  Lemma search_roots_ms graph fuel : forall roots st,
    search_roots (msg graph) fuel (msp roots) st
    = ms_res (fun x => x) (search_roots graph fuel roots st).
  Proof.
    induction roots as [|[v vsp] r IH]; intro st; cbn [msp map search_roots fst snd]; [reflexivity|].
    fold (msp r). destruct (mem_str v (visited st)); [apply IH|].
    change [(v, f vsp)] with (msp [(v, vsp)]). rewrite dfs_ms.
    destruct (dfs graph fuel v [(v, vsp)] st); cbn [ms_res obind]; try reflexivity. apply IH.
  Qed.

  Lemma graph_of_ms defs : graph_of (map ms_defn defs) = msg (graph_of defs).
  Proof.
    unfold graph_of, msg.
    assert (Hn : map d_name (map ms_defn defs) = map d_name defs) by (rewrite map_map; reflexivity).
    rewrite Hn. rewrite !map_map. apply map_ext. intro d. cbn [ms_defn d_name d_rhs fst snd]. f_equal.
    rewrite get_nonterm_refs_ms. unfold msp.
    induction (get_nonterm_refs (d_rhs d)) as [|[k sp] l IHl]; cbn; [reflexivity|].
    destruct (mem_str k (map d_name defs)); cbn; rewrite IHl; reflexivity.
  Qed.

  Lemma has_children_ms graph v : has_children (msg graph) v = has_children graph v.
  Proof. unfold has_children. rewrite children_ms. destruct (children graph v); reflexivity. Qed.

  Lemma filter_msp (P P' : string * span -> bool) l :
    (forall k sp, P' (k, f sp) = P (k, sp)) -> filter P' (msp l) = msp (filter P l).
  Proof.
    intro H. unfold msp. induction l as [|[k sp] l IH]; cbn; [reflexivity|]. rewrite H.
    destruct (P (k, sp)); cbn; rewrite IH; reflexivity.
  Qed.

  Lemma resolution_order_ms defs :
    resolution_order (map ms_defn defs) = ms_res (fun x => x) (resolution_order defs).
  Proof.
    rewrite !resolution_order_eq, graph_of_ms, map_length.
    assert (Hv : verts_of (map ms_defn defs) = msp (verts_of defs)).
    { unfold verts_of, msp. rewrite !map_map. reflexivity. }
    rewrite Hv.
    assert (Hr : filter (fun p => indegree_zero (msg (graph_of defs)) (fst p)) (msp (verts_of defs))
                 ++ msp (verts_of defs)
                 = msp (filter (fun p => indegree_zero (graph_of defs) (fst p)) (verts_of defs)
                        ++ verts_of defs)).
    { unfold msp at 3. rewrite map_app. f_equal. apply filter_msp.
      intros k sp. cbn [fst]. apply indegree_zero_ms. }
    rewrite Hr, search_roots_ms.
    destruct (search_roots (graph_of defs) _ _ _); cbn [ms_res obind]; try reflexivity.
    f_equal. apply filter_ext. intro v. apply has_children_ms.
  Qed.

  Definition mst (t : list (string * expr)) : list (string * expr) :=
    map (fun p => (fst p, ms (snd p))) t.

  Lemma resolve_ms t e : resolve (mst t) (ms e) = ms (resolve t e).
  Proof.
    induction e using expr_ind'; cbn [ms resolve]; try reflexivity; try (rewrite IHe; reflexivity);
      try (f_equal; rewrite !map_map; apply map_ext_Forall; exact H).
    unfold mst. rewrite (assoc_map_snd ms). destruct (assoc n t); reflexivity.
  Qed.

  Lemma update_def_ms n x t : update_def n (ms x) (mst t) = mst (update_def n x t).
  Proof.
    unfold update_def, mst. rewrite !map_map. apply map_ext. intros [k v]. cbn.
    destruct (String.eqb k n); reflexivity.
  Qed.

  Lemma resolve_in_order_ms ord : forall t,
    resolve_in_order ord (mst t) = mst (resolve_in_order ord t).
  Proof.
    induction ord as [|n r IH]; intro t; cbn [resolve_in_order]; [reflexivity|].
    unfold mst at 1. rewrite (assoc_map_snd ms). fold (mst t).
    destruct (assoc n t); cbn [option_map]; [|apply IH].
    rewrite resolve_ms, update_def_ms. apply IH.
  Qed.

  Definition omst (follow : option (list (string * expr))) := option_map mst follow.

  Lemma followed_ms follow n : followed (omst follow) n = option_map ms (followed follow n).
  Proof.
    destruct follow as [t|]; cbn; [|reflexivity]. unfold mst. apply (assoc_map_snd ms).
  Qed.

  Lemma expr_end_ms hd follow fuel : forall e,
    expr_end hd (omst follow) fuel (ms e) = ms_res ms (expr_end hd follow fuel e).
  Proof.
    induction fuel as [|fuel IH]; intro e; [destruct hd; reflexivity|]. rewrite !expr_end_S.
    destruct e; cbn [ms]; try reflexivity; try apply IH.
    - rewrite followed_ms. destruct (followed follow name); cbn [option_map]; [apply IH|reflexivity].
    - rewrite pick_map. destruct (pick hd children); cbn [option_map]; [apply IH|reflexivity].
  Qed.

  Definition msadj (x : option (span * span)) : option (span * span) :=
    option_map (fun p => (f (fst p), f (snd p))) x.

  Lemma adjacent_terminals_ms follow fuel cs :
    adjacent_terminals (omst follow) fuel (map ms cs)
    = ms_res msadj (adjacent_terminals follow fuel cs).
  Proof.
    induction cs as [|a r IH]; [reflexivity|]. destruct r as [|b r']; [reflexivity|].
    cbn [map]. rewrite !(adjacent_terminals_eq _ _ (_ :: _ :: _)), !expr_end_ms.
    destruct (expr_end false follow fuel a) as [ta| | |]; cbn [ms_res obind]; try reflexivity.
    destruct (expr_end true follow fuel b) as [hb| | |]; cbn [ms_res obind]; try reflexivity.
    destruct ta; cbn [ms]; try exact IH. destruct hb; cbn [ms]; try exact IH. reflexivity.
  Qed.

  Lemma sp_all_ms (rec rec' : expr -> res unit) cs :
    Forall (fun c => rec' (ms c) = ms_res (fun x => x) (rec c)) cs ->
    sp_all rec' (map ms cs) = ms_res (fun x => x) (sp_all rec cs).
  Proof.
    induction 1 as [|x l Hx _ IH]; cbn; [reflexivity|]. rewrite Hx.
    destruct (rec x) as [[]| | |]; cbn; [exact IH|reflexivity|reflexivity|reflexivity].
  Qed.

  Lemma spaces_ms t fuel : forall e trace within juxt,
    spaces (mst t) fuel (ms e) (map f trace) within juxt
    = ms_res (fun x => x) (spaces t fuel e trace within juxt).
  Proof.
    induction fuel as [|fuel IH]; intros e trace within juxt; [reflexivity|].
    rewrite !spaces_S.
    assert (Hall : forall cs, sp_all (fun c => spaces (mst t) fuel c (map f trace) within false) (map ms cs)
                              = ms_res (fun x => x) (sp_all (fun c => spaces t fuel c trace within false) cs)).
    { intro cs. apply sp_all_ms. apply Forall_forall. intros c _. apply IH. }
    destruct e; cbn [ms]; try reflexivity; try apply IH; try apply Hall.
    - unfold mst. rewrite (assoc_map_snd ms). fold (mst t).
      destruct (assoc name t); cbn [option_map]; [|reflexivity].
      change (map f trace ++ [f sp]) with (map f trace ++ map f [sp]). rewrite <- map_app. apply IH.
    - rewrite Hall. destruct (sp_all _ children) as [[]| | |]; cbn [ms_res obind]; try reflexivity.
      destruct within; [|reflexivity].
      assert (Hf : follow_of (mst t) juxt = omst (follow_of t juxt)) by (destruct juxt; reflexivity).
      rewrite Hf, adjacent_terminals_ms.
      destruct (adjacent_terminals _ fuel children) as [[[l r]|]| | |]; reflexivity.
  Qed.

  Lemma flatten_ms e : flatten (ms e) = ms (flatten e).
  Proof.
    induction e using expr_ind'; cbn [ms flatten]; try reflexivity; try (rewrite IHe; reflexivity);
      try assumption; f_equal; rewrite !map_map; apply map_ext_Forall; exact H.
  Qed.

  Lemma collapse_ms e : collapse (ms e) = ms (collapse e).
  Proof.
    induction e using expr_ind'; cbn [ms collapse]; try reflexivity; try (rewrite IHe; reflexivity);
      try (f_equal; rewrite !map_map; apply map_ext_Forall; exact H).
    rewrite flatten_ms. reflexivity.
  Qed.

  Lemma propagate_ms e : forall lvl, propagate (ms e) lvl = ms (propagate e lvl).
  Proof.
    induction e using expr_ind'; intro lvl; cbn [ms]; try reflexivity;
      try (cbn [propagate ms]; rewrite IHe; reflexivity);
      try (cbn [propagate ms]; f_equal; rewrite !map_map; apply map_ext_Forall;
           eapply Forall_impl; [|exact H]; intros a Ha; apply Ha).
    rewrite !propagate_fb. cbn [ms]. f_equal. generalize 0 as i.
    induction H as [|x l Hx _ IH]; intro i; cbn; [reflexivity|]. rewrite Hx, IH. reflexivity.
  Qed.
End MapSpans.

Section Naturality.
  Variable f : span -> span.

  Lemma defs1_ms defs0 : defs1_of (map (ms_defn f) defs0) = map (ms_defn f) (defs1_of defs0).
  Proof.
    unfold defs1_of. rewrite !map_map. apply map_ext. intro d. unfold ms_defn. cbn.
    rewrite distribute_descriptions_ms. reflexivity.
  Qed.

  Lemma names_ms defs : map d_name (map (ms_defn f) defs) = map d_name defs.
  Proof. rewrite map_map. reflexivity. Qed.

  Lemma spaces_fuel_ms t e : spaces_fuel (mst f t) (ms f e) = spaces_fuel t e.
  Proof.
    unfold spaces_fuel, mst. rewrite map_length, expr_size_ms. f_equal. f_equal.
    induction t as [|[k v] t IH]; cbn; [reflexivity|]. rewrite expr_size_ms, IH. reflexivity.
  Qed.

  Lemma referenced_ms defs1 e :
    referenced_of (map (ms_defn f) defs1) (ms f e) = referenced_of defs1 e.
  Proof.
    unfold referenced_of. rewrite !map_app, nonterm_refs_ms, map_fst_msp. f_equal.
    induction defs1 as [|d r IH]; cbn; [reflexivity|].
    rewrite !map_app, nonterm_refs_ms, map_fst_msp, IH. reflexivity.
  Qed.

  Lemma back_end_ms builtins g sh command defs0 us fs :
    call_variants g <> [] ->
    back_end builtins (ms_grammar f g) sh command (map (ms_defn f) defs0) (ms_us f us) (ms_fs f fs)
    = ms_res f (ms_valid f) (back_end builtins g sh command defs0 us fs).
  Proof.
    intro Hne. unfold back_end. cbn zeta.
    rewrite defs1_ms, (expr0_ms f g Hne), distribute_descriptions_ms.
    unfold spec_of. rewrite names_ms.
    set (defs1 := defs1_of defs0).
    set (spec := specialize sh us (builtins sh) fs (map d_name defs1)).
    set (spec' := specialize sh (ms_us f us) (builtins sh) (ms_fs f fs) (map d_name defs1)).
    assert (Hspec : forall e, spec' (ms f e) = ms f (spec e)) by (intro e; apply specialize_ms).
    assert (Hd2 : defs2_of spec' (map (ms_defn f) defs1) = map (ms_defn f) (defs2_of spec defs1)).
    { unfold defs2_of. rewrite !map_map. apply map_ext. intro d. unfold ms_defn. cbn.
      rewrite Hspec. reflexivity. }
    rewrite Hd2, Hspec, resolution_order_ms.
    destruct (resolution_order (defs2_of spec defs1)) as [ord| | |]; cbn [ms_res obind]; try reflexivity.
    assert (Ht : table0_of (map (ms_defn f) (defs2_of spec defs1)) = mst f (table0_of (defs2_of spec defs1))).
    { unfold table0_of, mst. rewrite !map_map. reflexivity. }
    rewrite Ht, resolve_in_order_ms, spaces_fuel_ms.
    change (@nil span) with (map f (@nil span)) at 1. rewrite spaces_ms.
    destruct (spaces _ _ _ [] false false) as [[]| | |]; cbn [ms_res obind]; try reflexivity.
    rewrite resolve_ms, collapse_ms, propagate_ms, get_nonterm_refs_ms, referenced_ms.
    unfold ms_valid. cbn [v_command v_expr v_undefined v_unused v_unused_specs]. f_equal. f_equal.
    - unfold unused_of. symmetry. rewrite <- (filter_msp f (fun p => negb (mem_str (fst p) _))
                                                         (fun p => negb (mem_str (fst p) _))) by reflexivity.
      f_equal. unfold msp. rewrite !map_map. reflexivity.
    - unfold unused_specs_of. symmetry.
      rewrite <- (filter_msp f (fun p => negb (mem_str (fst p) _))
                             (fun p => negb (mem_str (fst p) _))) by reflexivity.
      f_equal. unfold msp, ms_us. rewrite !map_map. reflexivity.
  Qed.

  Theorem from_grammar_ms builtins g sh :
    from_grammar builtins (ms_grammar f g) sh
    = ms_res f (ms_valid f) (from_grammar builtins g sh).
  Proof.
    rewrite !from_grammar_named_eq. unfold from_grammar_named.
    rewrite cv_names_ms, dedup_names_ms.
    destruct (dedup_names [] (cv_names g)) as [|[command cspan] more] eqn:Hd; [reflexivity|].
    assert (Hne : call_variants g <> []).
    { intro H. unfold cv_names in Hd. rewrite H in Hd. discriminate. }
    cbn [msp map fst snd]. fold (msp f more).
    destruct more as [|m more]; cbn [msp map].
    2:{ cbn [ms_res ms_err map snd fst]. rewrite !map_map. reflexivity. }
    destruct (contains_char slash command); [reflexivity|].
    rewrite all_defs_ms.
    pose proof (collect_plain_defs_ms f (all_defs g) []) as Hc. cbn [map] in Hc. rewrite Hc.
    destruct (collect_plain_defs (all_defs g) []) as [defs0| | |]; cbn [ms_res obind]; try reflexivity.
    rewrite get_specializations_ms.
    destruct (get_specializations g sh) as [[us fs]| | |]; cbn [ms_res obind ms_specs fst snd];
      try reflexivity.
    apply back_end_ms. exact Hne.
  Qed.
End Naturality.

Definition erase : span -> span := fun _ => mkspan 0 0 0.

Definition same_shape (g1 g2 : grammar) : Prop := ms_grammar erase g1 = ms_grammar erase g2.

Theorem layout_check builtins g1 g2 sh :
  same_shape g1 g2 ->
  ms_res erase (ms_valid erase) (from_grammar builtins g1 sh)
  = ms_res erase (ms_valid erase) (from_grammar builtins g2 sh).
Proof. intro H. rewrite <- !from_grammar_ms. unfold same_shape in H. rewrite H. reflexivity. Qed.

Corollary layout_verdict builtins g1 g2 sh :
  same_shape g1 g2 ->
  (forall v1, from_grammar builtins g1 sh = Ok v1 ->
              exists v2, from_grammar builtins g2 sh = Ok v2 /\ v_command v1 = v_command v2
                         /\ ms erase (v_expr v1) = ms erase (v_expr v2)
                         /\ map fst (v_undefined v1) = map fst (v_undefined v2)
                         /\ map fst (v_unused v1) = map fst (v_unused v2)
                         /\ map fst (v_unused_specs v1) = map fst (v_unused_specs v2)) /\
  (forall e1, from_grammar builtins g1 sh = Err e1 ->
              exists e2, from_grammar builtins g2 sh = Err e2 /\ ms_err erase e1 = ms_err erase e2).
Proof.
  intro H. pose proof (layout_check builtins g1 g2 sh H) as E. split.
  - intros v1 H1. rewrite H1 in E. destruct (from_grammar builtins g2 sh) as [v2| | |]; try discriminate.
    exists v2. split; [reflexivity|]. cbn in E. inversion E as [[Hc He Hu Hn Hs]].
    repeat split; auto.
    + rewrite <- (map_fst_msp erase (v_undefined v1)), Hu, map_fst_msp. reflexivity.
    + rewrite <- (map_fst_msp erase (v_unused v1)), Hn, map_fst_msp. reflexivity.
    + rewrite <- (map_fst_msp erase (v_unused_specs v1)), Hs, map_fst_msp. reflexivity.
  - intros e1 H1. rewrite H1 in E. destruct (from_grammar builtins g2 sh) as [|e2| |]; try discriminate.
    exists e2. split; [reflexivity|]. cbn in E. inversion E. reflexivity.
Qed.
