(** Glushkov facts behind the "unbounded item must be last" check: in the tables of a builder
    tree every position is accessible from [firstpos]; a position outside [lastpos] has a
    follower; and "no marked position has a follower inside the tree" is a syntactic property. *)
From CG Require Import Base.Prelude Proofs.ListFacts Model.Ast Model.Regex Proofs.RxLang Proofs.Glushkov Proofs.Useful.

Definition reached (t : rx) (p : N) : Prop :=
  exists a r, In a (firstpos t) /\ chain (followpos t) a r /\ last r a = p.

Definition reached_goal (t : rx) : Prop :=
  shape t -> ors_nonempty t = true -> forall p, In p (positions t) -> reached t p.

Lemma reached_cat cs :
  Forall reached_goal cs -> Forall shape cs -> pairwise_disjoint (map positions cs) ->
  forallb ors_nonempty cs = true ->
  forall p, In p (positions (XCat cs)) -> reached (XCat cs) p.
Proof.
  intros IH. induction IH as [|c cs Hc _ IHcs]; intros Hs Hd Ho p Hp.
  - simpl in Hp. contradiction.
  - inversion Hs as [|? ? Hsc Hscs]; subst. simpl in Hd. destruct Hd as [Hd1 Hd2].
    cbn [forallb] in Ho. apply andb_true_iff in Ho. destruct Ho as [Ho1 Ho2].
    rewrite positions_cat_cons in Hp. apply in_app_iff in Hp. destruct Hp as [Hp|Hp].
    + destruct (Hc Hsc Ho1 p Hp) as (a & r & Ha & C & Hl). exists a, r. split; [|split; [|exact Hl]].
      * apply firstpos_cat_cons. auto.
      * eapply chain_mono; [|exact C]. intros x y H. apply followpos_cat_cons. auto.
    + destruct (IHcs Hscs Hd2 Ho2 p Hp) as (a & r & Ha & C & Hl).
      assert (C' : chain (followpos (XCat (c :: cs))) a r).
      { eapply chain_mono; [|exact C]. intros x y H. apply followpos_cat_cons. auto. }
      destruct (nullable c) eqn:Hn.
      * exists a, r. split; [apply firstpos_cat_cons; auto|]. split; [exact C'|exact Hl].
      * destruct (lastpos_nonempty c Hsc Ho1 Hn) as [b Hb].
        destruct (Hc Hsc Ho1 b (last_pos _ _ Hb)) as (a0 & r0 & Ha0 & C0 & Hl0).
        exists a0, (r0 ++ a :: r). split; [apply firstpos_cat_cons; auto|]. split.
        -- apply chain_app; [|rewrite Hl0|exact C'].
           ++ eapply chain_mono; [|exact C0]. intros x y H. apply followpos_cat_cons. auto.
           ++ apply followpos_cat_cons. right. right. apply in_pprod. auto.
        -- rewrite last_app_cons. exact Hl.
Qed.

Lemma reached_or cs :
  Forall reached_goal cs -> Forall shape cs -> forallb ors_nonempty cs = true ->
  forall p, In p (positions (XOr cs)) -> reached (XOr cs) p.
Proof.
  intros IH. induction IH as [|c cs Hc _ IHcs]; intros Hs Ho p Hp.
  - simpl in Hp. contradiction.
  - inversion Hs as [|? ? Hsc Hscs]; subst.
    cbn [forallb] in Ho. apply andb_true_iff in Ho. destruct Ho as [Ho1 Ho2].
    rewrite positions_or_cons in Hp. apply in_app_iff in Hp. destruct Hp as [Hp|Hp].
    + destruct (Hc Hsc Ho1 p Hp) as (a & r & Ha & C & Hl). exists a, r. split; [|split; [|exact Hl]].
      * apply firstpos_or_cons. auto.
      * eapply chain_mono; [|exact C]. intros x y H. apply followpos_or_cons. auto.
    + destruct (IHcs Hscs Ho2 p Hp) as (a & r & Ha & C & Hl). exists a, r. split; [|split; [|exact Hl]].
      * apply firstpos_or_cons. auto.
      * eapply chain_mono; [|exact C]. intros x y H. apply followpos_or_cons. auto.
Qed.

Lemma reached_many c :
  (forall p, In p (positions c) -> reached c p) ->
  forall p, In p (positions (XCat [c; XStar c])) -> reached (XCat [c; XStar c]) p.
Proof.
  intros Hc p Hp.
  assert (Hp' : In p (positions c)).
  { cbn [positions flat_map] in Hp. rewrite app_nil_r in Hp. apply in_app_iff in Hp. tauto. }
  destruct (Hc p Hp') as (a & r & Ha & C & Hl). exists a, r. split; [|split; [|exact Hl]].
  - apply firstpos_many. exact Ha.
  - eapply chain_mono; [|exact C]. intros x y H. apply followpos_many. auto.
Qed.

Theorem reached_first t :
  shape t -> ors_nonempty t = true -> forall p, In p (positions t) -> reached t p.
Proof.
  change (reached_goal t).
  induction t as [|k q|cs IH|cs IH|c IH] using rx_ind'; intros Hs Ho p Hp.
  - simpl in Hp. contradiction.
  - simpl in Hp. destruct Hp as [E|[]]. subst. exists p, []. simpl. auto.
  - inversion Hs as [| |cs' Hf Hd| |c Hc]; subst.
    + apply reached_cat; assumption.
    + apply reached_many; [|exact Hp]. inversion IH as [|? ? IHc _]; subst.
      apply IHc; [exact Hc|]. cbn [ors_nonempty forallb] in Ho.
      apply andb_true_iff in Ho. tauto.
  - inversion Hs; subst. apply reached_or; try assumption.
    cbn [ors_nonempty] in Ho. destruct cs; [discriminate|exact Ho].
  - inversion Hs.
Qed.

Theorem reached_root t e :
  shape t -> ors_nonempty t = true ->
  forall p, In p (positions t) -> reached (with_end t e) p.
Proof.
  intros Hs Ho p Hp. destruct (reached_first t Hs Ho p Hp) as (a & r & Ha & C & Hl).
  exists a, r. split; [apply firstpos_with_end; auto|]. split; [|exact Hl].
  eapply chain_mono; [|exact C]. intros x y H. apply followpos_with_end. auto.
Qed.

Lemma follower_or_last t :
  shape t -> ors_nonempty t = true ->
  forall p, In p (positions t) -> In p (lastpos t) \/ exists q, In (p, q) (followpos t).
Proof.
  intros Hs Ho p Hp. destruct (reach_last t Hs Ho p Hp) as (r & C & Hl).
  destruct r as [|q r]; [left; exact Hl|]. right. exists q. cbn [chain] in C. destruct C as [C _]. exact C.
Qed.

Lemma firstpos_of_positions t :
  shape t -> ors_nonempty t = true -> forall p, In p (positions t) -> exists a, In a (firstpos t).
Proof. intros Hs Ho p Hp. destruct (reached_first t Hs Ho p Hp) as (a & _ & Ha & _). eauto. Qed.

Section Marked.
  Variable M : N -> Prop.

  Definition nofollow (t : rx) : Prop := forall p q, In (p, q) (followpos t) -> ~ M p.
  Definition unmarked (t : rx) : Prop := forall p, In p (positions t) -> ~ M p.

  Lemma nofollow_with_end t e : ~ In e (positions t) ->
    (nofollow t <-> forall p q, In (p, q) (followpos (with_end t e)) -> M p -> q = e).
  Proof.
    intro He. unfold nofollow. split.
    - intros H p q Hpq Hm. apply followpos_with_end in Hpq. destruct Hpq as [Hpq|[_ Hq]]; [|exact Hq].
      exfalso. exact (H p q Hpq Hm).
    - intros H p q Hpq Hm.
      assert (Hq : q = e) by (apply (H p q); [apply followpos_with_end; auto|exact Hm]).
      subst q. apply follow_pos in Hpq. tauto.
  Qed.

  Lemma unmarked_nofollow t : unmarked t -> nofollow t.
  Proof. intros H p q Hpq. apply H. apply follow_pos in Hpq. tauto. Qed.

  Lemma nofollow_or cs : nofollow (XOr cs) <-> Forall nofollow cs.
  Proof.
    induction cs as [|c cs IH].
    - split; [constructor|]. intros _ p q H. destruct H.
    - split.
      + intro H. constructor.
        * intros p q Hpq. apply (H p q). apply followpos_or_cons. auto.
        * apply IH. intros p q Hpq. apply (H p q). apply followpos_or_cons. auto.
      + intro H. inversion H as [|? ? Hc Hcs]; subst. intros p q Hpq. apply followpos_or_cons in Hpq.
        destruct Hpq as [Hpq|Hpq]; [exact (Hc p q Hpq)|]. apply IH in Hcs. exact (Hcs p q Hpq).
  Qed.

  Lemma nofollow_many c :
    shape c -> ors_nonempty c = true ->
    (nofollow (XCat [c; XStar c]) <-> unmarked c).
  Proof.
    intros Hs Ho. split.
    - intros H p Hp Hm. destruct (follower_or_last c Hs Ho p Hp) as [Hl|[q Hq]].
      + destruct (firstpos_of_positions c Hs Ho p Hp) as [a Ha].
        apply (H p a); [apply followpos_many; auto|exact Hm].
      + apply (H p q); [apply followpos_many; auto|exact Hm].
    - intro H. apply unmarked_nofollow. intros p Hp. apply H.
      cbn [positions flat_map] in Hp. rewrite app_nil_r in Hp. apply in_app_iff in Hp. tauto.
  Qed.

  (** sequence: only the last factor may contain marked positions *)
  Fixpoint seq_ok (cs : list rx) : Prop :=
    match cs with
    | [] => True
    | [c] => nofollow c
    | c :: r => unmarked c /\ seq_ok r
    end.

  Lemma nofollow_cat cs :
    Forall shape cs -> pairwise_disjoint (map positions cs) -> forallb ors_nonempty cs = true ->
    Forall (fun c => positions c <> []) cs ->
    (nofollow (XCat cs) <-> seq_ok cs).
  Proof.
    induction cs as [|c cs IH]; intros Hs Hd Ho Hne.
    - split; [intros _; exact I|]. intros _ p q H. destruct H.
    - inversion Hs as [|? ? Hsc Hscs]; subst. inversion Hne as [|? ? Hnc Hncs]; subst.
      cbn [forallb] in Ho. apply andb_true_iff in Ho. destruct Ho as [Ho1 Ho2].
      simpl in Hd. destruct Hd as [Hd1 Hd2].
      specialize (IH Hscs Hd2 Ho2 Hncs).
      destruct cs as [|c2 cs'].
      + cbn [seq_ok]. split.
        * intros H p q Hpq. apply (H p q). apply followpos_cat_cons. auto.
        * intros H p q Hpq. apply followpos_cat_cons in Hpq. destruct Hpq as [Hpq|[Hpq|Hpq]].
          -- exact (H p q Hpq).
          -- destruct Hpq.
          -- apply in_pprod in Hpq. destruct Hpq as [_ Hq]. destruct Hq.
      + change (seq_ok (c :: c2 :: cs')) with (unmarked c /\ seq_ok (c2 :: cs')). split.
        * intro H. split.
          -- intros p Hp Hm. destruct (follower_or_last c Hsc Ho1 p Hp) as [Hl|[q Hq]].
             ++ inversion Hncs as [|? ? Hn2 _]; subst.
                destruct (positions c2) as [|x xs] eqn:E; [congruence|].
                assert (Hx : In x (positions (XCat (c2 :: cs')))).
                { rewrite positions_cat_cons, E. left. reflexivity. }
                assert (Hst : shape (XCat (c2 :: cs'))) by (constructor; assumption).
                destruct (firstpos_of_positions _ Hst Ho2 x Hx) as [a Ha].
                apply (H p a); [|exact Hm]. apply followpos_cat_cons. right. right. apply in_pprod. auto.
             ++ apply (H p q); [apply followpos_cat_cons; auto|exact Hm].
          -- apply IH. intros p q Hpq. apply (H p q). apply followpos_cat_cons. auto.
        * intros [Hu Hr] p q Hpq. apply followpos_cat_cons in Hpq. destruct Hpq as [Hpq|[Hpq|Hpq]].
          -- apply Hu. apply follow_pos in Hpq. tauto.
          -- apply IH in Hr. exact (Hr p q Hpq).
          -- apply in_pprod in Hpq. destruct Hpq as [Hp _]. apply Hu. apply last_pos. exact Hp.
  Qed.
End Marked.
