(** Fuel adequacy of the two follow-table walks of [check_ambiguities] (Model/Regex.v):
    [tail_only] and [check_subwords] never return [OutOfFuel] when started with [regex_fuel r].

    Measure: the number of entries of the follow table whose key has not been visited yet.  Every
    nested call marks a key [p] with [memN p visited = false] and [assocN p fw = Some _], so it
    strictly decreases; the visited list returned by a call extends the one given, so the measure
    never increases along the inner loop. *)
From CG Require Import Base.Prelude Base.Facts Model.Ast Model.Regex.
From CG Require Import Proofs.Walks.

Lemma input_at_fueled r p : fueled (input_at r p).
Proof. unfold input_at. destruct (nthN (r_inputs r) p); exact I. Qed.

Lemma inputs_of_fueled r l : fueled (inputs_of r l).
Proof. unfold inputs_of. apply post_omap. intros p _. apply input_at_fueled. Qed.

Lemma is_star_subword_fueled i : fueled (is_star_subword i).
Proof. destruct i; exact I. Qed.

Definition keys (fw : list (N * list N)) : list N := map fst fw.

Lemma assocN_key fw p (s : list N) : assocN p fw = Some s -> In p (keys fw).
Proof. intros H. apply assocN_In in H. exact (in_map fst _ _ H). Qed.

(** one nested call on the follow set of an unvisited key [p], then the rest of the loop on what
    it returns: the arithmetic of the measure *)
Lemma nested_fuel fw p (s : list N) visited v1 f :
  memN p visited = false -> assocN p fw = Some s -> (unvisited (keys fw) visited <= f)%nat ->
  (unvisited (keys fw) (p :: visited) < f)%nat /\
  (incl (p :: visited) v1 -> (unvisited (keys fw) v1 <= f)%nat).
Proof.
  intros Hm Ha Hle. pose proof (unvisited_mark _ p visited Hm (assocN_key _ _ _ Ha)) as Hlt.
  split; [lia|]. intros Hi. pose proof (unvisited_antitone (keys fw) _ _ Hi). lia.
Qed.

Section TailOnlyFuel.
  Variable r : regex.
  Variable fw : list (N * list N).

  Lemma tail_only_grows : forall fuel S pp visited v',
    tail_only r fw fuel S pp visited = Ok v' -> incl visited v'.
  Proof.
    induction fuel as [|f IHf]; intros S pp visited v' H; [discriminate|]. cbn [tail_only] in H.
    apply obind_ok in H. destruct H as [inputs [_ H]]. destruct (first_clash pp inputs); [discriminate|].
    revert visited H. induction S as [|p rest IH]; intros visited H.
    - injection H as <-. apply incl_refl.
    - cbn -[memN assocN tail_only] in H.
      destruct (memN p visited); [exact (IH _ H)|]. destruct (assocN p fw); [|exact (IH _ H)].
      apply obind_ok in H. destruct H as [inp [_ H]]. apply obind_ok in H. destruct H as [st [_ H]].
      apply obind_ok in H. destruct H as [v1 [H1 H]].
      exact (incl_tran (incl_tl p (incl_refl _)) (incl_tran (IHf _ _ _ _ H1) (IH _ H))).
  Qed.

  Lemma tail_only_fuel_gen : forall fuel S pp visited,
    (unvisited (keys fw) visited < fuel)%nat -> fueled (tail_only r fw fuel S pp visited).
  Proof.
    induction fuel as [|f IHf]; intros S pp visited Hlt; [lia|]. cbn [tail_only].
    apply (post_bind any); [apply inputs_of_fueled|]. intros inputs _ _.
    destruct (first_clash pp inputs); [exact I|].
    assert (Hle : (unvisited (keys fw) visited <= f)%nat) by lia. clear Hlt.
    revert visited Hle. induction S as [|p rest IH]; intros visited Hle; [exact I|].
    cbn -[memN assocN tail_only].
    destruct (memN p visited) eqn:Hm; [exact (IH _ Hle)|].
    destruct (assocN p fw) as [follow|] eqn:Ha; [|exact (IH _ Hle)].
    apply (post_bind any); [apply input_at_fueled|]. intros inp _ _.
    apply (post_bind any); [apply is_star_subword_fueled|]. intros st _ _.
    apply (post_bind any); [apply IHf; eapply nested_fuel; eauto|]. intros v1 H1 _.
    apply IH. eapply nested_fuel; eauto. exact (tail_only_grows _ _ _ _ _ H1).
  Qed.
End TailOnlyFuel.

Lemma check_tail_only_fueled r : fueled (check_tail_only r).
Proof.
  unfold check_tail_only. apply (post_bind any); [|intros; exact I].
  apply tail_only_fuel_gen. unfold regex_fuel, keys.
  pose proof (unvisited_le_length (map fst (regex_follow r)) [r_end r]). rewrite map_length in H. lia.
Qed.

Theorem check_tail_only_fuel : forall r, check_tail_only r <> OutOfFuel.
Proof. intro r. exact (post_not_fuel _ _ _ _ (check_tail_only_fueled r)). Qed.

Section CheckSubwordsFuel.
  Variable r : regex.
  Variable fw : list (N * list N).
  Variable pl : pool.

  Lemma check_each_sub_fueled : forall ids checked, fueled (check_each_sub pl ids checked).
  Proof.
    induction ids as [|rid rest IH]; intros checked; cbn [check_each_sub]; [exact I|].
    destruct (nthN pl rid) as [sub|]; [|exact I].
    apply (post_bind any); [apply check_tail_only_fueled|]. intros _ _ _. apply IH.
  Qed.

  Lemma check_subwords_grows : forall fuel S visited checked vc,
    check_subwords r fw pl fuel S visited checked = Ok vc -> incl visited (fst vc).
  Proof.
    induction fuel as [|f IHf]; intros S visited checked vc H; [discriminate|]. cbn [check_subwords] in H.
    apply obind_ok in H. destruct H as [inputs [_ H]]. cbv zeta in H.
    apply obind_ok in H. destruct H as [ck [_ H]].
    revert visited ck H. induction S as [|p rest IH]; intros visited ck H.
    - injection H as <-. apply incl_refl.
    - cbn -[memN assocN check_subwords fst snd] in H.
      destruct (memN p visited); [exact (IH _ _ H)|]. destruct (assocN p fw); [|exact (IH _ _ H)].
      apply obind_ok in H. destruct H as [vc1 [H1 H]].
      exact (incl_tran (incl_tl p (incl_refl _)) (incl_tran (IHf _ _ _ _ H1) (IH _ _ H))).
  Qed.

  Lemma check_subwords_fuel_gen : forall fuel S visited checked,
    (unvisited (keys fw) visited < fuel)%nat ->
    fueled (check_subwords r fw pl fuel S visited checked).
  Proof.
    induction fuel as [|f IHf]; intros S visited checked Hlt; [lia|]. cbn [check_subwords].
    apply (post_bind any); [apply inputs_of_fueled|]. intros inputs _ _. cbv zeta.
    apply (post_bind any); [apply check_each_sub_fueled|]. intros ck _ _.
    assert (Hle : (unvisited (keys fw) visited <= f)%nat) by lia. clear Hlt.
    revert visited ck Hle. induction S as [|p rest IH]; intros visited ck Hle; [exact I|].
    cbn -[memN assocN check_subwords fst snd].
    destruct (memN p visited) eqn:Hm; [exact (IH _ _ Hle)|].
    destruct (assocN p fw) as [follow|] eqn:Ha; [|exact (IH _ _ Hle)].
    apply (post_bind any); [apply IHf; eapply nested_fuel; eauto|]. intros vc1 H1 _.
    apply IH. eapply nested_fuel; eauto. exact (check_subwords_grows _ _ _ _ _ H1).
  Qed.
End CheckSubwordsFuel.

Theorem check_ambiguities_fuel : forall r pl, check_ambiguities r pl <> OutOfFuel.
Proof.
  intros r pl. apply (post_not_fuel any any True). unfold check_ambiguities.
  apply (post_bind any); [|intros; exact I].
  apply check_subwords_fuel_gen. unfold regex_fuel, keys.
  pose proof (unvisited_le_length (map fst (regex_follow r)) [r_end r]). rewrite map_length in H. lia.
Qed.

Print Assumptions check_tail_only_fuel.
Print Assumptions check_ambiguities_fuel.
