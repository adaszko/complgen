(** Skeletons of within-word expressions ([sk]: the operators, and which leaves are unbounded
    items).  [contains_ph], [ph_last] and [ops_nonempty] are functions of the skeleton, and the
    last passes of the checker ([collapse], with [flatten] inside a word, then [propagate]) keep
    the skeletons of the words ([wsk_final]).  PhSpec.v compares these skeletons with those of the
    words of the specification's expansion. *)
From CG Require Import Base.Prelude Proofs.ListFacts Model.Ast Model.Check Spec.Choice Spec.Mistakes.
From CG Require Import Proofs.TreeFacts Proofs.CheckTree Proofs.PhExpr.
From CG Require Proofs.CheckLemmas.

Local Open Scope list_scope.

Inductive sk :=
| SLeaf | SPh
| SSeq (l : list sk) | SAlt (l : list sk)
| SOpt (c : sk) | SMany (c : sk).

Section Skel.
  Variable isph : expr -> bool.

  Fixpoint skw (e : expr) : sk :=
    match e with
    | Terminal _ _ _ _ | Command _ _ _ _ => SLeaf
    | NontermRef _ _ _ => if isph e then SPh else SLeaf
    | Sequence cs _ => SSeq (map skw cs)
    | Alternative cs _ | Fallback cs _ => SAlt (map skw cs)
    | Optional c _ => SOpt (skw c)
    | Many1 c _ => SMany (skw c)
    | DistDescr c _ _ | Subword c _ _ => skw c
    end.

  Definition wsk (e : expr) : list sk := map skw (words_of e).
End Skel.

Fixpoint s_cph (s : sk) : bool :=
  match s with
  | SLeaf => false
  | SPh => true
  | SSeq l | SAlt l => existsb s_cph l
  | SOpt c | SMany c => s_cph c
  end.

Fixpoint s_phl (s : sk) : bool :=
  match s with
  | SLeaf | SPh => true
  | SSeq l =>
      (fix go (l : list sk) : bool :=
         match l with
         | [] => true
         | [c] => s_phl c
         | c :: r => negb (s_cph c) && go r
         end) l
  | SAlt l => forallb s_phl l
  | SOpt c => s_phl c
  | SMany c => negb (s_cph c)
  end.

Fixpoint s_ops (s : sk) : bool :=
  match s with
  | SLeaf | SPh => true
  | SSeq l | SAlt l => match l with [] => false | _ => forallb s_ops l end
  | SOpt c | SMany c => s_ops c
  end.

Fixpoint s_seq (l : list sk) : bool :=
  match l with
  | [] => true
  | [c] => s_phl c
  | c :: r => negb (s_cph c) && s_seq r
  end.

Lemma s_phl_seq l : s_phl (SSeq l) = s_seq l.
Proof. reflexivity. Qed.

Section ESeq.
  Variable isph : expr -> bool.
  Fixpoint e_seq (cs : list expr) : bool :=
    match cs with
    | [] => true
    | [c] => ph_last isph c
    | c :: r => negb (contains_ph isph c) && e_seq r
    end.
End ESeq.

Lemma ph_last_Sequence isph cs sp : ph_last isph (Sequence cs sp) = e_seq isph cs.
Proof. reflexivity. Qed.

Lemma contains_ph_sk isph e : contains_ph isph e = s_cph (skw isph e).
Proof.
  induction e using expr_ind'; cbn [contains_ph skw s_cph]; try reflexivity; try assumption.
  - destruct (isph (NontermRef n l sp)); reflexivity.
  - rewrite existsb_map. apply existsb_ext_Forall. exact H.
  - rewrite existsb_map. apply existsb_ext_Forall. exact H.
  - rewrite existsb_map. apply existsb_ext_Forall. exact H.
Qed.

Lemma ph_last_sk isph e : ph_last isph e = s_phl (skw isph e).
Proof.
  induction e using expr_ind'; try reflexivity; try assumption.
  - cbn [skw]. destruct (isph (NontermRef n l sp)); reflexivity.
  - rewrite ph_last_Sequence. cbn [skw]. rewrite s_phl_seq.
    induction H as [|c r Hc Hr IH]; [reflexivity|]. destruct r as [|c2 r2]; [exact Hc|].
    change (e_seq isph (c :: c2 :: r2)) with (negb (contains_ph isph c) && e_seq isph (c2 :: r2)).
    change (s_seq (map (skw isph) (c :: c2 :: r2)))
      with (negb (s_cph (skw isph c)) && s_seq (map (skw isph) (c2 :: r2))).
    rewrite IH, contains_ph_sk. reflexivity.
  - cbn [ph_last skw s_phl]. rewrite forallb_map. apply forallb_ext_Forall. exact H.
  - cbn [ph_last skw s_phl]. rewrite contains_ph_sk. reflexivity.
  - cbn [ph_last skw s_phl]. rewrite forallb_map. apply forallb_ext_Forall. exact H.
Qed.

Lemma ops_nonempty_sk isph e : ops_nonempty e = s_ops (skw isph e).
Proof.
  induction e using expr_ind'; cbn [ops_nonempty skw s_ops]; try reflexivity; try assumption.
  - destruct (isph (NontermRef n l sp)); reflexivity.
  - destruct cs as [|c r]; [reflexivity|]. cbn [map].
    change (skw isph c :: map (skw isph) r) with (map (skw isph) (c :: r)).
    rewrite forallb_map. apply forallb_ext_Forall. exact H.
  - destruct cs as [|c r]; [reflexivity|]. cbn [map].
    change (skw isph c :: map (skw isph) r) with (map (skw isph) (c :: r)).
    rewrite forallb_map. apply forallb_ext_Forall. exact H.
  - destruct cs as [|c r]; [reflexivity|]. cbn [map].
    change (skw isph c :: map (skw isph) r) with (map (skw isph) (c :: r)).
    rewrite forallb_map. apply forallb_ext_Forall. exact H.
Qed.

Lemma skw_flatten e : skw isref (flatten e) = skw isref e.
Proof.
  induction e using expr_ind'; cbn [flatten skw]; try reflexivity; try assumption;
    try (f_equal; assumption); f_equal; rewrite map_map; apply map_ext_Forall; exact H.
Qed.

Lemma skw_propagate e : forall lvl, skw isref (propagate e lvl) = skw isref e.
Proof.
  induction e using expr_ind'; intro lvl; try (rewrite CheckLemmas.propagate_fb); cbn [propagate skw];
    try reflexivity; try (apply IHe); try (f_equal; apply IHe).
  - f_equal. rewrite map_map. apply map_ext_Forall. eapply Forall_impl; [|exact H]. intros c Hc. apply Hc.
  - f_equal. rewrite map_map. apply map_ext_Forall. eapply Forall_impl; [|exact H]. intros c Hc. apply Hc.
  - f_equal. generalize 0%N as i. induction H as [|c r Hc _ IH]; intro i; cbn [CheckLemmas.propagate_list map]; [reflexivity|].
    rewrite Hc, IH. reflexivity.
Qed.

Lemma flat_map_map_ext {A B C} (h : A -> list B) (k : A -> list B) (m : B -> C) l :
  Forall (fun x => map m (h x) = map m (k x)) l -> map m (flat_map h l) = map m (flat_map k l).
Proof.
  induction 1 as [|x l Hx _ IH]; cbn; [reflexivity|]. rewrite !map_app, Hx, IH. reflexivity.
Qed.

Lemma wsk_collapse e : wsk isref (collapse e) = wsk isref e.
Proof.
  unfold wsk. induction e using expr_ind'; cbn [collapse words_of]; try reflexivity; try assumption.
  - rewrite flat_map_concat_map, map_map, <- flat_map_concat_map. apply flat_map_map_ext. exact H.
  - rewrite flat_map_concat_map, map_map, <- flat_map_concat_map. apply flat_map_map_ext. exact H.
  - rewrite flat_map_concat_map, map_map, <- flat_map_concat_map. apply flat_map_map_ext. exact H.
  - cbn [map]. rewrite skw_flatten. reflexivity.
Qed.

Lemma wsk_propagate e : forall lvl, wsk isref (propagate e lvl) = wsk isref e.
Proof.
  unfold wsk. induction e using expr_ind'; intro lvl; try (rewrite CheckLemmas.propagate_fb);
    cbn [propagate words_of]; try reflexivity; try (apply IHe).
  - rewrite flat_map_concat_map, map_map, <- flat_map_concat_map. apply flat_map_map_ext.
    eapply Forall_impl; [|exact H]. intros c Hc. apply Hc.
  - rewrite flat_map_concat_map, map_map, <- flat_map_concat_map. apply flat_map_map_ext.
    eapply Forall_impl; [|exact H]. intros c Hc. apply Hc.
  - generalize 0%N as i. induction H as [|c r Hc _ IH]; intro i; cbn [CheckLemmas.propagate_list flat_map]; [reflexivity|].
    rewrite !map_app, Hc, IH. reflexivity.
  - cbn [map]. rewrite skw_propagate. reflexivity.
Qed.

Lemma wsk_final e : wsk isref (propagate (collapse e) 0) = wsk isref e.
Proof. rewrite wsk_propagate, wsk_collapse. reflexivity. Qed.
