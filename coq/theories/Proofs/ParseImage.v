(** The converse inclusion of the round trip, for arbitrary input and every lexer configuration:
    every grammar the parser model returns satisfies [stmt_img], and [wf_stmt = stmt_img && stmt_nohash];
    so a parsed grammar is printable, or would be but for a literal starting with [#].  With the
    round trip the image lies between [wf] and [stmt_img]; which grammars with such a literal
    are in it is not settled. *)
From CG Require Import Base.Prelude Base.Facts Model.Ast Model.Lexer Model.Parser Spec.Printer Spec.Shape Spec.Image
  Proofs.LexBase Proofs.LexBlanks Proofs.LexTerminal Proofs.LexTokens Proofs.LexCommand
  Proofs.ExprDefs Proofs.ParseDeriv Proofs.ParseShape Proofs.TrimFacts.
From CGgen Require Import Consts.

Lemma terminal_img : forall c i t i', terminal c i = Ok (t, i') -> lit_img t = true.
Proof.
  intros c i t i' H. apply terminal_ok in H as (N & _ & C). unfold lit_img. rewrite C.
  destruct t; [congruence|reflexivity].
Qed.

Lemma wf_nt_intro : forall n, n <> EmptyString -> all_chars (fun c => negb (Ascii.eqb c GT)) n = true -> wf_nt n = true.
Proof. intros [|c n] N A; [congruence|]. exact A. Qed.

Lemma nonterm_inv : forall i nm sp i', nonterm i = Ok ((nm, sp), i') ->
    wf_nt nm = true /\ rest i = String LT (append nm (String GT (rest i'))).
Proof.
  intros i nm sp i' H. unfold nonterm in H. dobind H. dobind H. dobind H. inversion H; subst.
  apply char_p_ok in E as [E _]. apply take_while1_ok in E0 as (N & E0 & _ & A & _). apply char_p_ok in E1 as [E1 _].
  split; [apply wf_nt_intro; assumption|]. rewrite E, E0, E1. reflexivity.
Qed.

Lemma nonterm_img : forall i nm sp i', nonterm i = Ok ((nm, sp), i') -> wf_nt nm = true.
Proof. intros. eapply nonterm_inv; eauto. Qed.

Lemma command_img : forall i x i', triple_bracket_command i = Ok (x, i') -> wf_cmd x = true.
Proof.
  intros i x i' H. unfold triple_bracket_command in H. dobind H. dobind H. dobind H. inversion H; subst.
  unfold take_until in E0. destruct (split_until "}}}" (rest i0)) as [[a b]|] eqn:Sp; [|discriminate].
  inversion E0; subst. unfold wf_cmd.
  destruct (trim_fixed s) as [F1 F2]. rewrite F1, F2, !String.eqb_refl.
  assert (Hne : "}}}" <> EmptyString) by discriminate.
  change RBRACE3 with "}}}". rewrite (has_sub_trim _ _ (split_until_nosub "}}}" _ _ _ Hne Sp)). reflexivity.
Qed.

(** [None] case: a plain name of the form [a@sh] is impossible, because [nonterm_specialization]
    runs first and would have accepted it ([nonterm_specialization_printed]). *)
Lemma nonterm_def_img : forall i nm nsp sh j, nonterm_def i = Ok ((nm, nsp, sh), j) ->
    match sh with
    | Some (s, _) => wf_nt nm = true /\ all_chars (fun c => negb (Ascii.eqb c AT)) nm = true /\ wf_nt s = true
    | None => wf_nt nm = true /\ spec_like nm = false
    end.
Proof.
  intros i nm nsp sh j ND. unfold nonterm_def in ND.
  destruct (nonterm_specialization i) as [[[[[nm' nsp'] sh'] ssp'] j']|u| |] eqn:Sp; try discriminate ND.
  - inversion ND; subst. unfold nonterm_specialization in Sp.
    dobind Sp. dobind Sp. dobind Sp. dobind Sp. dobind Sp. inversion Sp; subst.
    apply take_while1_ok in E0 as (N1 & _ & _ & A1 & _). apply take_while1_ok in E2 as (N2 & _ & _ & A2 & _).
    rewrite all_chars_andb in A1. apply andb_true_iff in A1 as [G1 G2].
    repeat split; auto; apply wf_nt_intro; auto.
  - destruct (nonterm i) as [[[nm' nsp'] j']| | |] eqn:N; try discriminate ND. inversion ND; subst.
    destruct (nonterm_inv _ _ _ _ N) as [W R]. split; auto.
    destruct (spec_like nm) eqn:SL; auto. exfalso.
    unfold spec_like in SL.
    destruct (span_while (fun c => negb (Ascii.eqb c AT)) nm) as [a b] eqn:E.
    pose proof (span_while_app _ _ _ _ E) as En. pose proof (span_while_all _ _ _ _ E) as Ea.
    pose proof (span_while_stop _ _ _ _ E) as Es.
    apply andb_true_iff in SL as [Na Nb]. destruct b as [|x sh]; [discriminate|].
    cbn [hd_in] in Es. apply negb_true_iff in Es. apply negb_false_iff in Es. apply Ascii.eqb_eq in Es. subst x.
    unfold wf_nt in W. apply andb_true_iff in W as [_ W]. subst nm. rewrite all_chars_app in W.
    apply andb_true_iff in W as [Wa Wb]. cbn [all_chars] in Wb. apply andb_true_iff in Wb as [_ Wsh].
    assert (X := nonterm_specialization_printed a sh (rest j) (at_ i)).
    destruct i as [s0 q0]. cbn [rest at_] in *. rewrite R in Sp. rewrite append_assoc in Sp. cbn [append] in Sp.
    cbv zeta in X. rewrite X in Sp; [discriminate| | |].
    + apply wf_nt_intro; auto. destruct a; discriminate.
    + exact Ea.
    + apply wf_nt_intro; auto. destruct sh; discriminate.
Qed.

Theorem parse_image : forall c s g, parse_with c s = Ok g -> forallb stmt_img g = true.
Proof.
  intros c s g H. apply forallb_forall. apply Forall_forall.
  eapply Forall_impl; [|exact (parse_with_parsed c s g H)]. intros st (i & i' & Hs).
  destruct (statement_cases c lit_img wf_nt wf_cmd (terminal_img c) nonterm_img command_img i st i' Hs) as [Se Sn].
  destruct st as [name nsp e|name nsp sh rhs]; cbn [stmt_img stmt_expr] in *.
  - destruct Sn as [j Sn]. rewrite (terminal_img _ _ _ _ Sn). exact Se.
  - destruct Sn as [j Sn]. pose proof (nonterm_def_img _ _ _ _ _ Sn) as Nd.
    destruct sh as [[sn ssp]|].
    + destruct Nd as (A & B & C). rewrite A, B, C. exact Se.
    + destruct Nd as (A & B). rewrite A, B. exact Se.
Qed.

Lemma wf_lit_split : forall t, wf_lit t = lit_img t && no_hash t.
Proof.
  intros [|c t]; [reflexivity|]. unfold wf_lit, lit_img, no_hash. cbn [nonempty andb].
  destruct (negb (Ascii.eqb c HASH)); cbn [andb]; [rewrite andb_true_r|rewrite andb_false_r]; reflexivity.
Qed.

Lemma forallb_split : forall (f g h : expr -> bool) cs,
    Forall (fun x => f x = g x && h x) cs -> forallb f cs = forallb g cs && forallb h cs.
Proof.
  induction 1; cbn [forallb]; auto. rewrite H, IHForall.
  destruct (g x), (h x), (forallb g l), (forallb h l); reflexivity.
Qed.

Lemma wfb_split : forall e w, wfb w e = imgb w e && nohash e.
Proof.
  unfold imgb.
  induction e using expr_ind_op; intros w; cbn [wfb gshapeb nohash]; auto.
  - rewrite wf_lit_split. destruct (lit_img t), (no_hash t), (N.eqb l 0); reflexivity.
  - rewrite andb_true_r. reflexivity.
  - rewrite andb_true_r. reflexivity.
  - rewrite wfb_list, gshapeb_list.
    rewrite (forallb_split (wfb w) (gshapeb lit_img wf_nt wf_cmd w) nohash cs)
      by (eapply Forall_impl; [|exact H]; intros a Ha; apply Ha).
    rewrite andb_assoc. destruct o; reflexivity.
  - destruct e; cbn [nohash]; try (rewrite !andb_false_r; reflexivity).
    rewrite (forallb_split (wfb true) (gshapeb lit_img wf_nt wf_cmd true) nohash children)
      by (eapply Forall_impl; [|exact H]; intros a Ha; apply Ha).
    destruct (negb w), (N.eqb l 0), (Nat.leb 2 (List.length children)),
      (forallb (gshapeb lit_img wf_nt wf_cmd true) children), (forallb nohash children); reflexivity.
Qed.

Theorem wf_stmt_split : forall st, wf_stmt st = stmt_img st && stmt_nohash st.
Proof.
  intros [name nsp e|name nsp [[sh ssp]|] rhs]; cbn [wf_stmt stmt_img stmt_nohash];
    rewrite (wfb_split _ false).
  - rewrite wf_lit_split.
    destruct (lit_img name), (no_hash name), (imgb false e), (nohash e); reflexivity.
  - rewrite !andb_assoc. reflexivity.
  - rewrite !andb_assoc. reflexivity.
Qed.

Theorem parse_image_wf : forall c s g, parse_with c s = Ok g -> forallb stmt_nohash g = true -> wf g.
Proof.
  intros c s g H N. apply parse_image in H. unfold wf. rewrite forallb_forall in *. intros st Hst.
  rewrite wf_stmt_split, (H st Hst), (N st Hst). reflexivity.
Qed.
