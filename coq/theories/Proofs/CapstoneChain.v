(** C12 through the capstone.  [C12Chain.chain_value_recognised] and [chain_partial_offers] speak about the table family
    [chain_alltables lits ipre next].  Whether the pipeline produces an instance of that family for a
    text is a DECIDABLE fact about that text (an equality of finite tables), not a lemma: a
    parametric proof would have to evaluate parser, checker, subset construction and Hopcroft's loop
    symbolically on [cmd <pre>(<v1>|...|<vn>) <next>;] for every n and all strings.  So the corollary is
    conditional on that equality -- discharged by kernel computation for a concrete text (the Example
    in Props/Capstone.v), by differential execution for Rust's tables on the exhaustive family (c12.py).
    Trap: the three pipeline hypotheses of [compile_bash_chain] ([compile_bash], [compile],
    [all_tables]) only say where [c] and [a] come from; the proof does not use them, it is the two
    C12Chain theorems after rewriting with the two equalities. *)
From CG Require Import Base.Prelude Spec.Meaning.
From CG Require Import Model.Ast Model.Check Model.Dfa Model.Driver Model.Tables Model.EmitBash Model.Compiler
  Model.Glob Model.BashSem Model.ChainTables.
From CG Require Import Proofs.GlobFacts Proofs.StripFacts Proofs.C12Chain.

Theorem compile_bash_chain o builtins text s v c nd a lits ipre pre next :
  compile_bash o builtins text = Ok s ->
  compile (pick_table (o_pops o)) (o_fuel o) builtins text Bash = Ok (v, c) ->
  all_tables Bash c (o_main_lits o) (o_sub_lits o) = Ok (nd, a) ->
  d_start (c_main c) = 0%N -> a = chain_alltables lits ipre next ->
  nthN lits ipre = Some pre ->
  forall var, var <> Pinned ->
  (var = Repaired \/ (forall l, In l lits -> plain l = true)) ->
  (forall l, In l lits -> printable_str l = true) ->
  (forall l, In l lits -> l <> EmptyString) ->
  sorted_len lits ->
  (forall e w,
      e_wordbreaks e = EmptyString \/ e_wordbreaks e = default_wordbreaks ->
      is_value lits pre w ->
      run_from var (d_start (c_main c)) a e [(pre ++ w)%string] EmptyString
      = Ok (mkresult 0 [(next ++ " ")%string] []))
  /\ (forall e p,
         e_ignore_case e = false -> e_wordbreaks e = EmptyString ->
         (var = Repaired \/ plain p = true) -> printable_str p = true ->
         (exists w, is_value lits pre w /\ String.prefix p w = true /\ p <> w) ->
         run_from var (d_start (c_main c)) a e [] (pre ++ p)
         = Ok (mkresult 0 (map (append pre) (filter (String.prefix p) (values lits ipre))) [])).
Proof.
  intros _ _ _ Hs Ha Hpre var Hvar Hdom Hpr Hne Hsl. rewrite Hs, Ha. split.
  - intros e w Hw Hv. now apply (chain_value_recognised lits ipre pre next Hpre var).
  - intros e p Hi Hw Hp Hpp Hex. now apply (chain_partial_offers lits ipre pre next Hpre var).
Qed.
