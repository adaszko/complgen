(** C17 with within-word expressions: [run_from Repaired] (/repo HEAD) does what Spec/InvocationsSub.v prescribes. *)
From CG Require Import Base.Prelude Base.Facts Model.Dfa Model.Glob Model.BashSem Spec.Invocations Spec.InvocationsSub.
From CG Require Import Proofs.GlobFacts Proofs.SubwordFacts Proofs.C12Proofs Proofs.C17Proofs Proofs.C17Total.

(** The ordered first-hit loops of the repaired within-word matcher against the declarative choice of
    Spec/InvocationsSub.v ("the longest expected piece that is a prefix of the rest; when completing, stop in front
    of a piece the rest is a proper prefix of"), for pieces listed in decreasing length. *)
Fixpoint lsorted (l : list string) : Prop :=
  match l with
  | [] => True
  | a :: r => (forall b, In b r -> (String.length b <= String.length a)%nat) /\ lsorted r
  end.

Lemma eqb_sym_false a b : String.eqb a b = false -> String.eqb b a = false.
Proof. rewrite String.eqb_sym. auto. Qed.

Lemma proper_prefix_longer r t : proper_prefix r t = true -> (String.length r < String.length t)%nat.
Proof.
  unfold proper_prefix. intros H. apply andb_true_iff in H as [Hp Hn].
  pose proof (prefix_length _ _ Hp). apply negb_true_iff in Hn.
  destruct (Nat.eq_dec (String.length r) (String.length t)) as [E|E]; [|lia].
  rewrite (prefix_same_length _ _ Hp E), String.eqb_refl in Hn. discriminate.
Qed.

Lemma no_extension r l :
  (forall y, In y l -> (String.length y <= String.length r)%nat) -> existsb (proper_prefix r) l = false.
Proof.
  intros H. induction l as [|y l IH]; [reflexivity|]. cbn [existsb].
  rewrite IH by (intros z Hz; apply H; now right). rewrite orb_false_r.
  destruct (proper_prefix r y) eqn:E; [|reflexivity].
  apply proper_prefix_longer in E. pose proof (H y (or_introl eq_refl)). lia.
Qed.

Definition qlen (r c : string) : nat := if nonempty c && String.prefix c r then String.length c else 0%nat.
Definition mx (r : string) (l : list string) : nat := fold_right Nat.max 0%nat (map (qlen r) l).

Lemma qlen_le r c : (qlen r c <= String.length c)%nat.
Proof. unfold qlen. destruct (nonempty c && String.prefix c r); lia. Qed.

Lemma mx_le r l n : (forall y, In y l -> (String.length y <= n)%nat) -> (mx r l <= n)%nat.
Proof.
  intros H. induction l as [|y l IH]; cbn; [lia|].
  pose proof (qlen_le r y). pose proof (H y (or_introl eq_refl)).
  assert (mx r l <= n)%nat by (apply IH; intros z Hz; apply H; now right). unfold mx in *. lia.
Qed.

Lemma spec_pick_cands_unfold c l to r :
  spec_pick_cands c l to r =
  if c && existsb (proper_prefix r) l then SBreak
  else match mx r l with O => SNone | L => SCont to L end.
Proof. reflexivity. Qed.

Lemma nonempty_length s : s <> EmptyString -> exists k, String.length s = S k.
Proof. destruct s; [congruence|]. intros _. now exists (String.length s). Qed.

Theorem cand_loop_str_spec c to r : r <> EmptyString -> forall l,
    lsorted l -> cand_loop_str c l to r = spec_pick_cands c l to r.
Proof.
  intros Hr. induction l as [|x l IH]; intros Hs.
  - rewrite spec_pick_cands_unfold. cbn. now rewrite andb_false_r.
  - destruct Hs as [Hx Hs]. specialize (IH Hs).
    rewrite spec_pick_cands_unfold. cbn [cand_loop_str existsb].
    change (mx r (x :: l)) with (Nat.max (qlen r x) (mx r l)).
    destruct (String.eqb r x) eqn:E.
    + apply String.eqb_eq in E. subst x.
      assert (proper_prefix r r = false) as -> by (unfold proper_prefix; now rewrite String.eqb_refl, andb_false_r).
      rewrite (no_extension r l Hx). cbn [orb]. rewrite andb_false_r.
      assert (qlen r r = String.length r) as ->.
      { unfold qlen. rewrite prefix_refl. destruct r; [congruence|reflexivity]. }
      pose proof (mx_le r l _ Hx). rewrite Nat.max_l by lia.
      destruct (nonempty_length r Hr) as [k ->]. reflexivity.
    + destruct (c && String.prefix r x) eqn:E2.
      * apply andb_true_iff in E2 as [-> E2].
        assert (proper_prefix r x = true) as -> by (unfold proper_prefix; now rewrite E2, E).
        reflexivity.
      * destruct x as [|a x'].
        { (* the empty candidate is never consumed *)
          cbn [andb]. rewrite IH, spec_pick_cands_unfold.
          assert (proper_prefix r "" = false) as ->.
          { unfold proper_prefix. destruct r; [congruence|reflexivity]. }
          cbn [orb]. change (qlen r "") with 0%nat. reflexivity. }
        cbn [andb]. set (x := String a x') in *.
        destruct (String.prefix x r) eqn:Ep.
        -- pose proof (prefix_length _ _ Ep) as Lx.
           assert (Hl : forall y, In y l -> (String.length y <= String.length r)%nat)
             by (intros y Hy; pose proof (Hx y Hy); lia).
           assert (c && (proper_prefix r x || existsb (proper_prefix r) l) = false) as ->.
           { rewrite (no_extension r l Hl), orb_false_r. destruct c; [|reflexivity].
             cbn [andb] in E2. unfold proper_prefix. now rewrite E2. }
           assert (qlen r x = String.length x) as -> by (unfold qlen; now rewrite Ep).
           pose proof (mx_le r l _ Hx). rewrite Nat.max_l by lia. reflexivity.
        -- rewrite IH, spec_pick_cands_unfold.
           assert (c && (proper_prefix r x || existsb (proper_prefix r) l) = c && existsb (proper_prefix r) l) as ->.
           { destruct c; [|reflexivity]. cbn [andb] in *. unfold proper_prefix. now rewrite E2. }
           assert (qlen r x = 0%nat) as -> by (unfold qlen; now rewrite Ep).
           reflexivity.
Qed.

(** sort -nrk2,2 -rk3 puts the candidates in decreasing length and keeps them all *)
Lemma cand_before_len y x :
  (cand_before y x = true -> (String.length (snd x) <= String.length (snd y))%nat)
  /\ (cand_before y x = false -> (String.length (snd y) <= String.length (snd x))%nat).
Proof.
  unfold cand_before.
  destruct (Nat.compare_spec (String.length (snd y)) (String.length (snd x))) as [E|E|E]; split; intros H; try lia; discriminate.
Qed.

Lemma in_insert_desc x : forall l z, In z (insert_desc x l) -> z = x \/ In z l.
Proof.
  induction l as [|y r IH]; intros z H; cbn [insert_desc] in H.
  - destruct H as [<-|[]]. now left.
  - destruct (cand_before y x).
    + destruct H as [<-|H]; [right; now left|]. destruct (IH z H); [now left|right; now right].
    + destruct H as [<-|H]; [now left|now right].
Qed.

Lemma insert_desc_sorted x : forall l, lsorted (map snd l) -> lsorted (map snd (insert_desc x l)).
Proof.
  induction l as [|y r IH]; intros H; cbn [insert_desc].
  - cbn. split; [intros b []|exact I].
  - destruct H as [Hy Hr]. destruct (cand_before y x) eqn:E.
    + cbn [map lsorted]. split; [|now apply IH].
      intros b Hb. apply in_map_iff in Hb as (z & <- & Hz).
      destruct (in_insert_desc x r z Hz) as [->|Hz'].
      * now apply (proj1 (cand_before_len y x)).
      * apply Hy. now apply in_map.
    + cbn [map lsorted]. split; [|split; assumption].
      pose proof (proj2 (cand_before_len y x) E) as L.
      intros b [<-|Hb]; [exact L|]. pose proof (Hy b Hb). lia.
Qed.

Lemma sort_desc_sorted l : lsorted (sort_desc l).
Proof.
  unfold sort_desc. generalize (indexed_from 0 l). intros L.
  induction L as [|x r IH]; [exact I|]. cbn [fold_right]. now apply insert_desc_sorted.
Qed.

Lemma mx_insert_desc r x : forall l,
    mx r (map snd (insert_desc x l)) = Nat.max (qlen r (snd x)) (mx r (map snd l)).
Proof.
  induction l as [|y l IH]; [reflexivity|]. cbn [insert_desc]. destruct (cand_before y x); [|reflexivity].
  change (mx r (map snd (y :: insert_desc x l))) with (Nat.max (qlen r (snd y)) (mx r (map snd (insert_desc x l)))).
  rewrite IH. change (mx r (map snd (y :: l))) with (Nat.max (qlen r (snd y)) (mx r (map snd l))). lia.
Qed.

Lemma mx_sort_desc r l : mx r (sort_desc l) = mx r l.
Proof.
  unfold sort_desc. rewrite <- (map_snd_indexed_from l 0) at 2. generalize (indexed_from 0 l). intros L.
  induction L as [|x L IH]; [reflexivity|]. cbn [fold_right]. rewrite mx_insert_desc, IH. reflexivity.
Qed.

Theorem cand_loop_sorted_spec c to r cands :
  r <> EmptyString -> cand_loop_str c (sort_desc cands) to r = spec_pick_cands c cands to r.
Proof.
  intros Hr. rewrite (cand_loop_str_spec c to r Hr _ (sort_desc_sorted cands)).
  rewrite !spec_pick_cands_unfold. now rewrite existsb_sort_desc, mx_sort_desc.
Qed.

Fixpoint pick_first (c : bool) (items : list (string * N)) (r : string) : step :=
  match items with
  | [] => SNone
  | (t, to) :: rest =>
    if String.eqb t r then SCont to (String.length t)
    else if c && String.prefix r t then SBreak
    else if String.prefix t r then SCont to (String.length t)
    else pick_first c rest r
  end.

Lemma lit_loop_str_pick c st r : forall lits,
    lit_loop_str c lits st r
    = pick_first c (flat_map (fun il : N * string => match assocN (fst il) st with Some to => [(snd il, to)] | None => [] end) lits) r.
Proof.
  induction lits as [|[lid lit] rest IH]; [reflexivity|].
  cbn [lit_loop_str flat_map fst snd]. destruct (assocN lid st) as [to|]; [|exact IH].
  cbn [List.app pick_first]. now rewrite IH.
Qed.

Lemma longest_prefix_keep r : forall items b tb,
    (forall it, In it items -> (String.length (fst it) <= String.length b)%nat) ->
    longest_prefix items r (Some (b, tb)) = Some (b, tb).
Proof.
  induction items as [|[t to] rest IH]; intros b tb H; [reflexivity|].
  cbn [longest_prefix]. pose proof (H (t, to) (or_introl eq_refl)) as L. cbn [fst] in L.
  assert (Hr : forall it, In it rest -> (String.length (fst it) <= String.length b)%nat) by (intros it Hi; apply H; now right).
  destruct (nonempty t && String.prefix t r); [|now apply IH].
  assert (Nat.ltb (String.length b) (String.length t) = false) as -> by (apply Nat.ltb_ge; lia).
  now apply IH.
Qed.

Lemma no_extension_items r items :
  (forall it, In it items -> (String.length (fst it) <= String.length r)%nat) ->
  existsb (fun it : string * N => proper_prefix r (fst it)) items = false.
Proof.
  intros H. induction items as [|y l IH]; [reflexivity|]. cbn [existsb].
  rewrite IH by (intros z Hz; apply H; now right). rewrite orb_false_r.
  destruct (proper_prefix r (fst y)) eqn:E; [|reflexivity].
  apply proper_prefix_longer in E. pose proof (H y (or_introl eq_refl)). lia.
Qed.

Theorem pick_first_spec c r : r <> EmptyString -> forall items,
    lsorted (map fst items) -> (forall it, In it items -> fst it <> EmptyString) ->
    pick_first c items r = spec_pick c items r.
Proof.
  intros Hr. induction items as [|[t to] rest IH]; intros Hs Hn.
  - unfold spec_pick. cbn. now rewrite andb_false_r.
  - destruct Hs as [Hx Hs].
    assert (Hnr : forall it, In it rest -> fst it <> EmptyString) by (intros it Hi; apply Hn; now right).
    specialize (IH Hs Hnr).
    assert (Ht : nonempty t = true).
    { pose proof (Hn (t, to) (or_introl eq_refl)) as H. cbn in H. destruct t; [congruence|reflexivity]. }
    assert (Hx' : forall it, In it rest -> (String.length (fst it) <= String.length t)%nat).
    { intros it Hi. apply Hx. now apply in_map. }
    unfold spec_pick. cbn [pick_first existsb longest_prefix fst].
    destruct (String.eqb t r) eqn:E.
    + apply String.eqb_eq in E. subst t.
      assert (proper_prefix r r = false) as -> by (unfold proper_prefix; now rewrite String.eqb_refl, andb_false_r).
      rewrite (no_extension_items r rest Hx'). cbn [orb]. rewrite andb_false_r.
      rewrite Ht, prefix_refl. cbn [andb]. now rewrite (longest_prefix_keep r rest r to Hx').
    + destruct (c && String.prefix r t) eqn:E2.
      * apply andb_true_iff in E2 as [-> E2].
        assert (proper_prefix r t = true) as ->.
        { unfold proper_prefix. now rewrite E2, (eqb_sym_false _ _ E). }
        reflexivity.
      * destruct (String.prefix t r) eqn:Ep.
        -- pose proof (prefix_length _ _ Ep) as Lx.
           assert (Hl : forall it, In it rest -> (String.length (fst it) <= String.length r)%nat)
             by (intros it Hi; pose proof (Hx' it Hi); lia).
           assert (c && (proper_prefix r t || existsb (fun it : string * N => proper_prefix r (fst it)) rest) = false) as ->.
           { rewrite (no_extension_items r rest Hl), orb_false_r. destruct c; [|reflexivity].
             cbn [andb] in E2. unfold proper_prefix. now rewrite E2. }
           rewrite Ht. cbn [andb]. now rewrite (longest_prefix_keep r rest t to Hx').
        -- rewrite andb_false_r. rewrite IH. unfold spec_pick.
           assert (c && (proper_prefix r t || existsb (fun it : string * N => proper_prefix r (fst it)) rest)
                   = c && existsb (fun it : string * N => proper_prefix r (fst it)) rest) as ->.
           { destruct c; [|reflexivity]. cbn [andb] in *. unfold proper_prefix. now rewrite E2. }
           reflexivity.
Qed.

Lemma expected_sorted (st : list (N * N)) : forall L : list (N * string),
    sorted_desc L ->
    lsorted (map fst (flat_map (fun il : N * string => match assocN (fst il) st with Some to => [(snd il, to)] | None => [] end) L)).
Proof.
  induction L as [|[id l] r IH]; intros H; [exact I|].
  destruct H as [Hl Hr]. cbn [flat_map fst snd].
  assert (Hin : forall b, In b (map fst (flat_map (fun il : N * string => match assocN (fst il) st with Some to => [(snd il, to)] | None => [] end) r)) ->
                          (String.length b <= String.length l)%nat).
  { intros b Hb. apply in_map_iff in Hb as ([t to] & <- & Hb). apply in_flat_map in Hb as ([i' l'] & Hi & Hb).
    cbn [fst snd] in Hb. destruct (assocN i' st); [|contradiction]. destruct Hb as [Hb|[]]. injection Hb as <- _.
    now apply (Hl i' l'). }
  destruct (assocN id st) as [to|]; cbn [List.app map fst]; [split; [exact Hin|now apply IH]|now apply IH].
Qed.

Lemma expected_nonempty (st : list (N * N)) (L : list (N * string)) :
  (forall id l, In (id, l) L -> l <> EmptyString) ->
  forall it, In it (flat_map (fun il : N * string => match assocN (fst il) st with Some to => [(snd il, to)] | None => [] end) L) ->
             fst it <> EmptyString.
Proof.
  intros H [t to] Hi. apply in_flat_map in Hi as ([i' l'] & Hin & Hb). cbn [fst snd] in Hb.
  destruct (assocN i' st); [|contradiction]. destruct Hb as [Hb|[]]. injection Hb as <- _. cbn. now apply (H i' l').
Qed.

(** well-formed within-word tables: literal array non-empty texts, in decreasing length (dfa.rs) *)
Definition wf_sub (T : tables) : Prop := nonempty_lits (lits_of T) /\ sorted_desc (lits_of T).
Definition wf_subwords (tabs : alltables) : Prop :=
  forall pool sid T, In (pool, sid, T) (a_subwords tabs) -> wf_sub T.

Lemma run_cmd_repaired tabs e cid a1 a2 log : run_cmd Repaired tabs e cid a1 a2 log = spec_call tabs e cid a1 a2 log.
Proof. apply run_cmd_spec. intro c. apply filter_lines_repaired_spec. Qed.

Lemma cmd_loop_repaired c tabs e sub mp : sub <> EmptyString -> forall cmds log,
    cmd_loop Repaired c tabs e cmds sub mp log = spec_sw_cmds c tabs e cmds sub mp log.
Proof.
  intros Hs. induction cmds as [|[cid to] r IH]; intros log; [reflexivity|].
  cbn [cmd_loop spec_sw_cmds]. rewrite run_cmd_repaired.
  destruct (spec_call tabs e cid sub mp log) as [[cands log1]| | |]; cbn [obind]; try reflexivity.
  destruct cands as [|x xs].
  - rewrite IH. rewrite spec_pick_cands_unfold. cbn. now rewrite andb_false_r.
  - cbn [cand_loop quirky obind]. rewrite (cand_loop_sorted_spec c to sub (x :: xs) Hs).
    destruct (spec_pick_cands c (x :: xs) to sub); [reflexivity|reflexivity|apply IH].
Qed.

Lemma lit_step_spec c T st sub : wf_sub T -> sub <> EmptyString ->
  lit_loop_str c (lits_of T) st sub = spec_pick c (expected_literals T st) sub.
Proof.
  intros [Hn Hs] Hr. rewrite lit_loop_str_pick. unfold expected_literals. fold (lits_of T).
  apply pick_first_spec; [exact Hr|now apply expected_sorted|].
  apply expected_nonempty. exact Hn.
Qed.

Definition spec_sw_cmds_at (c : bool) (tabs : alltables) (e : env) (T : tables) (word : string) (state : N) (ci : nat)
           (log : list invocation) : M (step * list invocation) :=
  match t_mcmd T with
  | Some ct =>
    match assocN state ct with
    | Some row => spec_sw_cmds c tabs e (assoc_of row) (sdrop ci word) (stake ci word) log
    | None => Ok (SNone, log)
    end
  | None => Ok (SNone, log)
  end.

Lemma sw_round_repaired c tabs e T word state ci log : wf_sub T -> (ci < String.length word)%nat ->
  sw_round Repaired c tabs e T word state ci log =
  match (match assocN state (t_mlit T) with
         | Some st => spec_pick c (expected_literals T st) (sdrop ci word)
         | None => SNone
         end) with
  | SNone => spec_sw_cmds_at c tabs e T word state ci log
  | s => Ok (s, log)
  end.
Proof.
  intros Hwf Hci. pose proof (sdrop_nonempty ci word Hci) as Hs.
  assert (Cmds : sw_cmds Repaired c tabs e T word state ci log = spec_sw_cmds_at c tabs e T word state ci log).
  { unfold sw_cmds, spec_sw_cmds_at. destruct (t_mcmd T) as [ct|]; [|reflexivity].
    destruct (assocN state ct); [|reflexivity]. now apply cmd_loop_repaired. }
  unfold sw_round. rewrite Cmds. destruct (assocN state (t_mlit T)) as [st|]; [|reflexivity].
  cbn [lit_loop obind]. rewrite (lit_step_spec c T st _ Hwf Hs).
  now destruct (spec_pick c (expected_literals T st) (sdrop ci word)).
Qed.

Theorem sw_loop_spec c tabs e T acc word : wf_sub T -> forall fuel state ci log,
    sw_loop fuel Repaired c tabs e T acc word state ci log = spec_sw_loop fuel c tabs e T acc word state ci log.
Proof.
  intros Hwf. induction fuel as [|fuel IH]; intros state ci log; [reflexivity|].
  rewrite sw_loop_S. cbn [spec_sw_loop quirky orb]. unfold star_first. cbn [quirky negb andb].
  destruct (Nat.leb (String.length word) ci) eqn:El; [reflexivity|]. apply Nat.leb_gt in El.
  destruct (negb c && match t_mstar T with Some stars => has_key state stars | None => false end); [reflexivity|].
  rewrite (sw_round_repaired c tabs e T word state ci log Hwf El). cbv zeta.
  destruct (match assocN state (t_mlit T) with Some st => _ | None => SNone end); cbn [obind]; [apply IH|reflexivity|].
  unfold spec_sw_cmds_at.
  destruct (match t_mcmd T with Some ct => _ | None => _ end) as [[s2 log2]| | |]; cbn [obind]; try reflexivity.
  destruct s2; [apply IH|reflexivity|]. unfold star_here.
  destruct (t_mstar T) as [stars|]; [destruct (has_key state stars)|]; reflexivity.
Qed.

Section Levels.
  Variables (tabs : alltables) (e : env).
  Hypothesis Hcase : e_ignore_case e = false.

  Lemma printable_sdrop n : forall s, printable_str s = true -> printable_str (sdrop n s) = true.
  Proof.
    induction n as [|n IH]; intros s H; destruct s as [|a s]; cbn [sdrop]; try assumption.
    cbn [printable_str] in H. apply andb_true_iff in H as [_ H]. now apply IH.
  Qed.

  (** the commands of one level inside a word: same offers, same log (the array left behind is reset anyway) *)
  Lemma sw_cmds_level_spec cp mp : printable_str cp = true -> forall cids sc sm log,
      (do (x, log') <- sw_cmds_level Repaired tabs e cids cp mp sc sm log; Ok (snd x, log'))
      = spec_sw_cmds_level tabs e cids cp mp sm log.
  Proof.
    intros Hp. induction cids as [|cid r IH]; intros sc sm log; [reflexivity|].
    cbn [sw_cmds_level spec_sw_cmds_level]. rewrite run_cmd_repaired.
    destruct (spec_call tabs e cid cp mp log) as [[cands log1]| | |]; cbn [obind]; try reflexivity.
    rewrite (match_fn_prefix_filter e cp cands Hcase Hp). cbn [obind]. apply IH.
  Qed.

  Lemma sw_levels_reset T state mp cp : forall n level sc sm log,
      sw_levels n level Repaired tabs e T state mp cp sc sm log
      = sw_levels n level Repaired tabs e T state mp cp [] sm log.
  Proof. intros n. destruct n; reflexivity. Qed.

  Lemma sw_levels_spec T state mp cp :
    printable_str (mp ++ cp) = true -> printable_str cp = true -> forall n level sc log,
        sw_levels n level Repaired tabs e T state mp cp sc [] log = spec_sw_levels n level tabs e T state mp cp log.
  Proof.
    intros Hw Hp. induction n as [|n IH]; intros level sc log; [reflexivity|].
    cbn [sw_levels spec_sw_levels quirky List.app].
    rewrite (match_fn_prefix_filter e _ _ Hcase Hw). cbn [obind List.app].
    destruct (t_ccmd T) as [cc|].
    - pose proof (sw_cmds_level_spec cp mp Hp (level_row cc level state)
                    (map (fun id => (mp ++ literal_at T id)%string) (level_row (t_clit T) level state))
                    (filter (String.prefix (mp ++ cp)) (map (fun id => (mp ++ literal_at T id)%string) (level_row (t_clit T) level state)))
                    log) as D.
      destruct (sw_cmds_level Repaired tabs e (level_row cc level state) cp mp _ _ log) as [[[sc2 sm2] log2]| | |];
        cbn [obind snd] in D; rewrite <- D; cbn [obind]; try reflexivity.
      destruct sm2; [|reflexivity]. rewrite sw_levels_reset. apply IH.
    - cbn [obind]. destruct (filter _ _); [|reflexivity]. rewrite sw_levels_reset. apply IH.
  Qed.

  Lemma subword_matches_spec T acc word log : wf_sub T ->
    subword_matches Repaired tabs e T acc word log = spec_subword_matches tabs e T acc word log.
  Proof.
    intros Hwf. unfold subword_matches, subword_matches_from, spec_subword_matches.
    now rewrite (sw_loop_spec false tabs e T acc word Hwf).
  Qed.

  Lemma subword_complete_spec T word log : wf_sub T -> printable_str word = true ->
    subword_complete Repaired tabs e T word log = spec_subword_complete tabs e T word log.
  Proof.
    intros Hwf Hp. unfold subword_complete, subword_complete_from, spec_subword_complete.
    rewrite (sw_loop_spec true tabs e T [] word Hwf).
    destruct (spec_sw_loop (sw_fuel T word) true tabs e T [] word 0 0 log) as [[[[m st] ci] log1]| | |]; cbn [obind]; try reflexivity.
    apply sw_levels_spec; [now rewrite stake_sdrop|now apply printable_sdrop].
  Qed.

  Hypothesis Hwf : wf_subwords tabs.

  Lemma top_sub_loop_spec word : forall row log,
      top_sub_loop Repaired tabs e row word log = spec_sub_loop tabs e row word log.
  Proof.
    induction row as [|[sid to] r IH]; intros log; [reflexivity|]. cbn [top_sub_loop spec_sub_loop].
    destruct (subword_tables (a_subwords tabs) sid) as [T|] eqn:E; [|reflexivity].
    destruct (subword_tables_Some_in _ _ _ E) as [pool Hin].
    rewrite (subword_matches_spec T _ word log (Hwf pool sid T Hin)).
    destruct (spec_subword_matches tabs e T (sub_accepting tabs sid) word log) as [[m log1]| | |]; cbn [obind]; try reflexivity.
    destruct m; [reflexivity|apply IH].
  Qed.

  Lemma top_cmd_loop_spec_sw word last : forall cmds log,
      top_cmd_loop Repaired tabs e cmds word last log
      = (do (r, l) <- spec_cmd_loop_sw tabs e cmds word log;
         Ok (match r with Some to => WNext to | None => WNone end, l)).
  Proof.
    induction cmds as [|[cid to] r IH]; intros log; [reflexivity|].
    cbn [top_cmd_loop spec_cmd_loop_sw quirky]. rewrite run_cmd_repaired.
    destruct (spec_call tabs e cid "" "" log) as [[cands log1]| | |]; cbn [obind]; try reflexivity.
    destruct cands as [|x xs]; [cbn [existsb]; apply IH|]. cbn [obind].
    rewrite existsb_sort_desc. destruct (existsb (String.eqb word) (x :: xs)); [reflexivity|].
    rewrite andb_false_r. apply IH.
  Qed.

  Lemma walk_spec_sw : forall ws state log,
      walk Repaired tabs e state ws log = spec_walk_sw tabs e state ws log.
  Proof.
    induction ws as [|w rest IH]; intros state log; [reflexivity|]. cbn [walk spec_walk_sw].
    destruct (match assocN state (t_mlit (a_main tabs)) with
              | Some st => top_lit_loop (indexed_from 0 (literal_texts (a_main tabs))) st w
              | None => None
              end) as [to|]; [apply IH|].
    assert (E1 : match assocN state (a_subtrans tabs) with
                 | Some row => do srow <- sub_row (a_subwords tabs) row; top_sub_loop Repaired tabs e (assoc_of srow) w log
                 | None => Ok (None, log)
                 end
                 = match assocN state (a_subtrans tabs) with
                   | Some row => do srow <- sub_row (a_subwords tabs) row; spec_sub_loop tabs e (assoc_of srow) w log
                   | None => Ok (None, log)
                   end).
    { destruct (assocN state (a_subtrans tabs)) as [row|]; [|reflexivity].
      destruct (sub_row (a_subwords tabs) row); cbn [obind]; try reflexivity. apply top_sub_loop_spec. }
    rewrite E1. clear E1.
    destruct (match assocN state (a_subtrans tabs) with
              | Some row => do srow <- sub_row (a_subwords tabs) row; spec_sub_loop tabs e (assoc_of srow) w log
              | None => Ok (None, log)
              end) as [[s1 log1]| | |]; cbn [obind]; try reflexivity.
    destruct s1 as [to|]; [apply IH|].
    set (last := match rest with [] => true | _ => false end).
    destruct (t_mcmd (a_main tabs)) as [ct|].
    - destruct (assocN state ct) as [row|].
      + rewrite top_cmd_loop_spec_sw.
        destruct (spec_cmd_loop_sw tabs e (assoc_of row) w log1) as [[r2 log2]| | |]; cbn [obind]; try reflexivity.
        destruct r2 as [to|]; [apply IH|].
        destruct (match t_mstar (a_main tabs) with Some stars => assocN state stars | None => None end); [apply IH|reflexivity].
      + cbn [obind].
        destruct (match t_mstar (a_main tabs) with Some stars => assocN state stars | None => None end); [apply IH|reflexivity].
    - cbn [obind].
      destruct (match t_mstar (a_main tabs) with Some stars => assocN state stars | None => None end); [apply IH|reflexivity].
  Qed.

  Variable p : string.
  Hypothesis Hprint : printable_str p = true.

  Lemma top_subs_level_spec : forall sids matches log,
      top_subs_level Repaired tabs e sids p matches log = spec_subs_level tabs e sids p matches log.
  Proof.
    induction sids as [|sid r IH]; intros matches log; [reflexivity|]. cbn [top_subs_level spec_subs_level].
    destruct (subword_tables (a_subwords tabs) sid) as [T|] eqn:E; [|reflexivity].
    destruct (subword_tables_Some_in _ _ _ E) as [pool Hin].
    rewrite (subword_complete_spec T p log (Hwf pool sid T Hin) Hprint).
    destruct (spec_subword_complete tabs e T p log) as [[add log1]| | |]; cbn [obind]; try reflexivity. apply IH.
  Qed.

  Lemma top_cmds_level_repaired : forall cids cands matches log,
      (do (x, log') <- top_cmds_level Repaired tabs e cids p cands matches log; Ok (snd x, log'))
      = spec_cmds_level tabs e cids p matches log.
  Proof.
    induction cids as [|cid r IH]; intros cands matches log; [reflexivity|].
    cbn [top_cmds_level spec_cmds_level]. rewrite run_cmd_repaired.
    destruct (spec_call tabs e cid p "" log) as [[cands1 log1]| | |]; cbn [obind]; try reflexivity.
    rewrite (match_fn_if_any e p cands1 Hcase Hprint). cbn [obind]. apply IH.
  Qed.

  Lemma top_levels_reset state : forall n level cands matches log,
      top_levels n level Repaired tabs e state p cands matches log
      = top_levels n level Repaired tabs e state p [] matches log.
  Proof. intros n. destruct n; reflexivity. Qed.

  Lemma top_levels_repaired : forall n level state log,
      top_levels n level Repaired tabs e state p [] [] log = spec_levels_sw n level tabs e state p log.
  Proof.
    induction n as [|n IH]; intros level state log; [reflexivity|].
    cbn [spec_levels_sw top_levels quirky List.app].
    rewrite (match_fn_if_any e p _ Hcase Hprint). cbn [obind List.app]. rewrite top_subs_level_spec.
    destruct (spec_subs_level tabs e (level_row (a_csub tabs) level state) p _ log)
      as [[offered1 log1]| | |]; cbn [obind]; try reflexivity.
    destruct (t_ccmd (a_main tabs)) as [cc|].
    - rewrite <- top_cmds_level_repaired with (cands := map (fun id => (literal_at (a_main tabs) id ++ " ")%string)
                                                              (level_row (t_clit (a_main tabs)) level state)).
      destruct (top_cmds_level Repaired tabs e (level_row cc level state) p _ offered1 log1)
        as [[[cands3 matches3] log3]| | |]; cbn [obind snd]; try reflexivity.
      destruct matches3; [|reflexivity]. rewrite top_levels_reset. apply IH.
    - cbn [obind]. destruct offered1; [|reflexivity]. rewrite top_levels_reset. apply IH.
  Qed.
End Levels.

Theorem run_from_repaired_eq start tabs e ws p :
  wf_subwords tabs -> e_ignore_case e = false -> printable_str p = true ->
  run_from Repaired start tabs e ws p = spec_run_sw start tabs e ws p.
Proof.
  intros Hwf Hcase Hp. unfold spec_run_sw, run_from. rewrite (walk_spec_sw tabs e Hwf).
  destruct (spec_walk_sw tabs e start ws []) as [[st log]| | |]; cbn [obind]; try reflexivity.
  destruct st as [state|]; [|reflexivity]. now rewrite (top_levels_repaired tabs e Hcase Hwf p Hp).
Qed.

Theorem run_from_repaired_spec_sw :
  forall start tabs e ws p r,
    wf_subwords tabs -> e_ignore_case e = false -> printable_str p = true ->
    spec_run_sw start tabs e ws p = Ok r ->
    run_from Repaired start tabs e ws p = Ok r.
Proof. intros start tabs e ws p r Hwf Hcase Hp H. now rewrite run_from_repaired_eq. Qed.
