(** Totality of the capstone [Compiler.compile_bash]: after [Driver.compile] succeeded, the tables of
    tables.rs and the bash emitter never reach a panic site -- every [unwrap] / intern-pool lookup /
    level index of the modelled code is covered by what the pipeline guarantees about its automata
    (well-formed tables, every within-word automaton referenced is in the pool) and by the validation
    of the oracles -- so [compile_bash] returns a script, a rejection of the grammar, or
    [CBadOracle]; never [Panic], never [OutOfFuel] (under [fuel_covers]). *)
From CG Require Import Base.Prelude Model.Ast Model.Check Model.Regex Model.Dfa Model.Subset Model.Driver.
From CG Require Import Model.Tables Model.EmitBash Model.Compiler.
From CG Require Import Proofs.TablesSound.
From CG Require Import Model.Tpl Model.EmitData.
From CGgen Require Import Consts TplBash.
Open Scope N_scope.
Open Scope list_scope.

Lemma update_nth_total {A} n (f : A -> A) l :
  (n < List.length l)%nat -> exists l', update_nth n f l = Some l' /\ List.length l' = List.length l.
Proof.
  revert n. induction l as [|x r IH]; intros n H; cbn [List.length] in H; [lia|].
  destruct n as [|n]; cbn [update_nth].
  - eexists. split; [reflexivity|reflexivity].
  - destruct (IH n) as [l' [E L]]; [lia|]. rewrite E. cbn [option_map]. eexists. split; [reflexivity|].
    cbn [List.length]. lia.
Qed.

Lemma index_of_some c l : In c l -> exists k, index_of c l = Some k.
Proof.
  induction l as [|x r IH]; intros H; [contradiction|]. cbn [index_of].
  destruct (String.eqb c x) eqn:E; [eauto|].
  destruct H as [H|H]; [subst; rewrite String.eqb_refl in E; discriminate|].
  destruct (IH H) as [k Hk]. rewrite Hk. cbn. eauto.
Qed.

Lemma push_new_in c l x : In x (push_new c l) <-> x = c \/ In x l.
Proof.
  unfold push_new. destruct (mem_str c l) eqn:E.
  - split; [auto|]. intros [->|H]; [|exact H]. unfold mem_str in E. apply existsb_exists in E.
    destruct E as [y [Hy Ey]]. apply String.eqb_eq in Ey. subst. exact Hy.
  - rewrite in_app_iff. cbn. intuition.
Qed.

Lemma rtrans_total d : dfa_wf d -> exists rt, rtrans d = Ok rt.
Proof.
  intros [_ Hrows]. unfold rtrans. apply omap_total. intros [[f i] t] Hin.
  apply iter_transitions_in in Hin. destruct Hin as [tos [H1 H2]].
  destruct (Hrows _ _ H1) as [_ Hx]. destruct (Hx _ _ H2) as [x Ex].
  unfold get_input. rewrite Ex. cbn. eauto.
Qed.

Lemma rtrans_from_total d s : dfa_wf d -> exists tr, rtrans_from d s = Ok tr.
Proof.
  intros [_ Hrows]. unfold rtrans_from, transitions_from. apply omap_total. intros [i t] Hin.
  destruct (assocN s (d_trans d)) as [tos|] eqn:E; [|contradiction].
  apply assocN_In in E. destruct (Hrows _ _ E) as [_ Hx]. destruct (Hx _ _ Hin) as [x Ex].
  cbn [fst snd]. unfold get_input. rewrite Ex. cbn. eauto.
Qed.

Lemma rtrans_from_rt d s tr rt x to :
  dfa_wf d -> rtrans d = Ok rt -> rtrans_from d s = Ok tr -> In (x, to) tr -> In (s, x, to) rt.
Proof.
  intros W Hrt Htr Hin. apply (rtrans_from_in _ _ _ _ _ Htr) in Hin. destruct Hin as [i [H1 H2]].
  apply (rtrans_in _ _ _ _ _ Hrt). exists i. split; [|exact H2]. apply (transitions_from_iter _ _ _ _ W). exact H1.
Qed.

Lemma rt_input d rt s x to : rtrans d = Ok rt -> In (s, x, to) rt -> In x (d_inputs d).
Proof.
  intros Hrt Hin. apply (rtrans_in _ _ _ _ _ Hrt) in Hin. destruct Hin as [i [_ Hn]].
  unfold nthN in Hn. eapply nth_error_In. exact Hn.
Qed.

Lemma match_table_total d states sel rt :
  dfa_wf d -> rtrans d = Ok rt ->
  (forall s x to r, In (s, x, to) rt -> sel x = Some r -> exists k, r = Ok k) ->
  exists tbl, match_table d states sel = Ok tbl.
Proof.
  intros W Hrt Hsel.
  change (exists tbl, (do rows <- omap (row_of d sel) states;
                       Ok (filter (fun row : N * list (N * N) => match snd row with [] => false | _ => true end) rows)) = Ok tbl).
  destruct (omap_total (row_of d sel) states) as [rows Hrows].
  - intros s _. unfold row_of. destruct (rtrans_from_total d s W) as [tr Htr]. rewrite Htr. cbn [obind].
    match goal with |- exists y, obind (omap ?f tr) _ = _ => destruct (omap_total f tr) as [kvs Hk] end.
    + intros [x to] Hin. cbn [fst snd]. destruct (sel x) as [r|] eqn:E; [|eauto].
      destruct (Hsel s x to r (rtrans_from_rt d s tr rt x to W Hrt Htr Hin) E) as [k ->]. cbn. eauto.
    + rewrite Hk. cbn [obind]. eauto.
  - rewrite Hrows. cbn [obind]. eauto.
Qed.

Lemma completion_table_total rt maxlevel sel add :
  (forall f x to lvl r, In (f, x, to) rt -> sel x = Some (lvl, r) ->
                        (N.to_nat lvl < N.to_nat maxlevel + 1)%nat /\ exists id, r = Ok id) ->
  exists L, completion_table rt maxlevel sel add = Ok L.
Proof.
  intro H. unfold completion_table.
  assert (G : forall rt0 levels,
             (forall f x to, In (f, x, to) rt0 -> In (f, x, to) rt) ->
             List.length levels = (N.to_nat maxlevel + 1)%nat ->
             exists L, fold_left (comp_step sel add) rt0 (Ok levels) = Ok L).
  { induction rt0 as [|[[f x] to] r IH]; intros levels Hsub Hlen; cbn [fold_left]; [eauto|].
    unfold comp_step at 2. cbn [obind].
    destruct (sel x) as [[lvl rid]|] eqn:E.
    - destruct (H f x to lvl rid (Hsub _ _ _ (or_introl eq_refl)) E) as [Hl [id ->]]. cbn [obind].
      destruct (update_nth_total (N.to_nat lvl)
                  (bt_update f (fun old => add id (match old with Some l => l | None => [] end))) levels)
        as [l' [E' L']]; [lia|].
      rewrite E'. apply IH; [intros; apply Hsub; right; assumption|lia].
    - apply IH; [intros; apply Hsub; right; assumption|exact Hlen]. }
  apply (G rt (repeat [] (N.to_nat maxlevel + 1))); [auto|apply repeat_length].
Qed.

Lemma max_level_ge rt f x to l :
  In (f, x, to) rt -> inp_level x = Some l ->
  exists m, get_max_fallback_level rt = Some m /\ l <= m.
Proof.
  unfold get_max_fallback_level.
  set (F := fun (acc : option N) (fxt : N * inp * N) =>
              match fxt with (_, x, _) =>
                match inp_level x with
                | Some l => match acc with Some m => Some (N.max m l) | None => Some l end
                | None => acc
                end end).
  assert (Keep : forall rt0 a, exists m, fold_left F rt0 (Some a) = Some m /\ a <= m).
  { induction rt0 as [|[[f0 x0] t0] r IH]; intro a; cbn [fold_left]; [exists a; split; [reflexivity|lia]|].
    unfold F at 2. destruct (inp_level x0) as [l0|].
    - destruct (IH (N.max a l0)) as [m [E L]]. exists m. split; [exact E|lia].
    - apply IH. }
  intros Hin Hl. revert Hin. generalize (@None N).
  induction rt as [|[[f0 x0] t0] r IH]; intros acc Hin; [contradiction|]. cbn [fold_left].
  destruct Hin as [Hin|Hin].
  - inversion Hin; subst. unfold F at 2. rewrite Hl. destruct acc as [a|].
    + destruct (Keep r (N.max a l)) as [m [E L]]. exists m. split; [exact E|lia].
    + destruct (Keep r l) as [m [E L]]. exists m. auto.
  - apply IH. exact Hin.
Qed.

(** [get_lookup_tables]: the bash emitter passes [false] for the compadd switches *)
Lemma lit_id_total ord start t ds :
  In (t, unwrap_descr ds) ord -> exists i, lit_id_or_panic (all_literals ord start) t ds = Ok i.
Proof.
  intro H. apply In_nth_error in H. destruct H as [n Hn].
  assert (Hin : In (start + N.of_nat n, t, unwrap_descr ds) (all_literals ord start)).
  { apply all_literals_in. unfold lit_at. split; [lia|].
    replace (N.to_nat (start + N.of_nat n - start)) with n by lia. exact Hn. }
  unfold lit_id_or_panic. change (lit_id (all_literals ord start) t (unwrap_descr ds))
    with (fold_left (lit_step t (unwrap_descr ds)) (all_literals ord start) None).
  destruct (lit_fold_found t (unwrap_descr ds) _ None _ Hin) as [j Hj]. rewrite Hj. eauto.
Qed.

Lemma valid_order_in d ord t ds l :
  valid_literal_order d ord = true -> In (ILit t ds l) (d_inputs d) -> In (t, unwrap_descr ds) ord.
Proof.
  intros V Hin. apply In_nth_error in Hin. destruct Hin as [n Hn].
  destruct (valid_order_covers d ord 0 (N.of_nat n) t ds l V) as [i [_ Hi]].
  - unfold nthN. rewrite Nat2N.id. exact Hn.
  - eapply nth_error_In. exact Hi.
Qed.

Lemma opt_when_total {A} b (r : res A) : (exists x, r = Ok x) -> exists o, opt_when b r = Ok o.
Proof. intros [x ->]. destruct b; cbn; eauto. Qed.

Lemma glt_total d cmds start nc ncp ns ord rt :
  dfa_wf d -> rtrans d = Ok rt ->
  valid_literal_order d ord = true ->
  (forall f c l to, In (f, ICmd c l, to) rt -> In c cmds) ->
  (forall f c l to, In (f, ICompadd c l, to) rt -> In c cmds) ->
  exists t, get_lookup_tables d cmds start nc ncp ns ord = Ok t
            /\ t_maxlevel t = match get_max_fallback_level rt with Some m => m | None => start end.
Proof.
  intros W Hrt V Hc Hcp. unfold get_lookup_tables. cbv zeta.
  set (maxlevel := match get_max_fallback_level rt with Some m => m | None => start end).
  (* the ids of the inputs met on the transitions are defined, their levels are within bounds *)
  assert (Hl : forall s t ds l to, In (s, ILit t ds l, to) rt -> exists i, lit_id_or_panic (all_literals ord start) t ds = Ok i).
  { intros s t ds l to Hin. apply lit_id_total. eapply valid_order_in; [exact V|]. eapply rt_input; eauto. }
  assert (Hk : forall c, In c cmds -> exists k, cmd_id_or_panic cmds c = Ok k).
  { intros c Hin. unfold cmd_id_or_panic. destruct (index_of_some c cmds Hin) as [k ->]. eauto. }
  assert (Hlvl : forall f x to l, In (f, x, to) rt -> inp_level x = Some l -> (N.to_nat l < N.to_nat maxlevel + 1)%nat).
  { intros f x to l Hin El. destruct (max_level_ge rt f x to l Hin El) as [m [Em Lm]]. unfold maxlevel. rewrite Em. lia. }
  assert (exists m, get_literal_transitions d (get_all_states d) (all_literals ord start) = Ok m) as [mlit ->].
  { apply (match_table_total d _ _ rt W Hrt). intros s x to r Hin E.
    destruct x; cbn in E; try discriminate. injection E as <-. eauto. }
  cbn [obind]. destruct (opt_when_total nc (get_command_transitions d (get_all_states d) cmds)) as [mcmd ->].
  { apply (match_table_total d _ _ rt W Hrt). intros s x to r Hin E.
    destruct x; cbn in E; try discriminate. injection E as <-. eauto. }
  cbn [obind]. destruct (opt_when_total ncp (get_compadd_transitions d (get_all_states d) cmds)) as [mcp ->].
  { apply (match_table_total d _ _ rt W Hrt). intros s x to r Hin E.
    destruct x; cbn in E; try discriminate. injection E as <-. eauto. }
  cbn [obind]. rewrite Hrt. cbn [obind]. fold maxlevel.
  assert (exists m, get_literal_completions rt (all_literals ord start) maxlevel = Ok m) as [clit ->].
  { apply completion_table_total. intros f x to lvl r Hin E.
    destruct x; cbn in E; try discriminate. injection E as <- <-. eauto. }
  cbn [obind]. destruct (opt_when_total nc (get_command_completions rt cmds maxlevel)) as [ccmd ->].
  { apply completion_table_total. intros f x to lvl r Hin E.
    destruct x; cbn in E; try discriminate. injection E as <- <-. eauto. }
  cbn [obind]. destruct (opt_when_total ncp (get_completion_compadds rt cmds maxlevel)) as [ccp ->].
  { apply completion_table_total. intros f x to lvl r Hin E.
    destruct x; cbn in E; try discriminate. injection E as <- <-. eauto. }
  cbn [obind]. eexists. split; reflexivity.
Qed.

Definition names_cmd (x : inp) (cm : string) : Prop := exists lv, x = ICmd cm lv \/ x = ICompadd cm lv.

Lemma cmds_of_inputs_incl xs : forall acc c, In c acc -> In c (cmds_of_inputs acc xs).
Proof.
  unfold cmds_of_inputs. induction xs as [|x r IH]; intros acc c H; cbn [fold_left]; [exact H|].
  apply IH. destruct x; try exact H; apply push_new_in; auto.
Qed.

Lemma cmds_of_inputs_cmd xs : forall acc x c, In x xs -> names_cmd x c -> In c (cmds_of_inputs acc xs).
Proof.
  unfold cmds_of_inputs. induction xs as [|y r IH]; intros acc x c H Hn; [contradiction|]. cbn [fold_left].
  destruct H as [->|H]; [|eapply IH; eauto].
  apply (cmds_of_inputs_incl r). destruct Hn as [lv [-> | ->]]; apply push_new_in; auto.
Qed.

Definition pool_closed (c : cdfa) (rt : list (N * inp * N)) : Prop :=
  forall f s l to, In (f, ISub s l, to) rt -> exists sd, nthN (c_subs c) s = Some sd /\ dfa_wf sd.

Definition gc_step (c : cdfa) (acc : res (list string)) (fxt : N * inp * N) : res (list string) :=
  do l <- acc;
  match fxt with (_, x, _) =>
    match x with
    | ICmd cm _ | ICompadd cm _ => Ok (push_new cm l)
    | ISub s _ =>
        do sd <- lookup_sub c s;
        do srt <- rtrans sd;
        Ok (cmds_of_inputs l (map (fun fxt => snd (fst fxt)) srt))
    | _ => Ok l
    end
  end.

Lemma get_commands_fold c : forall rt0 l,
  pool_closed c rt0 ->
  exists l', fold_left (gc_step c) rt0 (Ok l) = Ok l'
    /\ (forall cm, In cm l -> In cm l')
    /\ (forall f x to cm, In (f, x, to) rt0 -> names_cmd x cm -> In cm l')
    /\ (forall f s lv to sd srt f' x' to' cm,
           In (f, ISub s lv, to) rt0 -> nthN (c_subs c) s = Some sd -> rtrans sd = Ok srt ->
           In (f', x', to') srt -> names_cmd x' cm -> In cm l').
Proof.
  induction rt0 as [|[[f0 x0] t0] r IH]; intros l Hp; cbn [fold_left].
  - exists l. split; [reflexivity|]. split; [auto|]. split; [intros ? ? ? ? []|intros ? ? ? ? ? ? ? ? ? ? []].
  - assert (Hp' : pool_closed c r) by (intros f s lv to H; apply (Hp f s lv to); right; exact H).
    assert (Step : exists l1, gc_step c (Ok l) (f0, x0, t0) = Ok l1
                     /\ (forall cm, In cm l -> In cm l1)
                     /\ (forall cm, names_cmd x0 cm -> In cm l1)
                     /\ (forall s lv sd srt f' x' to' cm, x0 = ISub s lv -> nthN (c_subs c) s = Some sd ->
                           rtrans sd = Ok srt -> In (f', x', to') srt -> names_cmd x' cm -> In cm l1)).
    { unfold gc_step. cbn [obind]. destruct x0 as [t d lv|s lv|cm lv|cm lv|].
      - exists l. split; [reflexivity|]. split; [auto|]. split; [intros cm [lv0 [E|E]]; discriminate|intros; discriminate].
      - destruct (Hp f0 s lv t0 (or_introl eq_refl)) as [sd [Hsd Wsd]].
        unfold lookup_sub. rewrite Hsd. cbn [obind]. destruct (rtrans_total sd Wsd) as [srt Hsrt]. rewrite Hsrt. cbn [obind].
        eexists. split; [reflexivity|]. split; [intros cm H; apply cmds_of_inputs_incl; exact H|].
        split; [intros cm [lv0 [E|E]]; discriminate|].
        intros s' lv0 sd' srt' f' x' to' cm E Hsd' Hsrt' Hin Hn. inversion E; subst s' lv0.
        rewrite Hsd in Hsd'. inversion Hsd'; subst sd'. rewrite Hsrt in Hsrt'. inversion Hsrt'; subst srt'.
        eapply cmds_of_inputs_cmd; [|exact Hn]. apply in_map_iff. exists (f', x', to'). split; [reflexivity|exact Hin].
      - exists (push_new cm l). split; [reflexivity|]. split; [intros c0 H; apply push_new_in; auto|].
        split; [intros c0 [lv0 [E|E]]; inversion E; subst; apply push_new_in; auto|intros; discriminate].
      - exists (push_new cm l). split; [reflexivity|]. split; [intros c0 H; apply push_new_in; auto|].
        split; [intros c0 [lv0 [E|E]]; inversion E; subst; apply push_new_in; auto|intros; discriminate].
      - exists l. split; [reflexivity|]. split; [auto|]. split; [intros cm [lv0 [E|E]]; discriminate|intros; discriminate]. }
    destruct Step as [l1 [E1 [I1 [C1 S1]]]]. rewrite E1.
    destruct (IH l1 Hp') as [l' [E' [I' [C' S']]]]. exists l'. split; [exact E'|]. split; [auto|]. split.
    + intros f x to cm [H|H] Hn; [inversion H; subst; apply I'; apply C1; exact Hn|eapply C'; eauto].
    + intros f s lv to sd srt f' x' to' cm [H|H] Hsd Hsrt Hin Hn.
      * inversion H; subst. apply I'. eapply S1; eauto.
      * eapply S'; eauto.
Qed.

Lemma get_commands_total c rt :
  rtrans (c_main c) = Ok rt -> pool_closed c rt ->
  exists cmds, get_commands c = Ok cmds
    /\ (forall f x to cm, In (f, x, to) rt -> names_cmd x cm -> In cm cmds)
    /\ (forall f s lv to sd srt f' x' to' cm,
           In (f, ISub s lv, to) rt -> nthN (c_subs c) s = Some sd -> rtrans sd = Ok srt ->
           In (f', x', to') srt -> names_cmd x' cm -> In cm cmds).
Proof.
  intros Hrt Hp. unfold get_commands. rewrite Hrt. cbn [obind].
  destruct (get_commands_fold c rt [] Hp) as [l' [E [_ [C S]]]]. exists l'.
  split; [exact E|]. split; [exact C|exact S].
Qed.

Lemma get_needs_total c rt :
  rtrans (c_main c) = Ok rt -> pool_closed c rt -> exists nd, get_needs c = Ok nd.
Proof.
  intros Hrt Hp. unfold get_needs. rewrite Hrt. cbn [obind]. unfold iter_subwords.
  match goal with |- exists nd, obind (obind (omap ?f rt) _) _ = _ => destruct (omap_total f rt) as [ls Hls] end.
  { intros [[f x] t] Hin. cbn [fst snd]. destruct x; eauto.
    destruct (Hp f sub level t Hin) as [sd [Hsd _]]. unfold lookup_sub. rewrite Hsd. cbn. eauto. }
  rewrite Hls. cbn [obind].
  assert (Hall : forall sd, In sd (List.concat ls) -> dfa_wf sd).
  { intros sd Hin. apply in_concat in Hin. destruct Hin as [l [Hl Hsd]].
    apply (omap_ok_in _ _ _ Hls) in Hl. destruct Hl as [[[f x] t] [Hin Hf]]. cbn [fst snd] in Hf.
    destruct x; inversion Hf; subst; try contradiction.
    destruct (Hp f sub level t Hin) as [sd' [Hsd' W]]. unfold lookup_sub in H0. rewrite Hsd' in H0. cbn in H0.
    inversion H0; subst. destruct Hsd as [<-|[]]. exact W. }
  destruct (omap_total rtrans (List.concat ls)) as [srts Hs].
  { intros sd Hin. apply rtrans_total. apply Hall. exact Hin. }
  rewrite Hs. cbn [obind]. eauto.
Qed.

Lemma orders_ok_main c om os : orders_ok c om os = true -> valid_literal_order (c_main c) om = true.
Proof.
  unfold orders_ok, valid_orders. intro H. apply andb_prop in H. destruct H as [H _].
  apply andb_prop in H. tauto.
Qed.

Lemma orders_ok_sub c om os pi sd :
  orders_ok c om os = true -> nthN (c_subs c) pi = Some sd -> valid_literal_order sd (ord_for os pi) = true.
Proof.
  unfold orders_ok. intros H Hn. apply andb_prop in H. destruct H as [_ H]. rewrite forallb_forall in H.
  apply (H (pi, sd)). apply number_from_in. split; [lia|]. rewrite N.sub_0_r. exact Hn.
Qed.

Lemma all_tables_total sh c om os rt :
  dfa_wf (c_main c) -> rtrans (c_main c) = Ok rt -> pool_closed c rt -> orders_ok c om os = true ->
  exists nd a, all_tables sh c om os = Ok (nd, a).
Proof.
  intros W Hrt Hp Ho. unfold all_tables.
  destruct (get_needs_total c rt Hrt Hp) as [nd ->]. cbn [obind].
  destruct (get_commands_total c rt Hrt Hp) as [cmds [-> [Cm Cs]]]. cbn [obind]. rewrite Hrt. cbn [obind].
  destruct (glt_total (c_main c) cmds (array_start sh) (n_top_cmd nd) (compadd_switch sh (n_top_compadd nd))
              (n_top_star nd) om rt W Hrt (orders_ok_main c om os Ho)) as [main [-> Hmax]].
  { intros f cm l to Hin. eapply Cm; [exact Hin|]. exists l. auto. }
  { intros f cm l to Hin. eapply Cm; [exact Hin|]. exists l. auto. }
  cbn [obind].
  (* within-word transitions *)
  assert (Hst : exists st, subword_transitions (c_main c) (get_all_states (c_main c)) = Ok st).
  { unfold subword_transitions.
    match goal with |- exists st, obind (omap ?f ?l) _ = _ => destruct (omap_total f l) as [rows Hrows] end.
    - intros s _. destruct (rtrans_from_total (c_main c) s W) as [tr ->]. cbn. eauto.
    - rewrite Hrows. cbn. eauto. }
  destruct Hst as [st ->]. cbn [obind].
  (* within-word candidates *)
  assert (Hcs : exists cs, get_completion_subwords rt (get_subwords rt (array_start sh)) (t_maxlevel main) = Ok cs).
  { unfold get_completion_subwords. apply completion_table_total.
    intros f x to lvl r Hin E. destruct x; try discriminate. inversion E; subst lvl r. split.
    - rewrite Hmax. destruct (max_level_ge rt f (ISub sub level) to level Hin eq_refl) as [m [-> L]]. lia.
    - unfold sub_id_or_panic. destruct (get_subwords_covers rt (array_start sh) f sub level to Hin) as [id ->]. eauto. }
  destruct Hcs as [cs ->]. cbn [obind].
  (* the tables of the within-word automata *)
  assert (Hsub : forall pi, In pi (get_subwords rt (array_start sh)) ->
                            exists sd, nthN (c_subs c) (fst pi) = Some sd /\ dfa_wf sd).
  { intros [pi id] Hin. destruct (get_subwords_origin rt _ pi id Hin) as [f [l [to H]]]. cbn [fst]. eapply Hp. exact H. }
  match goal with |- exists nd0 a, obind (omap ?f ?l) _ = _ => destruct (omap_total f l) as [subs Hsubs] end.
  { intros [pi id] Hin. cbn [fst snd]. destruct (Hsub _ Hin) as [sd [Hsd Wsd]]. cbn [fst] in Hsd.
    unfold lookup_sub. rewrite Hsd. cbn [obind]. destruct (rtrans_total sd Wsd) as [srt Hsrt].
    destruct (get_subwords_origin rt _ pi id Hin) as [f [l [to Hf]]].
    destruct (glt_total sd cmds (array_start sh) (n_sub_cmd nd) (compadd_switch sh (n_sub_compadd nd)) (n_sub_star nd)
                (match assocN pi os with Some o => o | None => [] end) srt Wsd Hsrt) as [t [Ht _]].
    - exact (orders_ok_sub c om os pi sd Ho Hsd).
    - intros f' cm lv' to' Hin'. eapply (Cs f pi l to sd srt f' _ to' cm); eauto. exists lv'. auto.
    - intros f' cm lv' to' Hin'. eapply (Cs f pi l to sd srt f' _ to' cm); eauto. exists lv'. auto.
    - rewrite Ht. cbn. eauto. }
  rewrite Hsubs. cbn [obind].
  match goal with |- exists nd0 a, obind (omap ?f ?l) _ = _ => destruct (omap_total f l) as [sacc Hsacc] end.
  { intros [pi id] Hin. cbn [fst snd]. destruct (Hsub _ Hin) as [sd [Hsd _]]. cbn [fst] in Hsd.
    unfold lookup_sub. rewrite Hsd. cbn. eauto. }
  rewrite Hsacc. cbn [obind]. eauto.
Qed.

Lemma find_total {A} (p : A -> bool) l x : In x l -> p x = true -> exists y, find p l = Some y.
Proof.
  induction l as [|z r IH]; intros Hin Hp; [contradiction|]. cbn [find].
  destruct (p z) eqn:E; [eauto|]. destruct Hin as [->|Hin]; [congruence|]. apply IH; assumption.
Qed.

Lemma assocN_total {V} k (l : list (N * V)) v : In (k, v) l -> exists v', assocN k l = Some v'.
Proof.
  induction l as [|[k' w] r IH]; intros H; [contradiction|]. cbn [assocN].
  destruct (N.eqb k k') eqn:E; [eauto|]. destruct H as [H|H]; [|apply IH; exact H].
  inversion H; subst. rewrite N.eqb_refl in E. discriminate.
Qed.

Section Script.
  Variables (sh : shell) (c : cdfa) (om : list (string * string)) (os : list (N * list (string * string)))
            (nd : needs) (a : alltables).
  Hypothesis Hwf : dfa_wf (c_main c).
  Hypothesis Hall : all_tables sh c om os = Ok (nd, a).

  Lemma pool_index_has_tables rt pi id :
    rtrans (c_main c) = Ok rt -> In (pi, id) (get_subwords rt (array_start sh)) ->
    (exists t, In (pi, id, t) (a_subwords a)) /\ (exists accs, In (id, accs) (a_subaccepting a)).
  Proof.
    intros Hrt Hin. destruct (all_tables_inv _ _ _ _ _ _ Hall) as [rt' F].
    rewrite (af_rt _ _ _ _ _ _ _ F) in Hrt. inversion Hrt; subst rt'. split.
    - destruct (omap_ok_each _ _ _ (af_subs _ _ _ _ _ _ _ F) _ Hin) as [y [Hy Hy']].
      cbn [fst snd] in Hy. apply obind_ok in Hy. destruct Hy as [sd [_ Hy]].
      apply obind_ok in Hy. destruct Hy as [t [_ Hy]]. inversion Hy; subst. eauto.
    - destruct (omap_ok_each _ _ _ (af_subacc _ _ _ _ _ _ _ F) _ Hin) as [y [Hy Hy']].
      cbn [fst snd] in Hy. apply obind_ok in Hy. destruct Hy as [sd [_ Hy]]. inversion Hy; subst. eauto.
  Qed.

  Lemma script_id_has id :
    In id (map (fun e : N * N * tables => snd (fst e)) (a_subwords a)) ->
    (exists t, tables_of_id a id = Ok t) /\ (exists accs, accepting_of_id a id = Ok accs).
  Proof.
    intro Hin. apply in_map_iff in Hin. destruct Hin as [[[pi id'] t] [E Hin]]. cbn [fst snd] in E. subst id'.
    split.
    - unfold tables_of_id.
      destruct (find_total (fun e : N * N * tables => N.eqb (snd (fst e)) id) _ _ Hin) as [y ->]; [cbn; apply N.eqb_refl|eauto].
    - destruct (all_tables_inv _ _ _ _ _ _ Hall) as [rt F].
      apply (proj1 (subwords_exact sh c om os nd a Hall pi id t)) in Hin.
      destruct Hin as [rt' [sd [Hrt' [Hin _]]]].
      destruct (pool_index_has_tables rt' pi id Hrt' Hin) as [_ [accs Hacc]].
      unfold accepting_of_id. destruct (assocN_total _ _ _ Hacc) as [v' ->]. eauto.
  Qed.

  Lemma subtrans_script_id s row pi to :
    In (s, row) (a_subtrans a) -> In (pi, to) row -> exists id, script_id a pi = Ok id.
  Proof.
    intros Hrow Hpt.
    destruct (proj1 (subtrans_exact sh c om os nd a Hwf Hall s pi to)) as [lvl Htr]; [eauto|].
    destruct (all_tables_inv _ _ _ _ _ _ Hall) as [rt F].
    apply (trans_on_rt _ _ _ _ _ Hwf (af_rt _ _ _ _ _ _ _ F)) in Htr.
    destruct (get_subwords_covers rt (array_start sh) s pi lvl to Htr) as [id Hid].
    apply assocN_In in Hid.
    destruct (pool_index_has_tables rt pi id (af_rt _ _ _ _ _ _ _ F) Hid) as [[t Ht] _].
    unfold script_id.
    destruct (find_total (fun e : N * N * tables => N.eqb (fst (fst e)) pi) _ _ Ht) as [y ->]; [cbn; apply N.eqb_refl|].
    eauto.
  Qed.

  Lemma write_group_total command shape_id g :
    g <> [] -> (forall id, In id g -> In id (map (fun e : N * N * tables => snd (fst e)) (a_subwords a))) ->
    exists s, write_group command a shape_id g = Ok s.
  Proof.
    intros Hne Hids. unfold write_group. destruct g as [|id r]; [congruence|].
    destruct r as [|id2 r2].
    - destruct (script_id_has id (Hids id (or_introl eq_refl))) as [[t ->] [accs ->]]. cbn [obind]. eauto.
    - destruct (script_id_has id (Hids id (or_introl eq_refl))) as [[t ->] _]. cbn [obind].
      match goal with |- exists s, obind (omap ?f ?l) _ = _ => destruct (omap_total f l) as [ws Hws] end.
      + intros j Hj. destruct (script_id_has j (Hids j Hj)) as [[tj ->] [accj ->]]. cbn [obind]. eauto.
      + rewrite Hws. cbn [obind]. eauto.
  Qed.

  Lemma script_total command sg groups :
    valid_grouping a groups = true ->
    exists s, script command sg (d_start (c_main c)) nd a groups = Ok s.
  Proof.
    intro V. destruct (valid_grouping_inv a groups V) as [Vin Vg]. unfold script.
    assert (H1 : exists sp, (if n_subwords nd
                             then do gs <- omap (fun ig : N * list N => write_group command a (fst ig) (snd ig)) (number_from 0 groups);
                                  Ok (append (sconcat gs) (write_subword_fn command (n_sub_cmd nd) (n_sub_star nd)))
                             else Ok EmptyString) = Ok sp).
    { destruct (n_subwords nd); [|eauto].
      match goal with |- exists sp, obind (omap ?f ?l) _ = _ => destruct (omap_total f l) as [gs Hgs] end.
      - intros [i g] Hin. cbn [fst snd]. apply number_from_in in Hin. destruct Hin as [_ Hn].
        apply nth_error_In in Hn. apply write_group_total; [apply (Vg g Hn)|].
        intros id Hid. apply Vin. apply in_concat. exists g. auto.
      - rewrite Hgs. cbn [obind]. eauto. }
    destruct H1 as [sp ->]. cbn [obind].
    assert (H2 : exists st, (if n_subwords nd
                             then do rows <- omap (fun row : N * list (N * N) =>
                                      do kvs <- omap (fun pt : N * N => do id <- script_id a (fst pt); Ok (kv (id, snd pt))) (snd row);
                                      Ok (fmtln write_completion_script_5 [("state", sN (fst row)); ("state_transitions", join " " kvs)]))
                                    (a_subtrans a);
                                  Ok (append (fmtln write_completion_script_4 []) (sconcat rows))
                             else Ok EmptyString) = Ok st).
    { destruct (n_subwords nd); [|eauto].
      match goal with |- exists st, obind (omap ?f ?l) _ = _ => destruct (omap_total f l) as [rows Hrows] end.
      - intros [s row] Hrow. cbn [fst snd].
        match goal with |- exists y, obind (omap ?f ?l) _ = _ => destruct (omap_total f l) as [kvs Hk] end.
        + intros [pi to] Hpt. cbn [fst snd]. destruct (subtrans_script_id s row pi to Hrow Hpt) as [id ->]. cbn. eauto.
        + rewrite Hk. cbn. eauto.
      - rewrite Hrows. cbn. eauto. }
    destruct H2 as [st ->]. cbn [obind]. eauto.
  Qed.

  (** the data sections of the other three emitters *)
  Lemma resolve_rows_total : exists rows, EmitData.resolve_rows a = Ok rows.
  Proof.
    unfold EmitData.resolve_rows. apply omap_total. intros [s row] Hrow. cbn [fst snd].
    match goal with |- exists y, obind (omap ?f ?l) _ = _ => destruct (omap_total f l) as [kvs Hk] end.
    - intros [pi to] Hpt. cbn [fst snd]. destruct (subtrans_script_id s row pi to Hrow Hpt) as [id ->]. cbn. eauto.
    - rewrite Hk. cbn. eauto.
  Qed.

  Lemma group_blocks_total wrapper shape_fn shape_wrapper groups :
    valid_grouping a groups = true ->
    exists gs, EmitData.group_blocks wrapper shape_fn shape_wrapper a groups = Ok gs.
  Proof.
    intro V. destruct (valid_grouping_inv a groups V) as [Vin Vg].
    unfold EmitData.group_blocks. apply omap_total. intros [i g] Hin. cbn [fst snd].
    apply number_from_in in Hin. destruct Hin as [_ Hn]. apply nth_error_In in Hn.
    assert (Hids : forall id, In id g -> exists t, tables_of_id a id = Ok t).
    { intros id Hid. apply script_id_has. apply Vin. apply in_concat. exists g. auto. }
    destruct (Vg g Hn) as [Hne _]. unfold EmitData.group_block, EmitData.tables_of.
    destruct g as [|id r]; [congruence|]. destruct r as [|id2 r2].
    - destruct (Hids id (or_introl eq_refl)) as [t ->]. cbn. eauto.
    - destruct (Hids id (or_introl eq_refl)) as [t ->]. cbn [obind].
      match goal with |- exists y, obind (obind (omap ?f ?l) _) _ = _ => destruct (omap_total f l) as [ws Hws] end.
      + intros j Hj. destruct (Hids j Hj) as [tj ->]. cbn. eauto.
      + rewrite Hws. cbn. eauto.
  Qed.

End Script.

Lemma data_blocks_total sh c om os nd a command groups :
  dfa_wf (c_main c) -> all_tables sh c om os = Ok (nd, a) ->
  valid_grouping a groups = true -> exists bs, data_blocks sh command nd a groups = Ok bs.
Proof.
  intros Hwf Hall V. destruct (resolve_rows_total sh c om os nd a Hwf Hall) as [rows Hrows].
  assert (G := fun w s sw => group_blocks_total sh c om os nd a Hall w s sw groups V).
  unfold data_blocks. destruct sh.
  - eauto.
  - unfold EmitData.F.data.
    destruct (G (EmitData.F.wrapper command) (EmitData.F.shape_fn command) (EmitData.F.shape_wrapper command)) as [gs Hgs].
    rewrite Hgs, Hrows. destruct (n_subwords nd); cbn [obind]; eauto.
  - unfold EmitData.Z.data.
    destruct (G (EmitData.Z.wrapper command) (EmitData.Z.shape_fn command) (EmitData.Z.shape_wrapper command)) as [gs Hgs].
    rewrite Hgs, Hrows. destruct (n_subwords nd); cbn [obind]; eauto.
  - unfold EmitData.P.data.
    destruct (G (EmitData.P.wrapper command) (EmitData.P.shape_fn command) (EmitData.P.shape_wrapper command)) as [gs Hgs].
    rewrite Hgs, Hrows. destruct (n_subwords nd); cbn [obind]; eauto.
Qed.

From CG Require Import Model.Parser Proofs.TreeFacts Proofs.CheckTree Proofs.DriverCorrect Proofs.CompiledFacts Proofs.SubCompiled
  Proofs.PipelineTotal.
From CG Require Props.C05b.

Lemma compiled_pool_closed pick fuel v c rt :
  alts_nonempty (v_expr v) = true -> compile_valid pick fuel v = Ok c ->
  rtrans (c_main c) = Ok rt -> pool_closed c rt.
Proof.
  intros Ha Hc Hrt f s l to Hin.
  destruct (sub_facts pick fuel v c s l Ha Hc (rt_input _ _ _ _ _ Hrt Hin)) as [sd [Hsd Hok]].
  exists sd. split; [exact Hsd|apply (so_wf _ Hok)].
Qed.

(** a successful compilation went through the stages the facts about the compiled automata speak of *)
Lemma compile_stages pick fuel builtins text sh v c :
  compile pick fuel builtins text sh = Ok (v, c) ->
  alts_nonempty (v_expr v) = true /\ compile_valid pick fuel v = Ok c.
Proof.
  unfold compile. intros H.
  destruct (parse text) as [g| | |] eqn:Hg; cbn in H; try discriminate.
  destruct (from_grammar builtins g sh) as [v'| | |] eqn:Hv; cbn in H; try discriminate.
  destruct (compile_valid pick fuel v') as [c'| | |] eqn:Hc; cbn in H; try discriminate.
  injection H as -> ->. split; [|exact Hc].
  apply (check_tree builtins g sh v Hv), (Props.C05b.parse_alts_nonempty text g Hg).
Qed.

(** the tables are there for every literal order that passes its validation *)
Lemma tables_ready sh o pick fuel v c :
  alts_nonempty (v_expr v) = true -> compile_valid pick fuel v = Ok c ->
  orders_ok c (o_main_lits o) (o_sub_lits o) = true ->
  exists nd a, dfa_wf (c_main c) /\ all_tables sh c (o_main_lits o) (o_sub_lits o) = Ok (nd, a).
Proof.
  intros Ha Hc Ho. destruct (compiled_facts pick fuel v c Ha Hc) as [_ [W _]].
  destruct (rtrans_total (c_main c) W) as [rt Hrt].
  destruct (all_tables_total sh c _ _ rt W Hrt (compiled_pool_closed pick fuel v c rt Ha Hc Hrt) Ho) as [nd [a Hall]].
  eauto.
Qed.

Theorem emit_bash_total o pick fuel v c :
  alts_nonempty (v_expr v) = true -> compile_valid pick fuel v = Ok c ->
  (exists s, emit_bash o v c = Ok s) \/ emit_bash o v c = Err CBadOracle.
Proof.
  intros Ha Hc. unfold emit_bash.
  destruct (orders_ok c (o_main_lits o) (o_sub_lits o)) eqn:Ho; [|auto].
  destruct (tables_ready Bash o pick fuel v c Ha Hc Ho) as [nd [a [W Hall]]].
  rewrite Hall. destruct (valid_grouping a (o_groups o)) eqn:Vg; [|auto].
  destruct (script_total Bash c _ _ nd a W Hall (v_command v) (o_sig o) (o_groups o) Vg) as [s ->]. eauto.
Qed.

Theorem compile_bash_total o builtins text :
  fuel_covers (o_fuel o) builtins text Bash ->
  (exists s, compile_bash o builtins text = Ok s) \/ (exists e, compile_bash o builtins text = Err e).
Proof.
  intro Hf. unfold compile_bash.
  destruct (compile_total (pick_table (o_pops o)) (o_fuel o) builtins text Bash Hf) as [[[v c] Hvc]|[e He]].
  - rewrite Hvc. destruct (compile_stages _ _ _ _ _ _ _ Hvc) as [Halts Hc].
    destruct (emit_bash_total o _ _ v c Halts Hc) as [[s Hs]|Hb]; [left|right]; eauto.
  - rewrite He. right. eauto.
Qed.

Theorem emit_data_total sh o pick fuel v c :
  alts_nonempty (v_expr v) = true -> compile_valid pick fuel v = Ok c ->
  (exists bs, emit_data sh o v c = Ok bs) \/ emit_data sh o v c = Err CBadOracle.
Proof.
  intros Ha Hc. unfold emit_data.
  destruct (orders_ok c (o_main_lits o) (o_sub_lits o)) eqn:Ho; [|auto].
  destruct (tables_ready sh o pick fuel v c Ha Hc Ho) as [nd [a [W Hall]]].
  rewrite Hall. destruct (valid_grouping a (o_groups o)) eqn:Vg; [|auto].
  destruct (data_blocks_total sh c _ _ nd a (v_command v) (o_groups o) W Hall Vg) as [bs ->]. eauto.
Qed.

Theorem compile_data_total sh o builtins text :
  fuel_covers (o_fuel o) builtins text sh ->
  (exists bs, compile_data sh o builtins text = Ok bs) \/ (exists e, compile_data sh o builtins text = Err e).
Proof.
  intro Hf. unfold compile_data.
  destruct (compile_total (pick_table (o_pops o)) (o_fuel o) builtins text sh Hf) as [[[v c] Hvc]|[e He]].
  - rewrite Hvc. destruct (compile_stages _ _ _ _ _ _ _ Hvc) as [Halts Hc].
    destruct (emit_data_total sh o _ _ v c Halts Hc) as [[s Hs]|Hb]; [left|right]; eauto.
  - rewrite He. right. eauto.
Qed.
