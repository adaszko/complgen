(** Descriptions and nonterminals: the printed form lexes back. *)
From CG Require Import Base.Prelude Base.Facts Model.Ast Model.Lexer Model.Parser Spec.Printer
  Proofs.LexBase Proofs.LexBlanks Proofs.LexTerminal.
From CGgen Require Import Consts.

Lemma descr_body_plain : forall a, all_chars not_quote_backslash a = true -> descr_body a = a.
Proof.
  induction a; cbn [all_chars descr_body]; intros H; auto.
  apply andb_true_iff in H as [H1 H2]. unfold not_quote_backslash in H1.
  apply andb_true_iff in H1 as [Q B]. apply negb_true_iff in Q, B. rewrite Q, B. cbn [orb].
  rewrite IHa; auto.
Qed.

Lemma descr_body_app : forall a b, all_chars not_quote_backslash a = true ->
    descr_body (append a b) = append a (descr_body b).
Proof.
  induction a; cbn [all_chars descr_body append]; intros b H; auto.
  apply andb_true_iff in H as [H1 H2]. unfold not_quote_backslash in H1.
  apply andb_true_iff in H1 as [Q B]. apply negb_true_iff in Q, B. rewrite Q, B. cbn [orb].
  rewrite IHa; auto.
Qed.

Lemma descr_body_stop : forall d r,
    hd_in (fun c => negb (not_quote_backslash c)) d = true ->
    hd_in (fun c => negb (not_quote_backslash c)) (append (descr_body d) (String DQUOTE r)) = true.
Proof.
  intros [|c d] r H; cbn [descr_body append hd_in] in *.
  - reflexivity.
  - unfold not_quote_backslash in H. 
    destruct (Ascii.eqb c DQUOTE) eqn:Q; cbn [orb negb andb] in *.
    + cbn [append hd_in]. reflexivity.
    + destruct (Ascii.eqb c BACKSLASH) eqn:B; cbn [orb negb andb] in *; [|discriminate].
      cbn [append hd_in]. reflexivity.
Qed.

Lemma description_inner_printed : forall fuel d r p,
    (String.length (append (descr_body d) (String DQUOTE r)) < fuel)%nat ->
    description_inner_f fuel (mkin (append (descr_body d) (String DQUOTE r)) p)
    = Ok (d, mkin (String DQUOTE r) (adv_str (descr_body d) p)).
Proof.
  induction fuel; intros d r p H; [lia|]. cbn [description_inner_f].
  unfold parse_fragment, parse_literal, take_while1, take_while. cbn [rest at_].
  destruct (span_while not_quote_backslash d) as [a d'] eqn:E.
  pose proof (span_while_app _ _ _ _ E) as Ed. pose proof (span_while_all _ _ _ _ E) as Ea.
  pose proof (span_while_stop _ _ _ _ E) as Es. subst d.
  rewrite descr_body_app in H by assumption. rewrite append_assoc in H.
  rewrite descr_body_app by assumption. rewrite append_assoc.
  rewrite (span_while_exact not_quote_backslash a _ Ea (descr_body_stop d' r Es)).
  destruct a as [|c a].
  - (* no plain run: an escaped character or the end *)
    cbn [append obind fail adv_str]. cbn [append] in H.
    destruct d' as [|c d'].
    + cbn [descr_body append]. unfold parse_escaped_char, parse_escaped_whitespace, char_p. cbn [rest at_].
      replace (Ascii.eqb DQUOTE BACKSLASH) with false by (reflexivity). cbn [obind fail]. reflexivity.
    + cbn [hd_in] in Es. unfold not_quote_backslash in Es.
      cbn [descr_body].
      assert (Hc : Ascii.eqb c DQUOTE || Ascii.eqb c BACKSLASH = true).
      { destruct (Ascii.eqb c DQUOTE), (Ascii.eqb c BACKSLASH); cbn in *; auto; discriminate. }
      rewrite Hc. cbn [append]. cbn [descr_body] in H. rewrite Hc in H. cbn [append String.length] in H.
      unfold parse_escaped_char, char_p. cbn [rest at_].
      rewrite (Ascii.eqb_refl BACKSLASH). cbn [obind rest at_].
      destruct (Ascii.eqb c BACKSLASH) eqn:B.
      * cbn [obind]. rewrite IHfuel by lia. cbn [obind adv_str].
        apply Ascii.eqb_eq in B. subst c. reflexivity.
      * rewrite orb_false_r in Hc. cbn [obind fail]. rewrite Hc. cbn [obind].
        rewrite IHfuel by lia. cbn [obind adv_str].
        apply Ascii.eqb_eq in Hc. subst c. reflexivity.
  - cbn [obind]. rewrite length_append in H. cbn [String.length] in H.
    rewrite IHfuel by (cbn [String.length]; lia). cbn [obind]. rewrite adv_str_app. reflexivity.
Qed.

Theorem description_printed : forall d r p,
    description (mkin (append (descr_text d) r) p) = Ok (d, mkin r (adv_str (descr_text d) p)).
Proof.
  intros. unfold description, descr_text. cbn [append]. rewrite char_p_hit. cbn [obind].
  unfold description_inner. cbn [rest]. rewrite append_assoc. cbn [append].
  rewrite description_inner_printed by lia. cbn [obind]. rewrite char_p_hit. cbn [obind adv_str].
  rewrite adv_str_app. reflexivity.
Qed.

Theorem opt_description_printed : forall g d r p,
    opt_description (mkin (append (gap_text g) (append (descr_text d) r)) p)
    = Ok (Some d, mkin r (adv_str (descr_text d) (adv_str (gap_text g) p))).
Proof.
  intros. unfold opt_description. rewrite multiblanks0_gap by reflexivity. cbn [obind].
  rewrite description_printed. reflexivity.
Qed.

Theorem opt_description_none : forall i,
    hd_in (fun c => negb (Ascii.eqb c DQUOTE)) (rest (skip i)) = true ->
    opt_description i = Ok (None, i).
Proof.
  intros i H. unfold opt_description. rewrite multiblanks0_spec. cbn [obind].
  unfold description, char_p. destruct (rest (skip i)) as [|c r]; [reflexivity|].
  cbn [hd_in] in H. apply negb_true_iff in H. rewrite H. reflexivity.
Qed.

Lemma all_chars_app : forall f a b, all_chars f (append a b) = all_chars f a && all_chars f b.
Proof. induction a; cbn; intros; auto. rewrite IHa. apply andb_assoc. Qed.

Lemma all_chars_andb : forall (f g : ascii -> bool) s,
    all_chars (fun c => f c && g c) s = all_chars f s && all_chars g s.
Proof.
  induction s; cbn [all_chars]; [reflexivity|]. rewrite IHs.
  destruct (f a), (g a), (all_chars f s); reflexivity.
Qed.

Lemma wf_nt_ne : forall n, wf_nt n = true -> n <> EmptyString /\ all_chars (fun c => negb (Ascii.eqb c GT)) n = true.
Proof. intros [|c n] W; [discriminate|]. split; [discriminate|exact W]. Qed.

Theorem nonterm_printed : forall n r p,
    wf_nt n = true ->
    nonterm (mkin (String LT (append n (String GT r))) p)
    = Ok ((n, pspan p (adv_char GT (adv_str n (adv_char LT p)))),
          mkin r (adv_char GT (adv_str n (adv_char LT p)))).
Proof.
  intros n r p W. apply wf_nt_ne in W as [N W]. unfold nonterm. rewrite char_p_hit. cbn [obind].
  rewrite take_while1_exact by (auto; cbn [hd_in]; rewrite Ascii.eqb_refl; reflexivity). cbn [obind].
  rewrite char_p_hit. reflexivity.
Qed.

(** a plain definition head [<n>] is not read as a specialisation *)
Lemma nonterm_specialization_plain : forall n r p,
    wf_nt n = true -> negb (spec_like n) = true ->
    nonterm_specialization (mkin (String LT (append n (String GT r))) p) = Err tt.
Proof.
  intros n r p W Wa. unfold wf_nt in W. apply andb_true_iff in W as [W1 W2]. apply negb_true_iff in Wa.
  unfold spec_like in Wa.
  destruct (span_while (fun c => negb (Ascii.eqb c AT)) n) as [a b] eqn:E.
  pose proof (span_while_app _ _ _ _ E) as En. pose proof (span_while_all _ _ _ _ E) as Ea.
  pose proof (span_while_stop _ _ _ _ E) as Es. subst n.
  rewrite all_chars_app in W2. apply andb_true_iff in W2 as [Wa2 Wb2].
  unfold nonterm_specialization. rewrite char_p_hit. cbn [obind].
  unfold take_while1, take_while. cbn [rest at_]. rewrite append_assoc.
  rewrite (span_while_exact _ a (append b (String GT r))).
  2:{ rewrite all_chars_andb, Wa2, Ea. reflexivity. }
  2:{ destruct b as [|x b']; cbn [append hd_in].
      - rewrite Ascii.eqb_refl. reflexivity.
      - cbn [hd_in] in Es. apply negb_true_iff in Es. apply negb_false_iff in Es. rewrite Es.
        rewrite andb_false_r. reflexivity. }
  destruct a as [|c a]; [reflexivity|]. cbn [obind is_empty negb andb] in *.
  destruct b as [|x sh]; cbn [append].
  - rewrite char_p_miss by reflexivity. reflexivity.
  - cbn [hd_in] in Es. apply negb_true_iff in Es. apply negb_false_iff in Es. apply Ascii.eqb_eq in Es. subst x.
    rewrite char_p_hit. cbn [obind].
    destruct sh; [|discriminate]. unfold take_while1, take_while. cbn [append rest span_while].
    rewrite Ascii.eqb_refl. reflexivity.
Qed.

Theorem nonterm_specialization_printed : forall n sh r p,
    wf_nt n = true -> all_chars (fun c => negb (Ascii.eqb c AT)) n = true -> wf_nt sh = true ->
    let p1 := adv_str n (adv_char LT p) in
    let q := adv_char AT p1 in
    let q' := adv_str sh q in
    nonterm_specialization (mkin (String LT (append n (String AT (append sh (String GT r))))) p)
    = Ok ((n, pspan p (adv_char GT q'), sh, pspan q q'), mkin r (adv_char GT q')).
Proof.
  intros n sh r p W Wa Ws. apply wf_nt_ne in W as [N W]. apply wf_nt_ne in Ws as [Ns Ws].
  unfold nonterm_specialization. rewrite char_p_hit. cbn [obind].
  rewrite take_while1_exact;
    [|exact N|rewrite all_chars_andb, W, Wa; reflexivity|cbn [hd_in]; rewrite Ascii.eqb_refl, andb_false_r; reflexivity].
  cbn [obind]. rewrite char_p_hit. cbn [obind].
  rewrite take_while1_exact by (auto; cbn [hd_in]; rewrite Ascii.eqb_refl; reflexivity). cbn [obind].
  rewrite char_p_hit. reflexivity.
Qed.
