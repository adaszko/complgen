(** L-subset-fuel: with more than [2^(n+1)] units of fuel the work-list loop of
    [Model/Subset.v] never answers [OutOfFuel], where [n] bounds the positions mentioned by the
    tables.  Every stored set of positions is a strictly increasing list over [{0..n}]; there are
    [2^(n+1)] of those, the stored sets are pairwise different, and every iteration gives one more
    stored set its row. *)
From CG Require Import Base.Prelude Base.Facts Model.Ast Model.Dfa Model.Regex Model.Subset Spec.MinimizeSpec
     Proofs.RxLang Proofs.SubsetStmt Proofs.Glushkov Proofs.SubsetConstr Proofs.Walks.

Lemma sortedN_single : forall x, sortedN [x].
Proof. intros x. cbn. split; [intros y []|exact I]. Qed.

Lemma pins_sorted : forall x l, sortedN l -> sortedN (pins x l).
Proof. intros x l. rewrite pins_bm_insert. apply MinimizeBasics.bm_insert_sorted. Qed.

Lemma punion_sorted : forall a b, sortedN a -> sortedN (punion a b).
Proof.
  intros a b Ha. unfold punion. induction b as [|y b IH]; cbn [fold_right].
  - exact Ha.
  - now apply pins_sorted.
Qed.

Lemma firstpos_sorted : forall t, sortedN (firstpos t).
Proof.
  induction t as [|k p|cs IH|cs IH|c IH] using rx_ind'.
  - exact I.
  - apply sortedN_single.
  - induction IH as [|c cs Hc _ IHcs]; [exact I|].
    rewrite firstpos_cat_cons_eq. destruct (nullable c); [|exact Hc].
    now apply punion_sorted.
  - induction IH as [|c cs Hc _ IHcs]; [exact I|].
    change (firstpos (XOr (c :: cs))) with (punion (firstpos c) (firstpos (XOr cs))).
    now apply punion_sorted.
  - exact IH.
Qed.

Definition tvals (t : list (N * list N)) : Prop := forall p s, In (p, s) t -> sortedN s.

Lemma tbl_add_tvals : forall p q t, tvals t -> tvals (tbl_add p q t).
Proof.
  induction t as [|[k s] r IH]; cbn [tbl_add]; intros H.
  - intros p' s' [E|[]]. inversion E; subst. apply sortedN_single.
  - destruct (N.ltb p k).
    + intros p' s' [E|Hin].
      * inversion E; subst. apply sortedN_single.
      * now apply (H p' s').
    + destruct (N.eqb p k).
      * intros p' s' [E|Hin].
        -- inversion E; subst. apply pins_sorted. eapply H. left. reflexivity.
        -- apply (H p' s'). now right.
      * intros p' s' [E|Hin].
        -- apply (H p' s'). now left.
        -- apply IH with (p := p'); [|exact Hin]. intros a b Hab. apply (H a b). now right.
Qed.

Lemma follow_table_tvals : forall F, tvals (follow_table F).
Proof.
  intros F. unfold follow_table.
  assert (H0 : tvals []) by (intros p s []).
  revert H0. generalize (@nil (N * list N)) as t.
  induction F as [|[a b] F IH]; intros t Ht; cbn [fold_left]; [exact Ht|].
  apply IH. now apply tbl_add_tvals.
Qed.

Fixpoint powerset (l : list N) : list (list N) :=
  match l with
  | [] => [[]]
  | x :: r => powerset r ++ map (cons x) (powerset r)
  end.

Lemma powerset_length : forall l, List.length (powerset l) = pow2 (List.length l).
Proof.
  induction l as [|x l IH]; [reflexivity|].
  cbn [powerset List.length pow2]. rewrite app_length, map_length, IH. lia.
Qed.

Lemma powerset_In : forall l, sortedN l ->
  forall s, sortedN s -> (forall q, In q s -> In q l) -> In s (powerset l).
Proof.
  induction l as [|x l IH]; intros Hl s Hs Hin.
  - destruct s as [|y s]; [now left|]. exfalso. apply (Hin y). now left.
  - destruct Hl as [Hx Hl]. cbn [powerset]. apply in_app_iff.
    destruct s as [|y s].
    + left. apply IH; [exact Hl|exact I|intros q []].
    + destruct Hs as [Hy Hs].
      destruct (Hin y (or_introl eq_refl)) as [<-|Hyl].
      * right. apply in_map. apply IH; [exact Hl|exact Hs|].
        intros q Hq. destruct (Hin q (or_intror Hq)) as [<-|H]; [|exact H].
        apply Hy in Hq. lia.
      * left. apply IH; [exact Hl|split; assumption|].
        intros q [<-|Hq]; [exact Hyl|].
        destruct (Hin q (or_intror Hq)) as [<-|H]; [|exact H].
        apply Hy in Hq. apply Hx in Hyl. lia.
Qed.

Definition universe (n : nat) : list N := map N.of_nat (seq 0 (S n)).

Lemma seq_sorted : forall k a, sortedN (map N.of_nat (seq a k)).
Proof.
  induction k as [|k IH]; intros a; cbn [seq map sortedN]; [exact I|].
  split; [|apply IH].
  intros y Hy. apply in_map_iff in Hy. destruct Hy as [i [<- Hi]].
  apply in_seq in Hi. lia.
Qed.

Lemma universe_In : forall n q, q <= N.of_nat n -> In q (universe n).
Proof.
  intros n q H. unfold universe. apply in_map_iff. exists (N.to_nat q). split.
  - apply Nnat.N2Nat.id.
  - apply in_seq. lia.
Qed.

Lemma universe_length : forall n, List.length (universe n) = S n.
Proof. intros n. unfold universe. now rewrite map_length, seq_length. Qed.

(** A set of positions the loop may store. *)
Definition goodset (n : nat) (s : list N) : Prop :=
  sortedN s /\ forall q, In q s -> q <= N.of_nat n.

Lemma goodset_count : forall n (l : list (list N)),
  NoDup l -> (forall s, In s l -> goodset n s) -> (List.length l <= pow2 (S n))%nat.
Proof.
  intros n l Hnd Hg.
  rewrite <- (universe_length n), <- powerset_length.
  apply NoDup_incl_length; [exact Hnd|].
  intros s Hs. destruct (Hg s Hs) as [H1 H2].
  apply powerset_In; [apply seq_sorted|exact H1|].
  intros q Hq. apply universe_In. now apply H2.
Qed.

Section LoopFuel.
  Variable labels : list inp.
  Variable fw : list (N * list N).
  Variable inputs : list inp.
  Variable start : list N.
  Variable n : nat.
  Hypothesis fw_good : forall p s, In (p, s) fw -> goodset n s.

  Lemma target_good : forall S x, goodset n (target labels fw S x).
  Proof.
    intros S x. unfold target.
    assert (H0 : goodset n []) by (split; [exact I|intros q []]).
    revert H0. generalize (@nil N) as acc.
    induction S as [|a S IH]; intros acc Hacc; cbn [fold_left]; [exact Hacc|].
    apply IH. destruct (nthN labels a) as [y|]; [|exact Hacc].
    destruct (inp_eqb y x); [|exact Hacc].
    destruct (assocN a fw) as [f|] eqn:Ef; [|exact Hacc].
    apply assocN_In in Ef. apply fw_good in Ef.
    destruct Hacc as [A1 A2], Ef as [F1 F2]. split.
    - now apply punion_sorted.
    - intros q Hq. apply in_punion in Hq. destruct Hq; auto.
  Qed.

  Definition good (st : sst) : Prop := forall S s, In (S, s) (s_ids st) -> goodset n S.

  Lemma process_good : forall S xs id st row st1 row1,
    good st -> process labels fw S xs id st row = (st1, row1) -> good st1.
  Proof.
    intros S xs id st row st1 row1 Hg H. unfold good.
    apply (process_stored labels fw (fun ids _ => forall S s, In (S, s) ids -> goodset n S))
      with (2 := Hg) (3 := H).
    intros ids nx S' x Hids _ T s Hin. apply in_app_iff in Hin. destruct Hin as [Hin|[E|[]]].
    - exact (Hids _ _ Hin).
    - injection E as <- _. apply target_good.
  Qed.

  Lemma rows_bound : forall st,
    Inv labels fw inputs start (map fst (s_trans st)) st -> good st ->
    (List.length (s_trans st) <= pow2 (S n))%nat.
  Proof.
    intros st HI Hg.
    apply Nat.le_trans with (List.length (s_ids st)).
    - rewrite <- (map_length fst (s_trans st)), <- (map_length snd (s_ids st)).
      apply NoDup_incl_length; [apply (inv_nd_trans _ _ _ _ _ _ HI)|].
      intros s Hs. now apply (inv_done _ _ _ _ _ _ HI).
    - rewrite <- (map_length fst (s_ids st)).
      apply goodset_count; [apply (inv_nd_fst _ _ _ _ _ _ HI)|].
      intros S HS. apply in_map_iff in HS. destruct HS as [[S' s] [E Hin]]. cbn in E. subst S'.
      eapply Hg; eauto.
  Qed.

  Variable pick : nat -> list (list N) -> nat.

  Lemma loop_total : forall fuel step st,
    Inv labels fw inputs start (map fst (s_trans st)) st -> good st ->
    (pow2 (S n) - List.length (s_trans st) < fuel)%nat ->
    exists st', loop labels fw inputs pick fuel step st = Ok st'.
  Proof.
    induction fuel as [|fuel IH]; intros step st HI Hg Hf; [lia|]. cbn [loop].
    destruct (pop (pick step (s_todo st)) (s_todo st)) as [[Sx rest]|] eqn:Ep; [|eauto].
    assert (HS : In Sx (s_todo st)).
    { apply pop_Some in Ep. destruct Ep as [l1 [l2 [-> _]]]. apply in_app_iff. right. now left. }
    apply (inv_todo _ _ _ _ _ _ HI) in HS. destruct HS as [s0 [Hs0 _]].
    destruct (find_set_complete Sx (s_ids st) (in_map fst _ _ Hs0)) as [from Ef]. rewrite Ef.
    destruct (process labels fw Sx inputs 0 _ []) as [st1 row] eqn:Epr.
    destruct (Inv_step _ _ _ _ _ _ _ _ _ _ _ HI Ep Ef Epr) as [HI1 Etr].
    pose proof Epr as Hg1. apply process_good in Hg1; [|exact Hg].
    set (st2 := mksst (s_ids st1) (s_next st1) (s_trans st1 ++ [(from, row)]) (s_todo st1)) in *.
    assert (El : List.length (s_trans st2) = S (List.length (s_trans st))).
    { cbn [st2 s_trans]. rewrite app_length, Etr. cbn [List.length]. lia. }
    pose proof (rows_bound st2 HI1 Hg1) as Hb. apply (IH _ st2 HI1 Hg1). lia.
  Qed.
End LoopFuel.

Lemma from_input_fueled : forall submap i, fueled (from_input submap i).
Proof.
  intros submap [t d l s|a b c|c z l s|rid l s]; cbn [from_input]; try exact I.
  destruct (assocN rid submap); exact I.
Qed.

Definition tables_bounded (r : regex) (n : N) : Prop :=
  (forall p, In p (regex_first r) -> p <= n) /\
  (forall p s q, In (p, s) (regex_follow r) -> In q s -> q <= n).

Lemma loop_total_init : forall labels inputs pick fuel r n,
  tables_bounded r (N.of_nat n) -> (pow2 (S n) < fuel)%nat ->
  exists st, loop labels (regex_follow r) inputs pick fuel 0 (init_sst r) = Ok st.
Proof.
  intros labels inputs pick fuel r n [Hb1 Hb2] Hf.
  apply (loop_total labels (regex_follow r) inputs (regex_first r) n).
  - intros p s Hin. split; [exact (follow_table_tvals _ p s Hin) | intros q Hq; eapply Hb2; eauto].
  - apply Inv_init.
  - intros S s [E|[]]. injection E as <- _. split; [apply firstpos_sorted | exact Hb1].
  - cbn [init_sst s_trans List.length]. lia.
Qed.

Theorem dfa_from_regex_fuel : forall pick fuel submap r n,
  tables_bounded r (N.of_nat n) ->
  (pow2 (S n) < fuel)%nat ->
  dfa_from_regex pick fuel submap r <> OutOfFuel.
Proof.
  intros pick fuel submap r n Hb Hf. apply (post_not_fuel any any True). unfold dfa_from_regex.
  apply (post_bind any); [apply post_omap; intros; apply from_input_fueled|]. intros labels _ _. cbv zeta.
  destruct (loop_total_init labels (intern_all labels) pick fuel r n Hb Hf) as [st El].
  unfold init_sst in El. rewrite El. cbn [obind].
  destruct (find_set (regex_first r) (s_ids st)); exact I.
Qed.

Print Assumptions dfa_from_regex_fuel.
