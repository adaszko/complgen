(** Source-level corollary of the capstone, C17/C06: the functions of the script [compile_bash]
    returns, interpreted on its tables ([BashSem.run_from Repaired]), terminate without reaching a
    panic site, for every environment and every command line -- provided no within-word literal is
    empty ([sub_lits_nonempty]: what the parser guarantees, read here off the within-word literal
    orders of the oracles, which [compile_bash] validates against the automata). *)
From CG Require Import Base.Prelude Model.Ast Model.Check Model.Dfa Model.Driver Model.Tables Model.EmitBash
  Model.Compiler Model.BashSem.
From CG Require Import Proofs.TablesSound Proofs.TableLookup Proofs.C12Proofs Proofs.C17Total Proofs.CapstoneMeaning.
Open Scope N_scope.
Open Scope list_scope.

Definition sub_lits_nonempty (o : oracles) : bool :=
  forallb (fun e => forallb (fun td => negb (String.eqb (fst td) EmptyString)) (snd e)) (o_sub_lits o).

Lemma sub_tables_nonempty sh c om os nd a :
  all_tables sh c om os = Ok (nd, a) ->
  forallb (fun e => forallb (fun td : string * string => negb (String.eqb (fst td) EmptyString)) (snd e)) os = true ->
  wf_subword_literals a.
Proof.
  intros Ha Hne pi sid T Hin.
  apply (proj1 (subwords_exact sh c om os nd a Ha pi sid T)) in Hin.
  destruct Hin as [rt [sd [_ [_ [_ Hg]]]]].
  destruct (glt_inv _ _ _ _ _ _ _ _ Hg) as [rt' F]. pose proof (gf_lits _ _ _ _ _ _ _ _ _ F) as Hl.
  intros id l Hil. unfold lits_of, literal_texts in Hil. apply indexed_from_in in Hil. destruct Hil as [_ Hn].
  apply nth_error_In in Hn. rewrite Hl in Hn. apply in_map_iff in Hn. destruct Hn as [[[i t] ds] [E Hn]].
  cbn [fst snd] in E. subst t. apply all_literals_in in Hn. destruct Hn as [_ Hn]. apply nth_error_In in Hn.
  destruct (assocN pi os) as [ord|] eqn:Eo; [|destruct Hn].
  rewrite forallb_forall in Hne. apply assocN_In in Eo. specialize (Hne (pi, ord) Eo). cbn [snd] in Hne.
  rewrite forallb_forall in Hne. specialize (Hne (l, ds) Hn). cbn [fst] in Hne.
  apply negb_true_iff, String.eqb_neq in Hne. exact Hne.
Qed.

Theorem compile_bash_run_total o builtins text s :
  compile_bash o builtins text = Ok s -> sub_lits_nonempty o = true ->
  exists v c nd a,
    compile (pick_table (o_pops o)) (o_fuel o) builtins text Bash = Ok (v, c)
    /\ all_tables Bash c (o_main_lits o) (o_sub_lits o) = Ok (nd, a)
    /\ forall e ws p,
         run_from Repaired (d_start (c_main c)) a e ws p <> OutOfFuel
         /\ (forall site, run_from Repaired (d_start (c_main c)) a e ws p <> Panic site)
         /\ (forall r, run_from Repaired (d_start (c_main c)) a e ws p = Ok r -> r_rc r = 0 \/ r_rc r = 1).
Proof.
  intros H Hne. destruct (compile_bash_inv o builtins text s H) as [g [v [c [nd [a [_ [_ [_ [Hc [_ [_ [Ha _]]]]]]]]]]]].
  exists v, c, nd, a. split; [exact Hc|]. split; [exact Ha|].
  intros e ws p. apply run_from_repaired_total. eapply sub_tables_nonempty; eauto.
Qed.
