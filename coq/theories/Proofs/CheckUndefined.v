(** C15, the undefined set: on an accepted grammar the names of [v_undefined] are exactly the
    names of Spec/Warnings.v -- reachable from the call variants through chosen plain
    definitions and standing for "any word" -- each once. *)
From CG Require Import Base.Prelude Base.Facts Proofs.ListFacts Model.Ast Model.Check Spec.Choice Spec.Mistakes Spec.Warnings.
From CG Require Import Proofs.CheckChoice Proofs.CheckMistakes Proofs.CheckLemmas Proofs.CheckWarnings.
From CG Require Import Proofs.CheckCycle Proofs.CheckTotal Proofs.CheckFront Proofs.CheckCycleSpec.
From CG Require Import Proofs.CheckProvenance Proofs.CheckResolve Proofs.CheckOrder.

Lemma refs_map_nodup l : forall acc, NoDup (map fst acc) -> NoDup (map fst (refs_map l acc)).
Proof.
  induction l as [|[n sp] r IH]; intros acc H; cbn [refs_map]; [exact H|].
  apply IH. destruct (mem_str n (map fst acc)) eqn:E.
  - rewrite overwrite_keys. exact H.
  - rewrite map_app. cbn. apply NoDup_snoc; [exact H|]. apply mem_str_false. exact E.
Qed.

Lemma get_nonterm_refs_nodup e : NoDup (map fst (get_nonterm_refs e)).
Proof. apply refs_map_nodup. constructor. Qed.

Lemma all_refs_ref_spans e : all_refs e = map fst (ref_spans e).
Proof.
  induction e using expr_ind'; cbn [all_refs ref_spans]; try reflexivity; try assumption;
    rewrite map_flat_map; apply flat_map_ext_Forall; exact H.
Qed.

Lemma final_refs e x :
  dd_free e ->
  In x (map fst (get_nonterm_refs (propagate (collapse e) 0))) <-> In x (all_refs e).
Proof.
  intro Hd. rewrite get_nonterm_refs_names.
  rewrite dd_free_refs by (apply propagate_dd_free; apply collapse_dd_free; exact Hd).
  rewrite !all_refs_ref_spans, propagate_spans, collapse_spans. reflexivity.
Qed.

Section SpecPaths.
  Variable g : grammar.
  Variable sh : shell.

  Inductive rpath : expr -> list string -> string -> Prop :=
  | rp_here e y : In y (all_refs e) -> rpath e [] y
  | rp_step e n rhs l y : In n (all_refs e) -> plain_chosen g sh n = Some rhs -> rpath rhs l y ->
                          rpath e (n :: l) y.

  Lemma reach_refs_rpath k : forall e y,
    In y (reach_refs g sh k e) <-> exists l, (List.length l <= k)%nat /\ rpath e l y.
  Proof.
    induction k as [|k IH]; intros e y; cbn [reach_refs].
    - split.
      + intro H. exists []. split; [apply Nat.le_refl|apply rp_here; exact H].
      + intros [l [Hl Hp]]. destruct l; [|cbn in Hl; lia]. inversion Hp; subst. assumption.
    - rewrite in_flat_map. split.
      + intros [n [Hn [Hy|Hy]]].
        * subst y. exists []. split; [cbn; lia|apply rp_here; exact Hn].
        * destruct (plain_chosen g sh n) as [rhs|] eqn:E; [|destruct Hy].
          apply IH in Hy. destruct Hy as [l [Hl Hp]]. exists (n :: l). split; [cbn; lia|].
          eapply rp_step; eauto.
      + intros [l [Hl Hp]]. inversion Hp; subst.
        * exists y. split; [assumption|left; reflexivity].
        * exists n. split; [assumption|]. right. rewrite H0. apply IH. exists l0.
          split; [cbn in Hl; lia|assumption].
  Qed.

  (** along a path the chosen names form a chain of [depends] *)
  Fixpoint dep_chain (l : list string) : Prop :=
    match l with
    | a :: ((b :: _) as r) => depends g sh a b = true /\ dep_chain r
    | _ => True
    end.

  Lemma plain_chosen_plain n rhs : plain_chosen g sh n = Some rhs -> plain_definition g n = Some rhs.
  Proof. unfold plain_chosen. destruct (shell_definition g sh n); [discriminate|auto]. Qed.

  Lemma rpath_chain e l y :
    rpath e l y -> dep_chain l /\ forall n, In n l -> In n (plain_names g).
  Proof.
    induction 1 as [e y Hy|e n rhs l y Hn Hc Hp [IH1 IH2]]; [split; [exact I|intros n []]|].
    split.
    - destruct l as [|b r]; [exact I|]. split; [|exact IH1].
      inversion Hp; subst. unfold depends. rewrite (plain_chosen_plain _ _ Hc).
      apply andb_true_iff. split; [apply mem_str_In; assumption|]. rewrite H3. reflexivity.
    - intros m [Hm|Hm]; [|auto]. subst m. apply plain_names_pd.
      rewrite (plain_chosen_plain _ _ Hc). discriminate.
  Qed.

  Variable rank : string -> nat.
  Hypothesis Hrank : forall a b, depends g sh a b = true -> (rank b < rank a)%nat.

  Lemma dep_chain_decreasing l : dep_chain l ->
    forall a r, l = a :: r -> forall b, In b r -> (rank b < rank a)%nat.
  Proof.
    induction l as [|a' l IH]; intros Hc a r Heq b Hb; [discriminate|].
    inversion Heq; subst a' l. destruct r as [|b' r']; [destruct Hb|].
    destruct Hc as [Hd Hc]. pose proof (Hrank _ _ Hd) as Hlt.
    destruct Hb as [Hb|Hb]; [subst; exact Hlt|].
    specialize (IH Hc b' r' eq_refl b Hb). lia.
  Qed.

  Lemma dep_chain_nodup l : dep_chain l -> NoDup l.
  Proof.
    induction l as [|a l IH]; intro Hc; [constructor|].
    constructor.
    - intro Hin. pose proof (dep_chain_decreasing _ Hc a l eq_refl a Hin). lia.
    - apply IH. destruct l; [exact I|]. destruct Hc. assumption.
  Qed.

  Lemma rpath_short e l y : rpath e l y -> (List.length l <= List.length (plain_names g))%nat.
  Proof.
    intro H. apply rpath_chain in H. destruct H as [Hc Hin].
    apply NoDup_incl_length; [apply dep_chain_nodup; exact Hc|exact Hin].
  Qed.

  Lemma used_names_rpath y :
    In y (used_names g sh) <-> exists e l, In e (call_exprs g) /\ rpath e l y.
  Proof.
    unfold used_names. rewrite in_flat_map. split.
    - intros [e [He Hy]]. apply reach_refs_rpath in Hy. destruct Hy as [l [_ Hp]]. eauto.
    - intros [e [l [He Hp]]]. exists e. split; [exact He|]. apply reach_refs_rpath. exists l.
      split; [|exact Hp]. unfold fuel_of. pose proof (rpath_short _ _ _ Hp). lia.
  Qed.
End SpecPaths.

Section Undefined.
  Variable builtins : shell -> list (string * string).
  Variable g : grammar.
  Variable sh : shell.
  Variable defs0 : list defn.
  Variable us : list (string * user_spec).
  Variable fs : list (string * (string * span)).
  Hypothesis Hcollect : collect_plain_defs (all_defs g) [] = Ok defs0.
  Hypothesis Hspecs : get_specializations g sh = Ok (us, fs).

  Let defs1 := defs1_of defs0.
  Let spec := spec_of builtins sh us fs defs1.
  Let defs2 := defs2_of spec defs1.
  Let t0 := table0_of defs2.

  Definition kept (n : string) : bool := keeps us (builtins sh) fs (map d_name defs1) n.

  Lemma spec_refs e x : In x (all_refs (spec (distribute_descriptions e))) <-> In x (all_refs e) /\ kept x = true.
  Proof.
    unfold spec, spec_of. rewrite specialize_refs, filter_In, distribute_descriptions_all_refs.
    reflexivity.
  Qed.

  Lemma t0_names : map fst t0 = plain_names g.
  Proof.
    unfold t0, defs2. rewrite table0_keys. unfold defs1, defs1_of. rewrite map_map. cbn.
    rewrite (defs0_eq g defs0 Hcollect), plain_defs_of_names, plain_names_all_defs. reflexivity.
  Qed.

  Lemma t0_assoc x : assoc x t0 = option_map (fun rhs => spec (distribute_descriptions rhs)) (plain_definition g x).
  Proof. apply (table0_assoc builtins g sh defs0 us fs Hcollect). Qed.

  Lemma kept_plain_chosen c :
    In c (plain_names g) -> kept c = true -> exists rhs, plain_chosen g sh c = Some rhs.
  Proof.
    intros Hc Hk. apply (keeps_plain builtins g sh defs0 us fs Hcollect Hspecs c Hc) in Hk.
    unfold plain_chosen. rewrite Hk. apply plain_names_pd in Hc.
    destruct (plain_definition g c); [eauto|congruence].
  Qed.

  Lemma plain_chosen_kept c rhs : plain_chosen g sh c = Some rhs -> kept c = true /\ In c (plain_names g).
  Proof.
    intro H. assert (Hp : In c (plain_names g)).
    { apply plain_names_pd. rewrite (plain_chosen_plain g sh c rhs H). discriminate. }
    split; [|exact Hp]. apply (keeps_plain builtins g sh defs0 us fs Hcollect Hspecs c Hp).
    unfold plain_chosen in H. destruct (shell_definition g sh c); [discriminate|reflexivity].
  Qed.

  (** a name that stands for "any word" survives specialisation and has no definition *)
  Lemma any_kept y : Choice.spec builtins g sh y = ChAny <-> kept y = true /\ ~ In y (plain_names g).
  Proof.
    rewrite plain_names_pd. unfold kept. rewrite (keeps_lookup builtins g sh defs0 us fs Hcollect Hspecs).
    unfold Choice.spec. pose proof (us_shell_definition g sh us fs Hspecs y) as Hu.
    destruct (shell_definition g sh y) as [rhs|].
    - destruct Hu as (s & z & l & sp & _ & ->). split; [discriminate|intros [H _]; discriminate].
    - destruct (plain_definition g y) as [rhs|].
      + split; [discriminate|]. intros [_ H]. exfalso. apply H. discriminate.
      + destruct (assoc y (builtins sh)); split; try discriminate; try (intros [H _]; discriminate);
          try reflexivity.
        intros _. split; [reflexivity|]. intro H. apply H. reflexivity.
  Qed.

  (** the references of an entry of [sol] are ends of paths in the grammar, and conversely *)
  Lemma sol_refs_rpath k : forall n r y,
    assoc n (sol t0 k) = Some r -> In y (all_refs r) ->
    exists rhs l, plain_definition g n = Some rhs /\ rpath g sh rhs l y /\ kept y = true.
  Proof.
    induction k as [|k IH]; intros n r y Hn Hy.
    - cbn [sol] in Hn. rewrite t0_assoc in Hn. destruct (plain_definition g n) as [rhs|]; [|discriminate].
      cbn in Hn. inversion Hn; subst r. apply spec_refs in Hy. exists rhs, [].
      split; [reflexivity|]. split; [apply rp_here|]; tauto.
    - rewrite assoc_sol_S, t0_assoc in Hn. destruct (plain_definition g n) as [rhs|]; [|discriminate].
      cbn in Hn. inversion Hn; subst r. rewrite resolve_refs in Hy. apply in_flat_map in Hy.
      destruct Hy as [c [Hc Hy]]. apply spec_refs in Hc. destruct Hc as [Hc Hkc]. exists rhs.
      destruct (assoc c (sol t0 k)) as [rc|] eqn:Ec.
      + destruct (IH _ _ _ Ec Hy) as (rhsc & l & Hdc & Hp & Hk). exists (c :: l).
        split; [reflexivity|]. split; [|exact Hk].
        destruct (kept_plain_chosen c) as [rc' Hrc]; [apply plain_names_pd; congruence|exact Hkc|].
        rewrite (plain_chosen_plain g sh c rc' Hrc) in Hdc. inversion Hdc; subst rc'.
        eapply rp_step; eassumption.
      + destruct Hy as [Hy|[]]. subst c. exists []. split; [reflexivity|]. split; [apply rp_here|]; tauto.
  Qed.

  Lemma rpath_sol_refs rhs l y :
    rpath g sh rhs l y -> kept y = true -> ~ In y (plain_names g) ->
    forall n k, plain_definition g n = Some rhs -> (List.length l <= k)%nat ->
                exists r, assoc n (sol t0 k) = Some r /\ In y (all_refs r).
  Proof.
    induction 1 as [e y Hy|e c rc l y Hc Hrc Hp IH]; intros Hk Hun n k Hd Hle.
    - destruct k; [cbn [sol]|rewrite assoc_sol_S]; rewrite t0_assoc, Hd; cbn;
        (eexists; split; [reflexivity|]).
      + apply spec_refs. tauto.
      + rewrite resolve_refs. apply in_flat_map. exists y. split; [apply spec_refs; tauto|].
        rewrite (assoc_sol_undefined t0 k y) by (rewrite t0_names; exact Hun). left. reflexivity.
    - destruct k; [cbn in Hle; lia|]. cbn in Hle. destruct (plain_chosen_kept c rc Hrc) as [Hkc _].
      destruct (IH Hk Hun c k (plain_chosen_plain g sh c rc Hrc) ltac:(lia)) as [r [Hr Hy]].
      rewrite assoc_sol_S, t0_assoc, Hd. cbn. eexists. split; [reflexivity|].
      rewrite resolve_refs. apply in_flat_map. exists c. split; [apply spec_refs; tauto|].
      rewrite Hr. exact Hy.
  Qed.

  Variable ord : list string.
  Hypothesis Hord : resolution_order defs2 = Ok ord.
  Let T := resolve_in_order ord t0.
  Let e2 := spec (distribute_descriptions (expr0_of g)).

  Lemma t0_dd : table_dd_free t0.
  Proof. apply table0_dd_free. Qed.

  Lemma T_sol : exists B, forall k, (B <= k)%nat -> forall n, assoc n T = assoc n (sol t0 k).
  Proof.
    exact (proj1 (resolved_table_sol defs2 ord t0_dd Hord)).
  Qed.

  Lemma T_closed n r : assoc n T = Some r -> closed (map fst t0) r.
  Proof. apply (resolved_table_sol defs2 ord t0_dd Hord). Qed.

  Theorem undefined_names y :
    In y (all_refs (resolve T e2)) <-> In y (undefined builtins g sh).
  Proof.
    assert (Hacyc : exists rank : string -> nat,
               forall a b, depends g sh a b = true -> (rank b < rank a)%nat).
    { pose proof Hord as Ho. apply resolution_order_ok in Ho. destruct Ho as ([rank Hr] & _ & _).
      exists rank. intros a b Hd. apply Hr.
      apply (model_graph_depends builtins g sh defs0 us fs Hcollect Hspecs). exact Hd. }
    destruct Hacyc as [rank Hrank].
    unfold undefined. rewrite filter_In, (used_names_rpath g sh rank Hrank).
    assert (Hany : (match Choice.spec builtins g sh y with ChAny => true | _ => false end) = true
                   <-> Choice.spec builtins g sh y = ChAny).
    { destruct (Choice.spec builtins g sh y); split; intro; try reflexivity; discriminate. }
    rewrite Hany, any_kept. destruct T_sol as [B HB].
    rewrite resolve_refs, in_flat_map. split.
    - intros [n [Hn Hy]]. unfold e2 in Hn. apply spec_refs in Hn. destruct Hn as [Hn Hkn].
      assert (He0 : exists e, In e (call_exprs g) /\ In n (all_refs e)).
      { rewrite expr0_refs in Hn. apply in_flat_map in Hn. exact Hn. }
      destruct He0 as [e [He Hne]].
      destruct (assoc n T) as [r|] eqn:En.
      + (* n is defined: y comes out of its resolved entry *)
        pose proof (T_closed n r En y Hy) as Hun. rewrite t0_names in Hun.
        rewrite (HB B (Nat.le_refl _)) in En.
        destruct (sol_refs_rpath B n r y En Hy) as (rhs & l & Hd & Hl & Hky).
        destruct (kept_plain_chosen n) as [rn Hrn]; [apply plain_names_pd; congruence|exact Hkn|].
        rewrite (plain_chosen_plain g sh n rn Hrn) in Hd. inversion Hd; subst rn.
        split; [|split; assumption]. exists e, (n :: l). split; [exact He|].
        eapply rp_step; eassumption.
      + (* n itself is undefined *)
        destruct Hy as [Hy|[]]. subst y. apply assoc_None in En. unfold T in En.
        rewrite resolve_in_order_keys, t0_names in En.
        split; [|split; assumption]. exists e, []. split; [exact He|apply rp_here; exact Hne].
    - intros [[e [l [He Hp]]] [Hk Hun]].
      assert (Hroot : forall n, In n (all_refs e) -> In n (all_refs (expr0_of g))).
      { intros n Hn. rewrite expr0_refs. apply in_flat_map. exists e. split; assumption. }
      inversion Hp; subst.
      + exists y. split; [apply spec_refs; split; [apply Hroot; assumption|exact Hk]|].
        assert (En : assoc y T = None).
        { apply assoc_None. unfold T. rewrite resolve_in_order_keys, t0_names. exact Hun. }
        rewrite En. left. reflexivity.
      + destruct (plain_chosen_kept n rhs H0) as [Hkn Hnp].
        exists n. split; [apply spec_refs; split; [apply Hroot; assumption|exact Hkn]|].
        destruct (rpath_sol_refs rhs l0 y H1 Hk Hun n (Nat.max B (List.length l0))
                    (plain_chosen_plain g sh n rhs H0) ltac:(lia)) as [r [Hr Hy]].
        rewrite (HB (Nat.max B (List.length l0)) ltac:(lia)), Hr. exact Hy.
  Qed.
End Undefined.

Theorem undefined_exact builtins g sh v :
  from_grammar builtins g sh = Ok v ->
  (forall y, In y (map fst (v_undefined v)) <-> In y (undefined builtins g sh))
  /\ NoDup (map fst (v_undefined v)).
Proof.
  intro H. apply from_grammar_ok in H. rename H into A.
  rewrite (a_v _ _ _ _ A). cbn [v_undefined]. split; [|apply get_nonterm_refs_nodup].
  intro y. unfold a_expr5. rewrite final_refs.
  - apply (undefined_names builtins g sh _ _ _ (a_collect _ _ _ _ A) (a_specs _ _ _ _ A) _
                           (a_order _ _ _ _ A)).
  - apply resolve_dd_free.
    + apply resolve_in_order_dd_free. apply table0_dd_free.
    + apply specialize_dd_free. apply distribute_dd_free.
Qed.
