(** The placeholder class, on the tree: on a grammar the checker accepts and whose operators all
    have an operand ([grammar_ops_nonempty]), [from_valid_expr]
    rejects the validated tree with [UnboundedMatchable] iff [placeholder_not_last] holds of the
    source grammar (Spec/Mistakes.v); otherwise it succeeds. *)
From CG Require Import Base.Prelude Proofs.ListFacts Model.Ast Model.Check Model.Regex Spec.Choice Spec.Mistakes.
From CG Require Import Proofs.CheckLemmas Proofs.CheckWarnings Proofs.CheckOrder Proofs.CheckUndefined.
From CG Require Import Proofs.CheckSpacesSpec.
From CG Require Import Proofs.TreeFacts Proofs.CheckTree.
From CG Require Import Proofs.DotFromExpr Proofs.PhExpr Proofs.PhSkel Proofs.PhPool Proofs.PhSpec.

Local Open Scope list_scope.

Lemma ops_alts e : ops_nonempty e = true -> alts_nonempty e = true.
Proof.
  induction e using expr_ind'; cbn [ops_nonempty alts_nonempty]; intro Ho; try reflexivity;
    try (apply IHe; exact Ho).
  1-3: destruct cs as [|c r]; [discriminate|]; revert Ho; apply forallb_impl_Forall; exact H.
Qed.

Lemma grammar_ops_alts g : grammar_ops_nonempty g = true -> grammar_alts_nonempty g = true.
Proof.
  unfold grammar_ops_nonempty, grammar_alts_nonempty. rewrite !forallb_forall. intros H s Hs.
  specialize (H s Hs). destruct s; apply ops_alts; exact H.
Qed.

Lemma valid_words_sk builtins g sh v :
  from_grammar builtins g sh = Ok v ->
  wsk isref (v_expr v) = wsk (isP builtins g sh) (expand g sh (fuel_of g) (expr0_of g)).
Proof.
  intro Hv. pose proof (from_grammar_ok builtins g sh v Hv) as A.
  pose proof (words_agree builtins g sh _ _ _ (a_collect _ _ _ _ A) (a_specs _ _ _ _ A) _
                          (a_order _ _ _ _ A) (expr0_of g) None) as Hw.
  cbn zeta in Hw. rewrite <- Hw. f_equal. exact (f_equal v_expr (a_v _ _ _ _ A)).
Qed.

(** the operands of the grammar are those of the words of the validated tree *)
Lemma valid_words_ops builtins g sh v :
  from_grammar builtins g sh = Ok v -> grammar_ops_nonempty g = true ->
  forall c, In c (words_of (v_expr v)) -> ops_nonempty c = true.
Proof.
  intros Hv Hg.
  pose proof (from_grammar_ok builtins g sh v Hv) as A.
  pose proof (valid_words_sk builtins g sh v Hv) as Hw.
  assert (Hops : forall n rhs, plain_chosen g sh n = Some rhs -> ops_nonempty rhs = true).
  { intros n rhs Hn. apply plain_chosen_plain in Hn. apply plain_definition_some_in in Hn.
    destruct Hn as [nsp Hin]. unfold grammar_ops_nonempty in Hg. rewrite forallb_forall in Hg.
    apply (Hg _ Hin). }
  assert (He0 : ops_nonempty (expr0_of g) = true).
  { assert (Hall : forallb ops_nonempty (map snd (call_variants g)) = true).
    { apply forallb_forall. intros e He. apply in_map_iff in He. destruct He as [[[n s] e'] [Heq Hin]].
      cbn in Heq. subst e'. unfold call_variants in Hin. apply in_flat_map in Hin.
      destruct Hin as [st [Hst Hin]]. destruct st; [|destruct Hin]. destruct Hin as [Hin|[]].
      inversion Hin; subst. unfold grammar_ops_nonempty in Hg. rewrite forallb_forall in Hg.
      apply (Hg _ Hst). }
    pose proof (a_dedup _ _ _ _ A) as Hd. unfold cv_names in Hd. unfold expr0_of.
    destruct (call_variants g) as [|x [|y r]] eqn:E; cbn [map] in *.
    - discriminate.
    - cbn in Hall. rewrite andb_true_r in Hall. exact Hall.
    - exact Hall. }
  intros c Hc. rewrite (ops_nonempty_sk isref c).
  assert (Hin : In (skw isref c) (wsk isref (v_expr v))) by (apply in_map; exact Hc).
  rewrite Hw in Hin. apply in_map_iff in Hin. destruct Hin as [w [Heq Hin]]. rewrite <- Heq.
  rewrite <- ops_nonempty_sk. eapply words_ops; [|exact Hin].
  apply (expand_ops g sh Hops). exact He0.
Qed.

Theorem placeholder_decided builtins g sh v :
  from_grammar builtins g sh = Ok v -> grammar_ops_nonempty g = true ->
  (placeholder_not_last builtins g sh = true <->
   exists a b, from_valid_expr (v_expr v) = Err (UnboundedMatchable a b)) /\
  ((exists rp, from_valid_expr (v_expr v) = Ok rp) \/
   exists a b, from_valid_expr (v_expr v) = Err (UnboundedMatchable a b)).
Proof.
  intros Hv Hg.
  destruct (check_tree builtins g sh v Hv) as (Hdd & Hflat & _ & Halts).
  specialize (Halts (grammar_ops_alts g Hg)).
  pose proof (valid_words_sk builtins g sh v Hv) as Hw.
  pose proof (words_expr0 builtins g sh) as Hpl.
  pose proof (valid_words_ops builtins g sh v Hv Hg) as Hwops.
  destruct (from_valid_expr_placeholder (v_expr v) Hdd Hflat Halts Hwops) as [Hiff Htot].
  split; [|exact Htot]. rewrite Hiff, <- Hpl, <- Hw. unfold wsk. rewrite existsb_map, existsb_exists. split.
  - intros (w & Hin & Hn). exists w. split; [exact Hin|]. rewrite ph_last_sk. apply negb_true_iff in Hn. exact Hn.
  - intros (w & Hin & Hn). exists w. split; [exact Hin|]. rewrite ph_last_sk in Hn. rewrite Hn. reflexivity.
Qed.
