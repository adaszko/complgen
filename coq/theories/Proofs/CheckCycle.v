(** C08 (cycles) / C06 (fuel of the search): the depth-first search of [resolution_order].

    - success: the returned order is a topological post-order of the dependency graph, hence
      the graph is acyclic;
    - failure: the only error is [NonterminalDefinitionsCycle], and the reported path is a real
      path of the graph that closes on itself;
    - totality: with the fuel [S (length defs)] the search never runs out of fuel (the search
      path has no repeated vertex and contains defined names only) and never panics. *)
From CG Require Import Base.Prelude Base.Facts Proofs.ListFacts Model.Ast Model.Check.
From CG Require Import Proofs.CheckMistakes Proofs.CheckLemmas.

(** The inner loop of [dfs] as a top-level function (definitionally the same fixpoint) *)
Section Each.
  Variable graph : list (string * list (string * span)).
  Variable rec : string -> list (string * span) -> dfs_state -> res dfs_state.
  Variable v : string.
  Variable path : list (string * span).

  Fixpoint each (cs : list (string * span)) (st : dfs_state) : res dfs_state :=
    match cs with
    | [] => Ok st
    | (c, sp) :: r =>
        if mem_str c (map fst path) then
          Err (NonterminalDefinitionsCycle (map snd (path ++ [(v, sp)])))
        else if mem_str c (visited st) then each r st
        else
          do st1 <- rec c (path ++ [(c, sp)]) st;
          each r (mkdfs (visited st1) (order st1 ++ [c]))
    end.
End Each.

Lemma dfs_S graph f v path st :
  dfs graph (S f) v path st
  = each (dfs graph f) v path (children graph v) (mkdfs (v :: visited st) (order st)).
Proof. reflexivity. Qed.

Fixpoint idx (x : string) (l : list string) : nat :=
  match l with
  | [] => O
  | y :: r => if String.eqb x y then O else S (idx x r)
  end.

Lemma idx_lt_In x l : (idx x l < List.length l)%nat <-> In x l.
Proof.
  induction l as [|y l IH]; cbn; [split; [lia|tauto]|].
  destruct (String.eqb x y) eqn:E.
  - apply String.eqb_eq in E. subst. split; [auto|lia].
  - apply String.eqb_neq in E. rewrite <- Nat.succ_lt_mono, IH. split; [auto|].
    intros [H|H]; [congruence|exact H].
Qed.

Lemma idx_app_in x l l' : In x l -> idx x (l ++ l') = idx x l.
Proof.
  induction l as [|y l IH]; cbn; [tauto|].
  destruct (String.eqb x y) eqn:E; [reflexivity|].
  apply String.eqb_neq in E. intros [H|H]; [congruence|]. rewrite IH by exact H. reflexivity.
Qed.

Lemma idx_app_notin x l l' : ~ In x l -> idx x (l ++ l') = (List.length l + idx x l')%nat.
Proof.
  induction l as [|y l IH]; cbn; [reflexivity|].
  intro H. destruct (String.eqb x y) eqn:E.
  - apply String.eqb_eq in E. subst. exfalso. apply H. left. reflexivity.
  - rewrite IH; [reflexivity|]. intro H'. apply H. right. exact H'.
Qed.

(** neither [Panic] nor [OutOfFuel] *)
Notation fine := (post any any False False).

Section Graph.
  Variable graph : list (string * list (string * span)).

  Definition edge (u c : string) : Prop := In c (map fst (children graph u)).

  Inductive reach : string -> string -> Prop :=
  | reach_one x y : edge x y -> reach x y
  | reach_step x y z : edge x y -> reach y z -> reach x z.

  Definition acyclic : Prop :=
    exists rank : string -> nat, forall u c, edge u c -> (rank c < rank u)%nat.

  Lemma acyclic_no_cycle : acyclic -> forall x, ~ reach x x.
  Proof.
    intros [rank Hr] x H.
    assert (G : forall a b, reach a b -> (rank b < rank a)%nat).
    { induction 1 as [a b Hab|a b c Hab _ IH]; [auto|]. apply Hr in Hab. lia. }
    apply G in H. lia.
  Qed.

  Inductive topo : list string -> Prop :=
  | topo_nil : topo []
  | topo_snoc l u : topo l -> (forall c, edge u c -> In c l) -> topo (l ++ [u]).

  Lemma topo_idx l : topo l -> forall x c, In x l -> edge x c -> (idx c l < idx x l)%nat.
  Proof.
    induction 1 as [|l u Ht IH Hu]; intros x c Hx Hc; [destruct Hx|].
    destruct (in_dec string_dec x l) as [Hin|Hnin].
    - specialize (IH x c Hin Hc).
      assert (Hcl : In c l).
      { apply idx_lt_In. apply idx_lt_In in Hin. lia. }
      rewrite !idx_app_in by assumption. exact IH.
    - apply in_app_or in Hx. destruct Hx as [Hx|[Hx|[]]]; [contradiction|]. subst x.
      pose proof (Hu c Hc) as Hcl. rewrite idx_app_in by exact Hcl.
      rewrite idx_app_notin by exact Hnin. cbn. rewrite String.eqb_refl.
      apply idx_lt_In in Hcl. lia.
  Qed.

  Lemma topo_acyclic l : topo l -> (forall u c, edge u c -> In u l) -> acyclic.
  Proof.
    intros Ht Hall. exists (fun x => idx x l). intros u c Huc.
    apply topo_idx; [exact Ht|eapply Hall; eassumption|exact Huc].
  Qed.

  Definition vis_ok (p : list string) (st : dfs_state) : Prop :=
    forall u, In u (visited st) -> In u p \/ In u (order st).

  Definition dfs_post (p : list string) (cs : list string) (st st' : dfs_state) : Prop :=
    vis_ok p st' /\ topo (order st') /\ (forall c, In c cs -> In c (order st'))
    /\ incl (order st) (order st') /\ incl (visited st) (visited st').

  Fixpoint chain (a : string) (rest : list (string * span)) : Prop :=
    match rest with
    | [] => True
    | (b, sb) :: r => In (b, sb) (children graph a) /\ chain b r
    end.

  Lemma chain_snoc a rest c sp :
    chain a rest -> In (c, sp) (children graph (last (map fst rest) a)) ->
    chain a (rest ++ [(c, sp)]).
  Proof.
    revert a; induction rest as [|[b sb] r IH]; intros a Hc Hin.
    - cbn in *. split; [exact Hin|exact I].
    - cbn [map fst] in Hin. rewrite last_cons in Hin. cbn [chain app] in *.
      destruct Hc as [Hb Hc]. split; [exact Hb|]. apply IH; assumption.
  Qed.

  Lemma last_snoc {A} (l : list A) x d : last (l ++ [x]) d = x.
  Proof. induction l as [|y l IH]; cbn; [reflexivity|]. destruct (l ++ [x]) eqn:E; [destruct l; discriminate|exact IH]. Qed.

  (** [cycle_report verts e]: [e] is a cycle error whose spans are: the name span of a
      vertex [r], then the spans of references forming a path [r -> ... -> v] without repeated
      vertex, then the span of a reference in [v] to a vertex [c] of that path. *)
  Definition cycle_report (verts : list (string * span)) (e : cerror) : Prop :=
    exists r rsp rest c sp,
      In (r, rsp) verts /\ chain r rest /\ NoDup (r :: map fst rest)
      /\ In (c, sp) (children graph (last (map fst rest) r)) /\ In c (r :: map fst rest)
      /\ e = NonterminalDefinitionsCycle (rsp :: map snd rest ++ [sp]).

  Definition path_ok (verts : list (string * span)) (path : list (string * span)) (v : string)
    : Prop :=
    exists r rsp rest, path = (r, rsp) :: rest /\ In (r, rsp) verts /\ chain r rest
                       /\ NoDup (r :: map fst rest) /\ last (map fst rest) r = v.

  Lemma chain_reach a rest : chain a rest -> forall l1 c l2,
    map fst rest = l1 ++ c :: l2 -> reach a c.
  Proof.
    revert a; induction rest as [|[b sb] r IH]; intros a Hc l1 c l2 Heq; [destruct l1; discriminate|].
    cbn in Hc, Heq. destruct Hc as [Hb Hc].
    assert (Hab : edge a b). { apply in_map_iff. exists (b, sb). split; [reflexivity|exact Hb]. }
    destruct l1 as [|x l1]; cbn in Heq; inversion Heq; subst.
    - apply reach_one. exact Hab.
    - eapply reach_step; [exact Hab|]. eapply IH; eauto.
  Qed.

  Lemma chain_suffix a rest : chain a rest -> forall l1 b sb l2,
    rest = l1 ++ (b, sb) :: l2 -> chain b l2.
  Proof.
    revert a; induction rest as [|[b' sb'] r IH]; intros a Hc l1 b sb l2 Heq; [destruct l1; discriminate|].
    cbn in Hc. destruct Hc as [Hb Hc]. destruct l1 as [|x l1]; cbn in Heq; inversion Heq; subst.
    - exact Hc.
    - eapply IH; eauto.
  Qed.

  Lemma chain_reach_last a rest : chain a rest -> rest <> [] -> reach a (last (map fst rest) a).
  Proof.
    intros Hc Hne. destruct (exists_last Hne) as [l [[b sb] Heq]]. subst rest.
    rewrite map_app. cbn [map fst]. rewrite last_snoc.
    eapply chain_reach; [exact Hc|]. rewrite map_app. cbn. reflexivity.
  Qed.

  Lemma reach_edge_r x y z : reach x y -> edge y z -> reach x z.
  Proof.
    induction 1 as [a b Hab|a b c Hab _ IH]; intro Hz.
    - eapply reach_step; [exact Hab|apply reach_one; exact Hz].
    - eapply reach_step; [exact Hab|apply IH; exact Hz].
  Qed.

  Lemma chain_from a rest c : chain a rest -> In c (a :: map fst rest) ->
    exists l2, chain c l2 /\ last (map fst l2) c = last (map fst rest) a
               /\ (List.length l2 <= List.length rest)%nat.
  Proof.
    intros Hch [Hc|Hc]; [subst c; exists rest; auto|].
    apply in_map_iff in Hc. destruct Hc as [[c' sc] [Hc' Hc]]. cbn in Hc'. subst c'.
    apply in_split in Hc. destruct Hc as [l1 [l2 Heq]]. exists l2.
    split; [exact (chain_suffix _ _ Hch _ _ _ _ Heq)|]. subst rest.
    rewrite map_app, app_length. cbn [map fst List.length]. rewrite last_app_cons. split; [reflexivity|lia].
  Qed.

  Lemma chain_to_last a rest : chain a rest -> forall c, In c (a :: map fst rest) ->
    c = last (map fst rest) a \/ reach c (last (map fst rest) a).
  Proof.
    intros Hch c Hc. destruct (chain_from _ _ _ Hch Hc) as (l2 & Hc2 & <- & _).
    destruct l2 as [|p l2'] eqn:E; [left; reflexivity|].
    right. rewrite <- E in *. apply chain_reach_last; [exact Hc2|rewrite E; discriminate].
  Qed.

  Lemma cycle_report_cycle verts e : cycle_report verts e -> exists x, reach x x.
  Proof.
    intros (r & rsp & rest & c & sp & Hv & Hch & Hnd & Hc & Hin & He).
    assert (Hvc : edge (last (map fst rest) r) c).
    { apply in_map_iff. exists (c, sp). split; [reflexivity|exact Hc]. }
    exists c. destruct (chain_to_last _ _ Hch _ Hin) as [Heq|Hr].
    - rewrite <- Heq in Hvc. apply reach_one. exact Hvc.
    - eapply reach_edge_r; eassumption.
  Qed.

  Variable names : list string.
  Hypothesis closed : forall u c, edge u c -> In c names.

  Lemma chain_targets a rest : chain a rest -> forall x, In x (map fst rest) -> In x names.
  Proof.
    revert a. induction rest as [|[b sb] r IH]; intros a Hc x Hx; [destruct Hx|].
    cbn [chain] in Hc. destruct Hc as [Hb Hc]. destruct Hx as [Hx|Hx]; [|eapply IH; eauto].
    cbn in Hx. subst x. apply (closed a). apply in_map_iff. exists (b, sb). split; [reflexivity|exact Hb].
  Qed.

  Lemma last_In_cons {A} (l : list A) d : In (last l d) (d :: l).
  Proof. revert d. induction l as [|x l IH]; intro d; [left; reflexivity|]. rewrite last_cons. right. apply IH. Qed.

  Lemma path_ok_facts verts path v :
    incl (map fst verts) names -> path_ok verts path v ->
    NoDup (map fst path) /\ incl (map fst path) names /\ In v (map fst path).
  Proof.
    intros Hverts (r & rsp & rest & -> & Hr & Hch & Hnd & Hlast). cbn [map fst]. split; [exact Hnd|]. split.
    - intros x [<-|Hx]; [|eapply chain_targets; eauto].
      apply Hverts. apply in_map_iff. exists (r, rsp). split; [reflexivity|exact Hr].
    - subst v. apply last_In_cons.
  Qed.

  Lemma path_ok_snoc verts path v c sp :
    path_ok verts path v -> In (c, sp) (children graph v) -> ~ In c (map fst path) ->
    path_ok verts (path ++ [(c, sp)]) c.
  Proof.
    intros (r0 & rsp & rest & -> & Hv & Hch & Hnd & Hlast) Hc Hcp.
    exists r0, rsp, (rest ++ [(c, sp)]). repeat split; auto.
    - apply chain_snoc; [exact Hch|]. rewrite Hlast. exact Hc.
    - rewrite map_app. cbn [map fst].
      change (r0 :: map fst rest ++ [c]) with ((r0 :: map fst rest) ++ [c]).
      apply NoDup_snoc; [exact Hnd|exact Hcp].
    - rewrite map_app. cbn [map fst]. apply last_snoc.
  Qed.

  (** The search: from a path that ends at [v], with the bookkeeping [st], it returns the
      bookkeeping extended past the vertices [cs] or the report of a cycle, and -- with fuel for the
      vertices not yet on the path -- nothing else *)
  Definition dfs_res verts (path : list (string * span)) (cs : list string) (st : dfs_state)
             (r : res dfs_state) : Prop :=
    match r with
    | Ok st' => dfs_post (map fst path) cs st st'
    | Err e => cycle_report verts e
    | _ => False
    end.

  Definition dfs_pre verts (f : nat) (path : list (string * span)) (v : string) (st : dfs_state) : Prop :=
    path_ok verts path v /\ vis_ok (map fst path) st /\ topo (order st)
    /\ (f + List.length path >= S (List.length names))%nat.

  Lemma each_spec verts f rec v path
        (IHrec : forall c path st, dfs_pre verts f path c st ->
                   dfs_res verts path (map fst (children graph c)) st (rec c path st)
                   /\ forall st', rec c path st = Ok st' -> In c (visited st')) :
    path_ok verts path v -> (S f + List.length path >= S (List.length names))%nat ->
    forall cs st, incl cs (children graph v) -> vis_ok (map fst path) st -> topo (order st) ->
                  dfs_res verts path (map fst cs) st (each rec v path cs st).
  Proof.
    intros Hp Hb. induction cs as [|[c sp] r IH]; intros st Hcs Hv Ht.
    - cbn. repeat split; auto using incl_refl. intros c [].
    - cbn [each].
      assert (Hc : In (c, sp) (children graph v)) by (apply Hcs; left; reflexivity).
      assert (Hr : incl r (children graph v)) by (intros x Hx; apply Hcs; right; exact Hx).
      destruct (mem_str c (map fst path)) eqn:Hcp.
      + (* a child on the path: the cycle *)
        apply mem_str_In in Hcp. cbn.
        destruct Hp as (r0 & rsp & rest & -> & Hv0 & Hch & Hnd & Hlast).
        exists r0, rsp, rest, c, sp. subst v. repeat split; auto. cbn [map app]. rewrite map_app. reflexivity.
      + apply mem_str_false in Hcp. destruct (mem_str c (visited st)) eqn:Hvis.
        * (* visited before, hence already in the order *)
          apply mem_str_In in Hvis. specialize (IH st Hr Hv Ht).
          destruct (each rec v path r st); try exact IH. destruct IH as (A & B & C & D & E).
          repeat split; auto. intros c' [Hc'|Hc']; [|auto]. cbn in Hc'. subst c'.
          apply D. destruct (Hv _ Hvis); [contradiction|assumption].
        * destruct (IHrec c (path ++ [(c, sp)]) st) as [Hrec Hvisited].
          { split; [exact (path_ok_snoc _ _ _ _ _ Hp Hc Hcp)|]. split; [|split; [exact Ht|]].
            - intros u Hu. destruct (Hv u Hu); [left|right; assumption].
              rewrite map_app, in_app_iff. left. assumption.
            - rewrite app_length. cbn. lia. }
          destruct (rec c (path ++ [(c, sp)]) st) as [st1|e| |]; cbn [obind]; try exact Hrec.
          destruct Hrec as (A1 & B1 & C1 & D1 & E1).
          assert (Hv' : vis_ok (map fst path) (mkdfs (visited st1) (order st1 ++ [c]))).
          { intros u Hu. cbn [visited order] in *. destruct (A1 u Hu) as [Hu'|Hu'].
            - rewrite map_app, in_app_iff in Hu'. destruct Hu' as [Hu'|[Hu'|[]]]; [left; exact Hu'|].
              cbn in Hu'. subst u. right. apply in_or_app. right. left. reflexivity.
            - right. apply in_or_app. left. exact Hu'. }
          specialize (IH (mkdfs (visited st1) (order st1 ++ [c])) Hr Hv' (topo_snoc _ _ B1 C1)).
          destruct (each rec v path r _); try exact IH. destruct IH as (A & B & C & D & E).
          cbn [order visited] in *. repeat split; auto.
          -- intros c' [Hc'|Hc']; [|auto]. cbn in Hc'. subst c'. apply D. apply in_or_app. right. left.
             reflexivity.
          -- intros u Hu. apply D. apply in_or_app. left. apply D1. exact Hu.
          -- intros u Hu. apply E. apply E1. exact Hu.
  Qed.

  Lemma dfs_spec verts f : incl (map fst verts) names -> forall v path st,
    dfs_pre verts f path v st ->
    dfs_res verts path (map fst (children graph v)) st (dfs graph f v path st)
    /\ forall st', dfs graph f v path st = Ok st' -> In v (visited st').
  Proof.
    intro Hverts. induction f as [|f IHf]; intros v path st (Hp & Hv & Ht & Hb).
    - (* the path has no repeated vertex: it is not longer than [names] *)
      exfalso. destruct (path_ok_facts _ _ _ Hverts Hp) as (Hnd & Hincl & _).
      pose proof (NoDup_incl_length Hnd Hincl) as Hl. rewrite map_length in Hl. lia.
    - rewrite dfs_S. destruct (path_ok_facts _ _ _ Hverts Hp) as (_ & _ & Hin).
      assert (H : dfs_res verts path (map fst (children graph v)) (mkdfs (v :: visited st) (order st))
                    (each (dfs graph f) v path (children graph v) (mkdfs (v :: visited st) (order st)))).
      { apply (each_spec verts f (dfs graph f) v path IHf Hp Hb); [apply incl_refl| |exact Ht].
        intros u [Hu|Hu]; [subst u; left; exact Hin|apply Hv; exact Hu]. }
      destruct (each _ _ _ _ _) as [st'| | |]; (split; [|try discriminate]); try exact H.
      + destruct H as (A & B & C & D & E). repeat split; auto. intros u Hu. apply E. right. exact Hu.
      + intros st'' Heq. inversion Heq; subst st''. destruct H as (_ & _ & _ & _ & E). apply E. left. reflexivity.
  Qed.

  Lemma search_roots_spec verts f :
    incl (map fst verts) names -> (f >= List.length names)%nat -> forall roots st,
    incl roots verts -> vis_ok [] st -> topo (order st) ->
    match search_roots graph f roots st with
    | Ok st' => vis_ok [] st' /\ topo (order st')
                /\ (forall r, In r (map fst roots) -> In r (order st')) /\ incl (order st) (order st')
    | Err e => cycle_report verts e
    | _ => False
    end.
  Proof.
    intros Hverts Hf. induction roots as [|[v vsp] r IH]; intros st Hincl Hv Ht.
    - cbn. repeat split; auto using incl_refl. intros r [].
    - cbn [search_roots].
      assert (Hr : incl r verts) by (intros x Hx; apply Hincl; right; exact Hx).
      destruct (mem_str v (visited st)) eqn:Hvis.
      + apply mem_str_In in Hvis. specialize (IH st Hr Hv Ht).
        destruct (search_roots graph f r st); try exact IH. destruct IH as (A & B & C & D).
        repeat split; auto. intros r' [Hr'|Hr']; [|auto]. cbn in Hr'. subst r'.
        apply D. destruct (Hv _ Hvis) as [[]|]; assumption.
      + destruct (dfs_spec verts f Hverts v [(v, vsp)] st) as [Hd _].
        { split; [|split; [|split; [exact Ht|cbn; lia]]].
          - exists v, vsp, []. repeat split; auto; [apply Hincl; left; reflexivity|].
            constructor; [intros []|constructor].
          - intros u Hu. destruct (Hv u Hu) as [[]|]; right; assumption. }
        destruct (dfs graph f v [(v, vsp)] st) as [st1| | |]; cbn [obind]; try exact Hd.
        destruct Hd as (A1 & B1 & C1 & D1 & E1).
        assert (Hv' : vis_ok [] (mkdfs (visited st1) (order st1 ++ [v]))).
        { intros u Hu. cbn [visited order] in *. right. destruct (A1 u Hu) as [[Hu'|[]]|Hu'].
          - subst u. apply in_or_app. right. left. reflexivity.
          - apply in_or_app. left. exact Hu'. }
        specialize (IH _ Hr Hv' (topo_snoc _ _ B1 C1)).
        destruct (search_roots graph f r _); try exact IH. destruct IH as (A & B & C & D).
        cbn [order] in *. repeat split; auto.
        * intros r' [Hr'|Hr']; [|auto]. cbn in Hr'. subst r'. apply D. apply in_or_app. right. left.
          reflexivity.
        * intros u Hu. apply D. apply in_or_app. left. apply D1. exact Hu.
  Qed.

  (** The order handed to [resolve_in_order]: vertices without children are dropped *)
  Definition childless (c : string) : Prop := children graph c = [].
  Definition has_children (c : string) : bool :=
    match children graph c with [] => false | _ => true end.

  Fixpoint ordered (done : list string) (l : list string) : Prop :=
    match l with
    | [] => True
    | n :: r => (forall c, edge n c -> In c done \/ childless c) /\ ordered (n :: done) r
    end.

  Lemma ordered_snoc l : forall done u,
    ordered done l -> (forall c, edge u c -> In c l \/ In c done \/ childless c) ->
    ordered done (l ++ [u]).
  Proof.
    induction l as [|n r IH]; intros done u Ho Hu; cbn [app ordered] in *.
    - split; [|exact I]. intros c Hc. destruct (Hu c Hc) as [[]|H]; exact H.
    - destruct Ho as [Hn Ho]. split; [exact Hn|]. apply IH; [exact Ho|].
      intros c Hc. destruct (Hu c Hc) as [[H|H]|[H|H]]; cbn; auto.
  Qed.

  Lemma has_children_false c : has_children c = false -> childless c.
  Proof. unfold has_children, childless. destruct (children graph c); [reflexivity|discriminate]. Qed.

  Lemma topo_ordered l : topo l -> ordered [] (filter has_children l).
  Proof.
    induction 1 as [|l u Ht IH Hu]; [exact I|].
    rewrite filter_app. cbn [filter]. destruct (has_children u) eqn:Hcu; [|rewrite app_nil_r; exact IH].
    apply ordered_snoc; [exact IH|]. intros c Hc.
    destruct (has_children c) eqn:Hcc.
    - left. apply filter_In. split; [apply Hu; exact Hc|exact Hcc].
    - right. right. apply has_children_false. exact Hcc.
  Qed.

  Lemma ordered_split done l1 n l2 :
    ordered done (l1 ++ n :: l2) ->
    forall c, edge n c -> In c l1 \/ In c done \/ childless c.
  Proof.
    revert done. induction l1 as [|m l1 IH]; intros done Ho c Hc; cbn [app ordered] in Ho.
    - destruct Ho as [Hn _]. destruct (Hn c Hc); auto.
    - destruct Ho as [_ Ho]. destruct (IH _ Ho c Hc) as [H|[[H|H]|H]]; cbn; auto.
  Qed.
End Graph.

Definition graph_of (defs : list defn) : list (string * list (string * span)) :=
  map (fun d => (d_name d, filter (fun p => mem_str (fst p) (map d_name defs))
                                  (get_nonterm_refs (d_rhs d)))) defs.

Definition verts_of (defs : list defn) : list (string * span) :=
  map (fun d => (d_name d, d_span d)) defs.

Lemma resolution_order_eq defs :
  resolution_order defs =
  do st <- search_roots (graph_of defs) (S (List.length defs))
                        (filter (fun p => indegree_zero (graph_of defs) (fst p)) (verts_of defs)
                         ++ verts_of defs) (mkdfs [] []);
  Ok (filter (has_children (graph_of defs)) (order st)).
Proof. reflexivity. Qed.

Lemma graph_of_closed defs u c : edge (graph_of defs) u c -> In c (map d_name defs).
Proof.
  unfold edge, children. destruct (assoc u (graph_of defs)) as [cs|] eqn:E; [|intros []].
  apply assoc_In in E. unfold graph_of in E. apply in_map_iff in E. destruct E as [d [Hd _]].
  inversion Hd; subst. intro H. apply in_map_iff in H. destruct H as [[c' sp] [Hc Hin]].
  cbn in Hc. subst c'. apply filter_In in Hin. destruct Hin as [_ Hm]. apply mem_str_In. exact Hm.
Qed.

Lemma graph_of_edge_defined defs u c : edge (graph_of defs) u c -> In u (map d_name defs).
Proof.
  unfold edge, children. destruct (assoc u (graph_of defs)) as [cs|] eqn:E; [|intros []].
  intros _. apply assoc_Some_in in E. unfold graph_of in E. rewrite map_map in E. exact E.
Qed.

Lemma verts_of_names defs : map fst (verts_of defs) = map d_name defs.
Proof. unfold verts_of. rewrite map_map. reflexivity. Qed.

Lemma resolution_order_spec defs :
  match resolution_order defs with
  | Ok ord =>
      acyclic (graph_of defs) /\ ordered (graph_of defs) [] ord
      /\ (forall n, In n ord <-> In n (map d_name defs) /\ has_children (graph_of defs) n = true)
  | Err e => cycle_report (graph_of defs) (verts_of defs) e
  | _ => False
  end.
Proof.
  rewrite resolution_order_eq.
  assert (Hs := search_roots_spec (graph_of defs) (map d_name defs) (graph_of_closed defs)
                  (verts_of defs) (S (List.length defs))).
  specialize (Hs ltac:(rewrite verts_of_names; apply incl_refl) ltac:(rewrite map_length; lia)
                 (filter (fun p => indegree_zero (graph_of defs) (fst p)) (verts_of defs) ++ verts_of defs)
                 (mkdfs [] [])).
  assert (Hroots : incl (filter (fun p => indegree_zero (graph_of defs) (fst p)) (verts_of defs)
                         ++ verts_of defs) (verts_of defs)).
  { intros x Hx. apply in_app_or in Hx. destruct Hx as [Hx|Hx]; [apply filter_In in Hx; tauto|exact Hx]. }
  specialize (Hs Hroots ltac:(intros u []) (topo_nil _)).
  destruct (search_roots _ _ _ _) as [st| | |]; cbn [obind]; try exact Hs.
  destruct Hs as (A & B & C & D).
  assert (Hall : forall n, In n (map d_name defs) -> In n (order st)).
  { intros n Hn. apply C. rewrite map_app. apply in_or_app. right. rewrite verts_of_names. exact Hn. }
  split; [|split].
  - eapply topo_acyclic; [exact B|]. intros u c Huc. apply Hall.
    eapply graph_of_edge_defined. exact Huc.
  - apply topo_ordered. exact B.
  - intro n. rewrite filter_In. split.
    + intros [Hn Hc]. split; [|exact Hc].
      unfold has_children in Hc. destruct (children (graph_of defs) n) as [|[c sp] r] eqn:E; [discriminate|].
      apply (graph_of_edge_defined defs n c). unfold edge. rewrite E. left. reflexivity.
    + intros [Hn Hc]. split; [apply Hall; exact Hn|exact Hc].
Qed.

Theorem resolution_order_fine defs : fine (resolution_order defs).
Proof. pose proof (resolution_order_spec defs) as H. destruct (resolution_order defs); try exact I; exact H. Qed.

Theorem resolution_order_ok defs ord :
  resolution_order defs = Ok ord ->
  acyclic (graph_of defs) /\ ordered (graph_of defs) [] ord
  /\ (forall n, In n ord <-> In n (map d_name defs) /\ has_children (graph_of defs) n = true).
Proof. intro H. pose proof (resolution_order_spec defs) as S. rewrite H in S. exact S. Qed.

Theorem resolution_order_err defs e :
  resolution_order defs = Err e -> cycle_report (graph_of defs) (verts_of defs) e.
Proof. intro H. pose proof (resolution_order_spec defs) as S. rewrite H in S. exact S. Qed.

Theorem resolution_order_complete defs :
  (exists ord, resolution_order defs = Ok ord) <-> acyclic (graph_of defs).
Proof.
  split.
  - intros [ord H]. apply resolution_order_ok in H. tauto.
  - intro Ha. pose proof (resolution_order_fine defs) as Hf.
    destruct (resolution_order defs) as [ord|e| |] eqn:E; try destruct Hf.
    + eexists; reflexivity.
    + exfalso. apply resolution_order_err in E. apply cycle_report_cycle in E.
      destruct E as [x Hx]. eapply acyclic_no_cycle; eassumption.
Qed.

(** [resolution_order_ok] as positions in the list: every definition with dependencies is listed,
    after every definition it depends on that has dependencies itself. *)
Theorem resolution_order_topological defs ord :
  resolution_order defs = Ok ord ->
  (forall n, In n ord <-> In n (map d_name defs) /\ exists c, edge (graph_of defs) n c) /\
  (forall l1 n l2 c, ord = l1 ++ n :: l2 -> edge (graph_of defs) n c ->
                     In c l1 \/ forall c', ~ edge (graph_of defs) c c').
Proof.
  intro H. apply resolution_order_ok in H. destruct H as (_ & Ho & Hall). split.
  - intro n. rewrite Hall. unfold has_children, edge.
    destruct (children (graph_of defs) n) as [|[c sp] r]; split; intros [Hn Hc]; split; auto.
    + discriminate.
    + destruct Hc as [c []].
    + exists c. left. reflexivity.
  - intros l1 n l2 c Heq Hc. subst ord. destruct (ordered_split _ _ _ _ _ Ho c Hc) as [H|[[]|H]].
    + left. exact H.
    + right. intros c' Hc'. unfold edge in Hc'. rewrite H in Hc'. destruct Hc'.
Qed.

Theorem resolution_order_err_cycle defs e :
  resolution_order defs = Err e ->
  (exists spans, e = NonterminalDefinitionsCycle spans) /\ exists x, reach (graph_of defs) x x.
Proof.
  intro H. apply resolution_order_err in H. split.
  - destruct H as (r & rsp & rest & c & sp & _ & _ & _ & _ & _ & Heq). eexists. exact Heq.
  - eapply cycle_report_cycle. exact H.
Qed.
