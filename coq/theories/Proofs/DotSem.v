(** C16, meaning level: what [Spec.DotRead.run_stmts] makes of the kinds of statements the printers
    write -- a node statement for a fresh node or for a node met again, a batch of edges between
    existing nodes, a subgraph.  The batches of node statements under one default shape are in
    [DotDfaSem] ([run_states]). *)
From CG Require Import Base.Prelude Base.Facts Spec.DotRead.
Local Open Scope string_scope.

Lemma run_stmts_app a b st : run_stmts (a ++ b)%list st = run_stmts b (run_stmts a st).
Proof. apply fold_left_app. Qed.

Lemma run_stmts_cons s l st : run_stmts (s :: l) st = run_stmts l (run_stmt s st).
Proof. reflexivity. Qed.

Lemma run_sub name body o sc :
  run_stmt (SSub name body) (o, sc) =
  let '(o', inner) := run_stmts body (o, mkscope (s_ndef sc) (s_edef sc) [] [] []) in
  (o', mkscope (s_ndef sc) (s_edef sc) (s_gattrs sc)
               (add_members (s_members inner) (s_members sc))
               (s_subs sc ++ [Cluster name (s_gattrs inner) (s_members inner) (s_subs inner)])%list).
Proof.
  cbn [run_stmt].
  assert (H : forall l st,
             (fix go (l : list stmt) (st : objs * scope) : objs * scope :=
                match l with [] => st | x :: r => go r (run_stmt x st) end) l st = run_stmts l st).
  { induction l as [|x r IH]; intro st; [reflexivity|]. rewrite IH. reflexivity. }
  rewrite H. reflexivity.
Qed.

Definition ids (ns : list gnode) : list string := map gn_id ns.

Lemma has_node_ids i ns : has_node i ns = mem_str i (ids ns).
Proof. induction ns as [|n r IH]; [reflexivity|]. cbn. now rewrite IH. Qed.

Lemma ids_app a b : ids (a ++ b)%list = (ids a ++ ids b)%list.
Proof. apply map_app. Qed.

Lemma update_node_fresh i a d ns :
  ~ In i (ids ns) -> update_node i a (ns ++ [mkgnode i d])%list = (ns ++ [mkgnode i (set_attrs a d)])%list.
Proof.
  induction ns as [|n r IH]; intro H; cbn.
  - now rewrite String.eqb_refl.
  - destruct (String.eqb i (gn_id n)) eqn:E.
    + apply String.eqb_eq in E. elim H. left. now symmetry.
    + rewrite IH; [reflexivity|]. intro Hi. apply H. now right.
Qed.

Lemma add_member_fresh i l : ~ In i l -> add_member i l = (l ++ [i])%list.
Proof. intro H. unfold add_member. now rewrite (proj2 (mem_str_false _ _) H). Qed.

Lemma add_member_old i l : In i l -> add_member i l = l.
Proof. intro H. unfold add_member. now rewrite (proj2 (mem_str_In _ _) H). Qed.

Lemma add_members_fresh new : forall l,
  NoDup new -> (forall i, In i new -> ~ In i l) -> add_members new l = (l ++ new)%list.
Proof.
  unfold add_members. induction new as [|x r IH]; intros l Hnd Hf; cbn.
  - now rewrite app_nil_r.
  - inversion Hnd as [|? ? Hx Hr]; subst.
    rewrite add_member_fresh by (apply Hf; now left).
    rewrite IH; [now rewrite <- app_assoc|exact Hr|].
    intros i Hi Hin. apply in_app_or in Hin as [Hin|[<-|[]]].
    + apply (Hf i); [now right|exact Hin].
    + exact (Hx Hi).
Qed.

Lemma run_node_fresh i a o sc :
  ~ In i (ids (o_nodes o)) -> ~ In i (s_members sc) ->
  run_stmt (SNode i a) (o, sc)
  = (mkobjs (o_nodes o ++ [mkgnode i (set_attrs a (s_ndef sc))]) (o_edges o),
     mkscope (s_ndef sc) (s_edef sc) (s_gattrs sc) (s_members sc ++ [i]) (s_subs sc)).
Proof.
  intros Hn Hm. cbn [run_stmt touch]. rewrite has_node_ids, (proj2 (mem_str_false _ _) Hn).
  cbn [o_nodes o_edges]. rewrite (update_node_fresh _ _ _ _ Hn), (add_member_fresh _ _ Hm). reflexivity.
Qed.

Lemma run_node_same i a o sc :
  In i (ids (o_nodes o)) -> In i (s_members sc) -> update_node i a (o_nodes o) = o_nodes o ->
  run_stmt (SNode i a) (o, sc) = (o, sc).
Proof.
  intros Hn Hm Hu. cbn [run_stmt touch]. rewrite has_node_ids, (proj2 (mem_str_In _ _) Hn).
  rewrite Hu, (add_member_old _ _ Hm). destruct o, sc. reflexivity.
Qed.

Definition label_stmt (p : string * string) : stmt := SNode (fst p) [("label", snd p)].
Definition shaped (sh : string) (p : string * string) : gnode :=
  mkgnode (fst p) [("shape", sh); ("label", snd p)].

(** a node that already has this label is left as it is: [set_attr] puts the value over itself *)
Lemma update_node_idem i sh lab : forall ns,
  In (shaped sh (i, lab)) ns -> NoDup (ids ns) ->
  update_node i [("label", lab)] ns = ns.
Proof.
  induction ns as [|n r IH]; intros Hin Hnd; [reflexivity|]. cbn [update_node].
  inversion Hnd as [|? ? Hn Hr]; subst.
  destruct (String.eqb i (gn_id n)) eqn:E.
  - apply String.eqb_eq in E. destruct Hin as [->|Hin].
    + cbn. reflexivity.
    + elim Hn. rewrite <- E. apply (in_map gn_id) in Hin. exact Hin.
  - destruct Hin as [->|Hin].
    + cbn in E. now rewrite String.eqb_refl in E.
    + now rewrite IH.
Qed.

Lemma touch_existing i o sc :
  In i (ids (o_nodes o)) -> In i (s_members sc) -> touch i (o, sc) = (o, sc).
Proof.
  intros Hn Hm. unfold touch. rewrite has_node_ids, (proj2 (mem_str_In _ _) Hn), (add_member_old _ _ Hm).
  destruct sc. reflexivity.
Qed.

Definition edge_stmt (e : string * string * attrs) : stmt := SEdge [fst (fst e); snd (fst e)] (snd e).
Definition edge_of (e : string * string * attrs) : gedge :=
  mkgedge (fst (fst e)) (snd (fst e)) (set_attrs (snd e) []).

Lemma run_edges l : forall o sc,
  s_edef sc = [] ->
  (forall e, In e l -> (In (fst (fst e)) (ids (o_nodes o)) /\ In (fst (fst e)) (s_members sc))
                       /\ (In (snd (fst e)) (ids (o_nodes o)) /\ In (snd (fst e)) (s_members sc))) ->
  run_stmts (map edge_stmt l) (o, sc) = (mkobjs (o_nodes o) (o_edges o ++ map edge_of l), sc).
Proof.
  induction l as [|e r IH]; intros o sc Hd Hex.
  - cbn. rewrite app_nil_r. destruct o. reflexivity.
  - cbn [map]. rewrite run_stmts_cons. change (edge_stmt e) with (SEdge [fst (fst e); snd (fst e)] (snd e)). cbn [run_stmt fold_left].
    destruct (Hex e) as [[Ha Ha'] [Hb Hb']]; [now left|].
    rewrite (touch_existing _ _ _ Ha Ha'), (touch_existing _ _ _ Hb Hb'). rewrite Hd.
    rewrite IH.
    + cbn [o_nodes o_edges edges_of]. rewrite <- app_assoc. reflexivity.
    + exact Hd.
    + intros e' He'. cbn [o_nodes]. apply Hex. now right.
Qed.
