(** Correctness of the breadth-first search of [Spec.TokAut] whenever it terminates within its
    fuel: if it answers [PFound w], both automata accept [w]; if it answers [PEmpty r], the set
    [r] passes [closed_ok] (so [disjoint] answers [true]).  Consequently [disjoint] can only answer
    [false] for two reasons: a common word exists, or the fuel ran out ([PUnknown]); and
    [common_word] exhibits a word whenever the search found one. *)
From CG Require Import Base.Prelude Base.Facts Spec.TokAut Proofs.TokAutFacts.

Lemma cfg_eqb_refl Q (eq : Q -> Q -> bool) : (forall a, eq a a = true) -> forall c, cfg_eqb Q eq c c = true.
Proof. intros R c. destruct c; cbn [cfg_eqb]; [rewrite String.eqb_refl, R; reflexivity | apply R]. Qed.

Section Search.
  Variables Q1 Q2 : Type.
  Variable next1 : Q1 -> list (tok * Q1).
  Variable next2 : Q2 -> list (tok * Q2).
  Variable final1 : Q1 -> bool.
  Variable final2 : Q2 -> bool.
  Variable eq1 : Q1 -> Q1 -> bool.
  Variable eq2 : Q2 -> Q2 -> bool.
  Hypothesis eq1_sound : forall a b, eq1 a b = true -> a = b.
  Hypothesis eq2_sound : forall a b, eq2 a b = true -> a = b.
  Hypothesis eq1_refl : forall a, eq1 a a = true.
  Hypothesis eq2_refl : forall a, eq2 a a = true.

  Notation ppair := (ppair Q1 Q2).
  Notation pmem := (pmem Q1 Q2 eq1 eq2).
  Notation psucc := (psucc Q1 Q2 next1 next2).
  Notation pfinal := (pfinal Q1 Q2 final1 final2).
  Notation search := (search Q1 Q2 next1 next2 final1 final2 eq1 eq2).
  Notation cacc1 := (cacc Q1 next1 final1).
  Notation cacc2 := (cacc Q2 next2 final2).

  Lemma ppair_eqb_refl (p : ppair) : ppair_eqb Q1 Q2 eq1 eq2 p p = true.
  Proof. unfold ppair_eqb. rewrite (cfg_eqb_refl Q1 eq1 eq1_refl), (cfg_eqb_refl Q2 eq2 eq2_refl). reflexivity. Qed.

  Lemma In_pmem (p : ppair) l : In p l -> pmem p l = true.
  Proof.
    intro H. unfold TokAut.pmem. apply existsb_exists. exists p. split; [assumption | apply ppair_eqb_refl].
  Qed.

  Lemma pmem_iff (p : ppair) l : pmem p l = true <-> In p l.
  Proof. split; [apply (pmem_In Q1 Q2 eq1 eq2 eq1_sound eq2_sound) | apply In_pmem]. Qed.

  Lemma string_of_rev_app l : forall acc, string_of_rev l acc = append (string_of_rev l EmptyString) acc.
  Proof.
    induction l as [| a l IH]; intro acc; [reflexivity |].
    cbn [string_of_rev]. rewrite IH, (IH (String a EmptyString)), append_assoc. reflexivity.
  Qed.

  Lemma string_of_rev_cons a l :
    string_of_rev (a :: l) EmptyString = append (string_of_rev l EmptyString) (String a EmptyString).
  Proof. cbn [string_of_rev]. apply string_of_rev_app. Qed.

  Lemma cacc_app_char1 c l c' a :
    In (l, c') (cstep Q1 next1 c) -> lab_ok l a = true -> forall v, cacc1 c' v -> cacc1 c (String a v).
  Proof. intros. econstructor; eassumption. Qed.

  Lemma joint_inv l1 l2 l : joint l1 l2 = Some l ->
                            lab_ok l1 (witness_char l) = true /\ lab_ok l2 (witness_char l) = true.
  Proof.
    destruct l1 as [a |], l2 as [b |]; cbn [joint]; intro H.
    - destruct (Ascii.eqb a b) eqn:E; [| discriminate]. inversion H; subst. apply Ascii.eqb_eq in E. subst.
      cbn. rewrite Ascii.eqb_refl. split; reflexivity.
    - inversion H; subst. cbn. rewrite Ascii.eqb_refl. split; reflexivity.
    - inversion H; subst. cbn. rewrite Ascii.eqb_refl. split; reflexivity.
    - inversion H; subst. split; reflexivity.
  Qed.

  Lemma psucc_inv (p : ppair) l p' :
    In (l, p') (psucc p) ->
    exists l1 l2, In (l1, fst p') (cstep Q1 next1 (fst p)) /\ In (l2, snd p') (cstep Q2 next2 (snd p))
                  /\ joint l1 l2 = Some l.
  Proof.
    unfold TokAut.psucc. intro H. apply in_flat_map in H. destruct H as [[l1 c1] [H1 H]].
    apply in_flat_map in H. destruct H as [[l2 c2] [H2 H]]. cbn [fst snd] in H.
    destruct (joint l1 l2) as [l0 |] eqn:J; [| destruct H]. destruct H as [E | []].
    inversion E; subst. exists l1, l2. cbn [fst snd]. repeat split; assumption.
  Qed.

  (** [p] is reached from [p0] by reading the word [w]. *)
  Definition reach (p0 : ppair) (w : string) (p : ppair) : Prop :=
    forall v, cacc1 (fst p) v -> cacc2 (snd p) v ->
              cacc1 (fst p0) (append w v) /\ cacc2 (snd p0) (append w v).

  Lemma reach_refl p0 : reach p0 EmptyString p0.
  Proof. intros v H1 H2. split; assumption. Qed.

  Lemma reach_step p0 w p l p' :
    reach p0 w p -> In (l, p') (psucc p) ->
    reach p0 (append w (String (witness_char l) EmptyString)) p'.
  Proof.
    intros R Hs v H1 H2. apply psucc_inv in Hs. destruct Hs as [l1 [l2 [S1 [S2 J]]]].
    apply joint_inv in J. destruct J as [J1 J2].
    rewrite append_assoc. cbn [append]. apply R.
    - econstructor; eassumption.
    - econstructor; eassumption.
  Qed.

  Lemma reach_final p0 w p :
    reach p0 w p -> pfinal p = true -> cacc1 (fst p0) w /\ cacc2 (snd p0) w.
  Proof.
    intros R Hf. unfold TokAut.pfinal in Hf. apply andb_true_iff in Hf. destruct Hf as [F1 F2].
    specialize (R EmptyString (cacc_nil _ _ _ _ F1) (cacc_nil _ _ _ _ F2)).
    rewrite append_nil_r in R. assumption.
  Qed.

  Definition pending (p : ppair) (todo : list (ppair * list ascii)) (visited : list ppair) : Prop :=
    In p visited \/ exists w, In (p, w) todo.

  Record inv (p0 : ppair) (todo : list (ppair * list ascii)) (visited : list ppair) : Prop := {
    inv_reach : forall p w, In (p, w) todo -> reach p0 (string_of_rev w EmptyString) p;
    inv_visited : forall p, In p visited ->
                            pfinal p = false /\ forall l p', In (l, p') (psucc p) -> pending p' todo visited;
    inv_start : pending p0 todo visited
  }.

  Lemma pending_skip p q w todo visited :
    In q visited -> pending p ((q, w) :: todo) visited -> pending p todo visited.
  Proof.
    intros Hq [H | [w' [E | H]]].
    - left; assumption.
    - inversion E; subst. left; assumption.
    - right. exists w'. assumption.
  Qed.

  Lemma pending_expand p q w todo new visited :
    pending p ((q, w) :: todo) visited -> pending p (todo ++ new) (q :: visited).
  Proof.
    intros [H | [w' [E | H]]].
    - left. right; assumption.
    - inversion E; subst. left. left; reflexivity.
    - right. exists w'. apply in_or_app. left; assumption.
  Qed.

  Theorem search_correct p0 : forall fuel todo visited,
      inv p0 todo visited ->
      match search fuel todo visited with
      | PFound _ _ w => cacc1 (fst p0) w /\ cacc2 (snd p0) w
      | PEmpty _ _ r => closed_ok Q1 Q2 next1 next2 final1 final2 eq1 eq2 r p0 = true
      | PUnknown _ _ => True
      end.
  Proof.
    induction fuel as [| f IH]; intros todo visited HI; cbn [TokAut.search]; [exact Logic.I |].
    destruct todo as [| [p w] rest].
    - (* nothing left: the visited set is closed *)
      unfold closed_ok. apply andb_true_iff. split.
      + destruct (inv_start _ _ _ HI) as [H | [w [] ]]. apply In_pmem. assumption.
      + apply forallb_forall. intros p Hp. destruct (inv_visited _ _ _ HI p Hp) as [Hf Hs].
        rewrite Hf. cbn [negb andb]. apply forallb_forall. intros [l p'] Hin. cbn [snd].
        destruct (Hs l p' Hin) as [H | [w [] ]]. apply In_pmem. assumption.
    - destruct (pmem p visited) eqn:Ev.
      + (* already visited *)
        apply pmem_iff in Ev. apply IH. constructor.
        * intros q v Hq. apply (inv_reach _ _ _ HI). right; assumption.
        * intros q Hq. destruct (inv_visited _ _ _ HI q Hq) as [Hf Hs]. split; [assumption |].
          intros l q' Hin. eapply pending_skip; [exact Ev | apply (Hs l q' Hin)].
        * eapply pending_skip; [exact Ev | apply (inv_start _ _ _ HI)].
      + destruct (pfinal p) eqn:Ef.
        * (* a common word *)
          apply (reach_final p0 _ p); [| assumption]. apply (inv_reach _ _ _ HI). left; reflexivity.
        * (* expand [p] *)
          apply IH. constructor.
          -- intros q v Hq. apply in_app_or in Hq. destruct Hq as [Hq | Hq].
             ++ apply (inv_reach _ _ _ HI). right; assumption.
             ++ apply in_map_iff in Hq. destruct Hq as [[l q'] [E Hin]]. cbn [fst snd] in E. inversion E; subst.
                rewrite string_of_rev_cons. eapply reach_step; [| eassumption].
                apply (inv_reach _ _ _ HI). left; reflexivity.
          -- intros q [<- | Hq].
             ++ split; [assumption |]. intros l q' Hin. right. exists (witness_char l :: w).
                apply in_or_app. right. apply in_map_iff. exists (l, q'). split; [reflexivity | assumption].
             ++ destruct (inv_visited _ _ _ HI q Hq) as [Hf Hs]. split; [assumption |].
                intros l q' Hin. apply (pending_expand _ _ w). apply (Hs l q' Hin).
          -- apply (pending_expand _ _ w). apply (inv_start _ _ _ HI).
  Qed.

  Lemma inv_init (p0 : ppair) : inv p0 [(p0, [])] [].
  Proof.
    constructor.
    - intros p w [E | []]. inversion E; subst. apply reach_refl.
    - intros p [].
    - right. exists []. left; reflexivity.
  Qed.

  Theorem disjoint_verdict q1 q2 :
    disjoint Q1 Q2 next1 next2 final1 final2 eq1 eq2 q1 q2 = false ->
    (exists w, common_word Q1 Q2 next1 next2 final1 final2 eq1 eq2 q1 q2 = Some w)
    \/ search search_fuel [(start_pair Q1 Q2 q1 q2, [])] [] = PUnknown _ _.
  Proof.
    unfold disjoint, common_word. intro H.
    pose proof (search_correct (start_pair Q1 Q2 q1 q2) search_fuel _ _ (inv_init _)) as C.
    destruct (search search_fuel [(start_pair Q1 Q2 q1 q2, [])] []) as [w | r |].
    - left. exists w. cbn [start_pair fst snd] in C. destruct C as [C1 C2].
      apply cacc_tacc, taccepts_spec in C1. apply cacc_tacc, taccepts_spec in C2. rewrite C1, C2. reflexivity.
    - rewrite C in H. discriminate.
    - right; reflexivity.
  Qed.

  Theorem disjoint_false q1 q2 :
    disjoint Q1 Q2 next1 next2 final1 final2 eq1 eq2 q1 q2 = false ->
    (exists w, tacc Q1 next1 final1 q1 w /\ tacc Q2 next2 final2 q2 w)
    \/ search search_fuel [(start_pair Q1 Q2 q1 q2, [])] [] = PUnknown _ _.
  Proof.
    intro H. destruct (disjoint_verdict q1 q2 H) as [[w E] | U]; [left | right; exact U].
    exists w. exact (common_word_sound _ _ _ _ _ _ _ _ _ _ _ E).
  Qed.
End Search.
