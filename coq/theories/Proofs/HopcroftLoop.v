(** The Hopcroft loop of the model computes the Nerode partition of the completed automaton:
    the initial partition satisfies the invariant [LInv] (the four invariants of
    Proofs/HopcroftAbs.v), and one iteration keeps it.  One iteration is taken in the generality
    of [iteration_any], so that every run of [run_any] ends in the Nerode partition; the loop of
    the model is one of them. *)
From Coq Require Import Permutation.
From CG Require Import Base.Prelude Model.Dfa Model.Minimize Spec.DfaEquiv Spec.MinimizeSpec
  Base.Facts Proofs.ListFacts Proofs.MinimizeBasics Proofs.DfaEquivProofs Proofs.MinimizeImage Proofs.HopcroftAbs Proofs.HopcroftSim Proofs.HopcroftOrder.

Section Loop.
  Variable d : dfa.
  Hypothesis W : wf d.
  Hypothesis C : all_coreachable d.

  Let U := universe d.
  Let dl := delta d.
  Let isacc := is_accepting d.
  Let letters := input_ids d.
  Let image := make_transitions_image d.

  Definition LInv (A : astate) : Prop :=
    APart U A /\ ARef isacc A /\ ADist dl isacc U A /\ AInv dl letters A [] false.

  Lemma af_accepts x w : af dl isacc x w = accepts_from d x w.
  Proof. unfold af, dl, isacc. symmetry. apply accepts_from_fold. exact W. Qed.

  Lemma dl_closed x a : In x U -> In (dl x a) U.
  Proof. apply delta_closed. exact W. Qed.

  Definition nonacc : list N := bm_diff (bm_diff (get_all_states d) (d_accepting d)) [0].

  Definition opt_block (b : list N) : list (list N) := match b with [] => [] | _ :: _ => [b] end.

  Definition init_blocks : list (list N) := [[0]] ++ opt_block (d_accepting d) ++ opt_block nonacc.

  Lemma opt_block_In b c : In c (opt_block b) <-> c = b /\ b <> [].
  Proof.
    destruct b as [|z r]; cbn [opt_block In]; split.
    - intros [].
    - intros [_ H]. congruence.
    - intros [H|[]]. split; [auto|discriminate].
    - intros [-> _]. auto.
  Qed.

  Lemma non_In x : In x nonacc <-> In x (get_all_states d) /\ ~ In x (d_accepting d) /\ x <> 0.
  Proof.
    unfold nonacc. rewrite !bm_diff_In. cbn [In]. intuition.
  Qed.

  Lemma init_blocks_In b :
    In b init_blocks <-> b = [0] \/ (b = d_accepting d /\ d_accepting d <> []) \/ (b = nonacc /\ nonacc <> []).
  Proof.
    unfold init_blocks. rewrite !in_app_iff, !opt_block_In. cbn [In]. intuition.
  Qed.

  (** every set is new when it is interned, so the pool is the list of blocks *)
  Lemma initial_partition_eq :
    let h := initial_partition d in
    h_pool h = init_blocks /\ NoDup init_blocks
    /\ h_work h = h_parts h /\ map (content (h_pool h)) (h_parts h) = init_blocks.
  Proof.
    unfold initial_partition, init_blocks. fold nonacc.
    change (pool_intern [] [0]) with ([[0]], 0).
    change (hs_insert 0 []) with [0].
    assert (A0 : d_accepting d <> [0]) by (intro F; apply (zero_not_acc d W); rewrite F; left; reflexivity).
    assert (N0 : nonacc <> [0]).
    { intro F. assert (In 0 nonacc) by (rewrite F; left; reflexivity). apply non_In in H. tauto. }
    assert (NA : d_accepting d = nonacc -> nonacc = []).
    { intro F. destruct nonacc as [|z r] eqn:E; [reflexivity|]. exfalso.
      assert (H : In z nonacc) by (rewrite E; left; reflexivity). apply non_In in H.
      apply (proj1 (proj2 H)). rewrite F. left. reflexivity. }
    set (a := d_accepting d) in *. set (n := nonacc) in *. clearbody a n.
    assert (ND1 : forall b : list N, b <> [0] -> NoDup [[0]; b]).
    { intros b Hb. repeat constructor; cbn [In]; intuition congruence. }
    destruct a as [|a0 ar], n as [|n0 nr].
    - cbn. repeat split; auto. repeat constructor. intros [].
    - rewrite (pool_intern_new [[0]]) by (intros [F|[]]; congruence). cbn. auto.
    - rewrite (pool_intern_new [[0]]) by (intros [F|[]]; congruence). cbn. auto.
    - assert (NA' : a0 :: ar <> n0 :: nr) by (intro F; apply NA in F; discriminate).
      rewrite (pool_intern_new [[0]]) by (intros [F|[]]; congruence).
      rewrite (pool_intern_new ([[0]] ++ [a0 :: ar])) by (intros [F|[F|[]]]; congruence).
      cbn. repeat split; auto. repeat constructor; cbn [In]; intuition congruence.
  Qed.

  Definition A0 : astate := map (fun b => (b, true)) init_blocks.

  Lemma blocks_A0 : blocks A0 = init_blocks.
  Proof. unfold blocks, A0. rewrite map_map. cbn [fst]. apply map_id. Qed.

  Lemma abs_initial : abs (initial_partition d) = A0.
  Proof.
    destruct initial_partition_eq as [_ [_ [E1 E2]]]. unfold abs, A0. rewrite <- E2, map_map, E1.
    apply map_ext_in. intros id Hid. f_equal. apply memN_In. exact Hid.
  Qed.

  Lemma nonacc_sorted : sortedN nonacc.
  Proof. unfold nonacc, bm_diff. apply sortedN_filter, sortedN_filter, all_states_sorted. Qed.

  Lemma universe_kind x :
    In x U -> x = 0 \/ In x (d_accepting d) \/ In x nonacc.
  Proof.
    intro H. apply universe_In in H.
    destruct (N.eq_dec x 0) as [->|Hn]; [auto|].
    destruct (in_dec N.eq_dec x (d_accepting d)) as [I|I]; [auto|].
    destruct H as [H|H]; [|contradiction]. right. right. apply non_In. auto.
  Qed.

  Lemma A0_APart : APart U A0.
  Proof.
    assert (Z : ~ In 0 nonacc) by (intro F; apply non_In in F; tauto).
    assert (D : forall z, In z nonacc -> In z (d_accepting d) -> False).
    { intros z H1 H2. apply non_In in H1. tauto. }
    constructor; rewrite blocks_A0.
    - intros b Hb. apply init_blocks_In in Hb. destruct Hb as [->|[[-> H]|[-> H]]]; auto. discriminate.
    - intros b Hb. apply init_blocks_In in Hb. destruct Hb as [->|[[-> H]|[-> H]]].
      + cbn. split; [intros y []|exact I].
      + apply (wf_acc _ W).
      + apply nonacc_sorted.
    - apply initial_partition_eq.
    - intros b b' x Hb Hb' Hx Hx'. apply init_blocks_In in Hb. apply init_blocks_In in Hb'.
      destruct Hb as [->|[[-> H]|[-> H]]], Hb' as [->|[[-> H']|[-> H']]]; auto; exfalso.
      + destruct Hx as [<-|[]]. apply (zero_not_acc d W). exact Hx'.
      + destruct Hx as [<-|[]]. apply Z. exact Hx'.
      + destruct Hx' as [<-|[]]. apply (zero_not_acc d W). exact Hx.
      + eapply D; eauto.
      + destruct Hx' as [<-|[]]. apply Z. exact Hx.
      + eapply D; eauto.
    - intro x. split.
      + intro H. destruct (universe_kind x H) as [->|[I|I]].
        * exists [0]. split; [apply init_blocks_In; auto|left; reflexivity].
        * exists (d_accepting d). split; [|exact I]. apply init_blocks_In. right. left. split; [reflexivity|].
          intro F. rewrite F in I. contradiction.
        * exists nonacc. split; [|exact I]. apply init_blocks_In. right. right. split; [reflexivity|].
          intro F. rewrite F in I. contradiction.
      + intros [b [Hb Hx]]. apply init_blocks_In in Hb. destruct Hb as [->|[[-> H]|[-> H]]].
        * destruct Hx as [<-|[]]. apply universe_zero.
        * apply universe_In. auto.
        * apply universe_In. left. apply non_In in Hx. tauto.
  Qed.

  Lemma A0_sameb x y :
    sameb A0 x y ->
    (x = 0 /\ y = 0) \/ (In x (d_accepting d) /\ In y (d_accepting d)) \/ (In x nonacc /\ In y nonacc).
  Proof.
    intros [b [Hb [Hx Hy]]]. rewrite blocks_A0 in Hb. apply init_blocks_In in Hb.
    destruct Hb as [->|[[-> H]|[-> H]]]; auto.
    destruct Hx as [<-|[]]. destruct Hy as [<-|[]]. auto.
  Qed.

  Lemma isacc_acc x : In x (d_accepting d) -> isacc x = true.
  Proof. apply is_accepting_In. Qed.

  Lemma isacc_non x : ~ In x (d_accepting d) -> isacc x = false.
  Proof. intro H. unfold isacc, is_accepting. apply memN_false. exact H. Qed.

  Lemma dist_nil x y : isacc x <> isacc y -> dist dl isacc x y.
  Proof. intro H. exists []. exact H. Qed.

  Lemma dist_zero y : In y U -> y <> 0 -> dist dl isacc 0 y.
  Proof.
    intros Hy Hn. assert (Sy : In y (states d)) by (eapply universe_state; eauto).
    destruct (C y Sy) as [w Hw].
    exists w. rewrite !af_accepts, (accepts_from_zero d W), Hw. discriminate.
  Qed.

  Lemma A0_LInv : LInv A0.
  Proof.
    assert (P := A0_APart).
    split; [exact P|]. split; [|split].
    - intros x y H. apply A0_sameb in H. destruct H as [[-> ->]|[[Hx Hy]|[Hx Hy]]].
      + auto.
      + rewrite (isacc_acc _ Hx), (isacc_acc _ Hy). split; [reflexivity|].
        intros ->. exfalso. apply (zero_not_acc d W). exact Hx.
      + apply non_In in Hx. apply non_In in Hy. rewrite !isacc_non by tauto. split; [reflexivity|]. tauto.
    - intros x y Ux Uy Hn.
      assert (Sb : forall b, In b init_blocks -> In x b -> In y b -> False).
      { intros b Hb Hx Hy. apply Hn. exists b. rewrite blocks_A0. auto. }
      destruct (universe_kind x Ux) as [->|[Ix|Ix]], (universe_kind y Uy) as [->|[Iy|Iy]].
      + exfalso. apply (Sb [0]); [apply init_blocks_In; auto|left; reflexivity|left; reflexivity].
      + apply dist_zero; [exact Uy|]. intros ->. apply (zero_not_acc d W). exact Iy.
      + apply dist_zero; [exact Uy|]. intros ->. apply non_In in Iy. tauto.
      + apply dist_sym, dist_zero; [exact Ux|]. intros ->. apply (zero_not_acc d W). exact Ix.
      + exfalso. apply (Sb (d_accepting d)); auto. apply init_blocks_In. right. left. split; [reflexivity|].
        intro F. rewrite F in Ix. contradiction.
      + apply dist_nil. rewrite (isacc_acc _ Ix). apply non_In in Iy. rewrite isacc_non by tauto. discriminate.
      + apply dist_sym, dist_zero; [exact Ux|]. intros ->. apply non_In in Ix. tauto.
      + apply dist_nil. rewrite (isacc_acc _ Iy). apply non_In in Ix. rewrite isacc_non by tauto. discriminate.
      + exfalso. apply (Sb nonacc); auto. apply init_blocks_In. right. right. split; [reflexivity|].
        intro F. rewrite F in Ix. contradiction.
    - intros a x y Ha Hxy Hn. left.
      destruct (sameb_in_U U A0 x y P Hxy) as [Ux _].
      assert (Uu := dl_closed x a Ux). apply (ap_cover _ _ P) in Uu. destruct Uu as [b [Hb Hu]].
      exists b. split; [|exact Hu]. unfold A0. apply in_map_iff. exists b. split; [reflexivity|].
      rewrite blocks_A0 in Hb. exact Hb.
  Qed.

  Lemma initial_Good : Good U (initial_partition d).
  Proof.
    destruct initial_partition_eq as [E0 [ND [E1 _]]]. constructor.
    - rewrite E0. exact ND.
    - rewrite E1. apply incl_refl.
    - rewrite abs_initial. exact A0_APart.
  Qed.

  Lemma AInv_irrel A S S' : AInv dl letters A S false -> AInv dl letters A S' false.
  Proof.
    intros I a x y Ha Hxy Hn. destruct (I a x y Ha Hxy Hn) as [H|[H|[F _]]]; auto. discriminate.
  Qed.

  Definition preimage (G : list N) (a : N) (X : list N) : Prop :=
    forall x, In x X <-> In x (map fst (d_trans d)) /\ In a letters /\ In (dl x a) G.

  Lemma splitters_spec G :
    sortedN G -> G <> [] ->
    (forall X, In X (splitters image G) -> exists a, preimage G a X)
    /\ (forall a x, In x (map fst (d_trans d)) -> In a letters -> In (dl x a) G ->
           exists X, In X (splitters image G) /\ preimage G a X).
  Proof.
    intros SG NG. unfold splitters.
    destruct (bm_min_some G NG) as [mn Emn]. destruct (bm_max_some G NG) as [mx Emx]. rewrite Emn, Emx.
    assert (Win : forall a x, In x (map fst (d_trans d)) -> In a letters -> In (dl x a) G ->
                    In (mktr x (dl x a) a) image /\ mn <= dl x a /\ dl x a <= mx).
    { intros a x H1 H2 H3. split; [apply (image_In d W); cbn [tr_from tr_to tr_input]; auto|].
      split; [apply (bm_min_spec G mn SG Emn)|apply (bm_max_spec G mx SG Emx)]; exact H3. }
    destruct (find_bounds image mn mx) as [ts|] eqn:Ef.
    - set (m := transitions_to_group ts G). assert (NDm := ttg_NoDup ts G). fold m in NDm.
      assert (Hw := find_bounds_some image mn mx ts (image_sorted d) Ef).
      assert (Hk : forall a x, gt_mem m a x <-> In x (map fst (d_trans d)) /\ In a letters /\ In (dl x a) G).
      { intros a x. unfold m. rewrite ttg_mem. split.
        - intros [t [Ht [<- [<- E3]]]]. apply Hw in Ht. destruct Ht as [Ht _].
          apply (image_In d W) in Ht. destruct Ht as [H1 [H2 H3]].
          split; [exact H1|]. split; [exact H2|]. unfold dl. rewrite <- H3. exact E3.
        - intros [H1 [H2 H3]]. exists (mktr x (dl x a) a). cbn [tr_from tr_to tr_input].
          split; [apply Hw, (Win a x H1 H2 H3)|auto]. }
      assert (Hpre : forall a X, In (a, X) m -> preimage G a X).
      { intros a X HX x. rewrite (gt_mem_In m a X x NDm HX). apply Hk. }
      split.
      + intros X HX. apply in_map_iff in HX. destruct HX as [[a X'] [<- HX]]. exists a. apply Hpre, HX.
      + intros a x H1 H2 H3. destruct (proj2 (Hk a x) (conj H1 (conj H2 H3))) as [X [HX _]].
        apply assocN_In in HX. exists X. split; [apply in_map_iff; exists (a, X); auto|apply Hpre, HX].
    - split; [intros X []|]. intros a x H1 H2 H3. exfalso.
      destruct (Win a x H1 H2 H3) as [Hi Hb].
      exact (find_bounds_none image mn mx (image_sorted d) Ef _ Hi Hb).
  Qed.

  Lemma finish_iteration A' G :
    APart U A' -> ARef isacc A' -> ADist dl isacc U A' -> AInv dl letters A' G true ->
    (forall a x y, In a letters -> sameb A' x y -> x <> 0 -> y <> 0 ->
                   In (dl x a) G -> In (dl y a) G) ->
    LInv A'.
  Proof.
    intros P R D I H. split; [exact P|]. split; [exact R|]. split; [exact D|].
    apply (AInv_irrel A' G). apply (AInv_drop dl letters A' G I).
    intros a x y Ha Hxy.
    destruct (N.eq_dec x 0) as [->|Hx].
    - destruct (R _ _ Hxy) as [_ Z]. rewrite (Z eq_refl). tauto.
    - destruct (N.eq_dec y 0) as [->|Hy].
      + destruct (R _ _ (sameb_sym _ _ _ Hxy)) as [_ Z]. rewrite (Z eq_refl). tauto.
      + split; apply H; auto. apply sameb_sym, Hxy.
  Qed.

  (** whatever refines [aclear G A] by all the splitters of [G], in any order, re-establishes
      the loop invariant *)
  Lemma iteration_any_LInv A A' : LInv A -> iteration_any image A A' -> LInv A'.
  Proof.
    intros [P [R [D I]]] [G [Xs [HGt [Pm Hs]]]].
    assert (HG : In G (blocks A)) by (apply in_blocks; eauto).
    destruct (splitters_spec G (ap_sorted _ _ P _ HG) (ap_nonempty _ _ P _ HG)) as [Spre Sall].
    set (A1 := aclear G A) in *.
    assert (R1 : ARef isacc A1).
    { intros x y H. apply R. apply (sameb_aclear G A). exact H. }
    assert (D1 : ADist dl isacc U A1).
    { intros x y Ux Uy H. apply D; auto. intro F. apply H. apply (sameb_aclear G A). exact F. }
    assert (I1 : AInv dl letters A1 G true) by (apply (pop_AInv dl letters U A G []); assumption).
    assert (Sep := SepX_of_block dl isacc U A G P D HG).
    set (Q := fun A : astate => AInv dl letters A G true /\ (ARef isacc A /\ ADist dl isacc U A)).
    destruct (refine_seq_spec U Q Xs A1 A' Hs) as [P' [[I' [R' D']] [_ Hh]]].
    { (* a splitter separates only states that a letter takes into and out of [G] *)
      intros X HX. destruct (Spre X (Permutation_in _ Pm HX)) as [a Ha].
      apply SplitPres_and; [apply asplit_AInv|].
      apply asplit_ADist. intros x y Ux Uy Nx Ny Hx Hy.
      apply Ha in Hx. destruct Hx as [_ [La Tx]].
      apply (dist_step dl isacc x y a). apply Sep; auto; try (apply dl_closed; assumption).
      intro Ty. apply Hy, Ha. split; [apply (universe_key d W); assumption|auto]. }
    { apply aclear_APart. exact P. }
    { exact (conj I1 (conj R1 D1)). }
    apply (finish_iteration _ G P' R' D' I').
    intros a x y La Hxy Nx Ny Tx.
    destruct (sameb_in_U U _ x y P' Hxy) as [Ux Uy].
    destruct (Sall a x (universe_key d W x Ux Nx) La Tx) as [X [HX Ha]].
    apply (Ha y), (Hh X (Permutation_in _ (Permutation_sym Pm) HX) x y Hxy), Ha.
    split; [apply (universe_key d W); assumption|auto].
  Qed.

  Lemma run_any_LInv A A' :
    run_any image A A' -> LInv A -> LInv A' /\ (forall b, ~ In (b, true) A').
  Proof.
    induction 1 as [A Hn|A A1 A' Hi Hr IH]; intro L; [auto|].
    apply IH. eapply iteration_any_LInv; eassumption.
  Qed.

  Theorem any_order_nerode A' :
    run_any image A0 A' ->
    (forall x y, sameb A' x y -> forall w, accepts_from d x w = accepts_from d y w)
    /\ (forall x y, In x U -> In y U -> ~ sameb A' x y ->
                    exists w, accepts_from d x w <> accepts_from d y w).
  Proof.
    intro Hr. destruct (run_any_LInv _ _ Hr A0_LInv) as [[P [R [D I]]] NW]. split.
    - intros x y Hxy w. rewrite <- !af_accepts.
      apply (stable_nerode dl isacc letters U (delta_nonletter d W) A' P R); [|exact Hxy].
      apply (done_stable dl letters U A' [] P I). exact NW.
    - intros x y Ux Uy Hn. destruct (D x y Ux Uy Hn) as [w Hw]. exists w.
      rewrite <- !af_accepts. exact Hw.
  Qed.

  Corollary any_order_unique A1 A2 :
    run_any image A0 A1 -> run_any image A0 A2 ->
    forall x y, In x U -> In y U -> (sameb A1 x y <-> sameb A2 x y).
  Proof.
    intros H1 H2 x y Ux Uy.
    destruct (any_order_nerode A1 H1) as [E1 D1]. destruct (any_order_nerode A2 H2) as [E2 D2].
    split; intro S.
    - destruct (sameb_dec A2 x y) as [S2|N2]; [exact S2|]. exfalso.
      destruct (D2 x y Ux Uy N2) as [w Hw]. apply Hw. apply E1. exact S.
    - destruct (sameb_dec A1 x y) as [S1|N1]; [exact S1|]. exfalso.
      destruct (D1 x y Ux Uy N1) as [w Hw]. apply Hw. apply E2. exact S.
  Qed.

  Lemma initial_run fuel h :
    hopcroft_loop fuel image (initial_partition d) = Ok h -> Good U h /\ run_any image A0 (abs h).
  Proof. rewrite <- abs_initial. apply model_run_any, initial_Good. Qed.

  Theorem hopcroft_loop_correct fuel h :
    hopcroft_loop fuel image (initial_partition d) = Ok h ->
    Good U h
    /\ (forall x y, sameb (abs h) x y -> forall w, accepts_from d x w = accepts_from d y w)
    /\ (forall x y, In x U -> In y U -> ~ sameb (abs h) x y ->
                    exists w, accepts_from d x w <> accepts_from d y w).
  Proof.
    intro E. destruct (initial_run fuel h E) as [Gd Hr]. split; [exact Gd|].
    apply any_order_nerode, Hr.
  Qed.
End Loop.
