(** Definitions for the expression round trip: the parser by precedence level ([P]), what may
    follow a printed expression at each level ([st]), and one-step unfoldings of the printer
    ([txt_eq], [loc_eq]). *)
From CG Require Import Base.Prelude Model.Ast Model.Lexer Model.Parser Spec.Printer
  Proofs.LexBase Proofs.LexBlanks Proofs.LexTerminal Proofs.LexTokens Proofs.LexCommand.
From CGgen Require Import Consts.

Inductive op := OSeq | OAlt | OFb.

Definition mk_op (o : op) : list expr -> span -> expr :=
  match o with OSeq => Sequence | OAlt => Alternative | OFb => Fallback end.

Definition lv_op (o : op) : nat := match o with OSeq => 3 | OAlt => 2 | OFb => 1 end%nat.

Definition sep_txt (o : op) : nodelay -> nat -> string :=
  match o with OSeq => seq_sep | OAlt => alt_sep | OFb => fb_sep end.

(** [expr_ind'] with the list nodes as one case and, for a word, a hypothesis about each factor *)
Lemma expr_ind_op : forall P : expr -> Prop,
    (forall t d l sp, P (Terminal t d l sp)) ->
    (forall n l sp, P (NontermRef n l sp)) ->
    (forall c z l sp, P (Command c z l sp)) ->
    (forall o cs sp, Forall P cs -> P (mk_op o cs sp)) ->
    (forall c sp, P c -> P (Optional c sp)) ->
    (forall c sp, P c -> P (Many1 c sp)) ->
    (forall c d sp, P c -> P (DistDescr c d sp)) ->
    (forall c l sp, P c -> match c with Sequence fs _ => Forall P fs | _ => True end -> P (Subword c l sp)) ->
    forall e, P e.
Proof.
  intros P HT HN HC HL HO HM HD HW e.
  assert (Q : P e /\ match e with Sequence fs _ => Forall P fs | _ => True end).
  { induction e using expr_ind';
      try (assert (Hc : Forall P cs) by (eapply Forall_impl; [|eassumption]; intros a Ha; apply Ha));
      try destruct IHe as [IHe IHfs]; auto.
    - split; [exact (HL OSeq cs sp Hc)|exact Hc].
    - split; [exact (HL OAlt cs sp Hc)|exact I].
    - split; [exact (HL OFb cs sp Hc)|exact I]. }
  apply Q.
Qed.

Definition Atom (c : cfg) (n : nat) (i : input) : pres expr :=
  nonterm_expr i
  <|> optional_expr (expr_p c n) i
  <|> parenthesized_expr (expr_p c n) i
  <|> command_expr i
  <|> terminal_opt_description_expr c i.

Definition U (c : cfg) (n : nat) := unary_expr c (expr_p c n).
Definition SW (c : cfg) (n : nat) := subword_sequence_expr n (U c n).
Definition I (c : cfg) (n : nat) := subword_sequence_expr_opt_description n (U c n).
Definition Sq (c : cfg) (n : nat) := sequence_expr n (I c n).
Definition A (c : cfg) (n : nat) := alternative_expr n (Sq c n).
Definition F (c : cfg) (n : nat) := fallback_expr n (A c n).

Lemma expr_p_S : forall c n i, expr_p c (S n) i = F c n i.
Proof. reflexivity. Qed.

Definition P (c : cfg) (n lvl : nat) : input -> pres expr :=
  match lvl with
  | 0 => F c n | 1 => A c n | 2 => Sq c n | 3 => I c n | 4 => SW c n | 5 => U c n | _ => Atom c n
  end%nat.

Definition step_op (o : op) (c : cfg) (n : nat) : input -> pres expr :=
  match o with
  | OSeq => fun j => do (_, j1) <- multiblanks1 j; I c n j1
  | OAlt => do_alternative_expr (Sq c n)
  | OFb => do_fallback_expr (A c n)
  end.

Lemma P_list : forall c n o i,
    P c n (pred (lv_op o)) i =
    do (lft, after) <- P c n (lv_op o) i;
    do (more, after') <- loop_p n (step_op o c n) after;
    match more with
    | [] => Ok (lft, after')
    | _ => Ok (mk_op o (lft :: more) (from_range i after'), after')
    end.
Proof. intros c n []; reflexivity. Qed.

Lemma U_Atom : forall c n i, U c n i =
  do (e, after) <- Atom c n i;
  match many1_tag after with
  | Ok (_, after') => Ok (Many1 e (from_range i after'), after')
  | Err _ => Ok (e, after)
  | Panic s => Panic s
  | OutOfFuel => OutOfFuel
  end.
Proof. reflexivity. Qed.

(** the level at which a child printed in context [ctx] is parsed (7 = forced parentheses under
    a description, parsed by the sub-word parser; 8 = forced parentheses around a factor of a
    word, parsed by the unary parser) *)
Definition lvl (ctx : nat) : nat :=
  if Nat.eqb ctx 7 then 4%nat else if Nat.eqb ctx 8 then 5%nat else ctx.

Definition noq (s : string) : bool := hd_in (fun c => negb (Ascii.eqb c DQUOTE)) s.
Definition nobar (s : string) : bool := hd_in (fun c => negb (Ascii.eqb c BAR)) s.

Definition c5 (r : string) : Prop := starts_with "..." (skips r) = false.
Definition c4 (r : string) : Prop := hd_in no_unary r = true.
Definition c3 (r : string) : Prop := noq (skips r) = true.
Definition c2 (r : string) : Prop := hd_in no_unary (skips r) = true.
Definition c1 (r : string) : Prop := nobar (skips r) = true \/ starts_with "||" (skips r) = true.
Definition c0 (r : string) : Prop := nobar (skips r) = true.

(** [st k r]: the text [r] stops every loop of the levels [k .. 5] *)
Definition st (k : nat) (r : string) : Prop :=
  ((k <= 5)%nat -> c5 r) /\ ((k <= 4)%nat -> c4 r) /\ ((k <= 3)%nat -> c3 r)
  /\ ((k <= 2)%nat -> c2 r) /\ ((k <= 1)%nat -> c1 r) /\ ((k <= 0)%nat -> c0 r).

Lemma st_mono : forall k k' r, (k <= k')%nat -> st k r -> st k' r.
Proof. unfold st. intros k k' r H (H5 & H4 & H3 & H2 & H1 & H0). repeat split; intros; auto with arith; [apply H5|apply H4|apply H3|apply H2|apply H1|apply H0]; lia. Qed.

(** extra conditions for an expression printed without parentheses that ends in a literal *)
Definition extra (ctx : nat) (e : expr) (r : string) : Prop :=
  (open_end e = true -> noq (skips r) = true)
  /\ (is_plain_lit e = true -> lit_rest (Nat.leb 6 ctx) r).

Definition bare (lay : layout) (ctx : nat) (e : expr) : bool :=
  negb (Nat.ltb (prec e) ctx) && Nat.eqb (wraps (lay []) ctx) 0.

Definition mstop (lay : layout) (ctx : nat) (e : expr) (r : string) : Prop :=
  st (lvl ctx) r /\ (bare lay ctx e = true -> extra ctx e r).

Definition cstop (ctx : nat) (e : expr) (r : string) : Prop :=
  st (prec e) r /\ extra ctx e r.

Definition body_txt (lay : layout) (ctx : nat) (e : expr) : string :=
  let L := lay [] in
  match e with
  | Terminal t d _ _ =>
      append (pieces_text (spell (nl_esc L) (Nat.leb 6 ctx) t))
             (match d with
              | Some d => append (gap_text (post_gap (nl_gap L 0))) (descr_text d)
              | None => EmptyString
              end)
  | NontermRef n _ _ => String LT (append n (String GT EmptyString))
  | Command c _ _ _ =>
      append LBRACE3 (append (tws_text (nl_ws L 0)) (append c (append (tws_text (cmd_ws1 c (nl_ws L 1))) RBRACE3)))
  | Optional c _ =>
      String LBRACK (append (gap_text (nl_gap L 0))
                       (append (txt (sub lay 0) 0 c)
                          (append (gap_text (post_gap (nl_gap L 1))) (String RBRACK EmptyString))))
  | Many1 c _ =>
      append (txt (sub lay 0) 6 c) (append (gap_text (post_gap (nl_gap L 0))) DOTS3)
  | DistDescr c d _ =>
      append (txt (sub lay 0) (if open_end c then 7 else 4) c)
             (append (gap_text (post_gap (nl_gap L 0))) (descr_text d))
  | Subword r _ _ =>
      match r with
      | Sequence fs _ => txt_sub (fun k cx f => txt (sub (sub lay 0) k) cx f) 0 false fs
      | _ => txt (sub lay 0) 5 r
      end
  | Sequence cs _ => txt_list (fun k x => txt (sub lay k) 3 x) (seq_sep L) 0 cs
  | Alternative cs _ => txt_list (fun k x => txt (sub lay k) 2 x) (alt_sep L) 0 cs
  | Fallback cs _ => txt_list (fun k x => txt (sub lay k) 1 x) (fb_sep L) 0 cs
  end.

Lemma txt_eq : forall lay ctx e,
    txt lay ctx e =
    wrap_text (lay []) (wraps (lay []) ctx)
      (if Nat.ltb (prec e) ctx
       then paren_text (nl_gap (lay []) 2) (nl_gap (lay []) 3) (body_txt lay ctx e)
       else body_txt lay ctx e).
Proof. intros. destruct e; reflexivity. Qed.

Definition body_loc (c : cfg) (lay : layout) (ctx : nat) (e : expr) (pb : pos) : expr * pos :=
  let L := lay [] in
  match e with
  | Terminal t d l _ =>
      let p1 := pieces_adv c (spell (nl_esc L) (Nat.leb 6 ctx) t) pb in
      match d with
      | Some dd =>
          let p2 := adv_str (descr_text dd) (adv_str (gap_text (post_gap (nl_gap L 0))) p1) in
          (Terminal t d l (pspan pb p2), p2)
      | None => (Terminal t d l (pspan pb p1), p1)
      end
  | NontermRef n l _ =>
      let p1 := adv_char GT (adv_str n (adv_char LT pb)) in
      (NontermRef n l (pspan pb p1), p1)
  | Command cm z l _ =>
      let p1 := adv_str RBRACE3 (adv_str (tws_text (cmd_ws1 cm (nl_ws L 1)))
                  (adv_str cm (adv_str (tws_text (nl_ws L 0)) (adv_str LBRACE3 pb)))) in
      (Command cm z l (pspan pb p1), p1)
  | Optional ch _ =>
      let p1 := adv_str (gap_text (nl_gap L 0)) (adv_char LBRACK pb) in
      let '(ch', p2) := loc c (sub lay 0) 0 ch p1 in
      let p3 := adv_char RBRACK (adv_str (gap_text (post_gap (nl_gap L 1))) p2) in
      (Optional ch' (pspan pb p3), p3)
  | Many1 ch _ =>
      let '(ch', p1) := loc c (sub lay 0) 6 ch pb in
      let p2 := adv_str DOTS3 (adv_str (gap_text (post_gap (nl_gap L 0))) p1) in
      (Many1 ch' (pspan pb p2), p2)
  | DistDescr ch d _ =>
      let '(ch', p1) := loc c (sub lay 0) (if open_end ch then 7 else 4) ch pb in
      let p2 := adv_str (descr_text d) (adv_str (gap_text (post_gap (nl_gap L 0))) p1) in
      (DistDescr ch' d (pspan pb p2), p2)
  | Subword r l _ =>
      match r with
      | Sequence fs _ =>
          let '(fs', p1) :=
            loc_sub (fun k cx f q => loc c (sub (sub lay 0) k) cx f q) 0 false fs pb in
          (Subword (Sequence fs' (pspan pb p1)) l (pspan pb p1), p1)
      | _ =>
          let '(r', p1) := loc c (sub lay 0) 5 r pb in
          (Subword r' l (pspan pb p1), p1)
      end
  | Sequence cs _ =>
      let '(cs', p1) :=
        loc_list (fun k x q => loc c (sub lay k) 3 x q) (fun k q => adv_str (seq_sep L k) q) 0 cs pb in
      (Sequence cs' (pspan pb p1), p1)
  | Alternative cs _ =>
      let '(cs', p1) :=
        loc_list (fun k x q => loc c (sub lay k) 2 x q) (fun k q => adv_str (alt_sep L k) q) 0 cs pb in
      (Alternative cs' (pspan pb p1), p1)
  | Fallback cs _ =>
      let '(cs', p1) :=
        loc_list (fun k x q => loc c (sub lay k) 1 x q) (fun k q => adv_str (fb_sep L k) q) 0 cs pb in
      (Fallback cs' (pspan pb p1), p1)
  end.

Lemma loc_eq : forall c lay ctx e p,
    loc c lay ctx e p =
    let L := lay [] in
    let p0 := wrap_open L (wraps L ctx) p in
    let par := Nat.ltb (prec e) ctx in
    let pb := if par then paren_open (nl_gap L 2) p0 else p0 in
    let '(e', pe) := body_loc c lay ctx e pb in
    let pc := if par then paren_close (nl_gap L 3) pe else pe in
    (e', wrap_close L (wraps L ctx) pc).
Proof. intros. destruct e; reflexivity. Qed.

Lemma prec_list : forall o cs sp, prec (mk_op o cs sp) = pred (lv_op o).
Proof. intros []; reflexivity. Qed.

Lemma wfb_list : forall w o cs sp, wfb w (mk_op o cs sp) = Nat.leb 2 (List.length cs) && forallb (wfb w) cs.
Proof. intros w []; reflexivity. Qed.

Lemma body_txt_list : forall o lay ctx cs sp,
    body_txt lay ctx (mk_op o cs sp) = txt_list (fun k x => txt (sub lay k) (lv_op o) x) (sep_txt o (lay [])) 0 cs.
Proof. intros []; reflexivity. Qed.

Lemma body_loc_list : forall c o lay ctx cs sp pb,
    body_loc c lay ctx (mk_op o cs sp) pb =
    let '(cs', p1) := loc_list (fun k x q => loc c (sub lay k) (lv_op o) x q)
                               (fun k q => adv_str (sep_txt o (lay []) k) q) 0 cs pb in
    (mk_op o cs' (pspan pb p1), p1).
Proof. intros c []; reflexivity. Qed.
