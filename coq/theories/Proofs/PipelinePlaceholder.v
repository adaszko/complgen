(** C08, end to end, the placeholder class: for a printable grammar free of the classes the
    checker decides, [compile (text g l)] ends in [DRegex UnboundedMatchable] iff the grammar has a
    placeholder inside a word that something can follow ([placeholder_not_last]) -- unless the
    checker rejects the text for space-separated literals first. *)
From CG Require Import Base.Prelude Proofs.ListFacts Model.Ast Model.Lexer Model.Parser Model.Check Model.Regex.
From CG Require Import Model.Dfa Model.Driver Spec.Printer Spec.Choice Spec.Mistakes.
From CG Require Import Proofs.GrammarRound Proofs.TreeFacts.
From CG Require Import Proofs.CheckSpans Proofs.PipelineSpans Proofs.PipelineLayout Proofs.PipelineTotal.
From CG Require Import Proofs.CheckCycleSpec Proofs.PipelineMistakes Proofs.DiagPipeline.
From CG Require Import Proofs.DotFromExpr Proofs.PhExpr Proofs.PhSpec Proofs.PhTree.

(** [wfb] asks two operands or more of every operator; [ops_nonempty], the hypothesis of
    [placeholder_decided], asks one *)
Lemma wfb_ops e : forall w, wfb w e = true -> ops_nonempty e = true.
Proof.
  assert (Hl : forall cs w, Forall (fun e => forall w, wfb w e = true -> ops_nonempty e = true) cs ->
                 Nat.leb 2 (List.length cs) && forallb (wfb w) cs = true ->
                 match cs with [] => false | _ => forallb ops_nonempty cs end = true).
  { intros cs w HF H. apply andb_true_iff in H. destruct H as [Hlen Hall].
    destruct cs as [|c r]; [discriminate|]. revert Hall. apply forallb_impl_Forall.
    revert HF. apply Forall_impl. intros x Hx. exact (Hx w). }
  induction e using expr_ind'; intros w Hw; cbn [wfb ops_nonempty] in *; try reflexivity;
    try (eapply Hl; eassumption); try (eapply IHe; eassumption).
  apply andb_true_iff in Hw. destruct Hw as [_ Hw]. destruct e; try discriminate.
  apply (IHe true). exact Hw.
Qed.

Lemma wf_ops g : wf g -> grammar_ops_nonempty g = true.
Proof.
  unfold wf, grammar_ops_nonempty. intro H. rewrite forallb_forall in *. intros s Hs. specialize (H s Hs).
  destruct s as [n sp e|n sp [[sh shsp]|] rhs]; cbn [wf_stmt] in *;
    apply andb_true_iff in H; destruct H as [_ H]; eapply wfb_ops; exact H.
Qed.

Lemma present_nil builtins g sh :
  present builtins g sh = [] ->
  no_call_variant g = false /\ varying_names g = false /\ slash_in_name g = false /\
  duplicate_plain g = false /\ duplicate_for_shell g sh = false /\ unknown_shell g = false /\
  non_command_for_shell g = false /\ cyclic g sh = false /\ subword_spaces g sh = false /\
  placeholder_not_last builtins g sh = false.
Proof.
  unfold present. intro H.
  destruct (no_call_variant g); [discriminate|]. destruct (varying_names g); [discriminate|].
  destruct (slash_in_name g); [discriminate|]. destruct (duplicate_plain g); [discriminate|].
  destruct (duplicate_for_shell g sh); [discriminate|]. destruct (unknown_shell g); [discriminate|].
  destruct (non_command_for_shell g); [discriminate|]. destruct (cyclic g sh); [discriminate|].
  destruct (subword_spaces g sh); [discriminate|]. destruct (placeholder_not_last builtins g sh); [discriminate|].
  repeat split; reflexivity.
Qed.

Section Lifted.
  Variable pick : nat -> list (list N) -> nat.
  Variable fuel : nat.
  Variable builtins : shell -> list (string * string).

  Lemma compile_valid_regex_err v a b :
    compile_valid pick fuel v = Err (DRegex (UnboundedMatchable a b)) <->
    from_valid_expr (v_expr v) = Err (UnboundedMatchable a b).
  Proof.
    split.
    - intro H. destruct (compile_valid_err pick fuel v _ H) as [(re & E & Hre)|[[x E]|[x E]]]; try discriminate E.
      now injection E as <-.
    - intro H. unfold compile_valid. rewrite H. reflexivity.
  Qed.

  Theorem lifted_placeholder g l sh :
    wf g ->
    no_call_variant g = false -> varying_names g = false -> slash_in_name g = false ->
    duplicate_plain g = false ->
    unknown_shell g = false -> non_command_for_shell g = false -> duplicate_for_shell g sh = false ->
    specs_have_command_plain g = true -> cyclic g sh = false ->
    (exists a b t, compile pick fuel builtins (text g l) sh = Err (DCheck (SubwordSpaces a b t))) \/
    (placeholder_not_last builtins g sh = true <->
     exists a b, compile pick fuel builtins (text g l) sh = Err (DRegex (UnboundedMatchable a b))).
  Proof.
    intros W Hn Hv Hsl Hdp H1 H2 H3 Hsp Hcyc.
    destruct (clean_verdict builtins g sh Hn Hv Hsl Hdp H1 H2 H3 Hsp Hcyc) as [[v Hg]|(a & b & t & Hg)].
    2:{ left. destruct (checker_error_lifts pick fuel builtins _ g l sh blind_spaces W) as [e [He (a' & b' & t' & ->)]];
          [eexists; split; [exact Hg|eauto]|eauto]. }
    right. destruct (placeholder_decided builtins g sh v Hg (wf_ops g W)) as [Hiff _]. rewrite Hiff.
    pose proof (text_bridge pick fuel builtins g l sh W) as B. unfold after_parse in B. rewrite Hg in B.
    cbn [lift obind] in B. split.
    - intros (a & b & Hf). apply compile_valid_regex_err in Hf. rewrite Hf in B. cbn [obind] in B.
      destruct (compile pick fuel builtins (text g l) sh) as [[v' c']|e2| |]; cbn [layout_rel] in B; try contradiction.
      destruct e2 as [| |[a' b']| |]; cbn [ms_derr] in B; try discriminate. eauto.
    - intros (a & b & Hc). rewrite Hc in B.
      destruct (compile_valid pick fuel v) as [c|e2| |] eqn:Ev; cbn [obind layout_rel] in B; try contradiction.
      destruct e2 as [| |[a' b']| |]; cbn [ms_derr] in B; try discriminate.
      exists a', b'. apply compile_valid_regex_err. exact Ev.
  Qed.

  (** a printable grammar with none of the classes of Spec/Mistakes.v compiles -- or is rejected
      for juxtaposed literals (converse finding N1) or by the ambiguity check (any [DAmb]: an
      ambiguous automaton or a description conflict; Spec/Mistakes.v has no predicate for either) *)
  Theorem lifted_clean_compiles g l sh :
    wf g -> fuel_covers fuel builtins (text g l) sh ->
    present builtins g sh = [] -> specs_have_command_plain g = true ->
    (exists vc, compile pick fuel builtins (text g l) sh = Ok vc) \/
    (exists a b t, compile pick fuel builtins (text g l) sh = Err (DCheck (SubwordSpaces a b t))) \/
    (exists ae, compile pick fuel builtins (text g l) sh = Err (DAmb ae)).
  Proof.
    intros W Hfuel Hp Hsp.
    destruct (present_nil builtins g sh Hp) as (Hn & Hv & Hsl & Hdp & H3 & H1 & H2 & Hcyc & _ & Hpl).
    destruct (lifted_clean_verdict pick fuel builtins g l sh W Hfuel Hn Hv Hsl Hdp H1 H2 H3 Hsp Hcyc)
      as [Hok|[Hss|[Hre|Ham]]]; auto.
    destruct (lifted_placeholder g l sh W Hn Hv Hsl Hdp H1 H2 H3 Hsp Hcyc) as [Hss|Hiff]; auto.
    apply Hiff in Hre. congruence.
  Qed.
End Lifted.
