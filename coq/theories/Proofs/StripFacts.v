(** bash's removal of the typed word up to its last word-break character, as the interpreter
    models it ([BashSem.strip_reply]: `${prefix##*$char}` for every character of COMP_WORDBREAKS,
    `${prefix%$shortest_suffix}`, `${matches[@]#$superfluous_prefix}`, all three with pattern
    semantics), is [Spec.Meaning.strip] when the typed word contains no glob character, every
    match extends it, and no word-break character is one of \ ? * [ (true of bash's default
    COMP_WORDBREAKS, [default_wordbreaks_ok]). *)
From CG Require Import Base.Prelude Base.Facts Model.Glob Model.BashSem Spec.Meaning Proofs.GlobFacts Proofs.MeaningFacts.

Definition break_ok (c : ascii) : bool :=
  negb (aeq c c_bslash || aeq c c_quest || aeq c c_star || aeq c c_lbrack).

Fixpoint breaks_ok (wb : string) : bool :=
  match wb with EmptyString => true | String c r => break_ok c && breaks_ok r end.

Lemma gsdrop_eq n : forall s, Glob.sdrop n s = Meaning.sdrop n s.
Proof. induction n as [| n IH]; intros [| a s]; cbn; try reflexivity. apply IH. Qed.

Lemma gsdrop_add n : forall m s, Glob.sdrop (n + m) s = Glob.sdrop m (Glob.sdrop n s).
Proof.
  induction n as [| n IH]; intros m s; [reflexivity |]. destruct s as [| c s]; cbn [Nat.add Glob.sdrop].
  - destruct m; reflexivity.
  - apply IH.
Qed.

Lemma gsdrop_nil_iff n s : (String.length s <= n)%nat -> Glob.sdrop n s = EmptyString.
Proof.
  revert s. induction n as [| n IH]; intros s H; destruct s as [| c s]; cbn in *; try reflexivity; try lia. apply IH. lia.
Qed.

Lemma length_stake n : forall s, (n <= String.length s)%nat -> String.length (stake n s) = n.
Proof. induction n as [| n IH]; intros [| a s] H; cbn in *; try reflexivity; try lia. rewrite IH; [reflexivity | lia]. Qed.

Lemma plain_stake n : forall s, plain s = true -> plain (stake n s) = true.
Proof.
  induction n as [| n IH]; intros [| a s] H; cbn in *; try reflexivity.
  apply andb_true_iff in H. destruct H as [H1 H2]. rewrite H1, (IH s H2). reflexivity.
Qed.

Lemma stake_append n : forall s x, (n <= String.length s)%nat -> stake n (append s x) = stake n s.
Proof.
  induction n as [| n IH]; intros [| a s] x H; cbn in *; try reflexivity; try lia.
  rewrite IH; [reflexivity | lia].
Qed.

Lemma string_eq_length a b : a = b -> String.length a = String.length b.
Proof. intros ->. reflexivity. Qed.

Lemma first_cut_some ks test k : first_cut ks test = Some k -> In k ks /\ test k = true.
Proof.
  induction ks as [| x r IH]; cbn [first_cut]; intro H; [discriminate |].
  destruct (test x) eqn:E; [inversion H; subst; split; [left; reflexivity | exact E] |].
  destruct (IH H) as [H1 H2]. split; [right; exact H1 | exact H2].
Qed.

Lemma first_cut_unique ks test k0 :
  In k0 ks -> test k0 = true -> (forall k, In k ks -> test k = true -> k = k0) -> first_cut ks test = Some k0.
Proof.
  induction ks as [| x r IH]; intros Hin Ht Hu; [destruct Hin |].
  cbn [first_cut]. destruct (test x) eqn:E.
  - f_equal. apply Hu; [left; reflexivity | exact E].
  - destruct Hin as [-> | Hin]; [congruence |]. apply IH; [exact Hin | exact Ht |].
    intros k Hk Hk'. apply Hu; [right; exact Hk | exact Hk'].
Qed.

Lemma first_cut_none ks test : (forall k, In k ks -> test k = false) -> first_cut ks test = None.
Proof.
  induction ks as [| x r IH]; intro H; [reflexivity |]. cbn [first_cut].
  rewrite (H x (or_introl eq_refl)). apply IH. intros k Hk. apply H. right; exact Hk.
Qed.

Lemma in_upto n k : In k (upto n) <-> (k <= n)%nat.
Proof. unfold upto. rewrite in_seq. lia. Qed.

Lemma in_downfrom n k : In k (downfrom n) <-> (k <= n)%nat.
Proof. unfold downfrom. rewrite <- in_rev. apply in_upto. Qed.

Lemma first_cut_downfrom_max n test k :
  first_cut (downfrom n) test = Some k -> forall k', (k < k' <= n)%nat -> test k' = false.
Proof.
  unfold downfrom, upto. induction n as [| n IH]; intros H k' Hk'.
  - cbn in H. destruct (test 0%nat); inversion H; subst; lia.
  - replace (seq 0 (S (S n))) with (seq 0 (S n) ++ [S n]) in H by (rewrite (seq_S (S n) 0); reflexivity).
    rewrite rev_app_distr in H. cbn [rev app first_cut] in H.
    destruct (test (S n)) eqn:E; [inversion H; subst; lia |].
    destruct (Nat.eq_dec k' (S n)) as [-> | Hne]; [exact E |]. apply (IH H). lia.
Qed.

Lemma parse_star_char c : break_ok c = true -> parse 3 false (String c_star (String c EmptyString)) = Some [TStar; TChar c].
Proof.
  unfold break_ok. intro H. apply negb_true_iff in H. apply orb_false_iff in H. destruct H as [H H4].
  apply orb_false_iff in H. destruct H as [H H3]. apply orb_false_iff in H. destruct H as [H1 H2].
  cbn [parse andb]. unfold aeq in *.
  assert (E1 : Ascii.eqb c_star c_bslash = false) by reflexivity.
  assert (E2 : Ascii.eqb c_star c_quest = false) by reflexivity.
  assert (E3 : Ascii.eqb c_star c_star = true) by reflexivity.
  rewrite E1, E2, E3. cbn [option_map parse andb]. rewrite H1, H2, H3, H4. reflexivity.
Qed.

(** position just after the last occurrence of [c] (0 if there is none) *)
Fixpoint last_pos (c : ascii) (p : string) : nat :=
  match p with
  | EmptyString => O
  | String a r => match last_pos c r with
                  | S k => S (S k)
                  | O => if Ascii.eqb a c then 1%nat else O
                  end
  end.

Lemma last_pos_le c p : (last_pos c p <= String.length p)%nat.
Proof.
  induction p as [| a r IH]; cbn [last_pos String.length]; [lia |].
  destruct (last_pos c r); [destruct (Ascii.eqb a c); lia | lia].
Qed.

(** [s] ends with [c], decided as bash does it: by the pattern `*c` *)
Definition ends_with (c : ascii) (s : string) : bool := gmatch [TStar; TChar c] s.

Lemma ends_with_cons c a s : ends_with c (String a s) = (Ascii.eqb c a && match s with EmptyString => true | _ => false end) || ends_with c s.
Proof. unfold ends_with. cbn [gmatch]. unfold aeq. destruct s; reflexivity. Qed.

Lemma ends_with_nil c : ends_with c EmptyString = false.
Proof. reflexivity. Qed.

Lemma ends_with_stake c : forall p k, (k <= String.length p)%nat ->
  ends_with c (stake k p) = true -> (k <= last_pos c p)%nat.
Proof.
  induction p as [| a r IH]; intros k Hk H.
  - destruct k; cbn in *; [discriminate | lia].
  - destruct k as [| k]; [cbn in H; discriminate |]. cbn [stake] in H. rewrite ends_with_cons in H.
    cbn [String.length] in Hk. cbn [last_pos]. apply orb_true_iff in H. destruct H as [H | H].
    + apply andb_true_iff in H. destruct H as [Hc Hs]. apply Ascii.eqb_eq in Hc. subst a.
      assert (k = 0%nat).
      { destruct k; [reflexivity |]. destruct r; cbn in Hs; [cbn in Hk; lia | discriminate]. }
      subst k. destruct (last_pos c r); [rewrite Ascii.eqb_refl; lia | lia].
    + assert (k <= last_pos c r)%nat by (apply IH; [lia | exact H]).
      destruct (last_pos c r) as [| j] eqn:E; [| lia].
      assert (k = 0%nat) by lia. subst k. cbn in H. discriminate.
Qed.

Lemma stake_last_pos_ends c : forall p, (0 < last_pos c p)%nat -> ends_with c (stake (last_pos c p) p) = true.
Proof.
  induction p as [| a r IH]; cbn [last_pos]; intro H; [lia |].
  destruct (last_pos c r) as [| j] eqn:E.
  - destruct (Ascii.eqb a c) eqn:Ea; [| lia]. apply Ascii.eqb_eq in Ea. subst a. cbn [stake]. rewrite ends_with_cons.
    rewrite Ascii.eqb_refl. reflexivity.
  - change (stake (S (S j)) (String a r)) with (String a (stake (S j) r)). rewrite ends_with_cons.
    rewrite IH by lia. apply orb_true_r.
Qed.

Lemma first_cut_downfrom_spec n test k0 :
  (k0 <= n)%nat -> test k0 = true -> (forall k, (k0 < k <= n)%nat -> test k = false) ->
  first_cut (downfrom n) test = Some k0.
Proof.
  unfold downfrom, upto. induction n as [| n IH]; intros Hk Ht Hmax.
  - assert (k0 = 0%nat) by lia. subst. cbn. rewrite Ht. reflexivity.
  - replace (seq 0 (S (S n))) with (seq 0 (S n) ++ [S n]) by (rewrite (seq_S (S n) 0); reflexivity).
    rewrite rev_app_distr. cbn [rev app first_cut].
    destruct (Nat.eq_dec k0 (S n)) as [-> | Hne]; [rewrite Ht; reflexivity |].
    rewrite (Hmax (S n)) by lia. apply IH; [lia | exact Ht | intros k Hk'; apply Hmax; lia].
Qed.

Lemma first_cut_upto_spec n test k0 :
  (k0 <= n)%nat -> test k0 = true -> (forall k, (k < k0)%nat -> test k = false) ->
  first_cut (upto n) test = Some k0.
Proof.
  unfold upto. intros Hk Ht Hmin.
  assert (G : forall len start, (start <= k0 < start + len)%nat -> first_cut (seq start len) test = Some k0).
  { induction len as [| len IH]; intros start Hs; [lia |]. cbn [seq first_cut].
    destruct (Nat.eq_dec start k0) as [-> | Hne]; [rewrite Ht; reflexivity |].
    rewrite (Hmin start) by lia. apply IH. lia. }
  apply G. lia.
Qed.

Lemma rm_longest_star_char c p :
  break_ok c = true -> rm_longest_prefix (String c_star (String c EmptyString)) p = Some (Glob.sdrop (last_pos c p) p).
Proof.
  intro Hc. unfold rm_longest_prefix, with_pat. cbn [String.length]. rewrite (parse_star_char c Hc).
  change (fun k => gmatch [TStar; TChar c] (stake k p)) with (fun k => ends_with c (stake k p)).
  destruct (last_pos c p) as [| j] eqn:E.
  - rewrite first_cut_none; [reflexivity |]. intros k Hk. apply in_downfrom in Hk.
    destruct (ends_with c (stake k p)) eqn:Ee; [| reflexivity].
    pose proof (ends_with_stake c p k Hk Ee) as Hle. rewrite E in Hle. assert (k = 0%nat) by lia. subst k.
    replace (stake 0 p) with EmptyString in Ee by (destruct p; reflexivity). rewrite ends_with_nil in Ee. discriminate.
  - rewrite (first_cut_downfrom_spec _ _ (S j)); [reflexivity | | |].
    + rewrite <- E. apply last_pos_le.
    + rewrite <- E. apply stake_last_pos_ends. lia.
    + intros k Hk. destruct (ends_with c (stake k p)) eqn:Ee; [| reflexivity].
      apply ends_with_stake in Ee; [| lia]. rewrite E in Ee. lia.
Qed.

(** the cut position over all break characters *)
Fixpoint max_pos (wb p : string) : nat :=
  match wb with
  | EmptyString => O
  | String c r => Nat.max (last_pos c p) (max_pos r p)
  end.

Lemma max_pos_le wb p : (max_pos wb p <= String.length p)%nat.
Proof. induction wb as [| c r IH]; cbn [max_pos]; [lia |]. pose proof (last_pos_le c p). lia. Qed.

Lemma max_pos_cons wb a r :
  max_pos wb (String a r) = match max_pos wb r with
                            | S k => S (S k)
                            | O => if contains_char a wb then 1%nat else O
                            end.
Proof.
  induction wb as [| c wb IH]; [reflexivity |]. cbn [max_pos last_pos contains_char]. rewrite IH.
  rewrite (Ascii.eqb_sym c a).
  destruct (last_pos c r) as [| j] eqn:E1; destruct (max_pos wb r) as [| j2] eqn:E2; cbn [Nat.max].
  - destruct (Ascii.eqb a c); destruct (contains_char a wb); reflexivity.
  - destruct (Ascii.eqb a c); cbn; reflexivity.
  - destruct (contains_char a wb); cbn; try reflexivity; try (f_equal; lia).
  - cbn; try reflexivity; try (f_equal; lia).
Qed.

Lemma last_break_max_pos wb p : last_break wb p = max_pos wb p.
Proof.
  induction p as [| a r IH]; cbn [last_break].
  - induction wb as [| c wb IHw]; [reflexivity |]. cbn [max_pos last_pos]. rewrite <- IHw. reflexivity.
  - rewrite max_pos_cons, IH. reflexivity.
Qed.

Lemma shortest_suffix_spec : forall wb p k,
    breaks_ok wb = true -> (k <= String.length p)%nat ->
    shortest_suffix wb p (Glob.sdrop k p) = Ok (Glob.sdrop (Nat.max k (max_pos wb p)) p).
Proof.
  induction wb as [| c wb IH]; intros p k Hok Hk; cbn [shortest_suffix max_pos].
  - rewrite Nat.max_0_r. reflexivity.
  - cbn [breaks_ok] in Hok. apply andb_true_iff in Hok. destruct Hok as [Hc Hwb].
    rewrite (rm_longest_star_char c p Hc). rewrite !length_sdrop.
    pose proof (last_pos_le c p) as Hl.
    destruct (Nat.ltb (String.length p - last_pos c p) (String.length p - k)) eqn:E.
    + apply Nat.ltb_lt in E. rewrite (IH p (last_pos c p) Hwb Hl). f_equal. f_equal. lia.
    + apply Nat.ltb_ge in E. rewrite (IH p k Hwb Hk). f_equal. f_equal. lia.
Qed.

Lemma sdrop_full_eq k : forall p, (k <= String.length p)%nat -> Glob.sdrop k p = p -> k = 0%nat.
Proof.
  intros p Hk E. apply string_eq_length in E. rewrite length_sdrop in E.
  destruct p as [| a p']; [cbn [String.length] in Hk; lia |]. cbn [String.length] in *. lia.
Qed.

Lemma rm_shortest_suffix_plain p k :
  plain p = true -> (k <= String.length p)%nat ->
  rm_shortest_suffix (Glob.sdrop k p) p = Some (stake k p).
Proof.
  intros Hp Hk. unfold rm_shortest_suffix, with_pat. rewrite (parse_plain false _ (plain_sdrop k p Hp)).
  rewrite (first_cut_downfrom_spec _ _ k); [reflexivity | exact Hk | rewrite gmatch_chars; apply String.eqb_refl |].
  intros k' Hk'. rewrite gmatch_chars. apply String.eqb_neq. intro E. apply string_eq_length in E.
  rewrite !length_sdrop in E. lia.
Qed.

Lemma rm_shortest_prefix_plain p k m :
  plain p = true -> (k <= String.length p)%nat -> String.prefix p m = true ->
  rm_shortest_prefix (stake k p) m = Some (Glob.sdrop k m).
Proof.
  intros Hp Hk Hm. unfold rm_shortest_prefix, with_pat. rewrite (parse_plain false _ (plain_stake k p Hp)).
  apply prefix_split in Hm.
  assert (Hlen : (String.length p <= String.length m)%nat) by (rewrite Hm, length_append; lia).
  assert (Est : stake k m = stake k p) by (rewrite Hm; apply stake_append; exact Hk).
  rewrite (first_cut_upto_spec _ _ k); [reflexivity | lia | rewrite gmatch_chars, Est; apply String.eqb_refl |].
  intros k' Hk'. rewrite gmatch_chars. apply String.eqb_neq. intro E. apply string_eq_length in E.
  rewrite (length_stake k p Hk), (length_stake k' m) in E by lia. lia.
Qed.

Theorem strip_reply_plain (benv : BashSem.env) (p : string) (ms : list string) :
  breaks_ok (BashSem.e_wordbreaks benv) = true -> plain p = true ->
  (forall m, In m ms -> String.prefix p m = true) ->
  strip_reply benv p ms = Ok (map (Meaning.strip (BashSem.e_wordbreaks benv) p) ms).
Proof.
  intros Hwb Hp Hms. unfold strip_reply.
  pose proof (shortest_suffix_spec (BashSem.e_wordbreaks benv) p 0 Hwb (Nat.le_0_l _)) as Hs.
  cbn [Glob.sdrop] in Hs. change (Glob.sdrop 0 p) with p in Hs. rewrite Hs. cbn [obind Nat.max].
  set (K := max_pos (BashSem.e_wordbreaks benv) p).
  assert (HK : (K <= String.length p)%nat) by apply max_pos_le.
  assert (Estrip : forall m, Meaning.strip (BashSem.e_wordbreaks benv) p m = Glob.sdrop K m).
  { intro m. unfold Meaning.strip. rewrite last_break_max_pos, gsdrop_eq. reflexivity. }
  destruct (String.eqb (Glob.sdrop K p) p) eqn:E.
  - apply String.eqb_eq in E. apply (sdrop_full_eq K p HK) in E. cbn [obind].
    induction ms as [| m ms IH]; [reflexivity |]. cbn [omap map].
    assert (Er : rm_shortest_prefix EmptyString m = Some m).
    { unfold rm_shortest_prefix, with_pat. cbn. destruct m; reflexivity. }
    rewrite Er. cbn [obind]. rewrite IH by (intros m' Hm'; apply Hms; right; exact Hm'). cbn [obind].
    rewrite Estrip, E. reflexivity.
  - rewrite (rm_shortest_suffix_plain p K Hp HK). cbn [obind].
    induction ms as [| m ms IH]; [reflexivity |]. cbn [omap map].
    rewrite (rm_shortest_prefix_plain p K m Hp HK (Hms m (or_introl eq_refl))). cbn [obind].
    rewrite IH by (intros m' Hm'; apply Hms; right; exact Hm'). cbn [obind]. rewrite Estrip. reflexivity.
Qed.

(** bash's default COMP_WORDBREAKS: space, tab, newline, double quote, single quote, @ > < = ; | & ( : *)
Definition bash_default_wordbreaks : string :=
  String (ch 32) (String (ch 9) (String (ch 10) """'@><=;|&(:")).

Lemma default_wordbreaks_ok : breaks_ok bash_default_wordbreaks = true.
Proof. reflexivity. Qed.
