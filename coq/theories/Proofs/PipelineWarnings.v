(** C15, end to end: what main.rs prints as warnings for an accepted text ([Diag.warning_messages])
    is the rendering of the three sets of Spec/Warnings.v computed on the parsed grammar -- every
    name once, at a span where that name occurs -- and the automata do not depend on the
    definitions the "unused" warnings are about. *)
From CG Require Import Base.Prelude Proofs.ListFacts Model.Ast Model.Lexer Model.Parser Model.Check Model.Regex.
From CG Require Import Model.Dfa Model.Driver Model.Diag Spec.Printer Spec.Choice Spec.Mistakes Spec.Warnings.
From CG Require Import Proofs.GrammarRound Proofs.CheckProvenance Proofs.CheckWarnings Proofs.CheckUndefined.
From CG Require Import Proofs.CheckOrder Proofs.CheckSpans Proofs.PipelineSpans Proofs.PipelineLayout.
From CG Require Import Proofs.PipelineMistakes Proofs.SubTables Proofs.DriverFacts.
From Coq Require Import Permutation.

Lemma insert_span_perm x l : Permutation (insert_span x l) (x :: l).
Proof.
  induction l as [|y r IH]; cbn [insert_span]; [apply Permutation_refl|].
  destruct (span_leb x y); [apply Permutation_refl|].
  eapply Permutation_trans; [apply perm_skip; exact IH|apply perm_swap].
Qed.

Lemma sort_spans_perm l : Permutation (sort_spans l) l.
Proof.
  induction l as [|x r IH]; cbn; [constructor|].
  eapply Permutation_trans; [apply insert_span_perm|apply perm_skip; exact IH].
Qed.

Lemma wmsgs_spans label l : map m_span (wmsgs label l) = sort_spans l.
Proof. unfold wmsgs. rewrite map_map. cbn. apply map_id. Qed.

(** [renders label names located msgs]: [located] pairs every name of [names], once, with a span;
    [msgs] is one warning message with this label per pair, at its span.  Messages are sorted by
    span, hence the [Permutation]; a message carries no name ([m_what] is empty), so nothing says
    which message belongs to which name. *)
Definition renders (label : string) (names : list string) (located : list (string * span))
           (msgs : list message) : Prop :=
  NoDup (map fst located)
  /\ (forall y, In y (map fst located) <-> In y names)
  /\ Permutation (map m_span msgs) (map snd located)
  /\ Forall (fun m => m_warning m = true /\ m_label m = label /\ m_what m = "" /\ m_help m = None) msgs.

Lemma wmsgs_renders label names located :
  NoDup (map fst located) -> (forall y, In y (map fst located) <-> In y names) ->
  renders label names located (wmsgs label (map snd located)).
Proof.
  intros Hn Hs. repeat split; auto; try apply Hs.
  - rewrite wmsgs_spans. apply sort_spans_perm.
  - unfold wmsgs. apply Forall_forall. intros m Hm. apply in_map_iff in Hm. destruct Hm as [sp [<- _]]. auto.
Qed.

Section Warnings.
  Variable builtins : shell -> list (string * string).

  Definition reported_undefined (v : valid_grammar) : list (string * span) :=
    filter (fun p => negb (String.eqb (fst p) "_")) (v_undefined v).

  Theorem warning_messages_spec g sh v :
    from_grammar builtins g sh = Ok v ->
    exists mu mn ms,
      warning_messages v = mu ++ mn ++ ms
      /\ renders "Undefined" (undefined_reported builtins g sh) (reported_undefined v) mu
      /\ renders "Unused" (unused_plain g) (v_unused v) mn
      /\ renders "Unused specialization" (unused_for_shell g sh) (v_unused_specs v) ms
      /\ (forall n sp, In (n, sp) (reported_undefined v) -> In (n, sp) (grammar_refs g))
      /\ (forall n sp, In (n, sp) (v_unused v) -> exists rhs, In (NontermDef n sp None rhs) g)
      /\ (forall n sp, In (n, sp) (v_unused_specs v) ->
                       exists shn shsp rhs, In (NontermDef n sp (Some (shn, shsp)) rhs) g /\ is_shell shn sh = true).
  Proof.
    intro H.
    destruct (undefined_exact builtins g sh v H) as [Hu Hun].
    destruct (unused_plain_exact builtins g sh v H) as (Hp & Hpn & Hpp).
    destruct (unused_for_shell_exact builtins g sh v H) as (Hs & Hsn & Hsp).
    destruct (warnings_provenance builtins g sh v H) as (Hup & _ & _).
    exists (wmsgs "Undefined" (map snd (reported_undefined v))),
           (wmsgs "Unused" (map snd (v_unused v))),
           (wmsgs "Unused specialization" (map snd (v_unused_specs v))).
    split; [reflexivity|]. split; [|split; [|split; [|split; [|split]]]].
    - apply wmsgs_renders.
      + unfold reported_undefined. apply NoDup_map_filter. exact Hun.
      + intro y. unfold reported_undefined, undefined_reported. rewrite filter_In, in_map_iff. split.
        * intros [[n sp] [Hy Hin]]. cbn in Hy. subst n. apply filter_In in Hin. destruct Hin as [Hin Hne].
          cbn in Hne. split; [|exact Hne]. apply Hu. apply in_map_iff. exists (y, sp). auto.
        * intros [Hin Hne]. apply Hu in Hin. apply in_map_iff in Hin. destruct Hin as [[n sp] [Hy Hin]].
          cbn in Hy. subst n. exists (y, sp). split; [reflexivity|]. apply filter_In. auto.
    - apply wmsgs_renders; [exact Hpn|]. intro y. rewrite Hp. reflexivity.
    - apply wmsgs_renders; [exact Hsn|]. intro y. rewrite Hs. reflexivity.
    - intros n sp Hin. apply filter_In in Hin. apply Hup. tauto.
    - exact Hpp.
    - exact Hsp.
  Qed.

  Variable pick : nat -> list (list N) -> nat.
  Variable fuel : nat.

  Theorem unused_removed_same_cdfa text g sh v c :
    parse text = Ok g -> compile pick fuel builtins text sh = Ok (v, c) ->
    exists v', after_parse pick fuel builtins (remove_unused g) sh = Ok (v', c)
               /\ v_command v' = v_command v /\ v_expr v' = v_expr v.
  Proof.
    intros P H. apply compile_Ok in H. destruct H as (g0 & P0 & E & Ec).
    rewrite P in P0. injection P0 as <-. unfold after_parse.
    destruct (remove_unused_harmless builtins g sh v E) as (v' & Hv' & Hc & He).
    exists v'. rewrite Hv'. cbn [lift obind]. rewrite (compile_valid_expr pick fuel v' v He), Ec. cbn. auto.
  Qed.

  Lemma wf_remove_unused g : wf g -> wf (remove_unused g).
  Proof.
    unfold wf, remove_unused. intro H. rewrite forallb_forall in *. intros s Hs. apply filter_In in Hs.
    apply H. tauto.
  Qed.

  Theorem unused_removed_same_cdfa_text g l l' sh v c :
    wf g -> compile pick fuel builtins (text g l) sh = Ok (v, c) ->
    exists v', compile pick fuel builtins (text (remove_unused g) l') sh = Ok (v', c)
               /\ v_command v' = v_command v.
  Proof.
    intros W H. pose proof (text_bridge pick fuel builtins g l sh W) as B. rewrite H in B.
    unfold after_parse in B.
    destruct (from_grammar builtins g sh) as [v0| | |] eqn:E; cbn [lift obind layout_rel] in B; try contradiction.
    destruct (compile_valid pick fuel v0) as [c0| | |] eqn:Ec; cbn [obind layout_rel] in B; try contradiction.
    destruct B as (Hc & _ & <-).
    destruct (remove_unused_harmless builtins g sh v0 E) as (v' & Hv' & Hc' & He).
    destruct (checker_ok_lifts pick fuel builtins (remove_unused g) l' sh v' c (wf_remove_unused g W) Hv')
      as (v'' & Hv'' & Hc'' & _).
    { rewrite (compile_valid_expr pick fuel v' v0 He). exact Ec. }
    exists v''. split; [exact Hv''|]. congruence.
  Qed.
End Warnings.
