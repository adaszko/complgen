(** [den] (what an expression denotes) against the language of its translation [tr], and the two
    automaton instances ([re_nfa], [dfa_nfa]) against their languages. *)
From CG Require Import Base.Prelude Base.Facts Model.Ast Model.Dfa Spec.Lang Proofs.LangRe Proofs.LangNfa.
From CG Require Export Proofs.Limg.

Section DenInv.
  Variable A : Type.
  Variable leaf : expr -> list A -> Prop.
  Notation den := (den A leaf).

  Lemma den_leaf_iff : forall e w, is_leaf e = true -> (den e w <-> leaf e w).
  Proof.
    intros e w H. split.
    - intros D. inversion D; subst; simpl in H; try discriminate. assumption.
    - intros L. apply D_leaf; assumption.
  Qed.

  Lemma den_seq_nil : forall sp w, den (Sequence [] sp) w <-> w = [].
  Proof.
    intros sp w. split.
    - intros D. inversion D; subst; try reflexivity. simpl in *. discriminate.
    - intros ->. apply D_seq_nil.
  Qed.

  Lemma den_seq_cons : forall c cs sp w,
    den (Sequence (c :: cs) sp) w <-> exists u v, w = u ++ v /\ den c u /\ den (Sequence cs sp) v.
  Proof.
    intros c cs sp w. split.
    - intros D. inversion D; subst; [simpl in *; discriminate|]. eauto.
    - intros [u [v [-> [D1 D2]]]]. apply D_seq_cons; assumption.
  Qed.

  Lemma den_alt : forall cs sp w, den (Alternative cs sp) w <-> exists c, In c cs /\ den c w.
  Proof.
    intros cs sp w. split.
    - intros D. inversion D; subst; [simpl in *; discriminate|]. eauto.
    - intros [c [Hin D]]. eapply D_alt; eauto.
  Qed.

  Lemma den_fb : forall cs sp w, den (Fallback cs sp) w <-> exists c, In c cs /\ den c w.
  Proof.
    intros cs sp w. split.
    - intros D. inversion D; subst; [simpl in *; discriminate|]. eauto.
    - intros [c [Hin D]]. eapply D_fb; eauto.
  Qed.

  Lemma den_opt : forall c sp w, den (Optional c sp) w <-> w = [] \/ den c w.
  Proof.
    intros c sp w. split.
    - intros D. inversion D; subst; [simpl in *; discriminate| |]; auto.
    - intros [->|D]; [apply D_opt_none|apply D_opt_some; assumption].
  Qed.

  Lemma den_many : forall c sp w, den (Many1 c sp) w <-> plusP (den c) w.
  Proof.
    intros c sp w. split.
    - intros D. remember (Many1 c sp) as e eqn:E. induction D; try discriminate.
      + subst. simpl in *. discriminate.
      + inversion E; subst. apply PP_one. assumption.
      + inversion E; subst. apply PP_more; auto.
    - intros D. induction D.
      + apply D_many_one. assumption.
      + apply D_many_more; assumption.
  Qed.

  Lemma den_dd : forall c d sp w, den (DistDescr c d sp) w -> False.
  Proof. intros c d sp w D. inversion D; subst. simpl in *. discriminate. Qed.
End DenInv.

Section DenTr.
  Variables A B : Type.
  Variable leaf : expr -> list A -> Prop.
  Variable trl : expr -> option (re B).
  Variable rel : B -> A -> Prop.

  Definition img (r : re B) : list A -> Prop := limg rel (Lre r).

  Hypothesis leaf_ok : forall e r, is_leaf e = true -> trl e = Some r ->
    forall w, leaf e w <-> img r w.

  Lemma img_emp : forall w, img Emp w <-> False.
  Proof. apply limg_none. apply Lre_emp_inv. Qed.

  Lemma img_eps : forall w, img Eps w <-> w = [].
  Proof. apply limg_nil. apply Lre_eps_iff. Qed.

  Lemma img_sym : forall b w, img (Sym b) w <-> exists a, w = [a] /\ rel b a.
  Proof. intros b. apply limg_one. apply Lre_sym_iff. Qed.

  Lemma img_cat : forall r s w, img (Cat r s) w <-> exists u v, w = u ++ v /\ img r u /\ img s v.
  Proof. intros r s. apply limg_app. apply Lre_cat_iff. Qed.

  Lemma img_alt : forall r s w, img (Alt r s) w <-> img r w \/ img s w.
  Proof. intros r s. apply limg_or. apply Lre_alt_iff. Qed.

  Lemma img_plus : forall r w, img (Plus r) w <-> plusP (img r) w.
  Proof. intros r. apply limg_plus. apply Lre_plus_iff. Qed.

  Fixpoint tr_seq (l : list expr) : option (re B) :=
    match l with
    | [] => Some Eps
    | c :: r => match tr B trl c, tr_seq r with
                | Some x, Some y => Some (Cat x y)
                | _, _ => None
                end
    end.

  Fixpoint tr_alt (l : list expr) : option (re B) :=
    match l with
    | [] => Some Emp
    | c :: r => match tr B trl c, tr_alt r with
                | Some x, Some y => Some (Alt x y)
                | _, _ => None
                end
    end.

  Lemma tr_sequence : forall cs sp, tr B trl (Sequence cs sp) = tr_seq cs.
  Proof.
    intros cs sp. induction cs as [|c cs IH]; [reflexivity|].
    simpl. simpl in IH. rewrite IH. reflexivity.
  Qed.

  Lemma tr_alternative : forall cs sp, tr B trl (Alternative cs sp) = tr_alt cs.
  Proof.
    intros cs sp. induction cs as [|c cs IH]; [reflexivity|].
    simpl. simpl in IH. rewrite IH. reflexivity.
  Qed.

  Lemma tr_fallback : forall cs sp, tr B trl (Fallback cs sp) = tr_alt cs.
  Proof.
    intros cs sp. induction cs as [|c cs IH]; [reflexivity|].
    simpl. simpl in IH. rewrite IH. reflexivity.
  Qed.

  Notation den := (den A leaf).
  Notation good e := (forall r, tr B trl e = Some r -> forall w, den e w <-> img r w).

  Lemma seq_good : forall cs sp, Forall (fun e => good e) cs ->
    forall r, tr_seq cs = Some r -> forall w, den (Sequence cs sp) w <-> img r w.
  Proof.
    intros cs sp HF. induction HF as [|c cs Hc HF IH]; simpl; intros r E w.
    - inversion E; subst. rewrite den_seq_nil, img_eps. tauto.
    - destruct (tr B trl c) as [x|] eqn:Ex; [|discriminate].
      destruct (tr_seq cs) as [y|] eqn:Ey; [|discriminate]. inversion E; subst.
      rewrite den_seq_cons, img_cat. split; intros [u [v [-> [H1 H2]]]]; exists u, v;
        (split; [reflexivity|]); split.
      + apply (Hc x eq_refl). assumption.
      + apply (IH y eq_refl). assumption.
      + apply (Hc x eq_refl). assumption.
      + apply (IH y eq_refl). assumption.
  Qed.

  Lemma alt_good : forall cs, Forall (fun e => good e) cs ->
    forall r, tr_alt cs = Some r -> forall w, (exists c, In c cs /\ den c w) <-> img r w.
  Proof.
    intros cs HF. induction HF as [|c cs Hc HF IH]; simpl; intros r E w.
    - inversion E; subst. rewrite img_emp. split; [intros [c [[] _]]|tauto].
    - destruct (tr B trl c) as [x|] eqn:Ex; [|discriminate].
      destruct (tr_alt cs) as [y|] eqn:Ey; [|discriminate]. inversion E; subst.
      rewrite img_alt. split.
      + intros [c' [[->|Hin] D]].
        * left. apply (Hc x eq_refl). assumption.
        * right. apply (IH y eq_refl). eauto.
      + intros [H|H].
        * exists c. split; auto. apply (Hc x eq_refl). assumption.
        * apply (IH y eq_refl) in H. destruct H as [c' [Hin D]]. exists c'. auto.
  Qed.

  Theorem tr_den : forall e, good e.
  Proof.
    induction e using expr_ind'; intros r E w.
    - simpl in E. rewrite den_leaf_iff by reflexivity. apply leaf_ok; auto.
    - simpl in E. rewrite den_leaf_iff by reflexivity. apply leaf_ok; auto.
    - simpl in E. rewrite den_leaf_iff by reflexivity. apply leaf_ok; auto.
    - rewrite tr_sequence in E. apply seq_good; assumption.
    - rewrite tr_alternative in E. rewrite den_alt. apply alt_good; assumption.
    - simpl in E. destruct (tr B trl e) as [x|] eqn:Ex; [|discriminate]. inversion E; subst.
      rewrite den_opt, img_alt, img_eps. rewrite (IHe x eq_refl). tauto.
    - simpl in E. destruct (tr B trl e) as [x|] eqn:Ex; [|discriminate]. inversion E; subst.
      rewrite den_many, img_plus. apply plusP_iff. apply (IHe x eq_refl).
    - simpl in E. inversion E; subst. rewrite img_emp. split; [apply den_dd|tauto].
    - rewrite tr_fallback in E. rewrite den_fb. apply alt_good; assumption.
    - simpl in E. rewrite den_leaf_iff by reflexivity. apply leaf_ok; auto.
  Qed.
End DenTr.

Section ReNfa.
  Variable B : Type.
  Variable eqB : B -> B -> bool.
  Hypothesis eqB_spec : forall a b, eqB a b = true <-> a = b.

  Lemma re_nfa_acc : forall (r0 : re B) w (r : re B), nfa_acc (re_nfa eqB r0) r w <-> Lre r w.
  Proof.
    intros r0. induction w as [|b w IH]; intros r; simpl.
    - apply (nul_spec B).
    - rewrite (pd_spec B eqB eqB_spec). split; intros [s [Hin H]]; exists s; split; auto; apply IH; auto.
  Qed.

  Lemma re_nfa_lang : forall (r : re B) w, nfa_lang (re_nfa eqB r) w <-> Lre r w.
  Proof.
    intros r w. unfold nfa_lang. simpl. split.
    - intros [s [[<-|[]] H]]. apply (re_nfa_acc r). exact H.
    - intros H. exists r. split; [left; reflexivity|]. apply (re_nfa_acc r). exact H.
  Qed.

  Lemma re_nfa_eqb : forall (r : re B) s t, n_eqb (re_nfa eqB r) s t = true <-> s = t.
  Proof. intros r s t. simpl. apply (re_eqb_spec B eqB eqB_spec). Qed.
End ReNfa.

Section DfaNfa.
  Variable B : Type.
  Variable eqB : B -> B -> bool.
  Hypothesis eqB_spec : forall a b, eqB a b = true <-> a = b.
  Variable d : dfa.
  Variable labs : list (option B).

  Definition lab_accepts_from (s : N) (v : list B) : Prop :=
    exists ids, accepts_from d s ids = true /\
                Forall2 (fun i b => nthN labs i = Some (Some b)) ids v.

  Definition lab_accepts (v : list B) : Prop := lab_accepts_from (d_start d) v.

  Lemma ids_with_gen : forall (l : list (option B)) b i0 j,
    In j ((fix go (l : list (option B)) (i : N) : list N :=
             match l with
             | [] => []
             | Some c :: r => if eqB c b then i :: go r (N.succ i) else go r (N.succ i)
             | None :: r => go r (N.succ i)
             end) l i0)
    <-> exists k, nth_error l k = Some (Some b) /\ j = i0 + N.of_nat k.
  Proof.
    induction l as [|o l IH]; intros b i0 j.
    - simpl. split; [tauto|]. intros [k [H _]]. destruct k; discriminate.
    - assert (Hshift : (exists k, nth_error l k = Some (Some b) /\ j = N.succ i0 + N.of_nat k) <->
                       (exists k, nth_error (o :: l) (S k) = Some (Some b) /\ j = i0 + N.of_nat (S k))).
      { split; intros [k [H1 H2]]; exists k; split; auto; simpl in *; lia. }
      destruct o as [c|].
      + destruct (eqB c b) eqn:E.
        * simpl; try rewrite E; simpl. rewrite IH, Hshift. split.
          -- intros [H|[k [H1 H2]]].
             ++ exists O. simpl. apply eqB_spec in E. subst. split; [reflexivity|lia].
             ++ exists (S k). auto.
          -- intros [[|k] [H1 H2]].
             ++ left. simpl in H2. lia.
             ++ right. exists k. auto.
        * simpl; try rewrite E; simpl. rewrite IH, Hshift. split.
          -- intros [k [H1 H2]]. exists (S k). auto.
          -- intros [[|k] [H1 H2]].
             ++ simpl in H1. inversion H1; subst.
                assert (eqB b b = true) by (apply eqB_spec; reflexivity). congruence.
             ++ exists k. auto.
      + simpl. rewrite IH, Hshift. split.
        * intros [k [H1 H2]]. exists (S k). auto.
        * intros [[|k] [H1 H2]]; [discriminate|]. exists k. auto.
  Qed.

  Lemma ids_with_In : forall b i, In i (ids_with eqB labs b) <-> nthN labs i = Some (Some b).
  Proof.
    intros b i. unfold ids_with. rewrite ids_with_gen. unfold nthN. split.
    - intros [k [H1 H2]]. subst i. rewrite N.add_0_l, Nnat.Nat2N.id. exact H1.
    - intros H. exists (N.to_nat i). split; auto. rewrite N.add_0_l, Nnat.N2Nat.id. reflexivity.
  Qed.

  Lemma dfa_nfa_acc : forall w s, nfa_acc (dfa_nfa eqB d labs) s w <-> lab_accepts_from s w.
  Proof.
    induction w as [|b w IH]; intros s; simpl.
    - unfold lab_accepts_from. split.
      + intros H. exists []. split; [|constructor]. unfold accepts_from. simpl. exact H.
      + intros [ids [H F]]. inversion F; subst. unfold accepts_from in H. simpl in H. exact H.
    - split.
      + intros [t [Hin H]]. apply in_flat_map in Hin. destruct Hin as [i [Hi Ht]].
        apply ids_with_In in Hi. destruct (step d s i) as [t'|] eqn:Es; [|destruct Ht].
        destruct Ht as [<-|[]]. apply IH in H. destruct H as [ids [H F]].
        exists (i :: ids). split; [|constructor; assumption].
        unfold accepts_from in *. simpl. rewrite Es. exact H.
      + intros [ids [H F]]. inversion F as [|i b' ids' w' Hi F']; subst.
        unfold accepts_from in H. simpl in H. destruct (step d s i) as [t|] eqn:Es; [|discriminate].
        exists t. split.
        * apply in_flat_map. exists i. split; [apply ids_with_In; exact Hi|].
          rewrite Es. left. reflexivity.
        * apply IH. exists ids'. split; auto.
  Qed.

  Lemma dfa_nfa_lang : forall w, nfa_lang (dfa_nfa eqB d labs) w <-> lab_accepts w.
  Proof.
    intros w. unfold nfa_lang, lab_accepts. simpl. split.
    - intros [s [[<-|[]] H]]. apply dfa_nfa_acc. exact H.
    - intros H. exists (d_start d). split; [left; reflexivity|]. apply dfa_nfa_acc. exact H.
  Qed.

  Lemma dfa_nfa_eqb : forall s t, n_eqb (dfa_nfa eqB d labs) s t = true <-> s = t.
  Proof. intros s t. simpl. apply N.eqb_eq. Qed.

  Lemma lab_letters_In : forall i b, nthN labs i = Some (Some b) -> In b (lab_letters labs).
  Proof.
    intros i b H. unfold lab_letters. apply in_flat_map. exists (Some b). split; [|left; reflexivity].
    exact (nthN_In _ _ _ H).
  Qed.

  Lemma lab_accepts_letters : forall v, lab_accepts v -> Forall (fun b => In b (lab_letters labs)) v.
  Proof.
    intros v [ids [_ F]]. induction F; constructor; auto. eapply lab_letters_In; eauto.
  Qed.
End DfaNfa.
