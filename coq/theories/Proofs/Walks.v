(** What the proofs about the fuel-bounded depth-first walks share ([tail_only] and [check_subwords]
    of Model/Regex.v, [walk] of Model/Ambiguity.v): the kinds of failure an outcome can avoid (instances
    of [post], preserved by [obind]: [post_bind]), and the measure that bounds the depth of a walk over a
    visited list. *)
From CG Require Import Base.Prelude Base.Facts.

(** never [OutOfFuel]; never [Panic]; neither *)
Notation fueled := (post any any True False).
Notation np := (post any any False True).
Notation total := (post any any False False).

(** the measure of a walk: the entries of [l] (with multiplicity) that are not visited yet *)
Definition unvisited (l visited : list N) : nat :=
  List.length (filter (fun x => negb (memN x visited)) l).

Lemma unvisited_le_length l v : (unvisited l v <= List.length l)%nat.
Proof.
  unfold unvisited. induction l as [|e l IH]; cbn [filter List.length]; [lia|].
  destruct (negb (memN e v)); cbn [List.length]; lia.
Qed.

Lemma memN_incl k v v' : incl v v' -> memN k v = true -> memN k v' = true.
Proof. intros Hi Hm. apply memN_In, Hi, memN_In, Hm. Qed.

Lemma unvisited_antitone l v v' : incl v v' -> (unvisited l v' <= unvisited l v)%nat.
Proof.
  intros Hi. unfold unvisited. induction l as [|e l IH]; cbn [filter List.length]; [lia|].
  destruct (memN e v) eqn:Hm.
  - rewrite (memN_incl _ _ _ Hi Hm). exact IH.
  - cbn [negb]. destruct (negb (memN e v')); cbn [List.length]; lia.
Qed.

Lemma unvisited_mark l p v :
  memN p v = false -> In p l -> (unvisited l (p :: v) < unvisited l v)%nat.
Proof.
  intros Hm. induction l as [|k l IH]; intros Hin; [destruct Hin|].
  pose proof (unvisited_antitone l v (p :: v) (incl_tl p (incl_refl v))) as Hle.
  unfold unvisited in *. cbn [filter]. destruct Hin as [->|Hin].
  - rewrite Hm. replace (memN p (p :: v)) with true by (symmetry; apply memN_In; left; reflexivity).
    cbn [negb List.length]. lia.
  - specialize (IH Hin). destruct (memN k v) eqn:Hk.
    + rewrite (memN_incl k v (p :: v) (incl_tl p (incl_refl v)) Hk). exact IH.
    + cbn [negb]. destruct (negb (memN k (p :: v))); cbn [List.length]; lia.
Qed.
