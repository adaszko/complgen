(** The trees of layer (a) of C01 ([C01Layers.bash_meaning_literal]): every leaf is a literal
    ([lit_tree]).  Every point the specification reaches from such a tree expects literals only
    ([lit_state]), so no line is ambiguous ([ambiguous_run_lit]). *)
From CG Require Import Base.Prelude Model.Ast Spec.Rx Spec.Meaning.
From CG Require Import Proofs.RxFacts Proofs.MeaningFacts Proofs.MeaningLevels Proofs.TreeFacts Proofs.LangBridge.

Fixpoint lit_tree (e : expr) : bool :=
  match e with
  | Terminal _ _ _ _ => true
  | NontermRef _ _ _ | Command _ _ _ _ | DistDescr _ _ _ | Subword _ _ _ => false
  | Sequence cs _ | Alternative cs _ | Fallback cs _ => forallb lit_tree cs
  | Optional c _ | Many1 c _ => lit_tree c
  end.

Lemma lit_tree_toplevel e : lit_tree e = true -> toplevel_tree e = true.
Proof.
  induction e using expr_ind'; cbn [lit_tree toplevel_tree]; intro Ht; try discriminate; try reflexivity;
    try (apply IHe; assumption);
    (rewrite forallb_forall in *; rewrite Forall_forall in H; intros x Hx; apply H; [assumption | apply Ht; assumption]).
Qed.

Lemma lit_tree_leaves e : lit_tree e = true -> forall a, In a (leaves (tr e)) -> is_lit a = true.
Proof.
  apply (tr_leaves lit_tree (fun a => is_lit a = true)).
  intros e0 H. destruct e0; cbn in H |- *; try discriminate; try reflexivity; exact H.
Qed.

(** every item a state can ever expect is a literal *)
Definition lit_state (s : state) : Prop := forall k, In k s -> forall a, In a (leaves k) -> is_lit a = true.

Lemma lit_moves s a k : lit_state s -> In (a, k) (moves s) -> is_lit a = true /\ lit_state [k].
Proof.
  intros L Hin. apply moves_In in Hin. destruct Hin as [r [Hr Hlf]].
  destruct (lf_leaves r a k Hlf) as [Ha Hk]. split; [apply (L r Hr); assumption |].
  intros k' [<- | []] b Hb. apply (L r Hr). apply Hk. assumption.
Qed.

Lemma step_lit_state en s w : lit_state s -> lit_state (step en s w).
Proof.
  intros L k Hk. apply step_spec in Hk. destruct Hk as [a [Hin _]].
  destruct (lit_moves s a k L Hin) as [_ Lk]. apply Lk. left; reflexivity.
Qed.

Lemma filter_mid_lit en w (mv : list (leaf * rx leaf)) :
  (forall a k, In (a, k) mv -> is_lit a = true) -> filter (fun ak => mid_accepts en (fst ak) w) mv = [].
Proof.
  induction mv as [| [a k] mv IH]; intro H; [reflexivity |]. cbn [filter fst].
  assert (Ha : is_lit a = true) by (apply (H a k); left; reflexivity).
  destruct a; cbn in Ha; try discriminate. cbn [mid_accepts]. apply IH. intros a' k' Hin. apply (H a' k'). right; assumption.
Qed.

Lemma ambiguous_step_lit en s w : lit_state s -> ambiguous_step en s w = false.
Proof.
  intro L. unfold ambiguous_step. destruct (lit_next w (moves s)); [| reflexivity].
  rewrite filter_mid_lit; [reflexivity |]. intros a k Hin. apply (lit_moves s a k L Hin).
Qed.

Lemma ambiguous_run_lit en : forall ws s, lit_state s -> ambiguous_run en s ws = false.
Proof.
  induction ws as [| w ws IH]; intros s L; [reflexivity |]. cbn [ambiguous_run].
  rewrite (ambiguous_step_lit en s w L). cbn [orb]. apply IH. apply step_lit_state. assumption.
Qed.
