(** The positions the reference printer threads through a tree are the positions of the text:
    with the repaired lexer configuration, the position after printing [e] from [p] is
    [adv_str (txt lay ctx e) p], i.e. what nom_locate computes from the bytes. *)
From CG Require Import Base.Prelude Base.Facts Model.Ast Model.Lexer Model.Parser Spec.Printer
  Proofs.LexBase Proofs.ExprDefs.
From CGgen Require Import Consts.

Lemma pieces_adv_true : forall ps p, pieces_adv repaired ps p = adv_str (pieces_text ps) p.
Proof.
  induction ps as [|x ps IH]; intros; [reflexivity|]. cbn [pieces_adv pieces_text]. rewrite adv_str_app, IH.
  destruct x; reflexivity.
Qed.

Lemma paren_adv : forall g1 g2 B p,
    adv_str (paren_text g1 g2 B) p = paren_close g2 (adv_str B (paren_open g1 p)).
Proof.
  intros. unfold paren_text, paren_close, paren_open. cbn [adv_str]. rewrite !adv_str_app. reflexivity.
Qed.

Lemma wrap_adv : forall L j T p,
    adv_str (wrap_text L j T) p = wrap_close L j (adv_str T (wrap_open L j p)).
Proof.
  induction j as [|j IH]; intros; [reflexivity|]. cbn [wrap_text wrap_close wrap_open].
  rewrite paren_adv, IH. reflexivity.
Qed.

Definition PosOk (e : expr) : Prop :=
  forall lay ctx p, snd (loc repaired lay ctx e p) = adv_str (txt lay ctx e) p.

Lemma pos_list : forall (layk : nat -> layout) (cc : nat) (sep : nat -> string) xs,
    Forall PosOk xs ->
    forall k q,
      snd (loc_list (fun k x q => loc repaired (layk k) cc x q) (fun k q => adv_str (sep k) q) k xs q)
      = adv_str (txt_list (fun k x => txt (layk k) cc x) sep k xs) q.
Proof.
  induction 1 as [|x xs Hx Hxs IH]; intros k q; [reflexivity|]. cbn [loc_list txt_list].
  specialize (Hx (layk k) cc (match k with O => q | S _ => adv_str (sep k) q end)).
  destruct (loc repaired (layk k) cc x _) as [x' q1]. cbn [snd] in Hx.
  specialize (IH (S k) q1). destruct (loc_list _ _ (S k) xs q1) as [rs q2]. cbn [snd] in *.
  rewrite !adv_str_app. rewrite IH, Hx. destruct k; reflexivity.
Qed.

Lemma pos_sub : forall (layk : nat -> layout) xs,
    Forall PosOk xs ->
    forall k prev q,
      snd (loc_sub (fun k cx x q => loc repaired (layk k) cx x q) k prev xs q)
      = adv_str (txt_sub (fun k cx x => txt (layk k) cx x) k prev xs) q.
Proof.
  induction 1 as [|x xs Hx Hxs IH]; intros k prev q; [reflexivity|]. cbn [loc_sub txt_sub].
  specialize (Hx (layk k) (factor_ctx prev x) q).
  destruct (loc repaired (layk k) (factor_ctx prev x) x q) as [x' q1]. cbn [snd] in Hx.
  specialize (IH (S k) (factor_open (factor_ctx prev x) x) q1).
  destruct (loc_sub _ (S k) (factor_open (factor_ctx prev x) x) xs q1) as [rs q2]. cbn [snd] in *.
  rewrite adv_str_app. rewrite IH, Hx. reflexivity.
Qed.

Lemma pos_of_body : forall e,
    (forall lay ctx pb, snd (body_loc repaired lay ctx e pb) = adv_str (body_txt lay ctx e) pb) -> PosOk e.
Proof.
  intros e H lay ctx p. rewrite loc_eq, txt_eq. cbv zeta. rewrite wrap_adv.
  specialize (H lay ctx). destruct (Nat.ltb (prec e) ctx).
  - rewrite paren_adv. specialize (H (paren_open (nl_gap (lay []) 2) (wrap_open (lay []) (wraps (lay []) ctx) p))).
    destruct (body_loc repaired lay ctx e _) as [e' pe]. cbn [snd] in *. rewrite H. reflexivity.
  - specialize (H (wrap_open (lay []) (wraps (lay []) ctx) p)).
    destruct (body_loc repaired lay ctx e _) as [e' pe]. cbn [snd] in *. rewrite H. reflexivity.
Qed.

Theorem loc_end_true : forall e lay ctx p, snd (loc repaired lay ctx e p) = adv_str (txt lay ctx e) p.
Proof.
  intros e. change (PosOk e).
  induction e using expr_ind_op; apply pos_of_body; intros lay ctx pb.
  - cbn [body_loc body_txt]. destruct d; cbn [snd]; rewrite ?append_nil_r, ?adv_str_app, ?pieces_adv_true; reflexivity.
  - cbn [body_loc body_txt snd adv_str]. rewrite adv_str_app. reflexivity.
  - cbn [body_loc body_txt snd]. rewrite !adv_str_app. reflexivity.
  - rewrite body_loc_list, body_txt_list.
    pose proof (pos_list (fun k => sub lay k) (lv_op o) (sep_txt o (lay [])) cs H 0%nat pb) as X. cbv beta in X.
    destruct (loc_list _ _ 0 cs pb) as [cs' p1]. exact X.
  - cbn [body_loc body_txt]. specialize (IHe (sub lay 0) 0%nat (adv_str (gap_text (nl_gap (lay []) 0)) (adv_char LBRACK pb))).
    destruct (loc repaired (sub lay 0) 0 e _) as [ch' p2]. cbn [snd adv_str] in *. rewrite !adv_str_app. rewrite IHe.
    reflexivity.
  - cbn [body_loc body_txt]. specialize (IHe (sub lay 0) 6%nat pb).
    destruct (loc repaired (sub lay 0) 6 e pb) as [ch' p2]. cbn [snd] in *. rewrite !adv_str_app. rewrite IHe. reflexivity.
  - cbn [body_loc body_txt]. specialize (IHe (sub lay 0) (if open_end e then 7 else 4)%nat pb).
    destruct (loc repaired (sub lay 0) _ e pb) as [ch' p2]. cbn [snd] in *. rewrite !adv_str_app. rewrite IHe. reflexivity.
  - destruct e; cbn [body_loc body_txt].
    all: try (specialize (IHe (sub lay 0) 5%nat pb);
              match goal with |- context [loc repaired ?b 5 ?x ?d] => destruct (loc repaired b 5 x d) as [r' p1] end;
              exact IHe).
    pose proof (pos_sub (fun k => sub (sub lay 0) k) children H 0%nat false pb) as X. cbv beta in X.
    destruct (loc_sub _ 0 false children pb) as [cs' p1]. exact X.
Qed.
