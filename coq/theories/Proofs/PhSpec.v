(** The words of the validated tree against the words of the specification's expansion
    ([expand g sh (fuel_of g)], Spec/Mistakes.v): same skeletons (PhSkel.v), a [NontermRef] left in
    the tree being a placeholder of the specification ([words_agree]).  The expansion has to be
    complete (no reference with a plain definition left), which [fuel_of g] gives on a grammar
    whose dependencies are ranked ([complete_fuel]); [words_expr0] reads [placeholder_not_last]
    off the skeletons. *)
From CG Require Import Base.Prelude Base.Facts Proofs.ListFacts Model.Ast Model.Check Spec.Choice Spec.Mistakes.
From CG Require Import Proofs.CheckChoice Proofs.CheckMistakes Proofs.CheckLemmas Proofs.CheckWarnings.
From CG Require Import Proofs.CheckCycle Proofs.CheckTotal Proofs.CheckFront Proofs.CheckCycleSpec.
From CG Require Import Proofs.CheckSpans Proofs.CheckResolve Proofs.CheckOrder Proofs.CheckUndefined.
From CG Require Import Proofs.CheckSpacesSpec.
From CG Require Import Proofs.PhExpr Proofs.PhSkel.

Local Open Scope list_scope.

(** induction on the fuel of [expand]: the step at fuel [S K'] may use the claim at fuel [K'] for
    EVERY expression, because a reference is replaced by its definition, which is no subterm *)
Lemma fuel_ind (P : nat -> expr -> Prop) :
  (forall K, (forall K', K = S K' -> forall e, P K' e) -> forall e, P K e) -> forall K e, P K e.
Proof. intro H. induction K as [|K IH]; apply H; intros K' HK; [discriminate|]. injection HK as <-. exact IH. Qed.

Section Corr.
  Variable builtins : shell -> list (string * string).
  Variable g : grammar.
  Variable sh : shell.
  Variable us : list (string * user_spec).
  Variable fs : list (string * (string * span)).
  Variable plain : list string.
  Variable T : list (string * expr).

  Notation mt' := (mt builtins sh us fs plain).
  Notation mts' := (mts builtins sh us fs plain).
  Definition isP : expr -> bool := is_placeholder builtins g sh.

  Hypothesis mt_ref : forall d n l s rhs,
      plain_chosen g sh n = Some rhs -> mt' d (NontermRef n l s) = NontermRef n l s.
  Hypothesis T_eqn : forall n rhs,
      plain_chosen g sh n = Some rhs -> assoc n T = Some (resolve T (mt' None rhs)).
  Hypothesis ref_none : forall d n l s,
      plain_chosen g sh n = None ->
      (mt' d (NontermRef n l s) = NontermRef n l s /\ assoc n T = None /\ isP (NontermRef n l s) = true)
      \/ (exists c z, mt' d (NontermRef n l s) = Command c z l s /\ isP (NontermRef n l s) = false).

  Definition complete (K : nat) (e : expr) : Prop :=
    forall y, In y (all_refs (expand g sh K e)) -> plain_chosen g sh y = None.

  Definition P (K : nat) (e : expr) (d : option string) : Prop :=
    skw isref (resolve T (mt' d e)) = skw isP (expand g sh K e) /\
    wsk isref (resolve T (mt' d e)) = wsk isP (expand g sh K e).

  Lemma complete_child K (cs : list expr) (mk : list expr -> expr) :
    (forall l, all_refs (mk l) = flat_map all_refs l) ->
    expand g sh K (mk cs) = mk (map (expand g sh K) cs) ->
    complete K (mk cs) -> forall c, In c cs -> complete K c.
  Proof.
    intros Hr He Hc c Hin y Hy. apply Hc. rewrite He, Hr. apply in_flat_map.
    exists (expand g sh K c). split; [apply in_map; exact Hin|exact Hy].
  Qed.

  Lemma corr_seq K cs :
    Forall (fun c => forall d, complete K c -> P K c d) cs -> (forall c, In c cs -> complete K c) ->
    forall d,
      map (skw isref) (map (resolve T) (mts' d cs)) = map (skw isP) (map (expand g sh K) cs) /\
      map (skw isref) (flat_map words_of (map (resolve T) (mts' d cs)))
      = map (skw isP) (flat_map words_of (map (expand g sh K) cs)).
  Proof.
    induction 1 as [|c r Hc _ IH]; intros Hall d; [split; reflexivity|].
    rewrite mts_cons. cbn [map flat_map]. rewrite !map_app.
    destruct (Hc d (Hall c (or_introl eq_refl))) as [A B].
    destruct (IH (fun x Hx => Hall x (or_intror Hx)) (snd (distribute c d))) as [A' B'].
    unfold wsk in B. rewrite A, A', B, B'. split; reflexivity.
  Qed.

  Lemma corr_alt K cs d :
    Forall (fun c => forall d, complete K c -> P K c d) cs -> (forall c, In c cs -> complete K c) ->
      map (skw isref) (map (resolve T) (map (mt' d) cs)) = map (skw isP) (map (expand g sh K) cs) /\
      map (skw isref) (flat_map words_of (map (resolve T) (map (mt' d) cs)))
      = map (skw isP) (flat_map words_of (map (expand g sh K) cs)).
  Proof.
    induction 1 as [|c r Hc _ IH]; intros Hall; [split; reflexivity|].
    cbn [map flat_map]. rewrite !map_app.
    destruct (Hc d (Hall c (or_introl eq_refl))) as [A B].
    destruct (IH (fun x Hx => Hall x (or_intror Hx))) as [A' B'].
    unfold wsk in B. rewrite A, A', B, B'. split; reflexivity.
  Qed.

  Lemma corr_gen K
        (IHk : forall K', K = S K' -> forall e d, complete K' e -> P K' e d) :
    forall e d, complete K e -> P K e d.
  Proof.
    induction e using expr_ind'; intros d0 Hc.
    - destruct (mt_term builtins sh us fs plain d0 t d l sp) as [d' Hd]. unfold P. rewrite Hd.
      rewrite expand_leaf by exact I. split; reflexivity.
    - assert (Hnone : plain_chosen g sh n = None -> expand g sh K (NontermRef n l sp) = NontermRef n l sp ->
                      P K (NontermRef n l sp) d0).
      { intros Hn He. unfold P. rewrite He.
        destruct (ref_none d0 n l sp Hn) as [(Hm & Ha & Hp)|(c & z & Hm & Hp)]; rewrite Hm.
        - cbn [resolve]. rewrite Ha. unfold wsk. cbn [skw words_of map isref]. rewrite Hp. split; reflexivity.
        - cbn [resolve]. unfold wsk. cbn [skw words_of map]. rewrite Hp. split; reflexivity. }
      destruct K as [|K'].
      + apply Hnone; [|reflexivity]. apply Hc. rewrite expand_ref. left. reflexivity.
      + destruct (plain_chosen g sh n) as [rhs|] eqn:E.
        * unfold P. rewrite expand_ref, E, (mt_ref d0 n l sp rhs E). cbn [resolve]. rewrite (T_eqn n rhs E).
          apply (IHk K' eq_refl rhs None). intros y Hy. apply Hc. rewrite expand_ref, E. exact Hy.
        * apply Hnone; [reflexivity|]. rewrite expand_ref, E. reflexivity.
    - unfold P. rewrite expand_leaf by exact I. split; reflexivity.
    - unfold P. rewrite mt_seq, expand_seq. unfold wsk. cbn [resolve skw words_of].
      destruct (corr_seq K cs H
                  (complete_child K cs (fun l => Sequence l sp) (fun l => eq_refl) (expand_seq g sh K cs sp) Hc) d0)
        as [A B].
      rewrite A, B. split; reflexivity.
    - unfold P. rewrite mt_alt, expand_alt. unfold wsk. cbn [resolve skw words_of].
      destruct (corr_alt K cs d0 H
                  (complete_child K cs (fun l => Alternative l sp) (fun l => eq_refl) (expand_alt g sh K cs sp) Hc))
        as [A B].
      rewrite A, B. split; reflexivity.
    - unfold P. rewrite mt_opt, expand_opt. unfold wsk. cbn [resolve skw words_of].
      assert (Hce : complete K e) by (intros y Hy; apply Hc; rewrite expand_opt; exact Hy).
      destruct (IHe d0 Hce) as [A B]. unfold wsk in B. rewrite A, B. split; reflexivity.
    - unfold P. rewrite mt_many, expand_many. unfold wsk. cbn [resolve skw words_of].
      assert (Hce : complete K e) by (intros y Hy; apply Hc; rewrite expand_many; exact Hy).
      destruct (IHe d0 Hce) as [A B]. unfold wsk in B. rewrite A, B. split; reflexivity.
    - unfold P. rewrite mt_dd, expand_dd. unfold wsk. cbn [skw words_of].
      assert (Hce : complete K e) by (intros y Hy; apply Hc; rewrite expand_dd; exact Hy).
      exact (IHe (Some d) Hce).
    - unfold P. rewrite mt_fb, expand_fb. unfold wsk. cbn [resolve skw words_of].
      destruct (corr_seq K cs H
                  (complete_child K cs (fun l => Fallback l sp) (fun l => eq_refl) (expand_fb g sh K cs sp) Hc) d0)
        as [A B].
      rewrite A, B. split; reflexivity.
    - unfold P. rewrite mt_sub, expand_sub. unfold wsk. cbn [resolve skw words_of map].
      assert (Hce : complete K e) by (intros y Hy; apply Hc; rewrite expand_sub; exact Hy).
      destruct (IHe d0 Hce) as [A _]. rewrite A. split; reflexivity.
  Qed.

  Theorem corr : forall K e d, complete K e -> P K e d.
  Proof. apply (fuel_ind (fun K e => forall d, complete K e -> P K e d)). exact corr_gen. Qed.
End Corr.

Section Fuel.
  Variable g : grammar.
  Variable sh : shell.

  Lemma rpath_incl c e l y :
    (forall x, In x (all_refs c) -> In x (all_refs e)) -> rpath g sh c l y -> rpath g sh e l y.
  Proof.
    intros Hi H. inversion H; subst.
    - apply rp_here. apply Hi. assumption.
    - eapply rp_step; [apply Hi; eassumption|eassumption|assumption].
  Qed.

  Definition Q (K : nat) (e : expr) : Prop :=
    forall y, In y (all_refs (expand g sh K e)) ->
              plain_chosen g sh y = None \/ exists l, List.length l = K /\ rpath g sh e l y.

  Lemma Q_children K cs (mk : list expr -> expr) :
    (forall l, all_refs (mk l) = flat_map all_refs l) ->
    expand g sh K (mk cs) = mk (map (expand g sh K) cs) ->
    Forall (Q K) cs -> Q K (mk cs).
  Proof.
    intros Hr He HF y Hy. rewrite He, Hr in Hy. apply in_flat_map in Hy. destruct Hy as [x [Hx Hy]].
    apply in_map_iff in Hx. destruct Hx as [c [<- Hc]]. rewrite Forall_forall in HF.
    destruct (HF c Hc y Hy) as [Hn|[l [Hl Hp]]]; [left; exact Hn|right]. exists l. split; [exact Hl|].
    eapply rpath_incl; [|exact Hp]. intros x Hx. rewrite Hr. apply in_flat_map. exists c. split; assumption.
  Qed.

  Lemma Q_same K c e :
    (forall x, In x (all_refs c) -> In x (all_refs e)) -> Q K c ->
    forall y, In y (all_refs (expand g sh K c)) ->
              plain_chosen g sh y = None \/ exists l, List.length l = K /\ rpath g sh e l y.
  Proof.
    intros Hi Hq y Hy. destruct (Hq y Hy) as [Hn|[l [Hl Hp]]]; [left; exact Hn|right].
    exists l. split; [exact Hl|]. eapply rpath_incl; eassumption.
  Qed.

  Lemma expand_refs_gen K (IHk : forall K', K = S K' -> forall e, Q K' e) : forall e, Q K e.
  Proof.
    induction e using expr_ind'.
    - intros y Hy. rewrite expand_leaf in Hy by exact I. destruct Hy.
    - intros y Hy. rewrite expand_ref in Hy. destruct K as [|K'].
      + right. exists []. split; [reflexivity|apply rp_here; exact Hy].
      + destruct (plain_chosen g sh n) as [rhs|] eqn:E.
        * destruct (IHk K' eq_refl rhs y Hy) as [Hn|[l0 [Hl Hp]]]; [left; exact Hn|right].
          exists (n :: l0). split; [cbn; rewrite Hl; reflexivity|].
          eapply rp_step; [left; reflexivity|exact E|exact Hp].
        * destruct Hy as [Hy|[]]. subst y. left. exact E.
    - intros y Hy. rewrite expand_leaf in Hy by exact I. destruct Hy.
    - apply (Q_children K cs (fun l => Sequence l sp)); [reflexivity|apply expand_seq|exact H].
    - apply (Q_children K cs (fun l => Alternative l sp)); [reflexivity|apply expand_alt|exact H].
    - intros y Hy. rewrite expand_opt in Hy. apply (Q_same K e (Optional e sp) (fun x Hx => Hx) IHe y Hy).
    - intros y Hy. rewrite expand_many in Hy. apply (Q_same K e (Many1 e sp) (fun x Hx => Hx) IHe y Hy).
    - intros y Hy. rewrite expand_dd in Hy. apply (Q_same K e (DistDescr e d sp) (fun x Hx => Hx) IHe y Hy).
    - apply (Q_children K cs (fun l => Fallback l sp)); [reflexivity|apply expand_fb|exact H].
    - intros y Hy. rewrite expand_sub in Hy. apply (Q_same K e (Subword e l sp) (fun x Hx => Hx) IHe y Hy).
  Qed.

  Lemma expand_refs : forall K e, Q K e.
  Proof. exact (fuel_ind Q expand_refs_gen). Qed.

  Variable rank : string -> nat.
  Hypothesis Hrank : forall a b, depends g sh a b = true -> (rank b < rank a)%nat.

  Theorem complete_fuel e : complete g sh (fuel_of g) e.
  Proof.
    intros y Hy. destruct (expand_refs (fuel_of g) e y Hy) as [Hn|[l [Hl Hp]]]; [exact Hn|].
    exfalso. pose proof (rpath_short g sh rank Hrank e l y Hp) as Hs. unfold fuel_of in Hl. lia.
  Qed.

  Hypothesis Hops : forall n rhs, plain_chosen g sh n = Some rhs -> ops_nonempty rhs = true.

  Lemma expand_ops_gen K (IHk : forall K', K = S K' -> forall e, ops_nonempty e = true -> ops_nonempty (expand g sh K' e) = true) :
    forall e, ops_nonempty e = true -> ops_nonempty (expand g sh K e) = true.
  Proof.
    assert (Hl : forall cs, Forall (fun e => ops_nonempty e = true -> ops_nonempty (expand g sh K e) = true) cs ->
                  match cs with [] => false | _ => forallb ops_nonempty cs end = true ->
                  match map (expand g sh K) cs with [] => false | _ => forallb ops_nonempty (map (expand g sh K) cs) end = true).
    { intros cs HF H. destruct cs as [|c r]; [discriminate|]. cbn [map].
      change (expand g sh K c :: map (expand g sh K) r) with (map (expand g sh K) (c :: r)).
      rewrite forallb_map. rewrite forallb_forall in *. rewrite Forall_forall in HF. intros x Hx.
      apply HF; [exact Hx|apply H; exact Hx]. }
    induction e using expr_ind'; intro Ho.
    - rewrite expand_leaf by exact I. exact Ho.
    - rewrite expand_ref. destruct K as [|K']; [reflexivity|].
      destruct (plain_chosen g sh n) as [rhs|] eqn:E; [|reflexivity].
      apply (IHk K' eq_refl). eapply Hops. exact E.
    - rewrite expand_leaf by exact I. exact Ho.
    - rewrite expand_seq. cbn [ops_nonempty] in *. apply Hl; assumption.
    - rewrite expand_alt. cbn [ops_nonempty] in *. apply Hl; assumption.
    - rewrite expand_opt. cbn [ops_nonempty] in *. apply IHe. exact Ho.
    - rewrite expand_many. cbn [ops_nonempty] in *. apply IHe. exact Ho.
    - rewrite expand_dd. cbn [ops_nonempty] in *. apply IHe. exact Ho.
    - rewrite expand_fb. cbn [ops_nonempty] in *. apply Hl; assumption.
    - rewrite expand_sub. cbn [ops_nonempty] in *. apply IHe. exact Ho.
  Qed.

  Lemma expand_ops : forall K e, ops_nonempty e = true -> ops_nonempty (expand g sh K e) = true.
  Proof. exact (fuel_ind (fun K e => ops_nonempty e = true -> ops_nonempty (expand g sh K e) = true) expand_ops_gen). Qed.
End Fuel.

Lemma words_ops e : ops_nonempty e = true -> forall w, In w (words_of e) -> ops_nonempty w = true.
Proof.
  assert (Hl : forall cs, Forall (fun e => ops_nonempty e = true -> forall w, In w (words_of e) -> ops_nonempty w = true) cs ->
                match cs with [] => false | _ => forallb ops_nonempty cs end = true ->
                forall w, In w (flat_map words_of cs) -> ops_nonempty w = true).
  { intros cs HF H w Hw. apply in_flat_map in Hw. destruct Hw as [c [Hc Hw]]. rewrite Forall_forall in HF.
    apply (HF c Hc); [|exact Hw]. destruct cs; [destruct Hc|]. rewrite forallb_forall in H. apply H. exact Hc. }
  induction e using expr_ind'; cbn [ops_nonempty words_of]; intros Ho w Hw; try (destruct Hw; fail);
    try (eapply Hl; eassumption); try (eapply IHe; eassumption).
  destruct Hw as [<-|[]]. exact Ho.
Qed.

Definition grammar_ops_nonempty (g : grammar) : bool :=
  forallb (fun s => match s with
                    | CallVariant _ _ e => ops_nonempty e
                    | NontermDef _ _ _ rhs => ops_nonempty rhs
                    end) g.

Section Accepted.
  Variable builtins : shell -> list (string * string).
  Variable g : grammar.
  Variable sh : shell.
  Variable defs0 : list defn.
  Variable us : list (string * user_spec).
  Variable fs : list (string * (string * span)).
  Hypothesis Hcollect : collect_plain_defs (all_defs g) [] = Ok defs0.
  Hypothesis Hspecs : get_specializations g sh = Ok (us, fs).
  Variable ord : list string.

  Let defs1 := defs1_of defs0.
  Let spec := spec_of builtins sh us fs defs1.
  Let defs2 := defs2_of spec defs1.
  Let t0 := table0_of defs2.
  Hypothesis Hord : resolution_order defs2 = Ok ord.
  Let T := resolve_in_order ord t0.
  Let plain := map d_name defs1.
  Let K := fuel_of g.

  Lemma a_ref_none d n l s :
    plain_chosen g sh n = None ->
    (mt builtins sh us fs plain d (NontermRef n l s) = NontermRef n l s /\ assoc n T = None
     /\ isP builtins g sh (NontermRef n l s) = true)
    \/ (exists c z, mt builtins sh us fs plain d (NontermRef n l s) = Command c z l s
                    /\ isP builtins g sh (NontermRef n l s) = false).
  Proof.
    intro H. unfold mt. cbn [distribute fst specialize]. unfold plain, defs1.
    rewrite (specialize_ref_choose builtins g sh defs0 us fs Hcollect Hspecs). unfold choose_ref.
    unfold isP, is_placeholder, Choice.spec. unfold plain_chosen in H.
    destruct (shell_definition g sh n) as [rhs|] eqn:Es.
    - assert (Hcmd : is_command rhs = true).
      { apply shell_definition_some_in in Es. destruct Es as (nsp & shn & shsp & Hin & _).
        pose proof Hspecs as Hs. unfold get_specializations in Hs.
        destruct (get_user_specs sh (all_defs g) []) as [us'| | |] eqn:Hus; cbn in Hs; try discriminate.
        eapply get_user_specs_commands; [exact Hus|]. apply in_all_defs. exact Hin. }
      destruct rhs; try discriminate. right. eauto.
    - rewrite H. destruct (assoc n (builtins sh)) as [c|] eqn:Eb; [right; eauto|].
      left. split; [reflexivity|]. split; [|reflexivity].
      apply assoc_None. unfold T. rewrite resolve_in_order_keys.
      unfold t0, defs2, spec, defs1. rewrite (t0_names builtins g sh defs0 us fs Hcollect).
      rewrite plain_names_pd. intro Hx. apply Hx. exact H.
  Qed.

  Lemma a_rank : exists rank : string -> nat, forall a b, depends g sh a b = true -> (rank b < rank a)%nat.
  Proof.
    pose proof Hord as Ho. apply resolution_order_ok in Ho. destruct Ho as ([rank Hr] & _ & _).
    exists rank. intros a b Hd. apply Hr.
    apply (model_graph_depends builtins g sh defs0 us fs Hcollect Hspecs). exact Hd.
  Qed.

  Theorem words_agree e d :
    wsk isref (propagate (collapse (resolve T (mt builtins sh us fs plain d e))) 0)
    = wsk (isP builtins g sh) (expand g sh K e).
  Proof.
    rewrite wsk_final. destruct a_rank as [rank Hrank].
    apply (corr builtins g sh us fs plain T
                (c_mt_ref builtins g sh defs0 us fs Hcollect Hspecs)
                (c_T_eqn builtins g sh defs0 us fs Hcollect ord Hord)
                a_ref_none K e d).
    apply (complete_fuel g sh rank Hrank).
  Qed.

  Lemma words_expr0 :
    existsb (fun s => negb (s_phl s)) (wsk (isP builtins g sh) (expand g sh K (expr0_of g)))
    = placeholder_not_last builtins g sh.
  Proof.
    unfold placeholder_not_last. fold K. rewrite call_exprs_variants. unfold expr0_of, wsk.
    assert (Hw : forall e, existsb (fun s => negb (s_phl s)) (map (skw (isP builtins g sh)) (words_of (expand g sh K e)))
                           = existsb (fun w => negb (ph_last (is_placeholder builtins g sh) w)) (words_of (expand g sh K e))).
    { intro e. rewrite existsb_map. apply existsb_ext_Forall. apply Forall_forall. intros w _.
      rewrite ph_last_sk. reflexivity. }
    assert (Halt : forall es sp,
               existsb (fun s => negb (s_phl s))
                       (map (skw (isP builtins g sh)) (words_of (expand g sh K (Alternative es sp))))
               = existsb (fun e => existsb (fun w => negb (ph_last (is_placeholder builtins g sh) w))
                                           (words_of (expand g sh K e))) es).
    { intros es sp. rewrite Hw, expand_alt. cbn [words_of]. rewrite existsb_flat_map.
      rewrite existsb_map. reflexivity. }
    destruct (map snd (call_variants g)) as [|e [|e2 r]].
    - apply Halt.
    - rewrite Hw. cbn [existsb]. rewrite orb_false_r. reflexivity.
    - apply Halt.
  Qed.
End Accepted.
