(** C16 on what the pipeline produces, --dfa side: every automaton [Driver.compile_valid] returns
    satisfies the hypotheses of [C16_dfa_dot] ([Dot.wf_cdfa], [Dot.starts_at_zero]).  From the facts of
    the C01 files about compiled automata ([CompiledFacts.compiled_facts], [SubCompiled.sub_facts],
    [SubCompiled.minimize_start0]). *)
From CG Require Import Base.Prelude Model.Ast Model.Dfa Model.Check Model.Regex Model.Subset Model.Minimize
     Model.Ambiguity Model.Driver Spec.Lang Spec.DfaEquiv Spec.MinimizeSpec.
From CG Require Import Proofs.TablesSound Proofs.SubsetConstr Proofs.TreeFacts Proofs.C02Total Proofs.WfTrim
     Proofs.MinimizeCorrect Proofs.MinimizeBasics Proofs.AmbTotal Proofs.DriverFacts Proofs.DriverCorrect Proofs.MinimizePostGen
     Proofs.CompiledFacts Proofs.SubCompiled.
From CG Require Model.Tables Model.Dot.

(** the minimiser lists the accepting states as a bitmap, hence without repetition
    ([Dot.nodupb] in [Dot.wf_dfa]) *)
Lemma minimize_acc_sorted d m : minimize d = Ok m -> sortedN (d_accepting m).
Proof.
  intro H. unfold minimize in H. destruct (do_minimize_inv d _ m H) as [h [reps [_ [_ [_ [_ Hrest]]]]]].
  cbn zeta in Hrest. destruct Hrest as [s' [ts' [accn [Hren ->]]]]. cbn [d_accepting].
  destruct (renumber_states_ok _ _ _ _ _ _ Hren) as [_ [_ [-> _]]]. apply bm_from_iter_sorted.
Qed.

Lemma nodupb_of_NoDup l : NoDup l -> Dot.nodupb l = true.
Proof.
  induction 1 as [|x r Hx Hr IH]; [reflexivity|]. cbn [Dot.nodupb]. rewrite IH, andb_true_r.
  apply negb_true_iff. destruct (memN x r) eqn:E; [|reflexivity]. exfalso. apply Hx.
  unfold memN in E. apply existsb_exists in E as [y [Hy Ey]]. apply N.eqb_eq in Ey. now subst.
Qed.

Lemma dot_iter_transitions d : Dot.iter_transitions d = Tables.iter_transitions d.
Proof. reflexivity. Qed.

Lemma wf_inputs_in_range d : dfa_wf d -> Dot.inputs_in_range d = true.
Proof.
  intros [K1 K2]. unfold Dot.inputs_in_range. apply forallb_forall. intros [[s i] t] Hin.
  rewrite dot_iter_transitions in Hin. apply iter_transitions_in in Hin as [tos [H1 H2]].
  destruct (proj2 (K2 s tos H1) i t H2) as [x Hx]. cbn [fst snd]. now rewrite Hx.
Qed.

Lemma plain_no_sub_trans sd :
  (forall x, In x (d_inputs sd) -> exists a, wlab x = Some a) -> Dot.no_sub_trans sd = true.
Proof.
  intro Hp. unfold Dot.no_sub_trans. apply forallb_forall. intros t _.
  destruct (nthN (d_inputs sd) (snd (fst t))) as [x|] eqn:E; [|reflexivity].
  unfold nthN in E. apply nth_error_In in E. destruct (Hp x E) as [a Ha].
  destruct x; try reflexivity. discriminate Ha.
Qed.

Theorem compile_valid_dot_wf pick fuel v c :
  alts_nonempty (v_expr v) = true ->
  compile_valid pick fuel v = Ok c ->
  Dot.wf_cdfa c = true /\ Dot.starts_at_zero c = true.
Proof.
  intros Ha H.
  destruct (compiled_facts pick fuel v c Ha H) as [_ [Hwf [_ _]]].
  destruct (proj1 (compile_valid_Ok _ _ _ _) H) as (_ & _ & _ & raw & _ & _ & _ & _ & Em & _).
  (* what is known of a within-word automaton a transition names *)
  assert (Hsub : forall (t : N * N * N) k l, nthN (d_inputs (c_main c)) (snd (fst t)) = Some (ISub k l) ->
            exists sd, nthN (c_subs c) k = Some sd /\ Dot.wf_dfa sd = true /\ Dot.no_sub_trans sd = true
                       /\ d_start sd = 0).
  { intros t k l E. assert (Hin : In (ISub k l) (d_inputs (c_main c))) by (unfold nthN in E; exact (nth_error_In _ _ E)).
    destruct (sub_facts pick fuel v c k l Ha H Hin) as [sd [Hn Hok]].
    destruct (so_min _ Hok) as [raw' Hmin].
    exists sd. split; [exact Hn|]. split; [|split; [apply plain_no_sub_trans, (so_plain _ Hok)|apply (so_start _ Hok)]].
    unfold Dot.wf_dfa. rewrite (wf_inputs_in_range sd (so_wf _ Hok)). cbn [andb].
    apply nodupb_of_NoDup, sortedN_NoDup, (minimize_acc_sorted raw' sd Hmin). }
  split.
  - unfold Dot.wf_cdfa. apply andb_true_iff. split.
    + unfold Dot.wf_dfa. rewrite (wf_inputs_in_range _ Hwf). cbn [andb].
      apply nodupb_of_NoDup, sortedN_NoDup, (minimize_acc_sorted raw _ Em).
    + apply forallb_forall. intros t _.
      destruct (nthN (d_inputs (c_main c)) (snd (fst t))) as [[| k l | | |]|] eqn:E; try reflexivity.
      destruct (Hsub t k l E) as [sd [Hn [A [B _]]]]. rewrite Hn. now rewrite A, B.
  - unfold Dot.starts_at_zero. apply andb_true_iff. split.
    + apply N.eqb_eq. exact (minimize_start0 raw _ Em).
    + apply forallb_forall. intros sd Hsd. unfold Dot.used_subs in Hsd. apply in_flat_map in Hsd as [t [_ Hsd]].
      destruct (nthN (d_inputs (c_main c)) (snd (fst t))) as [[| k l | | |]|] eqn:E; try destruct Hsd.
      destruct (Hsub t k l E) as [sd' [Hn [_ [_ Hs]]]]. rewrite Hn in Hsd. destruct Hsd as [<-|[]].
      now apply N.eqb_eq.
Qed.
