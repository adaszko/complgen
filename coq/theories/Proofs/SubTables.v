(** What the bash tables say about within-word automata ([a_subtrans], [a_subwords],
    [a_subaccepting] of [Tables.all_tables Bash]) in the form the walk of the script uses them:
    the row of a state lists exactly its within-word transitions, pool indices translate to script
    ids one to one, every script id has the tables and the accepting states of its automaton. *)
From CG Require Import Base.Prelude Proofs.ListFacts Model.Ast Model.Dfa Model.Tables Model.Glob Model.BashSem.
From Coq Require Import FinFun.
From CG Require Import Proofs.TablesSound Proofs.TablesKeys Proofs.MinimizePostGen.

Lemma Forall2_maps {A B C} (R : A -> B -> Prop) (g : B -> C) (h : A -> C) l l' :
  Forall2 R l l' -> (forall x y, R x y -> g y = h x) -> map g l' = map h l.
Proof. intros H Hxy. induction H as [| x y l l' Hr _ IH]; [reflexivity |]. cbn [map]. rewrite IH, (Hxy x y Hr). reflexivity. Qed.

Lemma get_subwords_covers rt first f pi l t :
  In (f, ISub pi l, t) rt -> In pi (map fst (get_subwords rt first)).
Proof.
  unfold get_subwords.
  set (F := fun (acc : list (N * N)) (fxt : N * inp * N) =>
              match fxt with
              | (_, ISub s _, _) => if existsb (fun p => N.eqb (fst p) s) acc then acc else acc ++ [(s, first + lenN acc)]
              | _ => acc
              end).
  assert (Mono : forall rt acc q, In q (map fst acc) -> In q (map fst (fold_left F rt acc))).
  { induction rt0 as [| [[f0 x0] t0] rt0 IH]; intros acc q Hq; [exact Hq |]. cbn [fold_left]. apply IH.
    destruct x0; cbn; try exact Hq. destruct (existsb _ acc); [exact Hq |]. rewrite map_app. apply in_or_app. left; exact Hq. }
  assert (G : forall rt acc, In (f, ISub pi l, t) rt -> In pi (map fst (fold_left F rt acc))).
  { induction rt0 as [| y rt0 IH]; intros acc Hin; [destruct Hin |]. cbn [fold_left].
    destruct Hin as [-> | Hin]; [| apply IH; exact Hin]. apply Mono. cbn.
    destruct (existsb (fun p => N.eqb (fst p) pi) acc) eqn:E.
    - apply existsb_exists in E. destruct E as [[p q] [Hp E]]. cbn in E. apply N.eqb_eq in E. subst p.
      apply in_map_iff. exists (pi, q). split; [reflexivity | exact Hp].
    - rewrite map_app. apply in_or_app. right. left. reflexivity. }
  apply G.
Qed.

Lemma script_id_in (subs : list (N * N * tables)) pi id T :
  NoDup (map (fun e => fst (fst e)) subs) -> In (pi, id, T) subs -> script_id subs pi = Some id.
Proof.
  induction subs as [| [[p i] T0] r IH]; intros ND Hin; [destruct Hin |]. cbn [script_id].
  cbn [map fst] in ND. inversion ND as [| y ys Hnot Hnd]; subst.
  destruct Hin as [E | Hin].
  - inversion E; subst. rewrite N.eqb_refl. reflexivity.
  - destruct (N.eqb p pi) eqn:Ep; [| apply IH; assumption]. apply N.eqb_eq in Ep. subst p. exfalso. apply Hnot.
    apply in_map_iff. exists (pi, id, T). split; [reflexivity | exact Hin].
Qed.

Lemma script_id_some (subs : list (N * N * tables)) pi id :
  script_id subs pi = Some id -> exists T, In (pi, id, T) subs.
Proof.
  induction subs as [| [[p i] T0] r IH]; cbn [script_id]; intro H; [discriminate |].
  destruct (N.eqb p pi) eqn:Ep.
  - apply N.eqb_eq in Ep. inversion H; subst. exists T0. left; reflexivity.
  - destruct (IH H) as [T Hin]. exists T. right; exact Hin.
Qed.

Lemma subword_tables_in (subs : list (N * N * tables)) pi id T :
  NoDup (map (fun e => snd (fst e)) subs) -> In (pi, id, T) subs -> subword_tables subs id = Some T.
Proof.
  induction subs as [| [[p i] T0] r IH]; intros ND Hin; [destruct Hin |]. cbn [subword_tables].
  cbn [map fst snd] in ND. inversion ND as [| y ys Hnot Hnd]; subst.
  destruct Hin as [E | Hin].
  - inversion E; subst. rewrite N.eqb_refl. reflexivity.
  - destruct (N.eqb i id) eqn:Ep; [| apply IH; assumption]. apply N.eqb_eq in Ep. subst i. exfalso. apply Hnot.
    apply in_map_iff. exists (pi, id, T). split; [reflexivity | exact Hin].
Qed.

Lemma sub_row_spec (subs : list (N * N * tables)) : forall row,
  (forall pi to, In (pi, to) row -> exists id, script_id subs pi = Some id) ->
  exists srow, sub_row subs row = Ok srow
               /\ Forall2 (fun pt it => snd pt = snd it /\ script_id subs (fst pt) = Some (fst it)) row srow.
Proof.
  induction row as [| [pi to] row IH]; intro H.
  - exists []. split; [reflexivity | constructor].
  - destruct (H pi to (or_introl eq_refl)) as [id Hid]. destruct IH as [srow [Hs Hf]]; [intros pi' to' Hin; apply (H pi' to'); right; exact Hin |].
    exists ((id, to) :: srow). cbn [sub_row]. rewrite Hid, Hs. cbn [obind]. split; [reflexivity |].
    constructor; [split; [reflexivity | exact Hid] | exact Hf].
Qed.

Section SubTables.
  Variables (c : cdfa) (om : list (string * string)) (os : list (N * list (string * string)))
            (nd : needs) (a : alltables).
  Hypothesis Hwf : dfa_wf (c_main c).
  Hypothesis Hall : all_tables Bash c om os = Ok (nd, a).
  Notation d := (c_main c).

  Lemma subtrans_keys : NoDup (map fst (a_subtrans a)).
  Proof.
    destruct (all_tables_inv _ _ _ _ _ _ Hall) as [rt F]. pose proof (af_subtrans _ _ _ _ _ _ _ F) as H.
    unfold subword_transitions in H. apply obind_ok in H. destruct H as [rows [Hrows H]]. injection H as Ha.
    rewrite <- Ha. apply NoDup_map_filter.
    assert (E : map fst rows = get_all_states d).
    { apply omap_ok in Hrows. rewrite <- (map_id (get_all_states d)). apply (Forall2_maps _ _ _ _ _ Hrows).
      intros s y Hy. apply obind_ok in Hy. destruct Hy as [tr [_ Hy]]. inversion Hy; subst; reflexivity. }
    rewrite E. apply get_all_states_NoDup.
  Qed.

  Lemma subtrans_row s row :
    assocN s (a_subtrans a) = Some row -> forall pi to, In (pi, to) row <-> exists lvl, trans_on d s (ISub pi lvl) to.
  Proof.
    intros Hr pi to. rewrite <- (subtrans_exact Bash c om os nd a Hwf Hall s pi to). split.
    - intro Hin. exists row. split; [apply assocN_In; exact Hr | exact Hin].
    - intros [row' [Hrow' Hin]]. rewrite (in_assocN s _ row' subtrans_keys Hrow') in Hr. inversion Hr; subst. exact Hin.
  Qed.

  Lemma subtrans_none s pi lvl to : assocN s (a_subtrans a) = None -> ~ trans_on d s (ISub pi lvl) to.
  Proof.
    intros Hn Htr.
    destruct (proj2 (subtrans_exact Bash c om os nd a Hwf Hall s pi to) (ex_intro _ lvl Htr)) as [row [Hrow _]].
    rewrite (in_assocN s _ row subtrans_keys Hrow) in Hn. discriminate.
  Qed.

  Lemma subtrans_row_nonempty s : assocN s (a_subtrans a) <> Some [].
  Proof.
    intro Hr. apply assocN_In in Hr.
    destruct (all_tables_inv _ _ _ _ _ _ Hall) as [rt F]. pose proof (af_subtrans _ _ _ _ _ _ _ F) as H.
    unfold subword_transitions in H. apply obind_ok in H. destruct H as [rows [Hrows H]]. injection H as Ha.
    rewrite <- Ha in Hr. apply filter_In in Hr. destruct Hr as [_ Hr]. discriminate.
  Qed.

  Lemma subs_pairs rt : rtrans d = Ok rt -> map fst (a_subwords a) = get_subwords rt 0.
  Proof.
    intro Hrt. destruct (all_tables_inv _ _ _ _ _ _ Hall) as [rt' F]. rewrite (af_rt _ _ _ _ _ _ _ F) in Hrt. inversion Hrt; subst rt'.
    pose proof (af_subs _ _ _ _ _ _ _ F) as H. cbn [array_start] in H. apply omap_ok in H.
    rewrite <- (map_id (get_subwords rt 0)). apply (Forall2_maps _ _ _ _ _ H).
    intros pi y Hy. apply obind_ok in Hy. destruct Hy as [sd [_ Hy]]. apply obind_ok in Hy. destruct Hy as [t [_ Hy]]. inversion Hy.
    cbn. destruct pi; reflexivity.
  Qed.

  Lemma subacc_pairs rt : rtrans d = Ok rt -> map fst (a_subaccepting a) = map snd (get_subwords rt 0).
  Proof.
    intro Hrt. destruct (all_tables_inv _ _ _ _ _ _ Hall) as [rt' F]. rewrite (af_rt _ _ _ _ _ _ _ F) in Hrt. inversion Hrt; subst rt'.
    pose proof (af_subacc _ _ _ _ _ _ _ F) as H. cbn [array_start] in H. apply omap_ok in H.
    apply (Forall2_maps _ _ _ _ _ H).
    intros pi y Hy. apply obind_ok in Hy. destruct Hy as [sd [_ Hy]]. inversion Hy. reflexivity.
  Qed.

  Lemma ids_NoDup rt : NoDup (map snd (get_subwords rt 0)).
  Proof.
    destruct (get_subwords_ids rt 0) as [E _]. rewrite E.
    apply Injective_map_NoDup; [| apply seq_NoDup]. intros x y Hxy. lia.
  Qed.

  Theorem sub_entry s pi lvl to :
    trans_on d s (ISub pi lvl) to ->
    exists id sd T,
      script_id (a_subwords a) pi = Some id
      /\ subword_tables (a_subwords a) id = Some T
      /\ nthN (c_subs c) pi = Some sd
      /\ get_lookup_tables sd (a_commands a) 0 (n_sub_cmd nd) false (n_sub_star nd)
           (match assocN pi os with Some o => o | None => [] end) = Ok T
      /\ BashSem.sub_accepting a id = d_accepting sd
      /\ (forall pi', script_id (a_subwords a) pi' = Some id -> pi' = pi)
      /\ (forall rt, rtrans d = Ok rt -> assocN pi (get_subwords rt 0) = Some id).
  Proof.
    intro Htr. destruct (all_tables_inv _ _ _ _ _ _ Hall) as [rt F]. pose proof (af_rt _ _ _ _ _ _ _ F) as Hrt.
    assert (Hin : In (s, ISub pi lvl, to) rt) by (apply (trans_on_rt _ _ _ _ _ Hwf Hrt); exact Htr).
    pose proof (get_subwords_covers rt 0 s pi lvl to Hin) as Hpi.
    apply in_map_iff in Hpi. destruct Hpi as [[pi0 id] [E Hids]]. cbn in E. subst pi0.
    rewrite <- (subs_pairs rt Hrt) in Hids. apply in_map_iff in Hids. destruct Hids as [[[pi0 id0] T] [E HinT]]. cbn in E. inversion E; subst pi0 id0.
    destruct (proj1 (subwords_exact Bash c om os nd a Hall pi id T) HinT) as [rt' [sd [Hrt' [Hid [Hsd Hglt]]]]].
    rewrite Hrt in Hrt'. inversion Hrt'; subst rt'. cbn [array_start compadd_switch] in Hglt, Hid.
    assert (ND1 : NoDup (map (fun e : N * N * tables => fst (fst e)) (a_subwords a))).
    { rewrite <- map_map, (subs_pairs rt Hrt). apply (get_subwords_ids rt 0). }
    assert (ND2 : NoDup (map (fun e : N * N * tables => snd (fst e)) (a_subwords a))).
    { rewrite <- map_map, (subs_pairs rt Hrt). apply ids_NoDup. }
    exists id, sd, T. split; [apply (script_id_in _ pi id T ND1 HinT) |].
    split; [apply (subword_tables_in _ pi id T ND2 HinT) |]. split; [exact Hsd |]. split; [exact Hglt |]. split; [| split].
    - assert (Hacc : In (id, map (fun s0 => s0 + 0) (d_accepting sd)) (a_subaccepting a)).
      { apply (subaccepting_exact Bash c om os nd a Hall). exists rt, pi, sd. repeat split; assumption. }
      unfold BashSem.sub_accepting. rewrite (in_assocN id _ _ (eq_ind_r (fun l => NoDup l) (ids_NoDup rt) (subacc_pairs rt Hrt)) Hacc).
      rewrite <- (map_id (d_accepting sd)) at 2. apply map_ext. intro x. lia.
    - intros pi' Hs. apply script_id_some in Hs. destruct Hs as [T' Hin'].
      assert (H1 : In (pi', id) (get_subwords rt 0)) by (rewrite <- (subs_pairs rt Hrt); apply in_map_iff; exists (pi', id, T'); split; [reflexivity | exact Hin']).
      assert (H2 : In (pi, id) (get_subwords rt 0)) by exact Hid.
      clear -H1 H2. pose proof (ids_NoDup rt) as ND. revert H1 H2 ND. generalize (get_subwords rt 0) as l.
      induction l as [| [p i] l IH]; intros H1 H2 ND; [destruct H1 |]. cbn [map snd] in ND. inversion ND as [| y ys Hnot Hnd]; subst.
      destruct H1 as [E1 | H1], H2 as [E2 | H2].
      + inversion E1; inversion E2; subst. reflexivity.
      + inversion E1; subst. exfalso. apply Hnot. apply in_map_iff. exists (pi, id). split; [reflexivity | exact H2].
      + inversion E2; subst. exfalso. apply Hnot. apply in_map_iff. exists (pi', id). split; [reflexivity | exact H1].
      + apply IH; assumption.
    - intros rt2 Hrt2. rewrite Hrt in Hrt2. inversion Hrt2; subst rt2. apply in_assocN; [apply (get_subwords_ids rt 0) | exact Hid].
  Qed.
End SubTables.
