(** The result of [str::trim] (model) is left alone by [trim_start] and by [trim_end] ([trim_fixed])
    and contains no substring that its argument lacks ([has_sub_trim]); [take_until] returns a text
    without the delimiter ([split_until_nosub]).  Needed to show that every command the parser
    returns is printable. *)
From CG Require Import Base.Prelude Base.Facts Model.Ast Model.Lexer Model.Parser Spec.Printer
  Proofs.LexBase Proofs.LexBlanks Proofs.LexCommand.

Lemma trim_end_prefix : forall s, exists u, s = append (trim_end s) u.
Proof.
  intros s. unfold trim_end. destruct (strip_suffix _ _ _ trim_rev_step (srev s)) as [u E].
  exists (srev u). rewrite <- srev_app, <- E. rewrite srev_involutive. reflexivity.
Qed.

Lemma trim_end_idem : forall s, trim_end (trim_end s) = trim_end s.
Proof. intros. unfold trim_end. rewrite srev_involutive, (strip_idem _ _ _ trim_rev_step). reflexivity. Qed.

(** [trim_end] leaves a prefix of what [trim_start] returned, and that is still left alone by [trim_start]. *)
Theorem trim_fixed : forall s, trim_start (trim s) = trim s /\ trim_end (trim s) = trim s.
Proof.
  intros s. unfold trim. split; [|apply trim_end_idem].
  destruct (trim_end_prefix (trim_start s)) as [u E].
  apply (strip_prefix_fixed _ _ _ trim_start_step _ u). rewrite <- E. apply (strip_idem _ _ _ trim_start_step).
Qed.

Lemma starts_with_app : forall t a b, starts_with t a = true -> starts_with t (append a b) = true.
Proof.
  unfold starts_with. induction t; cbn [strip_prefix]; intros a0 b H; auto.
  destruct a0 as [|x a']; [discriminate|]. cbn [append]. destruct (Ascii.eqb a x); [|discriminate]. apply IHt; auto.
Qed.

Lemma has_sub_eq : forall t s, has_sub t s =
  if starts_with t s then true else match s with EmptyString => false | String _ r => has_sub t r end.
Proof. destruct s; reflexivity. Qed.

Lemma has_sub_app_r : forall t a b, has_sub t b = true -> has_sub t (append a b) = true.
Proof.
  induction a; cbn [append]; intros b H; auto. rewrite has_sub_eq. rewrite (IHa b H).
  destruct (starts_with t (String a (append a0 b))); reflexivity.
Qed.

Lemma has_sub_app_l : forall t a b, has_sub t a = true -> has_sub t (append a b) = true.
Proof.
  induction a; intros b H.
  - rewrite has_sub_eq in H. destruct (starts_with t EmptyString) eqn:S; [|discriminate].
    rewrite has_sub_eq. rewrite (starts_with_app t EmptyString b S). reflexivity.
  - rewrite has_sub_eq in H. cbn [append]. rewrite has_sub_eq.
    destruct (starts_with t (String a a0)) eqn:S.
    + change (String a (append a0 b)) with (append (String a a0) b). rewrite (starts_with_app _ _ b S). reflexivity.
    + rewrite (IHa b H). destruct (starts_with t (String a (append a0 b))); reflexivity.
Qed.

Lemma has_sub_trim : forall t s, has_sub t s = false -> has_sub t (trim s) = false.
Proof.
  intros t s H. destruct (has_sub t (trim s)) eqn:E; auto. exfalso.
  unfold trim in E. destruct (trim_end_prefix (trim_start s)) as [u Eu].
  destruct (strip_suffix _ _ _ trim_start_step s) as [v Ev].
  assert (has_sub t s = true); [|congruence].
  rewrite Ev. apply has_sub_app_r. rewrite Eu. apply has_sub_app_l. exact E.
Qed.

Lemma split_until_nosub : forall t s a b, t <> EmptyString -> split_until t s = Some (a, b) -> has_sub t a = false.
Proof.
  intros t s a b Ht. revert a b. induction s as [|c r IH]; intros a b H.
  - cbn in H. destruct (starts_with t EmptyString); inversion H; subst.
    rewrite has_sub_eq. destruct t; [congruence|]. reflexivity.
  - cbn [split_until] in H. destruct (starts_with t (String c r)) eqn:S.
    + inversion H; subst. rewrite has_sub_eq. destruct t; [congruence|]. reflexivity.
    + destruct (split_until t r) as [[x y]|] eqn:E; [|discriminate]. inversion H; subst.
      rewrite has_sub_eq. rewrite (IH x b eq_refl).
      destruct (starts_with t (String c x)) eqn:S2; auto.
      pose proof (split_until_app t r x b E) as Er. subst r.
      change (String c (append x b)) with (append (String c x) b) in S.
      rewrite (starts_with_app _ _ b S2) in S. discriminate.
Qed.
