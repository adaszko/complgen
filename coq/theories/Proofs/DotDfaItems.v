(** C16: under well-formedness the ([patched]) model of DFA::to_dot returns an explicit list of
    lines ([dfa_items_ok]), every one of which is well formed for the reader ([x_items_ok]). *)
From CG Require Import Base.Prelude Base.Facts Model.Dfa Spec.DotRead Spec.DotSpec Model.Dot
     Proofs.DotLex Proofs.DotParse Proofs.DotNames Proofs.DotStates.
Local Open Scope string_scope.

(** the display text of the specification ([display]) is the one the code computes
    ([diagnostic_display_input]) *)
Lemma rust_char_debug c : rust_char c = debug_char c.
Proof. apply String.eqb_eq. revert c. apply all_ascii_spec. vm_compute. reflexivity. Qed.

Lemma rust_literal_debug s : rust_literal s = debug_str s.
Proof.
  assert (H : rust_literal_body s = debug_body s).
  { induction s as [|c s IH]; [reflexivity|]. cbn [rust_literal_body debug_body]. now rewrite rust_char_debug, IH. }
  unfold rust_literal, debug_str. now rewrite H.
Qed.

Lemma display_model x :
  match display x with
  | Some t => diagnostic_display_input x = Ok t
  | None => exists k l, x = ISub k l
  end.
Proof.
  destruct x as [t [dd|] l|k l|cm l|cm l|]; cbn [display diagnostic_display_input]; try reflexivity.
  - now rewrite rust_literal_debug.
  - now exists k, l.
Qed.

Definition edge4 := (string * string * string * string)%type.
Definition edge_item (e : edge4) : item :=
  ILine (LEdgeQ (fst (fst (fst e))) (snd (fst (fst e))) (snd (fst e)) (snd e)).

Definition x_edges (base : N) (subs : list dfa) (ids : list (N * N)) (d : dfa) (p : string)
           (t : N * N * N) : list edge4 :=
  match nthN (d_inputs d) (snd (fst t)) with
  | Some (ISub k _) =>
      match nthN subs k, assocN k ids with
      | Some sd, Some id =>
          (node_id p (fst (fst t) + base), node_id (sub_pre id) (d_start sd + base), "style", "dashed")
          :: map (fun a => (node_id (sub_pre id) (a + base), node_id p (snd t + base), "style", "dashed"))
                 (d_accepting sd)
      | _, _ => []
      end
  | Some x =>
      match display x with
      | Some text => [(node_id p (fst (fst t) + base), node_id p (snd t + base), "label", escape_dot text)]
      | None => []
      end
  | None => []
  end.

Definition trans_ok (subs : list dfa) (ids : list (N * N)) (d : dfa) (t : N * N * N) : Prop :=
  match nthN (d_inputs d) (snd (fst t)) with
  | Some (ISub k _) => (exists sd, nthN subs k = Some sd) /\ (exists id, assocN k ids = Some id)
  | Some _ => True
  | None => False
  end.

Lemma transition_lines_ok base subs ids d p t :
  trans_ok subs ids d t ->
  transition_lines patched base subs ids d p t = Ok (map edge_item (x_edges base subs ids d p t)).
Proof.
  destruct t as [[from i] to]. unfold trans_ok, transition_lines, x_edges, get_input. cbn [fst snd].
  destruct (nthN (d_inputs d) i) as [x|] eqn:Ex; [|intros []]. cbn [obind].
  pose proof (display_model x) as Hd.
  destruct x as [t' dd l|k l|cm l|cm l|].
  - intros _. destruct (display (ILit t' dd l)) as [text|]; [|destruct Hd as [? [? Hd]]; discriminate Hd].
    rewrite Hd. reflexivity.
  - intros [[sd Hsd] [id Hid]]. unfold lookup_sub. rewrite Hsd, Hid. cbn [obind].
    cbn [map v_subacc patched]. unfold edge_item at 1. cbn [fst snd]. do 2 f_equal.
    rewrite map_map. reflexivity.
  - intros _. destruct (display (ICmd cm l)) as [text|]; [|destruct Hd as [? [? Hd]]; discriminate Hd].
    rewrite Hd. reflexivity.
  - intros _. destruct (display (ICompadd cm l)) as [text|]; [|destruct Hd as [? [? Hd]]; discriminate Hd].
    rewrite Hd. reflexivity.
  - intros _. reflexivity.
Qed.

Lemma oconcat_ok base subs ids d p ts :
  Forall (trans_ok subs ids d) ts ->
  oconcat (map (transition_lines patched base subs ids d p) ts)
  = Ok (map edge_item (flat_map (x_edges base subs ids d p) ts)).
Proof.
  induction 1 as [|t r Ht Hr IH]; [reflexivity|]. cbn [map oconcat flat_map].
  rewrite (transition_lines_ok _ _ _ _ _ _ Ht), IH. cbn [obind]. now rewrite map_app.
Qed.

Definition x_sub_items (base : N) (sd : dfa) (p : string) : list item :=
  (node_lines patched base sd p
   ++ map edge_item (flat_map (x_edges base [] [] sd p) (iter_transitions sd)))%list.

Lemma uses_nil d : no_sub_trans d = true -> uses d (iter_transitions d) = [].
Proof.
  unfold no_sub_trans, uses. intro H. rewrite forallb_forall in H.
  induction (iter_transitions d) as [|t r IH]; [reflexivity|]. cbn [flat_map].
  pose proof (H t (or_introl eq_refl)) as Ht.
  rewrite IH by (intros x Hx; apply H; now right).
  destruct (nthN (d_inputs d) (snd (fst t))) as [[| | | |]|]; try reflexivity. discriminate Ht.
Qed.

Lemma sub_trans_ok d :
  inputs_in_range d = true -> no_sub_trans d = true -> Forall (trans_ok [] [] d) (iter_transitions d).
Proof.
  unfold inputs_in_range, no_sub_trans. rewrite !forallb_forall. intros H1 H2.
  apply Forall_forall. intros t Ht. specialize (H1 t Ht). specialize (H2 t Ht). unfold trans_ok.
  destruct (nthN (d_inputs d) (snd (fst t))) as [[| | | |]|]; try exact I; discriminate.
Qed.

Lemma do_to_dot_sub base sd p nested :
  wf_dfa sd = true -> no_sub_trans sd = true ->
  do_to_dot patched base [] sd p nested = Ok (x_sub_items base sd p).
Proof.
  intros Hwf Hns. unfold wf_dfa in Hwf. apply andb_true_iff in Hwf as [Hr _].
  unfold do_to_dot. rewrite (get_subwords_spec sd base Hr). cbn [obind].
  unfold sub_ids, sub_order. change (transitions sd) with (iter_transitions sd).
  fold (uses sd (iter_transitions sd)). rewrite (uses_nil sd Hns). cbn [dedup dedup_go number_from omap obind].
  rewrite (oconcat_ok base [] [] sd p _ (sub_trans_ok sd Hr Hns)). reflexivity.
Qed.

Definition used (base : N) (c : cdfa) : list (N * dfa) :=
  flat_map (fun p : N * N => match nthN (c_subs c) (fst p) with Some sd => [(snd p, sd)] | None => [] end)
           (sub_ids base (c_main c)).

Definition x_cluster (base : N) (q : N * dfa) : item :=
  cluster_block "" (fst q) (x_sub_items base (snd q) (sub_pre (fst q))).

Definition x_items (base : N) (c : cdfa) : list item :=
  (ILine (LAssign "rankdir" "LR")
   :: node_lines patched base (c_main c) ""
   ++ map (x_cluster base) (used base c)
   ++ map edge_item (flat_map (x_edges base (c_subs c) (sub_ids base (c_main c)) (c_main c) "")
                              (iter_transitions (c_main c))))%list.

(** what well-formedness says about a within-word automaton that is used *)
Lemma wf_used c t k l :
  wf_cdfa c = true -> In t (iter_transitions (c_main c)) ->
  nthN (d_inputs (c_main c)) (snd (fst t)) = Some (ISub k l) ->
  exists sd, nthN (c_subs c) k = Some sd /\ wf_dfa sd = true /\ no_sub_trans sd = true.
Proof.
  unfold wf_cdfa. intros H Ht E. apply andb_true_iff in H as [_ H]. rewrite forallb_forall in H.
  specialize (H t Ht). rewrite E in H. destruct (nthN (c_subs c) k) as [sd|]; [|discriminate].
  apply andb_true_iff in H as [H1 H2]. now exists sd.
Qed.

Lemma sub_ids_used c base k id :
  In (k, id) (sub_ids base (c_main c)) ->
  exists t l, In t (iter_transitions (c_main c)) /\ nthN (d_inputs (c_main c)) (snd (fst t)) = Some (ISub k l).
Proof.
  unfold sub_ids, sub_order. intro H. apply number_from_in in H. rewrite dedup_in in H.
  change (transitions (c_main c)) with (iter_transitions (c_main c)) in H.
  exact (uses_in _ _ _ H).
Qed.

Lemma In_assocN_some {V} k (l : list (N * V)) : In k (map fst l) -> exists v, assocN k l = Some v.
Proof. intro H. destruct (assocN k l) eqn:E; [eexists; reflexivity|]. apply assocN_None in E. contradiction. Qed.

Lemma main_trans_ok c base :
  wf_cdfa c = true ->
  Forall (trans_ok (c_subs c) (sub_ids base (c_main c)) (c_main c)) (iter_transitions (c_main c)).
Proof.
  intro Hwf. apply Forall_forall. intros t Ht. unfold trans_ok.
  pose proof Hwf as Hwf'. unfold wf_cdfa, wf_dfa in Hwf'. apply andb_true_iff in Hwf' as [Hm _].
  apply andb_true_iff in Hm as [Hr _]. unfold inputs_in_range in Hr. rewrite forallb_forall in Hr.
  specialize (Hr t Ht).
  destruct (nthN (d_inputs (c_main c)) (snd (fst t))) as [[| k l | | |]|] eqn:E; try exact I; [|discriminate].
  destruct (wf_used c t k l Hwf Ht E) as [sd [Hsd _]]. split; [now exists sd|].
  apply In_assocN_some. unfold sub_ids. rewrite number_from_fst. unfold sub_order. apply dedup_in.
  change (transitions (c_main c)) with (iter_transitions (c_main c)).
  apply in_flat_map. exists t. split; [exact Ht|]. rewrite E. now left.
Qed.

Lemma clusters_ok c base : wf_cdfa c = true -> forall l,
  (forall p, In p l -> In p (sub_ids base (c_main c))) ->
  omap (fun p : N * N =>
          do sd <- lookup_sub (c_subs c) (fst p);
          do inner <- do_to_dot patched base [] sd (dec (snd p) ++ "_")
                        (fun _ _ => Panic "within-word automaton inside a within-word automaton");
          Ok (cluster_block "" (snd p) inner)) l
  = Ok (map (x_cluster base)
            (flat_map (fun p : N * N => match nthN (c_subs c) (fst p) with Some sd => [(snd p, sd)] | None => [] end) l)).
Proof.
  intros Hwf l. induction l as [|[k id] r IH]; intro Hin; [reflexivity|].
  cbn [omap flat_map fst snd].
  destruct (sub_ids_used c base k id (Hin _ (or_introl eq_refl))) as [t [lv [Ht E]]].
  destruct (wf_used c t k lv Hwf Ht E) as [sd [Hsd [Hw Hn]]].
  assert (Hl : lookup_sub (c_subs c) k = Ok sd) by (unfold lookup_sub; now rewrite Hsd).
  rewrite Hl. cbn [obind].
  rewrite (do_to_dot_sub base sd _ _ Hw Hn). cbn [obind].
  rewrite IH by (intros p Hp; apply Hin; now right). rewrite Hsd. cbn [obind app map]. reflexivity.
Qed.

Lemma dfa_items_ok base c : wf_cdfa c = true -> dfa_items patched base c = Ok (x_items base c).
Proof.
  intro Hwf. unfold dfa_items. unfold do_to_dot at 1.
  pose proof Hwf as Hwf'. unfold wf_cdfa, wf_dfa in Hwf'. apply andb_true_iff in Hwf' as [Hm _].
  apply andb_true_iff in Hm as [Hr _].
  rewrite (get_subwords_spec (c_main c) base Hr). cbn [obind].
  rewrite (clusters_ok c base Hwf (sub_ids base (c_main c)) (fun p H => H)). cbn [obind].
  rewrite (oconcat_ok base _ _ _ "" _ (main_trans_ok c base Hwf)). cbn [obind]. reflexivity.
Qed.

Lemma id_ok_closed s : ident_ok s = true -> keyword_of s = None -> id_ok s.
Proof. now split. Qed.

Lemma state_line_ok p base s : prefix_ok p -> item_ok (state_line p base s).
Proof.
  intro Hp. constructor. split; [now apply node_id_ok|]. apply plain_body. now apply label_plain.
Qed.

Lemma node_lines_ok base d p : prefix_ok p -> Forall item_ok (node_lines patched base d p).
Proof.
  intro Hp. unfold node_lines. repeat (apply Forall_app; split); repeat apply Forall_cons; try apply Forall_nil.
  - constructor. cbn. destruct (memN (d_start d) (d_accepting d)); split; reflexivity.
  - now apply state_line_ok.
  - constructor. split; reflexivity.
  - apply Forall_forall. intros x Hx. apply in_map_iff in Hx as [s [<- _]]. now apply state_line_ok.
  - constructor. exact I.
  - constructor. split; reflexivity.
  - apply Forall_forall. intros x Hx. apply in_map_iff in Hx as [s [<- _]]. now apply state_line_ok.
  - constructor. exact I.
Qed.

Lemma x_edges_ok base subs ids d p t e :
  prefix_ok p -> In e (x_edges base subs ids d p t) -> item_ok (edge_item e).
Proof.
  intros Hp. unfold x_edges.
  destruct (nthN (d_inputs d) (snd (fst t))) as [x|]; [|intros []].
  assert (Hdashed : forall a b pa pb, prefix_ok pa -> prefix_ok pb ->
                      item_ok (edge_item (node_id pa a, node_id pb b, "style", "dashed"))).
  { intros a b pa pb Ha Hb. constructor. cbn. repeat split; try apply node_id_ok; auto; try reflexivity.
    discriminate. }
  destruct x as [t' dd l|k l|cm l|cm l|].
  2:{ destruct (nthN subs k) as [sd|]; [|intros []]. destruct (assocN k ids) as [id|]; [|intros []].
      intros [<-|H].
      - apply Hdashed; [exact Hp|constructor].
      - apply in_map_iff in H as [a [<- _]]. apply Hdashed; [constructor|exact Hp]. }
  all: match goal with |- context [display ?x] => destruct (display x) as [text|]; [|intros []] end.
  all: intros [<-|[]]; constructor; cbn; repeat split; try apply node_id_ok; auto; try reflexivity.
  all: unfold body_ok; rewrite qdecode_escape_dot; discriminate.
Qed.

Lemma edge_items_ok base subs ids d p ts :
  prefix_ok p -> Forall item_ok (map edge_item (flat_map (x_edges base subs ids d p) ts)).
Proof.
  intro Hp. apply Forall_forall. intros x Hx. apply in_map_iff in Hx as [e [<- He]].
  apply in_flat_map in He as [t [_ He]]. exact (x_edges_ok _ _ _ _ _ _ _ Hp He).
Qed.

Lemma x_sub_items_ok base sd p : prefix_ok p -> Forall item_ok (x_sub_items base sd p).
Proof.
  intro Hp. unfold x_sub_items. apply Forall_app. split; [now apply node_lines_ok|now apply edge_items_ok].
Qed.

Lemma x_cluster_ok base q : item_ok (x_cluster base q).
Proof.
  unfold x_cluster, cluster_block. constructor.
  - change (id_ok ("cluster_" ++ dec (fst q))). apply cluster_name_ok.
  - apply Forall_cons; [|apply Forall_cons; [|apply Forall_cons; [|apply x_sub_items_ok; constructor]]].
    + constructor. split; [split; reflexivity|]. apply plain_body.
      apply (plain_app "subword "); [reflexivity|apply dec_plain].
    + constructor. split; split; reflexivity.
    + constructor. split; split; reflexivity.
Qed.

Lemma x_items_ok base c : Forall item_ok (x_items base c).
Proof.
  unfold x_items. apply Forall_cons; [constructor; split; split; reflexivity|].
  apply Forall_app; split; [apply node_lines_ok; constructor|].
  apply Forall_app; split.
  - apply Forall_forall. intros x Hx. apply in_map_iff in Hx as [q [<- _]]. apply x_cluster_ok.
  - apply edge_items_ok. constructor.
Qed.
