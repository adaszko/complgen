(** C08, the description-conflict class in the model pipeline: the ambiguity check of the minimised
    main automaton fails iff the language of the raw automaton (by C02 the language of the
    validated tree, over input ids) has a point where the same literal text is expected with two
    different descriptions; it never fails for another reason. *)
From CG Require Import Base.Prelude Model.Ast Model.Dfa Model.Regex Model.Subset Model.Minimize Model.Ambiguity.
From CG Require Import Spec.DfaEquiv Spec.MinimizeSpec.
From CG Require Import Proofs.TreeFacts Proofs.WfTrim Proofs.MinimizeCorrect Proofs.C02Total Proofs.CompiledFacts.
From CG Require Import Proofs.AmbLang.

Theorem main_amb_verdict pick fuel submap e r pl d states m :
  alts_nonempty e = true ->
  from_expr e [] = Ok (r, pl) ->
  dfa_from_regex pick fuel submap r = Ok (d, states) ->
  minimize d = Ok m ->
  ((exists ae, check_ambiguity_best_effort m = Err ae) <-> lang_conflict d) /\
  (forall ae, check_ambiguity_best_effort m = Err ae -> exists q t l r', ae = ConflictingDescriptions q t l r').
Proof.
  intros Ha E Ed Em.
  destruct (wf_trim_from_regex pick fuel submap e [] r pl d states Ha (Forall_nil _) E Ed) as [W TR].
  destruct (minimize_correct d m W TR Em) as [Hl [TRm _]].
  pose proof (minimize_dfa_wf d m W TR Em) as Wm.
  assert (Hnd : NoDup (d_inputs m)).
  { rewrite (minimize_inputs d m Em). eapply dfa_from_regex_inputs. exact Ed. }
  split.
  - rewrite (conflict_language m Wm Hnd TRm). split.
    + apply lang_conflict_ext; [symmetry; apply (minimize_inputs d m Em)|intro w; symmetry; apply Hl].
    + apply lang_conflict_ext; [apply (minimize_inputs d m Em)|exact Hl].
  - apply (only_conflicts m Wm Hnd).
Qed.
