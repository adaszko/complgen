(** C04: the text of an emitted script as a sequence of lines, for every shell.

    A line is *local* when what the statement reader makes of it does not depend on what follows its
    newline ([line_sem] for bash; [ScriptGen.line_semG] for any shell).  The fixed skeleton of a script
    is made of templates (gen/Tpl*.v); a template that ends with a newline is the [unlines] of its lines
    ([render_region]).  This file holds what does not depend on the shell: lines, templates cut into
    lines, the command name, the bodies of command functions -- and the statement lists of the bash
    script ([script_stmts]), whose reading is proved in Proofs/BashScriptRead.v. *)
From Coq Require Import DecimalString.
From CG Require Import Base.Prelude Model.Ast Model.Dfa Model.Tpl Model.Quote Model.Tables Model.EmitBash
     Spec.ShellDQ Spec.ScriptRead Proofs.QuoteRT Proofs.BashCodec Base.Facts.
From CGgen Require Import Consts TplBash.
Open Scope N_scope.
Open Scope list_scope.

Fixpoint no_nl (s : string) : bool :=
  match s with
  | EmptyString => true
  | String c t => negb (Ascii.eqb c nl_char) && no_nl t
  end.

Lemma no_nl_app a b : no_nl (append a b) = no_nl a && no_nl b.
Proof. induction a; cbn; [reflexivity | rewrite IHa, andb_assoc; reflexivity]. Qed.

Lemma line_app l rest : no_nl l = true -> line (append l (append nl rest)) = (l, rest).
Proof.
  induction l as [|c l IH]; cbn [append no_nl line]; intros H.
  - change (Ascii.eqb nl_char nl_char) with true. reflexivity.
  - apply andb_prop in H. destruct H as [Hc Hl]. apply negb_true_iff in Hc. rewrite Hc, (IH Hl). reflexivity.
Qed.

Definition unlines (l : list string) : string := sconcat (map (fun x => append x nl) l).

Lemma unlines_app a b : unlines (a ++ b) = append (unlines a) (unlines b).
Proof. unfold unlines. rewrite map_app. apply sconcat_app. Qed.

Definition lift (rest : string) (o : option (stmt * string)) : option (stmt * string) :=
  match o with Some (st, r) => Some (st, append r rest) | None => None end.

Definition line_sem (cmd : string) (l : string) (o : option stmt) : Prop :=
  no_nl l = true
  /\ (forall rest, bash_stmt (append l (append nl rest)) = match o with Some st => Some (st, rest) | None => None end)
  /\ match o with Some (SFunc n) => is_cmd_fn cmd n = false | _ => True end.

Definition stmts_of (os : list (option stmt)) : list stmt :=
  flat_map (fun o => match o with Some st => [st] | None => [] end) os.

(** a line indented deeper than four blanks is no data statement, whatever it contains *)
Lemma deep_line_sem cmd x : no_nl x = true -> line_sem cmd (append "     " x) None.
Proof.
  intros H. split; [exact H|]. split; [|exact I]. intros rest. rewrite append_assoc. reflexivity.
Qed.

Definition name_ok (command : string) : Prop :=
  command <> EmptyString /\ forallb is_name_char (list_ascii_of_string command) = true.

Lemma name_char_not_nl c : is_name_char c = true -> Ascii.eqb c nl_char = false.
Proof.
  unfold is_name_char. destruct (Ascii.eqb c nl_char); [|reflexivity].
  rewrite orb_true_r. cbn. discriminate.
Qed.

Lemma name_chars_no_nl s : forallb is_name_char (list_ascii_of_string s) = true -> no_nl s = true.
Proof.
  induction s as [|c t IH]; intros H; [reflexivity|]. cbn in H. apply andb_prop in H. destruct H as [Hc Ht].
  cbn [no_nl]. rewrite (IH Ht), (name_char_not_nl _ Hc). reflexivity.
Qed.

Lemma name_ok_no_nl command : name_ok command -> no_nl command = true.
Proof. intros [_ H]. exact (name_chars_no_nl _ H). Qed.

Lemma strip_app_both a b c : strip (append a b) (append a c) = strip b c.
Proof. induction a; cbn; [reflexivity | rewrite Ascii.eqb_refl; exact IHa]. Qed.

Fixpoint split_nl (s : string) : list string :=
  match s with
  | EmptyString => [EmptyString]
  | String c t =>
      let r := split_nl t in
      if Ascii.eqb c nl_char then EmptyString :: r
      else match r with
           | x :: r' => String c x :: r'
           | [] => [String c EmptyString]
           end
  end.

Definition txt (s : string) : list seg := match s with EmptyString => [] | _ => [Text s] end.

Fixpoint tpl_lines_go (cur : list seg) (t : list seg) : list (list seg) :=
  match t with
  | [] => [cur]
  | Hole n :: r => tpl_lines_go (cur ++ [Hole n]) r
  | Text s :: r =>
      match split_nl s with
      | [] => tpl_lines_go cur r
      | [x] => tpl_lines_go (cur ++ txt x) r
      | x :: more => (cur ++ txt x) :: map txt (removelast more) ++ tpl_lines_go (txt (last more EmptyString)) r
      end
  end.

(** the lines of a template that ends with a newline *)
Definition region_lines (t : list seg) : list (list seg) := removelast (tpl_lines_go [] t).

Definition render_lines (env : list (string * string)) (t : list seg) : list string :=
  map (render env) (region_lines t).

Definition seg_nl : list seg := [Text nl].

Lemma render_app env a b : render env (a ++ b) = append (render env a) (render env b).
Proof.
  induction a as [|[s|n] a IH]; cbn [app render]; [reflexivity | |]; rewrite IH, append_assoc; reflexivity.
Qed.

Definition env_cmd (command : string) : list (string * string) :=
  [("command", command); ("MATCH_FN_NAME", match_fn_name_bash)].

Definition jnl (l : list string) : string := join nl l.

Lemma join_cons2 (x y : string) l : join nl (x :: y :: l) = append x (append nl (join nl (y :: l))).
Proof. reflexivity. Qed.

Lemma split_nl_nonempty s : split_nl s <> [].
Proof.
  destruct s as [|c t]; cbn [split_nl]; [discriminate|]. destruct (Ascii.eqb c nl_char); [discriminate|].
  destruct (split_nl t); discriminate.
Qed.

Lemma join_split_nl s : join nl (split_nl s) = s.
Proof.
  induction s as [|c t IH]; [reflexivity|]. cbn [split_nl].
  destruct (Ascii.eqb_spec c nl_char) as [->|Hne].
  - destruct (split_nl t) as [|y l] eqn:E; [exfalso; exact (split_nl_nonempty t E)|].
    rewrite join_cons2, IH. reflexivity.
  - destruct (split_nl t) as [|y l] eqn:E; [exfalso; exact (split_nl_nonempty t E)|].
    destruct l as [|z l].
    + cbn [join] in *. congruence.
    + rewrite join_cons2 in *. cbn [append]. congruence.
Qed.

Lemma render_txt env x : render env (txt x) = x.
Proof. destruct x; [reflexivity|]. cbn [txt render]. apply append_nil_r. Qed.

Lemma join_app_ne (a : list string) b0 (b : list string) :
  join nl (a ++ b0 :: b) = append (sconcat (map (fun x => append x nl) a)) (join nl (b0 :: b)).
Proof.
  induction a as [|x a IH]; [reflexivity|]. cbn [app map sconcat].
  destruct (a ++ b0 :: b) as [|y l] eqn:E; [destruct a; discriminate E|].
  rewrite join_cons2, IH, !append_assoc. reflexivity.
Qed.

Lemma tpl_lines_go_nonempty cur t : tpl_lines_go cur t <> [].
Proof.
  revert cur. induction t as [|[s|n] r IH]; intros cur; cbn [tpl_lines_go]; [discriminate | | apply IH].
  destruct (split_nl s) as [|x [|y more]]; [apply IH | apply IH | discriminate].
Qed.

Lemma render_join_lines env t :
  forall cur, join nl (map (render env) (tpl_lines_go cur t)) = append (render env cur) (render env t).
Proof.
  induction t as [|[s|n] r IH]; intros cur.
  - cbn. rewrite append_nil_r. reflexivity.
  - cbn [tpl_lines_go render]. pose proof (join_split_nl s) as Hs.
    destruct (split_nl s) as [|x [|y more]] eqn:E; [exfalso; exact (split_nl_nonempty s E) | |].
    + cbn [join] in Hs. subst x. rewrite IH, render_app, render_txt, append_assoc. reflexivity.
    + (* at least one newline in s *)
      set (more' := y :: more) in *.
      assert (Hm : more' <> []) by discriminate.
      rewrite (app_removelast_last EmptyString Hm) in Hs.
      destruct (tpl_lines_go (txt (last more' EmptyString)) r) as [|l0 ls] eqn:El;
        [exfalso; exact (tpl_lines_go_nonempty _ _ El)|].
      cbn [map]. rewrite map_app. cbn [map].
      change (render env (cur ++ txt x) :: map (render env) (map txt (removelast more')) ++ render env l0 :: map (render env) ls)
        with ((render env (cur ++ txt x) :: map (render env) (map txt (removelast more'))) ++ render env l0 :: map (render env) ls).
      rewrite join_app_ne.
      change (render env l0 :: map (render env) ls) with (map (render env) (l0 :: ls)). rewrite <- El, IH, render_txt.
      cbn [map sconcat]. rewrite render_app, render_txt.
      rewrite <- Hs. change (x :: removelast more' ++ [last more' EmptyString]) with ((x :: removelast more') ++ [last more' EmptyString]).
      rewrite join_app_ne. cbn [map sconcat join]. rewrite !map_map.
      rewrite (map_ext (fun x0 => render env (txt x0) ++ nl)%string (fun x0 => x0 ++ nl)%string) by (intros; rewrite render_txt; reflexivity).
      rewrite !append_assoc. reflexivity.
  - cbn [tpl_lines_go render]. rewrite IH, render_app. cbn [render]. rewrite append_nil_r, append_assoc. reflexivity.
Qed.

(** a template whose last line is empty (it ends with a newline) is the [unlines] of its lines *)
Lemma render_region env t :
  last (tpl_lines_go [] t) [Text "x"] = [] ->
  render env t = unlines (render_lines env t).
Proof.
  intros Hl. pose proof (render_join_lines env t []) as H. cbn [render append] in H. rewrite <- H.
  unfold render_lines, region_lines.
  pose proof (tpl_lines_go_nonempty [] t) as Hne.
  rewrite (app_removelast_last [Text "x"] Hne) at 1. rewrite Hl, map_app. cbn [map render].
  rewrite join_app_ne. cbn [join]. rewrite append_nil_r. reflexivity.
Qed.

Lemma is_prefix_split p s : is_prefix p s = true -> exists r, s = append p r.
Proof.
  revert s. induction p as [|c p IH]; intros s H; [exists s; reflexivity|].
  destruct s as [|d s]; [discriminate|]. cbn in H. destruct (Ascii.eqb_spec c d); [|discriminate]. subst.
  destruct (IH _ H) as [r ->]. exists r. reflexivity.
Qed.

Definition is_closed (l : list seg) : bool := forallb (fun s => match s with Text _ => true | Hole _ => false end) l.

Lemma closed_render env l : is_closed l = true -> render env l = render [] l.
Proof.
  induction l as [|[t|n] l IH]; cbn [is_closed forallb render]; intros H; [reflexivity | | discriminate].
  rewrite (IH H). reflexivity.
Qed.

Lemma is_cmd_fn_suffix cmd suf :
  strip "_cmd_" suf = None -> is_cmd_fn cmd (append "_" (append cmd suf)) = false.
Proof.
  intros H. unfold is_cmd_fn. rewrite <- (append_assoc "_" cmd "_cmd_"), <- (append_assoc "_" cmd suf).
  rewrite strip_app_both, H. reflexivity.
Qed.

Lemma no_nl_chars s : forallb (fun c => negb (Ascii.eqb c nl_char)) (list_ascii_of_string s) = no_nl s.
Proof. induction s as [|c s IH]; [reflexivity|]. cbn [list_ascii_of_string forallb no_nl]. rewrite IH. reflexivity. Qed.

Lemma no_nl_sN n : no_nl (sN n) = true.
Proof. rewrite <- no_nl_chars. apply sN_chars. reflexivity. Qed.

(** units: maximal pieces of the skeleton that begin and end at line boundaries *)
Definition unit_scans_env (command : string) (env : list (string * string)) (u : list seg) (sts : list stmt) : Prop :=
  forall k rest,
    scan (List.length (region_lines u) + k) Bash command (append (render env u) rest)
    = sts ++ scan k Bash command rest.

Definition unit_scans (command : string) (u : list seg) (sts : list stmt) : Prop :=
  unit_scans_env command (env_cmd command) u sts.

Definition drop_nl (t : list seg) : list seg :=
  match t with
  | Text (String c s) :: r => if Ascii.eqb c nl_char then txt s ++ r else t
  | _ => t
  end.

(** [nonl H1 H2]: a text made of fixed texts, numbers and two texts that have no newline by [H1], [H2]
    has no newline *)
Ltac nonl H1 H2 :=
  repeat (progress (cbn [append no_nl]; rewrite ?no_nl_app, ?H1, ?H2, ?no_nl_sN)); reflexivity.

Lemma name_chars_sN n : forallb is_name_char (list_ascii_of_string (sN n)) = true.
Proof. apply sN_chars. reflexivity. Qed.

Lemma name_read (v : string) c r :
  v <> EmptyString -> forallb is_name_char (list_ascii_of_string v) = true -> is_name_char c = false ->
  name (append v (String c r)) = Some (v, String c r).
Proof.
  intros Hne Hv Hc. unfold name. rewrite (take_while_app is_name_char v (String c r) Hv Hc). destruct v; [congruence | reflexivity].
Qed.

Section MainUnits.
Variable command : string.

Definition U_head := write_completion_script_0.

Lemma U_head_scans : unit_scans command U_head [].
Proof. intros k rest. reflexivity. Qed.
End MainUnits.

Lemma length_unlines_ge ls : (List.length ls <= String.length (unlines ls))%nat.
Proof.
  induction ls as [|l ls IH]; [apply Nat.le_refl|]. unfold unlines in *. cbn [map sconcat List.length].
  rewrite !length_append. cbn [String.length nl]. change (String.length nl) with 1%nat. lia.
Qed.

Lemma join_lines_join l : join_lines l = join nl l.
Proof. induction l as [|x [|y l] IH]; [reflexivity | reflexivity |]. cbn [join_lines join] in *. rewrite IH. reflexivity. Qed.

Definition body_ok (body : string) : Prop :=
  forallb (fun l => negb (String.eqb l "}")) (split_nl body) = true.

Lemma split_nl_no_nl s : forallb no_nl (split_nl s) = true.
Proof.
  induction s as [|c t IH]; [reflexivity|]. cbn [split_nl]. destruct (Ascii.eqb c nl_char) eqn:E.
  - cbn. exact IH.
  - destruct (split_nl t) as [|x r]; cbn in *; [rewrite E; reflexivity|].
    apply andb_prop in IH. destruct IH as [H1 H2]. rewrite E, H1, H2. reflexivity.
Qed.

Lemma unlines_split body : unlines (split_nl body) = append body nl.
Proof.
  pose proof (join_split_nl body) as H. pose proof (split_nl_nonempty body) as Hne.
  destruct (split_nl body) as [|x l]; [congruence|]. clear Hne. rewrite <- H. clear H.
  revert x. induction l as [|y l IH]; intros x.
  - unfold unlines. cbn [map sconcat join]. rewrite append_nil_r. reflexivity.
  - specialize (IH y). unfold unlines in *. cbn [map sconcat] in *. rewrite join_cons2, !append_assoc.
    rewrite !append_assoc in IH. f_equal. f_equal. exact IH.
Qed.

Lemma is_cmd_fn_true cmd id : is_cmd_fn cmd (append "_" (append cmd (append "_cmd_" (sN id)))) = true.
Proof.
  unfold is_cmd_fn. rewrite <- (append_assoc "_" cmd "_cmd_"), <- (append_assoc "_" cmd (append "_cmd_" (sN id))).
  rewrite <- (append_assoc (append "_" cmd) "_cmd_" (sN id)). rewrite strip_app.
  rewrite <- (append_nil_r (sN id)), (take_while_app is_digit (sN id) EmptyString (sN_chars is_digit id eq_refl) I).
  destruct (sN_nonempty id) as [c [s' E]]. rewrite E. reflexivity.
Qed.

Lemma sub_suffix_ok (pre : string) (n : N) :
  forallb is_name_char (list_ascii_of_string pre) = true ->
  forallb is_name_char (list_ascii_of_string (append pre (sN n))) = true.
Proof. intros H. exact (name_chars_append _ _ H (name_chars_sN n)). Qed.

Definition acc_pairs (acc : list N) : list (N * N) := map (fun s => (s, 1)) acc.

Definition acc_stmt (acc : list N) : stmt := SAssoc "accepting_states" (map (fun p => (fst p, [snd p])) (acc_pairs acc)).
Definition lits_stmt (t : tables) : stmt := SLits "literals" (map (fun l => snd (fst l)) (t_literals t)).
Definition fn_name (command suf : string) : string := append "_" (append command suf).

Definition wrapper_stmts (command : string) (id : N) (t : tables) (acc : list N) : list stmt :=
  [SFunc (fn_name command (append "_subword_" (sN id))); acc_stmt acc; lits_stmt t]
  ++ match_stmts t ++ completion_stmts t ++ [SCall (fn_name command "_subword"); SEnd].

Definition shape_fn_stmts (command : string) (sid : N) (t : tables) : list stmt :=
  [SFunc (fn_name command (append "_subword_shape_" (sN sid)))]
  ++ match_stmts t ++ completion_stmts t ++ [SCall (fn_name command "_subword"); SEnd].

Definition shape_wrapper_stmts (command : string) (id sid : N) (t : tables) (acc : list N) : list stmt :=
  [SFunc (fn_name command (append "_subword_" (sN id))); acc_stmt acc; lits_stmt t;
   SCall (fn_name command (append "_subword_shape_" (sN sid))); SEnd].

Definition group_stmts (command : string) (a : alltables) (sid : N) (group : list N) : res (list stmt) :=
  match group with
  | [] => Panic "chunk_by: empty chunk"
  | [id] =>
      do t <- tables_of_id a id;
      do acc <- accepting_of_id a id;
      Ok (wrapper_stmts command id t acc)
  | leader :: _ =>
      do lt <- tables_of_id a leader;
      do ws <- omap (fun id => do t <- tables_of_id a id;
                               do acc <- accepting_of_id a id;
                               Ok (shape_wrapper_stmts command id sid t acc)) group;
      Ok (shape_fn_stmts command sid lt ++ List.concat ws)
  end.

Definition sub_fn_stmts (command : string) : list stmt :=
  [ SFunc (fn_name command "_subword"); SScalar "subword_state" 0; SScalar "char_index" 0; SScalar "matched" 0;
    SLits "subword_candidates" []; SLits "subword_matches" []; SEnd ].

Definition cmd_fns_stmts (command : string) (ics : list (N * string)) : list stmt :=
  flat_map (fun ic => [SFunc (fn_name command (append "_cmd_" (sN (fst ic)))); SBody (cmd_body (snd ic)); SEnd]) ics.

Definition subtrans_rows (a : alltables) : res (list (N * list (N * N))) :=
  omap (fun row : N * list (N * N) =>
          do kvs <- omap (fun pt : N * N => do id <- script_id a (fst pt); Ok (id, snd pt)) (snd row);
          Ok (fst row, kvs)) (a_subtrans a).

Definition script_stmts (command : string) (start : N) (nd : needs) (a : alltables) (groups : list (list N))
  : res (list stmt) :=
  let main := a_main a in
  do gs <- (if n_subwords nd then
              do l <- omap (fun ig : N * list N => group_stmts command a (fst ig) (snd ig)) (number_from 0 groups);
              Ok (List.concat l ++ sub_fn_stmts command)
            else Ok []);
  do st <- (if n_subwords nd then
              do rows <- subtrans_rows a;
              Ok (SDecl "subword_transitions" :: row_stmts "subword_transitions" rows)
            else Ok []);
  Ok (cmd_fns_stmts command (number_from 0 (a_commands a)) ++ gs
      ++ [SFunc (append "_" command); lits_stmt main] ++ match_stmts main ++ st
      ++ [SScalar "state" start; SScalar "word_index" 1]
      ++ completion_stmts main
      ++ (if n_subwords nd then level_stmts "subword_transitions_level_" (a_csub a) else [])
      ++ [SLits "candidates" []; SLits "matches" []; SScalar "max_fallback_level" (t_maxlevel main);
          SEnd; SRegister [append "_" command; command]]).

Lemma last_line_ok u : last (tpl_lines_go [] u) [Text "x"] = [] -> True. Proof. exact (fun _ => I). Qed.

