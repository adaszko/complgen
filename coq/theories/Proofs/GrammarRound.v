(** Statements and whole grammars: the parser model applied to the printed text returns the
    located grammar. *)
From CG Require Import Base.Prelude Base.Facts Model.Ast Model.Lexer Model.Parser Spec.Printer
  Proofs.LexBase Proofs.LexBlanks Proofs.LexTerminal Proofs.LexTokens Proofs.LexCommand
  Proofs.ExprDefs Proofs.ExprLift Proofs.ExprFirst Proofs.ExprShape Proofs.ExprRound.
From CGgen Require Import Consts.

Ltac len_norm H := repeat (progress (rewrite ?length_append in H; cbn [String.length] in H)).

Section Stmt.
  Variable c : cfg.

  Definition tail_txt (L : nodelay) (nosemi : bool) (g : gap) : string :=
    if nosemi then gap_text (post_gap g)
    else append (gap_text (post_gap g)) (String SEMI (gap_text (nl_gap L 3))).

  Definition tail_pos (L : nodelay) (nosemi : bool) (g : gap) (q : pos) : pos :=
    if nosemi then adv_str (gap_text (post_gap g)) q
    else adv_str (gap_text (nl_gap L 3)) (adv_char SEMI (adv_str (gap_text (post_gap g)) q)).

  Lemma tail_st0 : forall L nosemi g R, (nosemi = true -> R = EmptyString) -> st 0 (append (tail_txt L nosemi g) R).
  Proof.
    intros L [] g R H; unfold tail_txt.
    - rewrite H by reflexivity. rewrite append_nil_r. apply st0_end.
    - rewrite append_assoc. cbn [append]. apply st0_semi.
  Qed.

  (** after the expression: blanks, [;] or the end, blanks *)
  Lemma tail_parse : forall L nosemi g R q,
      (nosemi = true -> R = EmptyString) -> nonblank R ->
      exists a1 a2, multiblanks0 (mkin (append (tail_txt L nosemi g) R) q) = Ok (tt, a1)
                    /\ end_of_statement a1 = Ok (tt, a2)
                    /\ multiblanks0 a2 = Ok (tt, mkin R (tail_pos L nosemi g q)).
  Proof.
    intros L [] g R q H Hb; unfold tail_txt, tail_pos.
    - rewrite H by reflexivity. rewrite multiblanks0_gap by reflexivity. do 2 eexists. split; [reflexivity|]. split; [reflexivity|].
      apply multiblanks0_nonblank. reflexivity.
    - rewrite append_assoc. cbn [append]. rewrite multiblanks0_gap by reflexivity.
      do 2 eexists. split; [reflexivity|]. unfold end_of_statement. rewrite char_p_hit. split; [reflexivity|].
      apply multiblanks0_gap. exact Hb.
  Qed.

  Lemma eq_parse : forall (fl : bool) x q,
      (tag_p "::=" (mkin (append (if fl then EQ3 else EQ1) x) q) <|> tag_p "=" (mkin (append (if fl then EQ3 else EQ1) x) q))
      = Ok (tt, mkin x (adv_str (if fl then EQ3 else EQ1) q)).
  Proof. intros [] x q; [rewrite (tag_p_hit "::=")|]; reflexivity. Qed.

  Lemma stmt_txt_eq : forall lay nosemi s,
      stmt_txt lay nosemi s =
      match s with
      | CallVariant name _ e =>
          append (pieces_text (spell (nl_esc (lay [])) false name))
                 (append (gap_text (gap1 (nl_gap (lay []) 0)))
                         (append (txt (sub lay 0) 0 e) (tail_txt (lay []) nosemi (nl_gap (lay []) 2))))
      | NontermDef name _ sh rhs =>
          append (def_head_text name sh)
                 (append (gap_text (nl_gap (lay []) 0))
                    (append (if nl_flag (lay []) then EQ3 else EQ1)
                       (append (gap_text (nl_gap (lay []) 1))
                          (append (txt (sub lay 0) 0 rhs) (tail_txt (lay []) nosemi (nl_gap (lay []) 2))))))
      end.
  Proof. intros. destruct s; reflexivity. Qed.

  Lemma stmt_expr : forall lay nosemi e R q m,
      wfb false e = true -> (nosemi = true -> R = EmptyString) ->
      (String.length (append (txt (sub lay 0) 0 e) (append (tail_txt (lay []) nosemi (nl_gap (lay []) 2)) R)) < m)%nat ->
      expr_p c (S m) (mkin (append (txt (sub lay 0) 0 e) (append (tail_txt (lay []) nosemi (nl_gap (lay []) 2)) R)) q)
      = Ok (fst (loc c (sub lay 0) 0 e q),
            mkin (append (tail_txt (lay []) nosemi (nl_gap (lay []) 2)) R) (snd (loc c (sub lay 0) 0 e q))).
  Proof.
    intros. rewrite expr_p_S.
    apply (expr_roundtrip c e (sub lay 0) 0%nat false q _ m); auto; [lia|].
    apply mstop_low; [lia|]. apply tail_st0; auto.
  Qed.

  Lemma stmt_first : forall lay nosemi s R, wf_stmt s = true ->
      exists ch t, append (stmt_txt lay nosemi s) R = String ch t /\ blank_start ch = false.
  Proof.
    intros lay nosemi s R W. rewrite stmt_txt_eq. destruct s as [name nsp e | name nsp sh rhs].
    - cbn [wf_stmt] in W. apply andb_true_iff in W as [Wn _].
      rewrite !append_assoc.
      destruct (spelled_first (nl_esc (lay [])) false name
                 (append (gap_text (gap1 (nl_gap (lay []) 0)))
                         (append (txt (sub lay 0) 0 e) (append (tail_txt (lay []) nosemi (nl_gap (lay []) 2)) R))) Wn)
        as (S1 & _ & _); [apply c4_lit_rest, gap1_no_unary|].
      destruct (append (pieces_text (spell (nl_esc (lay [])) false name)) _) as [|ch t]; [discriminate|].
      exists ch, t. split; [reflexivity|]. apply ustart_not_blank. exact S1.
    - unfold def_head_text. cbn [append]. eexists; eexists; split; reflexivity.
  Qed.

  Lemma stmt_rest : forall lay nosemi e R q m,
      wfb false e = true -> (nosemi = true -> R = EmptyString) -> nonblank R ->
      let T := append (txt (sub lay 0) 0 e) (append (tail_txt (lay []) nosemi (nl_gap (lay []) 2)) R) in
      (String.length T < m)%nat ->
      nonblank T /\
      exists a1 a2,
        expr_p c (S m) (mkin T q) = Ok (fst (loc c (sub lay 0) 0 e q), a1)
        /\ (do (_, a) <- multiblanks0 a1; end_of_statement a) = Ok (tt, a2)
        /\ multiblanks0 a2 = Ok (tt, mkin R (tail_pos (lay []) nosemi (nl_gap (lay []) 2) (snd (loc c (sub lay 0) 0 e q)))).
  Proof.
    intros lay nosemi e R q m We HR Hb T Hn. subst T.
    pose proof (tail_st0 (lay []) nosemi (nl_gap (lay []) 2) R HR) as S0. split.
    - apply first_ok_hd. apply (first_ok_any e _ 0%nat false); [lia|exact We|]. apply mstop_low; [lia|exact S0].
    - destruct (tail_parse (lay []) nosemi (nl_gap (lay []) 2) R (snd (loc c (sub lay 0) 0 e q)) HR Hb) as (a1 & a2 & E1 & E2 & E3).
      eexists. exists a2. split; [apply stmt_expr; assumption|]. split; [rewrite E1; exact E2|exact E3].
  Qed.

  (** a definition, once its head is read *)
  Lemma def_parse : forall lay nosemi i name nsp sh rhs R p3 m,
      let L := lay [] in
      let p4 := adv_str (gap_text (nl_gap L 1)) (adv_str (if nl_flag L then EQ3 else EQ1) (adv_str (gap_text (nl_gap L 0)) p3)) in
      let T := append (txt (sub lay 0) 0 rhs) (append (tail_txt L nosemi (nl_gap L 2)) R) in
      call_variant c (expr_p c (S m)) i = Err tt ->
      nonterm_def i = Ok ((name, nsp, sh),
                          mkin (append (gap_text (nl_gap L 0)) (append (if nl_flag L then EQ3 else EQ1) (append (gap_text (nl_gap L 1)) T))) p3) ->
      wfb false rhs = true -> (nosemi = true -> R = EmptyString) -> nonblank R -> (String.length T < m)%nat ->
      statement_p c (expr_p c (S m)) i
      = Ok (NontermDef name nsp sh (fst (loc c (sub lay 0) 0 rhs p4)),
            mkin R (tail_pos L nosemi (nl_gap L 2) (snd (loc c (sub lay 0) 0 rhs p4)))).
  Proof.
    intros lay nosemi i name nsp sh rhs R p3 m L p4 T CV Hd Wr HR Hb Hn.
    destruct (stmt_rest lay nosemi rhs R p4 m Wr HR Hb Hn) as (Nb & a1 & a2 & E1 & E2 & E3). fold L T in Nb, E1, E3.
    unfold statement_p, nonterm_def_statement. rewrite CV, Hd. cbn [obind].
    rewrite multiblanks0_gap by (destruct (nl_flag L); reflexivity). cbn [obind].
    rewrite eq_parse. cbn [obind]. rewrite multiblanks0_gap by exact Nb. cbn [obind]. fold p4. rewrite E1. cbn [obind].
    destruct (multiblanks0 a1) as [[[] b1]| | |]; cbn [obind] in E2 |- *; try discriminate E2.
    rewrite E2. cbn [obind]. rewrite E3. reflexivity.
  Qed.

  Theorem stmt_parse : forall lay nosemi s R p m,
      wf_stmt s = true -> (nosemi = true -> R = EmptyString) -> nonblank R ->
      (String.length (append (stmt_txt lay nosemi s) R) < m)%nat ->
      statement_p c (expr_p c (S m)) (mkin (append (stmt_txt lay nosemi s) R) p)
      = Ok (fst (stmt_loc c lay nosemi s p), mkin R (snd (stmt_loc c lay nosemi s p))).
  Proof.
    intros lay nosemi s R p m W HR Hb Hn. rewrite stmt_txt_eq in *.
    destruct s as [name nsp e | name nsp sh rhs].
    -
      cbn [wf_stmt] in W. apply andb_true_iff in W as [Wn We].
      rewrite !append_assoc in *. rewrite !length_append in Hn.
      destruct (stmt_rest lay nosemi e R (adv_str (gap_text (gap1 (nl_gap (lay []) 0)))
                                                 (pieces_adv c (spell (nl_esc (lay [])) false name) p)) m We HR Hb ltac:(rewrite !length_append; lia))
        as (Nb & a1 & a2 & E1 & E2 & E3).
      unfold statement_p, call_variant.
      rewrite terminal_spelled; [|assumption|apply c4_lit_rest, gap1_no_unary]. cbn [obind].
      rewrite multiblanks1_gap1 by exact Nb. cbn [obind]. rewrite E1. cbn [obind stmt_loc].
      destruct (loc c (sub lay 0) 0 e _) as [e' p3]. cbn [fst snd] in *.
      destruct (multiblanks0 a1) as [[[] b1]| | |]; cbn [obind] in E2 |- *; try discriminate E2.
      rewrite E2. cbn [obind]. rewrite E3. rewrite from_range_pspan. reflexivity.
    -
      assert (CV : forall x q, call_variant c (expr_p c (S m)) (mkin (String LT x) q) = Err tt).
      { intros. unfold call_variant, terminal. rewrite terminal_spec, lex1_stop by reflexivity. reflexivity. }
      unfold def_head_text in *. cbn [append] in Hn |- *. rewrite !append_assoc in *. cbn [append] in *.
      destruct sh as [[shn ssp]|]; cbn [wf_stmt] in W; apply andb_true_iff in W as [W Wr].
      + apply andb_true_iff in W as [W Ws]. apply andb_true_iff in W as [Wn Wa]. cbn [append] in *. len_norm Hn.
        erewrite def_parse; [|apply CV|unfold nonterm_def; rewrite nonterm_specialization_printed by assumption; reflexivity
                             |assumption..|rewrite !length_append; lia].
        cbn [stmt_loc]. destruct (loc c (sub lay 0) 0 rhs _) as [e' p5]. reflexivity.
      + apply andb_true_iff in W as [Wn Wa]. cbn [append] in *. len_norm Hn.
        erewrite def_parse; [|apply CV|unfold nonterm_def; rewrite nonterm_specialization_plain, nonterm_printed by assumption; reflexivity
                             |assumption..|rewrite !length_append; lia].
        cbn [stmt_loc]. destruct (loc c (sub lay 0) 0 rhs _) as [e' p5]. reflexivity.
  Qed.
End Stmt.

Section Grammar.
  Variable c : cfg.

  Lemma statement_fails_empty : forall ex p, statement_p c ex (mkin EmptyString p) = Err tt.
  Proof.
    intros. unfold statement_p, call_variant, terminal. rewrite terminal_spec. cbn [lex1 obind].
    unfold nonterm_def_statement, nonterm_def, nonterm_specialization, nonterm, char_p. cbn [rest obind fail].
    reflexivity.
  Qed.

  Lemma stmt_txt_nonempty : forall lay nosemi s, wf_stmt s = true ->
      (0 < String.length (stmt_txt lay nosemi s))%nat.
  Proof.
    intros lay nosemi s W. destruct (stmt_first lay nosemi s EmptyString W) as (ch & t & E & _).
    rewrite append_nil_r in E. rewrite E. cbn. lia.
  Qed.

  Lemma stmts_nonblank : forall lay fs k g, forallb wf_stmt g = true -> nonblank (stmts_txt lay fs k g).
  Proof.
    intros lay fs k [|s r] W; [reflexivity|]. cbn [forallb] in W. apply andb_true_iff in W as [Ws _].
    cbn [stmts_txt]. destruct (stmt_first (sub lay k) (negb fs && match r with [] => true | _ => false end) s
                                 (stmts_txt lay fs (S k) r) Ws) as (ch & t & E & B).
    unfold nonblank. rewrite E. cbn [hd_in]. rewrite B. reflexivity.
  Qed.

  Lemma many0_stmts : forall g lay fs k p m fuel,
      forallb wf_stmt g = true ->
      (String.length (stmts_txt lay fs k g) < m)%nat -> (String.length (stmts_txt lay fs k g) < fuel)%nat ->
      exists q, many0_p fuel (statement_p c (expr_p c (S m))) (mkin (stmts_txt lay fs k g) p)
                = Ok (stmts_loc c lay fs k g p, mkin EmptyString q).
  Proof.
    induction g as [|s r IH]; intros lay fs k p m fuel W Hm Hf.
    - destruct fuel; [cbn in Hf; lia|]. cbn [stmts_txt many0_p stmts_loc].
      rewrite statement_fails_empty. eexists; reflexivity.
    - destruct fuel; [lia|]. cbn [forallb] in W. apply andb_true_iff in W as [Ws Wr].
      cbn [stmts_txt many0_p stmts_loc] in *.
      set (nosemi := negb fs && match r with [] => true | _ => false end) in *.
      assert (HR : nosemi = true -> stmts_txt lay fs (S k) r = EmptyString).
      { subst nosemi. intros E. apply andb_true_iff in E as [_ E]. destruct r; [reflexivity|discriminate]. }
      rewrite (stmt_parse c (sub lay k) nosemi s _ p m Ws HR (stmts_nonblank lay fs (S k) r Wr) Hm).
      pose proof (stmt_txt_nonempty (sub lay k) nosemi s Ws) as Ne.
      rewrite length_append in Hm, Hf.
      destruct (stmt_loc c (sub lay k) nosemi s p) as [s' p1]. cbn [fst snd rest].
      rewrite length_append.
      destruct (Nat.eqb (String.length (stmts_txt lay fs (S k) r))
                        (String.length (stmt_txt (sub lay k) nosemi s) + String.length (stmts_txt lay fs (S k) r))) eqn:E.
      { apply Nat.eqb_eq in E. lia. }
      destruct (IH lay fs (S k) p1 m fuel Wr ltac:(lia) ltac:(lia)) as [q Hq].
      rewrite Hq. eexists; reflexivity.
  Qed.

  (** The round trip for grammars, for any configuration [c] of the terminal lexer ([pinned] and
      [repaired] are two of them). *)
  Theorem roundtrip_cfg : forall g lay, wf g -> parse_with c (text g lay) = Ok (located_with c g lay).
  Proof.
    intros g lay W. unfold wf in W. unfold parse_with, grammar_p, text, located_with, start.
    rewrite multiblanks0_gap by (apply stmts_nonblank; exact W).
    set (g0 := gap_text (nl_gap (lay []) 0)).
    set (body := stmts_txt lay (nl_flag (lay [])) 0 g).
    destruct (many0_stmts g lay (nl_flag (lay [])) 0 (adv_str g0 pos0) (S (String.length (append g0 body)))
                (S (S (String.length (append g0 body)))) W) as [q Hq].
    { fold body. rewrite length_append. lia. }
    { fold body. rewrite length_append. lia. }
    fold body in Hq. rewrite Hq.
    rewrite multiblanks0_nonblank by reflexivity. reflexivity.
  Qed.

  Lemma erase_stmt_loc : forall lay nosemi s p, erase_stmt (fst (stmt_loc c lay nosemi s p)) = erase_stmt s.
  Proof.
    intros. destruct s as [name nsp e | name nsp sh rhs]; cbn [stmt_loc].
    - pose proof (erase_loc c (sub lay 0) 0 e
                   (adv_str (gap_text (gap1 (nl_gap (lay []) 0))) (pieces_adv c (spell (nl_esc (lay [])) false name) p))) as E.
      destruct (loc c (sub lay 0) 0 e _) as [e' p3]. cbn [fst erase_stmt] in *. rewrite E. reflexivity.
    - (* the head does not matter *)
      destruct sh as [[sn ssp]|];
        match goal with |- context [loc c (sub lay 0) 0 rhs ?q] =>
          pose proof (erase_loc c (sub lay 0) 0 rhs q) as E; destruct (loc c (sub lay 0) 0 rhs q) as [e' p5] end;
        cbn [fst erase_stmt] in *; rewrite E; reflexivity.
  Qed.

  Lemma erase_stmts_loc : forall g lay fs k p, erase_grammar (stmts_loc c lay fs k g p) = erase_grammar g.
  Proof.
    induction g as [|s r IH]; intros; [reflexivity|]. cbn [stmts_loc].
    pose proof (erase_stmt_loc (sub lay k) (negb fs && match r with [] => true | _ => false end) s p) as E.
    destruct (stmt_loc c (sub lay k) _ s p) as [s' p1]. cbn [fst] in E.
    unfold erase_grammar in *. cbn [map]. rewrite E, IH. reflexivity.
  Qed.

  Theorem erase_located : forall g lay, erase_grammar (located_with c g lay) = erase_grammar g.
  Proof. intros. unfold located_with. apply erase_stmts_loc. Qed.
End Grammar.
