(** C16, the --regex file: on a well-built arena ([rx_total_b], checked on every run on Rust's REGEX
    stage) the model of Regex::to_dot returns ([of_regex_total]): no panic site is reached and the
    fuel suffices. *)
From CG Require Import Base.Prelude Base.Facts Model.Dfa Spec.DotRead Spec.DotSpec Model.Dot
     Proofs.DotNames Proofs.DotStates Proofs.DotRegex.
Local Open Scope string_scope.

Lemma fold_children_ok F l :
  (forall c v, In c l -> exists rc, F c v = Ok rc) -> forall vis, exists res, fold_children F l vis = Ok res.
Proof.
  induction l as [|c rest IH]; intros H vis; cbn [fold_children]; [eexists; reflexivity|].
  destruct (H c vis (or_introl eq_refl)) as [a Ea]. rewrite Ea. cbn [obind].
  destruct (IH (fun c' v Hc' => H c' v (or_intror Hc')) (snd a)) as [b Eb]. rewrite Eb. cbn [obind]. eexists; reflexivity.
Qed.

Lemma rx_nodes_ok_nth pool r l : forall n0 k x,
  rx_nodes_ok pool r n0 l = true -> nth_error l k = Some x -> rx_node_ok pool r (n0 + N.of_nat k) x = true.
Proof.
  induction l as [|y rest IH]; intros n0 k x H E; [destruct k; discriminate|].
  cbn [rx_nodes_ok] in H. apply andb_true_iff in H as [H1 H2]. destruct k as [|k].
  - cbn in E. injection E as <-. now rewrite N.add_0_r.
  - cbn in E. specialize (IH _ _ _ H2 E). replace (n0 + N.of_nat (S k))%N with (n0 + 1 + N.of_nat k)%N by lia. exact IH.
Qed.

Definition nodes_ok (pool : rpool) (r : regex) : Prop :=
  forall m x, nthN (r_nodes r) m = Some x -> rx_node_ok pool r m x = true.

Lemma arena_nodes_ok pool r : rx_arena_ok pool r = true -> nodes_ok pool r /\ (r_root r < lenN (r_nodes r))%N.
Proof.
  unfold rx_arena_ok. intro H. apply andb_true_iff in H as [H1 H2]. apply N.ltb_lt in H1. split; [|exact H1].
  intros m x E. unfold nthN in E. pose proof (rx_nodes_ok_nth pool r _ 0 _ x H2 E) as H. now rewrite N.add_0_l, N2Nat.id in H.
Qed.

Lemma nth_lt (r : regex) n x : nthN (r_nodes r) n = Some x -> (N.to_nat n < List.length (r_nodes r))%nat.
Proof. unfold nthN. intro E. apply nth_error_Some. congruence. Qed.

Definition pool_size (pool : rpool) : nat :=
  fold_right (fun p acc => List.length (r_nodes (snd p)) + acc)%nat 0%nat pool.

Lemma pool_size_ge pool rid sr : assocN rid pool = Some sr -> (List.length (r_nodes sr) <= pool_size pool)%nat.
Proof.
  induction pool as [|[k s] rest IH]; [discriminate|]. cbn [assocN pool_size fold_right snd].
  destruct (rid =? k)%N; [intro H; injection H as ->; lia|]. intro H. specialize (IH H). unfold pool_size in IH. lia.
Qed.

(** Fuel above the node index suffices, plus [extra] for the within-word regexes met: they start
    afresh at their root. *)
Lemma rx_items_total v pool r extra : nodes_ok pool r ->
  (forall m pos rid sr, nthN (r_nodes r) m = Some (RSubword pos) -> assocN rid pool = Some sr ->
     forall f vis, (extra <= f)%nat -> exists res, rx_items f v pool sr (r_root sr) None (sub_pre rid) vis = Ok res) ->
  forall f n parent p vis, (N.to_nat n + extra < f)%nat -> (n < lenN (r_nodes r))%N ->
    exists res, rx_items f v pool r n parent p vis = Ok res.
Proof.
  intros Hok Hsub. induction f as [|f IH]; intros n parent p vis Hf Hn; [lia|].
  rewrite rx_items_S. cbn zeta. destruct (nthN_lt_some _ n Hn) as [x Ex]. rewrite Ex. pose proof (Hok n x Ex) as Hx.
  destruct x as [|pos|pos|pos|pos|pos|children|children|c]; cbn [rx_node_ok shape_of] in Hx |- *; try (eexists; reflexivity).
  1-4: unfold rx_input; destruct (nthN (r_inputs r) pos) as [[| | |rid]|]; try discriminate; cbn [obind fits];
    try (eexists; reflexivity).
  { destruct (assocN rid pool) as [sr|] eqn:Ep; [|discriminate]. destruct (memN rid vis); [eexists; reflexivity|].
    destruct (Hsub n pos rid sr Ex Ep f (rid :: vis)) as [res Er]; [lia|]. rewrite Er. eexists; reflexivity. }
  (* [RCat] and [ROr]: the children have smaller indices *)
  all: rewrite forallb_forall in Hx.
  all: destruct (fold_children_ok (fun c w => rx_items f v pool r c (Some (node_id p n)) p w) children) with (vis := vis) as [res Er];
    [intros c w Hc; specialize (Hx c Hc); apply N.ltb_lt in Hx; apply IH; lia|].
  all: rewrite Er; eexists; reflexivity.
Qed.

Theorem of_regex_total v pool r : rx_total_b pool r = true -> exists text, of_regex_with v pool r = Ok text.
Proof.
  unfold rx_total_b. intro H. apply andb_true_iff in H as [H1 H2]. rewrite forallb_forall in H2.
  destruct (arena_nodes_ok pool r H1) as [Hok Hroot].
  assert (Hpool : forall rid sr, assocN rid pool = Some sr ->
                                 nodes_ok pool sr /\ flat sr /\ (r_root sr < lenN (r_nodes sr))%N).
  { intros rid sr E. apply assocN_In in E. specialize (H2 _ E). cbn [snd] in H2. apply andb_true_iff in H2 as [A B].
    destruct (arena_nodes_ok pool sr A) as [A1 A2]. split; [exact A1|]. split; [now apply rx_flat_b_sound|exact A2]. }
  unfold of_regex_with, regex_items.
  destruct (rx_items_total v pool r (pool_size pool) Hok) with (f := rx_fuel pool r) (n := r_root r)
    (parent := @None string) (p := "") (vis := @nil N) as [res Er].
  - (* a within-word regex has no within-word node: no extra fuel *)
    intros m pos rid sr _ E f vis Hf. destruct (Hpool rid sr E) as [A [B C]].
    apply (rx_items_total v pool sr 0 A); [intros m' pos' ? ? E'; now elim (B m' pos')| |exact C].
    pose proof (pool_size_ge pool rid sr E). unfold lenN in C. lia.
  - unfold rx_fuel. fold (pool_size pool). unfold lenN in Hroot. lia.
  - exact Hroot.
  - rewrite Er. cbn [obind]. eexists; reflexivity.
Qed.

(** the regex theorem without the "whenever it returns", for every variant that agrees with the
    patched printer *)
Theorem regex_dot_variant_total v pool r :
  rx_variant_agrees v pool r -> rx_total_b pool r = true -> rx_wf_b pool r = true ->
  exists text g, of_regex_with v pool r = Ok text /\ read text = Some g
                 /\ regex_ok g (spec_pool pool) (spec_items r).
Proof.
  intros Hv Ht Hwf. destruct (of_regex_total v pool r Ht) as [text E]. exists text.
  rewrite (of_regex_agree v pool r Hv) in E.
  destruct (regex_dot_patched_b pool r text Hwf E) as [g [Hr Hok]]. exists g. rewrite (of_regex_agree v pool r Hv). auto.
Qed.

Theorem regex_dot_old_total pool r :
  rx_total_b pool r = true -> rx_wf_b pool r = true -> known_rx_all pool r = false ->
  exists text g, of_regex_with old pool r = Ok text /\ read text = Some g
                 /\ regex_ok g (spec_pool pool) (spec_items r).
Proof. intros Ht Hwf Hk. exact (regex_dot_variant_total old pool r (rx_old_agrees pool r Hk) Ht Hwf). Qed.

(** the [current] printer: no excepted class *)
Theorem regex_dot_current_total pool r :
  rx_total_b pool r = true -> rx_wf_b pool r = true ->
  exists text g, of_regex pool r = Ok text /\ read text = Some g
                 /\ regex_ok g (spec_pool pool) (spec_items r).
Proof. exact (regex_dot_variant_total current pool r (current_agrees pool r)). Qed.
