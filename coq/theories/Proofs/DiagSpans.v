(** Every span that leaves the pipeline is a span of the parsed grammar:
    - the checker model is natural in spans ([CheckSpans.from_grammar_ms]), hence -- a free theorem --
      every span of its result (error, validated tree, warning maps) occurs in its input grammar;
    - the spans of an [UnboundedMatchable] error are spans of regex inputs, i.e. of leaves (literals,
      nonterminals, commands, words) of the validated tree. *)
From CG Require Import Base.Prelude Base.Facts Model.Ast Model.Check Model.Regex.
From CG Require Import Proofs.CheckSpans Proofs.FromExpr.

Fixpoint all_spans (e : expr) : list span :=
  match e with
  | Terminal _ _ _ sp | NontermRef _ _ sp | Command _ _ _ sp => [sp]
  | Sequence cs sp | Alternative cs sp | Fallback cs sp => sp :: flat_map all_spans cs
  | Optional c sp | Many1 c sp | DistDescr c _ sp | Subword c _ sp => sp :: all_spans c
  end.

Definition stmt_spans (st : statement) : list span :=
  match st with
  | CallVariant _ sp e => sp :: all_spans e
  | NontermDef _ sp sh rhs =>
      sp :: match sh with Some (_, ssp) => [ssp] | None => [] end ++ all_spans rhs
  end.

Definition grammar_spans (g : grammar) : list span := flat_map stmt_spans g.

Definition cerror_spans (e : cerror) : list span :=
  match e with
  | MissingCallVariants => []
  | VaryingCommandNames spans | NonterminalDefinitionsCycle spans => spans
  | InvalidCommandName sp | UnknownShell sp | NonCommandSpecialization sp => [sp]
  | DuplicateNonterminalDefinition a b => [a; b]
  | SubwordSpaces l r trace => l :: r :: trace
  end.

Definition valid_spans (v : valid_grammar) : list span :=
  all_spans (v_expr v) ++ map snd (v_undefined v) ++ map snd (v_unused v) ++ map snd (v_unused_specs v).

Section Fix.
  Variable f : span -> span.

  Lemma map_fix_in : forall (l : list span), (forall sp, In sp l -> f sp = sp) -> map f l = l.
  Proof. intros l H. rewrite <- (map_id l) at 2. apply map_ext_in. exact H. Qed.

  Lemma map_fix_out : forall (l : list span), map f l = l -> forall sp, In sp l -> f sp = sp.
  Proof. intros l H. apply ext_in_map. rewrite map_id. exact H. Qed.

  Lemma map_fix_flat : forall {A} (g : A -> A) (spans : A -> list span) l,
      Forall (fun a => (forall x, In x (spans a) -> f x = x) -> g a = a) l ->
      (forall x, In x (flat_map spans l) -> f x = x) -> map g l = l.
  Proof.
    intros A g spans l Hg Hs. rewrite <- (map_id l) at 2. apply map_ext_in. intros a Ha.
    rewrite Forall_forall in Hg. apply Hg; [exact Ha|]. intros x Hx. apply Hs, in_flat_map. eauto.
  Qed.

  Lemma ms_fix_in : forall e, (forall x, In x (all_spans e) -> f x = x) -> ms f e = e.
  Proof.
    induction e using expr_ind'; cbn [all_spans ms]; intros Hs; rewrite (Hs sp) by (left; reflexivity); f_equal;
      auto with datatypes.
    all: apply (map_fix_flat _ all_spans cs H); auto with datatypes.
  Qed.

  Lemma ms_grammar_fix_in : forall g, (forall sp, In sp (grammar_spans g) -> f sp = sp) -> ms_grammar f g = g.
  Proof.
    intros g Hs. apply map_fix_flat with stmt_spans; [|exact Hs]. apply Forall_forall. intros st _ Hf.
    destruct st as [n sp e|n sp [[sh ssp]|] rhs]; cbn [ms_stmt stmt_spans option_map fst snd app] in *.
    all: rewrite (Hf sp), ?(Hf ssp), ms_fix_in by auto with datatypes; reflexivity.
  Qed.

  (** mapping the spans of a tree, an error or a result maps the list of its spans, so where the
      mapping changes nothing every span is a fixed point ([map_fix_out]) *)
  Lemma all_spans_ms : forall e, all_spans (ms f e) = map f (all_spans e).
  Proof.
    induction e using expr_ind'; cbn [ms all_spans map]; f_equal; auto.
    all: induction H as [|c cs Hc _ IH]; cbn [map flat_map]; [|rewrite map_app]; congruence.
  Qed.

  Lemma cerror_spans_ms : forall e, cerror_spans (ms_err f e) = map f (cerror_spans e).
  Proof. destruct e; reflexivity. Qed.

  Lemma valid_spans_ms : forall v, valid_spans (ms_valid f v) = map f (valid_spans v).
  Proof.
    intros v. unfold valid_spans, ms_valid. cbn [v_expr v_undefined v_unused v_unused_specs].
    rewrite !map_app, all_spans_ms, !map_snd_msp. reflexivity.
  Qed.
End Fix.

(** The free theorem: [keep S] moves every span outside [S] and none inside it, so a result that
    naturality shows unchanged under [keep (grammar_spans g)] has all its spans in the grammar. *)

Definition bump (x : span) : span := mkspan (sline x + 1) (scol x) (secol x).

Definition keep (S : list span) (x : span) : span := if existsb (span_eqb x) S then x else bump x.

Lemma span_eqb_refl : forall a, span_eqb a a = true.
Proof. intros [l c e]. unfold span_eqb. cbn. rewrite !N.eqb_refl. reflexivity. Qed.

Lemma keep_in : forall S x, In x S -> keep S x = x.
Proof.
  intros S x H. unfold keep. replace (existsb (span_eqb x) S) with true; auto.
  symmetry. apply existsb_exists. exists x. split; auto. apply span_eqb_refl.
Qed.

Lemma keep_fixed : forall S x, keep S x = x -> In x S.
Proof.
  intros S x H. unfold keep in H. destruct (existsb (span_eqb x) S) eqn:E.
  - apply existsb_exists in E as (y & Hy & Ey). apply span_eqb_eq in Ey. subst. exact Hy.
  - exfalso. destruct x as [l c e]. unfold bump in H. cbn in H. inversion H. lia.
Qed.

Lemma keep_map_fixed : forall S l, map (keep S) l = l -> forall x, In x l -> In x S.
Proof. intros S l E x Hi. apply keep_fixed. exact (map_fix_out _ l E x Hi). Qed.

Theorem checker_spans : forall builtins g sh,
    match from_grammar builtins g sh with
    | Ok v => forall sp, In sp (valid_spans v) -> In sp (grammar_spans g)
    | Err e => forall sp, In sp (cerror_spans e) -> In sp (grammar_spans g)
    | _ => True
    end.
Proof.
  intros builtins g sh. set (f := keep (grammar_spans g)).
  pose proof (from_grammar_ms f builtins g sh) as N.
  rewrite (ms_grammar_fix_in f g) in N by (intros; apply keep_in; auto).
  destruct (from_grammar builtins g sh) as [v|e| |]; cbn [ms_res] in N; auto.
  - injection N as N. apply keep_map_fixed. fold f. rewrite <- valid_spans_ms, <- N. reflexivity.
  - injection N as N. apply keep_map_fixed. fold f. rewrite <- cerror_spans_ms, <- N. reflexivity.
Qed.

(** a value satisfies [Q] and an error [R]; nothing is said of a panic or of exhausted fuel *)
Notation sat Q R := (post Q R True True).

Definition ispans (r : regex) : list span := map rinput_span (r_inputs r).

Section InputSpans.
  Variable P : span -> Prop.
  Variable R : rerror -> Prop.

  Definition good (s : bst) (pl : pool) : Prop :=
    Forall P (map rinput_span (b_inputs s)) /\ Forall (fun r => Forall P (ispans r)) pl.

  Definition good_res {X Y} (r : X * Y * bst * pool) : Prop := good (snd (fst r)) (snd r).

  Lemma good_push : forall i s s' pl, b_inputs s' = b_inputs s ++ [i] -> P (rinput_span i) -> good s pl -> good s' pl.
  Proof.
    intros i s s' pl E Hi [G1 G2]. split; [|exact G2]. rewrite E, map_app. apply Forall_app.
    split; [exact G1|]. constructor; [exact Hi|constructor].
  Qed.

  Lemma pool_intern_Forall : forall (Q : regex -> Prop) r p, Forall Q p -> Q r -> Forall Q (snd (pool_intern r p)).
  Proof. intros Q r p Hp Hr. unfold pool_intern. destruct (pool_find r p 0); [exact Hp|]. apply Forall_app. auto. Qed.

  (** the builder has no errors ([R] is arbitrary), and keeps a good state good if the spans of the
      tree are in [P] *)
  Definition keeps (e : expr) : Prop :=
    Forall P (all_spans e) -> forall s pl, good s pl -> sat good_res R (do_from_expr e s pl).

  Lemma do_children_spans : forall cs, Forall keeps cs -> Forall P (flat_map all_spans cs) ->
      forall s pl, good s pl -> sat good_res R (do_children do_from_expr cs s pl).
  Proof.
    induction 1 as [|c cs Hc _ IH]; cbn [flat_map do_children]; intros HP s pl G; [exact G|].
    apply Forall_app in HP as [HPc HPcs].
    eapply post_bind; [exact (Hc HPc s pl G)|]. intros [[[id t] s1] pl1] _ G1.
    eapply post_bind; [exact (IH HPcs s1 pl1 G1)|]. intros [[[ids ts] s2] pl2] _ G2. exact G2.
  Qed.

  Lemma do_from_expr_spans : forall e, keeps e.
  Proof.
    induction e using expr_ind'; intros HP s pl G; inversion_clear HP as [|? ? Hsp Hc]; cbn [do_from_expr].
    1-3: eapply good_push; [reflexivity|exact Hsp|exact G].
    - eapply post_bind; [exact (do_children_spans cs H Hc s pl G)|]. intros [[[ids ts] s1] pl1] _ G1. exact G1.
    - eapply post_bind; [exact (do_children_spans cs H Hc s pl G)|]. intros [[[ids ts] s1] pl1] _ G1. exact G1.
    - eapply post_bind; [exact (IHe Hc s pl G)|]. intros [[[cid ct] s1] pl1] _ G1. exact G1.
    - eapply post_bind; [exact (IHe Hc s pl G)|]. intros [[[cid ct] s1] pl1] _ G1. exact G1.
    - exact I.
    - eapply post_bind; [exact (do_children_spans cs H Hc s pl G)|]. intros [[[ids ts] s1] pl1] _ G1. exact G1.
    - eapply post_bind; [apply (IHe Hc empty_bst pl); split; [constructor|apply G]|]. intros [[[cid ct] cs] pl1] _ [G1 G2].
      pose proof (pool_intern_Forall _ (finish_regex cid ct cs) pl1 G2 G1) as G3.
      destruct (pool_intern (finish_regex cid ct cs) pl1) as [rid pl2].
      eapply good_push; [reflexivity|exact Hsp|]. split; [apply G|exact G3].
  Qed.
End InputSpans.

Lemma from_expr_spans : forall e R,
    sat (fun rp => Forall (fun sub => Forall (fun x => In x (all_spans e)) (ispans sub)) (snd rp)) R (from_expr e []).
Proof.
  intros e R. unfold from_expr. eapply post_bind.
  - apply (do_from_expr_spans (fun x => In x (all_spans e))); [apply Forall_forall; auto|split; constructor].
  - intros [[[id t] s] pl] _ [_ G]. exact G.
Qed.

Lemma input_at_spec : forall r p R, sat (fun i => In i (r_inputs r)) R (input_at r p).
Proof. intros r p R. unfold input_at. destruct (nthN (r_inputs r) p) eqn:E; [exact (nthN_In _ _ _ E)|exact I]. Qed.

Lemma inputs_of_spec : forall r fp R, sat (fun l => incl l (r_inputs r)) R (inputs_of r fp).
Proof.
  intros r fp R. unfold inputs_of. induction (filter _ fp) as [|p l IH]; cbn [omap post]; [intros i []|].
  eapply post_bind; [apply input_at_spec|]. intros i _ Hi.
  eapply post_bind; [exact IH|]. intros l' _ Hl x [<-|Hx]; auto.
Qed.

Lemma inputs_of_no_err : forall r fp e, inputs_of r fp = Err e -> False.
Proof. intros r fp e H. pose proof (inputs_of_spec r fp (fun _ => False)) as X. rewrite H in X. exact X. Qed.

Definition both_in (l : list span) (e : rerror) : Prop :=
  match e with UnboundedMatchable a b => In a l /\ In b l end.

Section TailSpans.
  Variable r : regex.
  Variable fw : list (N * list N).

  Definition pp_ok (pp : option rinput) : Prop := forall p, pp = Some p -> In p (r_inputs r).

  Lemma tail_only_spans : forall fuel fp pp visited,
      pp_ok pp -> sat any (both_in (ispans r)) (tail_only r fw fuel fp pp visited).
  Proof.
    induction fuel as [|f IH]; intros fp pp visited Hpp; cbn [tail_only]; [exact I|].
    eapply post_bind; [apply inputs_of_spec|]. intros inputs _ Hin.
    destruct (first_clash pp inputs) as [[a b]|] eqn:Ec.
    { unfold first_clash in Ec. destruct pp as [q|]; [|discriminate]. destruct inputs as [|inp rest]; [discriminate|].
      inversion Ec; subst. split; apply in_map; [apply Hpp; reflexivity|apply Hin; left; reflexivity]. }
    generalize visited. induction fp as [|p ps IHps]; intros vis; [exact I|].
    destruct (memN p vis); [apply IHps|].
    destruct (assocN p fw) as [follow|]; [|apply IHps].
    eapply post_bind; [apply input_at_spec|]. intros inp _ Hinp.
    eapply (post_bind any); [destruct inp; exact I|]. intros st _ _.
    eapply post_bind; [|intros v1 _ _; apply IHps]. apply IH.
    intros q Hq. destruct pp as [q'|]; cbn [opt_or] in Hq; [apply Hpp; exact Hq|].
    destruct st; [inversion Hq; subst; exact Hinp|discriminate].
  Qed.
End TailSpans.

Lemma check_tail_only_spans : forall r, sat any (both_in (ispans r)) (check_tail_only r).
Proof.
  intros r. unfold check_tail_only. eapply post_bind; [apply tail_only_spans; intros p [=]|]. intros; exact I.
Qed.

Definition from_pool (pl : pool) (e : rerror) : Prop := exists sub, In sub pl /\ both_in (ispans sub) e.

Lemma check_each_sub_spans : forall pl ids checked, sat any (from_pool pl) (check_each_sub pl ids checked).
Proof.
  intros pl. induction ids as [|rid rest IH]; intros checked; cbn [check_each_sub]; [exact I|].
  destruct (nthN pl rid) as [sub|] eqn:E; [|exact I].
  apply (post_bind any); [|intros _ _ _; apply IH].
  apply (post_impl (check_tail_only_spans sub)); auto. intros e He. exists sub. split; [exact (nthN_In _ _ _ E)|exact He].
Qed.

Lemma check_subwords_spans : forall r fw pl fuel fp visited checked,
    sat any (from_pool pl) (check_subwords r fw pl fuel fp visited checked).
Proof.
  intros r fw pl. induction fuel as [|f IH]; intros fp visited checked; cbn [check_subwords]; [exact I|].
  eapply post_bind; [apply inputs_of_spec|]. intros inputs _ _.
  eapply post_bind; [apply check_each_sub_spans|]. intros checked1 _ _.
  generalize visited checked1. induction fp as [|p ps IHps]; intros vis chk; [exact I|].
  destruct (memN p vis); [apply IHps|].
  destruct (assocN p fw) as [follow|]; [|apply IHps].
  eapply post_bind; [apply IH|]. intros vc _ _. apply IHps.
Qed.

Theorem unbounded_spans : forall e a b, from_valid_expr e = Err (UnboundedMatchable a b) ->
    In a (all_spans e) /\ In b (all_spans e).
Proof.
  intros e a b H. enough (X : sat any (both_in (all_spans e)) (from_valid_expr e)) by (rewrite H in X; exact X).
  unfold from_valid_expr. eapply post_bind; [apply from_expr_spans|]. intros [r pl] _ Hpl. cbn [fst snd] in *.
  apply (post_bind any); [|intros; exact I]. unfold check_ambiguities. apply (post_bind any); [|intros; exact I].
  apply (post_impl (check_subwords_spans r _ pl _ _ _ _)); auto. intros [a' b'] (sub & Hs & Ha & Hb).
  rewrite Forall_forall in Hpl. specialize (Hpl sub Hs). rewrite Forall_forall in Hpl. split; auto.
Qed.
