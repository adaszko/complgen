(** C07, pwsh: what it takes to close the smart-quote finding.  If pwsh.rs appended, AFTER its five
    replacements, one [.replace(q, "`q")] for each of U+201C, U+201D, U+201E (three-byte UTF-8
    patterns E2 80 9C/9D/9E), every string would read back.  The replace chain is then no longer
    characterwise on bytes; the argument is: (1) a pass with a three-byte pattern whose replacement
    is backtick + pattern inserts a backtick before every occurrence ([replace_ins]); (2) on any string
    the passes compose: a backtick neither makes nor breaks an occurrence ([insQ_insQ]); (3) on top of
    the bytewise image of the first five replacements, a backtick stands exactly before the smart
    quotes of the ORIGINAL string ([insQ_cmap]); (4) PowerShell reads backtick + E2 as E2
    ([enc_reads]).  A string without a smart quote is written the same with and without the repair,
    which gives the exact class of the present emitter ([pwsh_roundtrip_exact]).  All facts about the
    existing chain are closed computations over the 256 bytes of the regenerated chain. *)
From CG Require Import Base.Prelude Base.Facts Model.Ast Model.Quote Spec.ShellDQ Proofs.QuoteRT.
From CGgen Require Import Consts.
Open Scope N_scope.
Open Scope list_scope.

Definition bE2 : ascii := ch 226.
Definition b80 : ascii := ch 128.
Definition is_tail (x : ascii) : bool := is_one_of x [ch 156; ch 157; ch 158].

Definition smart (x : ascii) : string := String bE2 (String b80 (String x EmptyString)).
Definition smart_chain : list (string * string) :=
  map (fun x => (smart x, String c_bt (smart x))) [ch 156; ch 157; ch 158].

Fixpoint drop (n : nat) (s : string) : string :=
  match n, s with
  | O, _ => s
  | S k, String _ t => drop k t
  | S _, EmptyString => EmptyString
  end.

Lemma replace_go_skip p r k s :
  (k <= String.length s)%nat -> replace_go p r k s = replace_go p r O (drop k s).
Proof.
  revert s. induction k as [|k IH]; intros s H; [reflexivity|].
  destruct s as [|c t]; [cbn in H; lia|]. cbn [replace_go drop]. apply IH. cbn in H. lia.
Qed.

Lemma is_prefix_length p s : is_prefix p s = true -> (String.length p <= String.length s)%nat.
Proof.
  revert s. induction p as [|a p IH]; intros s H; [cbn; lia|].
  destruct s as [|b s]; [discriminate|]. cbn in H. destruct (Ascii.eqb a b); [|discriminate].
  cbn. specialize (IH _ H). lia.
Qed.

Lemma replace_cons a p' r c t :
  replace_all (String a p') r (String c t) =
  if is_prefix (String a p') (String c t) then append r (replace_all (String a p') r (drop (String.length p') t))
  else String c (replace_all (String a p') r t).
Proof.
  unfold replace_all. cbn [replace_go]. destruct (is_prefix (String a p') (String c t)) eqn:E; [|reflexivity].
  rewrite replace_go_skip; [reflexivity|]. apply is_prefix_length in E. cbn in E. lia.
Qed.

(** [E2 80 y] with [y] in [qs] starts here: the reader's test for a smart quote, for any set of tails *)
Definition tailQ (qs : list ascii) (n1 n2 : option ascii) : bool :=
  match n1, n2 with
  | Some a, Some b => Ascii.eqb a b80 && is_one_of b qs
  | _, _ => false
  end.

Definition smart_start (qs : list ascii) (s : string) : bool :=
  match s with
  | String c t => Ascii.eqb c bE2 && tailQ qs (shd t) (shd (stl t))
  | EmptyString => false
  end.

Definition tick (b : bool) : string := if b then String c_bt EmptyString else EmptyString.

(** a backtick before every smart quote with a tail in [qs] *)
Fixpoint insQ (qs : list ascii) (u : string) : string :=
  match u with
  | EmptyString => EmptyString
  | String c t => append (tick (smart_start qs u)) (String c (insQ qs t))
  end.

Lemma smart_start_prefix x u : smart_start [x] u = is_prefix (smart x) u.
Proof.
  unfold smart. destruct u as [|c [|d [|e u]]]; cbn [smart_start shd stl tailQ is_prefix is_one_of existsb];
    rewrite ?(Ascii.eqb_sym c), ?(Ascii.eqb_sym d), ?(Ascii.eqb_sym e), ?andb_false_r, ?orb_false_r.
  - reflexivity.
  - destruct (Ascii.eqb bE2 c); reflexivity.
  - destruct (Ascii.eqb bE2 c), (Ascii.eqb b80 d); reflexivity.
  - destruct (Ascii.eqb bE2 c), (Ascii.eqb b80 d), (Ascii.eqb x e); reflexivity.
Qed.

Lemma replace_ins x :
  Ascii.eqb x bE2 = false ->
  forall n u, (String.length u <= n)%nat ->
    replace_all (smart x) (String c_bt (smart x)) u = insQ [x] u.
Proof.
  intros Hx. induction n as [|n IH]; intros u Hn.
  - destruct u; [reflexivity | cbn in Hn; lia].
  - destruct u as [|c t]; [reflexivity|].
    unfold smart at 1. rewrite replace_cons. fold (smart x). rewrite <- smart_start_prefix. cbn [insQ].
    destruct (smart_start [x] (String c t)) eqn:E; cbn [tick append].
    + (* c = E2, t = 80 :: x :: t3: neither 80 nor x starts an occurrence *)
      destruct t as [|d [|e t3]]; try (cbn in E; rewrite ?andb_false_r in E; discriminate E).
      cbn [smart_start shd stl tailQ is_one_of existsb] in E. rewrite orb_false_r in E.
      apply andb_prop in E. destruct E as [E1 E]. apply andb_prop in E. destruct E as [E2 E3].
      apply Ascii.eqb_eq in E1, E2, E3. subst c d e.
      cbn [String.length drop]. rewrite (IH t3) by (cbn in Hn; lia).
      unfold smart. cbn [append insQ smart_start]. change (Ascii.eqb b80 bE2) with false. rewrite Hx. reflexivity.
    + f_equal. apply IH. cbn in Hn. lia.
Qed.

Lemma smart_start_E2 qs c t : smart_start qs (String c t) = true -> c = bE2.
Proof. cbn [smart_start]. intros H. apply andb_prop in H. apply Ascii.eqb_eq, H. Qed.

Lemma smart_start_app qs qs' u : smart_start (qs ++ qs') u = smart_start qs u || smart_start qs' u.
Proof.
  destruct u as [|c t]; [reflexivity|]. cbn [smart_start]. unfold tailQ, is_one_of.
  destruct (shd t), (shd (stl t)); rewrite ?andb_false_r; try reflexivity.
  rewrite existsb_app. destruct (Ascii.eqb c bE2), (Ascii.eqb a b80); reflexivity.
Qed.

Lemma smart_start_other x qs u : smart_start qs u = true -> is_one_of x qs = false -> smart_start [x] u = false.
Proof.
  destruct u as [|c t]; [discriminate|]. cbn [smart_start]. unfold tailQ.
  destruct (shd t), (shd (stl t)); rewrite ?andb_false_r; try discriminate. intros H Hx.
  apply andb_prop in H. destruct H as [_ H]. apply andb_prop in H. destruct H as [_ H].
  cbn [is_one_of existsb]. destruct (Ascii.eqb_spec a0 x) as [->|]; [congruence | rewrite !andb_false_r; reflexivity].
Qed.

Lemma shd_insQ qs u : shd (insQ qs u) = if smart_start qs u then Some c_bt else shd u.
Proof. destruct u; [reflexivity|]. cbn [insQ]. destruct (smart_start qs _); reflexivity. Qed.

Lemma tailQ_insQ qs' qs t :
  is_one_of c_bt qs' = false -> is_one_of bE2 qs' = false ->
  tailQ qs' (shd (insQ qs t)) (shd (stl (insQ qs t))) = tailQ qs' (shd t) (shd (stl t)).
Proof.
  intros Hb HE. destruct t as [|d t1]; [reflexivity|]. cbn [insQ].
  destruct (smart_start qs (String d t1)) eqn:S; cbn [tick append shd stl].
  - rewrite (smart_start_E2 _ _ _ S). destruct (shd t1); reflexivity.
  - rewrite shd_insQ. destruct (smart_start qs t1) eqn:S1; [|reflexivity].
    destruct t1 as [|e t2]; [discriminate S1|]. rewrite (smart_start_E2 _ _ _ S1).
    cbn [tailQ shd]. rewrite Hb, HE. reflexivity.
Qed.

Lemma insQ_insQ x qs u :
  Ascii.eqb c_bt x = false -> Ascii.eqb bE2 x = false -> is_one_of x qs = false ->
  insQ [x] (insQ qs u) = insQ (qs ++ [x]) u.
Proof.
  intros Hb HE Hq.
  assert (W : forall c t, smart_start [x] (String c (insQ qs t)) = smart_start [x] (String c t)).
  { intros c t. cbn [smart_start]. rewrite tailQ_insQ; [reflexivity | ..]; cbn [is_one_of existsb]; rewrite ?Hb, ?HE; reflexivity. }
  induction u as [|c t IH]; [reflexivity|]. cbn [insQ]. rewrite smart_start_app.
  destruct (smart_start qs (String c t)) eqn:S; cbn [tick append orb insQ].
  - pose proof (smart_start_E2 _ _ _ S) as ->. change (smart_start [x] (String c_bt (String bE2 (insQ qs t)))) with false.
    rewrite W, (smart_start_other x _ _ S Hq), IH. reflexivity.
  - rewrite W, IH. reflexivity.
Qed.

Definition hi (c : ascii) : bool := Nat.leb 128 (nat_of_ascii c).

Fixpoint lo_string (s : string) : bool :=
  match s with EmptyString => true | String b t => negb (hi b) && lo_string t end.

Lemma hi_E2 : hi bE2 = true. Proof. reflexivity. Qed.
Lemma hi_80 : hi b80 = true. Proof. reflexivity. Qed.

Lemma lo_not x c : hi x = true -> hi c = false -> Ascii.eqb c x = false.
Proof. intros Hx Hc. destruct (Ascii.eqb_spec c x); [subst; congruence | reflexivity]. Qed.

Lemma insQ_lo qs a u : lo_string a = true -> insQ qs (append a u) = append a (insQ qs u).
Proof.
  induction a as [|b a IH]; intros Ha; [reflexivity|]. cbn [lo_string] in Ha. apply andb_prop in Ha.
  destruct Ha as [Hb Ha]. apply negb_true_iff in Hb. cbn [append insQ smart_start].
  rewrite (lo_not bE2 b hi_E2 Hb), (IH Ha). reflexivity.
Qed.

Definition hi_set (qs : list ascii) : Prop := forall y, is_one_of y qs = true -> hi y = true.

Section Enc.
Variable f : ascii -> string.
Hypothesis f_hi : forall c, hi c = true -> f c = String c EmptyString.
Hypothesis f_lo : forall c, hi c = false -> lo_string (f c) = true /\ f c <> EmptyString.

Fixpoint encQ (qs : list ascii) (s : string) : string :=
  match s with
  | EmptyString => EmptyString
  | String c t => append (tick (smart_start qs s)) (append (f c) (encQ qs t))
  end.

(** what is written for [c] starts with a high byte only if it is [c] itself, alone *)
Lemma f_head c : exists h r, f c = String h r /\ (hi h = true -> h = c /\ r = EmptyString).
Proof.
  destruct (hi c) eqn:Hc.
  - exists c, EmptyString. split; [apply f_hi, Hc | auto].
  - destruct (f_lo c Hc) as [Hlo Hne]. destruct (f c) as [|h r]; [congruence|]. exists h, r. split; [reflexivity|].
    cbn [lo_string] in Hlo. apply andb_prop in Hlo. destruct Hlo as [Hh _]. apply negb_true_iff in Hh. congruence.
Qed.

Lemma head_mem qs c h r : hi_set qs -> f c = String h r -> is_one_of h qs = is_one_of c qs.
Proof.
  intros Hqs E. destruct (f_head c) as [h' [r' [E' Hh]]]. rewrite E in E'. injection E' as <- <-.
  destruct (is_one_of h qs) eqn:E1; [destruct (Hh (Hqs _ E1)) as [<- _]; auto|].
  destruct (is_one_of c qs) eqn:E2; [|reflexivity].
  rewrite (f_hi c (Hqs _ E2)) in E. injection E as <- _. congruence.
Qed.

Lemma tailQ_cmap qs t :
  hi_set qs -> tailQ qs (shd (cmap f t)) (shd (stl (cmap f t))) = tailQ qs (shd t) (shd (stl t)).
Proof.
  intros Hqs. destruct t as [|d t1]; [reflexivity|]. cbn [cmap shd stl].
  destruct (f_head d) as [h [r [E Hh]]]. rewrite E. cbn [append shd stl tailQ].
  destruct (Ascii.eqb_spec h b80) as [->|Hne].
  - destruct (Hh hi_80) as [<- ->]. rewrite Ascii.eqb_refl. cbn [append andb].
    destruct t1 as [|e t2]; [reflexivity|]. cbn [cmap shd]. destruct (f_head e) as [h2 [r2 [E2 _]]]. rewrite E2.
    exact (head_mem qs e h2 r2 Hqs E2).
  - destruct (Ascii.eqb_spec d b80) as [->|]; [rewrite (f_hi b80 hi_80) in E; congruence|].
    destruct (shd (r ++ cmap f t1)%string), (shd t1); reflexivity.
Qed.

Lemma insQ_cmap qs s : hi_set qs -> insQ qs (cmap f s) = encQ qs s.
Proof.
  intros Hqs. induction s as [|c t IH]; [reflexivity|]. cbn [cmap encQ]. destruct (hi c) eqn:Hc.
  - rewrite (f_hi c Hc). cbn [append insQ smart_start]. rewrite (tailQ_cmap qs t Hqs), IH. reflexivity.
  - destruct (f_lo c Hc) as [Hlo _]. rewrite (insQ_lo _ _ _ Hlo), IH. cbn [smart_start].
    rewrite (lo_not bE2 c hi_E2 Hc). reflexivity.
Qed.

Lemma shd_encQ qs t r :
  shd (append (encQ qs t) r)
  = match t with
    | EmptyString => shd r
    | String d _ => if smart_start qs t then Some c_bt else shd (f d)
    end.
Proof.
  destruct t as [|d t1]; [reflexivity|]. cbn [encQ]. destruct (smart_start qs (String d t1)); [reflexivity|].
  destruct (f_head d) as [h [r' [-> _]]]. reflexivity.
Qed.

Definition all3 : list ascii := [ch 156; ch 157; ch 158].

Lemma hi_all3 : hi_set all3.
Proof.
  intros y H. unfold is_one_of, all3 in H. cbn [existsb] in H.
  repeat (apply orb_prop in H; destruct H as [H|H]); try discriminate; apply Ascii.eqb_eq in H; subst; reflexivity.
Qed.

Hypothesis f_bt : shd (f c_bt) = Some c_bt.
Definition follower_f (o : option ascii) : option ascii :=
  match o with Some c' => shd (f c') | None => Some c_dq end.
Hypothesis Hstep : forall c o K t rest,
  hazard Pwsh c o = false -> shd K = follower_f o ->
  read_body Pwsh K = Some (t, rest) ->
  read_body Pwsh (append (f c) K) = Some (String c t, rest).

Lemma enc_reads s rest :
  safe Pwsh rest = true ->
  read_body Pwsh (append (encQ all3 s) (String c_dq rest)) = Some (s, rest).
Proof.
  intros Hsafe. induction s as [|c t IH].
  - cbn [encQ append]. rewrite read_body_unfold, (close_ok Pwsh rest Hsafe). reflexivity.
  - cbn [encQ]. rewrite !append_assoc.
    set (K := append (encQ all3 t) (String c_dq rest)) in *.
    destruct (smart_start all3 (String c t)) eqn:S; cbn [tick append].
    + (* an escaped smart quote: backtick, E2, then the rest *)
      pose proof (smart_start_E2 _ _ _ S) as ->. rewrite (f_hi bE2 hi_E2). cbn [append].
      rewrite read_body_unfold. cbn [shd stl classify]. rewrite IH. reflexivity.
    + set (o := if smart_start all3 t then Some c_bt else shd t).
      assert (HK : shd K = follower_f o).
      { unfold K, o. rewrite shd_encQ. destruct t as [|d t1]; [reflexivity|].
        destruct (smart_start all3 (String d t1)); [symmetry; exact f_bt | reflexivity]. }
      destruct (hazard Pwsh c o) eqn:Hz; [|apply (Hstep c o K t rest Hz HK IH)].
      (* E2 followed by 80, but not by a smart-quote tail: the reader's three-byte test fails *)
      cbn [hazard] in Hz. apply andb_prop in Hz. destruct Hz as [Hc Ho]. apply Ascii.eqb_eq in Hc. subst c.
      unfold o in Ho. destruct (smart_start all3 t); [discriminate Ho|].
      destruct t as [|d t1]; [discriminate Ho|]. cbn [shd] in Ho. apply Ascii.eqb_eq in Ho. subst d.
      assert (EK : K = String b80 (append (encQ all3 t1) (String c_dq rest))).
      { unfold K. cbn [encQ smart_start]. change (Ascii.eqb (ch 128) bE2) with false. cbn [andb tick append].
        change (f (ch 128)) with (f b80). rewrite (f_hi b80 hi_80), append_assoc. reflexivity. }
      assert (Hn : is_smart_quote_tail (Some b80) (shd (append (encQ all3 t1) (String c_dq rest))) = false).
      { change (is_smart_quote_tail (Some b80)) with (tailQ all3 (Some b80)).
        cbn [smart_start shd stl] in S. change (Ascii.eqb (ch 226) bE2) with true in S. cbn [andb] in S.
        rewrite shd_encQ. destruct t1 as [|e t2]; [reflexivity|].
        destruct (smart_start all3 (String e t2)); [reflexivity|].
        destruct (f_head e) as [h [r [E _]]]. rewrite E. cbn [shd tailQ] in S |- *.
        rewrite (head_mem all3 e h r hi_all3 E). exact S. }
      change (f (ch 226)) with (f bE2). rewrite (f_hi bE2 hi_E2). cbn [append].
      rewrite read_body_unfold, IH, EK. cbn [shd stl classify]. unfold classify_pwsh.
      change (Ascii.eqb bE2 (ch 226)) with true. cbn iota. rewrite Hn. reflexivity.
Qed.
End Enc.

Definition img_ok (c : ascii) : bool :=
  if hi c then String.eqb (imgc Pwsh c) (String c EmptyString)
  else lo_string (imgc Pwsh c) && negb (String.eqb (imgc Pwsh c) EmptyString).

Lemma img_ok_all : forallb img_ok all_bytes = true. Proof. vm_compute. reflexivity. Qed.

Lemma f_hi_pwsh c : hi c = true -> imgc Pwsh c = String c EmptyString.
Proof.
  intros H. pose proof (all_bytes_forall img_ok img_ok_all c) as T. unfold img_ok in T. rewrite H in T.
  apply String.eqb_eq, T.
Qed.

Lemma f_lo_pwsh c : hi c = false -> lo_string (imgc Pwsh c) = true /\ imgc Pwsh c <> EmptyString.
Proof.
  intros H. pose proof (all_bytes_forall img_ok img_ok_all c) as T. unfold img_ok in T. rewrite H in T.
  apply andb_prop in T. destruct T as [T1 T2]. split; [exact T1|]. intros E. rewrite E in T2. discriminate T2.
Qed.

Lemma f_bt_pwsh : shd (imgc Pwsh c_bt) = Some c_bt.
Proof. vm_compute. reflexivity. Qed.

Lemma single_pwsh : single_patterns (chain Pwsh) = true.
Proof. vm_compute. reflexivity. Qed.

Lemma step_pwsh c o K t rest :
  hazard Pwsh c o = false -> shd K = follower_f (imgc Pwsh) o ->
  read_body Pwsh K = Some (t, rest) ->
  read_body Pwsh (append (imgc Pwsh c) K) = Some (String c t, rest).
Proof.
  intros Hz HK IH. apply (body_step_gen Pwsh c o K t rest); [|exact HK | exact IH].
  apply (pairs_table_sound Pwsh (pairs_ok Pwsh)). exact Hz.
Qed.

Lemma pwsh_reads s rest :
  safe Pwsh rest = true -> read_body Pwsh (append (encQ (imgc Pwsh) all3 s) (String c_dq rest)) = Some (s, rest).
Proof. exact (enc_reads (imgc Pwsh) f_hi_pwsh f_lo_pwsh f_bt_pwsh step_pwsh s rest). Qed.

Lemma apply_chain_app a b s : apply_chain (a ++ b) s = apply_chain b (apply_chain a s).
Proof. unfold apply_chain. apply fold_left_app. Qed.

(** the chain pwsh.rs would have after the repair *)
Definition patched_chain : list (string * string) := chain Pwsh ++ smart_chain.

Lemma patched_encoding s : apply_chain patched_chain s = encQ (imgc Pwsh) all3 s.
Proof.
  unfold patched_chain. rewrite apply_chain_app, (chain_charwise _ single_pwsh).
  change (img (chain Pwsh)) with (imgc Pwsh).
  unfold smart_chain, apply_chain. cbn [map fold_left fst snd].
  rewrite (replace_ins (ch 156) eq_refl _ _ (Nat.le_refl _)).
  rewrite (replace_ins (ch 157) eq_refl _ _ (Nat.le_refl _)).
  rewrite (replace_ins (ch 158) eq_refl _ _ (Nat.le_refl _)).
  rewrite (insQ_insQ (ch 157) [ch 156]) by reflexivity.
  rewrite (insQ_insQ (ch 158) [ch 156; ch 157]) by reflexivity.
  apply (insQ_cmap (imgc Pwsh) f_hi_pwsh f_lo_pwsh all3 s hi_all3).
Qed.

(** with the three extra replacements every string reads back: no hazard class is left *)
Theorem pwsh_patched_total s rest :
  safe Pwsh rest = true ->
  read Pwsh (append (append dq_string (append (apply_chain patched_chain s) dq_string)) rest) = Some (s, rest).
Proof.
  intros Hsafe. rewrite patched_encoding. unfold dq_string. cbn [append read].
  change (Ascii.eqb c_dq c_dq) with true. cbn iota. rewrite append_assoc. cbn [append].
  apply pwsh_reads, Hsafe.
Qed.

(** Without a smart double quote (U+201C, U+201D, U+201E) there is nothing to escape,
    and the constant written now is the one the repaired chain would write *)
Lemma encQ_smart_free f s : smart_free s = true -> encQ f all3 s = cmap f s.
Proof.
  induction s as [|c t IH]; [reflexivity|]. cbn [smart_free encQ cmap]. intros H.
  apply andb_prop in H. destruct H as [H Ht]. apply negb_true_iff in H.
  change (smart_start all3 (String c t)) with (Ascii.eqb c (ch 226) && is_smart_quote_tail (shd t) (shd (stl t))).
  rewrite H, (IH Ht). reflexivity.
Qed.

Theorem pwsh_roundtrip_exact s rest :
  smart_free s = true -> safe Pwsh rest = true ->
  read Pwsh (append (make_string_constant Pwsh s) rest) = Some (s, rest).
Proof.
  apply (roundtrip_from_body Pwsh (fun s => smart_free s = true) eq_refl).
  intros s0 rest0 Hs Hsafe. rewrite <- (encQ_smart_free (imgc Pwsh) s0 Hs). apply pwsh_reads, Hsafe.
Qed.
