(** Source-level corollary of the capstone, C01 + C04: from the grammar TEXT to what the emitted
    bash script computes.  [compile_bash o builtins text = Ok s] gives the validated tree [v], the
    automata [c] and the tables [a]; the script text [s] reads back to statements that carry exactly
    the tables [a] ([C04_end_to_end_bash]), and the interpreter of the script's functions on [a]
    ([BashSem.run_from Repaired]) answers within what the specification [Meaning.complete] of the
    tree prescribes: status 1 where it prescribes none, else every required candidate and only
    allowed ones ([C01_bash_meaning]).  The hypotheses of those theorems that follow from the
    pipeline are discharged here: the shape [sub_tree] ([parsed_sub_tree]), [alts_nonempty], the
    validity of the literal orders, and their being duplicate-free from [text_descr_ok]. *)
From CG Require Import Base.Prelude Model.Ast Model.Parser Model.Check Model.Dfa Model.Driver Model.Tables
  Model.EmitBash Model.Compiler Model.BashSem Model.Glob.
From CG Require Import Spec.Lang Spec.ScriptRead Spec.Meaning Spec.Domain Spec.Invocations Spec.KnownC01 Spec.Shape Spec.Image.
From CG Require Import Proofs.CheckChoice Proofs.CheckLemmas Proofs.CheckSpans Proofs.CheckTotal Proofs.CheckProvenance
  Proofs.LangBridge Proofs.TreeAtoms Proofs.ParseImage.
From CG Require Import Proofs.TablesSound Proofs.BashCodec Proofs.BashScript Proofs.TreeFacts Proofs.EmbedEndToEnd Proofs.DriverFacts.
From CG Require Import Proofs.CheckTree Proofs.SubChecks Proofs.BashMeaningSub Proofs.BashMeaningMix
  Proofs.StripFacts Proofs.GlobFacts Proofs.CompilerTotal Proofs.SubBridge Proofs.CapstoneDescr Proofs.CapstoneLits.
From CGgen Require Import Consts.
From CG Require Props.C05b Props.C04b Props.C01.

(** no command of [e] has the completion-side flag (zsh compadd) on *)
Definition zfree (e : expr) : Prop := forall c z sp, In (ACmd c z sp) (atoms e) -> z = false.

Definition grammar_zfree (g : grammar) : Prop := forall s, In s g -> zfree (stmt_expr s).

Theorem from_grammar_zfree builtins g sh v :
  shell_eqb sh Zsh = false -> grammar_zfree g -> from_grammar builtins g sh = Ok v -> zfree (v_expr v).
Proof.
  intros Hsh Hg H c z sp Hx. apply from_grammar_ok in H. rename H into A.
  destruct (from_grammar_atoms _ _ _ _ A _ Hx) as [y [Hy [[<-|[t0 [sp0 [d [_ [F _]]]]]]|[n [sp' [-> Hs]]]]]]; [| discriminate F |].
  - destruct (source_atoms_inv g _ Hy) as [s [Hs Hin]]. exact (Hg s Hs c z sp Hin).
  - destruct (specialize_ref_cases sh (a_us _ _ _ _ A) (builtins sh) (a_fs _ _ _ _ A) (map d_name (a_defs1 _ _ _ _ A)) n 0 sp')
      as [E|[c' [z' [E Hz]]]]; rewrite E in Hs; destruct Hs as [F|[]]; inversion F; subst.
    unfold is_zsh in Hz. rewrite Hsh in Hz. destruct Hz; assumption.
Qed.

Lemma gshapeb_zfree lit nt cmd e : forall w, gshapeb lit nt cmd w e = true -> zfree e.
Proof.
  assert (Hl : forall cs w, Forall (fun e => forall w, gshapeb lit nt cmd w e = true -> zfree e) cs ->
                            forallb (gshapeb lit nt cmd w) cs = true ->
                            forall c z sp, In (ACmd c z sp) (flat_map atoms cs) -> z = false).
  { intros cs w H Hs c z sp Hz. rewrite forallb_forall in Hs. rewrite Forall_forall in H.
    apply in_flat_map in Hz. destruct Hz as [x [Hx Hz]]. exact (H x Hx w (Hs x Hx) c z sp Hz). }
  induction e using expr_ind'; intros w Hs; cbn [gshapeb] in Hs; intros c0 z0 sp0 Hz; cbn [atoms] in Hz.
  - destruct Hz as [F|[]]. discriminate F.
  - destruct Hz as [F|[]]. discriminate F.
  - apply andb_prop in Hs. destruct Hs as [Hs _]. apply andb_prop in Hs. destruct Hs as [_ Hz'].
    destruct Hz as [F|[]]. injection F as _ <- _. destruct z; [discriminate|reflexivity].
  - apply andb_prop in Hs. exact (Hl cs w H (proj2 Hs) c0 z0 sp0 Hz).
  - apply andb_prop in Hs. exact (Hl cs w H (proj2 Hs) c0 z0 sp0 Hz).
  - exact (IHe w Hs c0 z0 sp0 Hz).
  - exact (IHe w Hs c0 z0 sp0 Hz).
  - destruct Hz as [F|Hz]; [discriminate F|]. exact (IHe w Hs c0 z0 sp0 Hz).
  - apply andb_prop in Hs. exact (Hl cs w H (proj2 Hs) c0 z0 sp0 Hz).
  - apply andb_prop in Hs. destruct Hs as [_ Hs]. destruct e; try discriminate.
    exact (IHe true Hs c0 z0 sp0 Hz).
Qed.

Lemma parse_zfree text g : Parser.parse text = Ok g -> grammar_zfree g.
Proof.
  intros H s Hs. pose proof (parse_image pinned text g H) as Hi. rewrite forallb_forall in Hi.
  specialize (Hi s Hs). destruct s as [n sp e|n sp [[shn shsp]|] rhs]; cbn [stmt_img stmt_expr] in *.
  - apply andb_prop in Hi. destruct Hi as [_ Hi]. eapply gshapeb_zfree. exact Hi.
  - repeat (apply andb_prop in Hi; destruct Hi as [Hi ?]). eapply gshapeb_zfree. eassumption.
  - repeat (apply andb_prop in Hi; destruct Hi as [Hi ?]). eapply gshapeb_zfree. eassumption.
Qed.

Lemma zfree_child cs c : In c cs -> (forall c0 z sp, In (ACmd c0 z sp) (flat_map atoms cs) -> z = false) -> zfree c.
Proof. intros Hc Hz c0 z sp Hin. apply (Hz c0 z sp). apply in_flat_map. eauto. Qed.

Lemma toplevel_of e : dd_free e = true -> subword_free e = true -> zfree e -> toplevel_tree e = true.
Proof.
  induction e using expr_ind'; cbn [dd_free subword_free toplevel_tree]; intros Hd Hs Hz; try reflexivity; try discriminate;
    try (apply IHe; assumption).
  - rewrite (Hz c z sp (or_introl eq_refl)). reflexivity.
  - rewrite forallb_forall in *. rewrite Forall_forall in H. intros x Hx.
    exact (H x Hx (Hd x Hx) (Hs x Hx) (zfree_child cs x Hx Hz)).
  - rewrite forallb_forall in *. rewrite Forall_forall in H. intros x Hx.
    exact (H x Hx (Hd x Hx) (Hs x Hx) (zfree_child cs x Hx Hz)).
  - rewrite forallb_forall in *. rewrite Forall_forall in H. intros x Hx.
    exact (H x Hx (Hd x Hx) (Hs x Hx) (zfree_child cs x Hx Hz)).
Qed.

Lemma sub_tree_of e : dd_free e = true -> flat_subwords e = true -> zfree e -> sub_tree e = true.
Proof.
  induction e using expr_ind'; cbn [dd_free flat_subwords sub_tree]; intros Hd Hs Hz; try reflexivity; try discriminate;
    try (apply IHe; assumption).
  - rewrite (Hz c z sp (or_introl eq_refl)). reflexivity.
  - rewrite forallb_forall in *. rewrite Forall_forall in H. intros x Hx.
    exact (H x Hx (Hd x Hx) (Hs x Hx) (zfree_child cs x Hx Hz)).
  - rewrite forallb_forall in *. rewrite Forall_forall in H. intros x Hx.
    exact (H x Hx (Hd x Hx) (Hs x Hx) (zfree_child cs x Hx Hz)).
  - rewrite forallb_forall in *. rewrite Forall_forall in H. intros x Hx.
    exact (H x Hx (Hd x Hx) (Hs x Hx) (zfree_child cs x Hx Hz)).
  - apply toplevel_of; assumption.
Qed.

(** The validated tree of a PARSED text, compiled for a shell other than zsh, has the shape the C01
    theorem asks for ([SubBridge.sub_tree]): no distributive description left, no word inside a
    word, and no completion-side command.  The first two are [check_tree]; the third: the parser
    only builds commands with the flag off ([parse_zfree], read off [parse_image]), and
    [specialize] sets it only for zsh ([from_grammar_zfree]). *)
Theorem parsed_sub_tree builtins text g sh v :
  Parser.parse text = Ok g -> shell_eqb sh Zsh = false -> from_grammar builtins g sh = Ok v -> sub_tree (v_expr v) = true.
Proof.
  intros Hg Hsh Hv. destruct (check_tree builtins g sh v Hv) as [Hdd [Hflat _]].
  apply sub_tree_of; [exact Hdd|exact Hflat|].
  apply (from_grammar_zfree builtins g sh v Hsh (parse_zfree text g Hg) Hv).
Qed.
Open Scope N_scope.
Open Scope list_scope.

(** why [text_descr_ok] is asked: the head of CapstoneDescr.v *)
Lemma text_orders_nodup o builtins text g v c :
  Parser.parse text = Ok g -> from_grammar builtins g Bash = Ok v ->
  compile_valid (pick_table (o_pops o)) (o_fuel o) v = Ok c ->
  orders_ok c (o_main_lits o) (o_sub_lits o) = true -> text_descr_ok text = true ->
  NoDup (o_main_lits o) /\ (forall pi ord, assocN pi (o_sub_lits o) = Some ord -> NoDup ord).
Proof.
  intros Hg Hv Hcv Ho Ht.
  exact (compiled_orders_nodup _ _ v c _ _ Hcv
           (from_grammar_tok builtins g Bash v (text_descr_ok_sound text g Hg Ht) Hv) Ho).
Qed.

Lemma sub_orders_ok_of c o :
  orders_ok c (o_main_lits o) (o_sub_lits o) = true ->
  (forall pi ord, assocN pi (o_sub_lits o) = Some ord -> NoDup ord) -> sub_orders_ok c (o_sub_lits o).
Proof.
  intros Ho Hn pi sd Hsd. split.
  - destruct (assocN pi (o_sub_lits o)) as [ord|] eqn:E; [eapply Hn; eauto|constructor].
  - exact (orders_ok_sub c _ _ pi sd Ho Hsd).
Qed.

Lemma compile_bash_inv o builtins text s :
  compile_bash o builtins text = Ok s ->
  exists g v c nd a,
    Parser.parse text = Ok g /\ from_grammar builtins g Bash = Ok v
    /\ compile_valid (pick_table (o_pops o)) (o_fuel o) v = Ok c
    /\ compile (pick_table (o_pops o)) (o_fuel o) builtins text Bash = Ok (v, c)
    /\ alts_nonempty (v_expr v) = true
    /\ orders_ok c (o_main_lits o) (o_sub_lits o) = true
    /\ all_tables Bash c (o_main_lits o) (o_sub_lits o) = Ok (nd, a)
    /\ valid_grouping a (o_groups o) = true
    /\ script (v_command v) (o_sig o) (d_start (c_main c)) nd a (o_groups o) = Ok s.
Proof.
  intro H. unfold compile_bash in H.
  destruct (compile (pick_table (o_pops o)) (o_fuel o) builtins text Bash) as [[v c]|e'| |] eqn:Hc; try discriminate.
  unfold emit_bash in H.
  destruct (orders_ok c (o_main_lits o) (o_sub_lits o)) eqn:Ho; [|discriminate].
  destruct (all_tables Bash c (o_main_lits o) (o_sub_lits o)) as [[nd a]| | |] eqn:Ha; try discriminate.
  destruct (valid_grouping a (o_groups o)) eqn:Vg; [|discriminate].
  destruct (script (v_command v) (o_sig o) (d_start (c_main c)) nd a (o_groups o)) as [s'| | |] eqn:Hs; try discriminate.
  inversion H; subst s'.
  destruct (proj1 (compile_Ok _ _ _ _ _ _ _) Hc) as (g & Hg & Hv & Hcv).
  destruct (check_tree builtins g Bash v Hv) as [_ [_ [_ Halts]]].
  specialize (Halts (Props.C05b.parse_alts_nonempty text g Hg)).
  exists g, v, c, nd, a. repeat (split; [first [assumption|reflexivity]|]). assumption.
Qed.

Theorem compile_bash_meaning o builtins text s :
  compile_bash o builtins text = Ok s ->
  exists v c nd a,
    compile (pick_table (o_pops o)) (o_fuel o) builtins text Bash = Ok (v, c)
    /\ all_tables Bash c (o_main_lits o) (o_sub_lits o) = Ok (nd, a)
    (* what the script text carries *)
    /\ (name_ok (v_command v) -> no_nl (o_sig o) = true ->
        Forall (fun cmd => body_ok (cmd_body cmd)) (a_commands a) -> text_descr_ok text = true ->
        (exists sts,
            script_stmts (v_command v) (d_start (c_main c)) nd a (o_groups o) = Ok sts
            /\ read_stmts Bash (v_command v) s = sts
            /\ carries_main (v_command v) (d_start (c_main c)) a sts
            /\ carries_subs (v_command v) nd a (o_groups o) sts
            /\ (n_subwords nd = true -> carries_each_sub (v_command v) a sts))
        /\ tables_describe c (o_main_lits o) (o_sub_lits o) a
        /\ (forall w, accepts_items c w <-> denotes (v_expr v) w))
    (* what the functions of the script compute on those tables *)
    /\ (forall (benv : BashSem.env) (en : Meaning.env) ws p,
        text_descr_ok text = true -> subs_deterministic c ->
        C01_domain (v_expr v) = true -> C01_env_ok (v_expr v) en = true ->
        BashSem.e_ignore_case benv = false -> BashSem.e_wordbreaks benv = Meaning.e_wordbreaks en ->
        breaks_ok (BashSem.e_wordbreaks benv) = true -> plain p = true -> printable_str p = true ->
        (forall cm cid, Tables.index_of cm (a_commands a) = Some cid ->
                        spec_candidates (cmd_output benv cid) = candidates en cm) ->
        ambiguous_run en (start (v_expr v)) ws = false ->
        match complete (v_expr v) en ws p with
        | None => exists log, run_from Repaired (d_start (c_main c)) a benv ws p = Ok (mkresult 1 [] log)
        | Some (req, al) =>
            exists reply log, run_from Repaired (d_start (c_main c)) a benv ws p = Ok (mkresult 0 reply log)
                              /\ incl req reply /\ incl reply al
        end).
Proof.
  intro H. destruct (compile_bash_inv o builtins text s H) as [g [v [c [nd [a [Hg [Hv [Hcv [Hc [Halts [Ho [Ha [Vg Hs]]]]]]]]]]]]].
  exists v, c, nd, a. split; [exact Hc|]. split; [exact Ha|]. split.
  - intros Hn Hsig Hb Hnd.
    destruct (text_orders_nodup o builtins text g v c Hg Hv Hcv Ho Hnd) as [Nm Ns].
    destruct (Props.C04b.C04_end_to_end_bash _ _ _ _ _ _ _ _ _ _ _ _ _ Hc Hn Hsig Hb Nm Ns Ha Hs) as [[sts [S1 [S2 [S3 [S4 S5]]]]] [T D]].
    split; [|split; assumption].
    exists sts. split; [exact S1|]. split; [exact S2|]. split; [exact S3|]. split; [exact S4|].
    intro Hw. exact (S5 Vg Hw).
  - intros benv en ws p Hnd Hdet Hdom Henv Hic Hwb Hbr Hpl Hpr Hcm Hamb.
    destruct (text_orders_nodup o builtins text g v c Hg Hv Hcv Ho Hnd) as [Nm Ns].
    exact (Props.C01.C01_bash_meaning _ _ v c _ _ nd a benv en ws p
             (parsed_sub_tree builtins text g Bash v Hg eq_refl Hv) Halts Hcv Ha
             Nm (orders_ok_main c _ _ Ho) (sub_orders_ok_of c o Ho Ns) Hdet Hdom Henv
             Hic Hwb Hbr Hpl Hpr Hcm Hamb).
Qed.
