(** C11: the lookup performed by the model of [specialize_nonterminals] (+ [resolve]) agrees
    with [Spec.Choice.spec] whenever [collect_plain_defs] and [get_specializations] succeed. *)
From CG Require Import Base.Prelude Base.Facts Model.Ast Model.Check Spec.Choice Spec.Mistakes.
From CG Require Import Proofs.CheckMistakes.

Lemma get_specializations_inv g sh us fs :
  get_specializations g sh = Ok (us, fs) <->
  get_user_specs sh (all_defs g) [] = Ok us /\ get_fallback_specs (map fst us) (all_defs g) [] = Ok fs.
Proof.
  unfold get_specializations. split.
  - intro H. apply obind_ok in H. destruct H as [us' [Hus H]]. apply obind_ok in H.
    destruct H as [fs' [Hfs H]]. inversion H; subst. split; assumption.
  - intros [Hus Hfs]. rewrite Hus. cbn [obind]. rewrite Hfs. reflexivity.
Qed.

Lemma shell_eqb_eq a b : shell_eqb a b = true <-> a = b.
Proof. destruct a, b; cbn; split; intro H; try reflexivity; discriminate. Qed.

Lemma user_view_assoc g sh x :
  ds_non_command (all_defs g) = false ->
  match shell_definition g sh x with
  | Some rhs => exists s z l sp, assoc x (user_view sh (all_defs g)) = Some s
                                 /\ rhs = Command (us_cmd s) z l sp
  | None => assoc x (user_view sh (all_defs g)) = None
  end.
Proof.
  unfold user_view, ds_non_command, all_defs.
  induction g as [|[n sp e|n sp [[shn shsp]|] rhs] g IH]; cbn [flat_map app existsb shell_definition];
    intro H; [reflexivity|apply IH; exact H| |apply IH; exact H].
  apply orb_false_iff in H. destruct H as [Hc H]. specialize (IH H).
  destruct rhs as [| |cmd z lv csp| | | | | | |]; try discriminate.
  destruct (is_shell shn sh); [|rewrite andb_false_r; exact IH].
  rewrite andb_true_r. cbn [app assoc]. rewrite (String.eqb_sym x n).
  destruct (String.eqb n x); [|exact IH]. exists (mkspec cmd sp), z, lv, csp. split; reflexivity.
Qed.

Lemma get_fallback_specs_keys specialized ds : forall acc fs x,
  get_fallback_specs specialized ds acc = Ok fs ->
  assoc x fs <> None -> assoc x acc <> None \/ mem_str x specialized = true.
Proof.
  induction ds as [|[[[n nsp] sh] rhs] r IH]; intros acc fs x H Hx.
  - cbn in H. inversion H; subst. left. exact Hx.
  - cbn [get_fallback_specs] in H. destruct sh as [s|]; [eapply IH; eauto|].
    destruct (mem_str n specialized) eqn:Hm; [|eapply IH; eauto].
    destruct rhs as [| |cmd z lv csp| | | | | | |]; try discriminate.
    destruct (assoc n acc) as [[c prev]|] eqn:Hprev; [discriminate|].
    destruct (IH _ _ x H Hx) as [Ha|Hs]; [|right; exact Hs].
    rewrite assoc_app in Ha. cbn [assoc] in Ha.
    destruct (assoc x acc) eqn:Hxa; [left; discriminate|].
    destruct (String.eqb x n) eqn:Hxn; [|exfalso; apply Ha; reflexivity].
    apply String.eqb_eq in Hxn. subst. right. exact Hm.
Qed.

(** What a node left behind by [specialize] stands for: a command, or -- after [resolve] -- the
    plain definition, or any word. *)
Definition meaning (plain_rhs : string -> option expr) (e : expr) : choice :=
  match e with
  | Command c _ _ _ => ChCommand c
  | NontermRef n _ _ =>
      match plain_rhs n with Some rhs => ChPlain rhs | None => ChAny end
  | _ => ChAny
  end.

(** What a reference becomes, from the lookups of the specification *)
Definition choose_ref (builtins : shell -> list (string * string)) (g : grammar) (sh : shell)
           (n : string) (l : N) (sp : span) : expr :=
  match shell_definition g sh n with
  | Some (Command c _ _ _) => Command c (is_zsh sh) l sp
  | Some _ => NontermRef n l sp
  | None =>
      match plain_definition g n with
      | Some _ => NontermRef n l sp
      | None => match assoc n (builtins sh) with
                | Some c => Command c (is_zsh sh) l sp
                | None => NontermRef n l sp
                end
      end
  end.

Section Choose.
  Variable builtins : shell -> list (string * string).
  Variable g : grammar.
  Variable sh : shell.
  Variable defs : list defn.
  Variable us : list (string * user_spec).
  Variable fs : list (string * (string * span)).
  Hypothesis Hcollect : collect_plain_defs (all_defs g) [] = Ok defs.
  Hypothesis Hspecs : get_specializations g sh = Ok (us, fs).

  Lemma us_shell_definition x :
    match shell_definition g sh x with
    | Some rhs => exists s z l sp, assoc x us = Some s /\ rhs = Command (us_cmd s) z l sp
    | None => assoc x us = None
    end.
  Proof.
    destruct (proj1 (get_specializations_inv _ _ _ _) Hspecs) as [Hus _].
    destruct (get_user_specs_ok _ _ _ Hus) as (Heq & _ & Hc & _). rewrite Heq.
    exact (user_view_assoc g sh x Hc).
  Qed.

  Lemma fs_none y : assoc y us = None -> assoc y fs = None.
  Proof.
    intro H. destruct (proj1 (get_specializations_inv _ _ _ _) Hspecs) as [_ Hfs].
    destruct (assoc y fs) eqn:E; [|reflexivity]. exfalso.
    destruct (get_fallback_specs_keys _ _ _ _ y Hfs) as [Ha|Hm].
    - rewrite E. discriminate.
    - apply Ha. reflexivity.
    - rewrite mem_str_assoc, H in Hm. discriminate.
  Qed.

  Lemma plain_mem n :
    mem_str n (map d_name defs) = match plain_definition g n with Some _ => true | None => false end.
  Proof.
    rewrite (collect_plain_defs_eq _ _ _ Hcollect). cbn [app].
    rewrite plain_defs_of_names, <- plain_names_all_defs.
    destruct (plain_definition g n) eqn:E.
    - apply mem_str_In, plain_names_pd. congruence.
    - apply mem_str_false. intro H. apply plain_names_pd in H. congruence.
  Qed.

  Lemma choose_ref_correct n l sp :
    specialize_ref sh us (builtins sh) fs (map d_name defs) n l sp = choose_ref builtins g sh n l sp.
  Proof.
    unfold specialize_ref, choose_ref. pose proof (us_shell_definition n) as Hu.
    destruct (shell_definition g sh n) as [rhs|].
    - destruct Hu as (s & z & l' & sp' & -> & ->). reflexivity.
    - rewrite Hu, (fs_none n Hu), plain_mem. destruct (plain_definition g n); reflexivity.
  Qed.
End Choose.

Theorem choice_correct :
  forall (builtins : shell -> list (string * string)) g sh us fs defs x l sp,
    get_specializations g sh = Ok (us, fs) ->
    collect_plain_defs (all_defs g) [] = Ok defs ->
    meaning (plain_definition g)
            (specialize_ref sh us (builtins sh) fs (map d_name defs) x l sp)
    = Choice.spec builtins g sh x.
Proof.
  intros builtins g sh us fs defs x l sp Hs Hd.
  rewrite (choose_ref_correct builtins g sh defs us fs Hd Hs). unfold choose_ref, spec, meaning.
  pose proof (us_shell_definition g sh us fs Hs x) as Hu.
  destruct (shell_definition g sh x) as [rhs|].
  - destruct Hu as (s & z & l' & sp' & _ & ->). reflexivity.
  - destruct (plain_definition g x) eqn:E; [rewrite E; reflexivity|].
    destruct (assoc x (builtins sh)); [reflexivity|rewrite E; reflexivity].
Qed.

Lemma resolve_ref table n l sp rhs :
  assoc n table = Some rhs -> resolve table (NontermRef n l sp) = rhs.
Proof. intro H. cbn. rewrite H. reflexivity. Qed.

Lemma spec_ignores_other_shells builtins g sh x n nsp shn shsp rhs :
  is_shell shn sh = false ->
  Choice.spec builtins (NontermDef n nsp (Some (shn, shsp)) rhs :: g) sh x = Choice.spec builtins g sh x.
Proof. intro H. unfold spec. cbn. rewrite H, andb_false_r. reflexivity. Qed.
