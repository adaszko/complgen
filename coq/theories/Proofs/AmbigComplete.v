(** Completeness of [Ambig.find] up to the fuel of the product search: on an automaton whose
    transition table has no duplicate keys, [find] answers [None] on every unambiguous automaton
    unless one of the product searches ran out of fuel ([gave_up]).  Together with
    [AmbigFacts.find_none_unambiguous] this is the equivalence [find c = None <-> unambiguous c]
    for well-formed automata on which no search gave up. *)
From CG Require Import Base.Prelude Base.Facts Model.Dfa Spec.TokAut Spec.Ambig
     Proofs.TokAutFacts Proofs.TokAutSearch Proofs.AmbigFacts.

(** The transition table is a map: one row per state, one entry per input in a row (what the
    [IndexMap]s of the implementation guarantee). *)
Definition wf_trans (d : dfa) : Prop :=
  NoDup (map fst (d_trans d)) /\ forall s tos, In (s, tos) (d_trans d) -> NoDup (map fst tos).

Lemma In_step d s tos i t :
  wf_trans d -> In (s, tos) (d_trans d) -> In (i, t) tos -> step d s i = Some t.
Proof.
  intros [ND1 ND2] Hrow Hin. unfold step.
  rewrite (in_assocN s _ tos ND1 Hrow). apply in_assocN; [apply (ND2 s); assumption | assumption].
Qed.

Definition search_of (d d' : dfa) :=
  search N N (dnext d) (dnext d') (dfinal d) (dfinal d') N.eqb N.eqb search_fuel
         [(start_pair N N (d_start d) (d_start d'), [])] [].

Definition gave_up (c : cdfa) : Prop :=
  exists d d', In d (c_subs c) /\ In d' (c_subs c) /\ search_of d d' = PUnknown N N.

Lemma subs_verdict d d' :
  subs_disjoint d d' = false -> (exists w, subs_common d d' = Some w) \/ search_of d d' = PUnknown N N.
Proof.
  unfold subs_disjoint, subs_common, search_of.
  apply disjoint_verdict; first [exact Neqb_sound | exact N.eqb_refl].
Qed.

Theorem find_some_word_or_fuel c wit :
  find c = Some wit -> (exists w, w_word wit = Some w) \/ gave_up c.
Proof.
  intro H. apply find_some_inv in H. destruct H as [s0 [tos [[i0 t] [[j0 u] [_ [_ [_ H]]]]]]].
  unfold check_pair in H. cbn [fst snd] in H.
  destruct (N.eqb t u); [discriminate |].
  destruct (nthN (d_inputs (c_main c)) i0) as [ii |]; [| discriminate].
  destruct (nthN (d_inputs (c_main c)) j0) as [ij |]; [| destruct ii; discriminate].
  destruct ii as [a da la | k lk | | |]; try discriminate;
    destruct ij as [b db lb | k' lk' | | |]; try discriminate.
  - destruct (String.eqb a b); [| discriminate]. inversion H; subst. left. eexists; reflexivity.
  - destruct (nthN (c_subs c) k'); [| discriminate]. destruct (sub_accepts d a); [| discriminate].
    inversion H; subst. left. eexists; reflexivity.
  - destruct (nthN (c_subs c) k); [| discriminate]. destruct (sub_accepts d b); [| discriminate].
    inversion H; subst. left. eexists; reflexivity.
  - destruct (nthN (c_subs c) k) as [d |] eqn:Hd; [| discriminate].
    destruct (nthN (c_subs c) k') as [d' |] eqn:Hd'; [| discriminate].
    destruct (subs_disjoint d d') eqn:Ed; [discriminate |].
    inversion H; subst. cbn [w_word].
    destruct (subs_verdict d d' Ed) as [[w Ew] | G]; [left; exists w; assumption | right].
    exists d, d'. repeat split; [eapply nthN_In; eassumption | eapply nthN_In; eassumption | assumption].
Qed.

Theorem find_some_refutes c s i j w :
  wf_trans (c_main c) -> find c = Some (mkwit s i j (Some w)) -> ~ unambiguous c.
Proof.
  intros WF H U. apply find_some_genuine in H.
  destruct H as [tos [t [u [ii [ij [Hrow [Hit [Hju [Htu [Hi [Hj [Mi Mj]]]]]]]]]]]].
  apply Htu. apply (U s i j ii ij w t u); try assumption.
  - eapply In_step; eassumption.
  - eapply In_step; eassumption.
Qed.

Theorem find_complete c :
  wf_trans (c_main c) -> unambiguous c -> find c = None \/ gave_up c.
Proof.
  intros WF U. destruct (find c) as [[s i j ow] |] eqn:E; [| left; reflexivity].
  destruct (find_some_word_or_fuel c _ E) as [[w Ew] | G]; [| right; assumption].
  cbn [w_word] in Ew. subst ow. exfalso. exact (find_some_refutes c s i j w WF E U).
Qed.

Theorem find_correct c :
  wf_trans (c_main c) -> ~ gave_up c -> (find c = None <-> unambiguous c).
Proof.
  intros WF NG. split; [apply find_none_unambiguous |].
  intro U. destruct (find_complete c WF U) as [H | G]; [assumption | contradiction].
Qed.
