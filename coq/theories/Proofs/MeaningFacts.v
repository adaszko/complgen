(** Facts about [Spec.Meaning] that do not depend on the model of the bash script:
    - [step_spec]: reading one word follows exactly the items chosen by the rule of the property
      text (literal first, catch-all last);
    - [run_sound]: every residual reached by reading words is a residual of the grammar by a
      sequence of items that accept those words (soundness w.r.t. the inductive denotation);
    - [lowest_spec]: the candidates offered all carry the lowest level that has one;
    - [state_cands_prefix]: every candidate extends the typed word;
    - word-break stripping lemmas;
    - [complete_spec]: the shape of every answer of [complete]. *)
From CG Require Import Base.Prelude Base.Facts Model.Ast Spec.Rx Spec.Meaning Proofs.RxFacts.

Lemma option_eqb_str_sound (x y : option string) : option_eqb String.eqb x y = true -> x = y.
Proof.
  destruct x, y; cbn; intro H; try discriminate; try reflexivity.
  apply String.eqb_eq in H. subst; reflexivity.
Qed.

Lemma wleaf_eqb_sound a b : wleaf_eqb a b = true -> a = b.
Proof.
  destruct a, b; cbn [wleaf_eqb]; intro H; try discriminate; try reflexivity.
  - apply andb_true_iff in H. destruct H as [H Hl]. apply andb_true_iff in H. destruct H as [Ht Hd].
    apply String.eqb_eq in Ht. apply option_eqb_str_sound in Hd. apply N.eqb_eq in Hl. subst; reflexivity.
  - apply andb_true_iff in H. destruct H as [Hc Hl].
    apply String.eqb_eq in Hc. apply N.eqb_eq in Hl. subst; reflexivity.
Qed.

Lemma leaf_eqb_sound a b : leaf_eqb a b = true -> a = b.
Proof.
  destruct a, b; cbn [leaf_eqb]; intro H; try discriminate; try reflexivity.
  - apply andb_true_iff in H. destruct H as [H Hl]. apply andb_true_iff in H. destruct H as [Ht Hd].
    apply String.eqb_eq in Ht. apply option_eqb_str_sound in Hd. apply N.eqb_eq in Hl. subst; reflexivity.
  - apply andb_true_iff in H. destruct H as [Hc Hl].
    apply String.eqb_eq in Hc. apply N.eqb_eq in Hl. subst; reflexivity.
  - apply andb_true_iff in H. destruct H as [Hw Hl].
    apply (rx_eqb_sound wleaf_eqb wleaf_eqb_sound) in Hw. apply N.eqb_eq in Hl. subst; reflexivity.
Qed.

Lemma dedup_state_In k l : In k (dedup_state l) <-> In k l.
Proof. apply (dedup_rx_In leaf_eqb leaf_eqb_sound). Qed.

Definition reads (en : env) (a : leaf) (w : string) : Prop :=
  match a with
  | LLit t _ _ => t = w
  | LCmd c _ => In w (candidates en c)
  | LAny => True
  | LSub x _ => waccepts en x w = true
  end.

Definition is_lit (a : leaf) : bool := match a with LLit _ _ _ => true | _ => false end.

Definition lit_expected (mv : list (leaf * rx leaf)) (w : string) : Prop :=
  exists d l k, In (LLit w d l, k) mv.

Definition mid_expected (en : env) (mv : list (leaf * rx leaf)) (w : string) : Prop :=
  exists a k, In (a, k) mv /\ mid_accepts en a w = true.

(** The rule of the property text: "a word equal to an expected literal is read as that literal";
    a catch-all is used only when nothing else accepts the word. *)
Definition chosen (en : env) (mv : list (leaf * rx leaf)) (w : string) (a : leaf) : Prop :=
  match a with
  | LLit t _ _ => t = w
  | LCmd _ _ | LSub _ _ => mid_accepts en a w = true /\ ~ lit_expected mv w
  | LAny => ~ lit_expected mv w /\ ~ mid_expected en mv w
  end.

Lemma chosen_reads en mv w a : chosen en mv w a -> reads en a w.
Proof.
  destruct a; cbn [chosen reads mid_accepts]; intro H.
  - assumption.
  - destruct H as [H _]. apply mem_str_In. assumption.
  - exact I.
  - destruct H as [H _]. assumption.
Qed.

Lemma lit_next_In w mv k :
  In k (lit_next w mv) <-> exists d l, In (LLit w d l, k) mv.
Proof.
  unfold lit_next. rewrite in_flat_map. split.
  - intros [[a k'] [Hin H]]. cbn [fst snd] in H. destruct a; try solve [destruct H].
    destruct (String.eqb t w) eqn:E; [| destruct H].
    apply String.eqb_eq in E. subst. destruct H as [-> | []]. eauto.
  - intros [d [l Hin]]. exists (LLit w d l, k). split; [assumption |].
    cbn [fst snd]. rewrite String.eqb_refl. left; reflexivity.
Qed.

Lemma lit_next_nil w mv : lit_next w mv = [] <-> ~ lit_expected mv w.
Proof.
  split.
  - intros E [d [l [k Hin]]].
    assert (H : In k (lit_next w mv)) by (apply lit_next_In; eauto).
    rewrite E in H. destruct H.
  - intro H. destruct (lit_next w mv) as [| k r] eqn:E; [reflexivity |].
    exfalso. apply H.
    assert (Hk : In k (lit_next w mv)) by (rewrite E; left; reflexivity).
    apply lit_next_In in Hk. destruct Hk as [d [l Hin]]. exists d, l, k. assumption.
Qed.

Lemma mid_next_In en w mv k :
  In k (mid_next en w mv) <-> exists a, In (a, k) mv /\ mid_accepts en a w = true.
Proof.
  unfold mid_next. rewrite in_flat_map. split.
  - intros [[a k'] [Hin H]]. cbn [fst snd] in H.
    destruct (mid_accepts en a w) eqn:E; [| destruct H].
    destruct H as [-> | []]. eauto.
  - intros [a [Hin E]]. exists (a, k). split; [assumption |].
    cbn [fst snd]. rewrite E. left; reflexivity.
Qed.

Lemma mid_next_nil en w mv : mid_next en w mv = [] <-> ~ mid_expected en mv w.
Proof.
  split.
  - intros E [a [k [Hin Ha]]].
    assert (H : In k (mid_next en w mv)) by (apply mid_next_In; eauto).
    rewrite E in H. destruct H.
  - intro H. destruct (mid_next en w mv) as [| k r] eqn:E; [reflexivity |].
    exfalso. apply H.
    assert (Hk : In k (mid_next en w mv)) by (rewrite E; left; reflexivity).
    apply mid_next_In in Hk. destruct Hk as [a [Hin Ha]]. exists a, k. split; assumption.
Qed.

Lemma any_next_In mv k : In k (any_next mv) <-> In (LAny, k) mv.
Proof.
  unfold any_next. rewrite in_flat_map. split.
  - intros [[a k'] [Hin H]]. cbn [fst snd] in H. destruct a; try solve [destruct H].
    destruct H as [-> | []]. assumption.
  - intro Hin. exists (LAny, k). split; [assumption | left; reflexivity].
Qed.

Theorem step_spec en s w k :
  In k (step en s w) <-> exists a, In (a, k) (moves s) /\ chosen en (moves s) w a.
Proof.
  unfold step. set (mv := moves s).
  destruct (lit_next w mv) as [| k0 r0] eqn:El.
  - assert (Hnl : ~ lit_expected mv w) by (apply lit_next_nil; assumption).
    destruct (mid_next en w mv) as [| k1 r1] eqn:Em.
    + assert (Hnm : ~ mid_expected en mv w) by (apply mid_next_nil; assumption).
      rewrite dedup_state_In, any_next_In. split.
      * intro Hin. exists LAny. split; [assumption | split; assumption].
      * intros [a [Hin Hc]]. destruct a; cbn [chosen] in Hc.
        -- subst. exfalso. apply Hnl. exists d, lvl, k. assumption.
        -- destruct Hc as [Hc _]. exfalso. apply Hnm. exists (LCmd c lvl), k. split; assumption.
        -- assumption.
        -- destruct Hc as [Hc _]. exfalso. apply Hnm. exists (LSub w0 lvl), k. split; assumption.
    + rewrite dedup_state_In, <- Em, mid_next_In. split.
      * intros [a [Hin Ha]]. exists a. split; [assumption |].
        destruct a; cbn [mid_accepts] in Ha; try discriminate; cbn [chosen mid_accepts]; split; assumption.
      * intros [a [Hin Hc]]. destruct a; cbn [chosen] in Hc.
        -- subst. exfalso. apply Hnl. exists d, lvl, k. assumption.
        -- destruct Hc as [Hc _]. exists (LCmd c lvl). split; assumption.
        -- destruct Hc as [_ Hc]. exfalso. apply Hc.
           assert (Hk : In k1 (mid_next en w mv)) by (rewrite Em; left; reflexivity).
           apply mid_next_In in Hk. destruct Hk as [a [Hin' Ha]]. exists a, k1. split; assumption.
        -- destruct Hc as [Hc _]. exists (LSub w0 lvl). split; assumption.
  - assert (Hl : lit_expected mv w).
    { assert (Hk : In k0 (lit_next w mv)) by (rewrite El; left; reflexivity).
      apply lit_next_In in Hk. destruct Hk as [d [l Hin]]. exists d, l, k0. assumption. }
    rewrite dedup_state_In, <- El, lit_next_In. split.
    + intros [d [l Hin]]. exists (LLit w d l). split; [assumption | reflexivity].
    + intros [a [Hin Hc]]. destruct a; cbn [chosen] in Hc.
      * subst. eauto.
      * destruct Hc as [_ Hc]. contradiction.
      * destruct Hc as [Hc _]. contradiction.
      * destruct Hc as [_ Hc]. contradiction.
Qed.

Lemma step_lit_expected en s w : lit_expected (moves s) w ->
  forall k, In k (step en s w) <-> exists d l, In (LLit w d l, k) (moves s).
Proof.
  intros Hle k. rewrite step_spec. split.
  - intros [a [Hin Hc]]. destruct a; cbn [chosen] in Hc.
    + subst. eauto.
    + destruct Hc as [_ Hn]. contradiction.
    + destruct Hc as [Hn _]. contradiction.
    + destruct Hc as [_ Hn]. contradiction.
  - intros [d [l Hin]]. exists (LLit w d l). split; [exact Hin | reflexivity].
Qed.

Lemma moves_In (s : state) a k : In (a, k) (moves s) <-> exists r, In r s /\ In (a, k) (lf r).
Proof. unfold moves. rewrite in_flat_map. reflexivity. Qed.

Theorem run_sound en : forall ws s k,
    In k (run en s ws) ->
    exists r items, In r s /\ Forall2 (reads en) items ws
                    /\ forall rest, denotes k rest -> denotes r (items ++ rest).
Proof.
  induction ws as [| w ws IH]; intros s k Hin.
  - cbn in Hin. exists k, []. split; [assumption | split; [constructor | intros; assumption]].
  - cbn [run fold_left] in Hin. change (In k (run en (step en s w) ws)) in Hin.
    destruct (IH _ _ Hin) as [r1 [items [Hr1 [Hf Hd]]]].
    apply step_spec in Hr1. destruct Hr1 as [a [Hmv Hc]].
    apply moves_In in Hmv. destruct Hmv as [r [Hr Hlf]].
    exists r, (a :: items). split; [assumption | split].
    + constructor; [eapply chosen_reads; eassumption | assumption].
    + intros rest Hk. cbn [app]. eapply lf_sound; [eassumption |]. apply Hd. assumption.
Qed.

Corollary matched_sound en e ws :
  matched en e ws = true ->
  exists items k, Forall2 (reads en) items ws
                  /\ forall rest, denotes k rest -> denotes (tr e) (items ++ rest).
Proof.
  unfold matched. destruct (run en (start e) ws) as [| k r] eqn:E; [discriminate |]. intros _.
  assert (Hin : In k (run en (start e) ws)) by (rewrite E; left; reflexivity).
  destruct (run_sound en ws _ _ Hin) as [r0 [items [Hr0 [Hf Hd]]]].
  destruct Hr0 as [<- | []]. exists items, k. split; assumption.
Qed.

Lemma fold_min_le (r : list (N * string)) : forall m, fold_left (fun m c => N.min m (fst c)) r m <= m.
Proof.
  induction r as [| c r IH]; intro m; cbn [fold_left]; [lia |].
  specialize (IH (N.min m (fst c))). lia.
Qed.

Lemma fold_min_lower (r : list (N * string)) :
  forall m c, In c r -> fold_left (fun m c => N.min m (fst c)) r m <= fst c.
Proof.
  induction r as [| c0 r IH]; intros m c Hin; [destruct Hin |].
  cbn [fold_left]. destruct Hin as [-> | Hin].
  - pose proof (fold_min_le r (N.min m (fst c))). lia.
  - apply IH. assumption.
Qed.

Lemma fold_min_attained (r : list (N * string)) :
  forall m, fold_left (fun m c => N.min m (fst c)) r m = m
            \/ exists c, In c r /\ fold_left (fun m c => N.min m (fst c)) r m = fst c.
Proof.
  induction r as [| c0 r IH]; intro m; cbn [fold_left]; [left; reflexivity |].
  destruct (IH (N.min m (fst c0))) as [E | [c [Hin E]]].
  - rewrite E. destruct (N.min_spec m (fst c0)) as [[_ Hm] | [_ Hm]]; rewrite Hm.
    + left; reflexivity.
    + right. exists c0. split; [left; reflexivity | reflexivity].
  - right. exists c. split; [right; assumption | assumption].
Qed.

Theorem lowest_spec cs c :
  In c (lowest cs) <->
  exists l, In (l, c) cs /\ forall l' c', In (l', c') cs -> l <= l'.
Proof.
  unfold lowest. destruct cs as [| c0 r]; [cbn; split; [intros [] | intros [l [[] _]]] |].
  set (m := fold_left (fun m c => N.min m (fst c)) r (fst c0)).
  assert (Hlow : forall x, In x (c0 :: r) -> m <= fst x).
  { intros x [<- | Hx]; [apply fold_min_le | apply fold_min_lower; assumption]. }
  assert (Hatt : exists x, In x (c0 :: r) /\ m = fst x).
  { destruct (fold_min_attained r (fst c0)) as [E | [x [Hx E]]].
    - exists c0. split; [left; reflexivity | assumption].
    - exists x. split; [right; assumption | assumption]. }
  rewrite in_map_iff. split.
  - intros [[l c1] [E Hin]]. cbn [snd] in E. subst c1.
    apply filter_In in Hin. destruct Hin as [Hin Hl]. cbn [fst] in Hl. apply N.eqb_eq in Hl. subst l.
    exists m. split; [assumption |]. intros l' c' H'. apply (Hlow (l', c')). assumption.
  - intros [l [Hin Hmin]]. exists (l, c). split; [reflexivity |].
    apply filter_In. split; [assumption |]. cbn [fst]. apply N.eqb_eq.
    destruct Hatt as [[lx cx] [Hx Em]]. cbn [fst] in Em.
    pose proof (Hmin _ _ Hx). pose proof (Hlow _ Hin). cbn [fst] in *. lia.
Qed.

Corollary lowest_incl cs c : In c (lowest cs) -> In c (map snd cs).
Proof.
  intro H. apply lowest_spec in H. destruct H as [l [Hin _]].
  apply in_map_iff. exists (l, c). split; [reflexivity | assumption].
Qed.

(** "every candidate ... is also offered ... whenever no candidate of an earlier branch extends
    the typed prefix": a candidate none of whose competitors has a lower level is offered. *)
Corollary lowest_offers cs l c :
  In (l, c) cs -> (forall l' c', In (l', c') cs -> l <= l') -> In c (lowest cs).
Proof. intros H1 H2. apply lowest_spec. exists l. split; assumption. Qed.

Lemma sdrop_app (s t : string) : sdrop (String.length s) (append s t) = t.
Proof. induction s; cbn; [reflexivity | assumption]. Qed.

Lemma last_break_le wb p : (last_break wb p <= String.length p)%nat.
Proof.
  induction p as [| a r IH]; cbn [last_break String.length]; [lia |].
  destruct (last_break wb r); [destruct (contains_char a wb); lia | lia].
Qed.

Lemma last_break_nil p : last_break EmptyString p = O.
Proof.
  induction p as [| a r IH]; cbn [last_break]; [reflexivity |]. rewrite IH. reflexivity.
Qed.

Lemma strip_no_breaks p c : strip EmptyString p c = c.
Proof. unfold strip. rewrite last_break_nil. reflexivity. Qed.

Lemma sdrop_append_le n : forall p x, (n <= String.length p)%nat ->
                                      sdrop n (append p x) = append (sdrop n p) x.
Proof.
  induction n as [| n IH]; intros p x H; [reflexivity |].
  destruct p as [| a r]; cbn [String.length] in H; [lia |].
  cbn [append sdrop]. apply IH. lia.
Qed.

(** Stripping only touches the typed part: a candidate [p ++ x] is shown as what is left of [p]
    after its last word break, followed by [x]. *)
Theorem strip_extends wb p x : strip wb p (append p x) = append (strip wb p p) x.
Proof. unfold strip. apply sdrop_append_le. apply last_break_le. Qed.

Fixpoint has_break (wb s : string) : bool :=
  match s with
  | EmptyString => false
  | String a r => contains_char a wb || has_break wb r
  end.

Lemma last_break_zero wb p : last_break wb p = O -> has_break wb p = false.
Proof.
  induction p as [| a r IH]; cbn [last_break has_break]; [reflexivity |].
  destruct (last_break wb r) eqn:E; [| discriminate].
  destruct (contains_char a wb); [discriminate |]. intros _. cbn. apply IH. reflexivity.
Qed.

Theorem strip_no_break_left wb p : has_break wb (strip wb p p) = false.
Proof.
  unfold strip. induction p as [| a r IH]; [reflexivity |].
  cbn [last_break]. destruct (last_break wb r) eqn:E.
  - destruct (contains_char a wb) eqn:Ea.
    + cbn [sdrop]. apply last_break_zero. assumption.
    + cbn [sdrop has_break]. rewrite Ea. cbn. apply last_break_zero. assumption.
  - cbn [sdrop]. cbn [sdrop] in IH. assumption.
Qed.

Theorem strip_id wb p c : has_break wb p = false -> strip wb p c = c.
Proof.
  unfold strip. intro H.
  assert (E : last_break wb p = O).
  { induction p as [| a r IH]; [reflexivity |].
    cbn [has_break] in H. apply orb_false_iff in H. destruct H as [Ha Hr].
    cbn [last_break]. rewrite (IH Hr), Ha. reflexivity. }
  rewrite E. reflexivity.
Qed.

Lemma prefix_split s : forall t, String.prefix s t = true -> t = append s (sdrop (String.length s) t).
Proof.
  induction s as [| a s IH]; intros t H; [reflexivity |].
  destruct t as [| b t]; cbn [String.prefix] in H; [discriminate |].
  destruct (Ascii.ascii_dec a b) as [-> | Ne]; [| discriminate].
  cbn [String.length sdrop append]. f_equal. apply IH. assumption.
Qed.

Lemma prefix_app d : forall r t, String.prefix (append d r) (append d t) = String.prefix r t.
Proof.
  induction d as [| a d IH]; intros r t; [reflexivity |].
  cbn [append String.prefix]. destruct (Ascii.ascii_dec a a) as [_ | Ne]; [apply IH | contradiction].
Qed.

Lemma prefixes_comparable a : forall b s, String.prefix a s = true -> String.prefix b s = true ->
                                          String.prefix a b = true \/ String.prefix b a = true.
Proof.
  induction a as [| x a IH]; intros b s H1 H2; [left; destruct b; reflexivity |].
  destruct b as [| y b]; [right; reflexivity |].
  destruct s as [| z s]; cbn [String.prefix] in H1, H2; [discriminate |].
  destruct (Ascii.ascii_dec x z) as [-> | Ne]; [| discriminate].
  destruct (Ascii.ascii_dec y z) as [-> | Ne]; [| discriminate].
  cbn [String.prefix]. destruct (Ascii.ascii_dec z z); [| contradiction]. eapply IH; eassumption.
Qed.

Lemma prefix_antisym a : forall b, String.prefix a b = true -> String.prefix b a = true -> a = b.
Proof.
  induction a as [| x a IH]; intros [| y b] H1 H2; cbn [String.prefix] in *; try discriminate; [reflexivity |].
  destruct (Ascii.ascii_dec x y) as [-> | Ne]; [| discriminate]. f_equal.
  destruct (Ascii.ascii_dec y y); [| contradiction]. apply IH; assumption.
Qed.

Lemma prefix_append_r p : forall t x, String.prefix p t = true -> String.prefix p (append t x) = true.
Proof.
  induction p as [| a p IH]; intros t x H; [destruct (append t x); reflexivity |].
  destruct t as [| b t]; cbn [String.prefix] in H; [discriminate |].
  cbn [append String.prefix]. destruct (Ascii.ascii_dec a b); [apply IH; assumption | discriminate].
Qed.

Lemma prefix_app_self a b : String.prefix (append a b) a = true -> b = EmptyString.
Proof.
  intro H. apply prefix_split in H. rewrite append_assoc in H.
  assert (E : append a EmptyString = append a (append b (Meaning.sdrop (String.length (append a b)) a))) by (rewrite append_nil_r; exact H).
  apply append_cancel_l in E. destruct b; [reflexivity | discriminate].
Qed.

Lemma wconsume_split en a r tok rest : In (tok, rest) (wconsume en a r) -> r = append tok rest.
Proof.
  destruct a as [t d l | c l |]; cbn [wconsume].
  - destruct (nonempty t && String.prefix t r) eqn:E; [| intros []].
    apply andb_true_iff in E. destruct E as [_ E].
    intros [H | []]. inversion H; subst. apply prefix_split. assumption.
  - intro H. apply in_flat_map in H. destruct H as [o [_ H]].
    destruct (nonempty o && String.prefix o r) eqn:E; [| destruct H].
    apply andb_true_iff in E. destruct E as [_ E].
    destruct H as [H | []]. inversion H; subst. apply prefix_split. assumption.
  - destruct (nonempty r); [| intros []]. intros [H | []]. inversion H; subst.
    symmetry. apply append_nil_r.
Qed.

Lemma wsplits_inv en : forall fuel e d r e' d' r',
    In (e', d', r') (wsplits en fuel e d r) -> append d' r' = append d r.
Proof.
  induction fuel as [| f IH]; intros e d r e' d' r' H; cbn [wsplits] in H.
  - destruct H as [H | []]. inversion H; subst. reflexivity.
  - destruct H as [H | H]; [inversion H; subst; reflexivity |].
    apply in_flat_map in H. destruct H as [[a k] [_ H]]. cbn [fst snd] in H.
    apply in_flat_map in H. destruct H as [[tok rest] [Hc H]]. cbn [fst snd] in H.
    apply IH in H. rewrite H. apply wconsume_split in Hc. subst r. apply append_assoc.
Qed.

Lemma wcands_prefix en x p l c : In (l, c) (wcands en x p) -> String.prefix p c = true.
Proof.
  unfold wcands, wsplits_of. intro H. apply in_flat_map in H. destruct H as [[[e' d] r] [Hs H]].
  apply wsplits_inv in Hs. cbn [append] in Hs. subst p.
  apply in_flat_map in H. destruct H as [[a k] [_ H]]. cbn [fst] in H.
  destruct a as [t dd lv | cc lv |].
  - destruct (String.prefix r t) eqn:E; [| destruct H]. destruct H as [H | []]. inversion H; subst.
    rewrite prefix_app. assumption.
  - apply in_map_iff in H. destruct H as [o [H Ho]]. inversion H; subst.
    apply filter_In in Ho. destruct Ho as [_ Ho]. rewrite prefix_app. assumption.
  - destruct H.
Qed.

Lemma wproper_incl en x p c : In c (wproper en x p) -> exists l, In (l, c) (wcands en x p) /\ c <> p.
Proof.
  unfold wproper. intro H. apply lowest_spec in H. destruct H as [l [H _]].
  apply filter_In in H. destruct H as [H Hne]. cbn [snd] in Hne.
  exists l. split; [assumption |]. intro E. subst. rewrite String.eqb_refl in Hne. discriminate.
Qed.

Theorem state_cands_prefix en s p l c : In (l, c) (state_cands en s p) -> String.prefix p c = true.
Proof.
  unfold state_cands. intro H. apply in_flat_map in H. destruct H as [[a k] [_ H]]. cbn [fst] in H.
  destruct a as [t d lv | cc lv | | x lv]; cbn [item_cands] in H.
  - destruct (String.prefix p (append t " ")) eqn:E; [| destruct H]. destruct H as [H | []]. inversion H; subst.
    assumption.
  - apply in_map_iff in H. destruct H as [o [H Ho]]. inversion H; subst.
    apply filter_In in Ho. destruct Ho as [_ Ho]. assumption.
  - destruct H.
  - apply in_map_iff in H. destruct H as [o [H Ho]]. inversion H; subst.
    apply wproper_incl in Ho. destruct Ho as [l0 [Ho _]]. eapply wcands_prefix. eassumption.
Qed.

Lemma state_cands_spec en S p l o :
  In (l, o) (state_cands en S p) <->
  (exists t d0 k, In (LLit t d0 l, k) (moves S) /\ o = append t " " /\ String.prefix p o = true)
  \/ (exists x0 k0, In (LSub x0 l, k0) (moves S) /\ In o (wproper en x0 p))
  \/ (exists cm k0, In (LCmd cm l, k0) (moves S) /\ In o (filter (String.prefix p) (candidates en cm))).
Proof.
  unfold state_cands. rewrite in_flat_map. split.
  - intros [[a0 k] [Hin H]]. cbn [fst] in H. destruct a0 as [t0 d0 l0 | cm l0 | | x0 l0]; cbn [item_cands] in H.
    + destruct (String.prefix p (append t0 " ")) eqn:Ep; [| destruct H]. destruct H as [E | []]. inversion E; subst.
      left. exists t0, d0, k. split; [exact Hin | split; [reflexivity | exact Ep]].
    + apply in_map_iff in H. destruct H as [o' [E Ho]]. inversion E; subst. right; right. exists cm, k. split; assumption.
    + destruct H.
    + apply in_map_iff in H. destruct H as [o' [E Ho]]. inversion E; subst. right; left. exists x0, k. split; assumption.
  - intros [[t [d0 [k [Hin [-> Hp]]]]] | [[x0 [k0 [Hin Ho]]] | [cm [k0 [Hin Ho]]]]].
    + exists (LLit t d0 l, k). split; [exact Hin |]. cbn [fst item_cands]. rewrite Hp. left; reflexivity.
    + exists (LSub x0 l, k0). split; [exact Hin |]. cbn [fst item_cands]. apply in_map_iff. exists o. split; [reflexivity | exact Ho].
    + exists (LCmd cm l, k0). split; [exact Hin |]. cbn [fst item_cands]. apply in_map_iff. exists o. split; [reflexivity | exact Ho].
Qed.

(** The answer, spelled out: status 1 exactly when the words cannot be matched; otherwise every
    required candidate is (the visible part of) a candidate of the reached point that extends
    the typed word and whose level no other such candidate undercuts; everything required is
    allowed, and the only other thing allowed is the typed word itself. *)
Theorem complete_spec e en ws p :
  match complete e en ws p with
  | None => matched en e ws = false
  | Some (req, al) =>
      matched en e ws = true
      /\ (forall c, In c req <->
                    exists l c0, c = strip (e_wordbreaks en) p c0
                                 /\ In (l, c0) (state_cands en (run en (start e) ws) p)
                                 /\ String.prefix p c0 = true
                                 /\ forall l' c', In (l', c') (state_cands en (run en (start e) ws) p) -> l <= l')
      /\ (forall c, In c al -> In c req \/ c = strip (e_wordbreaks en) p p)
      /\ incl req al
  end.
Proof.
  unfold complete, matched. destruct (run en (start e) ws) as [| k0 s0] eqn:E; [reflexivity |].
  set (s := k0 :: s0). split; [reflexivity | split; [| split]].
  - intro c. rewrite in_map_iff. split.
    + intros [c0 [<- Hc0]]. apply lowest_spec in Hc0. destruct Hc0 as [l [Hin Hmin]].
      exists l, c0. split; [reflexivity | split; [assumption | split; [| assumption]]].
      eapply state_cands_prefix. eassumption.
    + intros [l [c0 [-> [Hin [_ Hmin]]]]]. exists c0. split; [reflexivity |].
      apply lowest_spec. exists l. split; assumption.
  - intros c Hc. rewrite map_app in Hc. apply in_app_or in Hc. destruct Hc as [Hc | Hc]; [left; assumption |].
    destruct (state_identical en s p); [| destruct Hc]. destruct Hc as [<- | []]. right; reflexivity.
  - intros c Hc. rewrite map_app. apply in_or_app. left; assumption.
Qed.
