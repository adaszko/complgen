(** Generic facts about what [do_minimize] does after the loop: the representative map,
    [renumber_states], [hashmap_transitions_from_vec]. *)
From CG Require Import Base.Prelude Base.Facts Model.Dfa Model.Minimize Spec.DfaEquiv Spec.MinimizeSpec
  Proofs.ListFacts Proofs.MinimizeBasics Proofs.MinimizeImage.

(** a lookup function with a default, to talk about successful [rep_get]s *)
Definition getf (m : list (N * N)) (s : N) : N :=
  match assocN s m with Some r => r | None => 0 end.

Lemma getf_some m s r : assocN s m = Some r -> getf m s = r.
Proof. intro H. unfold getf. rewrite H. reflexivity. Qed.

Lemma assocN_getf m s : assocN s m <> None -> assocN s m = Some (getf m s).
Proof. unfold getf. destruct (assocN s m); [reflexivity|congruence]. Qed.

Lemma rep_get_ok site m s r : rep_get site m s = Ok r <-> assocN s m = Some r.
Proof.
  unfold rep_get. destruct (assocN s m); split; intro H; inversion H; reflexivity.
Qed.

Lemma rep_get_eq site m s : assocN s m <> None -> rep_get site m s = Ok (getf m s).
Proof. intro H. apply rep_get_ok, assocN_getf, H. Qed.

Lemma omap_rep_get site m l l' :
  omap (rep_get site m) l = Ok l' ->
  l' = map (getf m) l /\ forall s, In s l -> assocN s m = Some (getf m s).
Proof.
  intro H. apply omap_ok in H. split.
  - apply (Forall2_map_eq (getf m) _ _ _ H). intros x y _ Hxy. apply rep_get_ok in Hxy.
    symmetry. apply getf_some, Hxy.
  - intros s Hs. destruct (Forall2_In_l _ _ _ s H Hs) as [y [_ Hy]]. apply rep_get_ok in Hy.
    rewrite (getf_some _ _ _ Hy). exact Hy.
Qed.

Lemma map_insert_eq k v m : map_insert k v m = aupd k (fun _ => v) m.
Proof. induction m as [|[k0 v0] r IH]; cbn [map_insert aupd]; [|rewrite IH]; reflexivity. Qed.

Lemma map_insert_assoc k v m k' :
  assocN k' (map_insert k v m) = if N.eqb k' k then Some v else assocN k' m.
Proof. rewrite map_insert_eq. apply aupd_assoc. Qed.

Lemma fold_map_insert_assoc el rep m k :
  assocN k (fold_left (fun m s => map_insert s rep m) el m)
  = if memN k el then Some rep else assocN k m.
Proof.
  revert m. induction el as [|s r IH]; intro m; cbn [fold_left]; [reflexivity|].
  rewrite IH, map_insert_assoc. unfold memN. cbn [existsb]. fold (memN k r).
  destruct (memN k r); [rewrite orb_true_r; reflexivity|]. rewrite orb_false_r. reflexivity.
Qed.

(** the fold of [representatives], started from any map [m0] (for the induction): an entry that
    is not one of [m0] maps a state to the minimum of some block of [parts] containing it, and
    every state of such a block has an entry *)
Lemma representatives_spec pool : forall parts m0 reps,
  ofold (fun m id =>
           match pool_lookup pool id with
           | None => Panic "do_minimize: pool.lookup(*intern_id).unwrap()"
           | Some element =>
               match bm_min element with
               | None => Panic "do_minimize: partition_element.min().unwrap()"
               | Some rep => Ok (fold_left (fun m s => map_insert s rep m) element m)
               end
           end) parts m0 = @Ok noerr _ reps ->
  (forall s r, assocN s reps = Some r ->
               assocN s m0 = Some r
               \/ exists id b, In id parts /\ pool_lookup pool id = Some b /\ In s b /\ bm_min b = Some r)
  /\ (forall id b s, In id parts -> pool_lookup pool id = Some b -> In s b -> assocN s reps <> None)
  /\ (forall s, assocN s m0 <> None -> assocN s reps <> None).
Proof.
  induction parts as [|id r IH]; intros m0 reps H; cbn [ofold] in H.
  - inversion H; subst. split; [auto|]. split; [intros ? ? ? []|auto].
  - apply obind_ok in H. destruct H as [m1 [H1 H2]].
    destruct (pool_lookup pool id) as [el|] eqn:L; [|discriminate].
    destruct (bm_min el) as [rp|] eqn:Emin; [|discriminate]. inversion H1; subst m1. clear H1.
    destruct (IH _ _ H2) as [I1 [I2 I3]]. split; [|split].
    + intros s r0 Hs. destruct (I1 s r0 Hs) as [Hm|[id' [b [A [B [C0 D]]]]]].
      * rewrite fold_map_insert_assoc in Hm. destruct (memN s el) eqn:Em.
        -- inversion Hm; subst. right. exists id, el. apply memN_In in Em. split; [left; reflexivity|auto].
        -- auto.
      * right. exists id', b. split; [right; exact A|auto].
    + intros id' b s [->|Hid] Lb Hs.
      * rewrite L in Lb. inversion Lb; subst. apply I3. rewrite fold_map_insert_assoc.
        apply memN_In in Hs. rewrite Hs. discriminate.
      * eapply I2; eauto.
    + intros s Hs. apply I3. rewrite fold_map_insert_assoc. destruct (memN s el); [discriminate|exact Hs].
Qed.

Definition alloc_inv (st : list (N * N) * N) : Prop :=
  NoDup (map snd (fst st)) /\ forall k v, In (k, v) (fst st) -> v < snd st.

Lemma alloc_spec old st :
  alloc_inv st ->
  alloc_inv (alloc old st)
  /\ assocN old (fst (alloc old st)) <> None
  /\ (forall k v, assocN k (fst st) = Some v -> assocN k (fst (alloc old st)) = Some v).
Proof.
  intros [ND Lt]. unfold alloc. destruct (assocN old (fst st)) as [v|] eqn:E.
  - split; [split; assumption|]. split; [congruence|auto].
  - unfold alloc_inv. cbn [fst snd]. split; [split|split].
    + rewrite map_app. cbn [map snd]. apply NoDup_snoc; [exact ND|].
      intro F. apply in_map_iff in F. destruct F as [[k v] [Ev F]]. cbn [snd] in Ev. subst v.
      specialize (Lt _ _ F). lia.
    + intros k v H. apply in_app_iff in H. destruct H as [H|[H|[]]].
      * specialize (Lt _ _ H). lia.
      * inversion H; subst. lia.
    + rewrite assocN_app, E. cbn [assocN]. rewrite N.eqb_refl. discriminate.
    + intros k v H. rewrite assocN_app, H. reflexivity.
Qed.

Lemma alloc_fold_spec ks : forall st,
  alloc_inv st ->
  let st' := fold_left (fun st k => alloc k st) ks st in
  alloc_inv st'
  /\ (forall k, In k ks -> assocN k (fst st') <> None)
  /\ (forall k v, assocN k (fst st) = Some v -> assocN k (fst st') = Some v).
Proof.
  induction ks as [|k0 r IH]; intros st I; cbn [fold_left].
  - split; [exact I|]. split; [intros ? []|auto].
  - destruct (alloc_spec k0 st I) as [I1 [I2 I3]].
    destruct (IH _ I1) as [J1 [J2 J3]]. split; [exact J1|]. split.
    + intros k [->|Hk]; [|apply J2; exact Hk].
      destruct (assocN k (fst (alloc k st))) as [v|] eqn:E; [|congruence].
      rewrite (J3 _ _ E). discriminate.
    + intros k v H. apply J3, I3, H.
Qed.

Definition renumber_keys (starting_state : N) (ts : list transition) : list N :=
  starting_state :: flat_map (fun t => [tr_from t; tr_to t]) ts.

Definition renumber_map (starting_state : N) (ts : list transition) : list (N * N) :=
  fst (fold_left (fun st t => alloc (tr_to t) (alloc (tr_from t) st)) ts (alloc starting_state ([], 0))).

Lemma renumber_map_eq s ts :
  renumber_map s ts = fst (fold_left (fun st k => alloc k st) (renumber_keys s ts) ([], 0)).
Proof.
  unfold renumber_map, renumber_keys. cbn [fold_left]. rewrite fold_left_flat_map. reflexivity.
Qed.

Lemma assocN_inj_values (m : list (N * N)) k k' v :
  NoDup (map snd m) -> assocN k m = Some v -> assocN k' m = Some v -> k = k'.
Proof.
  intros ND H H'. apply assocN_In in H. apply assocN_In in H'.
  exact (f_equal fst (NoDup_map_inj snd m (k, v) (k', v) ND H H' eq_refl)).
Qed.

Lemma renumber_map_spec s ts :
  let nf := renumber_map s ts in
  (forall k, In k (renumber_keys s ts) -> assocN k nf <> None)
  /\ (forall k k' v, assocN k nf = Some v -> assocN k' nf = Some v -> k = k').
Proof.
  cbn zeta. rewrite renumber_map_eq.
  assert (I0 : alloc_inv ([], 0)) by (split; [constructor|intros ? ? []]).
  destruct (alloc_fold_spec (renumber_keys s ts) _ I0) as [[ND _] [J2 _]].
  split; [exact J2|]. intros k k' v. apply assocN_inj_values. exact ND.
Qed.

Lemma renumber_states_ok s ts acc s' ts' acc' :
  renumber_states s ts acc = Ok (s', ts', acc') ->
  let nf := renumber_map s ts in
  let rho := getf nf in
  s' = rho s
  /\ ts' = map (fun t => mktr (rho (tr_from t)) (rho (tr_to t)) (tr_input t)) ts
  /\ acc' = bm_from_iter (map rho acc)
  /\ (forall a, In a acc -> assocN a nf = Some (rho a)).
Proof.
  unfold renumber_states. fold (renumber_map s ts). intro H. cbn zeta.
  apply obind_ok in H. destruct H as [s1 [H1 H]]. apply rep_get_ok in H1.
  apply obind_ok in H. destruct H as [ts1 [H2 H]].
  apply obind_ok in H. destruct H as [acc1 [H3 H]]. inversion H; subst. clear H.
  apply omap_rep_get in H3. destruct H3 as [H3 H3'].
  split; [symmetry; apply getf_some, H1|]. split; [|split; [rewrite H3; reflexivity|exact H3']].
  apply omap_ok in H2. apply (Forall2_map_eq _ _ _ _ H2).
  intros t y _ Hy. apply obind_ok in Hy. destruct Hy as [f [Hf Hy]].
  apply obind_ok in Hy. destruct Hy as [to [Hto Hy]]. inversion Hy; subst.
  apply rep_get_ok in Hf. apply rep_get_ok in Hto. rewrite (getf_some _ _ _ Hf), (getf_some _ _ _ Hto). reflexivity.
Qed.

(** [renumber_states] cannot panic on the keys it has allocated itself *)
Lemma renumber_states_eq s ts acc :
  let nf := renumber_map s ts in
  let rho := getf nf in
  incl acc (renumber_keys s ts) ->
  renumber_states s ts acc
  = Ok (rho s, map (fun t => mktr (rho (tr_from t)) (rho (tr_to t)) (tr_input t)) ts, bm_from_iter (map rho acc)).
Proof.
  intros nf rho Hacc. destruct (renumber_map_spec s ts) as [K _]. fold nf in K.
  assert (Kt : forall t, In t ts -> In (tr_from t) (renumber_keys s ts) /\ In (tr_to t) (renumber_keys s ts)).
  { intros t Ht. split; right; apply in_flat_map; exists t; cbn; auto. }
  unfold renumber_states. fold (renumber_map s ts). fold nf.
  rewrite rep_get_eq by (apply K; left; reflexivity). cbn [obind].
  rewrite (omap_eq _ (fun t => mktr (rho (tr_from t)) (rho (tr_to t)) (tr_input t))).
  2:{ intros t Ht. rewrite rep_get_eq by apply K, Kt, Ht. cbn [obind].
      rewrite rep_get_eq by apply K, Kt, Ht. reflexivity. }
  cbn [obind]. rewrite (omap_eq _ rho) by (intros a Ha; apply rep_get_eq, K, Hacc, Ha). reflexivity.
Qed.

Definition tbl_step (tbl : list (N * list (N * N))) (s i : N) : option N :=
  match assocN s tbl with Some row => assocN i row | None => None end.

Lemma tbl_insert_eq f i t tbl :
  tbl_insert f i t tbl = aupd f (fun o => map_insert i t (match o with Some r => r | None => [] end)) tbl.
Proof. induction tbl as [|[f0 row] r IH]; cbn [tbl_insert aupd]; [|rewrite IH]; reflexivity. Qed.

Lemma tbl_insert_step f i t tbl s j :
  tbl_step (tbl_insert f i t tbl) s j
  = if N.eqb s f && N.eqb j i then Some t else tbl_step tbl s j.
Proof.
  unfold tbl_step. rewrite tbl_insert_eq, aupd_assoc.
  destruct (N.eqb s f) eqn:E; cbn [andb]; [|reflexivity]. apply N.eqb_eq in E. subst s.
  rewrite map_insert_assoc. destruct (N.eqb j i); [reflexivity|]. destruct (assocN f tbl); reflexivity.
Qed.

Fixpoint tfind (ts : list transition) (s i : N) (acc : option N) : option N :=
  match ts with
  | [] => acc
  | t :: r => tfind r s i (if N.eqb s (tr_from t) && N.eqb i (tr_input t) then Some (tr_to t) else acc)
  end.

Lemma hashmap_step_gen ts : forall tbl s i,
  tbl_step (fold_left (fun tbl t => tbl_insert (tr_from t) (tr_input t) (tr_to t) tbl) ts tbl) s i
  = tfind ts s i (tbl_step tbl s i).
Proof.
  induction ts as [|t r IH]; intros tbl s i; cbn [fold_left tfind]; [reflexivity|].
  rewrite IH, tbl_insert_step. reflexivity.
Qed.

Lemma tfind_some ts s i : forall acc to,
  tfind ts s i acc = Some to -> In (mktr s to i) ts \/ acc = Some to.
Proof.
  induction ts as [|t r IH]; intros acc to H; cbn [tfind] in H; [auto|].
  destruct (IH _ _ H) as [H'|H']; [left; right; exact H'|].
  destruct (N.eqb_spec s (tr_from t)) as [Es|Es]; cbn [andb] in H'; [|auto].
  destruct (N.eqb_spec i (tr_input t)) as [Ei|Ei]; [|auto].
  inversion H'; subst. left. left. destruct t; reflexivity.
Qed.

Lemma tfind_in ts s i to :
  (forall t, In t ts -> tr_from t = s -> tr_input t = i -> tr_to t = to) ->
  forall acc, (acc = Some to \/ exists t, In t ts /\ tr_from t = s /\ tr_input t = i) ->
  tfind ts s i acc = Some to.
Proof.
  induction ts as [|t r IH]; intros F acc H; cbn [tfind].
  - destruct H as [H|[t [[] _]]]. exact H.
  - assert (F' : forall t, In t r -> tr_from t = s -> tr_input t = i -> tr_to t = to).
    { intros t1 H1. apply F. right. exact H1. }
    apply (IH F').
    destruct (N.eqb_spec s (tr_from t)) as [Es|Es]; cbn [andb].
    + destruct (N.eqb_spec i (tr_input t)) as [Ei|Ei].
      * left. f_equal. apply F; [left; reflexivity|auto|auto].
      * destruct H as [H|[t1 [[->|H1] [E1 E2]]]]; [auto|congruence|right; exists t1; auto].
    + destruct H as [H|[t1 [[->|H1] [E1 E2]]]]; [auto|congruence|right; exists t1; auto].
Qed.

Lemma hashmap_step ts s i to :
  (forall t t', In t ts -> In t' ts -> tr_from t = tr_from t' -> tr_input t = tr_input t' -> tr_to t = tr_to t') ->
  (tbl_step (hashmap_transitions_from_vec ts) s i = Some to <-> In (mktr s to i) ts).
Proof.
  intro F. unfold hashmap_transitions_from_vec. rewrite hashmap_step_gen.
  change (tbl_step [] s i) with (@None N). split.
  - intro H. destruct (tfind_some _ _ _ _ _ H) as [H'|H']; [exact H'|discriminate].
  - intro H. apply tfind_in.
    + intros t Ht E1 E2. apply (F t (mktr s to i)); auto.
    + right. exists (mktr s to i). auto.
Qed.

Lemma hashmap_entries ts f0 row i0 t0 :
  In (f0, row) (hashmap_transitions_from_vec ts) -> In (i0, t0) row -> In (mktr f0 t0 i0) ts.
Proof.
  intros H H'.
  pose (M := fun tbl : list (N * list (N * N)) => exists row', In (f0, row') tbl /\ In (i0, t0) row').
  assert (HM : M (hashmap_transitions_from_vec ts)) by (exists row; auto).
  apply (fold_left_collect_inv _ M (fun t => t = mktr f0 t0 i0)) in HM.
  - destruct HM as [[row' [[] _]]|[t [Ht ->]]]. exact Ht.
  - intros tbl t [row' [H1 H2]]. rewrite tbl_insert_eq in H1. apply aupd_In in H1.
    destruct H1 as [H1|[-> [o [-> Ho]]]]; [left; exists row'; auto|].
    rewrite map_insert_eq in H2. apply aupd_In in H2. destruct H2 as [H2|[-> [_ [-> _]]]].
    + destruct o as [r0|]; [|destruct H2]. left. exists r0. split; [apply Ho; reflexivity|exact H2].
    + right. destruct t; reflexivity.
Qed.

Lemma hashmap_keys ts f0 :
  In f0 (map fst (hashmap_transitions_from_vec ts)) -> exists t, In t ts /\ tr_from t = f0.
Proof.
  intro H. apply (fold_left_collect_inv _ (fun tbl => In f0 (map fst tbl)) (fun t => tr_from t = f0)) in H.
  - destruct H as [[]|H]. exact H.
  - intros tbl t. rewrite tbl_insert_eq, aupd_keys, in_app_iff.
    destruct (memN (tr_from t) (map fst tbl)); cbn [In]; intuition.
Qed.
