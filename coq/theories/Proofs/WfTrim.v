(** What [dfa_from_regex] hands to [minimize]: the raw automaton of a regex built by [from_expr]
    satisfies [MinimizeSpec.wf] and [DfaEquiv.trim] (the hypotheses of the C03 theorems), for
    every pop order. *)
From CG Require Import Base.Prelude Base.Facts Proofs.ListFacts Model.Ast Model.Dfa Model.Regex Model.Subset Spec.Lang.
From CG Require Import Spec.DfaEquiv Spec.MinimizeSpec.
From CG Require Import Proofs.DfaEquivProofs Proofs.RxLang Proofs.Glushkov Proofs.Useful Proofs.SubsetStmt Proofs.SubsetConstr.
From CG Require Import Proofs.LangDen Proofs.LangJudge Proofs.FromExpr Proofs.C02Lang Proofs.TreeFacts.

Lemma sortedN_snoc : forall l x, sortedN l -> (forall y, In y l -> y < x) -> sortedN (l ++ [x]).
Proof.
  induction l as [|a l IH]; intros x Hs Hlt; simpl.
  - split; [intros y []|exact I].
  - destruct Hs as [H1 H2]. split.
    + intros y Hy. apply in_app_iff in Hy. destruct Hy as [Hy|[<-|[]]]; [auto|].
      apply Hlt. left. reflexivity.
    + apply IH; auto. intros y Hy. apply Hlt. right. exact Hy.
Qed.

Lemma dfa_from_regex_sorted : forall pick fuel submap r d states,
  dfa_from_regex pick fuel submap r = Ok (d, states) ->
  sortedN (map snd states) /\ (forall s, In s (map snd states) -> 1 <= s).
Proof.
  intros pick fuel submap r d states H.
  destruct (dfa_from_regex_stored
              (fun ids nx => sortedN (map snd ids) /\ 1 <= nx /\
                             forall s, In s (map snd ids) -> 1 <= s < nx)
              pick fuel submap r d states) as [nx [H1 [_ H2]]]; [| |exact H|].
  - intros ids nx t [H1 [Hn H2]] _. rewrite map_app. cbn [map snd]. split; [|split; [lia|]].
    + apply sortedN_snoc; [exact H1|]. intros y Hy. apply H2 in Hy. lia.
    + intros s Hs. apply in_app_iff in Hs. destruct Hs as [Hs|[<-|[]]]; [apply H2 in Hs|]; lia.
  - unfold first_state_id. cbn. split; [split; [intros y [] | exact I]|]. split; [lia|].
    intros s [<-|[]]. lia.
  - split; [exact H1|]. intros s Hs. apply H2 in Hs. lia.
Qed.

Lemma sortedN_filter_map : forall {A} (f : A -> bool) (g : A -> N) l,
  sortedN (map g l) -> sortedN (flat_map (fun x => if f x then [g x] else []) l).
Proof.
  intros A f g. induction l as [|a l IH]; simpl; intros H; [exact I|].
  destruct H as [H1 H2]. destruct (f a); simpl; [|auto].
  split; [|auto]. intros y Hy. apply in_flat_map in Hy. destruct Hy as [b [Hb Hy]].
  destruct (f b); [|destruct Hy]. destruct Hy as [<-|[]]. apply H1. apply in_map. exact Hb.
Qed.

Lemma states_are_ids : forall pick fuel submap r d states labels,
  dfa_from_regex pick fuel submap r = Ok (d, states) ->
  omap (from_input submap) (r_inputs r) = Ok labels ->
  forall s, In s (DfaEquiv.states d) -> In s (map snd states).
Proof.
  intros pick fuel submap r d states labels H Hl s Hs.
  destruct (dfa_from_regex_inv _ _ _ _ _ _ _ H Hl) as [st [s0 [HI [Ht [-> [Hs0 Ed]]]]]].
  unfold DfaEquiv.states in Hs. apply nodup_In in Hs. destruct Hs as [<-|Hs].
  - subst d. simpl. change s0 with (snd (regex_first r, s0)). apply in_map. exact Hs0.
  - apply in_app_iff in Hs. destruct Hs as [Hs|Hs].
    + unfold trans_states in Hs. apply in_flat_map in Hs. destruct Hs as [[f row] [Hrow Hs]].
      subst d. simpl in Hrow, Hs. destruct Hs as [<-|Hs].
      * destruct (inv_rows _ _ _ _ _ _ HI _ _ Hrow) as [S [HS _]]. exact (in_map snd _ _ HS).
      * apply in_map_iff in Hs. destruct Hs as [[i to] [<- Hin]].
        apply (row_entry _ _ _ _ _ _ _ _ i to HI Hrow Hin).
    + subst d. simpl in Hs. apply in_flat_map in Hs. destruct Hs as [[S t] [Hin Hs]].
      simpl in Hs. destruct (memN (r_end r) S); [|destruct Hs]. destruct Hs as [<-|[]].
      change t with (snd (S, t)). apply in_map. exact Hin.
Qed.

Theorem dfa_from_regex_wf : forall pick fuel submap r d states,
  dfa_from_regex pick fuel submap r = Ok (d, states) -> wf d.
Proof.
  intros pick fuel submap r d states H.
  destruct (dfa_from_regex_labels _ _ _ _ _ _ H) as [labels Hl].
  pose proof (subset_run pick fuel submap r d states labels H Hl) as R. simpl in R.
  destruct R as [Hin [Hk [Hr [_ [_ [_ [_ [_ Hrows]]]]]]]].
  destruct (dfa_from_regex_sorted _ _ _ _ _ _ H) as [Hsorted Hge].
  pose proof (states_are_ids _ _ _ _ _ _ _ H Hl) as Hst.
  destruct (dfa_from_regex_inv _ _ _ _ _ _ _ H Hl) as [st [s0 [HI [Ht [Est [Hs0 Ed]]]]]].
  constructor.
  - exact Hk.
  - intros f row Hrow. rewrite Forall_forall in Hr. apply (Hr (f, row) Hrow).
  - intros f row i t Hrow Hit.
    assert (Hrow' : In (f, row) (s_trans st)) by (subst d; exact Hrow).
    destruct (row_entry _ _ _ _ _ _ _ _ _ _ HI Hrow' Hit) as [Hne _]. rewrite Hin.
    apply nth_error_Some in Hne. unfold lenN. lia.
  - intros H0. apply Hst in H0. apply Hge in H0. lia.
  - intros s Hs. apply Hrows. apply Hst. exact Hs.
  - subst d states. simpl. apply (sortedN_filter_map (fun si => memN (r_end r) (fst si)) snd).
    exact Hsorted.
Qed.

Definition regex_good (r : regex) : Prop :=
  exists t, r_tree r = with_end t (r_end r) /\ shape t /\ ors_nonempty t = true /\
            in_range 0 (r_end r) (positions t) /\ r_end r = lenN (r_inputs r).

Lemma finish_good : forall c pl id t s pl1,
  do_from_expr c empty_bst pl = Ok (id, t, s, pl1) -> ors_nonempty t = true ->
  regex_good (finish_regex id t s).
Proof.
  intros c pl id t s pl1 E Ho. exists t.
  destruct (finish_regex_tree _ _ _ _ _ _ E _ eq_refl) as [Ht [Sh [Rg He]]]. auto.
Qed.

(** [alts_nonempty] expressions give [ors_nonempty] trees, and only good regexes enter the pool *)
Lemma builder_ors :
  (forall e s pl id t s' pl', do_from_expr e s pl = Ok (id, t, s', pl') ->
     alts_nonempty e = true -> Forall regex_good pl -> ors_nonempty t = true /\ Forall regex_good pl') /\
  (forall cs s pl ids ts s' pl', do_children do_from_expr cs s pl = Ok (ids, ts, s', pl') ->
     forallb alts_nonempty cs = true -> Forall regex_good pl ->
     forallb ors_nonempty ts = true /\ Forall regex_good pl' /\ (ts = [] -> cs = [])).
Proof.
  apply builder_run.
  - intros e i _ s pl _ Hp. auto.
  - intros c l sp s pl cid ct cs pl1 rid pl2 E1 IH Ei Ha Hp. destruct (IH Ha Hp) as [Ho Hp1].
    split; [reflexivity|]. exact (pool_intern_Forall _ _ _ _ _ Ei (finish_good _ _ _ _ _ _ E1 Ho) Hp1).
  - intros cs sp s pl ids ts s1 pl1 _ IH Ha Hp. destruct (IH Ha Hp) as [Ho [Hp1 _]]. auto.
  - intros e cs sp He s pl ids ts s1 pl1 _ IH Ha Hp.
    assert (Ha' : match cs with [] => false | _ => forallb alts_nonempty cs end = true)
      by (destruct He as [-> | ->]; exact Ha).
    destruct cs as [|c cs]; [discriminate|]. destruct (IH Ha' Hp) as [Ho [Hp1 Hne]].
    split; [|exact Hp1]. destruct ts; [discriminate (Hne eq_refl) | exact Ho].
  - intros c sp s pl cid ct s1 pl1 _ IH Ha Hp. destruct (IH Ha Hp) as [Ho Hp1]. cbn. rewrite Ho. auto.
  - intros c sp s pl cid ct s1 pl1 _ IH Ha Hp. destruct (IH Ha Hp) as [Ho Hp1]. cbn. rewrite Ho. auto.
  - intros s pl _ Hp. auto.
  - intros c cs s pl id t s1 pl1 ids ts s2 pl2 _ IH1 _ IH2 Ha Hp. cbn in Ha.
    apply andb_true_iff in Ha. destruct Ha as [Ha1 Ha2].
    destruct (IH1 Ha1 Hp) as [Ho1 Hp1]. destruct (IH2 Ha2 Hp1) as [Ho2 [Hp2 _]].
    cbn. rewrite Ho1, Ho2. split; [reflexivity|]. split; [exact Hp2 | discriminate].
Qed.

Lemma from_expr_good : forall e pl r pl',
  alts_nonempty e = true -> from_expr e pl = Ok (r, pl') -> Forall regex_good pl ->
  regex_good r /\ Forall regex_good pl'.
Proof.
  intros e pl r pl' Ha E Hp. apply from_expr_Ok in E. destruct E as [id [t [s [E1 ->]]]].
  destruct (proj1 builder_ors _ _ _ _ _ _ _ E1 Ha Hp) as [Ho Hp1].
  split; [exact (finish_good _ _ _ _ _ _ E1 Ho) | exact Hp1].
Qed.

(** the sets of positions stored are not empty, except perhaps the first *)
Lemma stored_nonempty : forall pick fuel submap r d states,
  dfa_from_regex pick fuel submap r = Ok (d, states) ->
  forall S s, In (S, s) states -> S = regex_first r \/ S <> [].
Proof.
  intros pick fuel submap r d states H.
  destruct (dfa_from_regex_stored (fun ids _ => forall S s, In (S, s) ids -> S = regex_first r \/ S <> [])
              pick fuel submap r d states) as [_ HP]; [| |exact H|exact HP].
  - intros ids nx t Hids Ht S s Hin. apply in_app_iff in Hin. destruct Hin as [Hin|[E|[]]].
    + exact (Hids _ _ Hin).
    + injection E as <- _. right. exact Ht.
  - intros S s [E|[]]. injection E as <- _. left. reflexivity.
Qed.

Lemma reach_positions : forall r labels inputs ids p,
  In p (reach_from labels (regex_follow r) inputs (regex_first r) ids) -> In p (positions (r_tree r)).
Proof.
  intros r labels inputs ids p Hp. apply regex_reach_In in Hp. destruct Hp as [[|a ps] [_ Hp]].
  - apply first_pos. exact Hp.
  - destruct Hp as [_ [_ Hl]]. apply follow_pos in Hl. apply Hl.
Qed.

Lemma lab_total : forall submap r labels p,
  omap (from_input submap) (r_inputs r) = Ok labels -> p < lenN (r_inputs r) ->
  exists i, lab_ok labels (intern_all labels) p i.
Proof.
  intros submap r labels p Hl Hp. destruct (nthN_lt_some _ _ Hp) as [x Hx].
  destruct (omap_ok_each _ _ _ Hl x (nthN_In _ _ _ Hx)) as [y [Hy _]].
  assert (Hn : nthN labels p = Some y) by (apply (omap_nth _ _ _ Hl); eauto).
  destruct (In_nthN y (intern_all labels)) as [i Hi].
  { apply intern_all_complete. exact (nthN_In _ _ _ Hn). }
  exists i, y. auto.
Qed.

Theorem dfa_from_regex_trim : forall pick fuel submap r d states,
  regex_good r ->
  dfa_from_regex pick fuel submap r = Ok (d, states) -> trim d.
Proof.
  intros pick fuel submap r d states [t [Hroot [Hsh [Hors [Hrg Hend]]]]] H.
  destruct (dfa_from_regex_labels _ _ _ _ _ _ H) as [labels Hl].
  destruct (subset_run pick fuel submap r d states labels H Hl)
    as [_ [_ [_ [_ [_ [Hrun [Hacc [Hreach _]]]]]]]].
  pose proof (states_are_ids _ _ _ _ _ _ _ H Hl) as Hst.
  assert (Hne : ~ In (r_end r) (positions t)) by (eapply not_in_range; eauto).
  destruct (useful_positions t (r_end r) Hsh Hors Hne) as [Hfirst Huse].
  rewrite <- Hroot in Hfirst, Huse.
  assert (Hstate : forall s, In s (DfaEquiv.states d) -> exists ids, run d (d_start d) ids = Some s).
  { intros s Hs. apply Hst, in_map_iff in Hs. destruct Hs as [[S s'] [<- Hs]]. exact (Hreach S s' Hs). }
  split; [exact Hstate|]. intros s Hs. destruct (Hstate s Hs) as [ids0 Hr0].
  pose proof (Hrun ids0) as HR. rewrite Hr0 in HR.
  set (reach := reach_from labels (regex_follow r) (intern_all labels) (regex_first r)) in *.
  (* the set of the state is not empty: take a position [p] in it *)
  destruct (reach ids0) as [|p S'] eqn:ES.
  { destruct (stored_nonempty _ _ _ _ _ _ H _ _ HR) as [E|E]; [|congruence].
    unfold regex_first in E. congruence. }
  assert (Hp : In p (reach ids0)) by (rewrite ES; left; reflexivity).
  (* from [p] a chain of followpos edges leads to the end marker; read it as input ids *)
  assert (Hids : exists ids1, In (r_end r) (reach (ids0 ++ ids1))).
  { destruct (N.eq_dec p (r_end r)) as [->|Hpe]; [exists []; rewrite app_nil_r; exact Hp|].
    pose proof (reach_positions _ _ _ _ _ Hp) as Hpos. rewrite Hroot in Hpos.
    apply positions_with_end in Hpos. destruct Hpos as [Hpos|Hpos]; [|contradiction].
    destruct (Huse p Hpos) as [c [Hchain Hlast]].
    destruct (Forall2_total (lab_ok labels (intern_all labels)) (p :: c)) as [ids1 Hids].
    { intros q Hq. apply (lab_total submap r); [exact Hl|]. rewrite <- Hend. apply Hrg.
      destruct (chain_sources _ p c (r_end r) Hchain Hlast q Hq) as [y Hy].
      rewrite Hroot in Hy. exact (followpos_with_end_src _ _ _ _ Hy). }
    exists ids1. unfold reach. rewrite reach_app. fold reach. rewrite ES. apply regex_reach_In.
    exists (p :: c). split; [exact Hids|]. cbn. auto. }
  destruct Hids as [ids1 He]. apply Hacc in He. exists ids1.
  unfold accepts, accepts_from in *. rewrite run_app, Hr0 in He. exact He.
Qed.
