(** Parser half of C13 for *arbitrary* input: with the span reset of [terminal] repaired, every
    position the parser model reaches is the nom_locate position of the text consumed so far, so
    every span it attaches (and the [ParseError] span) is where the construct starts and ends in
    the input -- for any text, accepted or not, not only for printed grammars. *)
From CG Require Import Base.Prelude Base.Facts Model.Ast Model.Lexer Model.Parser Spec.Printer Spec.Spans
  Proofs.LexBase Proofs.LexBlanks Proofs.LexTerminal Proofs.LexCommand Proofs.ExprDefs Proofs.ParseTotal Proofs.ParseDeriv.
From CGgen Require Import Consts.

Lemma adv_refl : forall i, adv i i.
Proof. intros. exists EmptyString. split; reflexivity. Qed.

Lemma adv_trans : forall a b c, adv a b -> adv b c -> adv a c.
Proof.
  intros a b c (w1 & E1 & P1) (w2 & E2 & P2). exists (append w1 w2). split.
  - rewrite E1, E2, append_assoc. reflexivity.
  - rewrite P2, P1, adv_str_app. reflexivity.
Qed.

Lemma at_pre_adv : forall s i i', at_pre s i -> adv i i' -> at_pre s i'.
Proof.
  intros s i i' (pre & E & P) (w & E1 & P1). exists (append pre w). split.
  - rewrite E, E1, append_assoc. reflexivity.
  - rewrite P1, P, adv_str_app. reflexivity.
Qed.

Lemma at_pre_start : forall s, at_pre s (start s).
Proof. intros. exists EmptyString. split; reflexivity. Qed.

Definition Advances {A} (f : input -> pres A) : Prop :=
  forall i x i', f i = Ok (x, i') -> adv i i'.

Lemma adv1_intro : forall i i', adv i i' -> (len i' < len i)%nat -> adv1 i i'.
Proof.
  intros i i' (w & E & P) L. exists w. repeat split; auto. intros ->. unfold len in L. rewrite E in L. cbn in L. lia.
Qed.

Lemma adv1_adv : forall i i', adv1 i i' -> adv i i'.
Proof. intros i i' (w & _ & E & P). exists w. auto. Qed.

Lemma adv1_len : forall i i', adv1 i i' -> (len i' < len i)%nat.
Proof.
  intros i i' (w & N & E & _). unfold len. rewrite E, length_append. destruct w; [congruence|]. cbn. lia.
Qed.

Lemma adv1_adv_trans : forall a b c, adv1 a b -> adv b c -> adv1 a c.
Proof.
  intros a b c H1 H2. apply adv1_intro; [eapply adv_trans; [apply adv1_adv|]; eauto|].
  pose proof (adv1_len _ _ H1). pose proof (adv_len _ _ H2). lia.
Qed.

(** a parser that advances and, by [ParseTotal], consumes *)
Lemma adv1_fine : forall A (f : input -> pres A), Advances f -> (forall i, fine true i (f i)) ->
    forall i x i', f i = Ok (x, i') -> adv1 i i'.
Proof. intros A f Ha Hf i x i' H. apply adv1_intro; [exact (Ha _ _ _ H)|exact (fine_lt _ _ _ _ _ (Hf i) H)]. Qed.

Lemma take_while_adv : forall p i a i', take_while p i = (a, i') -> adv i i'.
Proof.
  intros p [s q] a i' H. unfold take_while in H. cbn [rest at_] in H.
  destruct (span_while p s) as [x y] eqn:E. inversion H; subst. exists a. cbn [rest at_].
  split; [apply (span_while_app _ _ _ _ E)|reflexivity].
Qed.

Lemma take_while1_adv : forall p, Advances (take_while1 p).
Proof. intros p i x i' H. apply take_while1_ok in H as (_ & E & P & _). exists x. auto. Qed.

Lemma char_p_adv : forall c, Advances (char_p c).
Proof. intros c i x i' H. apply char_p_ok in H as [E P]. exists (String c EmptyString). auto. Qed.

Lemma tag_p_adv : forall t, Advances (tag_p t).
Proof. intros t i x i' H. apply tag_p_ok in H as [E P]. exists t. auto. Qed.

Lemma comment_adv : Advances comment.
Proof.
  intros i x i' H. unfold comment in H. dobind H.
  destruct (take_while _ i0) as [a j] eqn:T. inversion H; subst.
  eapply adv_trans; [eapply char_p_adv; eauto|eapply take_while_adv; eauto].
Qed.

Lemma blanks_adv : Advances blanks.
Proof.
  intros i x i' H. unfold blanks in H. apply alt_ok in H as [H|H]; [|apply alt_ok in H as [H|H]].
  - dobind H. inversion H; subst. eapply take_while1_adv; eauto.
  - eapply comment_adv; eauto.
  - eapply char_p_adv; eauto.
Qed.

Lemma multiblanks0_adv : Advances multiblanks0.
Proof. intros i x i' H. rewrite multiblanks0_spec in H. inversion H; subst. apply skip_adv. Qed.

Lemma multiblanks1_adv : Advances multiblanks1.
Proof.
  intros i x i' H. rewrite multiblanks1_spec in H. destruct (hd_is blank_start (rest i)); [|discriminate].
  inversion H; subst. apply skip_adv.
Qed.

Lemma escape_run_adv : forall fuel, Advances (escape_run false false fuel).
Proof.
  induction fuel; intros [s q] x i' H; [discriminate|]. cbn [escape_run rest at_] in H.
  destruct s as [|b after]; [inversion H; subst; apply adv_refl|].
  destruct (Ascii.eqb b BACKSLASH); [|inversion H; subst; apply adv_refl].
  cbn [rest] in H. destruct after as [|c after2]; [discriminate|].
  destruct (is_escapable c); [|discriminate]. dobind H. inversion H; subst.
  eapply adv_trans; [|eapply IHfuel; eauto].
  exists (String b (String c EmptyString)). split; reflexivity.
Qed.

Lemma terminal_loop_adv : forall fuel, Advances (terminal_loop false false fuel).
Proof.
  induction fuel; intros i x i' H; [discriminate|]. cbn [terminal_loop] in H.
  destruct (take_while is_regular i) as [reg i1] eqn:T1. dobind H.
  pose proof (take_while_adv _ _ _ _ T1) as A1. pose proof (escape_run_adv _ _ _ _ E) as A2.
  destruct (starts_with "..." (rest i0)).
  { inversion H; subst. eapply adv_trans; eauto. }
  destruct (take_while is_dot i0) as [dots i3] eqn:T3. pose proof (take_while_adv _ _ _ _ T3) as A3.
  destruct (N.eqb _ 0).
  { inversion H; subst. eapply adv_trans; [eauto|]. eapply adv_trans; eauto. }
  dobind H. inversion H; subst.
  eapply adv_trans; [eauto|]. eapply adv_trans; [eauto|]. eapply adv_trans; [eauto|]. eapply IHfuel; eauto.
Qed.

Lemma terminal_adv : Advances (terminal repaired).
Proof.
  intros i x i' H. unfold terminal, repaired, terminal_with in H. cbn [reset_after_backslash reset_after_escaped] in H.
  dobind H. destruct s; [discriminate|]. inversion H; subst. eapply terminal_loop_adv; eauto.
Qed.

Lemma terminal_adv1 : forall i t i', terminal repaired i = Ok (t, i') -> adv1 i i'.
Proof. exact (adv1_fine _ _ terminal_adv (terminal_fine repaired)). Qed.

Lemma parse_fragment_adv : Advances parse_fragment.
Proof.
  intros i x i' H. unfold parse_fragment in H. apply alt_ok in H as [H|H]; [|apply alt_ok in H as [H|H]]; dobind H.
  - inversion H; subst. eapply take_while1_adv; eauto.
  - inversion H; subst. unfold parse_escaped_char in E. dobind E.
    eapply adv_trans; [eapply char_p_adv; eauto|].
    apply alt_ok in E as [E|E]; dobind E; inversion E; subst; eapply char_p_adv; eauto.
  - inversion H; subst. unfold parse_escaped_whitespace in E. dobind E. dobind E. inversion E; subst.
    eapply adv_trans; [eapply char_p_adv; eauto|]. eapply take_while1_adv; eauto.
Qed.

Lemma description_inner_f_adv : forall fuel, Advances (description_inner_f fuel).
Proof.
  induction fuel; intros i x i' H; [discriminate|]. cbn [description_inner_f] in H.
  destruct (parse_fragment i) as [[fr i1]| | |] eqn:F; try discriminate H.
  - dobind H. inversion H; subst. eapply adv_trans; [eapply parse_fragment_adv; eauto|eapply IHfuel; eauto].
  - inversion H; subst. apply adv_refl.
Qed.

Lemma description_adv : Advances description.
Proof.
  intros i x i' H. unfold description in H. dobind H. dobind H. dobind H. inversion H; subst.
  eapply adv_trans; [eapply char_p_adv; eauto|].
  eapply adv_trans; [eapply description_inner_f_adv; eauto|eapply char_p_adv; eauto].
Qed.

Lemma opt_description_adv : Advances opt_description.
Proof.
  intros i x i' H. unfold opt_description in H.
  destruct (multiblanks0 i) as [[u i1]| | |] eqn:B; cbn [obind] in H.
  - destruct (description i1) as [[d i2]| | |] eqn:D; try discriminate H; inversion H; subst.
    + eapply adv_trans; [eapply multiblanks0_adv; eauto|eapply description_adv; eauto].
    + apply adv_refl.
  - inversion H; subst. apply adv_refl.
  - discriminate.
  - discriminate.
Qed.

Lemma take_until_adv : forall t, Advances (take_until t).
Proof.
  intros t [s q] x i' H. unfold take_until in H. cbn [rest at_] in H.
  destruct (split_until t s) as [[a b]|] eqn:E; [|discriminate]. inversion H; subst.
  exists x. split; [apply (split_until_app _ _ _ _ E)|reflexivity].
Qed.

Lemma triple_bracket_command_adv : Advances triple_bracket_command.
Proof.
  intros i x i' H. unfold triple_bracket_command in H. dobind H. dobind H. dobind H. inversion H; subst.
  eapply adv_trans; [eapply tag_p_adv; eauto|].
  eapply adv_trans; [eapply take_until_adv; eauto|eapply tag_p_adv; eauto].
Qed.

Lemma many1_tag_adv : Advances many1_tag.
Proof.
  intros i x i' H. unfold many1_tag in H. dobind H.
  eapply adv_trans; [eapply multiblanks0_adv; eauto|eapply tag_p_adv; eauto].
Qed.

Lemma end_of_statement_adv : Advances end_of_statement.
Proof.
  intros i x i' H. unfold end_of_statement in H. apply alt_ok in H as [H|H]; [eapply char_p_adv; eauto|].
  destruct (rest i); [|discriminate]. inversion H; subst. apply adv_refl.
Qed.

Lemma nonterm_adv : Advances nonterm.
Proof.
  intros i x i' H. unfold nonterm in H. dobind H. dobind H. dobind H. inversion H; subst.
  eapply adv_trans; [eapply char_p_adv; eauto|].
  eapply adv_trans; [eapply take_while1_adv; eauto|eapply char_p_adv; eauto].
Qed.

Lemma toks_adv : forall ps, Forall Advances ps -> forall i j, toks ps i j -> adv i j.
Proof.
  induction 1 as [|p ps Hp _ IH]; cbn [toks]; intros i j H; [subst; apply adv_refl|].
  destruct H as (i1 & E & T). eapply adv_trans; [exact (Hp _ _ _ E)|exact (IH _ _ T)].
Qed.

Lemma sep_op_adv : forall o i j, toks (sep_op o) i j -> adv i j.
Proof.
  intros o. apply toks_adv. destruct o as [[]|]; repeat constructor;
    first [exact multiblanks0_adv|exact multiblanks1_adv|apply char_p_adv|apply tag_p_adv].
Qed.

Lemma open_p_adv1 : forall ch i j, toks (open_p ch) i j -> adv1 i j.
Proof.
  intros ch i j (i1 & E & T). eapply adv1_adv_trans; [exact (adv1_fine _ _ (char_p_adv ch) (char_p_fine ch) _ _ _ E)|].
  revert T. apply toks_adv. repeat constructor. exact multiblanks0_adv.
Qed.

Lemma close_p_adv : forall ch i j, toks (close_p ch) i j -> adv i j.
Proof. intros ch. apply toks_adv. repeat constructor; [exact multiblanks0_adv|apply char_p_adv]. Qed.

Lemma stmt_end_adv : forall i j, toks [multiblanks0; end_of_statement; multiblanks0] i j -> adv i j.
Proof. apply toks_adv. repeat constructor; first [exact multiblanks0_adv|exact end_of_statement_adv]. Qed.

Lemma spans_ok_list : forall s o cs sp, spans_ok s (mk_op o cs sp) <-> span_ok s sp /\ Forall (spans_ok s) cs.
Proof.
  assert (A : forall s cs, (fix all (l : list expr) : Prop :=
                              match l with [] => True | x :: r => spans_ok s x /\ all r end) cs
                           <-> Forall (spans_ok s) cs).
  { induction cs; split; intros H; auto; [destruct H; constructor|inversion H; subst; split]; auto; apply IHcs; auto. }
  intros s [] cs sp; cbn [mk_op spans_ok]; rewrite A; reflexivity.
Qed.

Lemma flatten_spans : forall s e, spans_ok s e -> spans_ok s (flatten_expr e).
Proof.
  assert (L : forall s o cs sp, Forall (fun x => spans_ok s x -> spans_ok s (flatten_expr x)) cs ->
                                spans_ok s (mk_op o cs sp) -> spans_ok s (mk_op o (map flatten_expr cs) sp)).
  { intros s o cs sp H Hs. apply spans_ok_list in Hs as [Hsp Hc]. apply spans_ok_list. split; [exact Hsp|].
    apply Forall_map. rewrite Forall_forall in *. auto. }
  induction e using expr_ind'; cbn [flatten_expr]; intros Hs; auto.
  - exact (L s OSeq cs sp H Hs).
  - exact (L s OAlt cs sp H Hs).
  - destruct Hs; split; auto.
  - destruct Hs; split; auto.
  - destruct Hs; split; auto.
  - exact (L s OFb cs sp H Hs).
  - destruct Hs; auto.
Qed.

Section Sound.
  Variable s : string.

  Lemma span_from_range : forall i i', at_pre s i -> adv1 i i' -> span_ok s (from_range i i').
  Proof. intros. exists i, i'. auto. Qed.

  (** every derivation consumes at least a byte, and attaches spans that are sound when it starts
      at a true position of the text *)
  Lemma parsed_spans :
    (forall i e i', Parsed repaired i e i' -> adv1 i i' /\ (at_pre s i -> spans_ok s e))
    /\ (forall o i l i', Items repaired o i l i' -> adv i i' /\ (at_pre s i -> Forall (spans_ok s) l)).
  Proof.
    apply Parsed_Items_ind.
    - intros i t i1 d i2 Ht Hd.
      assert (A : adv1 i i2) by (eapply adv1_adv_trans; [eapply terminal_adv1|eapply opt_description_adv]; eauto).
      split; [exact A|]. intros P. apply span_from_range; assumption.
    - intros i nm sp i1 Hn.
      assert (A : adv1 i i1) by exact (adv1_fine _ _ nonterm_adv nonterm_fine _ _ _ Hn).
      split; [exact A|]. intros P. apply span_from_range; assumption.
    - intros i x i1 Hc.
      assert (A : adv1 i i1) by exact (adv1_fine _ _ triple_bracket_command_adv triple_bracket_command_fine _ _ _ Hc).
      split; [exact A|]. intros P. apply span_from_range; assumption.
    - intros i i1 e i2 i3 Ho _ [A IH] Hc. apply open_p_adv1 in Ho. apply close_p_adv in Hc.
      assert (A' : adv1 i i3) by (eapply adv1_adv_trans; [|exact Hc]; eapply adv1_adv_trans; [exact Ho|apply adv1_adv, A]).
      split; [exact A'|]. intros P. split; [apply span_from_range; assumption|].
      apply IH. eapply at_pre_adv; [exact P|apply adv1_adv, Ho].
    - intros i i1 e i2 i3 Ho _ [A IH] Hc. apply open_p_adv1 in Ho. apply close_p_adv in Hc.
      split; [eapply adv1_adv_trans; [|exact Hc]; eapply adv1_adv_trans; [exact Ho|apply adv1_adv, A]|].
      intros P. apply IH. eapply at_pre_adv; [exact P|apply adv1_adv, Ho].
    - intros i e i1 i2 _ [A IH] Hm. apply many1_tag_adv in Hm.
      assert (A' : adv1 i i2) by (eapply adv1_adv_trans; eauto).
      split; [exact A'|]. intros P. split; [apply span_from_range; assumption|apply IH; exact P].
    - intros i e i1 es i2 _ [A IH] _ [A2 IH2] _.
      assert (A' : adv1 i i2) by (eapply adv1_adv_trans; eauto).
      split; [exact A'|]. intros P. pose proof (span_from_range _ _ P A') as Sp.
      split; [exact Sp|]. apply (spans_ok_list s OSeq). split; [exact Sp|].
      apply (Forall_map flatten_expr). eapply Forall_impl; [intros x; apply flatten_spans|].
      constructor; [exact (IH P)|]. apply IH2. eapply at_pre_adv; [exact P|apply adv1_adv, A].
    - intros i e i1 d i2 _ [A IH] Hd. apply opt_description_adv in Hd.
      assert (A' : adv1 i i2) by (eapply adv1_adv_trans; eauto).
      split; [exact A'|]. intros P. split; [apply span_from_range; assumption|apply IH; exact P].
    - intros o i e i1 es i2 _ [A IH] _ [A2 IH2] _.
      assert (A' : adv1 i i2) by (eapply adv1_adv_trans; eauto).
      split; [exact A'|]. intros P. apply spans_ok_list. split; [apply span_from_range; assumption|].
      constructor; [exact (IH P)|]. apply IH2. eapply at_pre_adv; [exact P|apply adv1_adv, A].
    - intros o i. split; [apply adv_refl|constructor].
    - intros o i j e i1 es i2 Hs _ [A IH] _ [A2 IH2]. apply sep_op_adv in Hs.
      assert (A1 : adv i i1) by (eapply adv_trans; [exact Hs|apply adv1_adv, A]).
      split; [eapply adv_trans; eauto|]. intros P.
      constructor; [apply IH; eapply at_pre_adv; eauto|apply IH2; eapply at_pre_adv; eauto].
  Qed.

  Lemma nonterm_def_good : forall i hd i', at_pre s i -> nonterm_def i = Ok (hd, i') ->
      adv1 i i' /\ span_ok s (snd (fst hd))
      /\ match snd hd with Some (_, ssp) => span_ok s ssp | None => True end.
  Proof.
    intros i hd i' P H. unfold nonterm_def in H.
    destruct (nonterm_specialization i) as [[[[[nm nsp] sh] ssp] j]| | |] eqn:Sp; try discriminate H.
    - inversion H; subst. clear H.
      pose proof (fine_lt _ _ _ _ _ (nonterm_specialization_fine i) Sp) as Lt. unfold nonterm_specialization in Sp.
      dobind Sp. dobind Sp. dobind Sp. dobind Sp. dobind Sp. inversion Sp; subst.
      pose proof (char_p_adv _ _ _ _ E) as A1. pose proof (take_while1_adv _ _ _ _ E0) as A2.
      pose proof (char_p_adv _ _ _ _ E1) as A3. pose proof (take_while1_adv _ _ _ _ E2) as A4.
      pose proof (char_p_adv _ _ _ _ E3) as A5.
      assert (A13 : adv i i2) by exact (adv_trans _ _ _ A1 (adv_trans _ _ _ A2 A3)).
      assert (A : adv1 i i') by exact (adv1_intro _ _ (adv_trans _ _ _ A13 (adv_trans _ _ _ A4 A5)) Lt).
      cbn [fst snd]. repeat split; auto.
      + apply span_from_range; auto.
      + apply span_from_range; [eapply at_pre_adv; eauto|].
        exact (adv1_fine _ _ (take_while1_adv _) (take_while1_fine _) _ _ _ E2).
    - destruct (nonterm i) as [[[nm nsp] j]| | |] eqn:N; try discriminate H. inversion H; subst.
      pose proof (adv1_fine _ _ nonterm_adv nonterm_fine _ _ _ N) as A. cbn [fst snd]. repeat split; auto.
      unfold nonterm in N. dobind N. dobind N. dobind N. inversion N; subst. apply span_from_range; auto.
  Qed.

  Lemma parsed_stmt_spans : forall i st i', ParsedStmt repaired i st i' -> at_pre s i -> adv1 i i' /\ stmt_ok s st.
  Proof.
    intros i st i' [j name i1 i2 e i3 i4 Ht Hb He Hend|j name nsp sh i1 i2 e i3 i4 Hd Heq He Hend] P;
      apply stmt_end_adv in Hend.
    - pose proof (terminal_adv1 _ _ _ Ht) as A1. apply multiblanks1_adv in Hb.
      destruct (proj1 parsed_spans _ _ _ He) as [A3 S3].
      split; [eapply adv1_adv_trans; [exact A1|]; exact (adv_trans _ _ _ Hb (adv_trans _ _ _ (adv1_adv _ _ A3) Hend))|].
      split; [apply span_from_range; assumption|].
      apply S3. eapply at_pre_adv; [|exact Hb]. eapply at_pre_adv; [exact P|apply adv1_adv, A1].
    - destruct (nonterm_def_good _ _ _ P Hd) as (A1 & S1 & S2). cbn [fst snd] in *.
      assert (A2 : adv i1 i2).
      { revert Heq. apply toks_adv. repeat constructor; try exact multiblanks0_adv.
        intros a x a' H. apply alt_ok in H as [H|H]; eapply tag_p_adv; eauto. }
      destruct (proj1 parsed_spans _ _ _ He) as [A3 S3].
      split; [eapply adv1_adv_trans; [exact A1|]; exact (adv_trans _ _ _ A2 (adv_trans _ _ _ (adv1_adv _ _ A3) Hend))|].
      repeat split; auto. apply S3. eapply at_pre_adv; [|exact A2]. eapply at_pre_adv; [exact P|apply adv1_adv, A1].
  Qed.

  Lemma many0_good : forall n k i,
      at_pre s i ->
      match many0_p k (statement_p repaired (expr_p repaired n)) i with
      | Ok (l, i') => adv i i' /\ Forall (stmt_ok s) l
      | Err e => False
      | _ => True
      end.
  Proof.
    induction k; intros i P; cbn [many0_p]; auto.
    destruct (statement_p repaired (expr_p repaired n) i) as [[st i1]| | |] eqn:E; auto.
    - destruct (parsed_stmt_spans _ _ _ (statement_parsed _ _ _ _ _ E) P) as [A1 S1].
      pose proof (adv1_len _ _ A1) as L. unfold len in L.
      destruct (Nat.eqb _ _) eqn:Q; [apply Nat.eqb_eq in Q; lia|].
      specialize (IHk i1 (at_pre_adv _ _ _ P (adv1_adv _ _ A1))).
      destruct (many0_p k _ i1) as [[l i2]| | |]; auto.
      destruct IHk as [A2 S2]. split; [eapply adv_trans; [apply adv1_adv|]; eauto|constructor; auto].
    - split; [apply adv_refl|constructor].
  Qed.
End Sound.

(** With the span reset repaired, for every input text: the parser stops at a true position of the
    text, with sound spans on every statement read so far. *)
Lemma grammar_p_good : forall s,
    match grammar_p repaired (S (S (String.length s))) (start s) with
    | Ok (g, i') => at_pre s i' /\ Forall (stmt_ok s) g
    | Err _ => False
    | _ => True
    end.
Proof.
  intros s. unfold grammar_p. rewrite multiblanks0_spec.
  assert (P0 : at_pre s (skip (start s))) by (eapply at_pre_adv; [apply at_pre_start|apply skip_adv]).
  pose proof (many0_good s (S (S (String.length s))) (S (S (String.length s))) (skip (start s)) P0) as X.
  destruct (many0_p _ _ (skip (start s))) as [[l i2]|e| |]; auto.
  rewrite multiblanks0_spec. destruct X as [A X]. split; [|exact X].
  eapply at_pre_adv; [|apply skip_adv]. eapply at_pre_adv; eauto.
Qed.

(** C13, parser half ([C13_spans_sound_any_input] of Props/C05.v): every span of an accepted grammar
    is made of true nom_locate positions of the text *)
Theorem parse_spans_sound : forall s g, parse_with repaired s = Ok g -> Forall (stmt_ok s) g.
Proof.
  intros s g H. unfold parse_with in H. pose proof (grammar_p_good s) as X.
  destruct (grammar_p _ _ _) as [[l i']| | |]; try discriminate H; try contradiction.
  destruct (rest i'); [|discriminate]. inversion H; subst. apply X.
Qed.

(** the [ParseError] span is the position of a byte of the text: the first one that is not part of
    a statement (or of the blanks after the last one) *)
Theorem parse_error_sound : forall s sp, parse_with repaired s = Err sp ->
    exists pre rest, s = append pre rest /\ rest <> EmptyString
                     /\ sp = from_machine (mkin rest (adv_str pre pos0)).
Proof.
  intros s sp H. unfold parse_with in H. pose proof (grammar_p_good s) as X.
  destruct (grammar_p _ _ _) as [[l [r q]]| | |]; try discriminate H; try contradiction.
  destruct X as [(pre & E & Q) _]. cbn [rest at_] in *. destruct r as [|ch r]; [discriminate|]. inversion H; subst.
  exists pre, (String ch r). repeat split; auto. discriminate.
Qed.
