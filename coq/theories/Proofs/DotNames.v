(** C16: facts about the names and labels the printers write: decimal numerals are digits,
    [node_id p n] (an underscore, the prefix, the number) is an identifier and not a keyword, names
    with different prefixes or numbers are different, labels made of digits and underscores need
    no escaping. *)
From Coq Require Import DecimalString DecimalN.
From CG Require Import Base.Prelude Base.Facts Model.Dfa Spec.DotRead Model.Dot Proofs.DotLex.
Local Open Scope string_scope.

Lemma uint_digits d : all_chars is_digit (NilEmpty.string_of_uint d) = true.
Proof. induction d; cbn; try reflexivity; exact IHd. Qed.

Lemma dec_digits n : all_chars is_digit (dec n) = true.
Proof. apply uint_digits. Qed.

Lemma dec_inj a b : dec a = dec b -> a = b.
Proof.
  unfold dec. intro H.
  assert (E : N.to_uint a = N.to_uint b).
  { pose proof (NilEmpty.usu (N.to_uint a)) as Ha. pose proof (NilEmpty.usu (N.to_uint b)) as Hb.
    rewrite H in Ha. rewrite Ha in Hb. now injection Hb. }
  rewrite <- (DecimalN.Unsigned.of_to a), <- (DecimalN.Unsigned.of_to b). now rewrite E.
Qed.

Lemma all_chars_impl (p q : ascii -> bool) s :
  (forall c, p c = true -> q c = true) -> all_chars p s = true -> all_chars q s = true.
Proof.
  intro H. induction s as [|c s IH]; [reflexivity|]. cbn. intro E.
  apply andb_true_iff in E as [E1 E2]. now rewrite (H _ E1), IH.
Qed.

Lemma digit_idchar c : is_digit c = true -> is_idchar c = true.
Proof. intro H. unfold is_idchar. rewrite H. apply orb_true_r. Qed.

Definition plain_char (c : ascii) : bool := negb (Ascii.eqb c c_dq) && negb (Ascii.eqb c c_bs).

Lemma digit_plain c : is_digit c = true -> plain_char c = true.
Proof.
  assert (H : forall c, implb (is_digit c) (plain_char c) = true) by (apply all_ascii_spec; vm_compute; reflexivity).
  intro Hc. specialize (H c). now rewrite Hc in H.
Qed.

Lemma dec_plain n : all_chars plain_char (dec n) = true.
Proof. exact (all_chars_impl _ _ _ digit_plain (dec_digits n)). Qed.

Lemma plain_app a b :
  all_chars plain_char a = true -> all_chars plain_char b = true -> all_chars plain_char (a ++ b) = true.
Proof. intros Ha Hb. now rewrite all_chars_app, Ha, Hb. Qed.

(** a plain text needs no escaping, holds no backslash, and decodes to itself *)
Lemma esc_all_plain s : all_chars plain_char s = true -> esc_all s = s.
Proof.
  induction s as [|c s IH]; [reflexivity|]. cbn [all_chars esc_all]. intro H.
  apply andb_true_iff in H as [Hc Hs]. unfold plain_char in Hc. apply andb_true_iff in Hc as [H1 H2].
  apply negb_true_iff in H1, H2. unfold esc1. rewrite H1, H2, (IH Hs). reflexivity.
Qed.

Lemma plain_no_bs s : all_chars plain_char s = true -> contains_char c_bs s = false.
Proof.
  induction s as [|c s IH]; [reflexivity|]. cbn [all_chars contains_char]. intro H.
  apply andb_true_iff in H as [Hc Hs]. unfold plain_char in Hc. apply andb_true_iff in Hc as [_ H2].
  apply negb_true_iff in H2. rewrite H2. exact (IH Hs).
Qed.

Lemma plain_qdecode s : all_chars plain_char s = true -> qdecode false s = Some s.
Proof.
  intro H. rewrite <- (esc_all_plain s H) at 1. now rewrite qdecode_esc_all, (double_bs_none s (plain_no_bs s H)).
Qed.

Lemma plain_body s : all_chars plain_char s = true -> body_ok s /\ qdec s = s.
Proof. intro H. unfold body_ok, qdec. rewrite (plain_qdecode s H). split; [discriminate|reflexivity]. Qed.

(** the prefixes the printers use: empty for the main automaton or regex, the number K and an
    underscore for the within-word one numbered K *)
Definition sub_pre (id : N) : string := dec id ++ "_".

Inductive prefix_ok : string -> Prop :=
| pre_main : prefix_ok ""
| pre_sub id : prefix_ok (sub_pre id).

Lemma prefix_idchars p : prefix_ok p -> all_chars is_idchar p = true.
Proof.
  intros [|id]; [reflexivity|]. unfold sub_pre. rewrite all_chars_app.
  rewrite (all_chars_impl _ _ _ digit_idchar (dec_digits id)). reflexivity.
Qed.

Lemma prefix_plain p : prefix_ok p -> all_chars plain_char p = true.
Proof.
  intros [|id]; [reflexivity|]. apply plain_app; [apply dec_plain|reflexivity].
Qed.

Lemma keyword_underscore s : keyword_of (String "_"%char s) = None.
Proof. reflexivity. Qed.

Lemma node_id_ok p n : prefix_ok p -> id_ok (node_id p n).
Proof.
  intro Hp. split.
  - unfold node_id. cbn [append ident_ok]. change (is_idstart "_"%char) with true. cbn [andb].
    rewrite all_chars_app, (prefix_idchars p Hp).
    exact (all_chars_impl _ _ _ digit_idchar (dec_digits n)).
  - apply keyword_underscore.
Qed.

Lemma label_plain p n : prefix_ok p -> all_chars plain_char (p ++ dec n) = true.
Proof.
  intro Hp. apply plain_app; [now apply prefix_plain|apply dec_plain].
Qed.

Lemma cluster_name_ok id : id_ok ("cluster_" ++ dec id).
Proof.
  split.
  - cbn [append ident_ok]. change (is_idstart "c"%char) with true. cbn [andb].
    change (all_chars is_idchar ("luster_" ++ dec id) = true). rewrite all_chars_app.
    exact (all_chars_impl _ _ _ digit_idchar (dec_digits id)).
  - reflexivity.
Qed.

Lemma digits_split a : forall a' b b',
  all_chars is_digit a = true -> all_chars is_digit a' = true ->
  a ++ String "_"%char b = a' ++ String "_"%char b' -> a = a' /\ b = b'.
Proof.
  induction a as [|c a IH]; intros a' b b' Ha Ha' E.
  - destruct a' as [|c' a'].
    + cbn in E. injection E as E. now split.
    + cbn in E. injection E as Ec E. subst c'. cbn in Ha'. discriminate Ha'.
  - destruct a' as [|c' a'].
    + cbn in E. injection E as Ec E. subst c. cbn in Ha. discriminate Ha.
    + cbn in E. injection E as Ec E. subst c'. cbn in Ha, Ha'.
      apply andb_true_iff in Ha as [_ Ha]. apply andb_true_iff in Ha' as [_ Ha'].
      destruct (IH a' b b' Ha Ha' E) as [-> ->]. now split.
Qed.

Lemma digits_no_underscore a b : all_chars is_digit (a ++ String "_"%char b) = false.
Proof. induction a as [|c a IH]; [reflexivity|]. cbn. rewrite IH. apply andb_false_r. Qed.

Lemma append_inj_l (a b c : string) : a ++ b = a ++ c -> b = c.
Proof. exact (append_cancel_l a b c). Qed.

Lemma node_id_inj p p' n n' :
  prefix_ok p -> prefix_ok p' -> node_id p n = node_id p' n' -> p = p' /\ n = n'.
Proof.
  unfold node_id. intros Hp Hp' E. cbn [append] in E. injection E as E.
  destruct Hp as [|id], Hp' as [|id'].
  - cbn in E. split; [reflexivity|now apply dec_inj].
  - cbn [append] in E. unfold sub_pre in E. rewrite append_assoc in E. cbn [append] in E.
    pose proof (dec_digits n) as Hd. rewrite E in Hd. now rewrite digits_no_underscore in Hd.
  - cbn [append] in E. unfold sub_pre in E. rewrite append_assoc in E. cbn [append] in E.
    pose proof (dec_digits n') as Hd. rewrite <- E in Hd. now rewrite digits_no_underscore in Hd.
  - unfold sub_pre in E. rewrite !append_assoc in E. cbn [append] in E.
    destruct (digits_split _ _ _ _ (dec_digits id) (dec_digits id') E) as [E1 E2].
    apply dec_inj in E1, E2. subst. now split.
Qed.

Lemma sub_pre_inj a b : sub_pre a = sub_pre b -> a = b.
Proof.
  unfold sub_pre. intro E.
  destruct (digits_split _ _ _ _ (dec_digits a) (dec_digits b) E) as [E1 _]. now apply dec_inj.
Qed.

Lemma sub_pre_not_main a : sub_pre a <> "".
Proof. unfold sub_pre. destruct (dec a); discriminate. Qed.
