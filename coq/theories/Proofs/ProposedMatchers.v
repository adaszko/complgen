(** PROPOSED, UNEXECUTED: what the framework can say about patches/proposed-within-word-matcher-other-shells.diff
    (the three repairs of the bash within-word matcher -- ac67eca stop test, df274e8 accepting states, a54562b
    nonterminal first -- carried over to fish.rs, zsh.rs, pwsh.rs).  The modules [PZ], [PP], [PF] hold the templates
    of [write_subword_fn] that the patch changes or adds and the new [write_accepting_states] line, as
    translator/rs2v.py generates them from the PATCHED sources (copied here, not regenerated: the patch is
    not applied to /repo).  Proved below:
    - every line of the patched matcher templates is still skipped by the specification-side reader or read as
      the same fixed statement as before (the unit lemmas, discharged like those of the current templates:
      deep lines by indentation, the other lines without holes by computation) -- so the skeleton part of
      C04_embed_{zsh,pwsh,fish} goes through with the patched templates;
    - the new accepting-state line of each shell reads back as a statement that carries exactly the accepting
      states ([proposed_accepting_*]); for zsh the whole patched wrapper function is scanned
      ([proposed_zsh_wrapper_scans]).
    The whole-script statement for a patched emitter model is [proposed_embed_statement] (a Definition: it is
    what C04d would state once the patch lands and Model/Emit*.v follow it; tables unchanged, one more
    statement per wrapper). *)
From Coq Require Import DecimalString.
From CG Require Import Base.Prelude Model.Ast Model.Dfa Model.Tpl Model.Quote Model.Tables Model.EmitBash Model.EmitData
     Model.EmitZsh Model.EmitPwsh Model.EmitFish Spec.ShellDQ Spec.ScriptRead Proofs.QuoteRT Proofs.BashCodec Proofs.BashScript
     Proofs.ScriptGen Proofs.ZshCodec Proofs.ZshScript Proofs.PwshCodec Proofs.PwshScript Proofs.FishCodec Proofs.FishScript Base.Facts.
Open Scope string_scope.
Open Scope list_scope.

Module PZ.
Definition write_subword_fn_1 : list seg := [Text "
    declare subword_state=1
    declare char_index=0
    declare matched=0
    while true; do
        if [[ $char_index -ge ${#word} ]]; then
            if [[ $mode != matches || -v ""subword_accepting_states[$subword_state]"" ]]; then
                matched=1
            fi
            break
        fi

        declare subword=${word:$char_index}"].
Definition write_subword_fn_2 : list seg := [Text "
        if [[ $mode = matches && -v ""subword_star_transitions[$subword_state]"" ]]; then
            matched=1
            break
        fi
"].
Definition write_subword_fn_3 : list seg := [Text "
        if [[ -v ""subword_literal_transitions[$subword_state]"" ]]; then
            eval ""declare -A state_transitions=${subword_literal_transitions[$subword_state]}""

            for ((literal_id = 1; literal_id <= $#subword_literals; literal_id++)); do
                declare literal=${subword_literals[$literal_id]}
                if [[ $subword == $literal && -v ""state_transitions[$literal_id]"" ]]; then
                    subword_state=${state_transitions[$literal_id]}
                    char_index=$((char_index + ${#literal}))
                    continue 2
                fi
                if [[ $mode = complete && -v ""state_transitions[$literal_id]"" && $literal == $subword* ]]; then
                    break 2
                fi
                if [[ $subword == $literal* && -v ""state_transitions[$literal_id]"" ]]; then
                    subword_state=${state_transitions[$literal_id]}
                    char_index=$((char_index + ${#literal}))
                    continue 2
                fi
            done
        fi"].
Definition write_subword_fn_4 : list seg := [Text "
        if [[ -v ""subword_compadd_transitions[$subword_state]"" ]]; then
            eval ""local -A state_commands=${subword_compadd_transitions[$subword_state]}""
            for cmd_id in ""${(k)state_commands}""; do
                declare -a compadd_hook_matches=()
                declare compadd_original_type=${${(z)$(type -w compadd)}[2]}
                if [[ ""$compadd_original_type"" == builtin ]]; then
                    function compadd_original () {
                        builtin compadd ""$@""
                    }
                else
                    functions -c compadd compadd_original
                fi
                functions -c compadd_hook compadd
                local matched_prefix=""${word:0:$char_index}""
                IPREFIX=""$matched_prefix"" PREFIX=""$subword"" compadd_hook_swallow=true _"; Hole "command"; Text "_cmd_${cmd_id}
                if [[ ""$compadd_original_type"" == builtin ]]; then
                    unfunction compadd
                else
                    functions -c compadd_original compadd
                    unfunction compadd_original
                fi

                if [[ ${#compadd_hook_matches[@]} -gt 0 ]]; then
                    indexes=($(
                        for ((i = 1; i <= $#compadd_hook_matches; i++)); do
                            printf '%s %s %s\n' $i ""${#compadd_hook_matches[i]}"" ""${compadd_hook_matches[i]}""
                        done | sort -nrk2,2 -rk3 | cut -f1 -d' '
                    ))
                    decreasing_length=()
                    for i in ""${indexes[@]}""; do
                        decreasing_length+=(""${compadd_hook_matches[i]}"")
                    done

                    for candidate in ""${decreasing_length[@]}""; do
                        if [[ $candidate == $subword ]]; then
                            match_len=${#candidate}
                            char_index=$((char_index + match_len))
                            subword_state=${state_commands[$cmd_id]}
                            continue 3
                        fi

                        if [[ $mode = complete && $candidate == $subword* ]]; then
                            break 3
                        fi

                        if [[ $subword == $candidate* ]]; then
                            match_len=${#candidate}
                            char_index=$((char_index + match_len))
                            subword_state=${state_commands[$cmd_id]}
                            continue 3
                        fi
                    done
                fi
            done
        fi
"].
Definition write_subword_fn_5 : list seg := [Text "
        if [[ -v ""subword_command_transitions[$subword_state]"" ]]; then
            eval ""local -A state_commands=${subword_command_transitions[$subword_state]}""
            for cmd_id in ""${(k)state_commands}""; do
                local matched_prefix=""${word:0:$char_index}""
                declare output=$(IPREFIX=""$matched_prefix"" PREFIX=""$completed_prefix"" _"; Hole "command"; Text "_cmd_${cmd_id})
                declare -a candidates=(""${(@f)output}"")
                for ((i = 1; i <= ${#candidates[@]}; i++)); do
                    line=${candidates[$i]}
                    declare parts=(${(@s:	:)line})
                    candidates[$i]=${parts[1]}
                done

                if [[ ${#candidates[@]} -gt 0 ]]; then
                    indexes=($(
                        for ((i = 1; i <= $#candidates; i++)); do
                            printf '%s %s %s\n' $i ""${#candidates[i]}"" ""${candidates[i]}""
                        done | sort -nrk2,2 -rk3 | cut -f1 -d' '
                    ))
                    decreasing_length=()
                    for i in ""${indexes[@]}""; do
                        decreasing_length+=(""${candidates[i]}"")
                    done

                    for candidate in ""${decreasing_length[@]}""; do
                        if [[ $candidate == $subword ]]; then
                            match_len=${#candidate}
                            char_index=$((char_index + match_len))
                            subword_state=${state_commands[$cmd_id]}
                            continue 3
                        fi

                        if [[ $mode = complete && $candidate == $subword* ]]; then
                            break 3
                        fi

                        if [[ $subword == $candidate* ]]; then
                            match_len=${#candidate}
                            char_index=$((char_index + match_len))
                            subword_state=${state_commands[$cmd_id]}
                            continue 3
                        fi
                    done
                fi
            done
        fi
"].
Definition write_accepting_states_0 : list seg := [Text "    declare -A subword_accepting_states=("; Hole "initializer"; Text ")"].
End PZ.

Module PP.
Definition write_subword_fn_0 : list seg := [Text "function _"; Hole "command"; Text "_subword {
    param([string]$mode, [string]$word)

    $subword_state = 0
    $char_index = 0
    $matched = $false
    :outer while ($true) {
        if ($char_index -ge $word.Length) {
            if ($mode -ne 'matches' -Or $accepting_states.ContainsKey($subword_state)) {
                $matched = $true
            }
            break
        }

        $subword = $word.Substring($char_index)"].
Definition write_subword_fn_1 : list seg := [Text "
        if ($mode -eq 'matches' -And $star_transitions.ContainsKey($subword_state)) {
            $matched = $true
            break
        }
"].
Definition write_subword_fn_2 : list seg := [Text "
        if ($literal_transitions.ContainsKey($subword_state)) {
            $state_transitions = $literal_transitions[$subword_state]

            for ($literal_id = 0; $literal_id -lt $literals.Count; $literal_id++) {
                $literal = $literals[$literal_id]
                if ($subword -eq $literal -And $state_transitions.ContainsKey($literal_id)) {
                    $subword_state = $state_transitions[$literal_id]
                    $char_index += $literal.Length
                    continue outer
                }
                if ($mode -eq 'complete' -And $state_transitions.ContainsKey($literal_id) -And $literal.StartsWith($subword, [StringComparison]::OrdinalIgnoreCase)) {
                    break outer
                }
                if ($subword.StartsWith($literal, [StringComparison]::OrdinalIgnoreCase) -And $state_transitions.ContainsKey($literal_id)) {
                    $subword_state = $state_transitions[$literal_id]
                    $char_index += $literal.Length
                    continue outer
                }
            }
        }"].
Definition write_subword_fn_3 : list seg := [Text "
        if ($command_transitions.ContainsKey($subword_state)) {
            $state_transitions = $command_transitions[$subword_state]

            foreach ($cmd_id in $state_transitions.Keys) {
                $output = & ""_"; Hole "command"; Text "_cmd_$cmd_id""
                $decreasing_length = $output | Sort-Object -Property { $_.Length } -Descending
                foreach ($line in $decreasing_length) {
                    if ([string]::IsNullOrWhiteSpace($line)) { continue }
                    $parts = $line -split ""`t"", 2
                    $candidate = $parts[0]
                    $desc = if ($parts.Count -gt 1) { $parts[1] } else { $candidate }

                    if ($candidate -eq $subword) {
                        $char_index += $candidate.Length
                        $subword_state = $state_transitions[$cmd_id]
                        continue outer
                    }

                    if ($mode -eq 'complete' -And $candidate.StartsWith($subword, [StringComparison]::OrdinalIgnoreCase)) {
                        break outer
                    }

                    if ($subword.StartsWith($candidate, [StringComparison]::OrdinalIgnoreCase)) {
                        $char_index += $candidate.Length
                        $subword_state = $state_transitions[$cmd_id]
                        continue outer
                    }
                }
            }
        }"].
Definition write_accepting_states_0 : list seg := [Text "    $accepting_states = @{"; Hole "initializer"; Text "}"].
End PP.

Module PF.
Definition write_subword_fn_1 : list seg := [Text "
    set subword_state 1
    set char_index 1
    set matched 0
    while true
        if test $char_index -gt (string length -- ""$word"")
            if test $mode != matches; or contains -- ""$subword_state"" $subword_accepting_states
                set matched 1
            end
            break
        end

        set subword (string sub --start=$char_index -- ""$word"")"].
Definition write_subword_fn_2 : list seg := [Text "
        if test $mode = matches
            set index (contains --index -- ""$subword_state"" $subword_star_transitions_from)
            if test -n ""$index""
                set matched 1
                break
            end
        end
"].
Definition write_subword_fn_3 : list seg := [Text "
        if set --query subword_literal_transitions_inputs[$subword_state] && test -n $subword_literal_transitions_inputs[$subword_state]
            set inputs (string split ' ' $subword_literal_transitions_inputs[$subword_state])
            set tos (string split ' ' $subword_literal_transitions_tos[$subword_state])

            set stop_matching 0
            set literal_matched 0
            set literal_id 1
            while test $literal_id -le (count $subword_literals)
                set literal $subword_literals[$literal_id]
                if test $subword = $literal
                    set index (contains --index -- ""$literal_id"" $inputs)
                    set subword_state $tos[$index]
                    set literal_len (string length -- ""$literal"")
                    set char_index (math $char_index + $literal_len)
                    set literal_matched 1
                    break
                end
                if test $mode = complete && contains -- ""$literal_id"" $inputs && string match --quiet -- ""$subword*"" $literal
                    set stop_matching 1
                    break
                end
                if string match --quiet -- ""$literal*"" $subword
                    set index (contains --index -- ""$literal_id"" $inputs)
                    set subword_state $tos[$index]
                    set literal_len (string length -- ""$literal"")
                    set char_index (math $char_index + $literal_len)
                    set literal_matched 1
                    break
                end
                set literal_id (math $literal_id + 1)
            end
            if test $stop_matching -ne 0
                break
            end
            if test $literal_matched -ne 0
                continue
            end
        end"].
Definition write_accepting_states_0 : list seg := [Text "    set --global subword_accepting_states "; Hole "initializer"].
End PF.
Open Scope N_scope.

(** ** the patched matcher templates: same fixed statements as the current ones *)
Section Zsh.
Variable command : string.
Hypothesis Hc : name_ok command.
Lemma PZ_s1_scans :
  unit_scans_envG Zsh command (EmitZsh.env_cmd command) (sh_nl PZ.write_subword_fn_1)
    [SScalar "subword_state" 1; SScalar "char_index" 0; SScalar "matched" 0].
Proof. apply unit_scans_closed; [reflexivity | plain_unit zdeep]. Qed.
Lemma PZ_s2_scans : unit_scans_envG Zsh command (EmitZsh.env_cmd command) (sh_nl PZ.write_subword_fn_2) [].
Proof. apply unit_scans_closed; [reflexivity | plain_unit zdeep]. Qed.
Lemma PZ_s3_scans : unit_scans_envG Zsh command (EmitZsh.env_cmd command) (sh_nl PZ.write_subword_fn_3) [].
Proof. apply unit_scans_closed; [reflexivity | plain_unit zdeep]. Qed.
Lemma PZ_s4_scans : unit_scans_envG Zsh command (EmitZsh.env_cmd command) (sh_nl PZ.write_subword_fn_4) [].
Proof. plain_unit zdeep. Qed.
Lemma PZ_s5_scans : unit_scans_envG Zsh command (EmitZsh.env_cmd command) (sh_nl PZ.write_subword_fn_5) [].
Proof. plain_unit zdeep. Qed.
End Zsh.

Section Pwsh.
Variable command : string.
Hypothesis Hc : name_ok command.
Lemma PP_s0_scans :
  unit_scans_envG Pwsh command (EmitPwsh.env_cmd command) (PP.write_subword_fn_0 ++ seg_nl)
    [SFunc (append "_" (append command "_subword")); SScalar "subword_state" 0; SScalar "char_index" 0].
Proof. unit_by pdeep ltac:(open_line (pheader_sem command "_subword" Hc eq_refl eq_refl); constructor). Qed.
Lemma PP_s1_scans : unit_scans_envG Pwsh command (EmitPwsh.env_cmd command) PP.write_subword_fn_1 [].
Proof. apply unit_scans_closed; [reflexivity | plain_unit pdeep]. Qed.
Lemma PP_s2_scans : unit_scans_envG Pwsh command (EmitPwsh.env_cmd command) (sh_nl PP.write_subword_fn_2) [].
Proof. apply unit_scans_closed; [reflexivity | plain_unit pdeep]. Qed.
Lemma PP_s3_scans : unit_scans_envG Pwsh command (EmitPwsh.env_cmd command) (sh_nl PP.write_subword_fn_3) [].
Proof. plain_unit pdeep. Qed.
End Pwsh.

Section Fish.
Variable command : string.
Hypothesis Hc : name_ok command.
Lemma PF_s1_scans :
  unit_scans_envG Fish command (EmitFish.env_cmd command) (sh_nl PF.write_subword_fn_1)
    [SSet "subword_state" None [INum 1]; SSet "char_index" None [INum 1]; SSet "matched" None [INum 0]].
Proof. apply unit_scans_closed; [reflexivity | plain_unit fdeep]. Qed.
Lemma PF_s2_scans : unit_scans_envG Fish command (EmitFish.env_cmd command) (sh_nl PF.write_subword_fn_2) [].
Proof. apply unit_scans_closed; [reflexivity | plain_unit fdeep]. Qed.
Lemma PF_s3_scans : unit_scans_envG Fish command (EmitFish.env_cmd command) (sh_nl PF.write_subword_fn_3) [].
Proof. apply unit_scans_closed; [reflexivity | plain_unit fdeep]. Qed.
End Fish.

(** ** the new data statement: the accepting states of a within-word automaton *)
Definition acc1 (acc : list N) : list (N * N) := map (fun s => (s, 1)) acc.

(** pwsh: [    $accepting_states = @{s=1;...}] *)
Lemma proposed_accepting_pwsh acc :
  reads_asG Pwsh (fmtln PP.write_accepting_states_0 [("initializer", join ";" (map P.pkv (acc1 acc)))])
            (SAssoc "accepting_states" (map (fun p => (fst p, [snd p])) (acc1 acc))).
Proof. by_line (preads_pairs "accepting_states" (acc1 acc)). vn. Qed.

(** fish: [    set --global subword_accepting_states s ...] *)
Lemma proposed_accepting_fish acc :
  reads_asG Fish (fmtln PF.write_accepting_states_0 [("initializer", join " " (map sN acc))])
            (SSet "subword_accepting_states" None (map INum acc)).
Proof.
  eapply reads_tpl; [apply (freads_set true "subword_accepting_states" None (map INum acc)); fv|].
  unfold set_line. rewrite map_map. reflexivity.
Qed.

(** zsh: [    declare -A subword_accepting_states=([s]=1 ...)] *)
Lemma proposed_accepting_zsh acc :
  reads_asG Zsh (fmtln PZ.write_accepting_states_0 [("initializer", join " " (map kv (acc1 acc)))])
            (SAssoc "subword_accepting_states" (map (fun p => (fst p, [snd p])) (acc1 acc))).
Proof. by_line (bz_reads_pairs bz_zsh "" "subword_accepting_states" (acc1 acc)). vn. Qed.

(** zsh: the whole patched wrapper function (header, accepting states, the tables, call, end) *)
Definition proposed_zsh_wrapper (command : string) (id : N) (t : tables) (acc : list N) : string :=
  sconcat [ fmtln TplZsh.write_subword_wrapper_fn_0 [("command", command); ("id", sN id)];
            fmtln PZ.write_accepting_states_0 [("initializer", join " " (map kv (acc1 acc)))];
            Z.write_literals "subword_" (t_literals t); Z.write_match_transitions "subword_" t;
            Z.write_completion_tables "subword_" t;
            fmtln TplZsh.write_subword_wrapper_fn_1 [("command", command)]; fmtln TplZsh.write_subword_wrapper_fn_2 [] ].

Lemma proposed_zsh_wrapper_scans command (Hc : name_ok command) id t acc :
  scansE Zsh command (append (proposed_zsh_wrapper command id t acc) nl)
    ([SFunc (fn_name command (append "_subword_" (sN id)))]
     ++ [SAssoc "subword_accepting_states" (map (fun p => (fst p, [snd p])) (acc1 acc))]
     ++ zlits_stmts "subword_" (t_literals t) ++ zmatch_stmts "subword_" t ++ zcompletion_stmts "subword_" t
     ++ [SCall (fn_name command "_subword")] ++ [SEnd]).
Proof.
  pose proof (sub_suffix_ok "_subword_" id eq_refl) as S1.
  unfold proposed_zsh_wrapper. cbn [sconcat].
  set (B := fmtln PZ.write_accepting_states_0 [("initializer", join " " (map kv (acc1 acc)))]).
  rewrite !append_assoc.
  apply scansE_app; [unit_by zdeep ltac:(open_line (bz_header_sem bz_zsh command _ Hc S1 eq_refl); constructor)|].
  apply scansE_app; [apply reads_scans1, proposed_accepting_zsh|].
  apply scansE_app; [apply reads_scansG, zreads_lits, pfx_sub|].
  apply scansE_app; [apply reads_scansG, zreads_match, pfx_sub|].
  apply scansE_app; [apply reads_scansG, zreads_completion, pfx_sub|].
  apply scansE_app; [unit_by zdeep ltac:(open_line (zcall_sem command "_subword" Hc eq_refl); constructor)|].
  apply scansE_cons; [plain_unit zdeep | apply (blank_scansG Zsh zblank)].
Qed.

(** ** the whole-script statement for a patched emitter model (stated, not proved: the model follows the code as
    it is).  [script'] is the model of the patched [write_completion_script] (the current one with the patched
    matcher templates and the accepting-state line after every wrapper header); [stmts'] is the current statement
    list with one accepting-state statement after the [SFunc] of every wrapper and shape wrapper.  The tables
    ([alltables], with [a_subaccepting] for the new statement) are those of the current theorem. *)
Definition proposed_embed_statement (sh : shell)
  (script' : string -> string -> N -> needs -> alltables -> list (list N) -> res string)
  (stmts' : string -> N -> needs -> alltables -> list (list N) -> res (list stmt))
  (name_hyp : string -> Prop) (tables_hyp : alltables -> Prop) : Prop :=
  forall command sig start nd a groups s,
    name_hyp command -> no_nl sig = true -> tables_hyp a ->
    Forall (fun c => body_okG sh (match sh with Pwsh => P.cmd_body c | _ => c end)) (a_commands a) ->
    script' command sig start nd a groups = Ok s ->
    exists sts, stmts' command start nd a groups = Ok sts /\ read_stmts sh command s = sts.
