(** L-glushkov: Berry-Sethi for the tables [nullable] / [firstpos] / [lastpos] / [followpos] of
    Model/Regex.v.  The composition steps ([cat_local], [or_local], [plus_local]) are proved on
    abstract tables [(n, F, E, L)] (nullable flag, first set, edge list, last set) and never
    mention trees.  The n-ary tree functions are given a binary view ([XCat (x :: xs)] = [x]
    followed by [XCat xs]; [XCat [c; XStar c]] = [c]+) so that those steps apply to them.
    [local_shape]: for the trees the builder produces, [Lrx t w <-> Local t w]; [glushkov_root]:
    the statement of RxLang.v for the root with its end marker. *)
From CG Require Import Base.Prelude Proofs.ListFacts Model.Ast Model.Regex Proofs.Limg Proofs.RxLang.
From CG Require Model.Minimize Proofs.MinimizeBasics.

(** [pins] is [bm_insert] of Model/Minimize.v under another name: both model [RoaringBitmap::insert] *)
Lemma pins_bm_insert : pins = Minimize.bm_insert.
Proof. reflexivity. Qed.

Lemma in_pins x y l : In x (pins y l) <-> x = y \/ In x l.
Proof. rewrite pins_bm_insert. apply MinimizeBasics.bm_insert_In. Qed.

Lemma in_punion x a b : In x (punion a b) <-> In x a \/ In x b.
Proof.
  unfold punion. induction b as [|y b IH]; simpl.
  - tauto.
  - rewrite in_pins, IH. intuition congruence.
Qed.

Lemma in_pprod x y xs ys : In (x, y) (pprod xs ys) <-> In x xs /\ In y ys.
Proof.
  unfold pprod. rewrite in_flat_map. split.
  - intros [x' [Hx Hy]]. apply in_map_iff in Hy. destruct Hy as [y' [E Hy]].
    inversion E; subst. auto.
  - intros [Hx Hy]. exists x. split; auto. apply in_map_iff. exists y. auto.
Qed.

Lemma pair_dec (p q : N * N) : {p = q} + {p <> q}.
Proof. decide equality; apply N.eq_dec. Qed.

Section RxInd.
  Variable P : rx -> Prop.
  Hypothesis Heps : P XEps.
  Hypothesis Hpos : forall k p, P (XPos k p).
  Hypothesis Hcat : forall cs, Forall P cs -> P (XCat cs).
  Hypothesis Hor : forall cs, Forall P cs -> P (XOr cs).
  Hypothesis Hstar : forall c, P c -> P (XStar c).

  Fixpoint rx_ind' (t : rx) : P t :=
    let fix go (l : list rx) : Forall P l :=
      match l with
      | [] => Forall_nil P
      | x :: r => Forall_cons x (rx_ind' x) (go r)
      end in
    match t with
    | XEps => Heps
    | XPos k p => Hpos k p
    | XCat cs => Hcat cs (go cs)
    | XOr cs => Hor cs (go cs)
    | XStar c => Hstar c (rx_ind' c)
    end.
End RxInd.

Lemma rx_bin_ind (P : rx -> Prop) :
  P XEps -> (forall k p, P (XPos k p)) ->
  P (XCat []) -> (forall c cs, P c -> P (XCat cs) -> P (XCat (c :: cs))) ->
  P (XOr []) -> (forall c cs, P c -> P (XOr cs) -> P (XOr (c :: cs))) ->
  (forall c, P c -> P (XStar c)) -> forall t, P t.
Proof.
  intros Heps Hpos Hcn Hcc Hon Hoc Hst.
  induction t as [|k p|cs IH|cs IH|c IH] using rx_ind'; auto; induction IH; auto.
Qed.

(** [path E a w b]: the word [a :: w] is a chain of [E]-edges ending in [b]. *)
Inductive path (E : list (N * N)) : N -> list N -> N -> Prop :=
| P_nil a : path E a [] a
| P_cons a c w b : In (a, c) E -> path E c w b -> path E a (c :: w) b.

Definition LocalT (n : bool) (F : list N) (E : list (N * N)) (L : list N) (w : list N) : Prop :=
  match w with
  | [] => n = true
  | a :: r => In a F /\ exists b, path E a r b /\ In b L
  end.

Lemma path_mono E G a w b :
  (forall x y, In (x, y) E -> In (x, y) G) -> path E a w b -> path G a w b.
Proof. intros H P. induction P; constructor; auto. Qed.

Lemma LocalT_mono n F E L n' F' E' L' a r :
  (forall x, In x F -> In x F') -> (forall x y, In (x, y) E -> In (x, y) E') ->
  (forall x, In x L -> In x L') -> LocalT n F E L (a :: r) -> LocalT n' F' E' L' (a :: r).
Proof.
  intros HF HE HL [Ha (b & P & Hb)]. split; [auto|]. exists b. split; [eapply path_mono; eauto | auto].
Qed.

Lemma path_app E a u m c v b :
  path E a u m -> In (m, c) E -> path E c v b -> path E a (u ++ c :: v) b.
Proof. intros P. induction P; intros; simpl; econstructor; eauto. Qed.

Lemma path_restrict (A : N -> Prop) E G x w e :
  (forall u v, A u -> In (u, v) E -> In (u, v) G /\ A v) ->
  A x -> path E x w e -> path G x w e /\ A e.
Proof.
  intros H Hx P. induction P as [a|a c w b Hac P IH].
  - split; [constructor|auto].
  - destruct (H _ _ Hx Hac) as [HG Hc]. destruct (IH Hc). split; [econstructor; eauto|auto].
Qed.

(** Two languages [A], [B] over disjoint position sets [PA], [PB], each described by its tables;
    [(n, F, E, L)] are the tables of the composition. *)
Section Two.
  Variables A B : list N -> Prop.
  Variables PA PB : list N.
  Variables nA nB n : bool.
  Variables FA FB F LA LB L : list N.
  Variables EA EB E : list (N * N).
  Hypothesis D : disjoint PA PB.
  Hypothesis FA_P : forall x, In x FA -> In x PA.
  Hypothesis LA_P : forall x, In x LA -> In x PA.
  Hypothesis EA_P : forall x y, In (x, y) EA -> In x PA /\ In y PA.
  Hypothesis FB_P : forall x, In x FB -> In x PB.
  Hypothesis LB_P : forall x, In x LB -> In x PB.
  Hypothesis EB_P : forall x y, In (x, y) EB -> In x PB /\ In y PB.
  Hypothesis HA : forall w, A w <-> LocalT nA FA EA LA w.
  Hypothesis HB : forall w, B w <-> LocalT nB FB EB LB w.

Section Cat.
  Hypothesis Hn : n = nA && nB.
  Hypothesis HF : forall x, In x F <-> In x FA \/ (nA = true /\ In x FB).
  Hypothesis HL : forall x, In x L <-> In x LB \/ (nB = true /\ In x LA).
  Hypothesis HE : forall x y,
      In (x, y) E <-> In (x, y) EA \/ In (x, y) EB \/ (In x LA /\ In y FB).

  Lemma cat_side_b u v : In u PB -> In (u, v) E -> In (u, v) EB /\ In v PB.
  Proof.
    intros Hu Huv. apply HE in Huv. destruct Huv as [H|[H|[H _]]].
    - destruct (EA_P _ _ H) as [Ha _]. exfalso. exact (D u Ha Hu).
    - split; [exact H|]. exact (proj2 (EB_P _ _ H)).
    - apply LA_P in H. exfalso. exact (D u H Hu).
  Qed.

  Lemma cat_split x w e :
    In x PA -> path E x w e ->
    (path EA x w e /\ In e PA) \/
    exists w1 m c w2, w = w1 ++ c :: w2 /\ path EA x w1 m /\ In m LA /\
                      In c FB /\ path EB c w2 e /\ In e PB.
  Proof.
    intros Hx P. induction P as [x|x c w e He P IH].
    - left. split; [constructor|auto].
    - apply HE in He. destruct He as [He|[He|[Hm Hc]]].
      + destruct (EA_P _ _ He) as [_ Hc].
        destruct (IH Hc) as [[P' Q]|(w1 & m & c' & w2 & E0 & P1 & Hm & Hc' & P2 & Q)].
        * left. split; [econstructor; eauto|auto].
        * right. exists (c :: w1), m, c', w2. subst. repeat split; auto. econstructor; eauto.
      + destruct (EB_P _ _ He) as [Hxb _]. exfalso. eapply D; eauto.
      + right. exists [], x, c, w.
        destruct (path_restrict (fun u => In u PB) E EB c w e cat_side_b (FB_P _ Hc) P)
          as [P' Q].
        simpl. repeat split; auto. constructor.
  Qed.

  Lemma cat_local w : (exists u v, w = u ++ v /\ A u /\ B v) <-> LocalT n F E L w.
  Proof.
    split.
    - intros (u & v & Ew & Hu & Hv). subst w. apply HA in Hu. apply HB in Hv.
      destruct u as [|x u]; destruct v as [|c v].
      + simpl in *. rewrite Hn, Hu, Hv. reflexivity.
      + simpl in Hu. apply (LocalT_mono nB FB EB LB); [| | |exact Hv]; intros;
          [apply HF | apply HE | apply HL]; auto.
      + rewrite app_nil_r. simpl in Hv. apply (LocalT_mono nA FA EA LA); [| | |exact Hu]; intros;
          [apply HF | apply HE | apply HL]; auto.
      + simpl in *. destruct Hu as [Hx (m & P & Hm)]. destruct Hv as [Hc (b & Q & Hb)]. split.
        * apply HF; auto.
        * exists b. split.
          -- eapply path_app.
             ++ eapply path_mono; [|exact P]. intros; apply HE; auto.
             ++ apply HE. auto.
             ++ eapply path_mono; [|exact Q]. intros; apply HE; auto.
          -- apply HL; auto.
    - destruct w as [|x w]; simpl.
      + intros H. rewrite Hn in H. apply andb_true_iff in H. destruct H as [Ha Hb].
        exists [], []. split; [reflexivity|]. split; [apply HA|apply HB]; simpl; auto.
      + intros [Hx (e & P & He)]. apply HF in Hx. destruct Hx as [Hx|[Na Hx]].
        * destruct (cat_split _ _ _ (FA_P _ Hx) P)
            as [[P' Q]|(w1 & m & c & w2 & E0 & P1 & Hm & Hc & P2 & Q)].
          -- apply HL in He. destruct He as [He|[Nb He]].
             { apply LB_P in He. exfalso. eapply D; eauto. }
             exists (x :: w), []. rewrite app_nil_r. split; [reflexivity|].
             split; [apply HA|apply HB]; simpl; auto. split; auto. exists e. auto.
          -- subst w. exists (x :: w1), (c :: w2). split; [reflexivity|].
             split; [apply HA|apply HB]; simpl.
             ++ split; auto. exists m. auto.
             ++ split; auto. exists e. split; auto.
                apply HL in He. destruct He as [He|[Nb He]]; auto.
                apply LA_P in He. exfalso. eapply D; eauto.
        * destruct (path_restrict (fun u => In u PB) E EB x w e cat_side_b (FB_P _ Hx) P)
            as [P' Q].
          exists [], (x :: w). split; [reflexivity|].
          split; [apply HA|apply HB]; simpl; auto.
          split; auto. exists e. split; auto.
          apply HL in He. destruct He as [He|[Nb He]]; auto.
          apply LA_P in He. exfalso. eapply D; eauto.
  Qed.
End Cat.

Section Or.
  Hypothesis Hn : n = nA || nB.
  Hypothesis HF : forall x, In x F <-> In x FA \/ In x FB.
  Hypothesis HL : forall x, In x L <-> In x LA \/ In x LB.
  Hypothesis HE : forall x y, In (x, y) E <-> In (x, y) EA \/ In (x, y) EB.

  Lemma or_side_a u v : In u PA -> In (u, v) E -> In (u, v) EA /\ In v PA.
  Proof.
    intros Hu Huv. apply HE in Huv. destruct Huv as [H|H].
    - split; [exact H|]. exact (proj2 (EA_P _ _ H)).
    - destruct (EB_P _ _ H) as [Hb _]. exfalso. exact (D u Hu Hb).
  Qed.

  Lemma or_side_b u v : In u PB -> In (u, v) E -> In (u, v) EB /\ In v PB.
  Proof.
    intros Hu Huv. apply HE in Huv. destruct Huv as [H|H].
    - destruct (EA_P _ _ H) as [Ha _]. exfalso. exact (D u Ha Hu).
    - split; [exact H|]. exact (proj2 (EB_P _ _ H)).
  Qed.

  Lemma or_local w : (A w \/ B w) <-> LocalT n F E L w.
  Proof.
    split.
    - intros [H|H]; [apply HA in H|apply HB in H]; destruct w as [|x w].
      + simpl in *. rewrite Hn, H. reflexivity.
      + apply (LocalT_mono nA FA EA LA); [| | |exact H]; intros; [apply HF | apply HE | apply HL]; auto.
      + simpl in *. rewrite Hn, H. apply orb_true_r.
      + apply (LocalT_mono nB FB EB LB); [| | |exact H]; intros; [apply HF | apply HE | apply HL]; auto.
    - destruct w as [|x w]; simpl.
      + intros H. rewrite Hn in H. apply orb_true_iff in H.
        destruct H; [left; apply HA|right; apply HB]; simpl; auto.
      + intros [Hx (e & P & He)]. apply HF in Hx. destruct Hx as [Hx|Hx].
        * destruct (path_restrict (fun u => In u PA) E EA x w e or_side_a (FA_P _ Hx) P)
            as [P' Q].
          left. apply HA. simpl. split; auto. exists e. split; auto.
          apply HL in He. destruct He as [He|He]; auto.
          apply LB_P in He. exfalso. eapply D; eauto.
        * destruct (path_restrict (fun u => In u PB) E EB x w e or_side_b (FB_P _ Hx) P)
            as [P' Q].
          right. apply HB. simpl. split; auto. exists e. split; auto.
          apply HL in He. destruct He as [He|He]; auto.
          apply LA_P in He. exfalso. eapply D; eauto.
  Qed.
End Or.
End Two.

Section Plus.
  Variable A : list N -> Prop.
  Variable nA : bool.
  Variables FA LA : list N.
  Variables EA E : list (N * N).
  Hypothesis HA : forall w, A w <-> LocalT nA FA EA LA w.
  Hypothesis HE : forall x y, In (x, y) E <-> In (x, y) EA \/ (In x LA /\ In y FA).

  Lemma plus_split x w e :
    path E x w e ->
    path EA x w e \/
    exists w1 m c w2, w = w1 ++ c :: w2 /\ path EA x w1 m /\ In m LA /\
                      In c FA /\ path E c w2 e.
  Proof.
    intros P. induction P as [x|x c w e He P IH].
    - left. constructor.
    - destruct (in_dec pair_dec (x, c) EA) as [Hin|Hnin].
      + destruct IH as [P'|(w1 & m & c' & w2 & E0 & P1 & Hm & Hc' & P2)].
        * left. econstructor; eauto.
        * right. exists (c :: w1), m, c', w2. subst. repeat split; auto. econstructor; eauto.
      + apply HE in He. destruct He as [He|[Hm Hc]]; [contradiction|].
        right. exists [], x, c, w. simpl. repeat split; auto. constructor.
  Qed.

  Lemma plus_sound w : plusP A w -> LocalT nA FA E LA w.
  Proof.
    intros H. induction H as [u Hu|u v Hu Hv IH].
    - apply HA in Hu. destruct u as [|x u]; simpl in *; auto.
      destruct Hu as [Hx (e & P & He)]. split; auto. exists e. split; auto.
      eapply path_mono; [|exact P]. intros; apply HE; auto.
    - apply HA in Hu. destruct u as [|x u]; [exact IH|].
      simpl in Hu. destruct Hu as [Hx (m & P & Hm)].
      destruct v as [|c v].
      + rewrite app_nil_r. simpl. split; auto. exists m. split; auto.
        eapply path_mono; [|exact P]. intros; apply HE; auto.
      + simpl in IH. destruct IH as [Hc (e & Q & He)]. simpl. split; auto.
        exists e. split; auto. eapply path_app.
        * eapply path_mono; [|exact P]. intros; apply HE; auto.
        * apply HE. auto.
        * exact Q.
  Qed.

  Lemma plus_complete w : LocalT nA FA E LA w -> plusP A w.
  Proof.
    destruct w as [|x w]; simpl.
    - intros H. apply PP_one. apply HA. exact H.
    - intros [Hx (e & P & He)].
      remember (List.length w) as k eqn:Hk. revert x w Hx P Hk.
      induction k as [k IHk] using lt_wf_ind. intros x w Hx P Hk.
      destruct (plus_split _ _ _ P) as [P'|(w1 & m & c & w2 & E0 & P1 & Hm & Hc & P2)].
      + apply PP_one. apply HA. simpl. split; auto. exists e. auto.
      + subst w. change (x :: w1 ++ c :: w2) with ((x :: w1) ++ (c :: w2)). apply PP_more.
        * apply HA. simpl. split; auto. exists m. auto.
        * apply (IHk (List.length w2)); auto. subst k. rewrite app_length. simpl. lia.
  Qed.

  Lemma plus_local w : plusP A w <-> LocalT nA FA E LA w.
  Proof. split; [apply plus_sound|apply plus_complete]. Qed.
End Plus.

Lemma nullable_cat_cons x xs : nullable (XCat (x :: xs)) = nullable x && nullable (XCat xs).
Proof. reflexivity. Qed.

Lemma firstpos_cat_cons_eq x xs :
  firstpos (XCat (x :: xs)) =
  if nullable x then punion (firstpos x) (firstpos (XCat xs)) else firstpos x.
Proof. reflexivity. Qed.

Lemma lastpos_cat_cons_eq x xs :
  lastpos (XCat (x :: xs)) =
  if nullable (XCat xs) then punion (lastpos x) (lastpos (XCat xs)) else lastpos (XCat xs).
Proof. reflexivity. Qed.

Lemma followpos_cat_cons_eq x xs :
  followpos (XCat (x :: xs)) =
  (followpos x ++ flat_map followpos xs) ++ (pprod (lastpos x) (cat_heads xs) ++ cat_pairs xs).
Proof. reflexivity. Qed.

Lemma followpos_cat_eq xs : followpos (XCat xs) = flat_map followpos xs ++ cat_pairs xs.
Proof. reflexivity. Qed.

Lemma cat_heads_first xs : cat_heads xs = firstpos (XCat xs).
Proof.
  induction xs as [|a xs IH]; [reflexivity|].
  rewrite firstpos_cat_cons_eq. cbn [cat_heads]. rewrite IH. reflexivity.
Qed.

Lemma firstpos_cat_cons p x xs :
  In p (firstpos (XCat (x :: xs))) <->
  In p (firstpos x) \/ (nullable x = true /\ In p (firstpos (XCat xs))).
Proof.
  rewrite firstpos_cat_cons_eq. destruct (nullable x).
  - rewrite in_punion. intuition.
  - intuition discriminate.
Qed.

Lemma lastpos_cat_cons p x xs :
  In p (lastpos (XCat (x :: xs))) <->
  In p (lastpos (XCat xs)) \/ (nullable (XCat xs) = true /\ In p (lastpos x)).
Proof.
  rewrite lastpos_cat_cons_eq. destruct (nullable (XCat xs)).
  - rewrite in_punion. intuition.
  - intuition discriminate.
Qed.

Lemma followpos_cat_cons p x xs :
  In p (followpos (XCat (x :: xs))) <->
  In p (followpos x) \/ In p (followpos (XCat xs)) \/
  In p (pprod (lastpos x) (firstpos (XCat xs))).
Proof.
  rewrite followpos_cat_cons_eq, followpos_cat_eq, cat_heads_first, !in_app_iff. tauto.
Qed.

Lemma positions_cat_cons x xs : positions (XCat (x :: xs)) = positions x ++ positions (XCat xs).
Proof. reflexivity. Qed.

Lemma nullable_or_cons x xs : nullable (XOr (x :: xs)) = nullable x || nullable (XOr xs).
Proof. reflexivity. Qed.

Lemma firstpos_or_cons p x xs :
  In p (firstpos (XOr (x :: xs))) <-> In p (firstpos x) \/ In p (firstpos (XOr xs)).
Proof.
  change (firstpos (XOr (x :: xs))) with (punion (firstpos x) (firstpos (XOr xs))).
  apply in_punion.
Qed.

Lemma lastpos_or_cons p x xs :
  In p (lastpos (XOr (x :: xs))) <-> In p (lastpos x) \/ In p (lastpos (XOr xs)).
Proof.
  change (lastpos (XOr (x :: xs))) with (punion (lastpos x) (lastpos (XOr xs))).
  apply in_punion.
Qed.

Lemma followpos_or_cons p x xs :
  In p (followpos (XOr (x :: xs))) <-> In p (followpos x) \/ In p (followpos (XOr xs)).
Proof.
  change (followpos (XOr (x :: xs))) with (followpos x ++ followpos (XOr xs)).
  apply in_app_iff.
Qed.

Lemma positions_or_cons x xs : positions (XOr (x :: xs)) = positions x ++ positions (XOr xs).
Proof. reflexivity. Qed.

Lemma first_pos t : forall x, In x (firstpos t) -> In x (positions t).
Proof.
  induction t as [|k p| |c cs Hc IH| |c cs Hc IH|c IH] using rx_bin_ind; try (cbn; tauto); intros x H.
  - apply firstpos_cat_cons in H. rewrite positions_cat_cons, in_app_iff. destruct H as [H|[_ H]]; auto.
  - apply firstpos_or_cons in H. rewrite positions_or_cons, in_app_iff. destruct H as [H|H]; auto.
Qed.

Lemma last_pos t : forall x, In x (lastpos t) -> In x (positions t).
Proof.
  induction t as [|k p| |c cs Hc IH| |c cs Hc IH|c IH] using rx_bin_ind; try (cbn; tauto); intros x H.
  - apply lastpos_cat_cons in H. rewrite positions_cat_cons, in_app_iff. destruct H as [H|[_ H]]; auto.
  - apply lastpos_or_cons in H. rewrite positions_or_cons, in_app_iff. destruct H as [H|H]; auto.
Qed.

Lemma follow_pos t : forall x y, In (x, y) (followpos t) -> In x (positions t) /\ In y (positions t).
Proof.
  induction t as [|k p| |c cs Hc IH| |c cs Hc IH|c IH] using rx_bin_ind; try (cbn; tauto); intros x y H.
  - apply followpos_cat_cons in H. rewrite positions_cat_cons, !in_app_iff.
    destruct H as [H|[H|H]]; [apply Hc in H; tauto | apply IH in H; tauto |].
    apply in_pprod in H. destruct H as [Hx Hy]. apply last_pos in Hx. apply first_pos in Hy. tauto.
  - apply followpos_or_cons in H. rewrite positions_or_cons, !in_app_iff.
    destruct H as [H|H]; [apply Hc in H | apply IH in H]; tauto.
  - cbn [followpos] in H. apply in_pprod in H. destruct H as [Hx Hy].
    apply last_pos in Hx. apply first_pos in Hy. cbn [positions]. tauto.
Qed.

Lemma Lrx_cat_nil w : Lrx (XCat []) w <-> w = [].
Proof. split; intros H; [inversion H; reflexivity|subst; constructor]. Qed.

Lemma Lrx_cat_cons c cs w :
  Lrx (XCat (c :: cs)) w <-> exists u v, w = u ++ v /\ Lrx c u /\ Lrx (XCat cs) v.
Proof.
  split.
  - intros H. inversion H; subst. eauto.
  - intros (u & v & E & Hu & Hv). subst. constructor; auto.
Qed.

Lemma Lrx_or_nil w : ~ Lrx (XOr []) w.
Proof. intros H. inversion H; subst. simpl in *. contradiction. Qed.

Lemma Lrx_or_cons c cs w : Lrx (XOr (c :: cs)) w <-> Lrx c w \/ Lrx (XOr cs) w.
Proof.
  split.
  - intros H. inversion H; subst. simpl in *. destruct H1 as [E|Hin].
    + subst. auto.
    + right. econstructor; eauto.
  - intros [H|H].
    + econstructor; [left; reflexivity|exact H].
    + inversion H; subst. econstructor; [right; eassumption|assumption].
Qed.

Lemma Lrx_cat_star c w :
  Lrx (XCat [c; XStar c]) w <-> exists u s, w = u ++ s /\ Lrx c u /\ Lrx (XStar c) s.
Proof.
  rewrite Lrx_cat_cons. split.
  - intros (u & v & E & Hu & Hv). apply Lrx_cat_cons in Hv.
    destruct Hv as (s & z & E' & Hs & Hz). apply Lrx_cat_nil in Hz. subst.
    rewrite app_nil_r. eauto.
  - intros (u & s & E & Hu & Hs). exists u, s. repeat split; auto.
    rewrite <- (app_nil_r s). constructor; auto. constructor.
Qed.

Lemma star_plus c s : Lrx (XStar c) s -> forall u, Lrx c u -> plusP (Lrx c) (u ++ s).
Proof.
  intros H. remember (XStar c) as t eqn:Et. induction H; inversion Et; subst.
  - intros u Hu. rewrite app_nil_r. apply PP_one. exact Hu.
  - intros u' Hu'. apply PP_more; auto.
Qed.

Lemma Lrx_many c w : Lrx (XCat [c; XStar c]) w <-> plusP (Lrx c) w.
Proof.
  rewrite Lrx_cat_star. split.
  - intros (u & s & E & Hu & Hs). subst. apply star_plus; auto.
  - intros H. induction H as [u Hu|u v Hu Hv IH].
    + exists u, []. rewrite app_nil_r. repeat split; auto. constructor.
    + destruct IH as (v1 & s & E & Hv1 & Hs). subst.
      exists u, (v1 ++ s). repeat split; auto. constructor; auto.
Qed.

Lemma nullable_many c : nullable (XCat [c; XStar c]) = nullable c.
Proof. cbn [nullable forallb]. rewrite !andb_true_r. reflexivity. Qed.

Lemma firstpos_many c p : In p (firstpos (XCat [c; XStar c])) <-> In p (firstpos c).
Proof.
  rewrite !firstpos_cat_cons. cbn [firstpos In]. intuition.
Qed.

Lemma lastpos_many c p : In p (lastpos (XCat [c; XStar c])) <-> In p (lastpos c).
Proof.
  rewrite !lastpos_cat_cons. cbn [lastpos nullable forallb andb In]. intuition.
Qed.

Lemma followpos_many c x y :
  In (x, y) (followpos (XCat [c; XStar c])) <->
  In (x, y) (followpos c) \/ (In x (lastpos c) /\ In y (firstpos c)).
Proof.
  rewrite !followpos_cat_cons. cbn [followpos flat_map cat_pairs app].
  rewrite !in_pprod, !firstpos_cat_cons. cbn [firstpos lastpos In]. intuition.
Qed.

Definition Local (t : rx) : list N -> Prop :=
  LocalT (nullable t) (firstpos t) (followpos t) (lastpos t).

Lemma local_eps w : Lrx XEps w <-> Local XEps w.
Proof.
  unfold Local. destruct w as [|a r]; simpl; split; intros H.
  - reflexivity.
  - constructor.
  - inversion H.
  - tauto.
Qed.

Lemma local_pos k p w : k <> KEnd -> (Lrx (XPos k p) w <-> Local (XPos k p) w).
Proof.
  intros Hk. unfold Local. destruct w as [|a r]; simpl; split; intros H.
  - inversion H.
  - destruct k; simpl in H; try discriminate. contradiction.
  - inversion H; subst. split; [auto|]. eexists. split; [constructor|auto].
  - destruct H as [[E|[]] (b & P & _)]. subst. inversion P; subst.
    + constructor.
    + simpl in *. contradiction.
Qed.

Lemma disjoint_flat x (l : list rx) :
  Forall (disjoint x) (map positions l) -> disjoint x (flat_map positions l).
Proof.
  induction l as [|c l IH]; simpl; intros H.
  - intros y _ [].
  - inversion H; subst. intros y Hx Hy. apply in_app_iff in Hy. destruct Hy as [Hy|Hy].
    + eapply H2; eauto.
    + eapply IH; eauto.
Qed.

Lemma shape_bin_ind (P : rx -> Prop) :
  P XEps -> (forall k p, k <> KEnd -> P (XPos k p)) ->
  P (XCat []) ->
  (forall c cs, shape c -> shape (XCat cs) -> disjoint (positions c) (positions (XCat cs)) ->
     P c -> P (XCat cs) -> P (XCat (c :: cs))) ->
  P (XOr []) ->
  (forall c cs, shape c -> shape (XOr cs) -> disjoint (positions c) (positions (XOr cs)) ->
     P c -> P (XOr cs) -> P (XOr (c :: cs))) ->
  (forall c, shape c -> P c -> P (XCat [c; XStar c])) ->
  forall t, shape t -> P t.
Proof.
  intros Heps Hpos Hcn Hcc Hon Hoc Hmany.
  induction t as [|k p|cs IH|cs IH|c IH] using rx_ind'; intros Hs;
    inversion Hs as [|? ? Hk|? Hf Hd|? Hf Hd|c' Hc]; subst; auto.
  - clear Hs. induction IH as [|c cs Hc _ IHcs]; [exact Hcn|].
    inversion Hf as [|? ? Sc Scs]; subst. destruct Hd as [Hd1 Hd2].
    apply Hcc; [exact Sc | constructor; assumption | apply disjoint_flat; exact Hd1 | auto | auto].
  - apply Hmany; [exact Hc|]. inversion IH; subst; auto.
  - clear Hs. induction IH as [|c cs Hc _ IHcs]; [exact Hon|].
    inversion Hf as [|? ? Sc Scs]; subst. destruct Hd as [Hd1 Hd2].
    apply Hoc; [exact Sc | constructor; assumption | apply disjoint_flat; exact Hd1 | auto | auto].
Qed.

Lemma local_many c :
  (forall w, Lrx c w <-> Local c w) ->
  forall w, Lrx (XCat [c; XStar c]) w <-> Local (XCat [c; XStar c]) w.
Proof.
  intros Hc w. rewrite Lrx_many.
  rewrite (plus_local (Lrx c) (nullable c) (firstpos c) (lastpos c) (followpos c)
             (followpos (XCat [c; XStar c])) Hc (followpos_many c)).
  unfold Local. rewrite nullable_many.
  destruct w as [|a r]; cbn [LocalT]; [reflexivity|].
  rewrite firstpos_many. split; intros [Ha (b & P & Hb)]; (split; [exact Ha|]); exists b;
    (split; [exact P|]).
  - apply (proj2 (lastpos_many c b)). exact Hb.
  - apply (proj1 (lastpos_many c b)). exact Hb.
Qed.

Theorem local_shape t : shape t -> forall w, Lrx t w <-> Local t w.
Proof.
  intros Hs.
  induction Hs as [|k p Hk| |c cs Sc Scs D Hc Hcs| |c cs Sc Scs D Hc Hcs|c Sc Hc] using shape_bin_ind;
    intros w.
  - apply local_eps.
  - apply local_pos. exact Hk.
  - rewrite Lrx_cat_nil. destruct w; cbn; split; intros H; try reflexivity; try discriminate; tauto.
  - rewrite Lrx_cat_cons.
    apply (cat_local (Lrx c) (Lrx (XCat cs)) (positions c) (positions (XCat cs))
             (nullable c) (nullable (XCat cs)) _
             (firstpos c) (firstpos (XCat cs)) _ (lastpos c) (lastpos (XCat cs)) _
             (followpos c) (followpos (XCat cs)) _ D);
      try apply first_pos; try apply last_pos; try apply follow_pos; try assumption.
    + apply nullable_cat_cons.
    + intros x. apply firstpos_cat_cons.
    + intros x. apply lastpos_cat_cons.
    + intros x y. rewrite followpos_cat_cons, in_pprod. reflexivity.
  - split; intros H; [destruct (Lrx_or_nil _ H)|]. destruct w; cbn in H; [discriminate | tauto].
  - rewrite Lrx_or_cons.
    apply (or_local (Lrx c) (Lrx (XOr cs)) (positions c) (positions (XOr cs))
             (nullable c) (nullable (XOr cs)) _
             (firstpos c) (firstpos (XOr cs)) _ (lastpos c) (lastpos (XOr cs)) _
             (followpos c) (followpos (XOr cs)) _ D);
      try apply first_pos; try apply last_pos; try apply follow_pos; try assumption.
    + apply nullable_or_cons.
    + intros x. apply firstpos_or_cons.
    + intros x. apply lastpos_or_cons.
    + intros x y. apply followpos_or_cons.
  - apply local_many. exact Hc.
Qed.

Lemma positions_with_end t e x : In x (positions (with_end t e)) -> In x (positions t) \/ x = e.
Proof.
  unfold with_end. cbn. rewrite in_app_iff. intros [H|[H|[]]]; auto.
Qed.

Lemma firstpos_with_end t e x :
  In x (firstpos (with_end t e)) <-> In x (firstpos t) \/ (nullable t = true /\ x = e).
Proof.
  unfold with_end. rewrite !firstpos_cat_cons. cbn [firstpos In]. intuition.
Qed.

Lemma followpos_with_end t e x y :
  In (x, y) (followpos (with_end t e)) <->
  In (x, y) (followpos t) \/ (In x (lastpos t) /\ y = e).
Proof.
  unfold with_end. rewrite !followpos_cat_cons. cbn [followpos flat_map cat_pairs app].
  rewrite !in_pprod, !firstpos_cat_cons. cbn [firstpos lastpos In]. intuition.
Qed.

Lemma followpos_with_end_src t e x y : In (x, y) (followpos (with_end t e)) -> In x (positions t).
Proof.
  intros H. apply followpos_with_end in H. destruct H as [H|[H _]].
  - apply (follow_pos _ _ _ H).
  - apply last_pos. exact H.
Qed.

Lemma path_chain E a r b : path E a r b <-> chain E a r /\ last r a = b.
Proof.
  split.
  - intros P. induction P as [a|a c w b H P [IH1 IH2]]; [simpl; auto|].
    split; [simpl; auto|]. rewrite last_cons. exact IH2.
  - revert a b. induction r as [|c r IH]; intros a b [C <-]; [constructor|]. destruct C as [C1 C2].
    rewrite last_cons. econstructor; [exact C1|]. apply IH. auto.
Qed.

Lemma chain_mono (F G : list (N * N)) a r :
  (forall x y, In (x, y) F -> In (x, y) G) -> chain F a r -> chain G a r.
Proof.
  intros H. revert a. induction r as [|b r IH]; intros a C; simpl in *; auto.
  destruct C as [C1 C2]. split; auto.
Qed.

Lemma chain_restrict (F G : list (N * N)) a r :
  chain F a r -> (forall x y, In (x, y) F -> In y r -> In (x, y) G) -> chain G a r.
Proof.
  revert a. induction r as [|b r IH]; intros a C H; [exact I|]. destruct C as [C1 C2]. split.
  - apply H; [exact C1 | left; reflexivity].
  - apply IH; [exact C2|]. intros x y Hxy Hy. apply H; [exact Hxy | right; exact Hy].
Qed.

Lemma chain_sources : forall F p c e, chain F p c -> In (last c p, e) F ->
  forall q, In q (p :: c) -> exists y, In (q, y) F.
Proof.
  intros F p c e. revert p. induction c as [|b c IH]; intros p Hc Hl q Hq.
  - destruct Hq as [<-|[]]. simpl in Hl. eauto.
  - simpl in Hc. destruct Hc as [Hpb Hc]. rewrite last_cons in Hl.
    destruct Hq as [<-|Hq]; [eauto|]. apply (IH b Hc Hl q Hq).
Qed.

Theorem glushkov_root : glushkov_statement.
Proof.
  intros t e Hs He w. rewrite (local_shape t Hs w). unfold Local.
  destruct w as [|a r]; cbn [LocalT glushkov_word].
  - rewrite firstpos_with_end. split; [auto|]. intros [H|[H _]]; [|exact H].
    apply first_pos in H. contradiction.
  - split.
    + intros [Ha (b & P & Hb)]. apply path_chain in P. destruct P as [C <-].
      split; [apply firstpos_with_end; auto|]. split; [|apply followpos_with_end; auto].
      eapply chain_mono; [|exact C]. intros x y H. apply followpos_with_end. auto.
    + intros [Ha [C Hl]].
      (* the word lies inside [t], so no step of it enters the end marker *)
      assert (Hin : forall q, In q (a :: r) -> In q (positions t)).
      { intros q Hq. destruct (chain_sources _ _ _ _ C Hl q Hq) as [y Hy].
        exact (followpos_with_end_src _ _ _ _ Hy). }
      split.
      * apply firstpos_with_end in Ha. destruct Ha as [Ha|[_ ->]]; [exact Ha|].
        destruct (He (Hin e (or_introl eq_refl))).
      * exists (last r a). split.
        -- apply path_chain. split; [|reflexivity]. apply (chain_restrict _ _ _ _ C).
           intros x y Hxy Hy. apply followpos_with_end in Hxy. destruct Hxy as [Hxy|[_ ->]]; [exact Hxy|].
           destruct (He (Hin e (or_intror Hy))).
        -- apply followpos_with_end in Hl. destruct Hl as [Hl|[Hl _]]; [|exact Hl].
           apply follow_pos in Hl. destruct (He (proj2 Hl)).
Qed.

Print Assumptions glushkov_root.
