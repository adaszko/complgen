(** C01 over the whole decided domain: grammars whose leaves are literals, external commands,
    undefined nonterminals and within-word expressions over the same kinds of pieces.

    [BashSem.run_from Repaired] on the tables computed from the compiled automaton agrees with
    [Spec.Meaning.complete] on the validated tree.  The walk keeps a state of the automaton related
    to the point of the specification ([rel], around [SubSim.rsim]); on a word that is read without
    ambiguity exactly one expected item is chosen by the specification ([chosen_unique]) and the
    script, which tries literals, within-word functions, commands and the catch-all in that order,
    follows its transition ([rel_step_chosen]).  The within-word functions are treated by
    [WordSimGen]. *)
From CG Require Import Base.Prelude Proofs.ListFacts Model.Ast Model.Dfa Model.Tables Model.Glob Model.BashSem.
From CG Require Import Spec.Lang Spec.Rx Spec.Meaning Spec.Domain Spec.DfaEquiv Spec.Invocations Spec.KnownC01.
From CG Require Import Proofs.RxFacts Proofs.MeaningFacts Proofs.MeaningLevels Proofs.TreeFacts Proofs.DomainFacts.
From CG Require Import Proofs.TablesSound Proofs.TablesKeys Proofs.TableLookup Proofs.LangBridge Proofs.DfaMeaning
     Proofs.SubBridge Proofs.SubSim Proofs.SubLang Proofs.SubCompiled Proofs.SubTables Proofs.LevelsFacts
     Proofs.BashMeaningTop Proofs.SubwordFacts Proofs.BashMeaningSub Proofs.C17Proofs Proofs.WordGen Proofs.WordSimGen
     Proofs.SubNeeds.

Definition al_leaf (a : leaf) : Prop :=
  match a with
  | LSub x _ => zero_free x = true
  | _ => True
  end.

Lemma all_tree_leaves e : alts_nonempty e = true -> forall a, In a (leaves (tr e)) -> al_leaf a.
Proof.
  apply (tr_leaves alts_nonempty al_leaf).
  intros e0 H. destruct e0 as [| | | cs sp | cs sp | | | | cs sp | c l sp]; cbn in H |- *; try exact I; try exact H.
  - destruct cs; [discriminate | exact H].
  - destruct cs; [discriminate | exact H].
  - apply (zero_free_tr c H).
Qed.

Section SubLoops.
  Variables (a : alltables) (benv : BashSem.env).

  Lemma top_sub_loop_run w : forall L log,
    (forall sid to, In (sid, to) L -> exists Tw b, subword_tables (a_subwords a) sid = Some Tw
        /\ forall log', exists log'', subword_matches Repaired a benv Tw (BashSem.sub_accepting a sid) w log' = Ok (b, log'')) ->
    exists r log1, top_sub_loop Repaired a benv L w log = Ok (r, log1)
      /\ match r with
         | Some to => exists sid Tw, In (sid, to) L /\ subword_tables (a_subwords a) sid = Some Tw
                                    /\ forall log', exists log'', subword_matches Repaired a benv Tw (BashSem.sub_accepting a sid) w log' = Ok (true, log'')
         | None => forall sid to, In (sid, to) L -> exists Tw, subword_tables (a_subwords a) sid = Some Tw
                                    /\ forall log', exists log'', subword_matches Repaired a benv Tw (BashSem.sub_accepting a sid) w log' = Ok (false, log'')
         end.
  Proof.
    induction L as [| [sid to] L IH]; intros log H; cbn [top_sub_loop].
    - exists None, log. split; [reflexivity | intros sid to []].
    - destruct (H sid to (or_introl eq_refl)) as [Tw [b [HT Hm]]]. rewrite HT. destruct (Hm log) as [log1 E1]. rewrite E1. cbn [obind].
      destruct b.
      + exists (Some to), log1. split; [reflexivity |]. exists sid, Tw. split; [left; reflexivity | split; assumption].
      + destruct (IH log1) as [r [log2 [Hr Hspec]]]; [intros sid' to' Hin; apply (H sid' to'); right; exact Hin |].
        exists r, log2. split; [exact Hr |]. destruct r as [to' |].
        * destruct Hspec as [sid' [T' [Hin Hrest]]]. exists sid', T'. split; [right; exact Hin | exact Hrest].
        * intros sid' to' [E | Hin]; [inversion E; subst; exists Tw; split; assumption | apply (Hspec sid' to' Hin)].
  Qed.

  Lemma top_subs_level_run p (P : N -> string -> Prop) : forall sids matches log,
    (forall sid, In sid sids -> exists Tw reply, subword_tables (a_subwords a) sid = Some Tw
        /\ (forall log', exists log'', subword_complete Repaired a benv Tw p log' = Ok (reply, log''))
        /\ forall o, In o reply <-> P sid o) ->
    exists adds log1, top_subs_level Repaired a benv sids p matches log = Ok (matches ++ adds, log1)
      /\ forall o, In o adds <-> exists sid, In sid sids /\ P sid o.
  Proof.
    induction sids as [| sid sids IH]; intros matches log H; cbn [top_subs_level].
    - exists [], log. rewrite app_nil_r. split; [reflexivity |]. intro o. split; [intros [] | intros [sid [[] _]]].
    - destruct (H sid (or_introl eq_refl)) as [Tw [reply [HT [Hc Hrep]]]]. rewrite HT. destruct (Hc log) as [log1 E1]. rewrite E1. cbn [obind].
      destruct (IH (matches ++ reply) log1) as [adds [log2 [Hr Hspec]]]; [intros sid' Hin; apply (H sid'); right; exact Hin |].
      exists (reply ++ adds), log2. rewrite app_assoc. split; [exact Hr |].
      intro o. rewrite in_app_iff, Hspec, Hrep. split.
      + intros [Hin | [sid' [Hin Hp]]]; [exists sid; split; [left; reflexivity | exact Hin] | exists sid'; split; [right; exact Hin | exact Hp]].
      + intros [sid' [[E | Hin] Hp]]; [subst sid'; left; exact Hp | right; exists sid'; split; assumption].
  Qed.
End SubLoops.

Section All.
  Variable en : Meaning.env.

  Lemma step_when_lit S w : lit_expected (moves S) w ->
    forall k, In k (step en S w) <-> exists d0 l0, In (LLit w d0 l0, k) (moves S).
  Proof. apply step_lit_expected. Qed.
End All.

Section Run.
  Variables (c : cdfa) (e : expr) (om : list (string * string)) (os : list (N * list (string * string)))
            (nd : needs) (a : alltables).
  Variables (benv : BashSem.env) (en : Meaning.env) (p : string).
  Hypothesis Htree : sub_tree e = true.
  Hypothesis Hne : alts_nonempty e = true.
  Hypothesis HL : forall w, accepts_items c w <-> Lang.denotes e w.
  Hypothesis Hwf : dfa_wf (c_main c).
  Hypothesis Hinp : NoDup (d_inputs (c_main c)).
  Hypothesis Htrim : trim (c_main c).
  Hypothesis Hall : all_tables Bash c om os = Ok (nd, a).
  Hypothesis Hord : NoDup om.
  Hypothesis Hvalid : valid_literal_order (c_main c) om = true.
  Hypothesis Hdom : C01_domain e = true.
  Hypothesis Hwords : forall x, In x (subwords_of (tr e)) -> env_word_ok en x.
  Hypothesis Hsubs : forall k l, In (ISub k l) (d_inputs (c_main c)) ->
                                 exists sd, nth_error (c_subs c) (N.to_nat k) = Some sd /\ sub_ok sd.
  Hypothesis Hcanon : subwords_of (tr e) <> [] -> subs_deterministic c.
  Hypothesis Hsords : subwords_of (tr e) <> [] -> sub_orders_ok c os.
  Hypothesis Hic : e_ignore_case benv = false.
  Hypothesis Hpr : printable_str p = true.
  Hypothesis Hstrip : forall ms, (forall m, In m ms -> String.prefix p m = true) ->
                                 strip_reply benv p ms = Ok (map (Meaning.strip (Meaning.e_wordbreaks en) p) ms).
  Hypothesis Henv : forall cm cid, Tables.index_of cm (a_commands a) = Some cid ->
                                   spec_candidates (cmd_output benv cid) = candidates en cm.

  Notation d := (c_main c).
  Notation T := (a_main a).

  Lemma Hglt : get_lookup_tables d (a_commands a) 0 (n_top_cmd nd) false (n_top_star nd) om = Ok T.
  Proof. destruct (all_tables_inv _ _ _ _ _ _ Hall) as [rt F]. exact (af_main _ _ _ _ _ _ _ F). Qed.

  (** every transition of the automaton is on an input some leaf of the tree stands for (C02, C03) *)
  Lemma trans_leaf s x t : trans_on d s x t -> exists a0, In a0 (leaves (tr e)) /\ lrel c a0 x.
  Proof.
    intro Htr. destruct (trans_on_accepted d Hwf s x t Htrim Htr) as [xs1 [xs2 Hd]].
    destruct (proj1 (rsim_start c e Htree HL) _ Hd) as [k [ls [[<- | []] [Hden Hf]]]].
    apply Forall2_app_inv_r in Hf. destruct Hf as [l1 [l2 [_ [Hf ->]]]]. inversion Hf as [| a0 x' l2' xs' Hax _]; subst.
    exists a0. split; [apply (denotes_leaves _ _ Hden); apply in_or_app; right; left; reflexivity | exact Hax].
  Qed.

  Lemma sub_trans_word s pi l t : trans_on d s (ISub pi l) t -> subwords_of (tr e) <> [].
  Proof.
    intro Htr. destruct (trans_leaf s _ t Htr) as [a0 [Ha Hl]]. destruct a0 as [| | | x0 l0];
      try (apply lrel_plain in Hl; [discriminate | reflexivity]).
    intro E. assert (Hin : In x0 (subwords_of (tr e))) by (apply in_flat_map; exists (LSub x0 l0); split; [exact Ha | left; reflexivity]).
    rewrite E in Hin. destruct Hin.
  Qed.

  Lemma lrel_det : forall s a0 x x' t t', lrel c a0 x -> lrel c a0 x' -> trans_on d s x t -> trans_on d s x' t' -> t = t'.
  Proof.
    intros s a0 x x' t t' H1 H2 T1 T2. destruct (plain_leaf a0) eqn:Hp.
    - apply (lrel_plain c a0 x Hp) in H1. apply (lrel_plain c a0 x' Hp) in H2. subst x x'.
      apply (trans_on_fun d Hinp s _ t t' T1 T2).
    - destruct a0 as [| | | x0 l]; cbn in Hp; try discriminate.
      apply lrel_sub in H1. apply lrel_sub in H2. destruct H1 as [k [-> E1]]. destruct H2 as [k' [-> E2]].
      apply (Hcanon (sub_trans_word s k l t T1) s k k' l t t' T1 T2). intro v. rewrite E1, E2. reflexivity.
  Qed.

  Record rel (s : N) (S : state) : Prop := {
    rel_sim : rsim c s S;
    rel_z : forall k, In k S -> zero_free k = true;
    rel_leaves : forall k, In k S -> forall a0, In a0 (leaves k) -> In a0 (leaves (tr e));
    rel_reach : reach same_item (start e) S;
    rel_co : coreachable d s
  }.

  Lemma rel_start : rel (d_start d) (start e).
  Proof.
    constructor.
    - apply rsim_start; [exact Htree | exact HL].
    - intros k [<- | []]. apply (zero_free_tr e Hne).
    - intros k [<- | []] a0 Ha. exact Ha.
    - apply reach_here. intro k. reflexivity.
    - destruct Htrim as [_ Hco]. apply Hco. unfold states. apply nodup_In. left; reflexivity.
  Qed.

  Lemma targets_co s i t : Dfa.step d s i = Some t -> coreachable d t.
  Proof. apply (step_coreachable d s i t Htrim). Qed.

  Lemma rel_nonempty s S : rel s S -> S <> [].
  Proof.
    intros R E. destruct (rel_co _ _ R) as [w Hw].
    destruct (accepted_has_inputs d Hwf w s Hw) as [xs [Hd _]].
    apply (proj1 (rel_sim _ _ R)) in Hd. destruct Hd as [k [_ [Hk _]]]. rewrite E in Hk. destruct Hk.
  Qed.

  Lemma move_facts s S a0 k : rel s S -> In (a0, k) (moves S) ->
    al_leaf a0 /\ In a0 (leaves (tr e)) /\ zero_free k = true /\ (forall b, In b (leaves k) -> In b (leaves (tr e))).
  Proof.
    intros R Hin. apply moves_In in Hin. destruct Hin as [r [Hr Hlf]].
    destruct (lf_leaves r a0 k Hlf) as [Ha Hk].
    assert (Hl : In a0 (leaves (tr e))) by (apply (rel_leaves _ _ R r Hr); exact Ha).
    split; [apply (all_tree_leaves e Hne a0 Hl) | split; [exact Hl | split]].
    - eapply zero_free_lf; [apply (rel_z _ _ R r Hr) | exact Hlf].
    - intros b Hb. apply (rel_leaves _ _ R r Hr). apply Hk. exact Hb.
  Qed.

  Lemma sub_word_facts x0 l : In (LSub x0 l) (leaves (tr e)) -> zero_free x0 = true /\ word_in_domain x0 /\ env_word_ok en x0.
  Proof.
    intro Hl. pose proof (all_tree_leaves e Hne _ Hl) as Hz. cbn [al_leaf] in Hz.
    assert (Hsw : In x0 (subwords_of (tr e))).
    { unfold subwords_of. apply in_flat_map. exists (LSub x0 l). split; [exact Hl | left; reflexivity]. }
    split; [exact Hz | split].
    - destruct (C01_domain_sound e Hdom) as [Hw _]. apply Hw. exact Hsw.
    - apply (Hwords x0 Hsw).
  Qed.

  Lemma trans_item s S x t : rel s S -> trans_on d s x t -> exists a0 k, In (a0, k) (moves S) /\ lrel c a0 x.
  Proof. intros R Htr. apply (simR_trans d (lrel c) Hwf s S x t (rel_sim _ _ R)); [intros i t'; apply targets_co | exact Htr]. Qed.

  Lemma item_trans s S a0 k : rel s S -> In (a0, k) (moves S) -> exists x t, lrel c a0 x /\ trans_on d s x t.
  Proof. intros R Hin. apply (simR_item d (lrel c) s S a0 k (rel_sim _ _ R) (rel_z _ _ R) Hin). Qed.

  Lemma trans_item_plain s S x t : rel s S -> trans_on d s x t -> (forall k l, x <> ISub k l) ->
    exists a1 k, In (a1, k) (moves S) /\ inp_of_leaf a1 = x /\ plain_leaf a1 = true.
  Proof.
    intros R Htr Hx. destruct (trans_item s S x t R Htr) as [a0 [k [Hin Hl]]].
    destruct (plain_leaf a0) eqn:Hp.
    - apply (lrel_plain c a0 x Hp) in Hl. exists a0, k. split; [exact Hin | split; [symmetry; exact Hl | exact Hp]].
    - destruct a0 as [| | | x0 l]; cbn in Hp; try discriminate.
      apply lrel_sub in Hl. destruct Hl as [k' [E _]]. exfalso. apply (Hx k' l E).
  Qed.

  Lemma item_trans_plain s S a1 k : rel s S -> In (a1, k) (moves S) -> plain_leaf a1 = true -> exists t, trans_on d s (inp_of_leaf a1) t.
  Proof.
    intros R Hin Hp. destruct (item_trans s S a1 k R Hin) as [x [t [Hl Htr]]].
    apply (lrel_plain c a1 x Hp) in Hl. subst x. exists t. exact Htr.
  Qed.

  Lemma trans_lit_item s S w dso l t : rel s S -> trans_on d s (ILit w dso l) t -> exists k, In (LLit w dso l, k) (moves S).
  Proof.
    intros R Htr. destruct (trans_item_plain s S _ t R Htr) as [a1 [k [Hin [Ha Hp]]]]; [intros k1 l1; discriminate |].
    destruct a1; cbn in Ha, Hp; try discriminate. inversion Ha; subst. exists k. exact Hin.
  Qed.

  Lemma item_lit_trans s S w dso l k : rel s S -> In (LLit w dso l, k) (moves S) -> exists t, trans_on d s (ILit w dso l) t.
  Proof. intros R Hin. apply (item_trans_plain s S (LLit w dso l) k R Hin eq_refl). Qed.

  Lemma trans_sub_item s S pi l t : rel s S -> trans_on d s (ISub pi l) t ->
    exists x0 k, In (LSub x0 l, k) (moves S) /\ lrel c (LSub x0 l) (ISub pi l).
  Proof.
    intros R Htr. destruct (trans_item s S _ t R Htr) as [a0 [k [Hin Hl]]].
    destruct (plain_leaf a0) eqn:Hp.
    - apply (lrel_plain c a0 _ Hp) in Hl. destruct a0; cbn in Hp, Hl; discriminate.
    - destruct a0 as [| | | x0 l0]; cbn in Hp; try discriminate.
      pose proof Hl as Hl'. apply lrel_sub in Hl'. destruct Hl' as [k' [E _]]. inversion E; subst. exists x0, k. split; assumption.
  Qed.

  Lemma item_sub_trans s S x0 l k : rel s S -> In (LSub x0 l, k) (moves S) ->
    exists pi t, lrel c (LSub x0 l) (ISub pi l) /\ trans_on d s (ISub pi l) t.
  Proof.
    intros R Hin. destruct (item_trans s S _ k R Hin) as [x [t [Hl Htr]]].
    pose proof Hl as Hl'. apply lrel_sub in Hl'. destruct Hl' as [pi [-> _]]. exists pi, t. split; assumption.
  Qed.

  Lemma same_label s S w d1 l1 k1 d2 l2 k2 :
    rel s S -> In (LLit w d1 l1, k1) (moves S) -> In (LLit w d2 l2, k2) (moves S) -> d1 = d2 /\ l1 = l2.
  Proof.
    intros R H1 H2. destruct (C01_domain_sound e Hdom) as [_ Hp].
    destruct (Hp S (rel_reach _ _ R)) as [P1 _]. apply (P1 w d1 l1 d2 l2 k1 k2); assumption.
  Qed.

  Lemma sub_match s S pi l t x0 k0 :
    rel s S -> trans_on d s (ISub pi l) t -> In (LSub x0 l, k0) (moves S) -> lrel c (LSub x0 l) (ISub pi l) ->
    exists id Tw,
      script_id (a_subwords a) pi = Some id
      /\ subword_tables (a_subwords a) id = Some Tw
      /\ (forall pi', script_id (a_subwords a) pi' = Some id -> pi' = pi)
      /\ (forall rt, rtrans d = Ok rt -> assocN pi (get_subwords rt 0) = Some id)
      /\ (forall w log, exists log', subword_matches Repaired a benv Tw (BashSem.sub_accepting a id) w log = Ok (waccepts en x0 w, log'))
      /\ (exists reply, (forall log, exists log', subword_complete Repaired a benv Tw p log = Ok (reply, log'))
                        /\ forall o, In o reply <-> In o (wproper en x0 p)).
  Proof.
    intros R Htr Hin Hl.
    destruct (sub_entry c om os nd a Hwf Hall s pi l t Htr) as [id [sd [Tw [Hid [HT [Hsd [Hglt [Hacc [Hinj Hids]]]]]]]]].
    exists id, Tw. split; [exact Hid | split; [exact HT | split; [exact Hinj | split; [exact Hids |]]]].
    assert (Hinput : In (ISub pi l) (d_inputs d)).
    { destruct Htr as [i [_ Hn]]. unfold nthN in Hn. eapply nth_error_In. exact Hn. }
    destruct (Hsubs pi l Hinput) as [sd' [Hsd' Hok]].
    assert (sd' = sd) by (unfold nthN in Hsd; rewrite Hsd' in Hsd; inversion Hsd; reflexivity). subst sd'.
    assert (Esub : sub_dfa c pi = sd) by (unfold sub_dfa; apply nth_error_nth; exact Hsd').
    apply lrel_sub in Hl. destruct Hl as [pi' [E Hlang]]. inversion E; subst pi'. rewrite Esub in Hlang.
    destruct (move_facts s S _ k0 R Hin) as [_ [Hleaf _]].
    destruct (sub_word_facts x0 l Hleaf) as [Hz [Hwd Hev]].
    destruct (Hsords (sub_trans_word s pi l t Htr) pi sd Hsd) as [Hordw Hvalidw].
    pose proof (sub_sim sd x0 (so_plain sd Hok) Hlang) as Hsim0.
    assert (Hnc : forall s' cm l' t', trans_on sd s' (ICmd cm l') t' -> n_sub_cmd nd = true).
    { intros s' cm l' t' H. apply (sub_needs_cmd c om os nd a Hwf Hall s pi l t sd s' cm l' t' (so_wf sd Hok) Htr Hsd H). }
    assert (Hns : forall s' t', trans_on sd s' IStar t' -> n_sub_star nd = true).
    { intros s' t' H. apply (sub_needs_star c om os nd a Hwf Hall s pi l t sd s' t' (so_wf sd Hok) Htr Hsd H). }
    rewrite Hacc. split.
    - intros w log.
      apply (subword_matches_gen sd (a_commands a) (n_sub_cmd nd) false (n_sub_star nd) _ Tw x0 a benv en
               (so_wf sd Hok) (so_inputs sd Hok) (so_trim sd Hok) Hglt Hordw Hvalidw Hsim0 Hz Hwd Hev eq_refl Henv Hnc Hns w (so_start sd Hok) log).
    - apply (subword_complete_gen sd (a_commands a) (n_sub_cmd nd) false (n_sub_star nd) _ Tw x0 a benv en
               (so_wf sd Hok) (so_inputs sd Hok) (so_trim sd Hok) Hglt Hordw Hvalidw Hsim0 Hz Hwd Hev eq_refl Henv Hnc Hic p (so_start sd Hok) Hpr).
  Qed.

  Lemma rel_after s S w i t x :
    rel s S -> ambiguous_step en S w = false -> step en S w <> [] ->
    Dfa.step d s i = Some t -> nthN (d_inputs d) i = Some x ->
    (forall k, In k (step en S w) <-> exists a0, In (a0, k) (mvs S) /\ lrel c a0 x) ->
    rel t (step en S w).
  Proof.
    intros R Hamb Hne' Hs Hn HS'. constructor.
    - apply (simR_step d (lrel c) s S i t x (step en S w) (rel_sim _ _ R) Hs Hn); [| exact HS'].
      intros a0 x' t' H1 H2 Htr'. apply (lrel_det s a0 x' x t' t H2 H1 Htr'). exists i. split; assumption.
    - intros k Hk. apply HS' in Hk. destruct Hk as [a0 [Hin _]]. apply (move_facts s S a0 k R Hin).
    - intros k Hk. apply HS' in Hk. destruct Hk as [a0 [Hin _]]. apply (move_facts s S a0 k R Hin).
    - destruct (step_istep en S w Hamb Hne') as [a' [Ha' Hi]].
      eapply reach_next; [apply (rel_reach _ _ R) | exact Ha' | exact Hi].
    - apply (targets_co s i t Hs).
  Qed.

  Lemma chosen_unique s S w a1 k1 a2 k2 :
    rel s S -> ambiguous_step en S w = false ->
    In (a1, k1) (moves S) -> chosen en (moves S) w a1 -> In (a2, k2) (moves S) -> chosen en (moves S) w a2 -> a2 = a1.
  Proof.
    intros R Hamb H1 C1 H2 C2.
    destruct (chosen_same en S w a1 k1 a2 k2 Hamb H1 C1 H2 C2) as [[d1 [l1 [d2 [l2 [-> ->]]]]] | <-]; [| reflexivity].
    destruct (same_label s S w d2 l2 k2 d1 l1 k1 R H2 H1) as [-> ->]. reflexivity.
  Qed.

  Lemma chosen_lrel s S w a1 k0 x a' k :
    rel s S -> In (a1, k0) (moves S) -> chosen en (moves S) w a1 -> lrel c a1 x ->
    In (a', k) (moves S) -> lrel c a' x -> chosen en (moves S) w a'.
  Proof.
    intros R Hin1 Hc1 Hl1 Hin' Hl'.
    destruct (plain_leaf a1) eqn:Hp1.
    - apply (lrel_plain c a1 x Hp1) in Hl1. destruct (plain_leaf a') eqn:Hp'.
      + apply (lrel_plain c a' x Hp') in Hl'. rewrite Hl1 in Hl'. rewrite <- (inp_of_leaf_inj a1 a' Hp1 Hp' Hl'). exact Hc1.
      + destruct a' as [| | | x1 l1]; cbn in Hp'; try discriminate. apply lrel_sub in Hl'. destruct Hl' as [k' [E _]].
        rewrite Hl1 in E. destruct a1; cbn in Hp1, E; discriminate.
    - destruct a1 as [| | | x0 l0]; cbn in Hp1; try discriminate.
      pose proof Hl1 as Hl1'. apply lrel_sub in Hl1'. destruct Hl1' as [pi [-> E0]].
      destruct (plain_leaf a') eqn:Hp'.
      + apply (lrel_plain c a' _ Hp') in Hl'. destruct a'; cbn in Hp', Hl'; discriminate.
      + destruct a' as [| | | x1 l1]; cbn in Hp'; try discriminate.
        pose proof Hl' as Hl''. apply lrel_sub in Hl''. destruct Hl'' as [pi' [E E1]]. inversion E; subst pi' l1.
        cbn [chosen mid_accepts] in Hc1 |- *. destruct Hc1 as [Hacc Hnl]. split; [| exact Hnl].
        rewrite <- (waccepts_same_lang en x0 x1 w); [exact Hacc |].
        apply wlangI_denotes. intro v. rewrite <- E0, E1. reflexivity.
  Qed.

  Lemma rel_step_chosen s S w a1 k0 x t :
    rel s S -> ambiguous_step en S w = false ->
    In (a1, k0) (moves S) -> chosen en (moves S) w a1 -> lrel c a1 x -> trans_on d s x t ->
    rel t (step en S w) /\ step en S w <> [].
  Proof.
    intros R Hamb Hin0 Hc0 Hl0 Htr.
    assert (Hk0 : In k0 (step en S w)) by (apply step_spec; exists a1; split; assumption).
    assert (Hne' : step en S w <> []) by (intro E0; rewrite E0 in Hk0; destruct Hk0).
    split; [| exact Hne']. destruct Htr as [i [Hs Hn]].
    apply (rel_after s S w i t x R Hamb Hne' Hs Hn).
    intro k. rewrite step_spec. split.
    - intros [a' [Hin Hc']]. exists a'. split; [exact Hin |].
      rewrite (chosen_unique s S w a1 k0 a' k R Hamb Hin0 Hc0 Hin Hc'). exact Hl0.
    - intros [a' [Hin Ha]]. exists a'. split; [exact Hin |]. apply (chosen_lrel s S w a1 k0 x a' k R Hin0 Hc0 Hl0 Hin Ha).
  Qed.

  Lemma walk_lit s S w : rel s S -> ambiguous_step en S w = false ->
    match lit_lookup T s w with
    | Some t => rel t (step en S w) /\ step en S w <> []
    | None => ~ lit_expected (moves S) w
    end.
  Proof.
    intros R Hamb. destruct (lit_lookup T s w) as [t |] eqn:El.
    - destruct (lit_lookup_sound d (a_commands a) _ _ _ om T Hwf Hord Hglt s w t El) as [dso [lvl Htr]].
      destruct (trans_lit_item s S w dso lvl t R Htr) as [k0 Hin0].
      apply (rel_step_chosen s S w (LLit w dso lvl) k0 _ t R Hamb Hin0 eq_refl (proj2 (lrel_plain c (LLit w dso lvl) _ eq_refl) eq_refl) Htr).
    - intros [d' [l' [k Hin]]]. destruct (item_lit_trans s S w d' l' k R Hin) as [t Htr].
      destruct (lit_lookup_complete d (a_commands a) _ _ _ om T Hwf Hord Hglt s w d' l' t Hvalid Htr) as [to' E].
      rewrite El in E. discriminate.
  Qed.

  Lemma row_entry s S row pi to : rel s S -> assocN s (a_subtrans a) = Some row -> In (pi, to) row ->
    exists lvl x0 k0, trans_on d s (ISub pi lvl) to /\ In (LSub x0 lvl, k0) (moves S) /\ lrel c (LSub x0 lvl) (ISub pi lvl).
  Proof.
    intros R Hrow Hin. apply (subtrans_row c om os nd a Hwf Hall s row Hrow pi to) in Hin. destruct Hin as [lvl Htr].
    destruct (trans_sub_item s S pi lvl to R Htr) as [x0 [k0 [Hmv Hl]]]. exists lvl, x0, k0. split; [exact Htr | split; assumption].
  Qed.

  Lemma step_nil_intro S w : (forall k, ~ In k (step en S w)) -> step en S w = [].
  Proof. intro H. destruct (step en S w) as [| k r]; [reflexivity | exfalso; apply (H k); left; reflexivity]. Qed.

  (** the within-word functions of a related state as the script lists them: each decides whether
      a leaf expected at the point accepts the word, and every expected within-word leaf has one *)
  Lemma sub_row_funs s S row : rel s S -> assocN s (a_subtrans a) = Some row ->
    exists srow, sub_row (a_subwords a) row = Ok srow
      /\ (forall sid to, In (sid, to) (assoc_of srow) ->
            exists pi lvl x0 k0 Tw, trans_on d s (ISub pi lvl) to /\ In (LSub x0 lvl, k0) (moves S) /\ lrel c (LSub x0 lvl) (ISub pi lvl)
              /\ subword_tables (a_subwords a) sid = Some Tw
              /\ forall w log, exists log', subword_matches Repaired a benv Tw (BashSem.sub_accepting a sid) w log = Ok (waccepts en x0 w, log'))
      /\ (forall x0 l0 k, In (LSub x0 l0, k) (moves S) ->
            exists sid to Tw, In (sid, to) (assoc_of srow) /\ subword_tables (a_subwords a) sid = Some Tw
              /\ forall w log, exists log', subword_matches Repaired a benv Tw (BashSem.sub_accepting a sid) w log = Ok (waccepts en x0 w, log')).
  Proof.
    intros R Erow. destruct (sub_row_spec (a_subwords a) row) as [srow [Hsrow Hf]].
    { intros pi to Hin. destruct (row_entry s S row pi to R Erow Hin) as [lvl [x0 [k0 [Htr [Hmv Hl]]]]].
      destruct (sub_match s S pi lvl to x0 k0 R Htr Hmv Hl) as [id [Tw [Hid _]]]. exists id. exact Hid. }
    exists srow. split; [exact Hsrow | split].
    - intros sid to Hin. apply assoc_of_sub in Hin. destruct (Forall2_In_r _ _ _ _ Hf Hin) as [[pi to'] [Hrow [Eto Hsid]]].
      cbn [fst snd] in Eto, Hsid. subst to'.
      destruct (row_entry s S row pi to R Erow Hrow) as [lvl [x0 [k0 [Htr [Hmv Hl]]]]].
      destruct (sub_match s S pi lvl to x0 k0 R Htr Hmv Hl) as [id [Tw [Hid [HT [_ [_ [Hm _]]]]]]].
      rewrite Hsid in Hid. inversion Hid; subst id. exists pi, lvl, x0, k0, Tw.
      split; [exact Htr | split; [exact Hmv | split; [exact Hl | split; [exact HT | exact Hm]]]].
    - intros x0 l0 k Hin. destruct (item_sub_trans s S x0 l0 k R Hin) as [pi [t [Hl Htr]]].
      assert (Hrow : In (pi, t) row) by (apply (subtrans_row c om os nd a Hwf Hall s row Erow pi t); eauto).
      destruct (Forall2_In_l _ _ _ _ Hf Hrow) as [[sid t'] [Hsrow' [Et Hsid]]]. cbn [fst snd] in Et, Hsid. subst t'.
      assert (Hkey : In sid (map fst (assoc_of srow))).
      { apply assoc_of_keys. apply in_map_iff. exists (sid, t). split; [reflexivity | exact Hsrow']. }
      apply in_map_iff in Hkey. destruct Hkey as [[sid' to'] [E Hin']]. cbn [fst] in E. subst sid'.
      destruct (sub_match s S pi l0 t x0 k R Htr Hin Hl) as [id [Tw [Hid [HT [_ [_ [Hm _]]]]]]].
      rewrite Hsid in Hid. inversion Hid; subst id. exists sid, to', Tw. split; [exact Hin' | split; [exact HT | exact Hm]].
  Qed.

  Lemma walk_sub s S w log : rel s S -> ~ lit_expected (moves S) w -> ambiguous_step en S w = false ->
    exists r log1, (match assocN s (a_subtrans a) with
               | Some row => do srow <- sub_row (a_subwords a) row; top_sub_loop Repaired a benv (assoc_of srow) w log
               | None => Ok (None, log)
               end) = Ok (r, log1)
              /\ match r with
                 | Some to => rel to (step en S w) /\ step en S w <> []
                 | None => forall x0 l0 k, In (LSub x0 l0, k) (moves S) -> waccepts en x0 w = false
                 end.
  Proof.
    intros R Hnl Hamb. destruct (assocN s (a_subtrans a)) as [row |] eqn:Erow.
    - destruct (sub_row_funs s S row R Erow) as [srow [Hsrow [Hentry Hall']]]. rewrite Hsrow. cbn [obind].
      destruct (top_sub_loop_run a benv w (assoc_of srow) log) as [r [log1 [Hr Hspec]]].
      { intros sid to Hin. destruct (Hentry sid to Hin) as [pi [lvl [x0 [k0 [Tw [_ [_ [_ [HT Hm]]]]]]]]]. exists Tw, (waccepts en x0 w). split; [exact HT | apply Hm]. }
      exists r, log1. split; [exact Hr |]. destruct r as [to |].
      + destruct Hspec as [sid [Tw' [Hin [HT' Hm']]]].
        destruct (Hentry sid to Hin) as [pi [lvl [x0 [k0 [Tw [Htr [Hmv [Hl [HT Hm]]]]]]]]].
        rewrite HT in HT'. inversion HT'; subst Tw'.
        assert (Hacc : waccepts en x0 w = true).
        { destruct (Hm w []) as [l1 E1]. destruct (Hm' []) as [l2 E2]. rewrite E2 in E1. inversion E1. reflexivity. }
        apply (rel_step_chosen s S w (LSub x0 lvl) k0 _ to R Hamb Hmv (conj Hacc Hnl) Hl Htr).
      + intros x0 l0 k Hin. destruct (waccepts en x0 w) eqn:Hacc; [exfalso | reflexivity].
        destruct (Hall' x0 l0 k Hin) as [sid [to' [Tw [Hin' [HT Hm]]]]].
        destruct (Hspec sid to' Hin') as [Tw' [HT' Hm']]. rewrite HT in HT'. inversion HT'; subst Tw'.
        destruct (Hm w []) as [l1 E1]. destruct (Hm' []) as [l2 E2]. rewrite E2 in E1. rewrite Hacc in E1. discriminate.
    - exists None, log. split; [reflexivity |]. intros x0 l0 k Hin. exfalso.
      destruct (item_sub_trans s S x0 l0 k R Hin) as [pi [t [_ Htr]]].
      apply (subtrans_none c om os nd a Hwf Hall s pi l0 t Erow Htr).
  Qed.

  Lemma mcmd_present s S cm l k : rel s S -> In (LCmd cm l, k) (moves S) ->
    exists ct cid row to, t_mcmd T = Some ct /\ Tables.index_of cm (a_commands a) = Some cid
                          /\ assocN s ct = Some row /\ In (cid, to) row.
  Proof.
    intros R Hin. destruct (item_trans_plain s S _ k R Hin eq_refl) as [t Htr]. cbn [inp_of_leaf] in Htr.
    destruct (mcmd_row_has d (a_commands a) _ _ _ om T Hwf Hglt s cm l t (top_needs_cmd c om os nd a Hwf Hall s cm l t Htr) Htr)
      as [ct [row [cid [to [Ect [Er [Hid Hrow]]]]]]].
    exists ct, cid, row, to. split; [exact Ect | split; [exact Hid | split; [exact Er | exact Hrow]]].
  Qed.

  Lemma mcmd_entry s S ct row cid to :
    rel s S -> t_mcmd T = Some ct -> assocN s ct = Some row -> In (cid, to) row ->
    exists cm l k, Tables.index_of cm (a_commands a) = Some cid /\ trans_on d s (ICmd cm l) to /\ In (LCmd cm l, k) (moves S).
  Proof.
    intros R Hct Hr Hin. destruct (mcmd_row_sound d (a_commands a) _ _ _ om T Hwf Hglt ct s row cid to Hct Hr Hin) as [cm [l [Hid Htr]]].
    destruct (trans_item_plain s S _ to R Htr) as [a1 [k [Hmv [Ha Hp]]]]; [intros k1 l1; discriminate |].
    destruct a1; cbn in Ha, Hp; try discriminate. inversion Ha; subst. exists cm, l, k. split; [exact Hid | split; [exact Htr | exact Hmv]].
  Qed.

  Lemma accepts_cid_item cm cid w : Tables.index_of cm (a_commands a) = Some cid ->
    accepts_cid benv w cid = mid_accepts en (LCmd cm 0) w.
  Proof.
    intro Hid. unfold accepts_cid. rewrite (Henv cm cid Hid). cbn [mid_accepts]. unfold mem_str. reflexivity.
  Qed.

  Lemma mstar_lookup s S : rel s S ->
    match star_target T s with
    | Some to => trans_on d s IStar to
    | None => forall k, ~ In (LAny, k) (moves S)
    end.
  Proof.
    intro R. destruct (star_target T s) as [to |] eqn:Est.
    - apply (star_target_sound d (a_commands a) _ _ _ om T Hwf Hglt s to Est).
    - intros k Hin. destruct (item_trans_plain s S _ k R Hin eq_refl) as [t Htr]. cbn [inp_of_leaf] in Htr.
      apply (star_target_complete d (a_commands a) _ _ _ om T Hwf Hglt s t (top_needs_star c om os nd a Hwf Hall s t Htr) Htr Est).
  Qed.

  Lemma Hcands : forall cid, command_lines Repaired (cmd_output benv cid) = spec_candidates (cmd_output benv cid).
  Proof. intro cid. apply filter_lines_repaired_spec. Qed.

  Lemma cmd_part s S w last log :
    rel s S ->
    exists r log1,
      match t_mcmd T with
      | Some ct => match assocN s ct with
                   | Some row => top_cmd_loop Repaired a benv (assoc_of row) w last log
                   | None => Ok (WNone, log)
                   end
      | None => Ok (WNone, log)
      end = Ok (match r with Some to => WNext to | None => WNone end, log1)
      /\ match r with
         | Some to => exists cm l k, In (LCmd cm l, k) (moves S) /\ mid_accepts en (LCmd cm l) w = true /\ trans_on d s (ICmd cm l) to
         | None => forall cm l k, In (LCmd cm l, k) (moves S) -> mid_accepts en (LCmd cm l) w = false
         end.
  Proof.
    intro R. destruct (t_mcmd T) as [ct |] eqn:Ect.
    - destruct (assocN s ct) as [row |] eqn:Er.
      + pose proof (mcmd_row_keys d (a_commands a) _ _ _ om T Hglt ct s row Ect Er) as Krow.
        assert (Hvalid' : forall cid to, In (cid, to) (assoc_of row) -> nthN (a_commands a) cid <> None).
        { intros cid to Hin. apply (assoc_of_in row Krow) in Hin.
          destruct (mcmd_entry s S ct row cid to R Ect Er Hin) as [cm [l [k [Hid _]]]].
          rewrite (index_of_nth _ _ _ Hid). discriminate. }
        destruct (spec_cmd_loop_spec a benv w (assoc_of row) last log Hvalid') as [log' [esc E]].
        pose proof (top_cmd_loop_spec Repaired a benv Hcands w last (fun H => match Bool.diff_false_true H with end) _ _ _ _ _ E
                      (fun H => match Bool.diff_false_true H with end)) as Et.
        eexists _, log'. split; [exact Et |].
        destruct (find (fun ct0 => accepts_cid benv w (fst ct0)) (assoc_of row)) as [[cid to] |] eqn:Ef.
        * apply find_some in Ef. destruct Ef as [Hin Hacc]. cbn [fst snd] in *.
          apply (assoc_of_in row Krow) in Hin.
          destruct (mcmd_entry s S ct row cid to R Ect Er Hin) as [cm [l [k [Hid [Htr Hmv]]]]].
          exists cm, l, k. split; [exact Hmv | split; [| exact Htr]].
          rewrite (accepts_cid_item cm cid w Hid) in Hacc. exact Hacc.
        * intros cm l k Hmv. destruct (mcmd_present s S cm l k R Hmv) as [ct' [cid [row' [to [Ect' [Hid [Er' Hin]]]]]]].
          rewrite Ect in Ect'. inversion Ect'; subst ct'. rewrite Er in Er'. inversion Er'; subst row'.
          apply (assoc_of_in row Krow) in Hin.
          pose proof (find_none _ _ Ef _ Hin) as Hn. cbn [fst] in Hn. rewrite (accepts_cid_item cm cid w Hid) in Hn. exact Hn.
      + exists None, log. split; [reflexivity |].
        intros cm l k Hmv. destruct (mcmd_present s S cm l k R Hmv) as [ct' [cid [row' [to [Ect' [_ [Er' _]]]]]]].
        rewrite Ect in Ect'. inversion Ect'; subst ct'. rewrite Er in Er'. discriminate.
    - exists None, log. split; [reflexivity |].
      intros cm l k Hmv. destruct (mcmd_present s S cm l k R Hmv) as [ct' [cid [row' [to [Ect' _]]]]]. rewrite Ect in Ect'. discriminate.
  Qed.

  Theorem walk_words : forall ws s S log, rel s S -> ambiguous_run en S ws = false ->
    exists log',
      match run en S ws with
      | [] => walk Repaired a benv s ws log = Ok (None, log')
      | _ :: _ => exists t, walk Repaired a benv s ws log = Ok (Some t, log') /\ rel t (run en S ws)
      end.
  Proof.
    induction ws as [| w rest IH]; intros s S log R Hamb.
    - exists log. cbn [run fold_left walk]. destruct S as [| k0 S0] eqn:ES; [exfalso; apply (rel_nonempty s [] R); reflexivity |].
      exists s. split; [reflexivity | exact R].
    - cbn [ambiguous_run] in Hamb. apply orb_false_iff in Hamb. destruct Hamb as [Hamb1 Hamb2].
      change (run en S (w :: rest)) with (run en (step en S w) rest).
      cbn [walk]. fold (lit_lookup T s w). pose proof (walk_lit s S w R Hamb1) as Hlit.
      destruct (lit_lookup T s w) as [to |].
      + destruct Hlit as [R1 _]. apply (IH to _ log R1 Hamb2).
      + destruct (walk_sub s S w log R Hlit Hamb1) as [r [log0 [Hr Hsw]]].
        match goal with |- context [obind ?X _] => assert (ES : X = Ok (r, log0)) by exact Hr; rewrite ES end. cbn [obind].
        destruct r as [to |].
        * destruct Hsw as [R1 _]. apply (IH to _ log0 R1 Hamb2).
        * destruct (cmd_part s S w (match rest with [] => true | _ => false end) log0 R) as [r2 [log1 [Hc Hcmd]]].
          match goal with |- context [obind ?X _] =>
            assert (EE : X = Ok (match r2 with Some to => WNext to | None => WNone end, log1)) by exact Hc; rewrite EE
          end. cbn [obind]. destruct r2 as [to |].
          -- destruct Hcmd as [cm [l [k [Hmv [Hacc Htr]]]]].
             destruct (rel_step_chosen s S w (LCmd cm l) k _ to R Hamb1 Hmv (conj Hacc Hlit)
                         (proj2 (lrel_plain c (LCmd cm l) _ eq_refl) eq_refl) Htr) as [R1 _].
             apply (IH to _ log1 R1 Hamb2).
          -- assert (Hnm : ~ mid_expected en (moves S) w).
             { intros [a0 [k [Hin Hacc]]]. destruct a0 as [t0 d0 l0 | cm l0 | | x0 l0].
               - cbn in Hacc. discriminate.
               - rewrite (Hcmd cm l0 k Hin) in Hacc. discriminate.
               - cbn in Hacc. discriminate.
               - cbn [mid_accepts] in Hacc. rewrite (Hsw x0 l0 k Hin) in Hacc. discriminate. }
             pose proof (mstar_lookup s S R) as Hst. fold (star_target T s).
             destruct (star_target T s) as [to |].
             ++ destruct (trans_item_plain s S _ to R Hst) as [a1 [k [Hmv [Ha Hp]]]]; [intros k1 l1; discriminate |].
                destruct a1; cbn in Ha, Hp; try discriminate.
                destruct (rel_step_chosen s S w LAny k _ to R Hamb1 Hmv (conj Hlit Hnm)
                            (proj2 (lrel_plain c LAny _ eq_refl) eq_refl) Hst) as [R1 _].
                apply (IH to _ log1 R1 Hamb2).
             ++ exists log1. assert (E : step en S w = []).
                { apply step_nil_intro. intros k Hk. apply step_spec in Hk. destruct Hk as [a0 [Hin Hch]].
                  destruct a0 as [t0 d0 l0 | cm l0 | | x0 l0]; cbn [chosen] in Hch.
                  - apply Hlit. subst t0. exists d0, l0, k. exact Hin.
                  - destruct Hch as [Hacc _]. rewrite (Hcmd cm l0 k Hin) in Hacc. discriminate.
                  - apply (Hst k Hin).
                  - destruct Hch as [Hacc _]. cbn [mid_accepts] in Hacc. rewrite (Hsw x0 l0 k Hin) in Hacc. discriminate. }
                rewrite E, run_nil. reflexivity.
  Qed.

  Definition lit_offered (s : N) (L : nat) : list string :=
    filter (String.prefix p) (map (fun id => append (literal_at T id) " ") (level_row (t_clit T) L s)).

  Lemma lit_offered_spec s S L o : rel s S ->
    (In o (lit_offered s L) <-> exists t d0 k, In (LLit t d0 (N.of_nat L), k) (moves S) /\ o = append t " " /\ String.prefix p o = true).
  Proof.
    intro R. unfold lit_offered. rewrite filter_In, in_map_iff. split.
    - intros [[id [<- Hid]] Hp]. rewrite <- (Nat2N.id L) in Hid.
      apply (level_row_lit d (a_commands a) _ _ _ om T Hwf Hord Hglt) in Hid. destruct Hid as [text [dso [to [Htr Hl]]]].
      rewrite (literal_at_lit d (a_commands a) _ _ _ om T Hglt id text _ Hl) in *.
      destruct (trans_lit_item s S text dso _ to R Htr) as [k Hin]. exists text, dso, k. split; [exact Hin | split; [reflexivity | exact Hp]].
    - intros [t [d0 [k [Hin [-> Hp]]]]]. destruct (item_lit_trans s S t d0 _ k R Hin) as [to Htr].
      pose proof Htr as [i [_ Hn]]. destruct (valid_order_covers d om 0 i t d0 _ Hvalid Hn) as [id Hl].
      split; [| exact Hp]. exists id. split; [rewrite (literal_at_lit d (a_commands a) _ _ _ om T Hglt id t _ Hl); reflexivity |].
      rewrite <- (Nat2N.id L). apply (level_row_lit d (a_commands a) _ _ _ om T Hwf Hord Hglt). eauto.
  Qed.

  Lemma csub_keys : Forall (fun lv : list (N * list N) => NoDup (map fst lv)) (a_csub a).
  Proof. destruct (all_tables_inv _ _ _ _ _ _ Hall) as [rt F]. eapply completion_table_keys. apply (af_csub _ _ _ _ _ _ _ F). Qed.

  Lemma csub_row s L sid :
    In sid (level_row (a_csub a) L s) <->
    exists rt pi to, rtrans d = Ok rt /\ trans_on d s (ISub pi (N.of_nat L)) to /\ assocN pi (get_subwords rt 0) = Some sid.
  Proof.
    rewrite <- (csub_exact Bash c om os nd a Hwf Hall (N.of_nat L) s sid).
    rewrite (mem3_level_row (a_csub a) (N.of_nat L) s sid csub_keys). rewrite Nat2N.id. unfold level_row. reflexivity.
  Qed.

  Lemma sub_adds s S L matches log : rel s S ->
    exists adds log1, top_subs_level Repaired a benv (level_row (a_csub a) L s) p matches log = Ok (matches ++ adds, log1)
      /\ forall o, In o adds <-> exists x0 k0, In (LSub x0 (N.of_nat L), k0) (moves S) /\ In o (wproper en x0 p).
  Proof.
    intro R.
    (* what the function with script id [sid] offers: the continuations of some leaf it stands for *)
    set (P := fun (sid : N) (o : string) =>
                exists pi to x0 k0 rt, rtrans d = Ok rt /\ assocN pi (get_subwords rt 0) = Some sid
                  /\ trans_on d s (ISub pi (N.of_nat L)) to /\ In (LSub x0 (N.of_nat L), k0) (moves S)
                  /\ lrel c (LSub x0 (N.of_nat L)) (ISub pi (N.of_nat L)) /\ In o (wproper en x0 p)).
    assert (Hsid : forall sid, In sid (level_row (a_csub a) L s) ->
               exists Tw reply, subword_tables (a_subwords a) sid = Some Tw
                 /\ (forall log', exists log'', subword_complete Repaired a benv Tw p log' = Ok (reply, log''))
                 /\ forall o, In o reply <-> P sid o).
    { intros sid Hin. apply csub_row in Hin. destruct Hin as [rt [pi [to [Hrt [Htr Hid]]]]].
      destruct (trans_sub_item s S pi _ to R Htr) as [x0 [k0 [Hmv Hl]]].
      destruct (sub_match s S pi _ to x0 k0 R Htr Hmv Hl) as [id [Tw [_ [HT [_ [Hids [_ [reply [Hc Hspec]]]]]]]]].
      pose proof Hid as Hid0. rewrite (Hids rt Hrt) in Hid. inversion Hid; subst id.
      exists Tw, reply. split; [exact HT | split; [exact Hc |]]. intro o. split.
      - intro Ho. exists pi, to, x0, k0, rt. split; [exact Hrt | split; [exact Hid0 | split; [exact Htr | split; [exact Hmv | split; [exact Hl | apply Hspec; exact Ho]]]]].
      - intros [pi' [to' [x1 [k1 [rt' [Hrt' [Hid' [Htr' [Hmv' [Hl' Ho]]]]]]]]]].
        rewrite Hrt in Hrt'. inversion Hrt'; subst rt'.
        destruct (sub_match s S pi' _ to' x1 k1 R Htr' Hmv' Hl') as [id' [Tw' [_ [HT' [_ [Hids' [_ [reply' [Hc' Hspec']]]]]]]]].
        rewrite (Hids' rt Hrt) in Hid'. inversion Hid'; subst id'. rewrite HT in HT'. inversion HT'; subst Tw'.
        destruct (Hc []) as [l1 E1]. destruct (Hc' []) as [l2 E2]. rewrite E2 in E1. inversion E1; subst reply'.
        apply Hspec'. exact Ho. }
    destruct (top_subs_level_run a benv p P (level_row (a_csub a) L s) matches log Hsid) as [adds [log1 [Hr Hspec]]].
    exists adds, log1. split; [exact Hr |]. intro o. rewrite Hspec. split.
    - intros [sid [_ [pi [to [x0 [k0 [rt [_ [_ [_ [Hmv [_ Ho]]]]]]]]]]]]. exists x0, k0. split; assumption.
    - intros [x0 [k0 [Hmv Ho]]].
      destruct (item_sub_trans s S x0 _ k0 R Hmv) as [pi [t [Hl Htr]]].
      destruct (sub_match s S pi _ t x0 k0 R Htr Hmv Hl) as [id [Tw [_ [HT [_ [Hids _]]]]]].
      destruct (all_tables_inv _ _ _ _ _ _ Hall) as [rt F]. pose proof (af_rt _ _ _ _ _ _ _ F) as Hrt.
      exists id. split.
      + apply csub_row. exists rt, pi, t. split; [exact Hrt | split; [exact Htr | apply (Hids rt Hrt)]].
      + exists pi, t, x0, k0, rt. split; [exact Hrt | split; [apply (Hids rt Hrt) | split; [exact Htr | split; [exact Hmv | split; [exact Hl | exact Ho]]]]].
  Qed.

  Lemma match_or_nil l : (match l with [] => Ok [] | _ => match_fn benv p l end) = Ok (filter (String.prefix p) l).
  Proof. destruct l as [| x l]; [reflexivity |]. apply (match_fn_prefix_filter benv p _ Hic Hpr). Qed.

  Lemma ccmd_present s S cm l k : rel s S -> In (LCmd cm l, k) (moves S) ->
    exists cc cid, t_ccmd T = Some cc /\ Tables.index_of cm (a_commands a) = Some cid /\ In cid (level_row cc (N.to_nat l) s).
  Proof.
    intros R Hin. destruct (mcmd_present s S cm l k R Hin) as [ct [cid [row [to [_ [Hid _]]]]]].
    destruct (item_trans_plain s S _ k R Hin eq_refl) as [t Htr]. cbn [inp_of_leaf] in Htr.
    destruct (ccmd_some d (a_commands a) _ _ _ om T Hglt (top_needs_cmd c om os nd a Hwf Hall s cm l t Htr)) as [cc Ecc].
    exists cc, cid. split; [exact Ecc | split; [exact Hid |]].
    apply (level_row_cmd d (a_commands a) _ _ _ om T Hwf Hglt cc _ s cid Ecc). rewrite N2Nat.id. eauto.
  Qed.

  Definition cmd_off (s : N) (L : nat) : list string :=
    match t_ccmd T with Some cc => cmd_offered benv p (level_row cc L s) | None => [] end.

  Lemma cmd_off_spec s S L o : rel s S ->
    (In o (cmd_off s L) <-> exists cm k0, In (LCmd cm (N.of_nat L), k0) (moves S) /\ In o (filter (String.prefix p) (candidates en cm))).
  Proof.
    intro R. unfold cmd_off. split.
    - destruct (t_ccmd T) as [cc |] eqn:Ecc; [| intros []]. intro H.
      unfold cmd_offered in H. apply in_flat_map in H. destruct H as [cid [Hcid H]].
      apply (level_row_cmd d (a_commands a) _ _ _ om T Hwf Hglt cc _ s cid Ecc) in Hcid.
      destruct Hcid as [cm [to [Htr Hid]]].
      destruct (trans_item_plain s S _ to R Htr) as [a1 [k' [Hmv [Ha Hpl]]]]; [intros k1 l1; discriminate |].
      destruct a1; cbn in Ha, Hpl; try discriminate. inversion Ha; subst.
      exists cm, k'. split; [exact Hmv |]. rewrite <- (Henv cm cid Hid). exact H.
    - intros [cm [k0 [Hmv Ho]]].
      destruct (ccmd_present s S cm _ k0 R Hmv) as [cc [cid [Ecc [Hid Hrow]]]]. rewrite Ecc. rewrite Nat2N.id in Hrow.
      unfold cmd_offered. apply in_flat_map. exists cid. split; [exact Hrow |]. rewrite (Henv cm cid Hid). exact Ho.
  Qed.

  Lemma cmd_level s S L cands matches log : rel s S ->
    exists cands' log',
      (match t_ccmd T with
       | Some cc => top_cmds_level Repaired a benv (level_row cc L s) p cands matches log
       | None => Ok (cands, matches, log)
       end) = Ok (cands', matches ++ cmd_off s L, log').
  Proof.
    intro R. unfold cmd_off. destruct (t_ccmd T) as [cc |] eqn:Ecc.
    - assert (Hc : forall cid, In cid (level_row cc L s) -> nthN (a_commands a) cid <> None).
      { intros cid Hcid. apply (level_row_cmd d (a_commands a) _ _ _ om T Hwf Hglt cc _ s cid Ecc) in Hcid.
        destruct Hcid as [cm [to [_ Hid]]]. rewrite (index_of_nth _ _ _ Hid). discriminate. }
      destruct (spec_cmds_level_spec a benv p (level_row cc L s) matches log Hc) as [log' E].
      destruct (top_cmds_level_spec Repaired a benv Hcands Hic p Hpr _ cands _ _ _ _ E) as [cands' [Et _]].
      exists cands', log'. exact Et.
    - exists cands, log. rewrite app_nil_r. reflexivity.
  Qed.

  Definition level_cands (S : state) (L : nat) : list string :=
    map snd (filter (fun lo => N.eqb (fst lo) (N.of_nat L)) (state_cands en S p)).

  Lemma level_cands_In S L o : In o (level_cands S L) <-> In (N.of_nat L, o) (state_cands en S p).
  Proof.
    unfold level_cands. rewrite in_map_iff. split.
    - intros [[l o'] [E H]]. cbn [snd] in E. subst o'. apply filter_In in H. destruct H as [H El]. cbn [fst] in El.
      apply N.eqb_eq in El. subst l. exact H.
    - intro H. exists (N.of_nat L, o). split; [reflexivity |]. apply filter_In. split; [exact H | apply N.eqb_refl].
  Qed.

  (** the script answers from the first level at which the specification expects anything *)
  Lemma top_levels_spec s S : rel s S -> forall n L cands log,
    exists reply log', top_levels n L Repaired a benv s p cands [] log = Ok (reply, log')
      /\ forall x, In x reply <-> In x (map (Meaning.strip (Meaning.e_wordbreaks en) p) (first_nonempty (level_cands S) n L)).
  Proof.
    intro R. induction n as [| n IH]; intros L cands log.
    - exists [], log. split; [reflexivity | intro x; reflexivity].
    - cbn [top_levels quirky first_nonempty]. cbn [List.app]. rewrite match_or_nil. cbn [obind]. fold (lit_offered s L).
      destruct (sub_adds s S L (lit_offered s L) log R) as [adds [log0 [Hr Hadds]]]. rewrite Hr. cbn [obind].
      destruct (cmd_level s S L (map (fun id => append (literal_at T id) " ") (level_row (t_clit T) L s))
                          (lit_offered s L ++ adds) log0 R) as [cands' [log' Hc]].
      match goal with |- context [obind ?X _] =>
        assert (EE : X = Ok (cands', (lit_offered s L ++ adds) ++ cmd_off s L, log')) by exact Hc; rewrite EE
      end. cbn [obind].
      set (m3 := (lit_offered s L ++ adds) ++ cmd_off s L).
      assert (Hspec : forall o, In o m3 <-> In o (level_cands S L)).
      { intro o. unfold m3. rewrite level_cands_In, !in_app_iff, (lit_offered_spec s S L o R), Hadds, (cmd_off_spec s S L o R), state_cands_spec.
        split; [intros [[H | H] | H]; [left; exact H | right; left; exact H | right; right; exact H]
               | intros [H | [H | H]]; [left; left; exact H | left; right; exact H | right; exact H]]. }
      destruct m3 as [| o0 m3'] eqn:Em.
      + assert (E : level_cands S L = []).
        { destruct (level_cands S L) as [| o r]; [reflexivity | exfalso]. apply (proj2 (Hspec o)). left; reflexivity. }
        rewrite E. apply IH.
      + rewrite <- Em in *.
        assert (Hpre : forall m, In m m3 -> String.prefix p m = true).
        { intros m Hm. apply Hspec, level_cands_In in Hm. apply (state_cands_prefix en S p _ m Hm). }
        rewrite (Hstrip m3 Hpre). cbn [obind]. eexists _, log'. split; [reflexivity |].
        destruct (level_cands S L) as [| o1 r1] eqn:E; [exfalso; apply (proj1 (Hspec o0)); rewrite Em; left; reflexivity |].
        intro x. rewrite !in_map_iff. split; intros [o [Eo Ho]]; exists o; (split; [exact Eo | apply Hspec; exact Ho]).
  Qed.

  Lemma cand_level_range s S l o : rel s S -> In (l, o) (state_cands en S p) -> (N.to_nat l < Datatypes.S (N.to_nat (t_maxlevel T)))%nat.
  Proof.
    intros R Hin. apply state_cands_spec in Hin. destruct Hin as [[t [d0 [k [Hmv _]]]] | [[x0 [k0 [Hmv _]]] | [cm [k0 [Hmv _]]]]].
    - destruct (item_lit_trans s S t d0 l k R Hmv) as [to Htr].
      apply (level_in_range d (a_commands a) _ _ _ om T Hwf Hord Hglt l s t d0 to Hvalid Htr).
    - destruct (item_sub_trans s S x0 l k0 R Hmv) as [pi [t [Hl Htr]]].
      destruct (sub_match s S pi l t x0 k0 R Htr Hmv Hl) as [id [Tw [_ [_ [_ [Hids _]]]]]].
      destruct (all_tables_inv _ _ _ _ _ _ Hall) as [rt F]. pose proof (af_rt _ _ _ _ _ _ _ F) as Hrt.
      assert (M : mem3 (a_csub a) l s id).
      { apply (csub_exact Bash c om os nd a Hwf Hall l s id). exists rt, pi, t. split; [exact Hrt | split; [exact Htr | apply (Hids rt Hrt)]]. }
      destruct M as [row [Hrow _]].
      destruct (completion_table_spec _ _ _ _ _ push_in (af_csub _ _ _ _ _ _ _ F)) as [Hlen _].
      assert (N.to_nat l < List.length (a_csub a))%nat by (apply nth_error_Some; rewrite Hrow; discriminate). lia.
    - destruct (ccmd_present s S cm l k0 R Hmv) as [cc [cid [Ecc [_ Hrow]]]].
      apply (cmd_level_in_range d (a_commands a) _ _ _ om T Hglt cc l s cid Ecc Hrow).
  Qed.

  Theorem levels_lowest s S log : rel s S ->
    exists reply log', top_levels (Datatypes.S (N.to_nat (t_maxlevel T))) 0 Repaired a benv s p [] [] log = Ok (reply, log')
      /\ forall x, In x reply <-> In x (map (Meaning.strip (Meaning.e_wordbreaks en) p) (lowest (state_cands en S p))).
  Proof.
    intro R. destruct (top_levels_spec s S R (Datatypes.S (N.to_nat (t_maxlevel T))) 0%nat [] log) as [reply [log' [Hr Hspec]]].
    exists reply, log'. split; [exact Hr |]. intro x. rewrite Hspec, !in_map_iff.
    split; intros [o [Eo Ho]]; exists o; (split; [exact Eo |]);
      apply (first_nonempty_lowest (level_cands S) (state_cands en S p) _ (level_cands_In S) (fun l o => cand_level_range s S l o R)); exact Ho.
  Qed.

  Theorem run_meaning_all ws :
    ambiguous_run en (start e) ws = false ->
    match complete e en ws p with
    | None => exists log, run_from Repaired (d_start d) a benv ws p = Ok (mkresult 1 [] log)
    | Some (req, al) =>
        exists reply log, run_from Repaired (d_start d) a benv ws p = Ok (mkresult 0 reply log)
                          /\ (forall x, In x reply <-> In x req) /\ incl req al
    end.
  Proof.
    intros Hamb. destruct (walk_words ws (d_start d) (start e) [] rel_start Hamb) as [log1 Hw].
    unfold complete, run_from. destruct (run en (start e) ws) as [| k0 r0] eqn:Erun.
    - rewrite Hw. cbn [obind]. eexists. reflexivity.
    - destruct Hw as [t [Hwalk R]]. rewrite Hwalk. cbn [obind].
      destruct (levels_lowest t _ log1 R) as [reply [log2 [Hr Hspec]]]. rewrite Hr. cbn [obind].
      exists reply. eexists. split; [reflexivity | split; [exact Hspec |]].
      intros x Hx. apply in_map_iff in Hx. destruct Hx as [o [Eo Ho]]. apply in_map_iff. exists o. split; [exact Eo | apply in_or_app; left; exact Ho].
  Qed.
End Run.
