(** Regular expressions over concrete letters: partial derivatives are correct. *)
From CG Require Import Base.Prelude Model.Ast Spec.Lang Proofs.Limg.

Section ReFacts.
  Variable B : Type.
  Variable eqB : B -> B -> bool.
  Hypothesis eqB_spec : forall a b, eqB a b = true <-> a = b.

  Notation re := (re B).
  Notation nul := (nul B).
  Notation pd := (pd B eqB).
  Notation mkcat := (mkcat B).
  Notation re_eqb := (re_eqb B eqB).
  Notation syms := (syms B).

  Lemma re_eqb_spec : forall x y : re, re_eqb x y = true <-> x = y.
  Proof.
    induction x; destruct y; cbn; rewrite ?andb_true_iff, ?eqB_spec, ?IHx, ?IHx1, ?IHx2;
      intuition congruence.
  Qed.

  Lemma Lre_nil_nul : forall (r : re) w, Lre r w -> w = [] -> nul r = true.
  Proof.
    intros r w H. induction H; intros E; simpl; try reflexivity; try discriminate.
    - apply app_eq_nil in E. destruct E. rewrite IHLre1, IHLre2; auto.
    - rewrite IHLre; auto.
    - rewrite IHLre; auto. apply orb_true_r.
    - auto.
    - apply app_eq_nil in E. destruct E. auto.
  Qed.

  Lemma nul_Lre : forall r : re, nul r = true -> Lre r [].
  Proof.
    induction r; simpl; intros H; try discriminate.
    - constructor.
    - apply andb_true_iff in H. destruct H.
      change (@nil B) with (@nil B ++ []). constructor; auto.
    - apply orb_true_iff in H. destruct H; [apply L_altl|apply L_altr]; auto.
    - apply L_plus1. auto.
  Qed.

  Lemma nul_spec : forall r : re, nul r = true <-> Lre r [].
  Proof. intros r. split; [apply nul_Lre|]. intros H. eapply Lre_nil_nul; eauto. Qed.

  Lemma mkcat_spec : forall (r s : re) w, Lre (mkcat r s) w <-> Lre (Cat r s) w.
  Proof.
    intros r s w. destruct r; simpl; try tauto.
    split; intros H.
    - change w with ([] ++ w). constructor; [constructor|exact H].
    - inversion H as [| |r0 s0 u v Hu Hv| | | |]; subst.
      inversion Hu; subst. simpl. exact Hv.
  Qed.

  Lemma Lre_emp_inv : forall w : list B, ~ Lre (Emp : re) w.
  Proof. intros w H. inversion H. Qed.
  Lemma Lre_eps_iff : forall w : list B, Lre (Eps : re) w <-> w = [].
  Proof. intros w. split; intros H; [inversion H | subst]; constructor. Qed.
  Lemma Lre_sym_iff : forall (b : B) w, Lre (Sym b) w <-> w = [b].
  Proof. intros b w. split; intros H; [inversion H | subst]; constructor. Qed.
  Lemma Lre_cat_iff : forall (r s : re) w, Lre (Cat r s) w <->
    exists u v, w = u ++ v /\ Lre r u /\ Lre s v.
  Proof.
    intros r s w. split; [intros H; inversion H; subst; eauto|].
    intros [u [v [-> [Hu Hv]]]]. constructor; assumption.
  Qed.
  Lemma Lre_alt_iff : forall (r s : re) w, Lre (Alt r s) w <-> Lre r w \/ Lre s w.
  Proof.
    intros r s w. split; [intros H; inversion H; subst; auto|].
    intros [H|H]; [apply L_altl | apply L_altr]; exact H.
  Qed.
  Lemma Lre_plus_iff : forall (r : re) w, Lre (Plus r) w <-> plusP (Lre r) w.
  Proof.
    intros r w. split.
    - intros H. remember (Plus r) as pr eqn:E. induction H; try discriminate; injection E as ->.
      + apply PP_one. assumption.
      + apply PP_more; auto.
    - intros H. induction H; [apply L_plus1 | apply L_plusS]; assumption.
  Qed.

  Lemma plus_cons_inv : forall (r : re) v, Lre (Plus r) v -> forall a w, v = a :: w ->
    exists u1 u2, w = u1 ++ u2 /\ Lre r (a :: u1) /\ (u2 = [] \/ Lre (Plus r) u2).
  Proof.
    intros r v H. remember (Plus r) as pr eqn:E. induction H; try discriminate.
    - inversion E; subst. intros a w Hv. subst. exists w, []. rewrite app_nil_r. auto.
    - inversion E; subst. intros a w Hv.
      destruct u as [|x u].
      + simpl in Hv. apply (IHLre2 eq_refl a w Hv).
      + simpl in Hv. inversion Hv; subst. exists u, v. auto.
  Qed.

  Lemma pd_complete : forall (r : re) v, Lre r v -> forall a w, v = a :: w ->
    exists r', In r' (pd a r) /\ Lre r' w.
  Proof.
    induction r; intros v H a w Hv; subst.
    - destruct (Lre_emp_inv _ H).
    - apply Lre_eps_iff in H. discriminate.
    - apply Lre_sym_iff in H. inversion H; subst. exists Eps. simpl.
      assert (E : eqB b b = true) by (apply eqB_spec; reflexivity).
      rewrite E. split; [left; reflexivity|constructor].
    - apply Lre_cat_iff in H. destruct H as [u [v [E [H1 H2]]]]. simpl.
      destruct u as [|x u].
      + simpl in E. subst v.
        destruct (IHr2 _ H2 a w eq_refl) as [r' [Hin HL]].
        exists r'. split; auto. apply in_app_iff. right.
        rewrite (Lre_nil_nul _ _ H1 eq_refl). exact Hin.
      + simpl in E. inversion E; subst.
        destruct (IHr1 _ H1 x u eq_refl) as [r' [Hin HL]].
        exists (mkcat r' r2). split.
        * apply in_app_iff. left. apply in_map_iff. exists r'. auto.
        * apply mkcat_spec. constructor; auto.
    - apply Lre_alt_iff in H. simpl. destruct H as [H|H].
      + destruct (IHr1 _ H a w eq_refl) as [r' [Hin HL]]. exists r'. split; auto.
        apply in_app_iff; auto.
      + destruct (IHr2 _ H a w eq_refl) as [r' [Hin HL]]. exists r'. split; auto.
        apply in_app_iff; auto.
    - destruct (plus_cons_inv _ _ H a w eq_refl) as [u1 [u2 [E [H1 H2]]]]. subst w.
      destruct (IHr _ H1 a u1 eq_refl) as [r' [Hin HL]].
      exists (mkcat r' (Alt Eps (Plus r))). simpl. split.
      + apply in_map_iff. exists r'. auto.
      + apply mkcat_spec. constructor; auto.
        destruct H2 as [H2|H2]; [subst; apply L_altl; constructor|apply L_altr; exact H2].
  Qed.

  Lemma pd_sound : forall (r : re) a r' w, In r' (pd a r) -> Lre r' w -> Lre r (a :: w).
  Proof.
    induction r; simpl; intros a r' w Hin HL; try contradiction.
    - destruct (eqB a b) eqn:E; [|contradiction].
      destruct Hin as [Hin|[]]. subst r'. apply Lre_eps_iff in HL. subst.
      apply eqB_spec in E. subst. constructor.
    - apply in_app_iff in Hin. destruct Hin as [Hin|Hin].
      + apply in_map_iff in Hin. destruct Hin as [x [E Hin]]. subst r'.
        apply mkcat_spec in HL. apply Lre_cat_iff in HL.
        destruct HL as [u [v [E [H1 H2]]]]. subst w.
        change (a :: u ++ v) with ((a :: u) ++ v). constructor; eauto.
      + destruct (nul r1) eqn:N; [|contradiction].
        change (a :: w) with ([] ++ a :: w). constructor; [apply nul_Lre; auto|eauto].
    - apply in_app_iff in Hin. destruct Hin; [apply L_altl|apply L_altr]; eauto.
    - apply in_map_iff in Hin. destruct Hin as [x [E Hin]]. subst r'.
      apply mkcat_spec in HL. apply Lre_cat_iff in HL.
      destruct HL as [u [v [E [H1 H2]]]]. subst w.
      apply Lre_alt_iff in H2. destruct H2 as [H2|H2].
      + apply Lre_eps_iff in H2. subst. rewrite app_nil_r. apply L_plus1. eauto.
      + change (a :: u ++ v) with ((a :: u) ++ v). apply L_plusS; eauto.
  Qed.

  Lemma pd_spec : forall (r : re) a w,
    Lre r (a :: w) <-> exists r', In r' (pd a r) /\ Lre r' w.
  Proof.
    intros. split.
    - intros H. eapply pd_complete; eauto.
    - intros [r' [Hin HL]]. eapply pd_sound; eauto.
  Qed.

  Lemma Lre_syms : forall (r : re) w, Lre r w -> Forall (fun b => In b (syms r)) w.
  Proof.
    intros r w H. induction H; simpl.
    - constructor.
    - constructor; [left; reflexivity|constructor].
    - apply Forall_app. split; eapply Forall_impl; try eassumption;
        intros; apply in_app_iff; auto.
    - eapply Forall_impl; try eassumption. intros; apply in_app_iff; auto.
    - eapply Forall_impl; try eassumption. intros; apply in_app_iff; auto.
    - assumption.
    - apply Forall_app. split; assumption.
  Qed.
End ReFacts.
