(** [Spec.TwoReadings]: the lines on which the judgement of C01 is withheld ([ambiguous_run]: two
    different non-literal items accept a word) are among the lines that meet two readings. *)
From CG Require Import Base.Prelude Model.Ast Spec.Rx Spec.Meaning Spec.TwoReadings.

Lemma lit_next_nil_neq w mv : lit_next w mv = [] ->
  forall t d l k, In (LLit t d l, k) mv -> String.eqb t w = false.
Proof.
  unfold lit_next. induction mv as [|[a k'] mv IH]; cbn [flat_map]; intros H t d l k Hin; [destruct Hin|].
  apply app_eq_nil in H. destruct H as [H1 H2]. destruct Hin as [E|Hin].
  - inversion E; subst. cbn [fst snd] in H1. destruct (String.eqb t w); [discriminate|reflexivity].
  - exact (IH H2 _ _ _ _ Hin).
Qed.

Lemma ambiguous_two_step en s w : ambiguous_step en s w = true -> two_step en s w = true.
Proof.
  unfold ambiguous_step, two_step. destruct (lit_next w (moves s)) eqn:E; [|discriminate].
  assert (F : filter (fun ak => reads_word en (fst ak) w) (moves s)
              = filter (fun ak => mid_accepts en (fst ak) w) (moves s)).
  { apply filter_ext_in. intros [a k] Hin. cbn [fst]. destruct a; try reflexivity.
    cbn [reads_word mid_accepts]. exact (lit_next_nil_neq _ _ E _ _ _ _ Hin). }
  unfold readers. rewrite F.
  destruct (dedup_leaf (map fst (filter (fun ak => mid_accepts en (fst ak) w) (moves s)))) as [|x [|y r]];
    intro H; try discriminate. reflexivity.
Qed.

Theorem ambiguous_run_two_readings en : forall ws s,
  ambiguous_run en s ws = true -> two_readings en s ws = true.
Proof.
  induction ws as [|w r IH]; intros s H; cbn [ambiguous_run two_readings] in *; [discriminate|].
  apply orb_true_iff in H. destruct H as [H|H].
  - rewrite (ambiguous_two_step en s w H). reflexivity.
  - rewrite (IH _ H). apply orb_true_r.
Qed.
