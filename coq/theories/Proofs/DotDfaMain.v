(** C16: the main theorems for the --dfa file.  The graph read from what the model of [DFA::to_dot]
    writes is, up to the order of nodes and edges, the graph the specification prescribes: for the
    [patched] printer on every well-formed automaton ([dfa_dot_patched]), and for a variant
    wherever it writes what the patched one writes ([dfa_dot_variant]): the [old] printer outside
    its known classes, the [current] one when state 0 is a state. *)
From Coq Require Import Permutation.
From CG Require Import Base.Prelude Base.Facts Proofs.ListFacts Model.Dfa Spec.DotRead Spec.DotSpec Model.Dot
     Proofs.DotLex Proofs.DotParse Proofs.DotSem Proofs.DotNames Proofs.DotStates Proofs.DotDfaItems
     Proofs.DotDfaSem Proofs.DotDfa.
Local Open Scope string_scope.

Lemma node_view_x base p d s :
  prefix_ok p ->
  node_view (x_node base p d s) = (state_name p base s, Some (shape_of d s), Some (p ++ decimal (s + base))).
Proof.
  intro Hp. unfold node_view, x_node, rendered. cbn [gn_id gn_attrs assoc].
  change (String.eqb "shape" "shape") with true. change (String.eqb "label" "shape") with false.
  change (String.eqb "label" "label") with true. cbn [option_map].
  rewrite (render_plain _ (plain_no_bs _ (label_plain p (s + base) Hp))). reflexivity.
Qed.

Lemma nodes_perm base p d :
  prefix_ok p -> NoDup (d_accepting d) ->
  Permutation (map node_view (map (x_node base p d) (st_list d))) (state_nodes p base d).
Proof.
  intros Hp Ha. rewrite map_map. unfold state_nodes.
  rewrite (map_ext _ _ (fun s => node_view_x base p d s Hp)).
  apply Permutation_map. now apply st_list_perm.
Qed.

Lemma edge_view_label a b text :
  edge_view (edge_of (conv (a, b, "label", escape_dot text))) = (a, b, Some text, None).
Proof.
  unfold conv, edge_of, edge_view, rendered. cbn [fst snd set_attrs fold_left set_attr ge_src ge_dst ge_attrs assoc].
  unfold qdec. rewrite qdecode_escape_dot.
  change (String.eqb "label" "label") with true. change (String.eqb "style" "label") with false.
  cbn [option_map]. now rewrite render_double_bs.
Qed.

Lemma edge_view_dashed a b :
  edge_view (edge_of (conv (a, b, "style", "dashed"))) = (a, b, None, dashed).
Proof. reflexivity. Qed.

Lemma edges_eq base subs ids' d p :
  map edge_view (map edge_of (x_edge_list base subs ids' d p)) = dfa_edges base subs ids' p d.
Proof.
  unfold x_edge_list, dfa_edges. change (transitions d) with (iter_transitions d).
  rewrite !map_flat_map. apply flat_map_ext. intros [[from i] to].
  unfold x_edges, transition_edges. cbn [fst snd].
  destruct (nthN (d_inputs d) i) as [x|]; [|reflexivity].
  destruct x as [t' dd l|k l|cm l|cm l|].
  2:{ destruct (nthN subs k) as [sd|]; [|reflexivity]. destruct (assocN k ids') as [id|]; [|reflexivity].
      cbn [map]. rewrite edge_view_dashed. f_equal. rewrite !map_map. apply map_ext. intro a.
      now rewrite edge_view_dashed. }
  all: try destruct dd; cbn [display map]; now rewrite edge_view_label.
Qed.

Lemma Forall2_map_same {A B C} (R : B -> C -> Prop) (f : A -> B) (g : A -> C) l :
  (forall x, In x l -> R (f x) (g x)) -> Forall2 R (map f l) (map g l).
Proof.
  induction l as [|x r IH]; intro H; cbn; constructor.
  - apply H. now left.
  - apply IH. intros y Hy. apply H. now right.
Qed.

Lemma x_graph_equiv base c :
  wf_cdfa c = true -> gview_equiv (view (x_graph base c)) (graph_of_dfa base c).
Proof.
  intro Hwf. pose proof Hwf as Hwf'. unfold wf_cdfa in Hwf'. apply andb_true_iff in Hwf' as [Hm _].
  pose proof (wf_dfa_acc _ Hm) as Hacc.
  unfold gview_equiv, view, x_graph, graph_of_dfa.
  cbn [g_directed g_name g_nodes g_edges g_subs gv_directed gv_name gv_nodes gv_edges gv_clusters].
  fold (used base c).
  split; [reflexivity|]. split; [reflexivity|]. split; [|split].
  -
    rewrite map_app. apply Permutation_app.
    + apply (nodes_perm base "" (c_main c)); [constructor|exact Hacc].
    + rewrite map_flat_map. assert (Hq : forall q, In q (used base c) -> NoDup (d_accepting (snd q))).
      { intros q Hq. apply wf_dfa_acc. exact (proj1 (used_wf base c q Hwf Hq)). }
      induction (used base c) as [|q r IH]; [constructor|]. cbn [flat_map]. apply Permutation_app.
      * apply (nodes_perm base (sub_pre (fst q)) (snd q)); [constructor|apply Hq; now left].
      * apply IH. intros q' Hq'. apply Hq. now right.
  - (* edges: same order *)
    rewrite map_app, edges_eq, map_flat_map.
    assert (E : flat_map (fun x => map edge_view (sub_edges base x)) (used base c)
                = flat_map (fun p : N * dfa => dfa_edges base [] [] (sub_prefix (fst p)) (snd p)) (used base c)).
    { apply flat_map_ext. intro q. unfold sub_edges. apply edges_eq. }
    rewrite E. apply Permutation_refl.
  -
    rewrite map_map. apply Forall2_map_same. intros q Hq. unfold sub_cluster, cluster_view, cview_equiv, rendered.
    cbn [assoc]. change (String.eqb "label" "label") with true. cbn [option_map List.length].
    assert (Hpl : all_chars plain_char ("subword " ++ dec (fst q)) = true).
    { apply plain_app; [reflexivity|apply dec_plain]. }
    rewrite (render_plain _ (plain_no_bs _ Hpl)).
    split; [reflexivity|]. split; [reflexivity|]. split; [|reflexivity].
    unfold sub_names, names. apply Permutation_map. apply st_list_perm.
    apply wf_dfa_acc. exact (proj1 (used_wf base c q Hwf Hq)).
Qed.

Theorem dfa_dot_patched base c :
  wf_cdfa c = true ->
  exists text g, of_dfa_with patched base c = Ok text /\ read text = Some g
                 /\ gview_equiv (view g) (graph_of_dfa base c).
Proof.
  intro Hwf. exists (render_doc "dfa" (x_items base c)), (x_graph base c). split; [|split].
  - unfold of_dfa_with. now rewrite (dfa_items_ok base c Hwf).
  - rewrite (read_render_doc "dfa" (x_items base c)); [|split; reflexivity|apply x_items_ok].
    now rewrite (graph_of_x_items base c Hwf).
  - now apply x_graph_equiv.
Qed.

Lemma insert_sorted_present x l : Sorted.StronglySorted N.lt l -> In x l -> insert_sorted x l = l.
Proof.
  induction 1 as [|y r Hr IH Hy]; intro Hin; [destruct Hin|]. cbn.
  rewrite Forall_forall in Hy.
  destruct (x <? y)%N eqn:E1.
  - apply N.ltb_lt in E1. destruct Hin as [->|Hin]; [lia|]. specialize (Hy x Hin). lia.
  - destruct (x =? y)%N eqn:E2; [reflexivity|]. apply N.eqb_neq in E2.
    destruct Hin as [->|Hin]; [congruence|]. now rewrite IH.
Qed.

Lemma filter_insert_sorted (f : N -> bool) x l : f x = false -> filter f (insert_sorted x l) = filter f l.
Proof.
  intro Hx. induction l as [|y r IH]; cbn.
  - now rewrite Hx.
  - destruct (x <? y)%N; [cbn; now rewrite Hx|]. destruct (x =? y)%N; [reflexivity|]. cbn. now rewrite IH.
Qed.

Lemma node_lines_variant v base d p :
  phantom_zero d = false -> node_lines v base d p = node_lines patched base d p.
Proof.
  intro Hph. unfold node_lines.
  assert (E : filter (fun s => negb (memN s (d_accepting d)) && negb (s =? d_start d)%N) (get_all_states v d)
              = filter (fun s => negb (memN s (d_accepting d)) && negb (s =? d_start d)%N) (get_all_states patched d)).
  { unfold get_all_states. cbn [v_dead0 patched]. fold (bitmap (trans_states d)).
    destruct (v_dead0 v); [|reflexivity].
    unfold phantom_zero in Hph. apply negb_false_iff in Hph. apply memN_In in Hph.
    destruct (in_dec N.eq_dec 0%N (trans_states d)) as [Hin|Hn].
    - rewrite insert_sorted_present; [reflexivity|apply bitmap_sorted|now apply bitmap_in].
    - apply filter_insert_sorted. destruct Hph as [<-|Hph].
      + rewrite N.eqb_refl. cbn. apply andb_false_r.
      + apply in_app_or in Hph as [Hph|Hph]; [contradiction|]. apply memN_In in Hph. now rewrite Hph. }
  now rewrite E.
Qed.

Definition subacc_ok (base : N) (subs : list dfa) (d : dfa) : Prop :=
  base = 0%N \/ forall t k l sd, In t (iter_transitions d) ->
                                nthN (d_inputs d) (snd (fst t)) = Some (ISub k l) ->
                                nthN subs k = Some sd -> d_accepting sd = [].

(** the two ways a variant can agree with the fully patched one on the labels of [d] / on the dashed
    edges: by doing the same, or because the difference does not show on this automaton *)
Definition esc_agree (v : variant) (d : dfa) : Prop :=
  (forall s, v_escape v s = escape_dot s) \/ (v_escape v = escape_quotes /\ labels_need_escape d = false).
Definition sub_agree (v : variant) (base : N) (subs : list dfa) (d : dfa) : Prop :=
  v_subacc v = true \/ (v_subacc v = false /\ subacc_ok base subs d).

Lemma transition_lines_variant v base subs ids' d p t :
  In t (iter_transitions d) -> esc_agree v d -> sub_agree v base subs d ->
  transition_lines v base subs ids' d p t = transition_lines patched base subs ids' d p t.
Proof.
  intros Ht Hl Hs. destruct t as [[from i] to]. unfold transition_lines, get_input.
  destruct (nthN (d_inputs d) i) as [x|] eqn:Ex; [|reflexivity]. cbn [obind].
  assert (Hesc : forall y, (match y with ISub _ _ => False | _ => True end) -> y = x ->
                           match diagnostic_display_input y with
                           | Ok text => v_escape v text = v_escape patched text
                           | _ => True
                           end).
  { intros y Hy ->. destruct (diagnostic_display_input x) as [text| | |] eqn:Ed; try exact I.
    cbn [v_escape patched]. destruct Hl as [Hl|[Hv Hl]]; [apply Hl|]. rewrite Hv.
    apply escape_quotes_is_dot. unfold labels_need_escape in Hl.
    pose proof (proj1 (existsb_false _ _) Hl (from, i, to) Ht) as H. cbn [fst snd] in H. rewrite Ex in H.
    unfold display_has_backslash in H. destruct x; try (now elim Hy); now rewrite Ed in H. }
  destruct x as [t' dd l|k l|cm l|cm l|].
  2:{ destruct (lookup_sub subs k) as [sd| | |] eqn:El; try reflexivity. cbn [obind].
      destruct (assocN k ids') as [id|]; [|reflexivity]. do 2 f_equal.
      cbn [v_subacc patched]. destruct Hs as [->|[-> Hs]]; [reflexivity|]. destruct Hs as [->|Hs].
      - apply map_ext. intro a. now rewrite !N.add_0_r.
      - unfold lookup_sub in El. destruct (nthN subs k) as [sd'|] eqn:En; [|discriminate]. injection El as ->.
        rewrite (Hs _ k l sd Ht); [reflexivity|cbn [fst snd]; exact Ex|exact En]. }
  all: match goal with |- context [diagnostic_display_input ?y] => specialize (Hesc y I eq_refl);
         destruct (diagnostic_display_input y) as [text| | |] end;
    try reflexivity; cbn [obind]; now rewrite Hesc.
Qed.

Lemma oconcat_ext {A} (f g : N * N * N -> outcome unit (list A)) l :
  (forall t, In t l -> f t = g t) -> oconcat (map f l) = oconcat (map g l).
Proof.
  induction l as [|t r IH]; intro H; [reflexivity|]. cbn [map oconcat].
  rewrite (H t (or_introl eq_refl)), IH; [reflexivity|]. intros t' Ht'. apply H. now right.
Qed.

Lemma omap_ext {A B} (f g : A -> outcome unit B) l :
  (forall x, In x l -> f x = g x) -> omap f l = omap g l.
Proof.
  induction l as [|x r IH]; intro H; [reflexivity|]. cbn [omap].
  rewrite (H x (or_introl eq_refl)), IH; [reflexivity|]. intros y Hy. apply H. now right.
Qed.

Lemma do_to_dot_variant v base subs d p n1 n2 :
  inputs_in_range d = true ->
  esc_agree v d -> phantom_zero d = false -> sub_agree v base subs d ->
  (forall k id sd, In (k, id) (sub_ids base d) -> nthN subs k = Some sd ->
                   n1 sd (dec id ++ "_") = n2 sd (dec id ++ "_")) ->
  do_to_dot v base subs d p n1 = do_to_dot patched base subs d p n2.
Proof.
  intros Hr Hl Hph Hs Hn. unfold do_to_dot. rewrite (get_subwords_spec d base Hr). cbn [obind].
  rewrite (node_lines_variant v base d p Hph).
  rewrite (omap_ext _ (fun p0 : N * N =>
                         do sd <- lookup_sub subs (fst p0);
                         do inner <- n2 sd (dec (snd p0) ++ "_");
                         Ok (cluster_block p (snd p0) inner))).
  2:{ intros [k id] Hin. cbn [fst snd]. unfold lookup_sub. destruct (nthN subs k) as [sd|] eqn:E; [|reflexivity].
      cbn [obind]. now rewrite (Hn k id sd Hin E). }
  rewrite (oconcat_ext _ (transition_lines patched base subs (sub_ids base d) d p)); [reflexivity|].
  intros t Ht. now apply transition_lines_variant.
Qed.

Lemma used_subs_in c t k l sd :
  In t (iter_transitions (c_main c)) -> nthN (d_inputs (c_main c)) (snd (fst t)) = Some (ISub k l) ->
  nthN (c_subs c) k = Some sd -> In sd (used_subs c).
Proof.
  intros Ht E Es. unfold used_subs. apply in_flat_map. exists t. split; [exact Ht|]. rewrite E, Es. now left.
Qed.

Definition variant_agrees (v : variant) (base : N) (c : cdfa) : Prop :=
  known_phantom c = false
  /\ ((forall s, v_escape v s = escape_dot s) \/ (v_escape v = escape_quotes /\ known_labels c = false))
  /\ (v_subacc v = true \/ (v_subacc v = false /\ known_subacc base c = false)).

Theorem dfa_dot_variant_agree v base c :
  wf_cdfa c = true -> variant_agrees v base c ->
  of_dfa_with v base c = of_dfa_with patched base c.
Proof.
  intros Hwf [Hph [Hesc Hsub]].
  unfold known_phantom in Hph. apply orb_false_iff in Hph as [Hpm Hps].
  pose proof Hwf as Hwf'. unfold wf_cdfa, wf_dfa in Hwf'. apply andb_true_iff in Hwf' as [Hm _].
  apply andb_true_iff in Hm as [Hr _].
  assert (Hesc_main : esc_agree v (c_main c)).
  { destruct Hesc as [H|[Hv H]]; [now left|right]. split; [exact Hv|]. unfold known_labels in H.
    now apply orb_false_iff in H as [H _]. }
  assert (Hesc_sub : forall sd, In sd (used_subs c) -> esc_agree v sd).
  { intros sd Hu. destruct Hesc as [H|[Hv H]]; [now left|right]. split; [exact Hv|]. unfold known_labels in H.
    apply orb_false_iff in H as [_ H]. exact (proj1 (existsb_false _ _) H sd Hu). }
  unfold of_dfa_with, dfa_items. f_equal.
  rewrite (do_to_dot_variant v base (c_subs c) (c_main c) ""
             (fun sd p => do_to_dot v base [] sd p
                            (fun _ _ => Panic "within-word automaton inside a within-word automaton"))
             (fun sd p => do_to_dot patched base [] sd p
                            (fun _ _ => Panic "within-word automaton inside a within-word automaton")));
    [reflexivity|exact Hr|exact Hesc_main|exact Hpm| |].
  -
    destruct Hsub as [H|[Hv Hsa]]; [now left|right]. split; [exact Hv|].
    unfold known_subacc in Hsa. apply andb_false_iff in Hsa as [Hb|Hacc].
    + left. apply negb_false_iff in Hb. now apply N.eqb_eq in Hb.
    + right. intros t k l sd Ht E Es. pose proof (proj1 (existsb_false _ _) Hacc sd (used_subs_in c t k l sd Ht E Es)) as H.
      cbn in H. destruct (d_accepting sd); [reflexivity|discriminate H].
  -
    intros k id sd Hin Es. destruct (sub_ids_used c base k id Hin) as [t [l [Ht E]]].
    pose proof (used_subs_in c t k l sd Ht E Es) as Hu.
    destruct (wf_used c t k l Hwf Ht E) as [sd' [Es' [Hw Hns]]]. rewrite Es in Es'. injection Es' as <-.
    unfold wf_dfa in Hw. apply andb_true_iff in Hw as [Hrs _].
    apply do_to_dot_variant.
    + exact Hrs.
    + exact (Hesc_sub sd Hu).
    + exact (proj1 (existsb_false _ _) Hps sd Hu).
    + assert (Hnone : forall t' k' l' sd', In t' (iter_transitions sd) ->
                        nthN (d_inputs sd) (snd (fst t')) = Some (ISub k' l') -> nthN [] k' = Some sd' -> d_accepting sd' = []).
      { intros t' k' l' sd' Ht' E'. exfalso.
        unfold no_sub_trans in Hns. rewrite forallb_forall in Hns. specialize (Hns t' Ht'). now rewrite E' in Hns. }
      destruct (v_subacc v) eqn:Ev; [left; exact Ev|right]. split; [exact Ev|]. right. exact Hnone.
    + intros k' id' sd' Hin'. exfalso. unfold sub_ids, sub_order in Hin'.
      change (transitions sd) with (iter_transitions sd) in Hin'. fold (uses sd (iter_transitions sd)) in Hin'.
      rewrite (uses_nil sd Hns) in Hin'. exact Hin'.
Qed.

Theorem dfa_dot_variant v base c :
  wf_cdfa c = true -> variant_agrees v base c ->
  exists text g, of_dfa_with v base c = Ok text /\ read text = Some g
                 /\ gview_equiv (view g) (graph_of_dfa base c).
Proof. intros Hwf Hv. rewrite (dfa_dot_variant_agree v base c Hwf Hv). now apply dfa_dot_patched. Qed.

(** the code before commit 0e66d33, outside its three classes *)
Lemma old_agrees base c : known_C16_old base c = false -> variant_agrees old base c.
Proof.
  unfold known_C16_old. intro Hk. apply orb_false_iff in Hk as [Hk Hph]. apply orb_false_iff in Hk as [Hl Hsa].
  split; [exact Hph|]. split; [right; now split|right; now split].
Qed.

Theorem dfa_dot_old_agree base c :
  wf_cdfa c = true -> known_C16_old base c = false ->
  of_dfa_with old base c = of_dfa_with patched base c.
Proof. intros Hwf Hk. exact (dfa_dot_variant_agree old base c Hwf (old_agrees base c Hk)). Qed.

Theorem dfa_dot_old base c :
  wf_cdfa c = true -> known_C16_old base c = false ->
  exists text g, of_dfa_with old base c = Ok text /\ read text = Some g
                 /\ gview_equiv (view g) (graph_of_dfa base c).
Proof. intros Hwf Hk. exact (dfa_dot_variant old base c Hwf (old_agrees base c Hk)). Qed.

(** the [current] printer differs from the [patched] one only by the unconditional state 0 of
    get_all_states, which does not show when 0 is a state of every automaton printed *)
Theorem dfa_dot_current base c :
  wf_cdfa c = true -> known_phantom c = false ->
  exists text g, of_dfa base c = Ok text /\ read text = Some g
                 /\ gview_equiv (view g) (graph_of_dfa base c).
Proof.
  intros Hwf Hph. apply (dfa_dot_variant current base c Hwf). split; [exact Hph|]. split; [now left|now left].
Qed.

Lemma starts_at_zero_no_phantom c : starts_at_zero c = true -> known_phantom c = false.
Proof.
  unfold starts_at_zero, known_phantom, phantom_zero. intro H. apply andb_true_iff in H as [H1 H2].
  apply N.eqb_eq in H1. apply orb_false_iff. split.
  - rewrite H1. cbn [memN existsb]. reflexivity.
  - apply existsb_false. intros sd Hsd. rewrite forallb_forall in H2. specialize (H2 sd Hsd).
    apply N.eqb_eq in H2. rewrite H2. reflexivity.
Qed.

Theorem dfa_dot_current_min base c :
  wf_cdfa c = true -> starts_at_zero c = true ->
  exists text g, of_dfa base c = Ok text /\ read text = Some g
                 /\ gview_equiv (view g) (graph_of_dfa base c).
Proof. intros Hwf Hz. apply dfa_dot_current; [exact Hwf|now apply starts_at_zero_no_phantom]. Qed.
