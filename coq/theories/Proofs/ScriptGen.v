(** C04, every shell: the line-by-line reading of an emitted script, generic in the shell.

    What the statement reader of a shell ([ScriptRead.stmt_of sh]) makes of one line ([line_semG]), of a
    template cut into its lines ([template_lines]), and how scanned pieces of text compose ([scansE]).
    The lemmas about lines, templates and names that do not mention a shell are those of BashScript.v. *)
From Coq Require Import DecimalString.
From CG Require Import Base.Prelude Model.Ast Model.Dfa Model.Tpl Model.Quote Model.Tables Model.EmitBash Model.EmitData
     Spec.ShellDQ Spec.ScriptRead Proofs.QuoteRT Proofs.TablesSound Proofs.BashCodec Proofs.BashScript.
Open Scope N_scope.
Open Scope list_scope.

(** a line of a template, rendered without the empty string that [render] leaves at its end *)
Definition seg_text (env : list (string * string)) (s : seg) : string :=
  match s with
  | Text t => t
  | Hole n => match assoc n env with Some v => v | None => append "{?" (append n "}") end
  end.

Fixpoint render_line (env : list (string * string)) (l : list seg) : string :=
  match l with
  | [] => EmptyString
  | [s] => seg_text env s
  | s :: r => append (seg_text env s) (render_line env r)
  end.

Lemma render_line_eq env l : render_line env l = render env l.
Proof.
  induction l as [|s [|s' r] IH]; [reflexivity | destruct s; cbn [render_line render seg_text]; rewrite append_nil_r; reflexivity|].
  change (render_line env (s :: s' :: r)) with (append (seg_text env s) (render_line env (s' :: r))).
  rewrite IH. destruct s; reflexivity.
Qed.

Lemma render_snoc_nl env t X : append (render env t) (append nl X) = append (render env (t ++ seg_nl)) X.
Proof. rewrite render_app. cbn [render seg_nl]. rewrite append_nil_r, append_assoc. reflexivity. Qed.

Lemma fmtln_unit t env : fmtln t env = render env (t ++ seg_nl).
Proof. unfold fmtln. rewrite render_app. cbn [render seg_nl]. rewrite append_nil_r. reflexivity. Qed.

Section Gen.
Variable sh : shell.

Definition line_semG (cmd : string) (l : string) (o : option stmt) : Prop :=
  no_nl l = true
  /\ (forall rest, stmt_of sh (append l (append nl rest)) = match o with Some st => Some (st, rest) | None => None end)
  /\ match o with Some (SFunc n) => is_cmd_fn cmd n = false | _ => True end.

Lemma scan_lines_semG cmd ls os :
  Forall2 (line_semG cmd) ls os ->
  forall k rest, scan (List.length ls + k) sh cmd (append (unlines ls) rest) = stmts_of os ++ scan k sh cmd rest.
Proof.
  induction 1 as [|l o ls os [Hnl [Hrd Hfn]] _ IH]; intros k rest; [reflexivity|].
  unfold unlines. cbn [map sconcat List.length Nat.add]. rewrite !append_assoc. cbn [scan].
  destruct (l ++ nl ++ sconcat (map (fun x => x ++ nl) ls) ++ rest)%string eqn:E.
  - destruct l; discriminate E.
  - rewrite <- E. rewrite Hrd. destruct o as [st|].
    + cbn [stmts_of flat_map]. fold (stmts_of os). change (sconcat (map (fun x => x ++ nl) ls))%string with (unlines ls).
      destruct st; try (cbn [app]; f_equal; apply IH). rewrite Hfn. cbn [app]. f_equal. apply IH.
    + rewrite (line_app l _ Hnl). cbn [stmts_of flat_map app]. fold (stmts_of os). apply IH.
Qed.

Lemma skipped_line cmd p x :
  (forall y, stmt_of sh (append p y) = None) -> no_nl (append p x) = true -> line_semG cmd (append p x) None.
Proof. intros Hp H. split; [exact H|]. split; [|exact I]. intros rest. rewrite append_assoc. apply Hp. Qed.

(** the header of a function that is not the function of an external command *)
Lemma header_semG cmd l suf :
  no_nl l = true /\ (forall rest, stmt_of sh (append l (append nl rest)) = Some (SFunc (append "_" (append cmd suf)), rest)) ->
  strip "_cmd_" suf = None -> line_semG cmd l (Some (SFunc (append "_" (append cmd suf)))).
Proof. intros [H1 H2] Hs. split; [exact H1|]. split; [exact H2|]. apply is_cmd_fn_suffix, Hs. Qed.

(** A line indented deeper than any statement of the shell ([dp]) is skipped, whatever it holds; another
    line without holes is evaluated ([closed_outcomeG]); the few other lines carry a hole at statement
    indentation and take what the reader makes of them from the list [sp], in order. *)
Variable dp : string.
Hypothesis deep_noneG : forall x, stmt_of sh (append dp x) = None.

Definition is_deepG (l : list seg) : bool :=
  match l with Text t :: _ => is_prefix dp t | _ => false end.

Definition closed_outcomeG (s : string) : option stmt :=
  match stmt_of sh (append s nl) with Some (st, _) => Some st | None => None end.

Inductive line_kind := Deep | Plain (o : option stmt) | Open.

Definition kind_of (l : list seg) : line_kind :=
  if is_deepG l then Deep else if is_closed l then Plain (closed_outcomeG (render [] l)) else Open.

Definition keeps (rest : string) (o : option stmt) : option (stmt * string) :=
  match o with Some st => Some (st, rest) | None => None end.

Definition opens_fn (o : option stmt) : bool := match o with Some (SFunc _) => true | _ => false end.

Definition holes_ok (env : list (string * string)) (l : list seg) : bool :=
  forallb (fun s => match s with Text t => no_nl t | Hole n => if assoc n env then true else false end) l.

(** one pass over the lines: are they all well-formed; the texts of the evaluated lines, the open lines,
    and the kind of every line *)
Fixpoint lines_facts (env : list (string * string)) (ls : list (list seg))
  : bool * list string * list (list seg) * list line_kind :=
  match ls with
  | [] => (true, [], [], [])
  | l :: ls' =>
      let '(ok, pl, ol, ks) := lines_facts env ls' in
      match kind_of l with
      | Deep => (holes_ok env l && ok, pl, ol, Deep :: ks)
      | Plain o => (no_nl (render [] l) && negb (opens_fn o) && ok, render [] l :: pl, ol, Plain o :: ks)
      | Open => (ok, pl, l :: ol, Open :: ks)
      end
  end.

Definition plain_outcomes (ks : list line_kind) : list (option stmt) :=
  flat_map (fun k => match k with Plain o => [o] | _ => [] end) ks.

Fixpoint outcomes (ks : list line_kind) (sp : list (option stmt)) : list (option stmt) :=
  match ks with
  | [] => []
  | Deep :: ks' => None :: outcomes ks' sp
  | Plain o :: ks' => o :: outcomes ks' sp
  | Open :: ks' => match sp with o :: sp' => o :: outcomes ks' sp' | [] => [] end
  end.

Definition env_no_nl (env : list (string * string)) : Prop := Forall (fun v => no_nl v = true) (map snd env).

Lemma holes_ok_no_nl env l : env_no_nl env -> holes_ok env l = true -> no_nl (render env l) = true.
Proof.
  intros He. induction l as [|[t|n] l IH]; cbn [holes_ok forallb render]; intros H; [reflexivity | |];
    apply andb_prop in H; destruct H as [H1 H2]; rewrite no_nl_app, (IH H2), andb_true_r; [exact H1|].
  clear -He H1. induction env as [|[k v] env IH]; [discriminate H1|]. cbn [assoc] in *. inversion He; subst.
  destruct (String.eqb n k); auto.
Qed.

(** The evaluated lines are all evaluated by the one equation [Hv], with the text after the line as a
    variable: each of them is read, or skipped, whatever follows it. *)
Lemma template_lines cmd env ls pl ol ks sp :
  env_no_nl env ->
  lines_facts env ls = (true, pl, ol, ks) ->
  (forall rest, map (fun s => stmt_of sh (append s (append nl rest))) pl = map (keeps rest) (plain_outcomes ks)) ->
  Forall2 (fun l o => line_semG cmd (render_line env l) o) ol sp ->
  Forall2 (line_semG cmd) (map (render env) ls) (outcomes ks sp).
Proof.
  intros He. revert pl ol ks sp. induction ls as [|l ls IH]; intros pl ol ks sp Hf Hv Ho.
  - injection Hf as <- <- <-. constructor.
  - cbn [lines_facts] in Hf. destruct (lines_facts env ls) as [[[ok pl'] ol'] ks']. specialize (IH pl' ol' ks').
    unfold kind_of in Hf. cbn [map]. destruct (is_deepG l) eqn:D; [|destruct (is_closed l) eqn:C]; injection Hf as Hok <- <- <-.
    + apply andb_prop in Hok. destruct Hok as [Hl ->]. constructor; [|apply IH; auto].
      pose proof (holes_ok_no_nl env l He Hl) as Hn.
      destruct l as [|[t|n] l]; try discriminate D. cbn [is_deepG] in D. destruct (is_prefix_split _ _ D) as [r ->].
      cbn [render] in *. rewrite append_assoc in *. apply skipped_line; assumption.
    + apply andb_prop in Hok. destruct Hok as [Hl ->]. apply andb_prop in Hl. destruct Hl as [Hn Hfn].
      cbn [plain_outcomes flat_map app map] in Hv. constructor.
      * rewrite (closed_render env l C). split; [exact Hn|]. split.
        -- intros rest. specialize (Hv rest). injection Hv as Hv _. exact Hv.
        -- destruct (closed_outcomeG (render [] l)) as [[]|]; try exact I. discriminate Hfn.
      * apply IH; [reflexivity | intros rest; specialize (Hv rest); injection Hv as _ Hv; exact Hv | exact Ho].
    + subst ok. inversion Ho; subst. constructor; [rewrite <- render_line_eq; assumption | apply IH; auto].
Qed.

Lemma blank_semG cmd : stmt_of sh nl = None -> (forall rest, stmt_of sh (append nl rest) = None) -> line_semG cmd EmptyString None.
Proof. intros _ H. split; [reflexivity|]. split; [exact H | exact I]. Qed.

Definition unit_scans_envG (command : string) (env : list (string * string)) (u : list seg) (sts : list stmt) : Prop :=
  forall k rest,
    scan (List.length (region_lines u) + k) sh command (append (render env u) rest)
    = sts ++ scan k sh command rest.

Definition scansG (cmd : string) (n : nat) (text : string) (sts : list stmt) : Prop :=
  (n <= String.length text)%nat
  /\ forall k rest, scan (n + k) sh cmd (append text rest) = sts ++ scan k sh cmd rest.

Lemma scansG_nil cmd : scansG cmd 0 EmptyString [].
Proof. split; [apply Nat.le_refl | reflexivity]. Qed.

Lemma scansG_app cmd n1 t1 s1 n2 t2 s2 :
  scansG cmd n1 t1 s1 -> scansG cmd n2 t2 s2 -> scansG cmd (n1 + n2) (append t1 t2) (s1 ++ s2).
Proof.
  intros [L1 H1] [L2 H2]. split.
  - rewrite length_append. lia.
  - intros k rest. rewrite append_assoc, <- Nat.add_assoc, H1, H2, app_assoc. reflexivity.
Qed.

Definition scansE (cmd : string) (text : string) (sts : list stmt) : Prop := exists n, scansG cmd n text sts.

Lemma scansE_nil cmd : scansE cmd EmptyString [].
Proof. exists 0%nat. apply scansG_nil. Qed.

Lemma scansE_app cmd t1 s1 t2 s2 : scansE cmd t1 s1 -> scansE cmd t2 s2 -> scansE cmd (append t1 t2) (s1 ++ s2).
Proof. intros [n1 H1] [n2 H2]. exists (n1 + n2)%nat. apply scansG_app; assumption. Qed.

Lemma scansE_cons cmd t1 st t2 s2 : scansE cmd t1 [st] -> scansE cmd t2 s2 -> scansE cmd (append t1 t2) (st :: s2).
Proof. apply (scansE_app cmd t1 [st]). Qed.

Lemma scansE_if cmd (b : bool) t s : scansE cmd t s -> scansE cmd (if b then t else EmptyString) (if b then s else []).
Proof. destruct b; [auto | intros _; apply scansE_nil]. Qed.

Lemma scansE_if2 cmd (b : bool) t1 s1 t2 s2 :
  scansE cmd t1 s1 -> scansE cmd t2 s2 -> scansE cmd (if b then t1 else t2) (if b then s1 else s2).
Proof. destruct b; auto. Qed.

Lemma unit_scansG cmd env u sts :
  last (tpl_lines_go [] u) [Text "x"] = [] ->
  unit_scans_envG cmd env u sts -> scansE cmd (render env u) sts.
Proof.
  intros Hl H. exists (List.length (region_lines u)). split; [|exact H]. rewrite (render_region env u Hl). unfold render_lines.
  rewrite <- (map_length (render env) (region_lines u)). apply length_unlines_ge.
Qed.

(** a template that ends with a newline, read line by line: it is cut into its lines once *)
Definition unit_facts (env : list (string * string)) (u : list seg) :=
  let ll := tpl_lines_go [] u in (last ll [Text "x"], lines_facts env (removelast ll)).

Lemma unit_lines cmd env u pl ol ks sp sts :
  env_no_nl env ->
  unit_facts env u = ([], (true, pl, ol, ks)) ->
  (forall rest, map (fun s => stmt_of sh (append s (append nl rest))) pl = map (keeps rest) (plain_outcomes ks)) ->
  Forall2 (fun l o => line_semG cmd (render_line env l) o) ol sp ->
  stmts_of (outcomes ks sp) = sts ->
  unit_scans_envG cmd env u sts.
Proof.
  intros He Hf Hv Ho <- k rest. injection Hf as Hl Hf. rewrite (render_region env u Hl). unfold render_lines.
  rewrite <- (map_length (render env) (region_lines u)). apply scan_lines_semG. apply (template_lines cmd env _ pl ol); assumption.
Qed.

Lemma unit_scans cmd env u pl ol ks sp sts :
  env_no_nl env ->
  unit_facts env u = ([], (true, pl, ol, ks)) ->
  (forall rest, map (fun s => stmt_of sh (append s (append nl rest))) pl = map (keeps rest) (plain_outcomes ks)) ->
  Forall2 (fun l o => line_semG cmd (render_line env l) o) ol sp ->
  stmts_of (outcomes ks sp) = sts ->
  scansE cmd (render env u) sts.
Proof.
  intros He Hf Hv Ho Hs. apply unit_scansG; [injection Hf as Hl _; exact Hl | apply (unit_lines cmd env u pl ol ks sp); assumption].
Qed.

Lemma unit_scans_ln cmd env t pl ol ks sp sts :
  env_no_nl env ->
  unit_facts env (t ++ seg_nl) = ([], (true, pl, ol, ks)) ->
  (forall rest, map (fun s => stmt_of sh (append s (append nl rest))) pl = map (keeps rest) (plain_outcomes ks)) ->
  Forall2 (fun l o => line_semG cmd (render_line env l) o) ol sp ->
  stmts_of (outcomes ks sp) = sts ->
  scansE cmd (fmtln t env) sts.
Proof. rewrite fmtln_unit. apply unit_scans. Qed.

Lemma unit_scans_closed cmd env u sts : is_closed u = true -> unit_scans_envG cmd [] u sts -> unit_scans_envG cmd env u sts.
Proof. intros C H k rest. rewrite (closed_render env u C). apply H. Qed.

Lemma scansG_line cmd l o : line_semG cmd l o -> scansE cmd (append l nl) (stmts_of [o]).
Proof.
  intros H. exists 1%nat. split.
  - rewrite length_append. change (String.length nl) with 1%nat. lia.
  - intros k rest. pose proof (scan_lines_semG cmd [l] [o] (Forall2_cons _ _ H (Forall2_nil _)) k rest) as E.
    unfold unlines in E. cbn [map sconcat] in E. rewrite append_nil_r in E. exact E.
Qed.

(** data lines (the line includes its newline) *)
Definition reads_asG (ln : string) (st : stmt) : Prop :=
  ln <> EmptyString /\ not_func st /\ forall rest, stmt_of sh (append ln rest) = Some (st, rest).

Lemma reads_scansG cmd text sts : reads_lines sh text sts -> scansE cmd text sts.
Proof.
  intros H. exists (List.length sts). split; [|intros k rest; apply reads_scan; exact H].
  induction H as [|ln st text sts [Hne _] _ IH]; [apply Nat.le_refl|]. cbn [List.length].
  rewrite length_append. destruct ln; [congruence|]. cbn [String.length]. lia.
Qed.

Lemma reads_scans1 cmd ln st : reads_as sh ln st -> scansE cmd ln [st].
Proof. intros H. apply reads_scansG, reads_one, H. Qed.

Lemma data_line cmd l ln st : ln = append l nl -> reads_as sh ln st -> no_nl l = true -> line_semG cmd l (Some st).
Proof.
  intros -> [_ [Hf H]] Hn. split; [exact Hn|]. split; [intros rest; rewrite <- append_assoc; apply H|].
  destruct st; try exact I. destruct Hf.
Qed.

(** the first line of a script is a comment *)
Lemma sig_scansG cmd sig :
  (forall y, stmt_of sh (append "# " y) = None) -> no_nl sig = true -> scansE cmd (append "# " (append sig nl)) [].
Proof.
  intros Hh H. rewrite <- append_assoc. apply (scansG_line cmd (append "# " sig) None), skipped_line; assumption.
Qed.

Lemma scansE_concat cmd texts stss :
  Forall2 (scansE cmd) texts stss -> scansE cmd (sconcat texts) (List.concat stss).
Proof. induction 1; cbn [sconcat List.concat]; [apply scansE_nil | apply scansE_app; assumption]. Qed.

Lemma omap_scansE {A} cmd (f : A -> Tables.res string) (g : A -> Tables.res (list stmt)) l texts :
  (forall x text, f x = Ok text -> exists sts, g x = Ok sts /\ scansE cmd text sts) ->
  omap f l = Ok texts ->
  exists stss, omap g l = Ok stss /\ scansE cmd (sconcat texts) (List.concat stss).
Proof.
  intros Hfg H. destruct (omap_rel (scansE cmd) f g l texts Hfg H) as [stss [Hs HR]].
  exists stss. split; [exact Hs | apply scansE_concat, HR].
Qed.

Lemma scan_emptyG k cmd : scan k sh cmd EmptyString = [].
Proof. destruct k; reflexivity. Qed.

Lemma scansE_read cmd text sts : scansE cmd text sts -> read_stmts sh cmd text = sts.
Proof.
  intros [n [Hn H]]. unfold read_stmts.
  replace (S (String.length text)) with (n + (S (String.length text) - n))%nat by lia.
  rewrite <- (append_nil_r text) at 2. rewrite H, scan_emptyG, app_nil_r. reflexivity.
Qed.

(** a script with two fallible parts, each of them related to what stands for it in the statement list *)
Lemma read_two {X1 Y1 X2 Y2} cmd (R1 : X1 -> Y1 -> Prop) (R2 : X2 -> Y2 -> Prop)
      (p1 : Tables.res X1) (g1 : Tables.res Y1) (p2 : Tables.res X2) (g2 : Tables.res Y2) body stmts s :
  (forall x, p1 = Ok x -> exists y, g1 = Ok y /\ R1 x y) ->
  (forall x, p2 = Ok x -> exists y, g2 = Ok y /\ R2 x y) ->
  (forall x1 y1 x2 y2, R1 x1 y1 -> R2 x2 y2 -> scansE cmd (body x1 x2) (stmts y1 y2)) ->
  (do x1 <- p1; do x2 <- p2; Ok (body x1 x2)) = Ok s ->
  exists sts, (do y1 <- g1; do y2 <- g2; Ok (stmts y1 y2)) = Ok sts /\ read_stmts sh cmd s = sts.
Proof.
  intros H1 H2 Hbody H. apply obind_ok in H. destruct H as [x1 [Hx1 H]]. apply obind_ok in H. destruct H as [x2 [Hx2 H]].
  destruct (H1 x1 Hx1) as [y1 [-> Hr1]]. destruct (H2 x2 Hx2) as [y2 [-> Hr2]]. cbn [obind].
  eexists. split; [reflexivity|]. apply Ok_inj in H. subst s. apply scansE_read, Hbody; assumption.
Qed.

Definition body_okG (body : string) : Prop :=
  forallb (fun l => negb (String.eqb l (body_end sh))) (split_nl body) = true.

Lemma body_end_no_nl : no_nl (body_end sh) = true.
Proof. destruct sh; reflexivity. Qed.

Lemma body_lines_unlinesG ls T :
  forallb no_nl ls = true -> forallb (fun l => negb (String.eqb l (body_end sh))) ls = true ->
  forall fuel, (List.length ls < fuel)%nat ->
  body_lines fuel (body_end sh) (append (unlines ls) (append (body_end sh) (append nl T))) = Some (ls, T).
Proof.
  induction ls as [|l ls IH]; intros Hn Hb fuel Hf.
  - destruct fuel; [lia|]. cbn [unlines map sconcat append body_lines].
    rewrite (line_app (body_end sh) T body_end_no_nl). rewrite String.eqb_refl. reflexivity.
  - destruct fuel; [cbn in Hf; lia|]. cbn [forallb] in Hn, Hb. apply andb_prop in Hn, Hb.
    destruct Hn as [Hn1 Hn2], Hb as [Hb1 Hb2]. unfold unlines. cbn [map sconcat]. rewrite !append_assoc.
    cbn [body_lines]. rewrite (line_app l _ Hn1). apply negb_true_iff in Hb1. rewrite Hb1.
    destruct (l ++ nl ++ sconcat (map (fun x => x ++ nl) ls) ++ body_end sh ++ nl ++ T)%string eqn:E;
      [destruct l; discriminate E|].
    change (sconcat (map (fun x => x ++ nl) ls))%string with (unlines ls).
    rewrite (IH Hn2 Hb2 fuel) by (cbn in Hf; lia). reflexivity.
Qed.

Lemma scan_unfoldG k cmd s :
  scan (S k) sh cmd s =
  match s with
  | EmptyString => []
  | _ =>
      match stmt_of sh s with
      | Some (SFunc n, r) =>
          if is_cmd_fn cmd n then
            match read_body sh r with
            | Some (b, r') => SFunc n :: SBody b :: SEnd :: scan k sh cmd r'
            | None => SFunc n :: scan k sh cmd r
            end
          else SFunc n :: scan k sh cmd r
      | Some (st, r) => st :: scan k sh cmd r
      | None => let (_, r) := line s in scan k sh cmd r
      end
  end.
Proof. reflexivity. Qed.

Hypothesis blank_none : forall rest, stmt_of sh (append nl rest) = None.

Lemma blank_line_scanG cmd k rest : scan (S k) sh cmd (append nl rest) = scan k sh cmd rest.
Proof.
  pose proof (scan_lines_semG cmd [EmptyString] [None]) as H.
  assert (L : line_semG cmd EmptyString None) by (split; [reflexivity | split; [exact blank_none | exact I]]).
  specialize (H (Forall2_cons _ _ L (Forall2_nil _)) k rest). exact H.
Qed.

Lemma blank_scansG cmd : scansE cmd nl [].
Proof.
  apply (scansG_line cmd EmptyString None). split; [reflexivity | split; [exact blank_none | exact I]].
Qed.

Definition cmd_fn_textG (hdr body : string) : string :=
  append hdr (append nl (append "    " (append body (append nl (append (body_end sh) (append nl nl)))))).

Lemma cmd_fn_scansG cmd hdr fname body :
  hdr <> EmptyString ->
  (forall rest, stmt_of sh (append hdr (append nl rest)) = Some (SFunc fname, rest)) ->
  is_cmd_fn cmd fname = true -> body_okG body ->
  scansE cmd (cmd_fn_textG hdr body) [SFunc fname; SBody body; SEnd].
Proof.
  intros Hne Hrd Hfn Hb. exists 2%nat. split; [unfold cmd_fn_textG; rewrite !length_append; cbn [String.length]; destruct hdr; [congruence|]; cbn [String.length]; lia|].
  intros k rest. unfold cmd_fn_textG.
  set (R := ("    " ++ body ++ nl ++ body_end sh ++ nl ++ nl)%string).
  rewrite (append_assoc hdr). rewrite (append_assoc nl R rest).
  change (2 + k)%nat with (S (S k)). rewrite scan_unfoldG.
  destruct (hdr ++ nl ++ R ++ rest)%string eqn:E; [destruct hdr; [congruence | discriminate E]|]. rewrite <- E. clear E.
  rewrite Hrd, Hfn.
  unfold read_body, R. rewrite !append_assoc. rewrite strip_app.
  rewrite <- (append_assoc body nl), <- (unlines_split body).
  rewrite (body_lines_unlinesG (split_nl body) (nl ++ rest)%string (split_nl_no_nl body) Hb).
  - rewrite join_lines_join, join_split_nl, blank_line_scanG. reflexivity.
  - rewrite unlines_split. rewrite !length_append. pose proof (length_unlines_ge (split_nl body)) as L.
    rewrite unlines_split, length_append in L. change (String.length nl) with 1%nat in *. lia.
Qed.

Lemma cmd_fns_scansG cmd (hdr fname : N -> string) (text : N * string -> string) (body : string -> string) ics :
  (forall ic, text ic = cmd_fn_textG (hdr (fst ic)) (body (snd ic))) ->
  (forall id, hdr id <> EmptyString) ->
  (forall id rest, stmt_of sh (append (hdr id) (append nl rest)) = Some (SFunc (fname id), rest)) ->
  (forall id, is_cmd_fn cmd (fname id) = true) ->
  Forall (fun ic => body_okG (body (snd ic))) ics ->
  scansE cmd (sconcat (map text ics)) (flat_map (fun ic => [SFunc (fname (fst ic)); SBody (body (snd ic)); SEnd]) ics).
Proof.
  intros Ht Hne Hrd Hfn. induction 1 as [|ic ics Hb _ IH]; [apply scansE_nil|].
  cbn [map sconcat flat_map]. rewrite Ht. apply scansE_app; [|exact IH]. apply cmd_fn_scansG; auto.
Qed.
End Gen.

(** [unit_by D open] proves that a template is scanned, by [unit_scans] (by [unit_scans_ln] for a template
    printed with its newline, by [unit_lines] when the goal counts the fuel): the facts about the template are computed; [D] says that a deep line is no
    statement, and [open] proves the open lines ([open_line L] for each of them, in order, then
    [constructor]); [plain_unit D] is for a template that has none.  The values of the environment
    are the command name, numbers and fixed texts. *)
Ltac env_no_nl_tac :=
  repeat (apply Forall_cons; [first [apply no_nl_sN | apply name_ok_no_nl; assumption | reflexivity]|]); apply Forall_nil.
Ltac unit_by D open :=
  first [eapply (unit_scans_ln _ _ D) | eapply (unit_scans _ _ D) | eapply (unit_lines _ _ D)];
  [ env_no_nl_tac | vm_compute; reflexivity | intro; vm_compute; reflexivity | open | reflexivity ].
Ltac open_line L := apply Forall2_cons; [exact L|].
Ltac plain_unit D := unit_by D ltac:(constructor).

(** ** groups of within-word automata ([EmitData.group_block] is shared by fish, zsh and pwsh) *)
Section Groups.
Variable sh : shell.
Variable cmd : string.
Variable wrapper : N -> tables -> string.
Variable shape_fn : N -> tables -> string.
Variable shape_wrapper : N -> N -> tables -> string.
Variable w_st : N -> tables -> list stmt.
Variable s_st : N -> tables -> list stmt.
Variable sw_st : N -> N -> tables -> list stmt.
Variable Pt : tables -> Prop.     (* what the literal lists have to satisfy (C07: pwsh) *)
Hypothesis w_ok : forall id t, Pt t -> scansE sh cmd (append (wrapper id t) nl) (w_st id t).
Hypothesis s_ok : forall sid t, scansE sh cmd (append (shape_fn sid t) nl) (s_st sid t).
Hypothesis sw_ok : forall id sid t, Pt t -> scansE sh cmd (append (shape_wrapper id sid t) nl) (sw_st id sid t).

Definition all_tables_ok (a : alltables) : Prop := forall id t, tables_of a id = Ok t -> Pt t.

Definition group_stmtsG (a : alltables) (sid : N) (group : list N) : res (list stmt) :=
  match group with
  | [] => Panic "chunk_by: empty chunk"
  | [id] => do t <- tables_of a id; Ok (w_st id t)
  | leader :: _ =>
      do lt <- tables_of a leader;
      do ws <- omap (fun id => do t <- tables_of a id; Ok (sw_st id sid t)) group;
      Ok (s_st sid lt ++ List.concat ws)
  end.

Lemma members_scansG a sid ids texts :
  all_tables_ok a ->
  omap (fun id => do t <- tables_of a id; Ok (append (shape_wrapper id sid t) EmitBash.nl)) ids = Ok texts ->
  exists stss,
    omap (fun id => do t <- tables_of a id; Ok (sw_st id sid t)) ids = Ok stss
    /\ scansE sh cmd (sconcat texts) (List.concat stss).
Proof.
  intros Hall. apply omap_scansE. intros id text H. apply obind_ok in H. destruct H as [t [Ht H]].
  rewrite Ht. cbn [obind]. eexists. split; [reflexivity|]. apply Ok_inj in H. subst. apply sw_ok, (Hall _ _ Ht).
Qed.

Lemma group_scansG a sid group text :
  all_tables_ok a ->
  group_block wrapper shape_fn shape_wrapper a sid group = Ok text ->
  exists sts, group_stmtsG a sid group = Ok sts /\ scansE sh cmd text sts.
Proof.
  intros Hall H. destruct group as [|id [|id2 rest]]; [discriminate H | |].
  - unfold group_block in H. unfold group_stmtsG.
    apply obind_ok in H. destruct H as [t [Ht H]]. rewrite Ht. cbn [obind].
    eexists. split; [reflexivity|].
    assert (E : (wrapper id t ++ EmitBash.nl)%string = text) by congruence.
    rewrite <- E. apply w_ok. apply (Hall _ _ Ht).
  - unfold group_block in H. unfold group_stmtsG.
    apply obind_ok in H. destruct H as [lt [Hlt H]]. apply obind_ok in H. destruct H as [ws [Hws H]].
    rewrite Hlt. cbn [obind].
    destruct (members_scansG a sid _ _ Hall Hws) as [stss [Hs Hn]]. rewrite Hs. cbn [obind].
    eexists. split; [reflexivity|].
    assert (E : (shape_fn sid lt ++ EmitBash.nl ++ sconcat ws)%string = text) by congruence.
    rewrite <- E. rewrite <- (append_assoc (shape_fn sid lt)).
    apply scansE_app; [apply s_ok | exact Hn].
Qed.

Lemma groups_scansG a igs texts :
  all_tables_ok a ->
  omap (fun ig : N * list N => group_block wrapper shape_fn shape_wrapper a (fst ig) (snd ig)) igs = Ok texts ->
  exists stss, omap (fun ig : N * list N => group_stmtsG a (fst ig) (snd ig)) igs = Ok stss
               /\ scansE sh cmd (sconcat texts) (List.concat stss).
Proof. intros Hall. apply omap_scansE. intros ig text. apply group_scansG, Hall. Qed.

(** the part of a script that holds the groups, if there are within-word automata at all *)
Lemma groups_part_scansG a groups (b : bool) part :
  all_tables_ok a ->
  (if b then do gs <- omap (fun ig : N * list N => group_block wrapper shape_fn shape_wrapper a (fst ig) (snd ig))
                           (number_from 0 groups);
             Ok (sconcat gs)
   else Ok EmptyString) = Ok part ->
  exists gs, (if b then do l <- omap (fun ig : N * list N => group_stmtsG a (fst ig) (snd ig)) (number_from 0 groups);
                        Ok (List.concat l)
              else Ok []) = Ok gs
             /\ scansE sh cmd part gs.
Proof.
  intros Hall H. destruct b.
  - apply obind_ok in H. destruct H as [texts [Ht H]]. destruct (groups_scansG _ _ _ Hall Ht) as [stss [Hss Hn]].
    rewrite Hss. cbn [obind]. eexists. split; [reflexivity|]. apply Ok_inj in H. subst. exact Hn.
  - apply Ok_inj in H. subst. exists []. split; [reflexivity | apply scansE_nil].
Qed.

(** a script whose only fallible parts are the groups and a value [r] computed from the tables alone *)
Lemma script_readG {R} a groups (b : bool) (rows : res R) (body : string -> R -> string)
      (stmts : list stmt -> R -> list stmt) s :
  all_tables_ok a ->
  (forall part gs r, scansE sh cmd part gs -> scansE sh cmd (body part r) (stmts gs r)) ->
  (do part <- (if b then do gs <- omap (fun ig : N * list N => group_block wrapper shape_fn shape_wrapper a (fst ig) (snd ig))
                                       (number_from 0 groups);
                         Ok (sconcat gs)
               else Ok EmptyString);
   do r <- rows; Ok (body part r)) = Ok s ->
  exists sts,
    (do gs <- (if b then do l <- omap (fun ig : N * list N => group_stmtsG a (fst ig) (snd ig)) (number_from 0 groups);
                         Ok (List.concat l)
               else Ok []);
     do r <- rows; Ok (stmts gs r)) = Ok sts
    /\ read_stmts sh cmd s = sts.
Proof.
  intros Hall Hbody. apply (read_two sh cmd (scansE sh cmd) eq).
  - intros part. apply groups_part_scansG, Hall.
  - intros r Hr. exists r. split; [exact Hr | reflexivity].
  - intros part gs r r' Hp <-. apply Hbody, Hp.
Qed.
End Groups.

Lemma resolve_rows_eq a : resolve_rows a = subtrans_rows a.
Proof. reflexivity. Qed.

Lemma scansE_app0 sh cmd t1 t2 s : scansE sh cmd t1 [] -> scansE sh cmd t2 s -> scansE sh cmd (append t1 t2) s.
Proof. intros H1 H2. apply (scansE_app sh cmd t1 [] t2 s H1 H2). Qed.

Lemma scansE_if0 sh cmd (b : bool) t : scansE sh cmd t [] -> scansE sh cmd (if b then t else EmptyString) [].
Proof. destruct b; [auto | intros _; apply scansE_nil]. Qed.

(** The newline at the head of a template that starts with one ends the line in front of it, and the template is read
    with that newline moved to its end ([sh_nl]).  [scans_nl sh cmd X s]: the text [X] starts with a
    newline, and what follows that newline is scanned as [s]. *)
Definition starts_nl (t : list seg) : bool :=
  match t with Text (String c _) :: _ => Ascii.eqb c nl_char | _ => false end.

Definition sh_nl (t : list seg) : list seg := drop_nl t ++ seg_nl.

Lemma render_starts_nl env t : starts_nl t = true -> render env t = append nl (render env (drop_nl t)).
Proof.
  destruct t as [|[[|c s]|n] r]; try discriminate. cbn [starts_nl drop_nl]. intros Hc. rewrite Hc.
  rewrite render_app, render_txt. cbn [render]. apply Ascii.eqb_eq in Hc. subst c. reflexivity.
Qed.

Definition scans_nl (sh : shell) (cmd X : string) (s : list stmt) : Prop :=
  exists Y, X = append nl Y /\ scansE sh cmd Y s.

(** the template in front of the first of them: its last line ends with that newline *)
Lemma scans_nl_after sh cmd env t s1 X s2 :
  scansE sh cmd (render env (t ++ seg_nl)) s1 -> scans_nl sh cmd X s2 -> scansE sh cmd (append (render env t) X) (s1 ++ s2).
Proof. intros H1 [Y [-> H2]]. rewrite render_snoc_nl. apply scansE_app; assumption. Qed.

Lemma scans_nl_after0 sh cmd env t X s :
  scansE sh cmd (render env (t ++ seg_nl)) [] -> scans_nl sh cmd X s -> scansE sh cmd (append (render env t) X) s.
Proof. apply (scans_nl_after sh cmd env t []). Qed.

Lemma scans_nl_nl sh cmd Y s : scansE sh cmd Y s -> scans_nl sh cmd (append nl Y) s.
Proof. intros H. exists Y. split; [reflexivity | exact H]. Qed.

(** the last of them, when it ends with a newline of its own *)
Lemma scans_nl_last sh cmd env t R s :
  starts_nl t = true -> scansE sh cmd (append (render env (drop_nl t)) R) s -> scans_nl sh cmd (append (render env t) R) s.
Proof.
  intros Ht H. exists (append (render env (drop_nl t)) R). split; [|exact H].
  rewrite (render_starts_nl env t Ht), append_assoc. reflexivity.
Qed.

Lemma scans_nl_app sh cmd env t s1 X s2 :
  starts_nl t = true -> scansE sh cmd (render env (sh_nl t)) s1 -> scans_nl sh cmd X s2 ->
  scans_nl sh cmd (append (render env t) X) (s1 ++ s2).
Proof.
  intros Ht H1 [Y [-> H2]]. exists (append (render env (sh_nl t)) Y). split; [|apply scansE_app; assumption].
  unfold sh_nl. rewrite (render_starts_nl env t Ht), <- render_snoc_nl, !append_assoc. reflexivity.
Qed.

Lemma scans_nl_app0 sh cmd env t X s :
  starts_nl t = true -> scansE sh cmd (render env (sh_nl t)) [] -> scans_nl sh cmd X s ->
  scans_nl sh cmd (append (render env t) X) s.
Proof. apply (scans_nl_app sh cmd env t []). Qed.

Lemma scans_nl_if0 sh cmd env t (b : bool) X s :
  starts_nl t = true -> scansE sh cmd (render env (sh_nl t)) [] -> scans_nl sh cmd X s ->
  scans_nl sh cmd (append (if b then render env t else EmptyString) X) s.
Proof. intros Ht H1 H2. destruct b; [apply scans_nl_app0; assumption | exact H2]. Qed.

Lemma scans_nl_if2 sh cmd env t1 t2 (b : bool) X s :
  starts_nl t1 = true -> starts_nl t2 = true ->
  scansE sh cmd (render env (sh_nl t1)) [] -> scansE sh cmd (render env (sh_nl t2)) [] -> scans_nl sh cmd X s ->
  scans_nl sh cmd (append (if b then render env t1 else render env t2) X) s.
Proof. intros Ht1 Ht2 H1 H2 H. destruct b; apply scans_nl_app0; assumption. Qed.

(** [    _<cmd><suffix><L><args>]: the call that ends a wrapper; [L] is what the reader of the shell wants
    after the name, and it takes the rest of the line *)
Lemma call_reads L cmd suf args rest :
  name_ok cmd -> forallb is_name_char (list_ascii_of_string suf) = true ->
  match L with String c _ => is_name_char c = false | EmptyString => False end -> no_nl args = true ->
  (let* _ := lit "    _" in let* v := name in let* _ := lit L in
   fun s => let (_, r) := line s in Some (SCall (String "_" v), r))
    (append "    _" (append cmd (append suf (append L (append args (append nl rest))))))
  = Some (SCall (append "_" (append cmd suf)), rest).
Proof.
  intros [Hne Hc] Hsuf HL Ha. destruct L as [|c L]; [destruct HL|].
  rewrite pbind_lit, <- (append_assoc cmd suf).
  assert (Hv : vname (append cmd suf)) by (split; [destruct cmd; [congruence | discriminate] | apply name_chars_append; assumption]).
  rewrite (pbind_some _ _ _ _ _ (name_app (append cmd suf) c L _ Hv HL)), pbind_lit. rewrite (line_app args rest Ha). reflexivity.
Qed.

(** [function _<cmd><suffix><post>]: the header of a function in PowerShell ([post] is [ {]) and in fish
    (nothing) *)
Lemma function_reads post cmd suf rest :
  name_ok cmd -> forallb is_name_char (list_ascii_of_string suf) = true ->
  match post with String c _ => is_name_char c = false | EmptyString => True end ->
  (let* _ := lit "function " in let* v := name in let* _ := lit post in let* _ := eol in pret (SFunc v))
    (append "function _" (append cmd (append suf (append post (append nl rest)))))
  = Some (SFunc (append "_" (append cmd suf)), rest).
Proof.
  intros [Hne Hc] Hsuf Hp.
  assert (Hv : vname (append "_" (append cmd suf)))
    by (split; [discriminate | apply (name_chars_append "_"); [reflexivity | apply name_chars_append; assumption]]).
  erewrite pbind_lit' by reflexivity. rewrite <- (append_assoc cmd suf).
  destruct post as [|c post].
  - erewrite pbind_some by exact (name_app _ nl_char "" rest Hv eq_refl). erewrite pbind_lit' by reflexivity.
    exact (pbind_some _ _ _ _ _ (eol_nl rest)).
  - erewrite pbind_some by exact (name_app _ c post _ Hv Hp). rewrite pbind_lit. exact (pbind_some _ _ _ _ _ (eol_nl rest)).
Qed.

Lemma names_eol f c rest :
  vname f -> vname c ->
  (let* f := name in let* _ := lit " " in let* c := name in let* _ := eol in pret (SRegister [f; c]))
    (append f (append " " (append c (append nl rest)))) = Some (SRegister [f; c], rest).
Proof.
  intros Hf Hc. rewrite (pbind_some _ _ _ _ _ (name_app f " " "" _ Hf eq_refl)). erewrite pbind_lit' by reflexivity.
  rewrite (pbind_some _ _ _ _ _ (name_app c nl_char "" rest Hc eq_refl)).
  rewrite (pbind_some _ _ _ _ _ (eol_nl rest)). reflexivity.
Qed.

(** ** bash and zsh read function headers, calls and scalars alike ([bz_shell]: they differ in the
    declaration word) *)
Section BashZsh.
Variables (sh : shell) (w : string).
Hypothesis B : bz_shell sh w.

Lemma bz_header_reads cmd suf :
  name_ok cmd -> forallb is_name_char (list_ascii_of_string suf) = true ->
  no_nl (append "_" (append cmd (append suf " () {"))) = true
  /\ forall rest, stmt_of sh (append (append "_" (append cmd (append suf " () {"))) (append nl rest))
                  = Some (SFunc (append "_" (append cmd suf)), rest).
Proof.
  intros Hc Hsuf. split.
  - cbn [append no_nl]. rewrite !no_nl_app, (name_ok_no_nl _ Hc), (name_chars_no_nl _ Hsuf). reflexivity.
  - intros rest. rewrite (bz_reader _ _ B), !append_assoc. unfold bz_stmt.
    do 5 (rewrite alt_skip by reflexivity).
    apply alt_take. erewrite pbind_lit' by reflexivity.
    assert (N1 : name (cmd ++ suf ++ " () {" ++ nl ++ rest)%string = Some (append cmd suf, (" () {" ++ nl ++ rest)%string)).
    { rewrite <- append_assoc. destruct Hc as [Hne Hc].
      apply (name_read (cmd ++ suf) " "%char); [destruct cmd; [congruence | discriminate] | apply name_chars_append; assumption | reflexivity]. }
    rewrite (pbind_some _ _ _ _ _ N1). erewrite pbind_lit' by reflexivity.
    rewrite (pbind_some _ _ _ _ _ (eol_nl rest)). reflexivity.
Qed.

Lemma bz_header_sem cmd suf :
  name_ok cmd -> forallb is_name_char (list_ascii_of_string suf) = true -> strip "_cmd_" suf = None ->
  line_semG sh cmd (append "_" (append cmd (append suf " () {"))) (Some (SFunc (append "_" (append cmd suf)))).
Proof.
  intros Hc Hsuf. apply header_semG, bz_header_reads; assumption.
Qed.

Lemma bz_header_main_sem cmd :
  name_ok cmd -> line_semG sh cmd (append "_" (append cmd " () {")) (Some (SFunc (append "_" cmd))).
Proof.
  intros Hc. pose proof (bz_header_sem cmd EmptyString Hc eq_refl eq_refl) as H.
  cbn [append] in H. rewrite append_nil_r in H. exact H.
Qed.

(** [    _<cmd><suffix> ""<args>""]: the call that ends a wrapper; the reader takes the rest of the line *)
Lemma bz_call_sem cmd suf args :
  name_ok cmd -> forallb is_name_char (list_ascii_of_string suf) = true -> no_nl args = true ->
  line_semG sh cmd (append "    _" (append cmd (append suf (append " """ args)))) (Some (SCall (append "_" (append cmd suf)))).
Proof.
  intros Hc Hsuf Ha. split; [|split; [|exact I]].
  - rewrite !no_nl_app, (name_ok_no_nl cmd Hc), (name_chars_no_nl _ Hsuf), Ha. reflexivity.
  - intros rest. rewrite (bz_reader _ _ B), !append_assoc. unfold bz_stmt.
    change ("    _" ++ cmd ++ suf ++ " """ ++ args ++ nl ++ rest)%string
      with ("    " ++ String "_" (cmd ++ suf ++ " """ ++ args ++ nl ++ rest))%string.
    (* the three declarations: the declaration word does not start with an underscore *)
    do 3 (rewrite alt_skip by (rewrite pbind_lit; apply pbind_none, (bz_head _ _ B))).
    (* X[s]=... : the name is followed by a blank, not by [ *)
    rewrite alt_skip.
    2:{ rewrite pbind_lit. rewrite <- (append_assoc cmd suf).
        erewrite pbind_some
          by (apply (name_read (String "_" (cmd ++ suf)) " "%char); [discriminate | apply name_chars_append; [apply Hc | exact Hsuf] | reflexivity]).
        reflexivity. }
    apply alt_take. exact (call_reads " """ cmd suf args rest Hc Hsuf eq_refl Ha).
Qed.

(** [    W VAR=N] as it comes out of a template *)
Lemma bz_scalar_sem cmd var n :
  vname var -> no_dash var = true ->
  line_semG sh cmd (append "    " (append (append w " ") (append var (append "=" (sN n))))) (Some (SScalar var n)).
Proof.
  intros Hv Hd.
  apply (data_line sh cmd _ (scalar_line w "" var n)); [unfold scalar_line; rewrite !append_assoc; reflexivity | apply (bz_reads_scalar B ""); assumption|].
  rewrite !no_nl_app, (name_chars_no_nl w (bz_word _ _ B)), (name_chars_no_nl var (proj2 Hv)), no_nl_sN. reflexivity.
Qed.
End BashZsh.
Arguments bz_header_reads {sh w} B.
Arguments bz_header_sem {sh w} B.
Arguments bz_header_main_sem {sh w} B.
Arguments bz_call_sem {sh w} B.
Arguments bz_scalar_sem {sh w} B.
