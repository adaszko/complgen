(** C06: totality of the whole model pipeline [Driver.compile] (text -> parse -> check -> regex ->
    within-word automata -> subset construction -> minimise -> ambiguity check), composed from the
    totality theorems of the stages as stated in Props: [Props.C05b.parse_total] +
    [Props.C05b.parse_alts_nonempty] (parser), [Props.C06.C06_checker_total] (checker),
    [Props.C02.C02_compile_valid_total] (regex, subset construction, minimisation, ambiguity
    walk). *)
From CG Require Import Base.Prelude Model.Ast Model.Lexer Model.Parser Model.Check Model.Regex.
From CG Require Import Model.Dfa Model.Subset Model.Minimize Model.Ambiguity Model.Driver.
From CG Require Import Proofs.DriverCorrect.
From CG Require Props.C05b Props.C06 Props.C02.

(** The subset construction is the one loop whose fuel is a parameter of the model (its bound is
    exponential in the number of positions): [fuel_covers] says the parameter exceeds that bound
    for the main regex and every within-word regex of whatever the text validates to. *)
Definition fuel_covers (fuel : nat) (builtins : shell -> list (string * string)) (text : string)
           (sh : shell) : Prop :=
  forall g v r pl,
    parse text = Ok g -> from_grammar builtins g sh = Ok v ->
    from_expr (v_expr v) [] = Ok (r, pl) ->
    enough_fuel fuel r /\ Forall (enough_fuel fuel) pl.

Lemma compile_outcome :
  forall pick fuel builtins text sh,
    fuel_covers fuel builtins text sh ->
    (exists vc, compile pick fuel builtins text sh = Ok vc) \/
    (exists e, compile pick fuel builtins text sh = Err e /\
       ((exists sp, e = DParse sp) \/ (exists ce, e = DCheck ce) \/
        (exists a b, e = DRegex (UnboundedMatchable a b)) \/ (exists ae, e = DAmb ae))).
Proof.
  intros pick fuel builtins text sh Hfuel. unfold compile.
  destruct (Props.C05b.parse_total text) as [[g Hg]|[sp Hsp]].
  2:{ rewrite Hsp. cbn. right. eauto 6. }
  rewrite Hg. cbn [obind].
  destruct (Props.C06.C06_checker_total builtins g sh) as [[v Hv]|[ce Hce]].
  2:{ rewrite Hce. cbn. right. eauto 7. }
  rewrite Hv. cbn [lift obind].
  pose proof (Props.C05b.parse_alts_nonempty text g Hg) as Halts.
  destruct (Props.C02.C02_compile_valid_total builtins g sh v pick fuel Hv Halts) as [[c Hc]|[[a [b Hab]]|[ae Hae]]].
  - intros r pl Hr. exact (Hfuel g v r pl Hg Hv Hr).
  - rewrite Hc. cbn. eauto.
  - rewrite Hab. cbn. right. eauto 9.
  - rewrite Hae. cbn. right. eauto 9.
Qed.

Theorem compile_total :
  forall pick fuel builtins text sh,
    fuel_covers fuel builtins text sh ->
    (exists vc, compile pick fuel builtins text sh = Ok vc) \/
    (exists e, compile pick fuel builtins text sh = Err e).
Proof.
  intros pick fuel builtins text sh Hfuel.
  destruct (compile_outcome pick fuel builtins text sh Hfuel) as [H|[e [H _]]]; eauto.
Qed.

(** What a rejection can be: a parse error, a checker error, a placeholder that something can
    follow inside a word, or an ambiguity of the automaton -- nothing else. *)
Theorem compile_error_kinds :
  forall pick fuel builtins text sh e,
    fuel_covers fuel builtins text sh ->
    compile pick fuel builtins text sh = Err e ->
    (exists sp, e = DParse sp) \/ (exists ce, e = DCheck ce) \/
    (exists a b, e = DRegex (UnboundedMatchable a b)) \/ (exists ae, e = DAmb ae).
Proof.
  intros pick fuel builtins text sh e Hfuel E.
  destruct (compile_outcome pick fuel builtins text sh Hfuel) as [[vc H]|[e' [H K]]]; [congruence|].
  rewrite H in E. injection E as <-. exact K.
Qed.
