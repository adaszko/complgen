(** The within-word function of the script against the specification, for within-word expressions
    with all kinds of pieces (literals, commands, undefined nonterminals).

    [subword_matches_gen]: in matching mode the function decides [Meaning.waccepts]: a point that
    expects an undefined nonterminal accepts what is left; otherwise every round consumes the one
    piece that begins what is left ([sw_round], [WordGen.splits_round]).  [subword_complete_gen]:
    in completing mode it consumes greedily ([WordGen.grun]) and offers, from the first fallback
    level that has any, what the point where it stops offers; as sets this is [Meaning.wproper]. *)
From CG Require Import Base.Prelude Model.Ast Model.Dfa Model.Tables Model.Glob Model.BashSem.
From CG Require Import Spec.Lang Spec.Rx Spec.Meaning Spec.DfaEquiv Spec.Domain Spec.KnownC01 Spec.Invocations.
From CG Require Import Proofs.GlobFacts Proofs.RxFacts Proofs.MeaningFacts Proofs.TablesSound Proofs.LangBridge Proofs.DfaMeaning
     Proofs.DomainFacts Proofs.SubSim Proofs.TablesKeys Proofs.TableLookup
     Proofs.BashMeaningLit Proofs.BashMeaningTop Proofs.LevelsFacts Proofs.SubwordFacts
     Proofs.StripFacts Proofs.WordSim Proofs.WordGen Proofs.C17Proofs.

Lemma lls_cont b lits st sub to n :
  lit_loop_str b lits st sub = SCont to n ->
  exists lid lit, In (lid, lit) lits /\ assocN lid st = Some to /\ String.prefix lit sub = true /\ n = String.length lit.
Proof.
  induction lits as [| [lid lit] r IH]; cbn [lit_loop_str]; intro H; [discriminate |].
  destruct (assocN lid st) as [t0 |] eqn:Ea.
  - destruct (String.eqb lit sub) eqn:E1.
    + inversion H; subst. apply String.eqb_eq in E1. subst sub. exists lid, lit.
      split; [left; reflexivity | split; [exact Ea | split; [apply prefix_refl | reflexivity]]].
    + destruct (b && String.prefix sub lit); [discriminate |]. destruct (String.prefix lit sub) eqn:E2.
      * inversion H; subst. exists lid, lit. split; [left; reflexivity | split; [exact Ea | split; [exact E2 | reflexivity]]].
      * destruct (IH H) as [l' [t' [Hin Hr]]]. exists l', t'. split; [right; exact Hin | exact Hr].
  - destruct (IH H) as [l' [t' [Hin Hr]]]. exists l', t'. split; [right; exact Hin | exact Hr].
Qed.

Lemma lls_break b lits st sub :
  lit_loop_str b lits st sub = SBreak ->
  b = true /\ exists lid lit to, In (lid, lit) lits /\ assocN lid st = Some to /\ String.prefix sub lit = true /\ lit <> sub.
Proof.
  induction lits as [| [lid0 lit0] r IH]; cbn [lit_loop_str]; intro H; [discriminate |].
  destruct (assocN lid0 st) as [t0 |] eqn:Ea0.
  - destruct (String.eqb lit0 sub) eqn:E1; [discriminate |].
    destruct (b && String.prefix sub lit0) eqn:E3.
    + apply andb_true_iff in E3. destruct E3 as [Eb E3]. split; [exact Eb |].
      exists lid0, lit0, t0. split; [left; reflexivity | split; [exact Ea0 | split; [exact E3 |]]].
      intro E. subst. rewrite String.eqb_refl in E1. discriminate.
    + destruct (String.prefix lit0 sub); [discriminate |].
      destruct (IH H) as [Eb [l' [t' [to' [Hin Hr]]]]]. split; [exact Eb |]. exists l', t', to'. split; [right; exact Hin | exact Hr].
  - destruct (IH H) as [Eb [l' [t' [to' [Hin Hr]]]]]. split; [exact Eb |]. exists l', t', to'. split; [right; exact Hin | exact Hr].
Qed.

Lemma lls_none b lits st sub :
  lit_loop_str b lits st sub = SNone ->
  forall lid lit to, In (lid, lit) lits -> assocN lid st = Some to ->
    String.prefix lit sub = false /\ (b = true -> String.prefix sub lit = false).
Proof.
  induction lits as [| [lid0 lit0] r IH]; cbn [lit_loop_str]; intros H lid lit to Hin Ha; [destruct Hin |].
  destruct (assocN lid0 st) as [t0 |] eqn:Ea0.
  - destruct (String.eqb lit0 sub) eqn:E1; [discriminate |].
    destruct (b && String.prefix sub lit0) eqn:E3; [discriminate |].
    destruct (String.prefix lit0 sub) eqn:E2; [discriminate |].
    destruct Hin as [E | Hin]; [| eapply IH; eassumption]. inversion E; subst. split; [exact E2 |].
    intros ->. cbn in E3. exact E3.
  - destruct Hin as [E | Hin]; [inversion E; subst; congruence | eapply IH; eassumption].
Qed.

Lemma cls_cont b cands to sub to' n :
  cand_loop_str b cands to sub = SCont to' n ->
  to' = to /\ exists c, In c cands /\ String.prefix c sub = true /\ n = String.length c /\ (c <> EmptyString \/ sub = EmptyString).
Proof.
  induction cands as [| c r IH]; cbn [cand_loop_str]; intro H; [discriminate |].
  destruct (String.eqb sub c) eqn:E1.
  - inversion H; subst. apply String.eqb_eq in E1. subst c. split; [reflexivity |]. exists sub.
    split; [left; reflexivity | split; [apply prefix_refl | split; [reflexivity |]]]. destruct sub; [right; reflexivity | left; discriminate].
  - destruct (b && String.prefix sub c); [discriminate |].
    destruct ((match c with EmptyString => false | _ => true end) && String.prefix c sub) eqn:E2.
    + inversion H; subst. apply andb_true_iff in E2. destruct E2 as [E2 E3]. split; [reflexivity |]. exists c.
      split; [left; reflexivity | split; [exact E3 | split; [reflexivity | left; destruct c; [discriminate | discriminate]]]].
    + destruct (IH H) as [Et [c' [Hin Hr]]]. split; [exact Et |]. exists c'. split; [right; exact Hin | exact Hr].
Qed.

Lemma cls_break b cands to sub :
  cand_loop_str b cands to sub = SBreak -> b = true /\ exists c, In c cands /\ String.prefix sub c = true /\ c <> sub.
Proof.
  induction cands as [| c r IH]; cbn [cand_loop_str]; intro H; [discriminate |].
  destruct (String.eqb sub c) eqn:E1; [discriminate |].
  destruct (b && String.prefix sub c) eqn:E3.
  - apply andb_true_iff in E3. destruct E3 as [Eb E3]. split; [exact Eb |]. exists c. split; [left; reflexivity | split; [exact E3 |]].
    intro E. subst. rewrite String.eqb_refl in E1. discriminate.
  - destruct ((match c with EmptyString => false | _ => true end) && String.prefix c sub); [discriminate |].
    destruct (IH H) as [Eb [c' [Hin Hr]]]. split; [exact Eb |]. exists c'. split; [right; exact Hin | exact Hr].
Qed.

Lemma cls_none b cands to sub :
  cand_loop_str b cands to sub = SNone ->
  forall c, In c cands -> (c <> EmptyString -> String.prefix c sub = false) /\ (b = true -> String.prefix sub c = false).
Proof.
  induction cands as [| c0 r IH]; cbn [cand_loop_str]; intros H c Hin; [destruct Hin |].
  destruct (String.eqb sub c0) eqn:E1; [discriminate |].
  destruct (b && String.prefix sub c0) eqn:E3; [discriminate |].
  destruct ((match c0 with EmptyString => false | _ => true end) && String.prefix c0 sub) eqn:E2; [discriminate |].
  destruct Hin as [<- | Hin]; [| apply (IH H c Hin)]. split.
  - intro Hne. destruct c0; [contradiction |]. cbn in E2. exact E2.
  - intros ->. cbn in E3. exact E3.
Qed.

Lemma In_sort_desc c l : In c (sort_desc l) <-> In c l.
Proof.
  assert (G : forall l', In c l' <-> existsb (String.eqb c) l' = true).
  { intro l'. rewrite existsb_exists. split; [intro H; exists c; split; [exact H | apply String.eqb_refl] |].
    intros [y [Hy E]]. apply String.eqb_eq in E. subst. exact Hy. }
  rewrite (G (sort_desc l)), (G l), existsb_sort_desc. reflexivity.
Qed.

Section CmdLoop.
  Variables (a : alltables) (benv : BashSem.env).
  Definition ccands (cid : N) : list string := spec_candidates (cmd_output benv cid).

  Lemma cmd_loop_spec b sub mp : forall L,
    (forall cid to, In (cid, to) L -> nthN (a_commands a) cid <> None) ->
    exists r, (forall log, exists log', cmd_loop Repaired b a benv L sub mp log = Ok (r, log'))
      /\ match r with
         | SCont to n => exists cid c, In (cid, to) L /\ In c (ccands cid) /\ String.prefix c sub = true /\ n = String.length c
                                       /\ (c <> EmptyString \/ sub = EmptyString)
         | SBreak => b = true /\ exists cid to c, In (cid, to) L /\ In c (ccands cid) /\ String.prefix sub c = true /\ c <> sub
         | SNone => forall cid to c, In (cid, to) L -> In c (ccands cid) ->
                                     (c <> EmptyString -> String.prefix c sub = false) /\ (b = true -> String.prefix sub c = false)
         end.
  Proof.
    induction L as [| [cid to] L IH]; intros Hc.
    - exists SNone. split; [intro log; exists log; reflexivity | intros cid to c []].
    - assert (Hc' : forall cid' to', In (cid', to') L -> nthN (a_commands a) cid' <> None) by (intros c' t' H; apply (Hc c' t'); right; exact H).
      destruct (IH Hc') as [rt [Et Hspec]].
      destruct (nthN (a_commands a) cid) eqn:En; [| exfalso; apply (Hc cid to (or_introl eq_refl)); exact En].
      assert (Hstep : forall log, cmd_loop Repaired b a benv ((cid, to) :: L) sub mp log
                = match ccands cid with
                  | [] => cmd_loop Repaired b a benv L sub mp ((cid, sub, mp) :: log)
                  | _ => match cand_loop_str b (sort_desc (ccands cid)) to sub with
                         | SNone => cmd_loop Repaired b a benv L sub mp ((cid, sub, mp) :: log)
                         | r => Ok (r, (cid, sub, mp) :: log)
                         end
                  end).
      { intro log. cbn [cmd_loop]. unfold run_cmd. rewrite En. cbn [obind]. unfold command_lines. cbn [quirky].
        rewrite filter_lines_repaired_spec. fold (ccands cid). destruct (ccands cid) as [| c0 cs]; [reflexivity |].
        unfold cand_loop. cbn [quirky obind]. destruct (cand_loop_str b (sort_desc (c0 :: cs)) to sub); reflexivity. }
      destruct (ccands cid) as [| c0 cs] eqn:Ecs.
      + exists rt. split.
        * intro log. rewrite Hstep. apply Et.
        * destruct rt as [to' n | |].
          -- destruct Hspec as [cid' [c [Hin Hr]]]. exists cid', c. split; [right; exact Hin | exact Hr].
          -- destruct Hspec as [Eb [cid' [to' [c [Hin Hr]]]]]. split; [exact Eb |]. exists cid', to', c. split; [right; exact Hin | exact Hr].
          -- intros cid' to' c [Ein | Hin] Hcc; [inversion Ein; subst; rewrite Ecs in Hcc; destruct Hcc | apply (Hspec cid' to' c Hin Hcc)].
      + destruct (cand_loop_str b (sort_desc (c0 :: cs)) to sub) as [to' n | |] eqn:Ecl.
        * exists (SCont to' n). split; [intro log; rewrite Hstep; eexists; reflexivity |].
          destruct (cls_cont _ _ _ _ _ _ Ecl) as [-> [c [Hin Hr]]]. apply (proj1 (In_sort_desc _ _)) in Hin.
          exists cid, c. split; [left; reflexivity | split; [rewrite Ecs; exact Hin | exact Hr]].
        * exists SBreak. split; [intro log; rewrite Hstep; eexists; reflexivity |].
          destruct (cls_break _ _ _ _ Ecl) as [Eb [c [Hin Hr]]]. apply (proj1 (In_sort_desc _ _)) in Hin. split; [exact Eb |].
          exists cid, to, c. split; [left; reflexivity | split; [rewrite Ecs; exact Hin | exact Hr]].
        * exists rt. split; [intro log; rewrite Hstep; apply Et |].
          destruct rt as [to' n | |].
          -- destruct Hspec as [cid' [c [Hin Hr]]]. exists cid', c. split; [right; exact Hin | exact Hr].
          -- destruct Hspec as [Eb [cid' [to' [c [Hin Hr]]]]]. split; [exact Eb |]. exists cid', to', c. split; [right; exact Hin | exact Hr].
          -- intros cid' to' c [Ein | Hin] Hcc; [| apply (Hspec cid' to' c Hin Hcc)]. inversion Ein; subst.
             apply (cls_none _ _ _ _ Ecl c). apply (proj2 (In_sort_desc _ _)). rewrite <- Ecs. exact Hcc.
  Qed.
End CmdLoop.

Lemma inp_of_wleaf_inj a b : inp_of_wleaf a = inp_of_wleaf b -> a = b.
Proof. destruct a, b; cbn; intro H; try discriminate; inversion H; subst; reflexivity. Qed.

Lemma printable_gsdrop n : forall s, printable_str s = true -> printable_str (Glob.sdrop n s) = true.
Proof.
  induction n as [| n IH]; intros s H; destruct s as [| c s]; cbn [Glob.sdrop]; try assumption.
  cbn [printable_str] in H. apply andb_true_iff in H. destruct H as [_ H]. apply IH. exact H.
Qed.

Section CmdsLevel.
  Variables (a : alltables) (benv : BashSem.env).
  Hypothesis Hic : e_ignore_case benv = false.

  Definition cmds_off (cp mp : string) (cids : list N) : list string :=
    flat_map (fun cid => map (append mp) (filter (String.prefix cp) (ccands benv cid))) cids.

  Lemma sw_cmds_level_gen cp mp : printable_str cp = true -> forall cids sc sm,
    (forall cid, In cid cids -> nthN (a_commands a) cid <> None) ->
    exists sc', forall log, exists log', sw_cmds_level Repaired a benv cids cp mp sc sm log = Ok (sc', sm ++ cmds_off cp mp cids, log').
  Proof.
    intro Hp. induction cids as [| cid r IH]; intros sc sm Hc; cbn [sw_cmds_level cmds_off flat_map].
    - rewrite app_nil_r. exists sc. intro log. eauto.
    - destruct (nthN (a_commands a) cid) eqn:En; [| exfalso; apply (Hc cid (or_introl eq_refl)); exact En].
      destruct (IH (ccands benv cid) (sm ++ map (append mp) (filter (String.prefix cp) (ccands benv cid)))) as [sc' E].
      { intros c' H. apply Hc. right; exact H. }
      exists sc'. intro log. unfold run_cmd. rewrite En. cbn [obind]. unfold command_lines. cbn [quirky].
      rewrite filter_lines_repaired_spec. fold (ccands benv cid).
      rewrite (match_fn_prefix_filter benv cp _ Hic Hp). cbn [obind].
      destruct (E ((cid, cp, mp) :: log)) as [log' E']. exists log'. rewrite E'. rewrite <- app_assoc. reflexivity.
  Qed.
End CmdsLevel.

Section WordSimG.
  Variables (sd : dfa) (cmds : list string) (nc ncp ns : bool) (ord : list (string * string)) (Tw : tables)
            (x : rx wleaf).
  Variables (a : alltables) (benv : BashSem.env) (en : Meaning.env).
  Hypothesis Hwf : dfa_wf sd.
  Hypothesis Hinp : NoDup (d_inputs sd).
  Hypothesis Htrim : trim sd.
  Hypothesis Hglt : get_lookup_tables sd cmds 0 nc ncp ns ord = Ok Tw.
  Hypothesis Hord : NoDup ord.
  Hypothesis Hvalid : valid_literal_order sd ord = true.
  Hypothesis Hsim0 : simR sd (fun a y => y = inp_of_wleaf a) (d_start sd) [x].
  Hypothesis Hz : zero_free x = true.
  Hypothesis Hdom : word_in_domain x.
  Hypothesis Henvw : env_word_ok en x.
  Hypothesis Hcmds : a_commands a = cmds.
  Hypothesis Hcenv : forall cm cid, Tables.index_of cm cmds = Some cid -> spec_candidates (cmd_output benv cid) = candidates en cm.
  Hypothesis Hnc : forall s cm l t, trans_on sd s (ICmd cm l) t -> nc = true.
  Hypothesis Hns : forall s t, trans_on sd s IStar t -> ns = true.
  Hypothesis Hic : e_ignore_case benv = false.

  Record wrel (s : N) (S : list (rx wleaf)) : Prop := {
    wr_sim : simR sd (fun a y => y = inp_of_wleaf a) s S;
    wr_z : forall k, In k S -> zero_free k = true;
    wr_inv : winv x S
  }.

  Lemma wrel_start : wrel (d_start sd) [x].
  Proof. constructor; [exact Hsim0 | intros k [<- | []]; exact Hz | apply winv_start]. Qed.

  Lemma targets_co s i t : Dfa.step sd s i = Some t -> coreachable sd t.
  Proof. apply (step_coreachable sd s i t Htrim). Qed.

  Lemma wtrans_item s S y t : wrel s S -> trans_on sd s y t -> exists a0 k, In (a0, k) (mvs S) /\ inp_of_wleaf a0 = y.
  Proof.
    intros R Htr. destruct (simR_trans sd _ Hwf s S y t (wr_sim _ _ R) (targets_co s) Htr) as [a0 [k [Hin ->]]]. eauto.
  Qed.

  Lemma witem_trans s S a0 k : wrel s S -> In (a0, k) (mvs S) -> exists t, trans_on sd s (inp_of_wleaf a0) t.
  Proof.
    intros R Hin. destruct (simR_item sd _ s S a0 k (wr_sim _ _ R) (wr_z _ _ R) Hin) as [y [t [-> Htr]]]. eauto.
  Qed.

  Lemma trans_fun s y t t' : trans_on sd s y t -> trans_on sd s y t' -> t = t'.
  Proof. apply (trans_on_fun sd Hinp). Qed.

  Lemma wrel_next s S a0 S' to :
    wrel s S -> trans_on sd s (inp_of_wleaf a0) to -> (forall k, In k S' <-> In (a0, k) (mvs S)) -> winv x S' -> wrel to S'.
  Proof.
    intros R [i [Hs Hn]] HS' I'. constructor.
    - apply (simR_step sd _ s S i to _ S' (wr_sim _ _ R) Hs Hn).
      + intros a' x' t' E1 E2 Htr'. rewrite E2, <- E1 in Htr'. apply (trans_fun s _ t' to Htr'). exists i. split; [exact Hs | exact Hn].
      + intro k. rewrite HS'. split.
        * intro H. exists a0. split; [exact H | reflexivity].
        * intros [a' [H Ha]]. apply inp_of_wleaf_inj in Ha. subst a'. exact H.
    - intros k Hk. apply HS' in Hk. apply mvs_In in Hk. destruct Hk as [r [Hr Hlf]].
      eapply zero_free_lf; [apply (wr_z _ _ R r Hr) | exact Hlf].
    - exact I'.
  Qed.

  Lemma wpoint s S : wrel s S -> wpoint_decl (mvs S).
  Proof. intro R. apply (winv_point x Hdom S (wr_inv _ _ R)). Qed.

  Lemma wrel_lit s S t d l k0 to :
    wrel s S -> In (WLit t d l, k0) (mvs S) -> trans_on sd s (ILit t d l) to -> wrel to (after_lit t (mvs S)).
  Proof.
    intros R Hin Htr. apply (wrel_next s S (WLit t d l) _ to R Htr); [| apply (winv_lit x S t d l k0 (wr_inv _ _ R) Hin)].
    intro k. rewrite after_lit_In. split; [| intro H; eauto].
    intros [d' [l' H]]. destruct (proj1 (wpoint s S R) t d' l' d l k k0 H Hin) as [-> ->]. exact H.
  Qed.

  Lemma wrel_cmd s S c l k0 to :
    wrel s S -> In (WCmd c l, k0) (mvs S) -> trans_on sd s (ICmd c l) to -> wrel to (after_cmd c (mvs S)).
  Proof.
    intros R Hin Htr. apply (wrel_next s S (WCmd c l) _ to R Htr); [| apply (winv_cmd x Hdom S c l k0 (wr_inv _ _ R) Hin)].
    intro k. rewrite after_cmd_In. split; [| intro H; eauto].
    intros [l' H]. rewrite (proj1 (proj2 (wpoint s S R)) c l' l k k0 H Hin) in H. exact H.
  Qed.

  Lemma enabled_sound s lit to : In (lit, to) (enabled Tw s) -> exists dso lvl, trans_on sd s (ILit lit dso lvl) to.
  Proof.
    intro H. destruct (assocN s (t_mlit Tw)) as [st |] eqn:Es; [| unfold enabled in H; rewrite Es in H; destruct H].
    apply (enabled_in Tw s st lit to Es) in H. destruct H as [lid [Hin Ha]].
    apply (indexed_lit sd cmds nc ncp ns ord Tw Hglt) in Hin. destruct Hin as [ds Hl].
    assert (Hh : tbl_has (t_mlit Tw) s lid to) by (exists st; split; apply assocN_In; assumption).
    destruct (mlit_sound sd cmds 0 nc ncp ns ord Tw Hwf Hord Hglt s lid to Hh) as [text [dso [lvl [Htr Hl']]]].
    destruct (lit_at_fun _ _ _ _ _ _ Hl Hl') as [-> _]. exists dso, lvl. exact Htr.
  Qed.

  Lemma lit_item s S t dso lvl to : wrel s S -> trans_on sd s (ILit t dso lvl) to -> exists k, In (WLit t dso lvl, k) (mvs S).
  Proof.
    intros R Htr. destruct (wtrans_item s S _ to R Htr) as [a0 [k [Hin Ha]]].
    destruct a0; cbn in Ha; try discriminate. inversion Ha; subst. exists k. exact Hin.
  Qed.

  Lemma enabled_complete s S w dso lvl to : wrel s S -> trans_on sd s (ILit w dso lvl) to -> In (w, to) (enabled Tw s).
  Proof.
    intros R Htr. destruct (glt_inv _ _ _ _ _ _ _ _ Hglt) as [rt F].
    pose proof Htr as [i [Hs Hn]].
    destruct (valid_order_covers sd ord 0 i w dso lvl Hvalid Hn) as [lid Hl].
    apply (step_in _ _ _ _ Hwf) in Hs.
    assert (Hsel : lit_sel (all_literals ord 0) (ILit w dso lvl) = Some (Ok lid)).
    { cbn. f_equal. apply (lit_id_at _ _ _ _ _ Hord). exact Hl. }
    destruct (match_table_has _ _ _ _ _ _ _ _ (gf_mlit _ _ _ _ _ _ _ _ _ F) Hs Hn Hsel) as [to' Hh].
    destruct (mlit_sound sd cmds 0 nc ncp ns ord Tw Hwf Hord Hglt s lid to' Hh) as [text [dso' [lvl' [Htr' Hl']]]].
    destruct (lit_at_fun _ _ _ _ _ _ Hl Hl') as [<- _].
    destruct (lit_item s S w dso lvl to R Htr) as [k1 H1]. destruct (lit_item s S w dso' lvl' to' R Htr') as [k2 H2].
    destruct (proj1 (wpoint s S R) w dso' lvl' dso lvl k2 k1 H2 H1) as [-> ->].
    assert (to' = to) by (apply (trans_fun s _ to' to Htr' Htr)). subst to'.
    destruct (mlit_keys sd cmds nc ncp ns ord Tw Hglt) as [K1 K2].
    apply (tbl_has_assoc _ _ _ _ K1 K2) in Hh. destruct Hh as [row [Hr Hk]].
    apply (enabled_in Tw s row w to Hr). exists lid. split; [| exact Hk].
    apply (indexed_lit sd cmds nc ncp ns ord Tw Hglt). eauto.
  Qed.

  Lemma cmd_item s S cm l to : wrel s S -> trans_on sd s (ICmd cm l) to -> exists k, In (WCmd cm l, k) (mvs S).
  Proof.
    intros R Htr. destruct (wtrans_item s S _ to R Htr) as [a0 [k [Hin Ha]]].
    destruct a0; cbn in Ha; try discriminate. inversion Ha; subst. exists k. exact Hin.
  Qed.

  Lemma cmd_row_complete s S cm l to : wrel s S -> trans_on sd s (ICmd cm l) to ->
    exists ct row cid, t_mcmd Tw = Some ct /\ assocN s ct = Some row /\ Tables.index_of cm cmds = Some cid /\ In (cid, to) row.
  Proof.
    intros R Htr.
    destruct (mcmd_row_has sd cmds nc ncp ns ord Tw Hwf Hglt s cm l to (Hnc s cm l to Htr) Htr) as [ct [row [cid [to' [Ect [Er [Hidx Hk]]]]]]].
    exists ct, row, cid. split; [exact Ect | split; [exact Er | split; [exact Hidx |]]].
    destruct (mcmd_row_sound sd cmds nc ncp ns ord Tw Hwf Hglt ct s row cid to' Ect Er Hk) as [cm' [l' [Hidx' Htr']]].
    pose proof (index_of_inj _ _ _ _ Hidx' Hidx) as E. subst cm'.
    destruct (cmd_item s S cm l to R Htr) as [k1 H1]. destruct (cmd_item s S cm l' to' R Htr') as [k2 H2].
    rewrite (proj1 (proj2 (wpoint s S R)) cm l' l k2 k1 H2 H1) in Htr'.
    rewrite <- (trans_fun s _ to' to Htr' Htr). exact Hk.
  Qed.

  Lemma star_row s S : wrel s S ->
    (match t_mstar Tw with Some stars => has_key s stars | None => false end) = has_any (mvs S).
  Proof.
    intro R.
    assert (E : (match t_mstar Tw with Some stars => has_key s stars | None => false end)
                = match star_target Tw s with Some _ => true | None => false end)
      by (unfold star_target, has_key; destruct (t_mstar Tw); reflexivity).
    rewrite E.
    destruct (has_any (mvs S)) eqn:Ha.
    - unfold has_any in Ha. apply existsb_exists in Ha. destruct Ha as [[a0 k] [Hin Hk]]. cbn [fst] in Hk. destruct a0; try discriminate.
      destruct (witem_trans s S _ k R Hin) as [t Htr]. cbn [inp_of_wleaf] in Htr.
      pose proof (star_target_complete sd cmds nc ncp ns ord Tw Hwf Hglt s t (Hns s t Htr) Htr) as Hst.
      destruct (star_target Tw s); [reflexivity | contradiction].
    - destruct (star_target Tw s) as [to |] eqn:Est; [exfalso | reflexivity].
      apply (star_target_sound sd cmds nc ncp ns ord Tw Hwf Hglt) in Est.
      destruct (wtrans_item s S _ to R Est) as [a0 [k [Hin Hi]]]. destruct a0; cbn in Hi; try discriminate.
      assert (Ht : has_any (mvs S) = true) by (unfold has_any; apply existsb_exists; exists (WAny, k); split; [exact Hin | reflexivity]).
      congruence.
  Qed.

  (** a piece that properly extends what is left excludes every piece that begins it *)
  Lemma extends_stops s S a0 k0 o0 sub : wrel s S -> etok en S a0 k0 o0 -> String.prefix sub o0 = true -> o0 <> sub ->
    forall a1 k1 o1, etok en S a1 k1 o1 -> String.prefix o1 sub = false.
  Proof.
    intros R E0 Hp Hne a1 k1 o1 E1. destruct (String.prefix o1 sub) eqn:Ep; [exfalso | reflexivity].
    destruct (etok_prefix en x Henvw S a1 k1 o1 a0 k0 o0 (wr_inv _ _ R) E1 E0 (prefix_trans _ _ _ Ep Hp)) as [-> _].
    apply Hne. apply prefix_antisym; assumption.
  Qed.

  Definition lit_stage_res (b : bool) (s : N) (sub : string) : BashSem.step :=
    match assocN s (t_mlit Tw) with
    | Some st => lit_loop_str b (indexed_from 0 (literal_texts Tw)) st sub
    | None => SNone
    end.

  Lemma lit_stage b s S sub : wrel s S ->
    match lit_stage_res b s sub with
    | SCont to n => exists t d l k, In (WLit t d l, k) (mvs S) /\ String.prefix t sub = true /\ n = String.length t
                                    /\ trans_on sd s (ILit t d l) to
    | SBreak => b = true /\ forall a0 k o, etok en S a0 k o -> String.prefix o sub = false
    | SNone => forall t d l k, In (WLit t d l, k) (mvs S) -> String.prefix t sub = false
    end.
  Proof.
    intro R. unfold lit_stage_res.
    assert (Hnone : (forall t to, In (t, to) (enabled Tw s) -> String.prefix t sub = false) ->
                    forall t d l k, In (WLit t d l, k) (mvs S) -> String.prefix t sub = false).
    { intros Hen t d l k Hin. destruct (witem_trans s S _ k R Hin) as [to Htr]. cbn [inp_of_wleaf] in Htr.
      apply (Hen t to). apply (enabled_complete s S t d l to R Htr). }
    destruct (assocN s (t_mlit Tw)) as [st |] eqn:Es.
    - destruct (lit_loop_str b (indexed_from 0 (literal_texts Tw)) st sub) as [to n | |] eqn:Ell.
      + destruct (lls_cont _ _ _ _ _ _ Ell) as [lid [lit [Hin [Ha [Hp ->]]]]].
        assert (Hen : In (lit, to) (enabled Tw s)) by (apply (enabled_in Tw s st lit to Es); eauto).
        destruct (enabled_sound s lit to Hen) as [dso [lvl Htr]]. destruct (lit_item s S lit dso lvl to R Htr) as [k Hmv].
        exists lit, dso, lvl, k. split; [exact Hmv | split; [exact Hp | split; [reflexivity | exact Htr]]].
      + destruct (lls_break _ _ _ _ Ell) as [Eb [lid [lit [to [Hin [Ha [Hp Hne]]]]]]]. split; [exact Eb |].
        assert (Hen : In (lit, to) (enabled Tw s)) by (apply (enabled_in Tw s st lit to Es); eauto).
        destruct (enabled_sound s lit to Hen) as [dso [lvl Htr]]. destruct (lit_item s S lit dso lvl to R Htr) as [k Hmv].
        apply (extends_stops s S (WLit lit dso lvl) k lit sub R (conj Hmv eq_refl) Hp Hne).
      + apply Hnone. intros t to Hen. apply (enabled_in Tw s st t to Es) in Hen. destruct Hen as [lid [Hin Ha]].
        apply (lls_none _ _ _ _ Ell lid t to Hin Ha).
    - apply Hnone. intros t to Hen. unfold enabled in Hen. rewrite Es in Hen. destruct Hen.
  Qed.

  Lemma cmd_stage b s S sub mp : wrel s S -> sub <> EmptyString ->
    exists r,
      (forall log, exists log',
        (match t_mcmd Tw with
         | Some ct => match assocN s ct with
                      | Some row => cmd_loop Repaired b a benv (assoc_of row) sub mp log
                      | None => Ok (SNone, log)
                      end
         | None => Ok (SNone, log)
         end) = Ok (r, log'))
      /\ match r with
         | SCont to n => exists c l k o, In (WCmd c l, k) (mvs S) /\ In o (candidates en c) /\ String.prefix o sub = true
                                         /\ n = String.length o /\ trans_on sd s (ICmd c l) to
         | SBreak => b = true /\ forall a0 k o, etok en S a0 k o -> String.prefix o sub = false
         | SNone => forall c l k o, In (WCmd c l, k) (mvs S) -> In o (candidates en c) -> String.prefix o sub = false
         end.
  Proof.
    intros R Hsub.
    assert (Hnorow : (forall ct row, t_mcmd Tw = Some ct -> assocN s ct = Some row -> False) ->
                     forall c l k o, In (WCmd c l, k) (mvs S) -> In o (candidates en c) -> String.prefix o sub = false).
    { intros Hno c l k o Hin _. exfalso. destruct (witem_trans s S _ k R Hin) as [to Htr]. cbn [inp_of_wleaf] in Htr.
      destruct (cmd_row_complete s S c l to R Htr) as [ct [row [cid [Ect [Er _]]]]]. apply (Hno ct row Ect Er). }
    destruct (t_mcmd Tw) as [ct |] eqn:Ect.
    - destruct (assocN s ct) as [row |] eqn:Er.
      + pose proof (mcmd_row_keys sd cmds nc ncp ns ord Tw Hglt ct s row Ect Er) as Krow.
        assert (Hentry : forall cid to, In (cid, to) (assoc_of row) ->
                   exists cm l k, Tables.index_of cm cmds = Some cid /\ trans_on sd s (ICmd cm l) to /\ In (WCmd cm l, k) (mvs S)
                                  /\ ccands benv cid = candidates en cm).
        { intros cid to Hin. apply (assoc_of_in row Krow) in Hin.
          destruct (mcmd_row_sound sd cmds nc ncp ns ord Tw Hwf Hglt ct s row cid to Ect Er Hin) as [cm [l [Hidx Htr]]]. destruct (cmd_item s S cm l to R Htr) as [k Hmv].
          exists cm, l, k. split; [exact Hidx | split; [exact Htr | split; [exact Hmv | apply (Hcenv cm cid Hidx)]]]. }
        destruct (cmd_loop_spec a benv b sub mp (assoc_of row)) as [r [E Hspec]].
        { intros cid to Hin. destruct (Hentry cid to Hin) as [cm [l [k [Hidx _]]]]. rewrite Hcmds, (index_of_nth _ _ _ Hidx). discriminate. }
        exists r. split; [exact E |]. destruct r as [to n | |].
        * destruct Hspec as [cid [c0 [Hin [Hc0 [Hp [-> Hne0]]]]]]. destruct (Hentry cid to Hin) as [cm [l [k [Hidx [Htr [Hmv Hcc]]]]]].
          rewrite Hcc in Hc0. exists cm, l, k, c0. split; [exact Hmv | split; [exact Hc0 | split; [exact Hp | split; [reflexivity | exact Htr]]]].
        * destruct Hspec as [Eb [cid [to [c0 [Hin [Hc0 [Hp Hne]]]]]]]. split; [exact Eb |].
          destruct (Hentry cid to Hin) as [cm [l [k [Hidx [Htr [Hmv Hcc]]]]]]. rewrite Hcc in Hc0.
          apply (extends_stops s S (WCmd cm l) k c0 sub R (conj Hmv Hc0) Hp Hne).
        * intros c l k o Hmv Hc. destruct (witem_trans s S _ k R Hmv) as [to Htr]. cbn [inp_of_wleaf] in Htr.
          destruct (cmd_row_complete s S c l to R Htr) as [ct' [row' [cid [Ect' [Er' [Hidx Hin]]]]]].
          rewrite Ect in Ect'. inversion Ect'; subst ct'. rewrite Er in Er'. inversion Er'; subst row'.
          apply (assoc_of_in row Krow) in Hin.
          assert (Hcc : In o (ccands benv cid)) by (unfold ccands; rewrite (Hcenv c cid Hidx); exact Hc).
          destruct (etok_src en x Henvw S _ _ _ (wr_inv _ _ R) (conj Hmv Hc : etok en S (WCmd c l) k o)) as [Hne _].
          apply (proj1 (Hspec cid to o Hin Hcc) Hne).
      + exists SNone. split; [intro log; exists log; reflexivity |]. apply Hnorow. intros ct' row' E1 E2. inversion E1; subst. congruence.
    - exists SNone. split; [intro log; exists log; reflexivity |]. apply Hnorow. intros ct' row' E1 E2. discriminate.
  Qed.

  Lemma lit_call b s sub :
    (match assocN s (t_mlit Tw) with
     | Some st => lit_loop Repaired b (indexed_from 0 (literal_texts Tw)) st sub
     | None => Ok SNone
     end) = Ok (lit_stage_res b s sub).
  Proof. unfold lit_stage_res. destruct (assocN s (t_mlit Tw)); reflexivity. Qed.

  (** one round of the loop, past the tests that end it *)
  Lemma sw_loop_round b f acc word s ci log : Nat.leb (String.length word) ci = false -> star_first Repaired b Tw s = false ->
    sw_loop (Datatypes.S f) Repaired b a benv Tw acc word s ci log
    = match lit_stage_res b s (Glob.sdrop ci word) with
      | SCont st adv => sw_loop f Repaired b a benv Tw acc word st (ci + adv) log
      | SBreak => Ok (false, s, ci, log)
      | SNone =>
          do (s2, log2) <- (match t_mcmd Tw with
                            | Some ct => match assocN s ct with
                                         | Some row => cmd_loop Repaired b a benv (assoc_of row) (Glob.sdrop ci word) (stake ci word) log
                                         | None => Ok (SNone, log)
                                         end
                            | None => Ok (SNone, log)
                            end);
          match s2 with
          | SCont st adv => sw_loop f Repaired b a benv Tw acc word st (ci + adv) log2
          | SBreak => Ok (false, s, ci, log2)
          | SNone => match t_mstar Tw with
                     | Some stars => if has_key s stars then Ok (true, s, ci, log2) else Ok (false, s, ci, log2)
                     | None => Ok (false, s, ci, log2)
                     end
          end
      end.
  Proof.
    intros El Hsf. cbn [sw_loop]. rewrite El, Hsf.
    match goal with |- context [obind ?X _] =>
      assert (EL : X = Ok (lit_stage_res b s (Glob.sdrop ci word))) by apply lit_call; rewrite EL end.
    cbn [obind]. reflexivity.
  Qed.

  (** the round consumes a piece that begins what is left and goes on, or stops where none does *)
  Lemma sw_round b f acc word s S ci : wrel s S -> Nat.leb (String.length word) ci = false -> star_first Repaired b Tw s = false ->
    (exists a0 k o to, etok en S a0 k o /\ String.prefix o (Glob.sdrop ci word) = true /\ wrel to (nextS S a0)
        /\ forall log, exists log1, sw_loop (Datatypes.S f) Repaired b a benv Tw acc word s ci log
                                    = sw_loop f Repaired b a benv Tw acc word to (ci + String.length o) log1)
    \/ ((forall a0 k o, etok en S a0 k o -> String.prefix o (Glob.sdrop ci word) = false)
        /\ exists r, (b = false -> r = false)
                     /\ forall log, exists log1, sw_loop (Datatypes.S f) Repaired b a benv Tw acc word s ci log = Ok (r, s, ci, log1)).
  Proof.
    intros R El Hsf. pose proof (fun log => sw_loop_round b f acc word s ci log El Hsf) as Hround. set (sub := Glob.sdrop ci word) in *.
    assert (Hsubne : sub <> EmptyString).
    { apply Nat.leb_gt in El. intro E. pose proof (length_sdrop ci word) as Hlen. fold sub in Hlen. rewrite E in Hlen. cbn in Hlen. lia. }
    pose proof (lit_stage b s S sub R) as Hl.
    destruct (cmd_stage b s S sub (stake ci word) R Hsubne) as [r0 [Ec0 Hc]].
    assert (Hstop : forall r, (b = false -> r = false) ->
               (forall log, exists log1, sw_loop (Datatypes.S f) Repaired b a benv Tw acc word s ci log = Ok (r, s, ci, log1)) ->
               (forall a0 k o, etok en S a0 k o -> String.prefix o sub = false) ->
               (forall a0 k o, etok en S a0 k o -> String.prefix o sub = false)
               /\ exists r, (b = false -> r = false)
                     /\ forall log, exists log1, sw_loop (Datatypes.S f) Repaired b a benv Tw acc word s ci log = Ok (r, s, ci, log1)).
    { intros r Hr E Hs. split; [exact Hs | exists r; split; assumption]. }
    destruct (lit_stage_res b s sub) as [to n | |] eqn:Els.
    - left. destruct Hl as [t [d [l [k [Hmv [Hp [-> Htr]]]]]]].
      exists (WLit t d l), k, t, to. split; [split; [exact Hmv | reflexivity] | split; [exact Hp | split; [apply (wrel_lit s S t d l k to R Hmv Htr) |]]].
      intro log. exists log. apply Hround.
    - right. destruct Hl as [Eb Hs]. apply (Hstop false); [reflexivity | intro log; exists log; apply Hround | exact Hs].
    - destruct r0 as [to n | |].
      + left. destruct Hc as [c [l [k [o [Hmv [Hco [Hp [-> Htr]]]]]]]].
        exists (WCmd c l), k, o, to. split; [split; [exact Hmv | exact Hco] | split; [exact Hp | split; [apply (wrel_cmd s S c l k to R Hmv Htr) |]]].
        intro log. rewrite Hround. destruct (Ec0 log) as [log1 Ec]. exists log1.
        match goal with |- context [obind ?X _] => assert (EE : X = Ok (_, log1)) by exact Ec; rewrite EE end. reflexivity.
      + right. destruct Hc as [Eb Hs]. apply (Hstop false); [reflexivity | | exact Hs].
        intro log. rewrite Hround. destruct (Ec0 log) as [log1 Ec]. exists log1.
        match goal with |- context [obind ?X _] => assert (EE : X = Ok (_, log1)) by exact Ec; rewrite EE end. reflexivity.
      + right. apply (Hstop (match t_mstar Tw with Some stars => has_key s stars | None => false end)).
        * intros ->. exact Hsf.
        * intro log. rewrite Hround. destruct (Ec0 log) as [log1 Ec]. exists log1.
          match goal with |- context [obind ?X _] => assert (EE : X = Ok (_, log1)) by exact Ec; rewrite EE end. cbn [obind].
          destruct (t_mstar Tw) as [stars |]; [destruct (has_key s stars) |]; reflexivity.
        * intros a0 k o [Hmv Ht]. destruct a0 as [t d l | c l |]; cbn in Ht.
          -- subst o. apply (Hl t d l k Hmv).
          -- apply (Hc c l k o Hmv Ht).
          -- destruct Ht.
  Qed.

  Lemma accept_eq s S : wrel s S -> memN s (d_accepting sd) = existsb nullable S.
  Proof.
    intro R. pose proof (simR_accepting sd _ s S (wr_sim _ _ R)) as H. unfold is_accepting in H.
    destruct (existsb nullable S) eqn:E.
    - apply H. apply existsb_exists in E. destruct E as [k [Hk Hn]]. eauto.
    - destruct (memN s (d_accepting sd)) eqn:Em; [| reflexivity]. destruct (proj1 H eq_refl) as [k [Hk Hn]].
      assert (existsb nullable S = true) by (apply existsb_exists; eauto). congruence.
  Qed.

  Lemma star_first_any s S : wrel s S -> star_first Repaired false Tw s = has_any (mvs S).
  Proof. intro R. unfold star_first. cbn [quirky negb andb]. apply (star_row s S R). Qed.

  Theorem sw_match_splits word : forall f s S ci log, wrel s S -> (String.length word - ci < f)%nat ->
    exists m st' ci' log',
      sw_loop f Repaired false a benv Tw (d_accepting sd) word s ci log = Ok (m, st', ci', log')
      /\ (m = true <-> splits_all en S (Glob.sdrop ci word)).
  Proof.
    induction f as [| f IH]; intros s S ci log R Hf; [lia |].
    destruct (Nat.leb (String.length word) ci) eqn:El.
    - exists (memN s (d_accepting sd)), s, ci, log. split; [cbn [sw_loop quirky orb]; rewrite El; reflexivity |].
      apply Nat.leb_le in El. rewrite (gsdrop_nil_iff ci word El), (accept_eq s S R). symmetry. apply splits_nil_iff.
    - assert (Hsubne : Glob.sdrop ci word <> EmptyString).
      { apply Nat.leb_gt in El. intro E. pose proof (length_sdrop ci word) as Hlen. rewrite E in Hlen. cbn in Hlen. lia. }
      destruct (star_first Repaired false Tw s) eqn:Hsf.
      + exists true, s, ci, log. split; [cbn [sw_loop]; rewrite El, Hsf; reflexivity |]. split; [intros _ | reflexivity].
        rewrite (star_first_any s S R) in Hsf. unfold has_any in Hsf. apply existsb_exists in Hsf.
        destruct Hsf as [[a0 k] [Hmv Hk]]. cbn [fst] in Hk. destruct a0; try discriminate.
        apply (splits_any en x Hdom S _ k (wr_inv _ _ R) Hmv Hsubne).
      + pose proof Hsf as Hany. rewrite (star_first_any s S R) in Hany.
        destruct (sw_round false f (d_accepting sd) word s S ci R El Hsf) as [[a0 [k [o [to [He [Hp [R1 Hstep]]]]]]] | [Hstop [r [Hr Hres]]]].
        * destruct (etok_src en x Henvw S _ _ _ (wr_inv _ _ R) He) as [Hne _]. destruct (Hstep log) as [log1 E1].
          destruct (IH to _ (ci + String.length o)%nat log1 R1) as [m [st' [ci' [log' [E Hm]]]]].
          { apply Nat.leb_gt in El. destruct o; [contradiction | cbn [String.length]; lia]. }
          exists m, st', ci', log'. split; [rewrite E1; exact E |]. rewrite Hm, gsdrop_add, (gsdrop_eq (String.length o)). symmetry.
          apply (splits_round en x Henvw S a0 k o _ (wr_inv _ _ R) Hany He Hp).
        * destruct (Hres log) as [log1 E1]. exists r, s, ci, log1. split; [exact E1 |]. rewrite (Hr eq_refl).
          split; [discriminate |]. intro H. exfalso. apply (splits_stop en S _ Hany Hsubne Hstop H).
  Qed.

  Theorem subword_matches_gen w : d_start sd = 0 ->
    forall log, exists log', subword_matches Repaired a benv Tw (d_accepting sd) w log = Ok (waccepts en x w, log').
  Proof.
    intros H0 log. unfold subword_matches, subword_matches_from.
    destruct (sw_match_splits w (sw_fuel Tw w) 0 [x] 0%nat log) as [m [st' [ci' [log' [E Hm]]]]].
    - rewrite <- H0. apply wrel_start.
    - unfold sw_fuel. lia.
    - rewrite E. cbn [obind]. exists log'. cbn [Glob.sdrop] in Hm. rewrite <- (waccepts_splits en x w) in Hm.
      destruct m, (waccepts en x w); try reflexivity; [symmetry in Hm | ]; exfalso; [assert (false = true) by (apply Hm; reflexivity) | assert (false = true) by (apply Hm; reflexivity)]; discriminate.
  Qed.

  Theorem sw_complete_grun word acc : forall f s S ci, wrel s S -> (String.length word - ci < f)%nat ->
    exists b st' ci' S' mp,
      (forall log, exists log', sw_loop f Repaired true a benv Tw acc word s ci log = Ok (b, st', ci', log'))
      /\ grun en S (Glob.sdrop ci word) S' mp (Glob.sdrop ci' word) /\ wrel st' S'.
  Proof.
    induction f as [| f IH]; intros s S ci R Hf; [lia |].
    destruct (Nat.leb (String.length word) ci) eqn:El.
    - exists true, s, ci, S, EmptyString. split; [| split; [| exact R]].
      + intro log. exists log. cbn [sw_loop quirky orb]. rewrite El. reflexivity.
      + apply Nat.leb_le in El. rewrite (gsdrop_nil_iff ci word El). apply gr_stop. intros a0 k o E.
        destruct (etok_src en x Henvw S _ _ _ (wr_inv _ _ R) E) as [Hne _]. destruct o; [contradiction | reflexivity].
    - destruct (sw_round true f acc word s S ci R El eq_refl) as [[a0 [k [o [to [He [Hp [R1 Hstep]]]]]]] | [Hstop [r [_ Hres]]]].
      + destruct (etok_src en x Henvw S _ _ _ (wr_inv _ _ R) He) as [Hne _].
        destruct (IH to _ (ci + String.length o)%nat R1) as [b [st' [ci' [S' [mp [E1 [Hg R']]]]]]].
        { apply Nat.leb_gt in El. destruct o; [contradiction | cbn [String.length]; lia]. }
        exists b, st', ci', S', (append o mp). split; [| split; [| exact R']].
        * intro log. destruct (Hstep log) as [log1 Es]. destruct (E1 log1) as [log' E']. exists log'. rewrite Es. exact E'.
        * rewrite gsdrop_add in Hg. rewrite (prefix_split o _ Hp), <- gsdrop_eq. eapply gr_step; [exact He | exact Hg].
      + exists r, s, ci, S, EmptyString. split; [exact Hres | split; [apply gr_stop; exact Hstop | exact R]].
  Qed.

  Definition woffered (st : N) (mp cp : string) (L : nat) : list string :=
    filter (String.prefix (append mp cp)) (map (fun id => append mp (literal_at Tw id)) (level_row (t_clit Tw) L st))
    ++ match t_ccmd Tw with Some cc => cmds_off benv cp mp (level_row cc L st) | None => [] end.

  Lemma sw_levels_gen st mp cp : printable_str (append mp cp) = true -> printable_str cp = true ->
    forall n L sc log, exists log', sw_levels n L Repaired a benv Tw st mp cp sc [] log = Ok (first_nonempty (woffered st mp cp) n L, log').
  Proof.
    intros Hp Hpc. induction n as [| n IH]; intros L sc log; cbn [sw_levels first_nonempty quirky]; [eauto |].
    cbn [List.app]. rewrite (match_fn_prefix_filter benv _ _ Hic Hp). cbn [obind List.app]. unfold woffered at 1.
    set (lits := filter (String.prefix (append mp cp)) (map (fun id => append mp (literal_at Tw id)) (level_row (t_clit Tw) L st))).
    destruct (t_ccmd Tw) as [cc |] eqn:Ecc.
    - destruct (sw_cmds_level_gen a benv Hic cp mp Hpc (level_row cc L st)
                  (map (fun id => append mp (literal_at Tw id)) (level_row (t_clit Tw) L st)) lits) as [sc' E0].
      { intros cid Hcid. apply (level_row_cmd sd cmds nc ncp ns ord Tw Hwf Hglt cc L st cid Ecc) in Hcid. destruct Hcid as [cm [to [_ Hidx]]].
        rewrite Hcmds, (index_of_nth _ _ _ Hidx). discriminate. }
      destruct (E0 log) as [log1 E]. rewrite E. cbn [obind]. destruct (lits ++ cmds_off benv cp mp (level_row cc L st)) as [| m ms]; [apply IH | eauto].
    - cbn [obind]. rewrite app_nil_r. destruct lits as [| m ms]; [apply IH | eauto].
  Qed.

  Lemma woffered_spec st S' mp cp L o : wrel st S' ->
    (In o (woffered st mp cp L) <-> exists o', o = append mp o' /\ offers en S' cp (N.of_nat L) o').
  Proof.
    intro R. unfold woffered. rewrite in_app_iff. split.
    - intros [H | H].
      + apply filter_In in H. destruct H as [H Hp]. apply in_map_iff in H. destruct H as [id [<- Hid]].
        rewrite <- (Nat2N.id L) in Hid.
        apply (level_row_lit sd cmds nc ncp ns ord Tw Hwf Hord Hglt) in Hid. destruct Hid as [text [dso [to [Htr Hl]]]].
        rewrite (literal_at_lit sd cmds nc ncp ns ord Tw Hglt id text _ Hl) in *.
        destruct (lit_item st S' text dso _ to R Htr) as [k Hmv].
        exists text. split; [reflexivity |]. exists (WLit text dso (N.of_nat L)), k. split; [exact Hmv |]. cbn.
        rewrite prefix_app in Hp. auto.
      + destruct (t_ccmd Tw) as [cc |] eqn:Ecc; [| destruct H].
        unfold cmds_off in H. apply in_flat_map in H. destruct H as [cid [Hcid H]].
        apply in_map_iff in H. destruct H as [o' [<- Ho]]. apply filter_In in Ho. destruct Ho as [Ho Hp].
        apply (level_row_cmd sd cmds nc ncp ns ord Tw Hwf Hglt cc L st cid Ecc) in Hcid. destruct Hcid as [cm [to [Htr Hidx]]].
        destruct (cmd_item st S' cm _ to R Htr) as [k Hmv].
        exists o'. split; [reflexivity |]. exists (WCmd cm (N.of_nat L)), k. split; [exact Hmv |]. cbn.
        unfold ccands in Ho. rewrite (Hcenv cm cid Hidx) in Ho. auto.
    - intros [o' [-> [a0 [k [Hmv Hoff]]]]]. destruct a0 as [t d l | c l |]; cbn [item_offer] in Hoff.
      + destruct Hoff as [-> [-> Hp]]. left.
        destruct (witem_trans st S' _ k R Hmv) as [to Htr]. cbn [inp_of_wleaf] in Htr.
        pose proof Htr as [i [_ Hn]]. destruct (valid_order_covers sd ord 0 i t d _ Hvalid Hn) as [id Hl].
        apply filter_In. split; [| rewrite prefix_app; exact Hp]. apply in_map_iff.
        exists id. split; [rewrite (literal_at_lit sd cmds nc ncp ns ord Tw Hglt id t _ Hl); reflexivity |].
        rewrite <- (Nat2N.id L). apply (level_row_lit sd cmds nc ncp ns ord Tw Hwf Hord Hglt). eauto.
      + destruct Hoff as [-> [Hc Hp]]. right.
        destruct (witem_trans st S' _ k R Hmv) as [to Htr]. cbn [inp_of_wleaf] in Htr.
        destruct (cmd_row_complete st S' c _ to R Htr) as [ct [row [cid [_ [_ [Hidx _]]]]]].
        destruct (ccmd_some sd cmds nc ncp ns ord Tw Hglt (Hnc st c _ to Htr)) as [cc Ecc].
        rewrite Ecc. unfold cmds_off. apply in_flat_map. exists cid. split.
        * apply (level_row_cmd sd cmds nc ncp ns ord Tw Hwf Hglt cc L st cid Ecc). eauto.
        * apply in_map_iff. exists o'. split; [reflexivity |]. apply filter_In. split; [| exact Hp].
          unfold ccands. rewrite (Hcenv c cid Hidx). exact Hc.
      + destruct Hoff.
  Qed.

  Lemma offers_range st S' cp l o' : wrel st S' -> offers en S' cp l o' -> (N.to_nat l < Datatypes.S (N.to_nat (t_maxlevel Tw)))%nat.
  Proof.
    intros R [a0 [k [Hmv Hoff]]]. destruct a0 as [t d l0 | c l0 |]; cbn [item_offer] in Hoff.
    - destruct Hoff as [-> _]. destruct (witem_trans st S' _ k R Hmv) as [to Htr]. cbn [inp_of_wleaf] in Htr.
      apply (level_in_range sd cmds nc ncp ns ord Tw Hwf Hord Hglt l st t d to Hvalid Htr).
    - destruct Hoff as [-> _]. destruct (witem_trans st S' _ k R Hmv) as [to Htr]. cbn [inp_of_wleaf] in Htr.
      destruct (cmd_row_complete st S' c l to R Htr) as [ct [row [cid [_ [_ [Hidx _]]]]]].
      destruct (ccmd_some sd cmds nc ncp ns ord Tw Hglt (Hnc st c l to Htr)) as [cc Ecc].
      apply (cmd_level_in_range sd cmds nc ncp ns ord Tw Hglt cc l st cid Ecc).
      apply (level_row_cmd sd cmds nc ncp ns ord Tw Hwf Hglt cc _ st cid Ecc). rewrite N2Nat.id. eauto.
    - destruct Hoff.
  Qed.

  Theorem subword_complete_gen p : d_start sd = 0 -> printable_str p = true ->
    exists reply, (forall log, exists log', subword_complete Repaired a benv Tw p log = Ok (reply, log'))
                  /\ forall o, In o reply <-> In o (wproper en x p).
  Proof.
    intros H0 Hpr.
    assert (R0 : wrel 0 [x]) by (rewrite <- H0; apply wrel_start).
    destruct (sw_complete_grun p [] (sw_fuel Tw p) 0 [x] 0%nat R0) as [b [st' [ci' [S' [mp [E [Hg R']]]]]]]; [unfold sw_fuel; lia |].
    cbn [Glob.sdrop] in Hg.
    destruct (cand_grun en x Hdom Henvw [x] p S' mp _ Hg (wr_inv _ _ R0)) as [Ep [_ [_ Hiff]]].
    assert (Emp : mp = stake ci' p).
    { pose proof (stake_sdrop ci' p) as Es. rewrite <- Es in Ep at 1. eapply append_cancel_r. symmetry. exact Ep. }
    subst mp.
    exists (first_nonempty (woffered st' (stake ci' p) (Glob.sdrop ci' p)) (Datatypes.S (N.to_nat (t_maxlevel Tw))) 0). split.
    - intro log. unfold subword_complete, subword_complete_from. destruct (E log) as [log1 E1]. rewrite E1. cbn [obind].
      apply sw_levels_gen; [rewrite stake_sdrop; exact Hpr | apply printable_gsdrop; exact Hpr].
    - unfold wproper. apply first_nonempty_lowest.
      + intros L o. rewrite filter_In. cbn [snd]. rewrite wcands_cand, negb_true_iff, String.eqb_neq, (Hiff (N.of_nat L) o).
        apply (woffered_spec st' S' _ _ L o R').
      + intros l o Hin. apply filter_In in Hin. destruct Hin as [Hin Hne']. cbn [snd] in Hne'. apply wcands_cand in Hin.
        apply negb_true_iff, String.eqb_neq in Hne'.
        destruct (proj1 (Hiff l o) (conj Hin Hne')) as [o' [_ Hoff]]. apply (offers_range st' S' _ l o' R' Hoff).
  Qed.
End WordSimG.
