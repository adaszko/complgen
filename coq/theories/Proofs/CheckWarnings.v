(** C15: the warning sets computed by the model of [from_grammar] are the sets of
    Spec/Warnings.v, and the warning bookkeeping has no influence on the validated expression. *)
From CG Require Import Base.Prelude Model.Ast Model.Check Spec.Choice Spec.Mistakes Spec.Warnings.
From CG Require Import Proofs.CheckChoice Proofs.CheckMistakes Proofs.CheckLemmas.

Lemma shell_defs_of_names g sh : map fst (shell_defs_of sh (all_defs g)) = shell_names g sh.
Proof.
  unfold shell_names, shell_defs_of, all_defs. induction g as [|s g IH]; cbn; [reflexivity|].
  destruct s as [n sp e|n sp [[shn shsp]|] rhs]; cbn; [exact IH| |exact IH].
  rewrite <- IH. destruct (is_shell shn sh); reflexivity.
Qed.

Lemma get_user_specs_spans target ds us :
  get_user_specs target ds [] = Ok us -> us_spans us = shell_defs_of target ds.
Proof.
  intro H. destruct (get_user_specs_ok _ _ _ H) as (-> & _ & Hc & _). apply user_view_spans. exact Hc.
Qed.

Lemma get_user_specs_commands target ds : forall acc us,
  get_user_specs target ds acc = Ok us ->
  forall n nsp s rhs, In (n, nsp, Some s, rhs) ds -> is_command rhs = true.
Proof.
  intros acc us H n nsp s rhs Hin. pose proof (get_user_specs_spec target ds acc) as S. rewrite H in S.
  destruct S as (_ & _ & Hc & _). unfold ds_non_command in Hc.
  destruct (is_command rhs) eqn:E; [reflexivity|]. rewrite <- Hc.
  apply existsb_exists. eexists. split; [exact Hin|]. cbn. rewrite E. reflexivity.
Qed.

Lemma all_refs_command e : is_command e = true -> all_refs e = [].
Proof. destruct e; cbn; try discriminate. reflexivity. Qed.

Lemma call_exprs_variants g : call_exprs g = map snd (call_variants g).
Proof.
  unfold call_exprs, call_variants. induction g as [|s g IH]; cbn; [reflexivity|].
  destruct s; cbn; rewrite IH; reflexivity.
Qed.

Lemma expr0_refs g : all_refs (expr0_of g) = flat_map all_refs (call_exprs g).
Proof.
  rewrite call_exprs_variants. unfold expr0_of.
  destruct (map snd (call_variants g)) as [|e [|e' r]]; cbn; rewrite ?app_nil_r; reflexivity.
Qed.

Lemma referred_split g :
  (forall n nsp s rhs, In (n, nsp, Some s, rhs) (all_defs g) -> is_command rhs = true) ->
  forall x, In x (referred g) <->
            In x (flat_map (fun d => all_refs (d_rhs d)) (plain_defs_of (all_defs g))
                  ++ flat_map all_refs (call_exprs g)).
Proof.
  unfold referred, call_exprs, plain_defs_of, all_defs.
  induction g as [|s g IH]; intros Hc x; cbn; [tauto|].
  assert (Hc' : forall n nsp s rhs,
             In (n, nsp, Some s, rhs)
                (flat_map (fun s => match s with NontermDef n sp sh rhs => [(n, sp, sh, rhs)]
                                            | CallVariant _ _ _ => [] end) g) ->
             is_command rhs = true).
  { intros. eapply Hc. cbn. apply in_or_app. right. eassumption. }
  specialize (IH Hc' x). rewrite in_app_iff, IH. rewrite !in_app_iff.
  destruct s as [n sp e|n sp [s|] rhs]; cbn; rewrite ?in_app_iff.
  - tauto.
  - rewrite all_refs_command by (eapply Hc; cbn; left; reflexivity). cbn. tauto.
  - tauto.
Qed.

Lemma defs1_refs defs0 :
  map fst (flat_map (fun d => nonterm_refs (d_rhs d)) (defs1_of defs0))
  = flat_map (fun d => all_refs (d_rhs d)) defs0.
Proof.
  unfold defs1_of. induction defs0 as [|d r IH]; cbn; [reflexivity|].
  rewrite map_app, IH, distribute_descriptions_refs. reflexivity.
Qed.

Lemma referenced_referred builtins g sh v (A : accepted builtins g sh v) :
  forall x, In x (a_referenced _ _ _ _ A) <-> In x (referred g).
Proof.
  intro x. unfold a_referenced, referenced_of, a_defs1, a_expr1.
  rewrite map_app, defs1_refs, distribute_descriptions_refs, expr0_refs.
  pose proof (a_collect _ _ _ _ A) as Hc. apply collect_plain_defs_eq in Hc. cbn in Hc.
  destruct (proj1 (get_specializations_inv _ _ _ _) (a_specs _ _ _ _ A)) as [Hus _].
  rewrite referred_split by (eapply get_user_specs_commands; eassumption).
  rewrite Hc. tauto.
Qed.

Lemma unreferenced_names builtins g sh v (A : accepted builtins g sh v) (l : list (string * span)) :
  map fst (filter (fun p => negb (mem_str (fst p) (a_referenced _ _ _ _ A))) l)
  = filter (fun n => negb (mem_str n (referred g))) (map fst l).
Proof.
  induction l as [|[n sp] l IH]; cbn; [reflexivity|].
  rewrite (mem_str_ext n _ _ (referenced_referred _ _ _ _ A)).
  destruct (mem_str n (referred g)); cbn; rewrite IH; reflexivity.
Qed.

Theorem unused_plain_exact builtins g sh v :
  from_grammar builtins g sh = Ok v ->
  map fst (v_unused v) = unused_plain g /\ NoDup (map fst (v_unused v)) /\
  forall n sp, In (n, sp) (v_unused v) -> exists rhs, In (NontermDef n sp None rhs) g.
Proof.
  intro H. apply from_grammar_ok in H. rename H into A.
  pose proof (a_collect _ _ _ _ A) as Hc.
  assert (Hnd : NoDup (plain_names g)).
  { rewrite plain_names_all_defs. apply collect_plain_defs_ok_iff. eexists. exact Hc. }
  apply collect_plain_defs_eq in Hc. cbn in Hc.
  rewrite (a_v _ _ _ _ A). cbn [v_unused]. unfold unused_of.
  assert (Hn : map fst (map (fun d => (d_name d, d_span d)) (a_defs1 _ _ _ _ A)) = plain_names g).
  { unfold a_defs1, defs1_of. rewrite !map_map. cbn. rewrite plain_names_all_defs, Hc.
    apply plain_defs_of_names. }
  rewrite unreferenced_names, Hn. split; [reflexivity|]. split; [apply NoDup_filter; exact Hnd|].
  intros n sp Hin. apply filter_In in Hin. destruct Hin as [Hin _].
  unfold a_defs1, defs1_of in Hin. rewrite map_map in Hin. cbn in Hin.
  apply in_map_iff in Hin. destruct Hin as [d [Hd Hin]]. inversion Hd; subst. clear Hd.
  rewrite Hc in Hin. apply plain_defs_in in Hin. exists (d_rhs d). exact Hin.
Qed.

Theorem unused_for_shell_exact builtins g sh v :
  from_grammar builtins g sh = Ok v ->
  map fst (v_unused_specs v) = unused_for_shell g sh /\ NoDup (map fst (v_unused_specs v)) /\
  forall n sp, In (n, sp) (v_unused_specs v) ->
               exists shn shsp rhs, In (NontermDef n sp (Some (shn, shsp)) rhs) g /\
                                    is_shell shn sh = true.
Proof.
  intro H. apply from_grammar_ok in H. rename H into A.
  destruct (proj1 (get_specializations_inv _ _ _ _) (a_specs _ _ _ _ A)) as [Hus _].
  assert (Hnd : NoDup (map fst (shell_defs_of sh (all_defs g)))) by apply (get_user_specs_ok _ _ _ Hus).
  apply get_user_specs_spans in Hus.
  rewrite (a_v _ _ _ _ A). cbn [v_unused_specs]. unfold unused_specs_of.
  fold (us_spans (a_us _ _ _ _ A)). rewrite Hus.
  rewrite unreferenced_names. split; [rewrite shell_defs_of_names; reflexivity|]. split.
  - apply NoDup_filter. exact Hnd.
  - intros n sp Hin. apply filter_In in Hin. destruct Hin as [Hin _].
    unfold shell_defs_of in Hin. apply in_flat_map in Hin.
    destruct Hin as [[[[n' nsp] [[shn shsp]|]] rhs] [Hin Hd]]; [|destruct Hd].
    destruct (is_shell shn sh) eqn:Hsh; [|destruct Hd]. destruct Hd as [Hd|[]].
    inversion Hd; subst. exists shn, shsp, rhs. split; [|exact Hsh]. apply in_all_defs. exact Hin.
Qed.

(** [from_grammar_core] is [from_grammar] without the warning bookkeeping: the accepted command
    and expression are computed by passes that never read it. *)
Definition from_grammar_core (builtins : shell -> list (string * string)) (g : grammar) (sh : shell)
  : res (string * expr) :=
  match dedup_names [] (cv_names g) with
  | [] => Err MissingCallVariants
  | (command, command_span) :: more =>
      match more with
      | _ :: _ => Err (VaryingCommandNames (command_span :: map snd more))
      | [] =>
          if contains_char slash command then Err (InvalidCommandName command_span) else
          do defs0 <- collect_plain_defs (all_defs g) [];
          let defs1 := defs1_of defs0 in
          do specs <- get_specializations g sh;
          let spec := spec_of builtins sh (fst specs) (snd specs) defs1 in
          let defs2 := defs2_of spec defs1 in
          let expr2 := spec (distribute_descriptions (expr0_of g)) in
          do ord <- resolution_order defs2;
          let table := resolve_in_order ord (table0_of defs2) in
          do _ <- spaces table (spaces_fuel table expr2) expr2 [] false false;
          Ok (command, propagate (collapse (resolve table expr2)) 0)
      end
  end.

Definition outcome_map {E A B} (f : A -> B) (x : outcome E A) : outcome E B :=
  match x with Ok a => Ok (f a) | Err e => Err e | Panic s => Panic s | OutOfFuel => OutOfFuel end.

Theorem warnings_harmless builtins g sh :
  outcome_map (fun v => (v_command v, v_expr v)) (from_grammar builtins g sh)
  = from_grammar_core builtins g sh.
Proof.
  rewrite from_grammar_named_eq. unfold from_grammar_named, from_grammar_core.
  destruct (dedup_names [] (cv_names g)) as [|[command cspan] [|m more]]; try reflexivity.
  destruct (contains_char slash command); [reflexivity|].
  destruct (collect_plain_defs (all_defs g) []) as [defs0| | |]; try reflexivity.
  destruct (get_specializations g sh) as [[us fs]| | |]; try reflexivity.
  cbn [obind fst snd]. unfold back_end. cbn zeta.
  destruct (resolution_order _) as [ord| | |]; try reflexivity. cbn [obind].
  destruct (spaces _ _ _ [] false false) as [[]| | |]; reflexivity.
Qed.
