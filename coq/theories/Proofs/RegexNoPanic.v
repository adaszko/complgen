(** Panic-freedom of [check_ambiguities] (Model/Regex.v) on the regexes [from_expr] builds from a
    validated tree ([flat_subwords]: no composite word inside a composite word).

    The three [Panic] sites of the walk are
    - [input_at] ([inputs[pos]]): every position the walk looks up is a position of the tree other
      than the end marker, hence an index into the inputs ([okset]);
    - [check_each_sub] ([RegexInternPool::lookup]): every [RSub rid] input was interned, and the pool
      only grows ([subs_in]);
    - [is_star_subword] ([unreachable!()] on a [Subword] input): only run on pool regexes, whose
      inputs contain no [RSub] because the tree is [flat_subwords] ([pure_inputs]). *)
From CG Require Import Base.Prelude Model.Ast Model.Regex Spec.Lang.
From CG Require Import Proofs.RxLang Proofs.Glushkov Proofs.SubsetStmt Proofs.SubsetConstr.
From CG Require Import Proofs.LangDen Proofs.LangJudge Proofs.FromExpr.
From CG Require Import Base.Facts Proofs.TreeFacts Proofs.Walks Proofs.RegexFuel.

Lemma omap_total_Forall {E A B} (f : A -> outcome E B) (P : B -> Prop) (l : list A) :
  (forall a, In a l -> exists b, f a = Ok b /\ P b) ->
  exists bs, omap f l = Ok bs /\ Forall P bs.
Proof.
  induction l as [|a l IH]; intros H; cbn [omap].
  - exists []. split; [reflexivity|constructor].
  - destruct (H a (or_introl eq_refl)) as [b [Hb Pb]].
    destruct IH as [bs [Hbs Pbs]]; [intros a' Ha'; apply H; right; exact Ha'|].
    rewrite Hb, Hbs. cbn [obind]. exists (b :: bs). split; [reflexivity|constructor; assumption].
Qed.

Definition no_sub (i : rinput) : Prop :=
  match i with RSub _ _ _ => False | _ => True end.

Definition pure_inputs (l : list rinput) : Prop := Forall no_sub l.

Lemma pure_inputs_spec : forall l,
  pure_inputs l <-> forall rid lv sp, ~ In (RSub rid lv sp) l.
Proof.
  intros l. unfold pure_inputs. rewrite Forall_forall. split.
  - intros H rid lv sp Hin. exact (H _ Hin).
  - intros H i Hin. destruct i; cbn; auto. exact (H _ _ _ Hin).
Qed.

(** [regex_good] (Proofs/WfTrim.v) without the clauses the walk does not need *)
Definition regex_ranged (r : regex) : Prop :=
  exists t, r_tree r = with_end t (r_end r) /\
            in_range 0 (r_end r) (positions t) /\ r_end r = lenN (r_inputs r).

Definition pool_ok (rr : regex) : Prop := regex_ranged rr /\ pure_inputs (r_inputs rr).

Definition subs_in (pl : pool) (l : list rinput) : Prop :=
  forall rid lv sp, In (RSub rid lv sp) l -> exists rr, nthN pl rid = Some rr.

Lemma subs_in_mono : forall pl pl' l, prefix pl pl' -> subs_in pl l -> subs_in pl' l.
Proof.
  intros pl pl' l HP H rid lv sp Hin. destruct (H rid lv sp Hin) as [rr Hrr].
  exists rr. eapply prefix_nthN; eauto.
Qed.

Lemma subs_in_snoc_nosub : forall pl l x, no_sub x -> subs_in pl l -> subs_in pl (l ++ [x]).
Proof.
  intros pl l x Hx H rid lv sp Hin. apply in_app_iff in Hin. destruct Hin as [Hin|[Heq|[]]].
  - eapply H; eauto.
  - subst x. destruct Hx.
Qed.

Lemma pure_snoc : forall l x, no_sub x -> pure_inputs l -> pure_inputs (l ++ [x]).
Proof.
  intros l x Hx H. apply Forall_app. split; [exact H|]. constructor; [exact Hx|constructor].
Qed.

(** a tree without composite words interns nothing and pushes no within-word input *)
Lemma builder_pure :
  (forall e s pl id t s' pl', do_from_expr e s pl = Ok (id, t, s', pl') -> subword_free e = true ->
     pl' = pl /\ (pure_inputs (b_inputs s) -> pure_inputs (b_inputs s'))) /\
  (forall cs s pl ids ts s' pl', do_children do_from_expr cs s pl = Ok (ids, ts, s', pl') ->
     forallb subword_free cs = true ->
     pl' = pl /\ (pure_inputs (b_inputs s) -> pure_inputs (b_inputs s'))).
Proof.
  apply builder_run; auto.
  - intros e i Hi s pl _. split; [reflexivity|]. apply pure_snoc. destruct e; inversion Hi; exact I.
  - discriminate.
  - intros e cs sp [-> | ->]; auto.
  - intros c cs s pl id t s1 pl1 ids ts s2 pl2 _ IH1 _ IH2 Ha. cbn in Ha.
    apply andb_true_iff in Ha. destruct Ha as [Ha1 Ha2].
    destruct (IH1 Ha1) as [-> H1]. destruct (IH2 Ha2) as [-> H2]. auto.
Qed.

Lemma do_from_expr_pure : forall e s pl id t s' pl',
  subword_free e = true -> do_from_expr e s pl = Ok (id, t, s', pl') ->
  pl' = pl /\ (pure_inputs (b_inputs s) -> pure_inputs (b_inputs s')).
Proof. intros e s pl id t s' pl' Ha E. exact (proj1 builder_pure _ _ _ _ _ _ _ E Ha). Qed.

Lemma finish_ranged : forall c pl cid ct cs pl1,
  do_from_expr c empty_bst pl = Ok (cid, ct, cs, pl1) -> regex_ranged (finish_regex cid ct cs).
Proof.
  intros c pl cid ct cs pl1 E. exists ct.
  destruct (finish_regex_tree _ _ _ _ _ _ E _ eq_refl) as [Ht [_ [Rg He]]]. auto.
Qed.

(** only [pool_ok] regexes enter the pool, and every [RSub] input pushed names one of them *)
Lemma builder_pool :
  (forall e s pl id t s' pl', do_from_expr e s pl = Ok (id, t, s', pl') -> flat_subwords e = true ->
     Forall pool_ok pl -> subs_in pl (b_inputs s) -> Forall pool_ok pl' /\ subs_in pl' (b_inputs s')) /\
  (forall cs s pl ids ts s' pl', do_children do_from_expr cs s pl = Ok (ids, ts, s', pl') ->
     forallb flat_subwords cs = true ->
     Forall pool_ok pl -> subs_in pl (b_inputs s) -> Forall pool_ok pl' /\ subs_in pl' (b_inputs s')).
Proof.
  apply builder_run; auto.
  - intros e i Hi s pl _ Hp Hs. split; [exact Hp|]. apply subs_in_snoc_nosub; [|exact Hs].
    destruct e; inversion Hi; exact I.
  - intros c l sp s pl cid ct cs pl1 rid pl2 E1 _ Ei Ha Hp Hs.
    destruct (do_from_expr_pure _ _ _ _ _ _ _ Ha E1) as [-> Hpure].
    destruct (pool_intern_spec _ _ _ _ Ei) as [Hpre Hnth]. split.
    + apply (pool_intern_Forall _ _ _ _ _ Ei); [|exact Hp]. split; [exact (finish_ranged _ _ _ _ _ _ E1)|].
      destruct (finish_regex_fields cid ct cs) as [-> _]. apply Hpure. constructor.
    + intros rid' lv sp' Hin. apply in_app_iff in Hin. destruct Hin as [Hin|[Heq|[]]].
      * exact (subs_in_mono _ _ _ Hpre Hs _ _ _ Hin).
      * inversion Heq; subst. eauto.
  - intros e cs sp [-> | ->]; auto.
  - intros c cs s pl id t s1 pl1 ids ts s2 pl2 _ IH1 _ IH2 Ha Hp Hs. cbn in Ha.
    apply andb_true_iff in Ha. destruct Ha as [Ha1 Ha2].
    destruct (IH1 Ha1 Hp Hs) as [Hp1 Hs1]. exact (IH2 Ha2 Hp1 Hs1).
Qed.

Definition okset (r : regex) (S : list N) : Prop :=
  forall p, In p S -> p = r_end r \/ exists i, nthN (r_inputs r) p = Some i.

Definition fw_ok (r : regex) (fw : list (N * list N)) : Prop :=
  forall p s, assocN p fw = Some s -> okset r s.

Lemma ranged_pos : forall r t,
  r_tree r = with_end t (r_end r) -> in_range 0 (r_end r) (positions t) ->
  r_end r = lenN (r_inputs r) ->
  forall p, In p (positions (r_tree r)) -> p = r_end r \/ exists i, nthN (r_inputs r) p = Some i.
Proof.
  intros r t Ht Hrg Hend p Hp. rewrite Ht in Hp. apply positions_with_end in Hp.
  destruct Hp as [Hp|Hp]; [right|left; exact Hp].
  specialize (Hrg p Hp). apply nthN_lt_some. rewrite <- Hend. lia.
Qed.

Lemma ranged_first : forall r, regex_ranged r -> okset r (regex_first r).
Proof.
  intros r [t [Ht [Hrg Hend]]] p Hp. unfold regex_first in Hp. apply first_pos in Hp.
  eapply ranged_pos; eauto.
Qed.

Lemma ranged_follow : forall r, regex_ranged r -> fw_ok r (regex_follow r).
Proof.
  intros r [t [Ht [Hrg Hend]]] p s Ha q Hq.
  assert (Hin : In (p, q) (followpos (r_tree r))).
  { apply follow_table_tin. exists s. split; [exact Ha|exact Hq]. }
  apply follow_pos in Hin. destruct Hin as [_ Hin]. eapply ranged_pos; eauto.
Qed.

Lemma inputs_of_ok : forall r S, okset r S ->
  exists inputs, inputs_of r S = Ok inputs /\ Forall (fun i => In i (r_inputs r)) inputs.
Proof.
  intros r S HS. unfold inputs_of. apply omap_total_Forall. intros p Hp.
  apply filter_In in Hp. destruct Hp as [Hp Hne].
  destruct (HS p Hp) as [->|[i Hi]].
  - rewrite N.eqb_refl in Hne. discriminate.
  - exists i. unfold input_at. rewrite Hi. split; [reflexivity|].
    exact (nthN_In _ _ _ Hi).
Qed.

Lemma pure_sub : forall l m, pure_inputs l -> Forall (fun i => In i l) m -> pure_inputs m.
Proof.
  intros l m Hl Hm. unfold pure_inputs in *. rewrite Forall_forall in *.
  intros i Hi. apply Hl. apply Hm. exact Hi.
Qed.

Section TailOnlyNP.
  Variable r : regex.
  Variable fw : list (N * list N).
  Hypothesis Hpure : pure_inputs (r_inputs r).
  Hypothesis Hfw : fw_ok r fw.

  (** [r_end] is always visited, so the walk only indexes the inputs at positions in range *)
  Lemma tail_only_np : forall fuel S pp visited,
    okset r S -> In (r_end r) visited -> np (tail_only r fw fuel S pp visited).
  Proof.
    induction fuel as [|f IHf]; intros S pp visited HS Hend; [exact I|].
    cbn [tail_only].
    destruct (inputs_of_ok r S HS) as [inputs [-> _]]. cbn [obind].
    destruct (first_clash pp inputs); [exact I|].
    revert visited Hend. induction S as [|p rest IH]; intros visited Hend; [exact I|].
    cbn -[memN assocN tail_only].
    specialize (IH (fun q Hq => HS q (or_intror Hq))).
    destruct (memN p visited) eqn:Hm; [exact (IH _ Hend)|].
    destruct (assocN p fw) as [follow|] eqn:Ha; [|exact (IH _ Hend)].
    destruct (HS p (or_introl eq_refl)) as [->|[i Hi]].
    { apply memN_In in Hend. congruence. }
    unfold input_at. rewrite Hi. cbn [obind].
    assert (Hst : exists st, is_star_subword i = Ok st).
    { pose proof (proj1 (Forall_forall _ _) Hpure i (nthN_In _ _ _ Hi)) as Hpi.
      destruct i; cbn; eauto. destruct Hpi. }
    destruct Hst as [st ->]. cbn [obind].
    apply (post_bind any); [apply IHf; [exact (Hfw _ _ Ha) | right; exact Hend]|]. intros v1 H1 _.
    apply IH. exact (tail_only_grows _ _ _ _ _ _ _ H1 _ (or_intror Hend)).
  Qed.
End TailOnlyNP.

Theorem check_tail_only_np : forall rr, pool_ok rr -> np (check_tail_only rr).
Proof.
  intros rr [Hrg Hpure]. unfold check_tail_only.
  apply (post_bind any); [|intros; exact I].
  apply tail_only_np; [exact Hpure|apply ranged_follow; exact Hrg|apply ranged_first; exact Hrg|left; reflexivity].
Qed.

Lemma sub_ids_of_In : forall inputs rid,
  In rid (sub_ids_of inputs) -> exists lv sp, In (RSub rid lv sp) inputs.
Proof.
  intros inputs rid H. unfold sub_ids_of in H. apply in_flat_map in H.
  destruct H as [i [Hi Hrid]]. destruct i; cbn in Hrid; try contradiction.
  destruct Hrid as [<-|[]]. eauto.
Qed.

Section CheckSubwordsNP.
  Variable r : regex.
  Variable fw : list (N * list N).
  Variable pl : pool.
  Hypothesis Hfw : fw_ok r fw.
  Hypothesis Hpool : Forall pool_ok pl.
  Hypothesis Hsubs : subs_in pl (r_inputs r).

  Lemma check_each_sub_np : forall ids checked,
    (forall rid, In rid ids -> exists rr, nthN pl rid = Some rr) ->
    np (check_each_sub pl ids checked).
  Proof.
    induction ids as [|rid rest IH]; intros checked Hids; cbn [check_each_sub]; [exact I|].
    destruct (Hids rid (or_introl eq_refl)) as [rr Hrr]. rewrite Hrr.
    apply (post_bind any).
    - apply check_tail_only_np. rewrite Forall_forall in Hpool. apply Hpool.
      exact (nthN_In _ _ _ Hrr).
    - intros _ _ _. apply IH. intros rid' Hin. apply Hids. right; exact Hin.
  Qed.

  Lemma check_subwords_np : forall fuel S visited checked,
    okset r S -> np (check_subwords r fw pl fuel S visited checked).
  Proof.
    induction fuel as [|f IHf]; intros S visited checked HS; [exact I|].
    cbn [check_subwords].
    destruct (inputs_of_ok r S HS) as [inputs [Hin Hsub]]. rewrite Hin. cbn [obind]. cbv zeta.
    apply (post_bind any).
    { apply check_each_sub_np. intros rid Hrid. apply filter_In in Hrid. destruct Hrid as [Hrid _].
      apply sub_ids_of_In in Hrid. destruct Hrid as [lv [sp Hi]].
      rewrite Forall_forall in Hsub. exact (Hsubs _ _ _ (Hsub _ Hi)). }
    intros checked1 _ _. clear Hin HS.
    generalize S. intros ps. generalize checked1 as ck.
    revert visited. induction ps as [|p rest IHps]; intros visited ck.
    - exact I.
    - cbn -[memN assocN check_subwords fst snd].
      destruct (memN p visited); [apply IHps|].
      destruct (assocN p fw) as [follow|] eqn:Ha; [|apply IHps].
      apply (post_bind any); [apply IHf; exact (Hfw _ _ Ha)|].
      intros vc _ _. apply IHps.
  Qed.
End CheckSubwordsNP.

Theorem check_ambiguities_np : forall r pl,
  regex_ranged r -> Forall pool_ok pl -> subs_in pl (r_inputs r) ->
  np (check_ambiguities r pl).
Proof.
  intros r pl Hrg Hpool Hsubs. unfold check_ambiguities.
  apply (post_bind any); [|intros; exact I].
  apply check_subwords_np; auto; [apply ranged_follow|apply ranged_first]; exact Hrg.
Qed.

Lemma from_expr_invariants : forall e r pl,
  flat_subwords e = true -> from_expr e [] = Ok (r, pl) ->
  regex_ranged r /\ Forall pool_ok pl /\ subs_in pl (r_inputs r).
Proof.
  intros e r pl Hf E. apply from_expr_Ok in E. destruct E as [id [t [s [E1 ->]]]].
  split; [eapply finish_ranged; eauto|].
  destruct (finish_regex_fields id t s) as [Hi _]. rewrite Hi.
  apply (proj1 builder_pool _ _ _ _ _ _ _ E1 Hf); [constructor|].
  intros rid lv sp [].
Qed.

Theorem check_ambiguities_no_panic : forall e r pl,
  flat_subwords e = true -> from_expr e [] = Ok (r, pl) ->
  forall site, check_ambiguities r pl <> Panic site.
Proof.
  intros e r pl Hf E.
  destruct (from_expr_invariants e r pl Hf E) as [Hrg [Hpool Hsubs]].
  apply (post_not_panic any any True). apply check_ambiguities_np; assumption.
Qed.

Corollary check_ambiguities_result : forall e r pl,
  flat_subwords e = true -> from_expr e [] = Ok (r, pl) ->
  check_ambiguities r pl = Ok tt \/
  exists a b, check_ambiguities r pl = Err (UnboundedMatchable a b).
Proof.
  intros e r pl Hf E.
  pose proof (check_ambiguities_no_panic e r pl Hf E) as Hnp.
  pose proof (check_ambiguities_fuel r pl) as Hnf.
  destruct (check_ambiguities r pl) as [[]|[a b]|site|].
  - left; reflexivity.
  - right. exists a, b. reflexivity.
  - exfalso. exact (Hnp site eq_refl).
  - exfalso. exact (Hnf eq_refl).
Qed.

Print Assumptions check_tail_only_np.
Print Assumptions check_ambiguities_no_panic.
Print Assumptions check_ambiguities_result.
