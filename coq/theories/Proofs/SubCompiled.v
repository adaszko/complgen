(** What the C01 proofs need to know about the within-word automata the model pipeline returns
    ([c_subs] of [Driver.compile_valid]): each one named by an input [ISub k l] of the main
    automaton is the minimised automaton of a pooled within-word regex, hence has a transition
    table that is a map whose entries name inputs, an input pool without duplicates and without
    nested within-word inputs, is trim, and starts in state 0 (the renumbering of the minimiser
    gives the start state the first number). *)
From CG Require Import Base.Prelude Model.Ast Model.Dfa Model.Check Model.Regex Model.Subset Model.Minimize
     Model.Ambiguity Model.Driver Spec.Lang Spec.DfaEquiv Spec.MinimizeSpec.
From CG Require Import Proofs.TablesSound Proofs.SubsetConstr Proofs.TreeFacts Proofs.C02Total Proofs.WfTrim
     Proofs.MinimizeCorrect Proofs.AmbTotal Proofs.FromExpr Proofs.DriverFacts Proofs.DriverCorrect Proofs.MinimizePostGen Proofs.CompiledFacts.

Lemma renumber_map_start s ts : getf (renumber_map s ts) s = 0.
Proof.
  rewrite renumber_map_eq. unfold renumber_keys. cbn [fold_left].
  assert (I1 : alloc_inv (alloc s ([], 0))).
  { apply alloc_spec. split; [constructor | intros k v []]. }
  assert (E1 : assocN s (fst (alloc s ([], 0))) = Some 0).
  { unfold alloc. cbn [fst snd assocN app]. rewrite N.eqb_refl. reflexivity. }
  destruct (alloc_fold_spec (flat_map (fun t => [tr_from t; tr_to t]) ts) _ I1) as [_ [_ K]].
  unfold getf. rewrite (K s 0 E1). reflexivity.
Qed.

Lemma minimize_start0 d m : minimize d = Ok m -> d_start m = 0.
Proof.
  intro H. unfold minimize in H. destruct (do_minimize_inv d _ m H) as [h [reps [_ [_ [_ [_ Hrest]]]]]].
  cbn zeta in Hrest. destruct Hrest as [s' [ts' [accn [Hren ->]]]]. cbn [d_start].
  destruct (renumber_states_ok _ _ _ _ _ _ Hren) as [-> _]. apply renumber_map_start.
Qed.

Lemma inp_intern_in x acc y : In y (inp_intern x acc) -> y = x \/ In y acc.
Proof.
  unfold inp_intern. destruct (inp_find x acc 0); intro H; [right; exact H |].
  apply in_app_or in H. destruct H as [H | [H | []]]; [right; exact H | left; symmetry; exact H].
Qed.

Lemma intern_all_in labels y : In y (intern_all labels) -> In y labels.
Proof.
  unfold intern_all.
  assert (G : forall acc, In y (fold_left (fun acc x => inp_intern x acc) labels acc) -> In y labels \/ In y acc).
  { induction labels as [| x labels IH]; intros acc H; [right; exact H |]. cbn [fold_left] in H.
    destruct (IH _ H) as [H1 | H1]; [left; right; exact H1 |].
    apply inp_intern_in in H1. destruct H1 as [-> | H1]; [left; left; reflexivity | right; exact H1]. }
  intro H. destruct (G [] H) as [H1 | []]. exact H1.
Qed.

Lemma dfa_from_regex_input_origin pick fuel submap r d states x :
  dfa_from_regex pick fuel submap r = Ok (d, states) -> In x (d_inputs d) ->
  exists ri, In ri (r_inputs r) /\ from_input submap ri = Ok x.
Proof.
  unfold dfa_from_regex. intros H Hin.
  destruct (omap (from_input submap) (r_inputs r)) as [labels | | |] eqn:El; cbn [obind] in H; try discriminate.
  destruct (loop _ _ _ _ _ _ _) as [st | | |]; cbn [obind] in H; try discriminate.
  destruct (find_set _ _); [| discriminate]. inversion H; subst. cbn [d_inputs] in Hin.
  apply intern_all_in in Hin. apply (omap_ok_in _ _ _ El) in Hin. exact Hin.
Qed.

Record sub_ok (sd : dfa) : Prop := {
  so_min : exists raw, minimize raw = Ok sd;
  so_wf : dfa_wf sd;
  so_inputs : NoDup (d_inputs sd);
  so_trim : trim sd;
  so_start : d_start sd = 0;
  so_plain : forall x, In x (d_inputs sd) -> exists a, wlab x = Some a
}.

Theorem sub_facts pick fuel v c k l :
  alts_nonempty (v_expr v) = true ->
  compile_valid pick fuel v = Ok c ->
  In (ISub k l) (d_inputs (c_main c)) ->
  exists sd, nth_error (c_subs c) (N.to_nat k) = Some sd /\ sub_ok sd.
Proof.
  intros Ha H Hin. apply compile_valid_Ok in H. destruct H as (r & pl & submap & raw & st & E & Es & Ed & Em & _).
  apply from_valid_expr_ok in E.
  rewrite (minimize_inputs raw _ Em) in Hin.
  destruct (dfa_from_regex_input_origin _ _ _ _ _ _ _ Ed Hin) as [ri [Hri Hfi]].
  destruct ri as [t0 d0 l0 sp | n0 l0 sp | c0 z0 l0 sp | rid l0 sp]; cbn [from_input] in Hfi; try discriminate;
    try (destruct z0; discriminate).
  destruct (assocN rid submap) as [k0 |] eqn:Ea; [| discriminate]. inversion Hfi; subst k0 l0.
  destruct (compile_subs_ok pick fuel pl _ _ _ _ _ (cache_ok_nil pick fuel pl) Es) as [Hc _].
  destruct (Hc rid k Ea) as [sd [Hsd [rr [raw' [st' [Hn [Hd Hmin]]]]]]].
  exists sd. split; [exact Hsd |].
  destruct (from_expr_good _ _ _ _ Ha E (Forall_nil _)) as [_ Hpl].
  assert (Hg : regex_good rr).
  { rewrite Forall_forall in Hpl. apply Hpl. unfold nthN in Hn. destruct (nth_error pl (N.to_nat rid)) eqn:En; [| discriminate].
    inversion Hn; subst. eapply nth_error_In. exact En. }
  destruct (wf_trim_pool pick fuel [] rr raw' st' Hg Hd) as [W TR].
  destruct (minimize_correct raw' sd W TR Hmin) as [_ [TRm _]].
  constructor.
  - eauto.
  - apply (minimize_dfa_wf raw' sd W TR Hmin).
  - rewrite (minimize_inputs raw' sd Hmin). eapply dfa_from_regex_inputs. exact Hd.
  - exact TRm.
  - apply (minimize_start0 raw' sd Hmin).
  - intros x Hx. rewrite (minimize_inputs raw' sd Hmin) in Hx.
    destruct (dfa_from_regex_input_origin _ _ _ _ _ _ _ Hd Hx) as [ri [_ Hfi']].
    destruct ri as [t1 d1 l1 sp1 | n1 l1 sp1 | c1 z1 l1 sp1 | rid1 l1 sp1]; cbn [from_input assocN] in Hfi'; try discriminate;
      inversion Hfi'; subst; cbn [wlab]; eauto. destruct z1; cbn [wlab]; eauto.
Qed.
