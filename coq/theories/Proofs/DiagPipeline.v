(** C13 end to end: for every input text, every span carried by an error of [Driver.compile], and
    by the warnings of an accepted grammar, starts at a byte of the text (composition of the
    parser's span soundness, the checker's naturality in spans and the regex builder's use of
    spans), so [Diag.render] never panics on it. *)
From CG Require Import Base.Prelude Model.Ast Model.Lexer Model.Parser Model.Check Model.Regex.
From CG Require Import Model.Dfa Model.Subset Model.Minimize Model.Ambiguity Model.Driver Model.Diag.
From CG Require Import Spec.Spans Proofs.ExprDefs Proofs.SpanSound Proofs.DiagLines Proofs.DiagSpans.
From CGgen Require Import Consts.

(** [pinned] is made of the two switches the generator reads from parse.rs (CGgen.Consts).  In the
    source the build is pinned to, the span reset is repaired, so what [parse] does is what the
    span theorems, stated for [repaired], are about.  True by computation, for such a source only. *)
Lemma pinned_repaired : pinned = repaired.
Proof. reflexivity. Qed.

Lemma parse_repaired : forall s, parse s = parse_with repaired s.
Proof. intros. unfold parse. rewrite pinned_repaired. reflexivity. Qed.

Lemma spans_ok_all : forall s e, spans_ok s e <-> Forall (span_ok s) (all_spans e).
Proof.
  intros s.
  assert (L : forall o cs sp, Forall (fun e => spans_ok s e <-> Forall (span_ok s) (all_spans e)) cs ->
                              spans_ok s (mk_op o cs sp) <-> Forall (span_ok s) (sp :: flat_map all_spans cs)).
  { intros o cs sp H. rewrite spans_ok_list, Forall_cons_iff, Forall_flat_map. apply and_iff_compat_l.
    rewrite !Forall_forall. rewrite Forall_forall in H. split; intros K c Hc; apply H, K; exact Hc. }
  induction e using expr_ind_op; cbn [all_spans spans_ok]; try (rewrite Forall_cons_iff, IHe; reflexivity).
  1-3: rewrite Forall_cons_iff, Forall_nil_iff; tauto.
  destruct o; exact (L _ cs sp H).
Qed.

Lemma stmt_ok_all : forall s st, stmt_ok s st <-> Forall (span_ok s) (stmt_spans st).
Proof.
  intros s [n nsp e|n nsp [[shn ssp]|] rhs]; cbn [stmt_ok stmt_spans app];
    rewrite !Forall_cons_iff, <- spans_ok_all; tauto.
Qed.

Lemma grammar_ok_all : forall s g, Forall (stmt_ok s) g <-> Forall (span_ok s) (grammar_spans g).
Proof.
  intros s g. unfold grammar_spans. rewrite Forall_flat_map. split; apply Forall_impl; intros st; apply stmt_ok_all.
Qed.

Theorem parsed_spans_pos : forall text g, parse text = Ok g ->
    forall sp, In sp (grammar_spans g) -> pos_ok text sp.
Proof.
  intros text g H. rewrite parse_repaired in H. apply parse_spans_sound, grammar_ok_all in H.
  rewrite Forall_forall in H. intros sp Hi. apply span_ok_pos_ok. auto.
Qed.

Section Pipeline.
  Variable pick : nat -> list (list N) -> nat.
  Variable fuel : nat.
  Variable builtins : shell -> list (string * string).

  Lemma compile_sub_err : forall r e, compile_sub pick fuel r = Err e ->
      (exists x, e = DSubset x) \/ (exists x, e = DAmb x).
  Proof.
    intros r e H. unfold compile_sub in H.
    destruct (dfa_from_regex pick fuel [] r) as [raw|x| |]; cbn [lift obind] in H; try discriminate.
    2:{ inversion H; eauto. }
    destruct (check_ambiguity_best_effort (fst raw)) as [u|x| |]; cbn [lift obind] in H; try discriminate.
    2:{ inversion H; eauto. }
    destruct (minimize (fst raw)) as [m|x| |]; cbn [lift_noerr obind] in H; try discriminate.
    destruct (check_ambiguity_best_effort m) as [u2|x| |]; cbn [lift obind] in H; try discriminate.
    inversion H; eauto.
  Qed.

  Lemma compile_subs_err : forall inputs pl cache subs e,
      compile_subs pick fuel inputs pl cache subs = Err e ->
      (exists x, e = DSubset x) \/ (exists x, e = DAmb x).
  Proof.
    induction inputs as [|i rest IH]; intros pl cache subs e H; cbn [compile_subs] in H; [discriminate|].
    destruct i; eauto.
    destruct (assocN rid cache); eauto.
    destruct (nthN pl rid) as [r|]; [|discriminate].
    destruct (compile_sub pick fuel r) as [d|x| |] eqn:E; cbn [obind] in H; try discriminate.
    - destruct (intern_dfa d subs 0) as [k subs']. eauto.
    - inversion H; subst. eapply compile_sub_err; eauto.
  Qed.

  Lemma compile_valid_err : forall v e, compile_valid pick fuel v = Err e ->
      (exists re, e = DRegex re /\ from_valid_expr (v_expr v) = Err re)
      \/ (exists x, e = DSubset x) \/ (exists x, e = DAmb x).
  Proof.
    intros v e H. unfold compile_valid in H.
    destruct (from_valid_expr (v_expr v)) as [[r pl]|re| |] eqn:E; cbn [lift obind] in H; try discriminate.
    2:{ inversion H; subst. left. eauto. }
    right.
    destruct (compile_subs pick fuel (r_inputs r) pl [] []) as [[submap subs]|x| |] eqn:Cs; cbn [obind] in H; try discriminate.
    2:{ inversion H; subst. eapply compile_subs_err; eauto. }
    destruct (dfa_from_regex pick fuel submap r) as [raw|x| |]; cbn [lift obind] in H; try discriminate.
    2:{ inversion H; eauto. }
    destruct (minimize (fst raw)) as [m|x| |]; cbn [lift_noerr obind] in H; try discriminate.
    destruct (check_ambiguity_best_effort m) as [u2|x| |]; cbn [lift obind] in H; try discriminate.
    inversion H; eauto.
  Qed.

  Theorem compile_err_cases : forall text sh e, compile pick fuel builtins text sh = Err e ->
      (exists sp, e = DParse sp /\ parse text = Err sp)
      \/ (exists g ce, e = DCheck ce /\ parse text = Ok g /\ from_grammar builtins g sh = Err ce)
      \/ (exists g v re, e = DRegex re /\ parse text = Ok g /\ from_grammar builtins g sh = Ok v
                         /\ from_valid_expr (v_expr v) = Err re)
      \/ (exists x, e = DSubset x) \/ (exists x, e = DAmb x).
  Proof.
    intros text sh e H. unfold compile in H.
    destruct (parse text) as [g|sp| |] eqn:P; cbn [obind] in H; try discriminate.
    2:{ inversion H; subst. left. eauto. }
    destruct (from_grammar builtins g sh) as [v|ce| |] eqn:C; cbn [lift obind] in H; try discriminate.
    2:{ inversion H; subst. right. left. eauto. }
    destruct (compile_valid pick fuel v) as [c|x| |] eqn:V; cbn [obind] in H; try discriminate.
    inversion H; subst. destruct (compile_valid_err _ _ V) as [(re & -> & R)|[X|X]].
    - right. right. left. exists g, v, re. auto.
    - right. right. right. left. exact X.
    - right. right. right. right. exact X.
  Qed.

  Lemma error_messages_spans : forall ce m, In m (error_messages (DCheck ce)) -> In (m_span m) (cerror_spans ce).
  Proof.
    intros ce m H. apply (in_map m_span) in H. revert H.
    destruct ce; cbn [error_messages cerror_spans map m_span emsg]; rewrite ?map_map, ?map_id; cbn [In]; tauto.
  Qed.

  Lemma from_machine_pos : forall text pre rest, text = append pre rest -> rest <> EmptyString ->
      pos_ok text (from_machine (mkin rest (adv_str pre pos0))).
  Proof.
    intros text pre rest E N. exists pre, rest. unfold from_machine. cbn [at_ sline scol secol]. repeat split; auto. lia.
  Qed.

  Lemma valid_expr_spans : forall g sh v, from_grammar builtins g sh = Ok v ->
      forall sp, In sp (all_spans (v_expr v)) -> In sp (grammar_spans g).
  Proof.
    intros g sh v C sp Hi. pose proof (checker_spans builtins g sh) as X. rewrite C in X.
    apply X, in_or_app. left. exact Hi.
  Qed.

  Theorem error_positions : forall text sh e, compile pick fuel builtins text sh = Err e ->
      Forall (fun m => pos_ok text (m_span m)) (error_messages e).
  Proof.
    intros text sh e H. apply Forall_forall. intros m Hm.
    destruct (compile_err_cases _ _ _ H) as [(sp & -> & P)|[(g & ce & -> & P & C)|[(g & v & re & -> & P & C & R)|[[x ->]|[x ->]]]]].
    - cbn [error_messages] in Hm. destruct Hm as [<-|[]]. cbn [m_span emsg].
      rewrite parse_repaired in P. destruct (parse_error_sound _ _ P) as (pre & rest & E & N & ->).
      apply from_machine_pos; auto.
    - eapply parsed_spans_pos; eauto.
      pose proof (checker_spans builtins g sh) as X. rewrite C in X. apply X. apply error_messages_spans. exact Hm.
    - destruct re as [a b]. cbn [error_messages] in Hm.
      destruct (unbounded_spans _ _ _ R) as [Ha Hb].
      eapply parsed_spans_pos, valid_expr_spans; eauto.
      destruct Hm as [<-|[<-|[]]]; cbn [m_span emsg]; assumption.
    - destruct Hm.
    - destruct Hm.
  Qed.

  Lemma insert_span_in : forall x l y, In y (insert_span x l) -> y = x \/ In y l.
  Proof.
    induction l as [|z l IH]; cbn [insert_span]; intros y H.
    - destruct H as [<-|[]]; auto.
    - destruct (span_leb x z).
      + destruct H as [<-|H]; auto.
      + destruct H as [<-|H]; [right; left; reflexivity|]. destruct (IH y H); auto. right; right; auto.
  Qed.

  Lemma sort_spans_in : forall l y, In y (sort_spans l) -> In y l.
  Proof.
    unfold sort_spans. induction l; cbn [fold_right]; intros y H; [destruct H|].
    apply insert_span_in in H as [->|H]; [left; reflexivity|right; auto].
  Qed.

  Lemma wmsgs_spans : forall label l m, In m (wmsgs label l) -> In (m_span m) l.
  Proof. intros label l m H. unfold wmsgs in H. apply in_map_iff in H as (x & <- & Hx). cbn. apply sort_spans_in; auto. Qed.

  Theorem warning_positions : forall text sh g v, parse text = Ok g -> from_grammar builtins g sh = Ok v ->
      Forall (fun m => pos_ok text (m_span m)) (warning_messages v).
  Proof.
    intros text sh g v P C. apply Forall_forall. intros m Hm.
    pose proof (checker_spans builtins g sh) as X. rewrite C in X.
    eapply parsed_spans_pos; eauto. apply X. unfold valid_spans. rewrite !in_app_iff. right.
    unfold warning_messages in Hm. rewrite !in_app_iff in Hm.
    destruct Hm as [Hm|[Hm|Hm]]; apply wmsgs_spans in Hm; auto.
    left. exact (incl_map snd (incl_filter _ _) _ Hm).
  Qed.

  Theorem render_errors_total : forall path text sh e, compile pick fuel builtins text sh = Err e ->
      Forall (fun m => exists r, render path text (m_span m) = Ok r) (error_messages e).
  Proof.
    intros path text sh e H. eapply Forall_impl; [|exact (error_positions _ _ _ H)]. intros m. apply render_total.
  Qed.

  Theorem render_warnings_total : forall path text sh g v, parse text = Ok g -> from_grammar builtins g sh = Ok v ->
      Forall (fun m => exists r, render path text (m_span m) = Ok r) (warning_messages v).
  Proof.
    intros path text sh g v P C. eapply Forall_impl; [|exact (warning_positions _ _ _ _ P C)]. intros m. apply render_total.
  Qed.
End Pipeline.
