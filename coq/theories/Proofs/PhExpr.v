(** The tree [do_from_expr] builds for a word (no nested words, no operator without operands)
    against the placeholder predicates of Spec/Mistakes.v, with [NontermRef] as the placeholder:
    no position of the tree is an [RNonterm] input iff [contains_ph] is false, and no such
    position has a follower inside the tree ([nofollow], PhFollow.v) iff [ph_last] holds
    ([do_from_expr_PhG]).  PhWalk.v ties [nofollow] to the verdict of [check_tail_only]. *)
From CG Require Import Base.Prelude Model.Ast Model.Regex Spec.Mistakes.
From CG Require Import Proofs.RxLang Proofs.Glushkov Proofs.Useful Proofs.FromExpr Proofs.TreeFacts.
From CG Require Import Proofs.DotFromExpr Proofs.PhFollow.

Definition isref (e : expr) : bool := match e with NontermRef _ _ _ => true | _ => false end.

Fixpoint ops_nonempty (e : expr) : bool :=
  match e with
  | Terminal _ _ _ _ | NontermRef _ _ _ | Command _ _ _ _ => true
  | Sequence cs _ | Alternative cs _ | Fallback cs _ =>
      match cs with [] => false | _ => forallb ops_nonempty cs end
  | Optional c _ | Many1 c _ | DistDescr c _ _ | Subword c _ _ => ops_nonempty c
  end.

Definition starI (I : list rinput) (p : N) : Prop := exists n l sp, nthN I p = Some (RNonterm n l sp).

Fixpoint seq_b (cs : list expr) : bool :=
  match cs with
  | [] => true
  | [c] => ph_last isref c
  | c :: r => negb (contains_ph isref c) && seq_b r
  end.

Lemma ph_last_seq cs sp : ph_last isref (Sequence cs sp) = seq_b cs.
Proof. reflexivity. Qed.

Definition rel (I : list rinput) (c : expr) (t : rx) : Prop :=
  (unmarked (starI I) t <-> contains_ph isref c = false) /\
  (nofollow (starI I) t <-> ph_last isref c = true).

Definition PhG (e : expr) : Prop :=
  forall s pl id t s' pl',
    do_from_expr e s pl = Ok (id, t, s', pl') -> subword_free e = true -> ops_nonempty e = true ->
    ors_nonempty t = true /\ positions t <> [] /\
    forall I, prefix (b_inputs s') I -> rel I e t.

Lemma ops_nonempty_form e :
  ops_nonempty e = match form_of e with
                   | FLeaf _ => true
                   | FNary _ cs => match cs with [] => false | _ => forallb ops_nonempty cs end
                   | FUnary _ c | FSub c _ _ | FDist c => ops_nonempty c
                   end.
Proof. destruct e; reflexivity. Qed.

Lemma contains_ph_form e :
  contains_ph isref e = match form_of e with
                        | FLeaf i => match i with RNonterm _ _ _ => true | _ => false end
                        | FNary _ cs => existsb (contains_ph isref) cs
                        | FUnary _ c | FSub c _ _ | FDist c => contains_ph isref c
                        end.
Proof. destruct e; reflexivity. Qed.

Lemma ph_last_form e :
  ph_last isref e = match form_of e with
                    | FLeaf _ => true
                    | FNary true cs => seq_b cs
                    | FNary false cs => forallb (ph_last isref) cs
                    | FUnary true c => negb (contains_ph isref c)
                    | FUnary false c | FSub c _ _ | FDist c => ph_last isref c
                    end.
Proof. destruct e; reflexivity. Qed.

Lemma unmarked_cat M ts : unmarked M (XCat ts) <-> Forall (unmarked M) ts.
Proof.
  unfold unmarked. cbn [positions]. rewrite Forall_forall. split.
  - intros H t Ht p Hp. apply H. apply in_flat_map. eauto.
  - intros H p Hp. apply in_flat_map in Hp. destruct Hp as [t [Ht Hp]]. eapply H; eauto.
Qed.

Lemma unmarked_or M ts : unmarked M (XOr ts) <-> Forall (unmarked M) ts.
Proof. apply (unmarked_cat M ts). Qed.

Lemma children_unmarked I cs ts :
  Forall2 (rel I) cs ts -> (Forall (unmarked (starI I)) ts <-> existsb (contains_ph isref) cs = false).
Proof.
  induction 1 as [|c t cs ts [Hu _] _ IH]; cbn [existsb]; [split; [reflexivity|constructor]|].
  rewrite orb_false_iff, <- IH, <- Hu. split.
  - intro H. inversion H; subst. tauto.
  - intros [H1 H2]. constructor; assumption.
Qed.

Lemma children_seq I cs ts :
  Forall2 (rel I) cs ts -> (seq_ok (starI I) ts <-> seq_b cs = true).
Proof.
  induction 1 as [|c t cs ts [Hu Hn] HF IH]; [cbn; tauto|].
  destruct HF as [|c2 t2 cs' ts' Hr2 HF'].
  - cbn [seq_ok seq_b]. exact Hn.
  - change (seq_ok (starI I) (t :: t2 :: ts')) with (unmarked (starI I) t /\ seq_ok (starI I) (t2 :: ts')).
    change (seq_b (c :: c2 :: cs')) with (negb (contains_ph isref c) && seq_b (c2 :: cs')).
    rewrite andb_true_iff, negb_true_iff, <- Hu, <- IH. reflexivity.
Qed.

Lemma children_or I cs ts :
  Forall2 (rel I) cs ts -> (Forall (nofollow (starI I)) ts <-> forallb (ph_last isref) cs = true).
Proof.
  induction 1 as [|c t cs ts [_ Hn] _ IH]; cbn [forallb]; [split; [reflexivity|constructor]|].
  rewrite andb_true_iff, <- IH, <- Hn. split.
  - intro H. inversion H; subst. tauto.
  - intros [H1 H2]. constructor; assumption.
Qed.

Lemma children_PhG cs : Forall PhG cs ->
  forall s pl ids ts s' pl',
    do_children do_from_expr cs s pl = Ok (ids, ts, s', pl') ->
    forallb subword_free cs = true -> forallb ops_nonempty cs = true ->
    forallb ors_nonempty ts = true /\ Forall (fun t => positions t <> []) ts /\
    forall I, prefix (b_inputs s') I -> Forall2 (rel I) cs ts.
Proof.
  revert cs. refine (do_children_ind PhG _ _ _).
  - intros s pl _ _. repeat split; constructor.
  - intros c cs s pl id t s1 pl1 ids ts s2 pl2 Hc E1 E2 IH Hf Ho. cbn [forallb] in Hf, Ho |- *.
    apply andb_true_iff in Hf as [Hf1 Hf2]. apply andb_true_iff in Ho as [Ho1 Ho2].
    destruct (Hc _ _ _ _ _ _ E1 Hf1 Ho1) as (Or1 & Ne1 & L1). destruct (IH Hf2 Ho2) as (Or2 & Ne2 & L2).
    destruct (do_children_shape _ _ _ _ _ _ _ E2) as ((Pi2 & _) & _).
    rewrite Or1, Or2. split; [reflexivity|]. split; [constructor; assumption|].
    intros I HI. constructor; [|apply L2; exact HI]. apply L1. eapply prefix_trans; eauto.
Qed.

Lemma positions_hd_nonempty (mk : list rx -> rx) ts :
  (forall l, positions (mk l) = flat_map positions l) ->
  ts <> [] -> Forall (fun t => positions t <> []) ts -> positions (mk ts) <> [].
Proof.
  intros Hmk Hts Hne. rewrite Hmk. destruct Hne as [|t0 ts0 H0 _]; [congruence|].
  cbn [flat_map]. destruct (positions t0); [congruence|discriminate].
Qed.

Theorem do_from_expr_PhG : forall e, PhG e.
Proof.
  induction e as [e IH] using expr_form_ind. intros s pl id t s' pl' E.
  rewrite do_from_expr_form in E. rewrite subword_free_form, ops_nonempty_form. intros Hf Ho.
  unfold rel. rewrite contains_ph_form, ph_last_form.
  destruct (form_of e) as [i|cat cs|many c|c l sp|c]; try discriminate.
  - (* a leaf: marked iff it is a reference; it has no follower of its own *)
    injection E as <- <- <- <-. cbn [pushed b_inputs]. split; [reflexivity|]. split; [discriminate|].
    intros I HI. split.
    + unfold unmarked. cbn [positions]. split.
      * intro H. destruct i; try reflexivity. exfalso. apply (H (lenN (b_inputs s))); [left; reflexivity|].
        do 3 eexists. eapply nthN_prefix_mid; eauto.
      * intros Hx p [<-|[]] (n & l & sp & Hn). rewrite (nthN_prefix_mid _ _ _ HI) in Hn. inversion Hn; subst.
        discriminate.
    + split; [reflexivity|]. intros _ p q H. destruct H.
  - destruct (do_children do_from_expr cs s pl) as [[[[ids ts] s1] pl1]| | |] eqn:E1; cbn [obind] in E; try discriminate.
    injection E as <- <- <- <-. cbn [add_node b_inputs].
    assert (Hcs : cs <> []) by (destruct cs; [discriminate|discriminate]).
    assert (Ho' : forallb ops_nonempty cs = true) by (destruct cs; [congruence|exact Ho]).
    destruct (children_PhG cs IH _ _ _ _ _ _ E1 Hf Ho') as (Or & Ne & L).
    destruct (do_children_shape _ _ _ _ _ _ _ E1) as (_ & Sh & Dj & _).
    assert (Hts : ts <> []).
    { intros ->. specialize (L _ (prefix_refl _)). inversion L; subst. congruence. }
    destruct cat; cbn [nary_rx].
    + split; [exact Or|]. split; [apply (positions_hd_nonempty XCat); auto|].
      intros I HI. specialize (L I HI).
      rewrite unmarked_cat, (children_unmarked I cs ts L), (nofollow_cat (starI I) ts Sh Dj Or Ne), (children_seq I cs ts L).
      split; reflexivity.
    + split; [cbn [ors_nonempty]; destruct ts; [congruence|exact Or]|].
      split; [apply (positions_hd_nonempty XOr); auto|].
      intros I HI. specialize (L I HI).
      rewrite unmarked_or, (children_unmarked I cs ts L), nofollow_or, (children_or I cs ts L).
      split; reflexivity.
  - destruct (do_from_expr c s pl) as [[[[cid ct] s1] pl1]| | |] eqn:E1; cbn [obind] in E; try discriminate.
    injection E as <- <- <- <-. cbn [add_node b_inputs].
    destruct (IH _ _ _ _ _ _ E1 Hf Ho) as (Or & Ne & L). destruct (do_from_expr_shape _ _ _ _ _ _ _ E1) as (_ & Sh & _).
    destruct many; cbn [nary_rx aux_rx].
    + (* Many1: [XCat [ct; XStar ct]] *)
      split; [cbn [ors_nonempty forallb]; rewrite Or; reflexivity|]. split.
      { cbn [positions flat_map]. destruct (positions ct); [congruence|discriminate]. }
      intros I HI. destruct (L I HI) as [Lu Ln]. split.
      * rewrite <- Lu. unfold unmarked. cbn [positions flat_map]. rewrite app_nil_r. split.
        -- intros H0 p Hp. apply H0. apply in_or_app. left. exact Hp.
        -- intros H0 p Hp. apply in_app_iff in Hp. apply H0. tauto.
      * rewrite negb_true_iff, <- Lu. apply nofollow_many; assumption.
    + (* Optional: [XOr [ct; XEps]] *)
      split; [cbn [ors_nonempty forallb]; rewrite Or; reflexivity|].
      split; [cbn [positions flat_map]; rewrite app_nil_r; exact Ne|].
      intros I HI. destruct (L I HI) as [Lu Ln]. split.
      * rewrite <- Lu. unfold unmarked. cbn [positions flat_map]. rewrite app_nil_r. reflexivity.
      * rewrite <- Ln, nofollow_or. split.
        -- intro H0. inversion H0; subst. assumption.
        -- intro H0. constructor; [exact H0|]. constructor; [|constructor]. intros p q Hx. destruct Hx.
Qed.
