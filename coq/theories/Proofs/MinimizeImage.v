(** Facts about the raw automaton and the data [do_minimize] derives from it before the loop:
    [iter_transitions], [get_all_states], the completed transition function [delta], the
    target-sorted transition image, the [find_bounds] window and [transitions_to_group].
    [wfb_sound]: the executable hypothesis check [wfb] implies [wf]; together with [trim_dec]
    ([trim_dec_spec]) it lets the check validate, on every raw automaton Rust produces, the
    hypotheses under which the model is proved correct. *)
From CG Require Import Base.Prelude Base.Facts Model.Dfa Model.Minimize Spec.DfaEquiv Spec.MinimizeSpec
  Proofs.ListFacts Proofs.MinimizeBasics Proofs.DfaEquivProofs.

Lemma in_input_ids d i : In i (input_ids d) <-> i < lenN (d_inputs d).
Proof.
  unfold input_ids, lenN. rewrite in_map_iff. split.
  - intros [k [E H]]. apply in_seq in H. lia.
  - intro H. exists (N.to_nat i). split; [lia|]. apply in_seq. lia.
Qed.

Lemma iter_transitions_In d t :
  In t (iter_transitions d) <->
  exists row, In (tr_from t, row) (d_trans d) /\ In (tr_input t, tr_to t) row.
Proof.
  unfold iter_transitions. rewrite in_flat_map. split.
  - intros [[f row] [H1 H2]]. cbn [fst snd] in H2. apply in_map_iff in H2.
    destruct H2 as [[i to] [E H2]]. cbn [fst snd] in E. subst t. cbn. exists row. auto.
  - intros [row [H1 H2]]. exists (tr_from t, row). split; [exact H1|]. cbn [fst snd].
    apply in_map_iff. exists (tr_input t, tr_to t). split; [destruct t; reflexivity|exact H2].
Qed.

Section Raw.
  Variable d : dfa.
  Hypothesis W : wf d.

  Lemma step_iter x a t : step d x a = Some t <-> In (mktr x t a) (iter_transitions d).
  Proof.
    unfold step. rewrite iter_transitions_In. cbn [tr_from tr_to tr_input]. split.
    - destruct (assocN x (d_trans d)) as [row|] eqn:E; [|discriminate].
      intro H. exists row. split; apply assocN_In; assumption.
    - intros [row [H1 H2]].
      rewrite (in_assocN _ _ _ (wf_keys _ W) H1).
      apply in_assocN; [eapply (wf_rows _ W); eauto|exact H2].
  Qed.

  Lemma trans_states_In s :
    In s (trans_states d) <->
    In s (map fst (d_trans d)) \/ exists t, In t (iter_transitions d) /\ s = tr_to t.
  Proof.
    unfold trans_states. rewrite in_flat_map. split.
    - intros [[f row] [H1 H2]]. cbn [fst snd] in H2. destruct H2 as [H2|H2].
      + subst. left. apply in_map_iff. exists (s, row). auto.
      + apply in_map_iff in H2. destruct H2 as [[i to] [E H2]]. cbn in E. subst.
        right. exists (mktr f s i). split; [|reflexivity]. apply iter_transitions_In. exists row. auto.
    - intros [H|[t [H E]]].
      + apply in_map_iff in H. destruct H as [[f row] [E H]]. cbn in E. subst.
        exists (s, row). split; [exact H|]. left. reflexivity.
      + apply iter_transitions_In in H. destruct H as [row [H1 H2]].
        exists (tr_from t, row). split; [exact H1|]. right. cbn [snd]. apply in_map_iff.
        exists (tr_input t, tr_to t). auto.
  Qed.

  Lemma iter_from_state t : In t (iter_transitions d) -> In (tr_from t) (states d).
  Proof.
    intro H. apply In_states. right. left. apply trans_states_In. left.
    apply iter_transitions_In in H. destruct H as [row [H1 _]]. apply in_map_iff. exists (tr_from t, row). auto.
  Qed.

  Lemma iter_to_state t : In t (iter_transitions d) -> In (tr_to t) (states d).
  Proof.
    intro H. apply In_states. right. left. apply trans_states_In. right. exists t. auto.
  Qed.

  Lemma iter_input t : In t (iter_transitions d) -> In (tr_input t) (input_ids d).
  Proof.
    intro H. apply iter_transitions_In in H. destruct H as [row [H1 H2]].
    apply in_input_ids. eapply (wf_inputs _ W); eauto.
  Qed.

  Lemma key_state x : In x (map fst (d_trans d)) -> In x (states d).
  Proof. intro H. apply In_states. right. left. apply trans_states_In. left. exact H. Qed.

  Lemma zero_not_key : ~ In 0 (map fst (d_trans d)).
  Proof. intro H. apply (wf_nozero _ W). apply key_state. exact H. Qed.

  Lemma step_zero a : step d 0 a = None.
  Proof.
    unfold step. destruct (assocN 0 (d_trans d)) as [row|] eqn:E; [|reflexivity].
    exfalso. apply zero_not_key. apply assocN_In in E. apply in_map_iff. exists (0, row). auto.
  Qed.

  Lemma delta_zero a : delta d 0 a = 0.
  Proof. unfold delta. rewrite step_zero. reflexivity. Qed.

  Lemma zero_not_acc : ~ In 0 (d_accepting d).
  Proof. intro H. apply (wf_nozero _ W). apply In_states. auto. Qed.

  Lemma is_accepting_zero : is_accepting d 0 = false.
  Proof. apply memN_false, zero_not_acc. Qed.

  Lemma delta_nonletter x a : ~ In a (input_ids d) -> delta d x a = 0.
  Proof.
    intro H. unfold delta. destruct (step d x a) as [t|] eqn:E; [|reflexivity].
    exfalso. apply H. apply step_iter in E. apply iter_input in E. exact E.
  Qed.

  Lemma step_nonzero x a t : step d x a = Some t -> t <> 0.
  Proof.
    intros E F. subst. apply step_iter, iter_to_state in E. apply (wf_nozero _ W). exact E.
  Qed.

  Lemma accepts_from_zero w : accepts_from d 0 w = false.
  Proof.
    unfold accepts_from. destruct w as [|a w]; cbn [run]; [apply is_accepting_zero|].
    rewrite step_zero. reflexivity.
  Qed.

  Lemma accepts_from_delta x a w : accepts_from d x (a :: w) = accepts_from d (delta d x a) w.
  Proof.
    unfold delta. destruct (step d x a) as [t|] eqn:E; [|rewrite accepts_from_zero];
      unfold accepts_from; cbn [run]; rewrite E; reflexivity.
  Qed.

  Lemma accepts_from_fold w x : accepts_from d x w = is_accepting d (fold_left (delta d) w x).
  Proof.
    revert x. induction w as [|a w IH]; intro x; [reflexivity|].
    rewrite accepts_from_delta, IH. reflexivity.
  Qed.

  Lemma get_all_states_eq :
    get_all_states d
    = bm_insert 0 (bm_from_iter (flat_map (fun t => [tr_from t; tr_to t]) (iter_transitions d))).
  Proof. unfold get_all_states, bm_from_iter. rewrite fold_left_flat_map. reflexivity. Qed.

  Lemma all_states_In x :
    In x (get_all_states d) <->
    x = 0 \/ exists t, In t (iter_transitions d) /\ (x = tr_from t \/ x = tr_to t).
  Proof.
    rewrite get_all_states_eq, bm_insert_In, bm_from_iter_In, in_flat_map. cbn [In].
    split; (intros [H|[t [Ht H]]]; [left; exact H|right; exists t; split; [exact Ht|]]); intuition.
  Qed.

  Lemma all_states_sorted : sortedN (get_all_states d).
  Proof. rewrite get_all_states_eq. apply bm_insert_sorted, bm_from_iter_sorted. Qed.

  (** What [initial_partition] covers: its blocks are [[0]], [d_accepting d] taken whole, and the
      rest of [get_all_states d]; an accepting state need not occur in any transition. *)
  Definition universe : list N := get_all_states d ++ d_accepting d.

  Lemma universe_In x : In x universe <-> In x (get_all_states d) \/ In x (d_accepting d).
  Proof. unfold universe. apply in_app_iff. Qed.

  Lemma universe_zero : In 0 universe.
  Proof. apply universe_In. left. apply all_states_In. auto. Qed.

  Lemma universe_state x : In x universe -> x <> 0 -> In x (states d).
  Proof.
    intros H Hn. apply universe_In in H. destruct H as [H|H].
    - apply all_states_In in H. destruct H as [H|[t [H1 [H2|H2]]]]; [contradiction| |]; subst.
      + apply iter_from_state. exact H1.
      + apply iter_to_state. exact H1.
    - apply In_states. auto.
  Qed.

  Lemma universe_key x : In x universe -> x <> 0 -> In x (map fst (d_trans d)).
  Proof. intros H Hn. apply (wf_closed _ W). apply universe_state; assumption. Qed.

  Lemma delta_closed x a : In x universe -> In (delta d x a) universe.
  Proof.
    intros _. unfold delta. destruct (step d x a) as [t|] eqn:E; [|apply universe_zero].
    apply universe_In. left. apply all_states_In. right. apply step_iter in E.
    exists (mktr x t a). split; [exact E|]. right. reflexivity.
  Qed.

  Lemma transition_eqb_iff a b : transition_eqb a b = true <-> a = b.
  Proof.
    unfold transition_eqb. rewrite !andb_true_iff, !N.eqb_eq. destruct a, b; cbn. split.
    - intros [[-> ->] ->]. reflexivity.
    - intro E. inversion E. auto.
  Qed.

  Lemma dedup_In l t : In t (dedup l) <-> In t l.
  Proof.
    induction l as [|a r IH]; [tauto|]. cbn [dedup]. destruct r as [|b r'].
    - tauto.
    - destruct (transition_eqb a b) eqn:E.
      + apply transition_eqb_iff in E. subst. rewrite IH. cbn [In]. tauto.
      + cbn [In] in *. rewrite IH. tauto.
  Qed.

  Fixpoint sorted_to (l : list transition) : Prop :=
    match l with
    | [] => True
    | t :: r => (forall u, In u r -> tr_to t <= tr_to u) /\ sorted_to r
    end.

  Lemma dedup_sorted l : sorted_to l -> sorted_to (dedup l).
  Proof.
    induction l as [|a r IH]; [auto|]. cbn [dedup]. destruct r as [|b r'].
    - auto.
    - intros [A B]. destruct (transition_eqb a b); [apply IH; exact B|].
      cbn [sorted_to]. split; [|apply IH; exact B].
      intros u Hu. apply (proj1 (dedup_In _ _)) in Hu. apply A. exact Hu.
  Qed.

  Lemma insert_by_to_In t l u : In u (insert_by_to t l) <-> u = t \/ In u l.
  Proof.
    induction l as [|v r IH]; cbn [insert_by_to In]; [intuition|].
    destruct (N.ltb (tr_to v) (tr_to t)); cbn [In]; [rewrite IH|]; intuition.
  Qed.

  Lemma insert_by_to_sorted t l : sorted_to l -> sorted_to (insert_by_to t l).
  Proof.
    induction l as [|v r IH]; cbn [insert_by_to sorted_to]; [intros _; split; [intros u []|exact I]|].
    intros [A B]. destruct (N.ltb_spec (tr_to v) (tr_to t)); cbn [sorted_to].
    - split; [|apply IH; exact B]. intros u Hu. apply insert_by_to_In in Hu.
      destruct Hu as [->|Hu]; [lia|apply A; exact Hu].
    - split; [|split; assumption]. intros u [->|Hu]; [exact H|]. specialize (A _ Hu). lia.
  Qed.

  Lemma sort_by_to_In l u : In u (sort_by_to l) <-> In u l.
  Proof.
    induction l as [|t r IH]; cbn [sort_by_to fold_right]; [tauto|].
    fold (sort_by_to r). rewrite insert_by_to_In, IH. cbn [In]. intuition.
  Qed.

  Lemma sort_by_to_sorted l : sorted_to (sort_by_to l).
  Proof.
    induction l as [|t r IH]; cbn [sort_by_to fold_right]; [exact I|].
    apply insert_by_to_sorted. exact IH.
  Qed.

  Lemma completed_row_In f row t :
    In (f, row) (d_trans d) ->
    (In t (completed_row d (f, row)) <->
     tr_from t = f /\ In (tr_input t) (input_ids d) /\ tr_to t = delta d f (tr_input t)).
  Proof.
    intro Hrow.
    assert (Hstep : forall i, step d f i = assocN i row).
    { intro i. unfold step. rewrite (in_assocN _ _ _ (wf_keys _ W) Hrow). reflexivity. }
    unfold completed_row. cbn [fst snd]. rewrite in_app_iff, !in_map_iff. split.
    - intros [[[i to] [E H]]|[i [E H]]]; subst t; cbn [tr_from tr_to tr_input fst snd].
      + split; [reflexivity|]. split.
        * apply in_input_ids. eapply (wf_inputs _ W); eauto.
        * unfold delta. rewrite Hstep. rewrite (in_assocN _ _ _ (wf_rows _ W _ _ Hrow) H). reflexivity.
      + apply filter_In in H. destruct H as [H1 H2]. apply negb_true_iff, memN_false in H2.
        split; [reflexivity|]. split; [exact H1|].
        unfold delta. rewrite Hstep. apply assocN_None in H2. rewrite H2. reflexivity.
    - intros [E1 [E2 E3]]. destruct t as [tf tt ti]. cbn [tr_from tr_to tr_input] in *. subst tf.
      unfold delta in E3. rewrite Hstep in E3. destruct (assocN ti row) as [to|] eqn:E.
      + subst tt. left. exists (ti, to). split; [reflexivity|]. apply assocN_In. exact E.
      + subst tt. right. exists ti. split; [reflexivity|]. apply filter_In. split; [exact E2|].
        apply negb_true_iff, memN_false. apply assocN_None. exact E.
  Qed.

  Lemma image_In t :
    In t (make_transitions_image d) <->
    In (tr_from t) (map fst (d_trans d)) /\ In (tr_input t) (input_ids d)
    /\ tr_to t = delta d (tr_from t) (tr_input t).
  Proof.
    unfold make_transitions_image. rewrite dedup_In, sort_by_to_In, in_flat_map. split.
    - intros [[f row] [H1 H2]]. apply (completed_row_In f row t H1) in H2.
      destruct H2 as [E1 [E2 E3]]. subst f. split; [|auto].
      apply in_map_iff. exists (tr_from t, row). auto.
    - intros [H1 [H2 H3]]. apply in_map_iff in H1. destruct H1 as [[f row] [E H1]]. cbn [fst] in E. subst f.
      exists (tr_from t, row). split; [exact H1|]. apply completed_row_In; auto.
  Qed.

  Lemma image_sorted : sorted_to (make_transitions_image d).
  Proof. unfold make_transitions_image. apply dedup_sorted, sort_by_to_sorted. Qed.

  Lemma drop_below_spec mn l :
    sorted_to l ->
    sorted_to (drop_below mn l) /\ forall t, In t (drop_below mn l) <-> In t l /\ mn <= tr_to t.
  Proof.
    induction l as [|u r IH]; cbn [drop_below sorted_to]; [intros _; split; [exact I|intro; cbn; tauto]|].
    intros [A B]. destruct (N.ltb_spec (tr_to u) mn).
    - destruct (IH B) as [I1 I2]. split; [exact I1|]. intro t. rewrite I2. cbn [In]. split; [tauto|].
      intros [[->|Ht] Hm]; [lia|tauto].
    - split; [cbn [sorted_to]; auto|]. intro t. cbn [In]. split; [|tauto].
      intros [->|Ht]; [auto|]. specialize (A _ Ht). split; [auto|lia].
  Qed.

  Lemma take_upto_spec mx l :
    sorted_to l -> forall t, In t (take_upto mx l) <-> In t l /\ tr_to t <= mx.
  Proof.
    induction l as [|u r IH]; cbn [take_upto sorted_to]; [intros _ t; cbn; tauto|].
    intros [A B] t. destruct (N.leb_spec (tr_to u) mx).
    - cbn [In]. rewrite (IH B). split; [|tauto]. intros [->|[H1 H2]]; auto.
    - cbn [In]. split; [intros []|]. intros [[->|Ht] Hm]; [lia|]. specialize (A _ Ht). lia.
  Qed.

  Lemma find_bounds_some l mn mx ts :
    sorted_to l -> find_bounds l mn mx = Some ts ->
    forall t, In t ts <-> In t l /\ mn <= tr_to t /\ tr_to t <= mx.
  Proof.
    intros S E t. unfold find_bounds in E. destruct (drop_below_spec mn l S) as [S' H'].
    assert (H := take_upto_spec mx _ S' t).
    destruct (take_upto mx (drop_below mn l)); [discriminate|]. inversion E; subst.
    rewrite H, H'. tauto.
  Qed.

  Lemma find_bounds_none l mn mx :
    sorted_to l -> find_bounds l mn mx = None ->
    forall t, In t l -> ~ (mn <= tr_to t /\ tr_to t <= mx).
  Proof.
    intros S E t Ht [H1 H2]. unfold find_bounds in E. destruct (drop_below_spec mn l S) as [S' H'].
    assert (H := take_upto_spec mx _ S' t).
    destruct (take_upto mx (drop_below mn l)); [|discriminate].
    apply (proj2 H). rewrite H'. auto.
  Qed.

  Definition gt_mem (m : list (N * list N)) (a x : N) : Prop := exists X, assocN a m = Some X /\ In x X.

  Lemma gt_insert_eq a x m :
    gt_insert a x m = aupd a (fun o => bm_insert x (match o with Some s => s | None => [] end)) m.
  Proof. induction m as [|[i s] r IH]; cbn [gt_insert aupd]; [|rewrite IH]; reflexivity. Qed.

  Lemma gt_insert_mem a x m a' x' :
    gt_mem (gt_insert a x m) a' x' <-> gt_mem m a' x' \/ (a' = a /\ x' = x).
  Proof.
    unfold gt_mem. rewrite gt_insert_eq, aupd_assoc. destruct (N.eqb_spec a' a) as [->|Hn].
    - split.
      + intros [X [E H]]. inversion E; subst. apply bm_insert_In in H. destruct H as [->|H]; [auto|].
        left. destruct (assocN a m) as [s|]; [exists s; auto|destruct H].
      + intros [[X [E H]]|[_ ->]]; eexists; (split; [reflexivity|]); apply bm_insert_In; [|auto].
        rewrite E. auto.
    - split; [auto|]. intros [H|[F _]]; [exact H|contradiction].
  Qed.

  Lemma ttg_NoDup ts G : NoDup (map fst (transitions_to_group ts G)).
  Proof.
    apply (fold_left_inv (fun m => NoDup (map fst m))); [constructor|]. intros m t ND.
    destruct (memN (tr_to t) G); [rewrite gt_insert_eq; apply aupd_NoDup|]; exact ND.
  Qed.

  Lemma ttg_mem ts G a x :
    gt_mem (transitions_to_group ts G) a x <->
    exists t, In t ts /\ tr_from t = x /\ tr_input t = a /\ In (tr_to t) G.
  Proof.
    unfold transitions_to_group.
    rewrite (fold_left_collect _ (fun m => gt_mem m a x)
               (fun t => tr_from t = x /\ tr_input t = a /\ In (tr_to t) G)).
    - split; [|auto]. intros [[X [F _]]|H]; [discriminate|exact H].
    - intros m t. destruct (memN (tr_to t) G) eqn:E.
      + apply memN_In in E. rewrite gt_insert_mem. intuition.
      + apply memN_false in E. tauto.
  Qed.

  Lemma gt_mem_In m a X x : NoDup (map fst m) -> In (a, X) m -> (In x X <-> gt_mem m a x).
  Proof.
    intros ND H. apply (in_assocN a m X ND) in H. unfold gt_mem. rewrite H. split.
    - intro Hx. exists X. auto.
    - intros [X' [E Hx]]. inversion E; subst. exact Hx.
  Qed.
End Raw.

Lemma wfb_sound d : wfb d = true -> wf d.
Proof.
  unfold wfb. rewrite !andb_true_iff. intros [[[[[H1 H2] H3] H4] H5] H6].
  constructor.
  - apply nodupb_NoDup. exact H1.
  - intros f row Hr. rewrite forallb_forall in H2. specialize (H2 _ Hr). cbn [snd] in H2.
    apply nodupb_NoDup. exact H2.
  - intros f row i t Hr Hi. rewrite forallb_forall in H3. specialize (H3 _ Hr). cbn [snd] in H3.
    rewrite forallb_forall in H3. specialize (H3 _ Hi). cbn [fst] in H3. apply N.ltb_lt. exact H3.
  - apply negb_true_iff in H4. apply memN_false. exact H4.
  - intros s Hs. rewrite forallb_forall in H5. apply memN_In. apply H5. exact Hs.
  - apply sortedNb_iff. exact H6.
Qed.
