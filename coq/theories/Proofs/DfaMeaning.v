(** Words over inputs accepted from a state of an automaton ([dacc]), and what trimness (C03) gives:
    every transition lies on an accepted path ([trans_on_accepted]).

    [sim d s S] (the words over inputs the automaton [d] accepts from state [s] are exactly the
    words the residuals in [S] denote, leaf by leaf through [inp_of_leaf]) is the case without
    within-word leaves of [SubSim.simR]; the layer proofs go through [simR] only. *)
From CG Require Import Base.Prelude Model.Ast Model.Dfa Spec.Lang Spec.Rx Spec.Meaning Spec.DfaEquiv.
From CG Require Import Proofs.RxFacts Proofs.MeaningFacts Proofs.TablesSound Proofs.LangBridge.

Lemma leaves_cat_incl {A} (r s : rx A) a : In a (leaves (cat r s)) -> In a (leaves r) \/ In a (leaves s).
Proof. apply leaves_cat. Qed.

Lemma step_in_states d s i t : Dfa.step d s i = Some t -> In s (states d) /\ In t (states d).
Proof.
  intro H. unfold Dfa.step in H. destruct (assocN s (d_trans d)) as [tos |] eqn:E; [| discriminate].
  apply assocN_In in E. apply assocN_In in H. unfold states.
  split; apply nodup_In; right; apply in_or_app; left; unfold trans_states; apply in_flat_map; exists (s, tos); (split; [exact E |]); cbn [fst snd].
  - left; reflexivity.
  - right. apply in_map_iff. exists (i, t). split; [reflexivity | exact H].
Qed.

Lemma step_coreachable d s i t : trim d -> Dfa.step d s i = Some t -> coreachable d t.
Proof. intros [_ Hco] H. apply Hco. apply (step_in_states d s i t H). Qed.

Section Sim.
  Variable d : dfa.
  Hypothesis Hwf : dfa_wf d.
  Hypothesis Hinputs : NoDup (d_inputs d).

  Definition dacc (s : N) (xs : list inp) : Prop :=
    exists ids, accepts_from d s ids = true /\ Forall2 (fun i x => nthN (d_inputs d) i = Some x) ids xs.

  Definition sim (s : N) (S : state) : Prop :=
    forall xs, dacc s xs <-> exists k ls, In k S /\ denotes k ls /\ xs = map inp_of_leaf ls.

  Lemma nthN_inj i j x : nthN (d_inputs d) i = Some x -> nthN (d_inputs d) j = Some x -> i = j.
  Proof. exact (nthN_NoDup_inj _ i j x Hinputs). Qed.

  Lemma trans_on_fun s x t t' : trans_on d s x t -> trans_on d s x t' -> t = t'.
  Proof.
    intros [i [Hs Hn]] [j [Hs' Hn']]. rewrite (nthN_inj i j x Hn Hn') in Hs. rewrite Hs in Hs'. inversion Hs'. reflexivity.
  Qed.

  Lemma dacc_cons s x xs :
    dacc s (x :: xs) <-> exists i t, Dfa.step d s i = Some t /\ nthN (d_inputs d) i = Some x /\ dacc t xs.
  Proof.
    unfold dacc. split.
    - intros [ids [Ha Hf]]. inversion Hf as [| i x' ids' xs' Hi Hf']; subst.
      unfold accepts_from in Ha. cbn [Dfa.run] in Ha. destruct (Dfa.step d s i) as [t |] eqn:Es; [| discriminate].
      exists i, t. repeat split; try assumption. exists ids'. split; assumption.
    - intros [i [t [Es [Hi [ids [Ha Hf]]]]]]. exists (i :: ids). split; [| constructor; assumption].
      unfold accepts_from in *. cbn [Dfa.run]. rewrite Es. assumption.
  Qed.

  Lemma dacc_nil s : dacc s [] <-> is_accepting d s = true.
  Proof.
    unfold dacc. split.
    - intros [ids [Ha Hf]]. inversion Hf; subst. exact Ha.
    - intro H. exists []. split; [exact H | constructor].
  Qed.

  Lemma step_has_input s i t : Dfa.step d s i = Some t -> exists x, nthN (d_inputs d) i = Some x.
  Proof.
    intro H. unfold Dfa.step in H. destruct (assocN s (d_trans d)) as [tos |] eqn:E; [| discriminate].
    apply assocN_In in E. apply assocN_In in H. destruct Hwf as [_ W]. destruct (W s tos E) as [_ Hr]. apply (Hr i t H).
  Qed.

  Lemma accepted_has_inputs : forall ids s, accepts_from d s ids = true -> exists xs, dacc s xs /\ Forall2 (fun i x => nthN (d_inputs d) i = Some x) ids xs.
  Proof.
    induction ids as [| i ids IH]; intros s Ha.
    - exists []. split; [apply dacc_nil; exact Ha | constructor].
    - unfold accepts_from in Ha. cbn [Dfa.run] in Ha. destruct (Dfa.step d s i) as [t |] eqn:Es; [| discriminate].
      destruct (step_has_input s i t Es) as [x Hx]. destruct (IH t Ha) as [xs [Hd Hf]].
      exists (x :: xs). split; [apply dacc_cons; exists i, t; repeat split; assumption | constructor; assumption].
  Qed.

  Lemma dacc_run : forall ids s t xs, Dfa.run d s ids = Some t -> dacc t xs -> exists xs0, dacc s (xs0 ++ xs).
  Proof.
    induction ids as [| i ids IH]; intros s t xs H Hd; cbn [Dfa.run] in H.
    - inversion H; subst. exists []. exact Hd.
    - destruct (Dfa.step d s i) as [t1 |] eqn:Es; [| discriminate].
      destruct (step_has_input s i t1 Es) as [x Hx]. destruct (IH t1 t xs H Hd) as [xs0 Hd0].
      exists (x :: xs0). cbn [app]. apply dacc_cons. exists i, t1. repeat split; assumption.
  Qed.

  Lemma trans_on_accepted s x t : trim d -> trans_on d s x t -> exists xs1 xs2, dacc (d_start d) (xs1 ++ x :: xs2).
  Proof.
    intros [Hre Hco] [i [Es Hi]]. destruct (step_in_states d s i t Es) as [Hs Ht].
    destruct (Hre s Hs) as [ids Hrun]. destruct (Hco t Ht) as [w Hw]. destruct (accepted_has_inputs w t Hw) as [xs2 [Hd _]].
    destruct (dacc_run ids (d_start d) s (x :: xs2) Hrun) as [xs1 H1]; [apply dacc_cons; exists i, t; repeat split; assumption |].
    exists xs1, xs2. exact H1.
  Qed.

  Lemma sim_accepting s S : sim s S -> (is_accepting d s = true <-> exists k, In k S /\ nullable k = true).
  Proof.
    intro Hsim. rewrite <- dacc_nil, (Hsim []). split.
    - intros [k [ls [Hk [Hden E]]]]. destruct ls; [| discriminate]. exists k. split; [assumption | apply nullable_denotes; assumption].
    - intros [k [Hk Hn]]. exists k, []. split; [assumption | split; [apply nullable_denotes; assumption | reflexivity]].
  Qed.
End Sim.
