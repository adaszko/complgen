(** C16, the --regex file.  Whenever the ([patched]) model of Regex::to_dot returns, every line it
    wrote is well formed for the reader ([rx_item_ok]), a node name determines its label
    ([lab_rel_fun]), every node reachable from the root without passing an [RStar] has its line and
    every within-word regex met has its cluster ([rx_items_facts]); hence the graph read back has
    the prescribed labels ([regex_dot_patched]; [regex_dot_patched_b] under the executable check
    [rx_wf_b]).  A variant that writes the texts as the patched printer does writes the same file
    ([of_regex_agree]): [current] always, [old] when no text needs escaping. *)
From CG Require Import Base.Prelude Base.Facts Proofs.ListFacts Model.Dfa Spec.DotRead Spec.DotSpec Model.Dot
     Proofs.DotLex Proofs.DotParse Proofs.DotNames Proofs.DotStates.
Local Open Scope string_scope.

Definition leaf_body (v : variant) (pos : N) (inp : rinput) : string :=
  match inp with
  | RLit lit None => dec pos ++ ": " ++ bs ++ dq ++ v_rx_escape v lit ++ bs ++ dq
  | RLit lit (Some d) =>
      dec pos ++ ": " ++ bs ++ dq ++ v_rx_escape v lit ++ bs ++ dq ++ bs ++ "n" ++ bs ++ dq ++ v_rx_escape v d ++ bs ++ dq
  | RNonterm name => dec pos ++ ": <" ++ v_rx_escape v name ++ ">"
  | RCmd cmd => escape_dot (dec pos ++ ": " ++ cmd)
  | RSub rid => dec pos ++ ": Subword " ++ dec rid
  end.

Definition node_body (v : variant) (r : regex) (m : N) : string :=
  match nthN (r_nodes r) m with
  | Some REps => "Epsilon"
  | Some (RCat _) => "Cat"
  | Some (ROr _) => "Or"
  | Some (RStar _) => "Star"
  | Some (REnd pos) => dec pos ++ ": EndMarker"
  | Some (RTerm pos) | Some (RNt pos) | Some (RCommand pos) | Some (RSubword pos) =>
      match nthN (r_inputs r) pos with Some inp => leaf_body v pos inp | None => "" end
  | None => ""
  end.

Definition block_head (rid : N) : list item :=
  [ILine (LAssignQ "label" ("SUBWORD " ++ dec rid)); ILine (LAssign "color" "grey91"); ILine (LAssign "style" "filled")].

Definition fold_children (F : N -> list N -> outcome unit (list item * list N)) :=
  fix go (l : list N) (visited : list N) : outcome unit (list item * list N) :=
    match l with
    | [] => Ok ([], visited)
    | c :: rest => do a <- F c visited; do b <- go rest (snd a); Ok ((fst a ++ fst b)%list, snd b)
    end.

Inductive nshape := ShInner (l : list N) | ShLeaf (pos : N) | ShSub (pos : N) | ShPlain.

Definition shape_of (n : rnode) : nshape :=
  match n with
  | RCat l | ROr l => ShInner l
  | RTerm pos | RNt pos | RCommand pos => ShLeaf pos
  | RSubword pos => ShSub pos
  | REps | REnd _ | RStar _ => ShPlain
  end.

Definition fits (n : rnode) (i : rinput) : bool :=
  match n, i with RTerm _, RLit _ _ | RNt _, RNonterm _ | RCommand _, RCmd _ => true | _, _ => false end.

Definition misfit (n : rnode) : string :=
  match n with
  | RTerm _ => "unreachable: Terminal node without Literal input"
  | RNt _ => "unreachable: Nonterminal node without Nonterminal input"
  | _ => "unreachable: Command node without Command input"
  end.

Definition node_line (v : variant) (r : regex) (p : string) (m : N) : item := ILine (LNode (node_id p m) (node_body v r m)).
Definition block_of (rid : N) (inner : list item) : item := IBlock ("cluster_" ++ dec rid) (block_head rid ++ inner).

Lemma rx_items_S f v pool r node parent p vis :
  rx_items (S f) v pool r node parent p vis =
  let me := node_id p node in
  let line := node_line v r p node in
  match nthN (r_nodes r) node with
  | None => Panic "arena: index out of range"
  | Some n =>
      match shape_of n with
      | ShInner l =>
          do res <- fold_children (fun c w => rx_items f v pool r c (Some me) p w) l vis;
          Ok ((line :: fst res ++ parent_edge parent me)%list, snd res)
      | ShPlain => Ok (line :: parent_edge parent me, vis)
      | ShLeaf pos =>
          do i <- rx_input r pos;
          if fits n i then Ok (line :: parent_edge parent me, vis) else Panic (misfit n)
      | ShSub pos =>
          do i <- rx_input r pos;
          match i with
          | RSub rid =>
              match assocN rid pool with
              | None => Panic "RegexInternPool::lookup"
              | Some sr =>
                  let pre := (parent_edge parent me ++ [line; ILine (LEdge me (node_id (sub_pre rid) (r_root sr)))])%list in
                  if memN rid vis then Ok (pre, vis)
                  else do res <- rx_items f v pool sr (r_root sr) None (sub_pre rid) (rid :: vis);
                       Ok ((pre ++ [block_of rid (fst res)])%list, snd res)
              end
          | _ => Panic "unreachable: Subword node without Subword input"
          end
      end
  end.
Proof.
  cbn [rx_items]. unfold node_line, node_body. destruct (nthN (r_nodes r) node) as [n|]; [|reflexivity].
  destruct n as [|pos|pos|pos|pos|pos|l|l|c]; cbn [shape_of]; try reflexivity;
    unfold rx_input; destruct (nthN (r_inputs r) pos) as [[lit [d|]|name|cmd|rid]|]; try reflexivity.
  cbn [obind]. unfold sub_pre. destruct (assocN rid pool); [|reflexivity]. destruct (memN rid vis); [reflexivity|].
  destruct (rx_items f v pool r0 (r_root r0) None (dec rid ++ "_") (rid :: vis)) as [[]| | |]; reflexivity.
Qed.

Inductive rx_item (pool : rpool) : regex -> string -> item -> Prop :=
| rxi_node r p m : rx_item pool r p (ILine (LNode (node_id p m) (node_body patched r m)))
| rxi_edge r p a b : id_ok a -> id_ok b -> rx_item pool r p (ILine (LEdge a b))
| rxi_block r p rid sr inner :
    assocN rid pool = Some sr -> Forall (rx_item pool sr (sub_pre rid)) inner ->
    rx_item pool r p (IBlock ("cluster_" ++ dec rid) (block_head rid ++ inner)).

Lemma parent_edge_rx pool r p parent me :
  (forall pid, parent = Some pid -> id_ok pid) -> id_ok me ->
  Forall (rx_item pool r p) (parent_edge parent me).
Proof.
  intros Hp Hme. destruct parent as [pid|]; cbn; constructor; [|constructor].
  constructor; [now apply Hp|exact Hme].
Qed.

Lemma fold_children_Forall (Q : item -> Prop) F l :
  (forall c v rc, F c v = Ok rc -> Forall Q (fst rc)) ->
  forall vis res, fold_children F l vis = Ok res -> Forall Q (fst res).
Proof.
  intro HF. induction l as [|c rest IH]; intros vis res H; cbn [fold_children] in H.
  - injection H as <-. constructor.
  - destruct (F c vis) as [a| | |] eqn:Ea; try discriminate. cbn [obind] in H.
    destruct (fold_children F rest (snd a)) as [b| | |] eqn:Eb; try discriminate. cbn [obind] in H.
    injection H as <-. apply Forall_app. split; [exact (HF _ _ _ Ea)|exact (IH _ _ Eb)].
Qed.

Lemma rx_items_inv pool : forall f r node parent p vis res,
  prefix_ok p -> (forall pid, parent = Some pid -> id_ok pid) ->
  rx_items f patched pool r node parent p vis = Ok res ->
  Forall (rx_item pool r p) (fst res).
Proof.
  induction f as [|f IH]; intros r node parent p vis res Hp Hpar H; [discriminate|].
  rewrite rx_items_S in H. cbn zeta in H.
  assert (Hme : id_ok (node_id p node)) by now apply node_id_ok.
  pose proof (parent_edge_rx pool r p parent (node_id p node) Hpar Hme) as Hpe.
  pose proof (rxi_node pool r p node) as Hline.
  destruct (nthN (r_nodes r) node) as [n|]; [|discriminate]. destruct (shape_of n) as [l|pos|pos|].
  - destruct (fold_children _ l vis) as [[its vis']| | |] eqn:Eg; try discriminate.
    cbn [obind] in H. injection H as <-. cbn [fst]. constructor; [exact Hline|]. apply Forall_app. split; [|exact Hpe].
    assert (Hchild : forall pid, Some (node_id p node) = Some pid -> id_ok pid) by (intros pid [= <-]; exact Hme).
    exact (fold_children_Forall _ _ _ (fun c v rc E => IH _ _ _ _ _ _ Hp Hchild E) _ _ Eg).
  - destruct (rx_input r pos) as [i| | |]; try discriminate. cbn [obind] in H.
    destruct (fits n i); [|discriminate]. injection H as <-. constructor; assumption.
  - destruct (rx_input r pos) as [[| | |rid]| | |]; try discriminate. cbn [obind] in H.
    destruct (assocN rid pool) as [sr|] eqn:Ep; [|discriminate].
    assert (Hpre : Forall (rx_item pool r p)
                     (parent_edge parent (node_id p node)
                      ++ [node_line patched r p node; ILine (LEdge (node_id p node) (node_id (sub_pre rid) (r_root sr)))])%list).
    { apply Forall_app. split; [exact Hpe|]. constructor; [exact Hline|]. constructor; [|constructor].
      constructor; [exact Hme|]. apply (node_id_ok (sub_pre rid)). constructor. }
    destruct (memN rid vis).
    + injection H as <-. exact Hpre.
    + destruct (rx_items f patched pool sr (r_root sr) None (sub_pre rid) (rid :: vis)) as [[inner vis']| | |] eqn:Er;
        try discriminate. cbn [obind] in H. injection H as <-. cbn [fst].
      apply Forall_app. split; [exact Hpre|]. constructor; [|constructor].
      apply (rxi_block pool r p rid sr inner Ep).
      apply (IH sr (r_root sr) None (sub_pre rid) (rid :: vis) (inner, vis')); [constructor|discriminate|exact Er].
  - injection H as <-. constructor; assumption.
Qed.

Lemma esc_all_dq : esc_all dq = bs ++ dq.
Proof. reflexivity. Qed.

Lemma esc_all_quoted x : esc_all (dq ++ x ++ dq) = bs ++ dq ++ esc_all x ++ bs ++ dq.
Proof.
  change (dq ++ x ++ dq) with (String c_dq (x ++ dq)). cbn [esc_all]. rewrite esc_all_app, esc_all_dq.
  unfold esc1. change (Ascii.eqb c_dq c_bs) with false. change (Ascii.eqb c_dq c_dq) with true. cbn match.
  now rewrite !append_assoc.
Qed.

Definition ritem_of (i : rinput) : ritem :=
  match i with
  | RLit t d => XLit t d
  | RNonterm n => XNonterm n
  | RCmd c => XCmd c
  | RSub r => XSub r
  end.

Lemma plain_dec_colon pos : all_chars plain_char (dec pos ++ ": ") = true.
Proof. apply plain_app; [apply dec_plain|reflexivity]. Qed.

Lemma leaf_body_decodes pos inp :
  exists v, qdecode false (leaf_body patched pos inp) = Some v /\ render_label v = item_label pos (ritem_of inp).
Proof.
  destruct inp as [lit [d|]|name|cmd|rid]; cbn [leaf_body v_rx_escape patched ritem_of item_label].
  -
    set (A := (dec pos ++ ": ") ++ dq ++ lit ++ dq). set (B := dq ++ d ++ dq).
    assert (E : dec pos ++ ": " ++ bs ++ dq ++ escape_dot lit ++ bs ++ dq ++ bs ++ "n" ++ bs ++ dq ++ escape_dot d ++ bs ++ dq
                = esc_all A ++ (bs ++ "n" ++ esc_all B)).
    { unfold A, B. rewrite !escape_dot_chars.
      rewrite (esc_all_app (dec pos ++ ": ")), (esc_all_plain _ (plain_dec_colon pos)), !esc_all_quoted.
      rewrite !append_assoc. reflexivity. }
    rewrite E, qdecode_esc_app.
    change (bs ++ "n" ++ esc_all B) with (String c_bs (String "n"%char (esc_all B))).
    cbn [qdecode]. change (Ascii.eqb c_bs c_dq) with false. change (Ascii.eqb c_bs c_bs) with true.
    change (Ascii.eqb "n"%char c_dq) with false. change (Ascii.eqb "n"%char c_bs) with false.
    change (Ascii.eqb "n"%char c_nl) with false. cbn match. rewrite qdecode_esc_all. cbn [option_map].
    eexists. split; [reflexivity|]. rewrite render_double_bs_app.
    cbn [render_label]. change (Ascii.eqb c_bs c_bs) with true. cbn match.
    change (Ascii.eqb "n"%char "n"%char) with true. cbn [orb]. rewrite render_double_bs.
    unfold A, B. change decimal with dec. change sdq with dq. change lf with (String c_nl "").
    rewrite !append_assoc. reflexivity.
  -
    assert (E : dec pos ++ ": " ++ bs ++ dq ++ escape_dot lit ++ bs ++ dq
                = escape_dot ((dec pos ++ ": ") ++ dq ++ lit ++ dq)).
    { rewrite !escape_dot_chars.
      rewrite (esc_all_app (dec pos ++ ": ")), (esc_all_plain _ (plain_dec_colon pos)), !esc_all_quoted.
      rewrite !append_assoc. reflexivity. }
    rewrite E, qdecode_escape_dot. eexists. split; [reflexivity|]. rewrite render_double_bs.
    change decimal with dec. change sdq with dq. rewrite !append_assoc. reflexivity.
  -
    assert (Hpl : all_chars plain_char (dec pos ++ ": <") = true).
    { apply plain_app; [apply dec_plain|reflexivity]. }
    assert (E : dec pos ++ ": <" ++ escape_dot name ++ ">" = escape_dot ((dec pos ++ ": <") ++ name ++ ">")).
    { rewrite !escape_dot_chars. rewrite (esc_all_app (dec pos ++ ": <")), (esc_all_plain _ Hpl), (esc_all_app name).
      rewrite !append_assoc. reflexivity. }
    rewrite E, qdecode_escape_dot. eexists. split; [reflexivity|]. rewrite render_double_bs.
    change decimal with dec. rewrite !append_assoc. reflexivity.
  -
    rewrite qdecode_escape_dot. eexists. split; [reflexivity|]. rewrite render_double_bs. reflexivity.
  -
    assert (Hpl : all_chars plain_char (dec pos ++ ": Subword " ++ dec rid) = true).
    { apply plain_app; [apply dec_plain|]. apply (plain_app ": Subword "); [reflexivity|apply dec_plain]. }
    rewrite (plain_qdecode _ Hpl). eexists. split; [reflexivity|].
    rewrite (render_plain _ (plain_no_bs _ Hpl)). reflexivity.
Qed.

Lemma node_body_ok r m : body_ok (node_body patched r m).
Proof.
  unfold body_ok, node_body.
  assert (Hleaf : forall pos, qdecode false match nthN (r_inputs r) pos with Some inp => leaf_body patched pos inp | None => "" end <> None).
  { intro pos. destruct (nthN (r_inputs r) pos) as [inp|]; [|discriminate].
    destruct (leaf_body_decodes pos inp) as [v [E _]]. now rewrite E. }
  destruct (nthN (r_nodes r) m) as [[|pos|pos|pos|pos|pos|l|l|c]|]; try discriminate; try apply Hleaf.
  rewrite plain_qdecode; [discriminate|].
  apply plain_app; [apply dec_plain|reflexivity].
Qed.

Lemma block_head_ok rid : Forall item_ok (block_head rid).
Proof.
  unfold block_head. repeat apply Forall_cons; try apply Forall_nil.
  - constructor. split; [split; reflexivity|]. apply plain_body.
    apply plain_app; [reflexivity|apply dec_plain].
  - constructor. split; split; reflexivity.
  - constructor. split; split; reflexivity.
Qed.

Lemma rx_item_ok pool : forall it r p, rx_item pool r p it -> prefix_ok p -> item_ok it.
Proof.
  induction it as [l|name body IH] using item_ind2; intros r p H Hp.
  - inversion H; subst; constructor.
    + split; [now apply node_id_ok|apply node_body_ok].
    + now split.
  - inversion H as [| |r' p' rid sr inner Ea Hin]; subst. constructor; [apply cluster_name_ok|].
    apply (proj2 (Forall_app item_ok (block_head rid) inner)). split; [apply block_head_ok|].
    apply (proj1 (Forall_app _ (block_head rid) inner)) in IH. destruct IH as [_ IH].
    rewrite Forall_forall in *. intros x Hx.
    apply (IH x Hx sr (sub_pre rid)); [now apply Hin|constructor].
Qed.

Lemma fold_facts F :
  (forall c v rc, F c v = Ok rc -> incl v (snd rc)) ->
  forall l vis res, fold_children F l vis = Ok res ->
    incl vis (snd res)
    /\ (forall c, In c l -> exists v rc, F c v = Ok rc /\ incl (fst rc) (fst res) /\ incl (snd rc) (snd res))
    /\ (forall x, In x (snd res) -> In x vis \/ exists c v rc, In c l /\ F c v = Ok rc /\ In x (snd rc) /\ ~ In x v
                                                   /\ incl (fst rc) (fst res)).
Proof.
  intro Hmono. induction l as [|c rest IH]; intros vis res H; cbn [fold_children] in H.
  - injection H as <-. cbn [fst snd]. split; [apply incl_refl|]. split; [intros ? []|intros x Hx; now left].
  - destruct (F c vis) as [a| | |] eqn:Ea; try discriminate. cbn [obind] in H.
    destruct (fold_children F rest (snd a)) as [b| | |] eqn:Eb; try discriminate. cbn [obind] in H.
    injection H as <-. cbn [fst snd]. destruct (IH _ _ Eb) as [I1 [I2 I3]]. pose proof (Hmono _ _ _ Ea) as Ha.
    split; [eapply incl_tran; eassumption|]. split.
    + intros c' [<-|Hc'].
      * exists vis, a. split; [exact Ea|]. split; [apply incl_appl, incl_refl|exact I1].
      * destruct (I2 c' Hc') as [v [rc [E1 [E2 E3]]]]. exists v, rc. split; [exact E1|]. split; [now apply incl_appr|exact E3].
    + intros x Hx. destruct (I3 x Hx) as [Hin|[c' [v [rc [Hc' [E1 [E2 [E3 E4]]]]]]]].
      * destruct (in_dec N.eq_dec x vis) as [Hv|Hnv]; [now left|]. right. exists c, vis, a.
        split; [now left|]. split; [exact Ea|]. split; [exact Hin|]. split; [exact Hnv|apply incl_appl, incl_refl].
      * right. exists c', v, rc. split; [now right|]. split; [exact E1|]. split; [exact E2|]. split; [exact E3|now apply incl_appr].
Qed.

Lemma fold_same F l : (forall c v rc, In c l -> F c v = Ok rc -> snd rc = v) ->
  forall vis res, fold_children F l vis = Ok res -> snd res = vis.
Proof.
  induction l as [|c rest IH]; intros Hs vis res H; cbn [fold_children] in H.
  - now injection H as <-.
  - destruct (F c vis) as [a| | |] eqn:Ea; try discriminate. cbn [obind] in H.
    destruct (fold_children F rest (snd a)) as [b| | |] eqn:Eb; try discriminate. cbn [obind] in H.
    injection H as <-. cbn [snd]. rewrite (IH (fun c' v rc Hc' => Hs c' v rc (or_intror Hc')) _ _ Eb).
    exact (Hs c vis a (or_introl eq_refl) Ea).
Qed.

Inductive reach_from (r : regex) : N -> N -> Prop :=
| rf_here n : reach_from r n n
| rf_cat n l c m : nthN (r_nodes r) n = Some (RCat l) -> In c l -> reach_from r c m -> reach_from r n m
| rf_or n l c m : nthN (r_nodes r) n = Some (ROr l) -> In c l -> reach_from r c m -> reach_from r n m.

Lemma reach_from_inv r n m :
  reach_from r n m ->
  m = n \/ exists x l c, nthN (r_nodes r) n = Some x /\ shape_of x = ShInner l /\ In c l /\ reach_from r c m.
Proof.
  intros [|? l c ? E Hc Hm|? l c ? E Hc Hm]; [now left| |]; right; eexists _, l, c; (split; [exact E|now split]).
Qed.

Definition flat (r : regex) : Prop := forall m pos, nthN (r_nodes r) m <> Some (RSubword pos).
Definition pool_flat (pool : rpool) : Prop := forall rid sr, assocN rid pool = Some sr -> flat sr.

(** The last conjunct is there for the within-word case of [rx_items_facts]: the run on a pooled
    regex, which is flat, adds nothing to the visited set, so that the set returned is
    [rid :: vis] and the third conjunct can name the cluster every new member comes from. *)
Definition rx_facts (pool : rpool) (r : regex) (node : N) (p : string) (vis : list N) (res : list item * list N) : Prop :=
  incl vis (snd res)
  /\ (forall m, reach_from r node m ->
                In (node_line patched r p m) (fst res)
                /\ forall pos rid, nthN (r_nodes r) m = Some (RSubword pos) -> nthN (r_inputs r) pos = Some (RSub rid) ->
                                   In rid (snd res))
  /\ (forall x, In x (snd res) ->
                In x vis \/ exists sr inner f' v0 v1,
                              assocN x pool = Some sr /\ In (block_of x inner) (fst res)
                              /\ rx_items f' patched pool sr (r_root sr) None (sub_pre x) v0 = Ok (inner, v1))
  /\ (flat r -> snd res = vis).

Lemma rx_items_facts pool : pool_flat pool -> forall f r node parent p vis res,
  rx_items f patched pool r node parent p vis = Ok res -> rx_facts pool r node p vis res.
Proof.
  intro Hpf. induction f as [|f IH]; intros r node parent p vis res H; [discriminate|].
  rewrite rx_items_S in H. cbn zeta in H.
  destruct (nthN (r_nodes r) node) as [n|] eqn:En; [|discriminate].
  assert (Hself : (forall l, shape_of n <> ShInner l) -> forall m, reach_from r node m -> m = node).
  { intros Hn m Hm. apply reach_from_inv in Hm as [->|(x & l & c & Ex & Sx & _)]; [reflexivity|].
    rewrite En in Ex. injection Ex as <-. now elim (Hn l). }
  (* the facts for a node without children that leaves the visited set alone *)
  assert (Hleafcase : (forall l, shape_of n <> ShInner l) -> (forall pos, n <> RSubword pos) ->
            rx_facts pool r node p vis (node_line patched r p node :: parent_edge parent (node_id p node), vis)).
  { intros Hn Hs. split; [apply incl_refl|]. split; [|split; [intros x Hx; now left|reflexivity]].
    intros m Hm. apply (Hself Hn) in Hm as ->. split; [now left|].
    intros pos rid E. rewrite En in E. injection E as ->. now elim (Hs pos). }
  destruct (shape_of n) as [l|pos|pos|] eqn:Sn.
  - destruct (fold_children _ l vis) as [[its vis']| | |] eqn:Eg; try discriminate.
    cbn [obind fst snd] in H. injection H as <-.
    destruct (fold_facts _ (fun c v rc E => proj1 (IH _ _ _ _ _ _ E)) _ _ _ Eg) as [F1 [F2 F3]]. cbn [fst snd] in *.
    split; [exact F1|]. split; [|split].
    + intros m Hm. apply reach_from_inv in Hm as [->|(x & l' & c & Ex & Sx & Hc & Hcm)].
      * split; [now left|]. intros pos rid E. rewrite En in E. injection E as ->. discriminate.
      * rewrite En in Ex. injection Ex as <-. rewrite Sn in Sx. injection Sx as <-.
        destruct (F2 c Hc) as [v [rc [E1 [E2 E3]]]].
        destruct (IH _ _ _ _ _ _ E1) as [_ [Hb _]]. destruct (Hb m Hcm) as [B1 B2]. split.
        -- right. apply in_or_app. left. now apply E2.
        -- intros pos rid Ea Eb. apply E3. exact (B2 pos rid Ea Eb).
    + intros x Hx. destruct (F3 x Hx) as [Hv|[c [v [rc [Hc [E1 [E2 [E3 E4]]]]]]]]; [now left|].
      destruct (IH _ _ _ _ _ _ E1) as [_ [_ [Hc3 _]]]. destruct (Hc3 x E2) as [Hv|[sr [inner [f' [v0 [v1 [A1 [A2 A3]]]]]]]]; [contradiction|].
      right. exists sr, inner, f', v0, v1. split; [exact A1|]. split; [|exact A3]. right. apply in_or_app. left. now apply E4.
    + intro Hf. apply (fold_same _ l) with (vis := vis) (res := (its, vis')) in Eg; [exact Eg|].
      intros c v rc _ E. exact (proj2 (proj2 (proj2 (IH _ _ _ _ _ _ E))) Hf).
  - destruct (rx_input r pos) as [i| | |]; try discriminate. cbn [obind] in H.
    destruct (fits n i); [|discriminate]. injection H as <-.
    apply Hleafcase; [discriminate|]. intros pos' ->. discriminate.
  - destruct n; try discriminate. injection Sn as ->. clear Hleafcase.
    unfold rx_input in H. destruct (nthN (r_inputs r) pos) as [[| | |rid]|] eqn:Ei; try discriminate. cbn [obind] in H.
    destruct (assocN rid pool) as [sr|] eqn:Ep; [|discriminate].
    assert (Hvis : forall vis', In rid vis' -> forall pos' rid', Some (RSubword pos) = Some (RSubword pos') ->
              nthN (r_inputs r) pos' = Some (RSub rid') -> In rid' vis').
    { intros vis' Hin pos' rid' [= <-] E2. rewrite Ei in E2. now injection E2 as <-. }
    destruct (memN rid vis) eqn:Ev.
    + injection H as <-. split; [apply incl_refl|]. split; [|split; [intros x Hx; now left|]].
      * intros m Hm. apply Hself in Hm as ->; [|discriminate].
        split; [apply in_or_app; right; now left|]. rewrite En. apply Hvis. now apply memN_In.
      * intro Hf. now elim (Hf node pos).
    + destruct (rx_items f patched pool sr (r_root sr) None (sub_pre rid) (rid :: vis)) as [[inner vis']| | |] eqn:Er;
        try discriminate. cbn [obind fst snd] in H. injection H as <-.
      destruct (IH _ _ _ _ _ _ Er) as [_ [_ [_ Hflat]]]. cbn [snd] in Hflat. specialize (Hflat (Hpf rid sr Ep)). subst vis'.
      split; [intros x Hx; now right|]. split; [|split].
      * intros m Hm. apply Hself in Hm as ->; [|discriminate].
        split; [apply in_or_app; left; apply in_or_app; right; now left|]. rewrite En. apply Hvis. now left.
      * intros x [<-|Hx]; [|now left]. right. exists sr, inner, f, (rid :: vis), (rid :: vis).
        split; [exact Ep|]. split; [|exact Er]. apply in_or_app. right. now left.
      * intro Hf. now elim (Hf node pos).
  - injection H as <-. apply Hleafcase; [discriminate|]. intros pos' ->. discriminate.
Qed.

From CG Require Import Proofs.DotSemLabels.

Definition ctx_ok (pool : rpool) (r0 : regex) (p : string) (r : regex) : Prop :=
  (p = "" /\ r = r0) \/ exists rid, p = sub_pre rid /\ assocN rid pool = Some r.

Definition lab_rel (pool : rpool) (r0 : regex) (pr : string * string) : Prop :=
  exists p r m, ctx_ok pool r0 p r /\ fst pr = node_id p m /\ snd pr = qdec (node_body patched r m).

Lemma ctx_prefix pool r0 p r : ctx_ok pool r0 p r -> prefix_ok p.
Proof. intros [[-> _]|[rid [-> _]]]; constructor. Qed.

Lemma lab_rel_fun pool r0 i L L' : lab_rel pool r0 (i, L) -> lab_rel pool r0 (i, L') -> L = L'.
Proof.
  intros [p [r [m [Hc [Hi Hl]]]]] [p' [r' [m' [Hc' [Hi' Hl']]]]]. cbn [fst snd] in *.
  rewrite Hi in Hi'. destruct (node_id_inj _ _ _ _ (ctx_prefix _ _ _ _ Hc) (ctx_prefix _ _ _ _ Hc') Hi') as [Ep Em].
  subst p' m'. assert (r = r').
  { destruct Hc as [[E1 ->]|[rid [E1 A1]]], Hc' as [[E2 ->]|[rid' [E2 A2]]].
    - reflexivity.
    - rewrite E1 in E2. symmetry in E2. now elim (sub_pre_not_main rid').
    - rewrite E2 in E1. symmetry in E1. now elim (sub_pre_not_main rid).
    - rewrite E1 in E2. apply sub_pre_inj in E2. subst rid'. rewrite A1 in A2. now injection A2. }
  subst r'. now rewrite Hl, Hl'.
Qed.

Lemma block_head_stmts rid inner :
  flat_map item_stmts (block_head rid ++ inner)
  = (SAssign "label" (qdec ("SUBWORD " ++ dec rid)) :: SAssign "color" "grey91" :: SAssign "style" "filled"
     :: items_stmts inner)%list.
Proof. reflexivity. Qed.

Lemma rx_item_stmts pool r0 : forall it r p, rx_item pool r p it -> ctx_ok pool r0 p r ->
  Forall simple (item_stmts it) /\ forall pr, In pr (stated_all (item_stmts it)) -> lab_rel pool r0 pr.
Proof.
  induction it as [l|name body IH] using item_ind2; intros r p H Hc.
  - inversion H; subst; cbn [item_stmts line_stmts stated_all flat_map stated app].
    + split; [repeat constructor|]. intros pr [<-|[]]. exists p, r, m. now repeat split.
    + split; [repeat constructor|]. intros pr [].
  - inversion H as [| |r' p' rid sr inner Ea Hin]; subst.
    change (Forall simple [SSub (Some ("cluster_" ++ dec rid))
                                (SAssign "label" (qdec ("SUBWORD " ++ dec rid)) :: SAssign "color" "grey91"
                                 :: SAssign "style" "filled" :: items_stmts inner)]
            /\ forall pr, In pr (stated_all [SSub (Some ("cluster_" ++ dec rid))
                                               (SAssign "label" (qdec ("SUBWORD " ++ dec rid)) :: SAssign "color" "grey91"
                                                :: SAssign "style" "filled" :: items_stmts inner)]) ->
                           lab_rel pool r0 pr).
    apply (proj1 (Forall_app _ (block_head rid) inner)) in IH. destruct IH as [_ IH].
    assert (Hctx : ctx_ok pool r0 (sub_pre rid) sr) by (right; now exists rid).
    assert (Hall : Forall simple (items_stmts inner)
                   /\ forall pr, In pr (stated_all (items_stmts inner)) -> lab_rel pool r0 pr).
    { clear H. induction inner as [|x rest IHr]; [split; [constructor|intros ? []]|].
      inversion IH as [|? ? Hx Hr]; subst. inversion Hin as [|? ? Hx' Hr']; subst.
      destruct (Hx sr (sub_pre rid) Hx' Hctx) as [A B]. destruct (IHr Hr Hr') as [A' B'].
      cbn [items_stmts flat_map]. split; [apply Forall_app; now split|].
      intros pr Hpr. unfold stated_all in Hpr. rewrite flat_map_app in Hpr. apply in_app_or in Hpr as [Hpr|Hpr];
        [now apply B|now apply B']. }
    destruct Hall as [A B]. split.
    + constructor; [|constructor]. constructor. repeat (constructor; [constructor|]). exact A.
    + intros pr Hpr. cbn [stated_all flat_map stated app] in Hpr. rewrite app_nil_r in Hpr. exact (B pr Hpr).
Qed.

Lemma rx_items_stmts pool r0 l p r :
  Forall (rx_item pool r p) l -> ctx_ok pool r0 p r ->
  Forall simple (items_stmts l) /\ forall pr, In pr (stated_all (items_stmts l)) -> lab_rel pool r0 pr.
Proof.
  intros H Hc. induction H as [|x rest Hx Hr IH]; [split; [constructor|intros ? []]|].
  destruct (rx_item_stmts pool r0 x r p Hx Hc) as [A B]. destruct IH as [A' B'].
  cbn [items_stmts flat_map]. split; [apply Forall_app; now split|].
  intros pr Hpr. unfold stated_all in Hpr. rewrite flat_map_app in Hpr. apply in_app_or in Hpr as [Hpr|Hpr];
    [now apply B|now apply B'].
Qed.

Definition leaf_for (inp : rinput) (pos : N) : rnode :=
  match inp with
  | RLit _ _ => RTerm pos
  | RNonterm _ => RNt pos
  | RCmd _ => RCommand pos
  | RSub _ => RSubword pos
  end.

(** every position has its leaf, reachable from the root without passing an [RStar] *)
Definition rx_cover (r : regex) : Prop :=
  forall pos inp, nthN (r_inputs r) pos = Some inp ->
                  exists m, reach_from r (r_root r) m /\ nthN (r_nodes r) m = Some (leaf_for inp pos).

Definition spec_items (r : regex) : list ritem := map ritem_of (r_inputs r).
Definition spec_pool (pool : rpool) : list (N * list ritem) := map (fun q => (fst q, spec_items (snd q))) pool.

Lemma labels_from_in its : forall n l,
  In l (labels_from n its) -> exists k it, nth_error its k = Some it /\ l = item_label (n + N.of_nat k) it.
Proof.
  induction its as [|x r IH]; intros n l H; [destruct H|]. cbn [labels_from] in H. destruct H as [<-|H].
  - exists 0%nat, x. split; [reflexivity|]. now rewrite N.add_0_r.
  - destruct (IH _ _ H) as [k [it [E1 E2]]]. exists (S k), it. split; [exact E1|]. rewrite E2. f_equal. lia.
Qed.

Lemma spec_items_nth r k it :
  nth_error (spec_items r) k = Some it ->
  exists inp, nthN (r_inputs r) (N.of_nat k) = Some inp /\ it = ritem_of inp.
Proof.
  unfold spec_items, nthN. rewrite Nat2N.id. intro H.
  destruct (nth_error (r_inputs r) k) as [inp|] eqn:E.
  - rewrite (map_nth_error ritem_of _ _ E) in H. injection H as <-. now exists inp.
  - apply nth_error_None in E. assert (Hn : nth_error (map ritem_of (r_inputs r)) k = None)
      by (apply nth_error_None; now rewrite map_length). congruence.
Qed.

Lemma spec_pool_assoc pool rid its :
  assocN rid (spec_pool pool) = Some its -> exists sr, assocN rid pool = Some sr /\ its = spec_items sr.
Proof.
  unfold spec_pool. induction pool as [|[k sr] rest IH]; [discriminate|]. cbn [map assocN fst snd].
  destruct (rid =? k)%N; [intro H; injection H as <-; now exists sr|exact IH].
Qed.

Lemma node_body_leaf r m pos inp :
  nthN (r_nodes r) m = Some (leaf_for inp pos) -> nthN (r_inputs r) pos = Some inp ->
  node_body patched r m = leaf_body patched pos inp.
Proof. intros E1 E2. unfold node_body. rewrite E1. destruct inp; cbn [leaf_for]; now rewrite E2. Qed.

Lemma stated_of_line i b l : In (ILine (LNode i b)) l -> In (i, qdec b) (stated_all (items_stmts l)).
Proof.
  intro H. unfold stated_all, items_stmts. apply in_flat_map. exists (SNode i [("label", qdec b)]). split.
  - apply in_flat_map. exists (ILine (LNode i b)). split; [exact H|now left].
  - now left.
Qed.

Lemma stmt_of_block name b l : In (IBlock name b) l -> In (SSub (Some name) (items_stmts b)) (items_stmts l).
Proof. intro H. unfold items_stmts. apply in_flat_map. exists (IBlock name b). split; [exact H|now left]. Qed.

Lemma stated_sub_incl name body l pr :
  In (SSub name body) l -> In pr (stated_all body) -> In pr (stated_all l).
Proof. intros H Hp. unfold stated_all. apply in_flat_map. exists (SSub name body). split; [exact H|exact Hp]. Qed.

Lemma sub_rids_in l rid : In rid (sub_rids l) -> In (XSub rid) l.
Proof.
  unfold sub_rids. rewrite dedup_in, in_flat_map. intros [x [Hx Hr]]. destruct x; try destruct Hr.
  - subst. exact Hx.
  - destruct H.
Qed.

Lemma graph_directed a : g_directed (graph_of_ast a) = a_directed a.
Proof. unfold graph_of_ast. destruct (run_stmts (a_body a) _). reflexivity. Qed.

(** every expected label of a covered regex is the label of a line the printer wrote for it *)
Lemma covered_line sr p its :
  rx_cover sr -> (forall m, reach_from sr (r_root sr) m -> In (node_line patched sr p m) its) ->
  forall l, In l (labels_from 0 (spec_items sr)) ->
    exists m pos inp, l = item_label pos (ritem_of inp)
                      /\ In (ILine (LNode (node_id p m) (leaf_body patched pos inp))) its.
Proof.
  intros Hcov FB l Hl. destruct (labels_from_in _ _ _ Hl) as [k [it [E1 ->]]]. rewrite N.add_0_l.
  destruct (spec_items_nth sr k it E1) as [inp [Ei ->]]. destruct (Hcov _ _ Ei) as [m [Hreach Hnode]].
  exists m, (N.of_nat k), inp. split; [reflexivity|]. rewrite <- (node_body_leaf sr m _ inp Hnode Ei). exact (FB m Hreach).
Qed.

Lemma rendered_leaf n pos inp :
  assoc "label" (gn_attrs n) = Some (qdec (leaf_body patched pos inp)) ->
  option_eqb String.eqb (rendered (gn_attrs n)) (Some (item_label pos (ritem_of inp))) = true.
Proof.
  intro H. destruct (leaf_body_decodes pos inp) as [v [Ed Ev]]. unfold rendered. rewrite H. unfold qdec. rewrite Ed.
  cbn [option_map option_eqb]. rewrite Ev. apply String.eqb_refl.
Qed.

Theorem regex_dot_patched pool r text :
  pool_flat pool -> of_regex_with patched pool r = Ok text ->
  exists g, read text = Some g
            /\ (rx_cover r -> (forall rid sr, assocN rid pool = Some sr -> rx_cover sr) ->
                regex_ok g (spec_pool pool) (spec_items r)).
Proof.
  intros Hpf H. unfold of_regex_with, regex_items in H.
  destruct (rx_items (rx_fuel pool r) patched pool r (r_root r) None "" []) as [[items vis]| | |] eqn:Er; try discriminate.
  cbn [obind fst] in H. injection H as <-.
  assert (Hnone : forall pid, @None string = Some pid -> id_ok pid) by discriminate.
  pose proof (rx_items_inv pool _ _ _ _ _ _ _ pre_main Hnone Er) as Hinv.
  cbn [fst] in Hinv.
  assert (Hok : Forall item_ok items).
  { rewrite Forall_forall in *. intros x Hx. exact (rx_item_ok pool x r "" (Hinv x Hx) pre_main). }
  eexists. split; [apply (read_render_doc "rx" items); [split; reflexivity|exact Hok]|].
  intros Hcov Hcovs.
  destruct (rx_items_stmts pool r items "" r Hinv (or_introl (conj eq_refl eq_refl))) as [Hsimple Hrel].
  destruct (labels_kept (items_stmts items) false (Some "rx") Hsimple) as [K1 K2].
  { intros i L L' H1 H2. exact (lab_rel_fun pool r i L L' (Hrel _ H1) (Hrel _ H2)). }
  cbn zeta in K1, K2.
  destruct (rx_items_facts pool Hpf _ _ _ _ _ _ _ Er) as [_ [FB [FC _]]]. cbn [fst snd] in FB, FC.
  split; [apply graph_directed|].
  intros w Hw. unfold expected_labels in Hw. apply in_app_or in Hw as [Hw|Hw].
  -
    apply in_map_iff in Hw as [l [<- Hl]].
    destruct (covered_line r "" items Hcov (fun m Hm => proj1 (FB m Hm)) l Hl) as (m & pos & inp & -> & Hline).
    destruct (K1 _ _ (stated_of_line _ _ _ Hline)) as [n [Hn [Hid Hlab]]].
    unfold labels_node. apply existsb_exists. exists n. split; [exact Hn|]. now rewrite (rendered_leaf n pos inp Hlab).
  -
    apply in_flat_map in Hw as [rid [Hrid Hw]].
    destruct (assocN rid (spec_pool pool)) as [its|] eqn:Ea; [|destruct Hw].
    destruct (spec_pool_assoc pool rid its Ea) as [sr [Esr ->]].
    apply in_map_iff in Hw as [l [<- Hl]].
    (* the within-word regex is met: its cluster was written *)
    apply sub_rids_in in Hrid. unfold spec_items in Hrid. apply in_map_iff in Hrid as [inp0 [E0 Hin0]].
    destruct inp0 as [| | |rid0]; try discriminate E0. injection E0 as ->.
    apply In_nth_error in Hin0 as [k0 Hk0].
    assert (Ei0 : nthN (r_inputs r) (N.of_nat k0) = Some (RSub rid)) by (unfold nthN; now rewrite Nat2N.id).
    destruct (Hcov _ _ Ei0) as [m0 [Hreach0 Hnode0]]. cbn [leaf_for] in Hnode0.
    destruct (FB m0 Hreach0) as [_ Hvis]. specialize (Hvis _ _ Hnode0 Ei0).
    destruct (FC rid Hvis) as [[]|[sr' [inner [f' [v0 [v1 [Esr' [Hblock Hrun]]]]]]]].
    rewrite Esr in Esr'. injection Esr' as <-.
    destruct (rx_items_facts pool Hpf _ _ _ _ _ _ _ Hrun) as [_ [FB' _]]. cbn [fst] in FB'.
    destruct (covered_line sr (sub_pre rid) inner (Hcovs rid sr Esr) (fun m Hm => proj1 (FB' m Hm)) l Hl)
      as (m & pos & inp & -> & Hline).
    unfold block_of in Hblock. apply stmt_of_block in Hblock.
    assert (Hin_body : In (node_id (sub_pre rid) m, qdec (leaf_body patched pos inp))
                          (stated_all (items_stmts (block_head rid ++ inner)))).
    { apply stated_of_line. apply in_or_app. now right. }
    destruct (K1 _ _ (stated_sub_incl _ _ _ _ Hblock Hin_body)) as [n [Hn [Hid Hlab]]].
    unfold labels_node. apply existsb_exists. exists n. split; [exact Hn|].
    rewrite (rendered_leaf n pos inp Hlab), Hid. exact (K2 _ _ _ _ Hblock Hin_body).
Qed.

Lemma escape_quotes_none s : contains_char c_dq s = false -> escape_quotes s = s.
Proof.
  unfold escape_quotes. change """"%char with c_dq.
  induction s as [|c s IH]; [reflexivity|]. cbn [contains_char replace_char].
  destruct (Ascii.eqb c c_dq); [discriminate|]. intro H. now rewrite IH.
Qed.

Lemma escape_dot_safe s : needs_dot_escape s = false -> escape_dot s = s.
Proof.
  unfold needs_dot_escape. intro H. apply orb_false_iff in H as [H1 H2]. unfold escape_dot.
  rewrite (escape_backslashes_none s H2). now apply escape_quotes_none.
Qed.

Lemma fold_children_ext F G l : (forall c v, F c v = G c v) -> forall vis, fold_children F l vis = fold_children G l vis.
Proof.
  intro H. induction l as [|c rest IH]; intro vis; [reflexivity|]. cbn [fold_children]. rewrite H.
  destruct (G c vis) as [a| | |]; try reflexivity. cbn [obind]. now rewrite IH.
Qed.

(** two variants write the texts of an input the same way *)
Definition rx_agree (v1 v2 : variant) (inp : rinput) : Prop :=
  match inp with
  | RLit t None => v_rx_escape v1 t = v_rx_escape v2 t
  | RLit t (Some d) => v_rx_escape v1 t = v_rx_escape v2 t /\ v_rx_escape v1 d = v_rx_escape v2 d
  | RNonterm n => v_rx_escape v1 n = v_rx_escape v2 n
  | _ => True
  end.
Definition inputs_agree (v1 v2 : variant) (r : regex) : Prop := forall inp, In inp (r_inputs r) -> rx_agree v1 v2 inp.

Lemma leaf_body_agree v1 v2 pos inp : rx_agree v1 v2 inp -> leaf_body v1 pos inp = leaf_body v2 pos inp.
Proof.
  destruct inp as [t [d|]|n|c|rid]; cbn [rx_agree leaf_body]; try reflexivity.
  - intros [-> ->]. reflexivity.
  - intros ->. reflexivity.
  - intros ->. reflexivity.
Qed.

Lemma rx_items_agree v1 v2 pool :
  (forall rid sr, assocN rid pool = Some sr -> inputs_agree v1 v2 sr) ->
  forall f r node parent p vis, inputs_agree v1 v2 r ->
    rx_items f v1 pool r node parent p vis = rx_items f v2 pool r node parent p vis.
Proof.
  intro Hpool. induction f as [|f IH]; intros r node parent p vis Hs; [reflexivity|].
  rewrite !rx_items_S.
  assert (Hb : node_line v1 r p node = node_line v2 r p node).
  { unfold node_line, node_body.
    destruct (nthN (r_nodes r) node) as [[|pos|pos|pos|pos|pos|l|l|c]|]; try reflexivity;
      (destruct (nthN (r_inputs r) pos) as [inp|] eqn:Ei; [|reflexivity]);
      rewrite (leaf_body_agree v1 v2 pos inp (Hs inp (nthN_In _ _ _ Ei))); reflexivity. }
  cbn zeta. rewrite Hb. destruct (nthN (r_nodes r) node) as [n|]; [|reflexivity].
  destruct (shape_of n) as [l|pos|pos|]; try reflexivity.
  - rewrite (fold_children_ext _ (fun c w => rx_items f v2 pool r c (Some (node_id p node)) p w)); [reflexivity|].
    intros c w. now apply IH.
  - destruct (rx_input r pos) as [[| | |rid]| | |]; try reflexivity. cbn [obind].
    destruct (assocN rid pool) as [sr|] eqn:Ep; [|reflexivity].
    destruct (memN rid vis); [reflexivity|]. now rewrite (IH sr _ _ _ _ (Hpool rid sr Ep)).
Qed.

Definition rx_variant_agrees (v : variant) (pool : rpool) (r : regex) : Prop :=
  inputs_agree v patched r /\ forall rid sr, assocN rid pool = Some sr -> inputs_agree v patched sr.

Lemma of_regex_agree v pool r :
  rx_variant_agrees v pool r -> of_regex_with v pool r = of_regex_with patched pool r.
Proof.
  intros [Hr Hp]. unfold of_regex_with, regex_items. now rewrite (rx_items_agree v patched pool Hp _ _ _ _ _ _ Hr).
Qed.

Lemma current_agrees pool r : rx_variant_agrees current pool r.
Proof.
  assert (H : forall inp, rx_agree current patched inp) by (intros [t [d|]|n|c|x]; cbn; auto).
  split; [intros inp _; apply H|intros rid sr _ inp _; apply H].
Qed.

(** the code before commit 0e66d33, when no text needs escaping *)
Lemma rx_old_agrees pool r : known_rx_all pool r = false -> rx_variant_agrees old pool r.
Proof.
  assert (H : forall inp, rinput_raw_unsafe inp = false -> rx_agree old patched inp).
  { intros [t [d|]|n|c|x]; cbn [rinput_raw_unsafe rx_agree v_rx_escape old patched]; intro H; try exact I.
    - apply orb_false_iff in H as [H1 H2]. now rewrite (escape_dot_safe _ H1), (escape_dot_safe _ H2).
    - now rewrite (escape_dot_safe _ H).
    - now rewrite (escape_dot_safe _ H). }
  unfold known_rx_all. intro Hk. apply orb_false_iff in Hk as [H1 H2]. split.
  - intros inp Hin. apply H. exact (proj1 (existsb_false _ _) H1 inp Hin).
  - intros rid sr Ea inp Hin. apply H. apply assocN_In in Ea.
    pose proof (proj1 (existsb_false _ _) H2 (rid, sr) Ea) as Hq. exact (proj1 (existsb_false _ _) Hq inp Hin).
Qed.

Lemma rx_reach_sound r : forall f n m, In m (rx_reach f r n) -> reach_from r n m.
Proof.
  induction f as [|f IH]; intros n m H; [destruct H|]. cbn [rx_reach] in H. destruct H as [<-|H]; [constructor|].
  destruct (nthN (r_nodes r) n) as [[| | | | | |l|l|]|] eqn:E; try destruct H.
  - apply in_flat_map in H as [c [Hc Hm]]. exact (rf_cat r n l c m E Hc (IH _ _ Hm)).
  - apply in_flat_map in H as [c [Hc Hm]]. exact (rf_or r n l c m E Hc (IH _ _ Hm)).
Qed.

Lemma rnode_leaf_eqb_eq n inp pos : rnode_leaf_eqb n (rx_leaf_for inp pos) = true -> n = leaf_for inp pos.
Proof.
  destruct inp, n; cbn; intro H; try discriminate; apply N.eqb_eq in H; now subst.
Qed.

Lemma rx_cover_from_sound r reach : forall inputs pos0,
  rx_cover_from r reach pos0 inputs = true ->
  forall k inp, nth_error inputs k = Some inp ->
    exists m, In m reach /\ nthN (r_nodes r) m = Some (leaf_for inp (pos0 + N.of_nat k)).
Proof.
  induction inputs as [|x rest IH]; intros pos0 H k inp E; [destruct k; discriminate|].
  cbn [rx_cover_from] in H. apply andb_true_iff in H as [H1 H2]. destruct k as [|k].
  - cbn in E. injection E as ->. apply existsb_exists in H1 as [m [Hm Hn]]. exists m. split; [exact Hm|].
    destruct (nthN (r_nodes r) m) as [n|]; [|discriminate]. rewrite N.add_0_r. f_equal. now apply rnode_leaf_eqb_eq.
  - cbn in E. destruct (IH _ H2 k inp E) as [m [Hm Hn]]. exists m. split; [exact Hm|]. rewrite Hn. do 2 f_equal. lia.
Qed.

Lemma rx_cover_b_sound r : rx_cover_b r = true -> rx_cover r.
Proof.
  unfold rx_cover_b, rx_cover. intros H pos inp E. unfold nthN in E.
  destruct (rx_cover_from_sound r _ _ _ H _ _ E) as [m [Hm Hn]]. exists m. split; [exact (rx_reach_sound r _ _ _ Hm)|].
  rewrite Hn. now rewrite N.add_0_l, N2Nat.id.
Qed.

Lemma rx_flat_b_sound r : rx_flat_b r = true -> flat r.
Proof.
  unfold rx_flat_b, flat. intros H m pos E. rewrite forallb_forall in H. unfold nthN in E.
  specialize (H _ (nth_error_In _ _ E)). discriminate H.
Qed.

Lemma rx_wf_b_sound pool r :
  rx_wf_b pool r = true ->
  pool_flat pool /\ rx_cover r /\ forall rid sr, assocN rid pool = Some sr -> rx_cover sr.
Proof.
  unfold rx_wf_b. intro H. apply andb_true_iff in H as [H1 H2]. rewrite forallb_forall in H2.
  split; [|split; [now apply rx_cover_b_sound|]].
  - intros rid sr E. apply assocN_In in E. specialize (H2 _ E). cbn [snd] in H2. apply andb_true_iff in H2 as [A _].
    now apply rx_flat_b_sound.
  - intros rid sr E. apply assocN_In in E. specialize (H2 _ E). cbn [snd] in H2. apply andb_true_iff in H2 as [_ B].
    now apply rx_cover_b_sound.
Qed.

Theorem regex_dot_patched_b pool r text :
  rx_wf_b pool r = true -> of_regex_with patched pool r = Ok text ->
  exists g, read text = Some g /\ regex_ok g (spec_pool pool) (spec_items r).
Proof.
  intros Hwf H. destruct (rx_wf_b_sound pool r Hwf) as [A [B C]].
  destruct (regex_dot_patched pool r text A H) as [g [Hr Hok]]. exists g. split; [exact Hr|now apply Hok].
Qed.
