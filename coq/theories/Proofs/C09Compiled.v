(** C09 on the compiled automaton ([Driver.compile_valid]):
    - [||] is transparent: the automaton of a grammar and the automaton of its [|] variant accept
      the same item words once levels and descriptions are erased; read as typed words
      ([wpath]), they match the same command lines and expect the same items (up to erasure)
      after them;
    - outside the known mechanisms ([Ambig.find] finds nothing) two walks over the same typed
      words end in the same state ([wpath_det]), and on the grammar side two readings of the same
      typed words have the same continuations. *)
From CG Require Import Base.Prelude Proofs.ListFacts Model.Ast Model.Dfa Model.Check Model.Driver Spec.Lang Spec.TokAut Spec.Ambig.
From CG Require Import Spec.DfaEquiv.
From CG Require Import Proofs.LangJudge Proofs.TreeFacts Proofs.CheckTree Proofs.DriverCorrect Proofs.CompiledFacts.
From CG Require Import Proofs.SubCompiled Proofs.TablesSound Proofs.DfaEquivProofs Proofs.WfTrim.
From CG Require Import Proofs.MeaningLevels Proofs.CheckBar Proofs.EraseLang Proofs.ReadWords Proofs.TaccWords.
From CG Require Import Proofs.AmbigFacts.

Lemma forallb_map_same : forall (f : expr -> bool) (g : expr -> expr) cs,
  Forall (fun e => f (g e) = f e) cs -> forallb f (map g cs) = forallb f cs.
Proof. intros f g cs H. rewrite forallb_map. apply forallb_ext_Forall. exact H. Qed.

Lemma alts_nonempty_bar : forall e, alts_nonempty (bar_of_barbar e) = alts_nonempty e.
Proof.
  induction e using expr_ind'; cbn [bar_of_barbar alts_nonempty]; try reflexivity; try assumption.
  - apply forallb_map_same. exact H.
  - destruct cs as [|c cs]; [reflexivity|]. rewrite <- (forallb_map_same _ _ _ H). reflexivity.
  - destruct cs as [|c cs]; [reflexivity|]. rewrite <- (forallb_map_same _ _ _ H). reflexivity.
Qed.

Lemma grammar_alts_nonempty_bar : forall g, grammar_alts_nonempty (bar_grammar g) = grammar_alts_nonempty g.
Proof.
  intros g. unfold grammar_alts_nonempty, bar_grammar.
  induction g as [|s g IH]; [reflexivity|]. cbn [map forallb]. rewrite IH. f_equal.
  destruct s; cbn [bar_stmt]; apply alts_nonempty_bar.
Qed.

Theorem fallback_transparent_items : forall builtins g sh v v' pick fuel pick' fuel' c c',
  from_grammar builtins g sh = Ok v ->
  from_grammar builtins (bar_grammar g) sh = Ok v' ->
  grammar_alts_nonempty g = true ->
  compile_valid pick fuel v = Ok c -> compile_valid pick' fuel' v' = Ok c' ->
  forall u, erased_lang (accepts_items c) u <-> erased_lang (accepts_items c') u.
Proof.
  intros builtins g sh v v' pick fuel pick' fuel' c c' Hv Hv' Hga Hc Hc' u.
  pose proof (driver_correct_from_grammar builtins g sh v pick fuel c Hv Hga Hc) as L.
  assert (Hga' : grammar_alts_nonempty (bar_grammar g) = true) by (rewrite grammar_alts_nonempty_bar; exact Hga).
  pose proof (driver_correct_from_grammar builtins (bar_grammar g) sh v' pick' fuel' c' Hv' Hga' Hc') as L'.
  pose proof (from_grammar_bar_norm builtins g sh v v' Hv Hv') as Hn.
  pose proof (erased_denotes_of_norm_eq (v_expr v') (v_expr v) Hn u) as E.
  unfold erased_lang in *. split; intros [w [Hw F]].
  - destruct (proj2 E (ex_intro _ w (conj (proj1 (L w) Hw) F))) as [w' [Hw' F']].
    exists w'. split; [apply L'; exact Hw'|exact F'].
  - destruct (proj1 E (ex_intro _ w (conj (proj1 (L' w) Hw) F))) as [w' [Hw' F']].
    exists w'. split; [apply L; exact Hw'|exact F'].
Qed.

Section Words.
  Variable wild : witem -> string -> Prop.
  (** what a command reads does not depend on its level *)
  Hypothesis wild_erase : forall a w, wild (erase_witem a) w <-> wild a w.

  Notation reads := (item_reads wild).

  Lemma tok_reads_erase : forall a u, tok_reads (erase_witem a) u <-> tok_reads a u.
  Proof. intros [t d l|c l|c l|] u; simpl; tauto. Qed.

  Lemma wreads_erase : forall v w, wreads (map erase_witem v) w <-> wreads v w.
  Proof.
    intros v w. split.
    - revert w. induction v as [|a v IH]; intros w H; simpl in H; inversion H; subst; constructor;
        [apply tok_reads_erase; assumption|apply IH; assumption].
    - intros H. induction H; simpl; constructor; [apply tok_reads_erase; assumption|assumption].
  Qed.

  Lemma reads_leaf_erase : forall a w, reads (ILeaf (erase_witem a)) w <-> reads (ILeaf a) w.
  Proof.
    intros [t d l|c l|c l|] w; simpl;
      [tauto|apply (wild_erase (WCmd c l))|apply (wild_erase (WCompadd c l))|apply (wild_erase WStar)].
  Qed.

  Lemma reads_erases : forall x y w, erases x y -> (reads x w <-> reads y w).
  Proof.
    intros [a|L l] y w H; unfold erases in H.
    - split; intros R.
      + apply (item_reads_equiv wild _ _ _ H). apply reads_leaf_erase. exact R.
      + apply (item_reads_equiv wild _ _ _ (item_equiv_sym _ _ H)) in R. apply reads_leaf_erase. exact R.
    - split; intros R.
      + apply (item_reads_equiv wild _ _ _ H). simpl in *. destruct R as [v [Hv Hr]].
        exists (map erase_witem v). split; [exists v; auto|apply wreads_erase; exact Hr].
      + apply (item_reads_equiv wild _ _ _ (item_equiv_sym _ _ H)) in R. simpl in *.
        destruct R as [u [[v [Hv <-]] Hr]]. exists v. split; auto. apply wreads_erase. exact Hr.
  Qed.

  Lemma Forall2_reads_erases : forall w u ws, Forall2 erases w u ->
    (Forall2 reads w ws <-> Forall2 reads u ws).
  Proof.
    intros w u ws F. revert ws. induction F as [|x y w u Hxy F IH]; intros ws.
    - tauto.
    - split; intros R; inversion R as [|? w0 ? ws0 R1 R2]; subst; constructor.
      + apply (proj1 (reads_erases x y w0 Hxy)). exact R1.
      + apply IH. exact R2.
      + apply (proj2 (reads_erases x y w0 Hxy)). exact R1.
      + apply IH. exact R2.
  Qed.

  (** a walk of the automaton over typed words: each word is read by the item of the transition *)
  Inductive wpath (c : cdfa) : N -> list string -> N -> Prop :=
  | wp_nil s : wpath c s [] s
  | wp_cons s i x t w ws s' :
      step (c_main c) s i = Some t -> nthN (d_inputs (c_main c)) i = Some x ->
      reads (item_of_inp c x) w -> wpath c t ws s' -> wpath c s (w :: ws) s'.

  Definition matched_words (c : cdfa) (ws : list string) : Prop :=
    exists s', wpath c (d_start (c_main c)) ws s' /\ is_accepting (c_main c) s' = true.

  (** the items on the transitions that leave a state reached on [ws] *)
  Definition expected (c : cdfa) (ws : list string) (x : inp) : Prop :=
    exists s' i t, wpath c (d_start (c_main c)) ws s' /\ step (c_main c) s' i = Some t /\
                   nthN (d_inputs (c_main c)) i = Some x.

  Definition ids_read (c : cdfa) (ids : list N) (ws : list string) : Prop :=
    Forall2 (fun i w => exists x, nthN (d_inputs (c_main c)) i = Some x /\ reads (item_of_inp c x) w) ids ws.

  Lemma wpath_ids : forall c s ws s', wpath c s ws s' <->
    exists ids, run (c_main c) s ids = Some s' /\ ids_read c ids ws.
  Proof.
    intros c s ws s'. split.
    - intros P. induction P as [s|s i x t w ws s' Hs Hx Hr P [ids [Hrun F]]].
      + exists []. split; [reflexivity|constructor].
      + exists (i :: ids). split; [simpl; rewrite Hs; exact Hrun|]. constructor; eauto.
    - intros [ids [Hrun F]]. revert s Hrun. induction F as [|i w ids ws [x [Hx Hr]] F IH]; intros s Hrun.
      + simpl in Hrun. inversion Hrun. constructor.
      + simpl in Hrun. destruct (step (c_main c) s i) as [t|] eqn:Es; [|discriminate].
        econstructor; eauto.
  Qed.

  (** the items (up to [item_equiv]) on the transitions of a run: the relation inside [accepts_items] *)
  Definition labels (c : cdfa) (ids : list N) (its : list item) : Prop :=
    Forall2 (fun i it => exists x, nthN (d_inputs (c_main c)) i = Some x /\ item_equiv (item_of_inp c x) it) ids its.

  Lemma items_of_ids : forall c ids ws, ids_read c ids ws ->
    exists its, labels c ids its /\ Forall2 reads its ws.
  Proof.
    intros c ids ws F. induction F as [|i w ids ws [x [Hx Hr]] F [its [F1 F2]]].
    - exists []. split; constructor.
    - exists (item_of_inp c x :: its). split; constructor; auto.
      exists x. split; [exact Hx|apply item_equiv_refl].
  Qed.

  Lemma ids_of_items : forall c ids its ws,
    labels c ids its -> Forall2 reads its ws -> ids_read c ids ws.
  Proof.
    intros c ids its ws F. revert ws. induction F as [|i it ids its [x [Hx He]] F IH]; intros ws R.
    - inversion R. constructor.
    - inversion R; subst. constructor; [|apply IH; assumption].
      exists x. split; [exact Hx|]. eapply item_reads_equiv; [apply item_equiv_sym; exact He|assumption].
  Qed.

  Lemma matched_words_items : forall c ws,
    matched_words c ws <-> exists its, accepts_items c its /\ Forall2 reads its ws.
  Proof.
    intros c ws. unfold matched_words. split.
    - intros [s' [P Ha]]. apply wpath_ids in P. destruct P as [ids [Hrun F]].
      destruct (items_of_ids _ _ _ F) as [its [F1 F2]]. exists its. split; [|exact F2].
      exists ids. split; [|exact F1]. unfold accepts, Dfa.accepts_from. rewrite Hrun. exact Ha.
    - intros [its [[ids [Ha F1]] F2]]. unfold accepts, Dfa.accepts_from in Ha.
      destruct (run (c_main c) (d_start (c_main c)) ids) as [s'|] eqn:Hrun; [|discriminate].
      exists s'. split; [|exact Ha]. apply wpath_ids. exists ids. split; [exact Hrun|].
      eapply ids_of_items; eauto.
  Qed.

  Definition erase_item (x : item) : item :=
    match x with
    | ILeaf a => ILeaf (erase_witem a)
    | IWord L _ => IWord (erase_lang L) 0
    end.

  Lemma erases_erase_item : forall x, erases x (erase_item x).
  Proof. intros [a|L l]; unfold erases, erase_item; apply item_equiv_refl. Qed.

  Lemma Forall2_erase_items : forall its, Forall2 erases its (map erase_item its).
  Proof. induction its; simpl; constructor; auto. apply erases_erase_item. Qed.

  Lemma matched_words_erased : forall c ws,
    matched_words c ws <-> exists u, erased_lang (accepts_items c) u /\ Forall2 reads u ws.
  Proof.
    intros c ws. rewrite matched_words_items. split.
    - intros [its [Ha R]]. exists (map erase_item its).
      split; [exists its; split; [exact Ha|apply Forall2_erase_items]|].
      apply (Forall2_reads_erases _ _ _ (Forall2_erase_items its)). exact R.
    - intros [u [[its [Ha F]] R]]. exists its. split; auto. apply (Forall2_reads_erases _ _ _ F). exact R.
  Qed.

  (** [||] is transparent to matching: same command lines matched ... *)
  Theorem transparent_matched : forall c c',
    (forall u, erased_lang (accepts_items c) u <-> erased_lang (accepts_items c') u) ->
    forall ws, matched_words c ws <-> matched_words c' ws.
  Proof.
    intros c c' H ws. rewrite !matched_words_erased.
    split; intros [u [Hu R]]; exists u; split; auto; apply H; auto.
  Qed.

  Lemma run_ids_inputs : forall d, dfa_wf d -> forall ids s s', run d s ids = Some s' ->
    Forall (fun j => exists x, nthN (d_inputs d) j = Some x) ids.
  Proof.
    intros d W. induction ids as [|j ids IH]; intros s s' H; [constructor|].
    simpl in H. destruct (step d s j) as [t|] eqn:Es; [|discriminate]. constructor; [|eapply IH; eauto].
    apply (step_in d s j t W) in Es. unfold Tables.transitions_from in Es.
    destruct (assocN s (d_trans d)) as [tos|] eqn:Er; [|destruct Es].
    apply assocN_In in Er. destruct W as [_ W]. destruct (W s tos Er) as [_ Hin]. eapply Hin; eauto.
  Qed.

  Lemma items_of_inputs : forall c ids, Forall (fun j => exists x, nthN (d_inputs (c_main c)) j = Some x) ids ->
    exists its, labels c ids its.
  Proof.
    intros c ids F. induction F as [|j ids [x Hx] F [its G]]; [exists []; constructor|].
    exists (item_of_inp c x :: its). constructor; auto. exists x. split; auto. apply item_equiv_refl.
  Qed.

  (** ... and the same items expected after them, up to erasure.  Trimness turns "expected" into
      a fact about the language: the transition that carries [x] lies on an accepting run, whose
      item word, erased, is also accepted by [c']; cut at the same position, that run of [c'] walks
      over [ws] (reading is invariant under erasure: [Forall2_reads_erases]) and goes on with an
      item that has the erasure of [x]. *)
  Theorem transparent_expected : forall c c',
    dfa_wf (c_main c) -> trim (c_main c) ->
    (forall u, erased_lang (accepts_items c) u -> erased_lang (accepts_items c') u) ->
    forall ws x, expected c ws x ->
      exists x' y, expected c' ws x' /\ erases (item_of_inp c x) y /\ erases (item_of_inp c' x') y.
  Proof.
    intros c c' W [_ Hco] H ws x [s' [i [t [P [Hs Hx]]]]].
    apply wpath_ids in P. destruct P as [ids0 [Hrun0 F0]].
    destruct (Hco t (step_In_states _ _ _ _ Hs)) as [rest Hrest].
    assert (Hrunr : exists sr, run (c_main c) t rest = Some sr).
    { unfold Dfa.accepts_from in Hrest. destruct (run (c_main c) t rest) as [sr|]; [eauto|discriminate]. }
    destruct Hrunr as [sr Hrunr].
    assert (Hacc : accepts (c_main c) (ids0 ++ i :: rest) = true).
    { unfold accepts, Dfa.accepts_from. rewrite run_app, Hrun0. simpl. rewrite Hs. exact Hrest. }
    destruct (items_of_ids _ _ _ F0) as [its0 [G0 R0]].
    destruct (items_of_inputs c rest (run_ids_inputs _ W _ _ _ Hrunr)) as [itsr Gr].
    set (xi := item_of_inp c x).
    assert (Hai : accepts_items c (its0 ++ xi :: itsr)).
    { exists (ids0 ++ i :: rest). split; [exact Hacc|]. apply Forall2_app; [exact G0|].
      constructor; [|exact Gr]. exists x. split; [exact Hx|apply item_equiv_refl]. }
    destruct (H (map erase_item (its0 ++ xi :: itsr)))
      as [w' [[ids' [Hacc' G']] F']]; [exists (its0 ++ xi :: itsr); split; [exact Hai|apply Forall2_erase_items]|].
    rewrite map_app in F'. simpl in F'.
    apply Forall2_app_inv_r in F'. destruct F' as [w0' [wr' [F0' [Fr' ->]]]].
    inversion Fr' as [|xit ux wr'' ur Hxit Fr'' E1 E2]; subst. clear Fr'.
    apply Forall2_app_inv_r in G'. destruct G' as [ids0' [idsr' [G0' [Gr' ->]]]].
    inversion Gr' as [|i' xit' rest' wr3 [x' [Hx' Hex']] Gr'' E1 E2]; subst. clear Gr'.
    unfold accepts, Dfa.accepts_from in Hacc'. rewrite run_app in Hacc'.
    destruct (run (c_main c') (d_start (c_main c')) ids0') as [s''|] eqn:Hrun0'; [|discriminate].
    simpl in Hacc'. destruct (step (c_main c') s'' i') as [t'|] eqn:Hs'; [|discriminate].
    exists x', (erase_item xi). split; [|split].
    - exists s'', i', t'. split; [|split; [exact Hs'|exact Hx']].
      apply wpath_ids. exists ids0'. split; [exact Hrun0'|].
      eapply ids_of_items; [exact G0'|].
      apply (Forall2_reads_erases _ _ _ F0'). apply (Forall2_reads_erases _ _ _ (Forall2_erase_items its0)). exact R0.
    - apply erases_erase_item.
    - eapply erases_equiv_l; [apply item_equiv_sym; exact Hex'|exact Hxit].
  Qed.
End Words.

Definition none_wild : witem -> string -> Prop := fun _ _ => False.

Lemma none_wild_erase : forall a w, none_wild (erase_witem a) w <-> none_wild a w.
Proof. intros a w. unfold none_wild. tauto. Qed.

Section Unambiguous.
  Variables (pick : nat -> list (list N) -> nat) (fuel : nat) (v : valid_grammar) (c : cdfa).
  Hypothesis Halts : alts_nonempty (v_expr v) = true.
  Hypothesis Hc : compile_valid pick fuel v = Ok c.

  (** when commands and undefined nonterminals read nothing ([none_wild]), what an item reads
      ([ReadWords.item_reads]) it reads in the sense of [Spec.Ambig.matches_item] *)
  Lemma reads_matches : forall i x w,
    nthN (d_inputs (c_main c)) i = Some x ->
    item_reads none_wild (item_of_inp c x) w -> matches_item c x w.
  Proof.
    intros i x w Hx R. destruct x as [t d l|k l|cm l|cm l|]; simpl in R; try (destruct R; fail).
    - simpl. symmetry. exact R.
    - destruct R as [vv [Hv Hr]].
      assert (Hin : In (ISub k l) (d_inputs (c_main c))) by (unfold nthN in Hx; eapply nth_error_In; eauto).
      destruct (sub_facts pick fuel v c k l Halts Hc Hin) as [sd [Hsd Hok]].
      assert (E : sub_dfa c k = sd) by (unfold sub_dfa; apply nth_error_nth; exact Hsd).
      rewrite E in Hv. simpl. exists sd. split; [exact Hsd|].
      apply (tacc_waccepts sd (so_wf _ Hok)). eauto.
  Qed.

  Hypothesis Hknown : Ambig.find c = None.

  Lemma wpath_det : forall s ws s1, wpath none_wild c s ws s1 ->
    forall s2, wpath none_wild c s ws s2 -> s1 = s2.
  Proof.
    pose proof (find_none_unambiguous c Hknown) as U.
    intros s ws s1 P. induction P as [s|s i x t w ws s1 Hs Hx Hr P IH]; intros s2 P2.
    - inversion P2; subst. reflexivity.
    - inversion P2 as [|? i' x' t' ? ? ? Hs' Hx' Hr' P2']; subst.
      assert (t = t').
      { eapply (U s i i' x x' w t t'); eauto; eapply reads_matches; eauto. }
      subst t'. apply IH. exact P2'.
  Qed.

  Definition accepts_items_from (s : N) (r : list item) : Prop :=
    exists ids, Dfa.accepts_from (c_main c) s ids = true /\ labels c ids r.

  Lemma accepts_split : forall p r, accepts_items c (p ++ r) ->
    exists ids0 s, run (c_main c) (d_start (c_main c)) ids0 = Some s /\ labels c ids0 p /\ accepts_items_from s r.
  Proof.
    intros p r [ids [Ha F]]. apply Forall2_app_inv_r in F. destruct F as [ids0 [idsr [F0 [Fr ->]]]].
    unfold accepts, Dfa.accepts_from in Ha. rewrite run_app in Ha.
    destruct (run (c_main c) (d_start (c_main c)) ids0) as [s|] eqn:Hrun; [|discriminate].
    exists ids0, s. split; [exact Hrun|]. split; [exact F0|]. exists idsr. split; [exact Ha|exact Fr].
  Qed.

  Lemma accepts_join : forall ids0 s p r,
    run (c_main c) (d_start (c_main c)) ids0 = Some s -> labels c ids0 p ->
    accepts_items_from s r -> accepts_items c (p ++ r).
  Proof.
    intros ids0 s p r Hrun F0 [idsr [Ha Fr]]. exists (ids0 ++ idsr). split; [|apply Forall2_app; assumption].
    unfold accepts, Dfa.accepts_from. rewrite run_app, Hrun. exact Ha.
  Qed.

  (** Grammar side: two readings of the same typed words have the same continuations. *)
  Theorem readings_same_continuations : forall ws p q,
    Forall2 (item_reads none_wild) p ws -> Forall2 (item_reads none_wild) q ws ->
    (exists r, denotes (v_expr v) (p ++ r)) -> (exists r, denotes (v_expr v) (q ++ r)) ->
    forall r, denotes (v_expr v) (p ++ r) <-> denotes (v_expr v) (q ++ r).
  Proof.
    pose proof (driver_correct pick fuel v c Halts Hc) as L.
    assert (G : forall p q ws, Forall2 (item_reads none_wild) p ws -> Forall2 (item_reads none_wild) q ws ->
                (exists r, denotes (v_expr v) (q ++ r)) ->
                forall r, denotes (v_expr v) (p ++ r) -> denotes (v_expr v) (q ++ r)).
    { intros p q ws Rp Rq [r0 Hq] r Hp.
      apply L in Hq. apply accepts_split in Hq. destruct Hq as [ids2 [s2 [Hrun2 [F2 _]]]].
      apply L in Hp. apply accepts_split in Hp. destruct Hp as [ids1 [s1 [Hrun1 [F1 Hr]]]].
      assert (P1 : wpath none_wild c (d_start (c_main c)) ws s1).
      { apply wpath_ids. exists ids1. split; [exact Hrun1|]. eapply ids_of_items; eauto. }
      assert (P2 : wpath none_wild c (d_start (c_main c)) ws s2).
      { apply wpath_ids. exists ids2. split; [exact Hrun2|]. eapply ids_of_items; eauto. }
      rewrite (wpath_det _ _ _ P1 _ P2) in Hr.
      apply L. exact (accepts_join ids2 s2 q r Hrun2 F2 Hr). }
    intros ws p q Rp Rq Hp Hq r. split; [apply (G p q ws); assumption|apply (G q p ws); assumption].
  Qed.
End Unambiguous.

(** Two *distinct expected items* at the same point that read the same word: the special case
    the property names. *)
Corollary same_word_same_continuations : forall pick fuel v c,
  alts_nonempty (v_expr v) = true -> compile_valid pick fuel v = Ok c -> Ambig.find c = None ->
  forall ws p q x y w,
    Forall2 (item_reads none_wild) p ws -> Forall2 (item_reads none_wild) q ws ->
    item_reads none_wild x w -> item_reads none_wild y w ->
    (exists r, denotes (v_expr v) (p ++ x :: r)) -> (exists r, denotes (v_expr v) (q ++ y :: r)) ->
    forall r, denotes (v_expr v) (p ++ x :: r) <-> denotes (v_expr v) (q ++ y :: r).
Proof.
  intros pick fuel v c Ha Hc Hk ws p q x y w Rp Rq Rx Ry [r1 H1] [r2 H2] r.
  assert (E : forall (a : list item) b t, a ++ b :: t = (a ++ [b]) ++ t) by (intros; rewrite <- app_assoc; reflexivity).
  rewrite (E p x r), (E q y r). rewrite (E p x r1) in H1. rewrite (E q y r2) in H2.
  apply (readings_same_continuations pick fuel v c Ha Hc Hk (ws ++ [w])).
  - apply Forall2_app; [exact Rp|repeat constructor; exact Rx].
  - apply Forall2_app; [exact Rq|repeat constructor; exact Ry].
  - exists r1. exact H1.
  - exists r2. exact H2.
Qed.

(** What [C09_fallback_transparent_compiled] (Props/C09b.v) states with [known_C09] in place of
    [Ambig.find]. *)
Theorem fallback_transparent_compiled : forall builtins g sh v v' pick fuel pick' fuel' c c',
  from_grammar builtins g sh = Ok v ->
  from_grammar builtins (bar_grammar g) sh = Ok v' ->
  grammar_alts_nonempty g = true ->
  compile_valid pick fuel v = Ok c -> compile_valid pick' fuel' v' = Ok c' ->
  (* the same item words, up to levels and descriptions *)
  (forall u, erased_lang (accepts_items c) u <-> erased_lang (accepts_items c') u) /\
  (* the same command lines matched and the same items expected after them, whatever commands
     and undefined nonterminals read (as long as that does not depend on their level) *)
  (forall wild, (forall a w, wild (erase_witem a) w <-> wild a w) ->
     forall ws,
       (matched_words wild c ws <-> matched_words wild c' ws) /\
       (forall x, expected wild c ws x ->
          exists x' y, expected wild c' ws x' /\ erases (item_of_inp c x) y /\ erases (item_of_inp c' x') y) /\
       (forall x', expected wild c' ws x' ->
          exists x y, expected wild c ws x /\ erases (item_of_inp c' x') y /\ erases (item_of_inp c x) y)) /\
  (* outside the known mechanisms two walks over the same words end in the same state, in both
     (with [none_wild]: only what the grammar fixes is read) *)
  (Ambig.find c = None -> forall ws s1 s2,
     wpath none_wild c (d_start (c_main c)) ws s1 -> wpath none_wild c (d_start (c_main c)) ws s2 -> s1 = s2) /\
  (Ambig.find c' = None -> forall ws s1 s2,
     wpath none_wild c' (d_start (c_main c')) ws s1 -> wpath none_wild c' (d_start (c_main c')) ws s2 -> s1 = s2).
Proof.
  intros builtins g sh v v' pick fuel pick' fuel' c c' Hv Hv' Hga Hc Hc'.
  pose proof (fallback_transparent_items _ _ _ _ _ _ _ _ _ _ _ Hv Hv' Hga Hc Hc') as HE.
  assert (Hga' : grammar_alts_nonempty (bar_grammar g) = true) by (rewrite grammar_alts_nonempty_bar; exact Hga).
  destruct (check_tree builtins g sh v Hv) as [_ [_ [_ Ha]]]. specialize (Ha Hga).
  destruct (check_tree builtins (bar_grammar g) sh v' Hv') as [_ [_ [_ Ha']]]. specialize (Ha' Hga').
  destruct (compiled_facts pick fuel v c Ha Hc) as [_ [W [_ T]]].
  destruct (compiled_facts pick' fuel' v' c' Ha' Hc') as [_ [W' [_ T']]].
  split; [exact HE|]. split; [|split].
  - intros wild Hw ws. split; [apply (transparent_matched wild Hw c c' HE)|]. split.
    + intros x Hx. apply (transparent_expected wild Hw c c' W T (fun u => proj1 (HE u)) ws x Hx).
    + intros x' Hx'. apply (transparent_expected wild Hw c' c W' T' (fun u => proj2 (HE u)) ws x' Hx').
  - intros Hk ws s1 s2 P1 P2. eapply (wpath_det pick fuel v c Ha Hc Hk); eauto.
  - intros Hk ws s1 s2 P1 P2. eapply (wpath_det pick' fuel' v' c' Ha' Hc' Hk); eauto.
Qed.

(** parse, take the [|] variant, check, compile: used by the examples of Props/C09b.v only; no
    lemma relates it to the [v'] / [c'] of the theorems above *)
Definition compile_bar (pick : nat -> list (list N) -> nat) (fuel : nat)
           (builtins : shell -> list (string * string)) (text : string) (sh : shell) : dres cdfa :=
  match Parser.parse text with
  | Ok g => do v <- lift DCheck (from_grammar builtins (bar_grammar g) sh); compile_valid pick fuel v
  | Err sp => Err (DParse sp)
  | Panic s => Panic s
  | OutOfFuel => OutOfFuel
  end.
