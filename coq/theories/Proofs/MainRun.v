(** [Model/Main.v] ([run]: the complgen command as a trace of effects) against [Driver.compile].
    Under [fuel_covers] a run is [Err BadOracle] or a trace in normal form ([run_case], [run_with_case]):
    what the warning loops and the Graphviz options emit, then the verdict of [Driver.compile] -- the
    diagnostics of [handle_error], or the script write and the zsh file-name warning -- then the only
    [Exit].  Props/C06c.v is read off that form.  The lemmas behind Props/C15c.v take the run as [Ok _]
    and so use no fuel hypothesis. *)
From CG Require Import Base.Prelude Proofs.ListFacts Model.Ast Model.Lexer Model.Parser Model.Check Model.Regex.
From CG Require Import Model.Dfa Model.Subset Model.Minimize Model.Ambiguity Model.Driver Model.Diag.
From CG Require Import Model.Compiler Model.Main.
From CG Require Import Proofs.TreeFacts Proofs.CheckTree Proofs.CheckErrNonempty.
From CG Require Import Proofs.PipelineTotal Proofs.CompilerTotal Proofs.DiagPipeline.
From CG Require Props.C05b Props.C06.
Open Scope list_scope.

Definition exit_code (t : trace) : option N :=
  match rev t with Exit c :: _ => Some c | _ => None end.

Definition is_exit (e : effect) : bool := match e with Exit _ => true | _ => false end.

Definition is_script_write (e : effect) : bool :=
  match e with Write _ (KScript _) => true | _ => false end.

(** a warning of the three warning loops *)
Definition is_warning (e : effect) : bool :=
  match e with Stderr (SLocated m _) => m_warning m | _ => false end.

(** a diagnostic: anything on stderr that is neither a warning nor the zsh file-name warning *)
Definition is_diag (e : effect) : bool :=
  match e with
  | Stderr (SLocated m _) => negb (m_warning m)
  | Stderr (SZshName _) => false
  | Stderr _ => true
  | _ => false
  end.

Definition strip_warnings (t : trace) : trace := filter (fun e => negb (is_warning e)) t.

Definition warnings_of (t : trace) : list message :=
  flat_map (fun e => match e with
                     | Stderr (SLocated m _) => if m_warning m then [m] else []
                     | _ => []
                     end) t.

Lemma exit_code_last pre c : exit_code (pre ++ [Exit c]) = Some c.
Proof. unfold exit_code. rewrite rev_unit. reflexivity. Qed.

Lemma warnings_of_app x y : warnings_of (x ++ y) = warnings_of x ++ warnings_of y.
Proof. apply flat_map_app. Qed.

Definition dot_write (a : cli_args) (e : effect) : Prop :=
  (exists p, a_regex a = Some p /\ e = Write (dest_of p) KRegexDot)
  \/ (exists p, a_dfa a = Some p /\ e = Write (dest_of p) KDfaDot).

Definition prelude (a : cli_args) (e : effect) : Prop := is_warning e = true \/ dot_write a e.

Lemma prelude_unseen a pre : Forall (prelude a) pre ->
  filter is_exit pre = [] /\ filter is_script_write pre = [] /\ filter is_diag pre = [].
Proof.
  induction 1 as [|e pre H _ IH]; [auto|]. cbn [filter].
  destruct H as [H|[(p & _ & ->)|(p & _ & ->)]]; [|exact IH..].
  destruct e as [|[]| |]; try discriminate H. cbn in *. rewrite H. exact IH.
Qed.

Lemma prelude_write a pre d k : Forall (prelude a) pre -> In (Write d k) pre ->
  (k = KRegexDot /\ exists p, a_regex a = Some p /\ d = dest_of p)
  \/ (k = KDfaDot /\ exists p, a_dfa a = Some p /\ d = dest_of p).
Proof.
  intros P Hi. rewrite Forall_forall in P.
  destruct (P _ Hi) as [H|[(p & E & [= -> ->])|(p & E & [= -> ->])]]; [discriminate H|left|right]; eauto.
Qed.

Lemma prelude_app a ws files :
  Forall (fun e => is_warning e = true) ws -> Forall (dot_write a) files -> Forall (prelude a) (ws ++ files).
Proof.
  intros W Fi. apply Forall_app. split.
  - revert W. apply Forall_impl. intros e H. left. exact H.
  - revert Fi. apply Forall_impl. intros e H. right. exact H.
Qed.

Lemma warnings_unseen ws : Forall (fun e => is_warning e = true) ws ->
  strip_warnings ws = [] /\ filter is_exit ws = [] /\ filter is_script_write ws = [].
Proof.
  induction 1 as [|e ws H _ IH]; [auto|]. unfold strip_warnings in *. cbn [filter]. rewrite H.
  destruct e as [|[]| |]; try discriminate H. exact IH.
Qed.

Lemma dot_writes_quiet a files : Forall (dot_write a) files -> warnings_of files = [].
Proof.
  induction 1 as [|e files H _ IH]; [reflexivity|].
  destruct H as [(p & _ & ->)|(p & _ & ->)]; exact IH.
Qed.

Lemma opt_write_dot a :
  Forall (dot_write a) (opt_write (a_regex a) KRegexDot)
  /\ Forall (dot_write a) (opt_write (a_regex a) KRegexDot ++ opt_write (a_dfa a) KDfaDot).
Proof.
  assert (R : Forall (dot_write a) (opt_write (a_regex a) KRegexDot)).
  { destruct (a_regex a) as [p|] eqn:E; constructor; [left; eauto|constructor]. }
  split; [exact R|]. apply Forall_app. split; [exact R|].
  destruct (a_dfa a) as [p|] eqn:E; constructor; [right; eauto|constructor].
Qed.

Lemma zsh_warning_cases sh path command :
  zsh_warning sh path command = [] \/ exists x, zsh_warning sh path command = [Stderr (SZshName x)].
Proof. unfold zsh_warning. destruct sh; auto. destruct (_ && _); eauto. Qed.

Definition renders (path source : string) (m : message) : Prop :=
  exists r, render path source (m_span m) = Ok r.

Definition rendered_as (path source : string) (m : message) (e : effect) : Prop :=
  exists r, render path source (m_span m) = Ok r /\ e = Stderr (SLocated m r).

Lemma render_all_ok path source ms :
  Forall (renders path source) ms ->
  exists t, render_all path source ms = Ok t /\ Forall2 (rendered_as path source) ms t.
Proof.
  induction 1 as [|m ms [r Hr] _ [t [Ht F]]]; cbn [render_all].
  - exists []. split; [reflexivity|constructor].
  - rewrite Hr, Ht. cbn [obind]. eexists. split; [reflexivity|]. constructor; [|exact F].
    exists r. auto.
Qed.

Lemma render_all_inv path source ms : forall t,
  render_all path source ms = Ok t -> Forall2 (rendered_as path source) ms t.
Proof.
  induction ms as [|m ms IH]; intros t H; cbn [render_all] in H.
  - inversion H. constructor.
  - destruct (render path source (m_span m)) as [r|x| |] eqn:Hr; try discriminate.
    destruct (render_all path source ms) as [tl|x| |]; cbn [obind] in H; try discriminate.
    inversion H; subst t. constructor; [exists r; auto|apply IH; reflexivity].
Qed.

Lemma rendered_Forall path source (P : effect -> Prop) ms t :
  Forall2 (rendered_as path source) ms t ->
  (forall m r, In m ms -> P (Stderr (SLocated m r))) -> Forall P t.
Proof.
  induction 1 as [|m e ms t [r [_ ->]] _ IH]; intro Hp; constructor.
  - apply Hp. left. reflexivity.
  - apply IH. intros m' r' Hi. apply Hp. right. exact Hi.
Qed.

Lemma rendered_warnings_of path source ms t :
  Forall2 (rendered_as path source) ms t ->
  warnings_of t = filter m_warning ms.
Proof.
  induction 1 as [|m e ms t [r [_ ->]] _ IH]; [reflexivity|].
  cbn [warnings_of flat_map filter]. fold (warnings_of t). rewrite IH.
  destruct (m_warning m); reflexivity.
Qed.

Lemma error_messages_not_warning e m : In m (error_messages e) -> m_warning m = false.
Proof.
  enough (F : Forall (fun m => m_warning m = false) (error_messages e)).
  { rewrite Forall_forall in F. apply F. }
  destruct e as [sp|[]|[]|se|ae]; cbn [error_messages]; repeat constructor.
  all: apply Forall_map, Forall_forall; reflexivity.
Qed.

Lemma warning_messages_warning v m : In m (warning_messages v) -> m_warning m = true.
Proof.
  unfold warning_messages, wmsgs. rewrite !in_app_iff, !in_map_iff.
  intros [[x [<- _]]|[[x [<- _]]|[x [<- _]]]]; reflexivity.
Qed.

Section Diag.
  Variables upath text : string.

  (** what [handle_error] prints for [e] (before [exit(1)]) *)
  Definition diag_trace (command : string) (e : derror) (f : trace) : Prop :=
    match e with
    | DCheck MissingCallVariants => f = [Stderr (SPlain MISSING_CALL_VARIANTS)]
    | DAmb ae => f = [Stderr (SAmbiguity ae command)]
    | DSubset _ => False
    | _ => Forall2 (rendered_as upath text) (error_messages e) f /\ f <> []
    end.

  Lemma fail_with_ok command e :
    Forall (renders upath text) (error_messages e) ->
    (forall x, e <> DSubset x) ->
    (forall ce, e = DCheck ce -> err_nonempty ce) ->
    exists f, fail_with upath text command e = Ok (f ++ [Exit 1]) /\ diag_trace command e f.
  Proof.
    intros Hr Hs Hne.
    assert (Loc : error_messages e <> [] ->
                  exists f, (do ms <- render_all upath text (error_messages e); Ok (ms ++ [Exit 1])) = Ok (f ++ [Exit 1])
                            /\ Forall2 (rendered_as upath text) (error_messages e) f /\ f <> []).
    { intro Hn. destruct (render_all_ok upath text (error_messages e) Hr) as [f [-> F2]].
      exists f. split; [reflexivity|]. split; [exact F2|].
      intros ->. inversion F2 as [E|]. symmetry in E. contradiction. }
    destruct e as [sp|ce|[]|se|ae]; cbn [fail_with diag_trace].
    - apply Loc. discriminate.
    - specialize (Hne ce eq_refl). destruct ce; try (apply Loc; discriminate).
      + exists [Stderr (SPlain MISSING_CALL_VARIANTS)]. split; reflexivity.
      + apply Loc. intro E. apply map_eq_nil in E. contradiction.
      + apply Loc. intro E. apply map_eq_nil in E. contradiction.
    - apply Loc. discriminate.
    - destruct (Hs se eq_refl).
    - exists [Stderr (SAmbiguity ae command)]. split; reflexivity.
  Qed.

  Lemma diag_trace_diag command e f :
    diag_trace command e f -> f <> [] /\ Forall (fun x => is_diag x = true) f.
  Proof.
    assert (Loc : Forall2 (rendered_as upath text) (error_messages e) f /\ f <> [] ->
                  f <> [] /\ Forall (fun x => is_diag x = true) f).
    { intros [F2 Hn]. split; [exact Hn|]. eapply rendered_Forall; [exact F2|].
      intros m r Hi. cbn. rewrite (error_messages_not_warning e m Hi). reflexivity. }
    destruct e as [sp|ce|re|se|ae]; cbn [diag_trace]; try exact Loc.
    - destruct ce; try exact Loc. intros ->. split; [discriminate|repeat constructor].
    - intros [].
    - intros ->. split; [discriminate|repeat constructor].
  Qed.

  Lemma diag_trace_props command e f :
    diag_trace command e f ->
    filter is_diag f = f /\ filter is_exit f = [] /\ filter is_script_write f = []
    /\ (forall d k, ~ In (Write d k) f)
    /\ exists pre m, f = pre ++ [Stderr m] /\ is_diag (Stderr m) = true.
  Proof.
    intro D. apply diag_trace_diag in D. destruct D as [Hn D].
    assert (S : Forall (fun x => exists m, x = Stderr m) f).
    { eapply Forall_impl; [|exact D]. intros [|m| |] H; try discriminate H. eauto. }
    split; [apply filter_all, Forall_forall; exact D|].
    split; [apply filter_nil, Forall_forall; eapply Forall_impl; [|exact S]; intros x [m ->]; reflexivity|].
    split; [apply filter_nil, Forall_forall; eapply Forall_impl; [|exact S]; intros x [m ->]; reflexivity|].
    split.
    - intros d k Hi. rewrite Forall_forall in S. destruct (S _ Hi) as [m E]. discriminate E.
    - destruct (exists_last Hn) as [pre [x ->]]. apply Forall_app in D. destruct D as [_ D].
      inversion D as [|? ? Hx _]. destruct x as [|m| |]; try discriminate Hx. exists pre, m. auto.
  Qed.

  Lemma fail_with_quiet command e t : fail_with upath text command e = Ok t -> warnings_of t = [].
  Proof.
    assert (Loc : (do ms <- render_all upath text (error_messages e); Ok (ms ++ [Exit 1])) = Ok t ->
                  warnings_of t = []).
    { destruct (render_all upath text (error_messages e)) as [ms|x| |] eqn:R; try discriminate.
      intros [= <-]. rewrite warnings_of_app, (rendered_warnings_of _ _ _ _ (render_all_inv _ _ _ _ R)), app_nil_r.
      apply filter_nil. exact (error_messages_not_warning e). }
    destruct e as [sp|ce|re|se|ae]; cbn [fail_with]; try exact Loc.
    - destruct ce; try exact Loc. intros [= <-]. reflexivity.
    - discriminate.
    - intros [= <-]. reflexivity.
  Qed.
End Diag.

Section Cases.
  Variable builtins : shell -> list (string * string).
  Variable o : oracles.
  Variable version : string.

  Notation pick := (pick_table (o_pops o)).
  Notation fuel := (o_fuel o).

  Lemma script_content_total sh v c :
    alts_nonempty (v_expr v) = true -> compile_valid pick fuel v = Ok c ->
    (exists k, script_content o sh v c = Ok k) \/ (sh = Bash /\ script_content o sh v c = Err BadOracle).
  Proof.
    intros Ha Hc. destruct sh; cbn [script_content]; try (left; eexists; reflexivity).
    destruct (emit_bash_total o pick fuel v c Ha Hc) as [[s ->]| ->]; [left; eexists; reflexivity|right; auto].
  Qed.

  Lemma script_content_ok text sh v c k :
    compile pick fuel builtins text sh = Ok (v, c) -> script_content o sh v c = Ok k ->
    match sh with
    | Bash => exists s, k = CBash s /\ compile_bash o builtins text = Ok s
    | _ => k = COpaque sh v c
    end.
  Proof.
    intros Hc Hk. destruct sh; cbn [script_content] in Hk; try (injection Hk as <-; reflexivity).
    destruct (emit_bash o v c) as [s|[e|]| |] eqn:He; try discriminate Hk.
    injection Hk as <-. exists s. split; [reflexivity|]. unfold compile_bash. rewrite Hc. exact He.
  Qed.

  (** The stages of [after_warnings] are those of [Driver.compile_valid], which [main.rs]
      interleaves with effects: an error comes after the Graphviz files written before its stage. *)
  Lemma compile_unfold a upath text sh path v :
    match from_valid_expr (v_expr v) with
    | Ok (r, pl) =>
        match compile_valid pick fuel v with
        | Ok c => after_warnings o a upath text sh path v r pl
                  = (do k <- script_content o sh v c;
                     Ok ((opt_write (a_regex a) KRegexDot ++ opt_write (a_dfa a) KDfaDot)
                         ++ [Write (dest_of path) (KScript k)] ++ zsh_warning sh path (v_command v) ++ [Exit 0]))
        | Err e => exists files, Forall (dot_write a) files
                   /\ after_warnings o a upath text sh path v r pl
                      = (do f <- fail_with upath text (v_command v) e; Ok (files ++ f))
        | Panic s => after_warnings o a upath text sh path v r pl = Panic s
        | OutOfFuel => after_warnings o a upath text sh path v r pl = OutOfFuel
        end
    | Err re => compile_valid pick fuel v = Err (DRegex re)
    | Panic s => compile_valid pick fuel v = Panic s
    | OutOfFuel => compile_valid pick fuel v = OutOfFuel
    end.
  Proof.
    destruct (opt_write_dot a) as [R RD].
    unfold compile_valid, after_warnings, stage_raw.
    destruct (from_valid_expr (v_expr v)) as [[r pl]|re| |]; cbn [lift obind]; try reflexivity.
    destruct (compile_subs pick fuel (r_inputs r) pl [] []) as [[submap subs]|e| |]; cbn [obind]; try reflexivity.
    2:{ exists (opt_write (a_regex a) KRegexDot). split; [exact R|reflexivity]. }
    destruct (dfa_from_regex pick fuel submap r) as [raw|x| |]; cbn [lift obind fst]; try reflexivity.
    2:{ exists (opt_write (a_regex a) KRegexDot). split; [exact R|reflexivity]. }
    destruct (minimize (fst raw)) as [m|x| |]; cbn [lift_noerr obind]; try reflexivity.
    destruct (check_ambiguity_best_effort m) as [u|ae| |]; cbn [lift obind]; try reflexivity.
    eexists. split; [exact RD|reflexivity].
  Qed.

  Inductive run_case (a : cli_args) (input : option string) : rres trace -> Prop :=
  | rc_version : a_version a = true -> run_case a input (Ok ([Stdout version] ++ [Exit 0]))
  (* no usage path; the usage file cannot be read; not exactly one shell option *)
  | rc_early m :
      a_version a = false -> a_usage a = None \/ input = None \/ select_shell a = None ->
      is_diag (Stderr m) = true ->
      run_case a input (Ok ([Stderr m] ++ [Exit 1]))
  (* [Driver.compile] rejects the text, for whichever shell is selected (a parse error is
     reported before the shell options are looked at) *)
  | rc_err upath text command e pre f :
      a_version a = false -> a_usage a = Some upath -> input = Some text ->
      (forall sh path, select_shell a = Some (sh, path) -> compile pick fuel builtins text sh = Err e) ->
      Forall (prelude a) pre -> diag_trace upath text command e f ->
      run_case a input (Ok ((pre ++ f) ++ [Exit 1]))
  | rc_ok text sh path v c k pre :
      a_version a = false -> input = Some text -> select_shell a = Some (sh, path) ->
      compile pick fuel builtins text sh = Ok (v, c) -> script_content o sh v c = Ok k ->
      Forall (prelude a) pre ->
      run_case a input (Ok ((pre ++ [Write (dest_of path) (KScript k)] ++ zsh_warning sh path (v_command v))
                            ++ [Exit 0]))
  | rc_bad text path v c :
      input = Some text -> select_shell a = Some (Bash, path) ->
      compile pick fuel builtins text Bash = Ok (v, c) ->
      run_case a input (Err BadOracle).

  (* [C] proves the goal up to the bracketing of the trace *)
  Ltac upto_assoc C := eapply eq_ind; [exact C|f_equal; rewrite <- ?app_assoc; reflexivity].

  Theorem run_with_case a input :
    (forall text sh path, input = Some text -> select_shell a = Some (sh, path) -> fuel_covers fuel builtins text sh) ->
    run_case a input (run builtins o version a input).
  Proof.
    intros Hfuel. unfold run, run_with.
    destruct (a_version a) eqn:Hver; [apply rc_version; assumption|].
    destruct (a_usage a) as [upath|] eqn:Hu; [|apply rc_early; auto].
    destruct input as [text|]; [|apply rc_early; auto].
    destruct (Props.C05b.parse_total text) as [[g Hg]|[sp Hsp]]; [rewrite Hg|rewrite Hsp].
    2:{ assert (Hc : forall sh, compile pick fuel builtins text sh = Err (DParse sp)).
        { intro sh. unfold compile. rewrite Hsp. reflexivity. }
        destruct (fail_with_ok upath text "dummy" (DParse sp)) as [f [-> D]]; try discriminate.
        - exact (render_errors_total pick fuel builtins upath text Bash _ (Hc Bash)).
        - exact (rc_err a (Some text) upath text "dummy" (DParse sp) [] f Hver Hu eq_refl (fun sh _ _ => Hc sh) (Forall_nil _) D). }
    destruct (select_shell a) as [[sh path]|] eqn:Hs; [|apply rc_early; auto].
    specialize (Hfuel text sh path eq_refl eq_refl).
    assert (Sel : forall e, compile pick fuel builtins text sh = Err e ->
                  forall sh' path', select_shell a = Some (sh', path') -> compile pick fuel builtins text sh' = Err e).
    { intros e He sh' path' E. rewrite Hs in E. injection E as <- <-. exact He. }
    destruct (Props.C06.C06_checker_total builtins g sh) as [[v Hv]|[ce Hce]]; [rewrite Hv|rewrite Hce].
    2:{ assert (Hc : compile pick fuel builtins text sh = Err (DCheck ce)).
        { unfold compile. rewrite Hg. cbn [obind]. rewrite Hce. reflexivity. }
        destruct (fail_with_ok upath text "dummy" (DCheck ce)) as [f [-> D]]; try discriminate.
        - exact (render_errors_total pick fuel builtins upath text sh _ Hc).
        - intros ce' [= <-]. exact (from_grammar_err_nonempty builtins g sh ce Hce).
        - exact (rc_err a (Some text) upath text "dummy" (DCheck ce) [] f Hver Hu eq_refl (Sel _ Hc) (Forall_nil _) D). }
    assert (Hc : compile pick fuel builtins text sh = (do c <- compile_valid pick fuel v; Ok (v, c))).
    { unfold compile. rewrite Hg. cbn [obind]. rewrite Hv. reflexivity. }
    pose proof (compile_total pick fuel builtins text sh Hfuel) as T. rewrite Hc in T.
    pose proof (compile_unfold a upath text sh path v) as U.
    destruct (from_valid_expr (v_expr v)) as [[r pl]|re| |] eqn:Hr.
    2:{ rewrite U in Hc. cbn [obind] in Hc.
        destruct (fail_with_ok upath text (v_command v) (DRegex re)) as [f [-> D]]; try discriminate.
        - exact (render_errors_total pick fuel builtins upath text sh _ Hc).
        - exact (rc_err a (Some text) upath text (v_command v) (DRegex re) [] f Hver Hu eq_refl (Sel _ Hc) (Forall_nil _) D). }
    2,3: rewrite U in T; destruct T as [[? T]|[? T]]; discriminate T.
    (* the warning loops are reached *)
    unfold after_regex.
    destruct (render_all_ok upath text (warning_messages v)) as [ws [-> F2]].
    { exact (render_warnings_total builtins upath text sh g v Hg Hv). }
    assert (W : Forall (fun e => is_warning e = true) ws).
    { eapply rendered_Forall; [exact F2|]. intros m r' Hi. exact (warning_messages_warning v m Hi). }
    cbn [obind].
    destruct (compile_valid pick fuel v) as [c|e| |] eqn:Hcv; cbn [obind] in Hc.
    3,4: destruct T as [[? T]|[? T]]; discriminate T.
    - rewrite U.
      assert (Halts : alts_nonempty (v_expr v) = true).
      { apply (check_tree builtins g sh v Hv), (Props.C05b.parse_alts_nonempty text g Hg). }
      destruct (script_content_total sh v c Halts Hcv) as [[k Hk]|[-> Hk]]; rewrite Hk; cbn [obind].
      + upto_assoc (rc_ok a (Some text) text sh path v c k _ Hver eq_refl Hs Hc Hk
                          (prelude_app a ws _ W (proj2 (opt_write_dot a)))).
      + eapply rc_bad; eauto.
    - assert (exists ae, e = DAmb ae) as [ae ->].
      { destruct (compile_valid_err _ _ _ _ Hcv) as [(re & _ & E)|[[x ->]|X]]; [congruence| |exact X].
        destruct (compile_error_kinds _ _ _ _ _ _ Hfuel Hc) as [[? E]|[[? E]|[[? [? E]]|[? E]]]]; discriminate E. }
      destruct U as (files & Fi & ->). cbn [fail_with obind].
      upto_assoc (rc_err a (Some text) upath text (v_command v) (DAmb ae) _ [Stderr (SAmbiguity ae (v_command v))]
                         Hver Hu eq_refl (Sel _ Hc) (prelude_app a ws files W Fi) eq_refl).
  Qed.
End Cases.

Section Warnings.
  Variable builtins : shell -> list (string * string).
  Variable o : oracles.
  Variable version : string.

  (** either the run does not reach the warning loops, or it is: the warnings, then a
      continuation that does not depend on them *)
  Lemma run_with_wm a input :
    (exists x, forall wm, run_with builtins o version wm a input = x) \/
    (exists upath text v rest, forall wm,
        run_with builtins o version wm a input
        = (do ws <- render_all upath text (wm v); do r <- rest; Ok (ws ++ r))).
  Proof.
    unfold run_with.
    destruct (a_version a); [left; eexists; reflexivity|].
    destruct (a_usage a) as [upath|]; [|left; eexists; reflexivity].
    destruct input as [text|]; [|left; eexists; reflexivity].
    destruct (parse text) as [g|sp| |]; try (left; eexists; reflexivity).
    destruct (select_shell a) as [[sh path]|]; [|left; eexists; reflexivity].
    destruct (from_grammar builtins g sh) as [v|ce| |]; try (left; eexists; reflexivity).
    destruct (from_valid_expr (v_expr v)) as [[r pl]|re| |]; try (left; eexists; reflexivity).
    right. exists upath, text, v, (after_warnings o a upath text sh path v r pl).
    intro wm. reflexivity.
  Qed.

  Lemma warnings_then_inv upath text ms (rest : rres trace) t :
    (do ws <- render_all upath text ms; do r <- rest; Ok (ws ++ r)) = Ok t ->
    exists ws r, t = ws ++ r /\ Forall2 (rendered_as upath text) ms ws /\ rest = Ok r.
  Proof.
    destruct (render_all upath text ms) as [ws|x| |] eqn:Hws; cbn [obind]; try discriminate.
    destruct rest as [r|x| |]; cbn [obind]; try discriminate.
    intros [= <-]. exists ws, r. split; [reflexivity|]. split; [|reflexivity].
    exact (render_all_inv _ _ _ _ Hws).
  Qed.

  Lemma after_warnings_quiet a upath text sh path v r pl rest :
    from_valid_expr (v_expr v) = Ok (r, pl) ->
    after_warnings o a upath text sh path v r pl = Ok rest -> warnings_of rest = [].
  Proof.
    intro Hr. pose proof (compile_unfold o a upath text sh path v) as U. rewrite Hr in U.
    destruct (compile_valid (pick_table (o_pops o)) (o_fuel o) v) as [c|e| |].
    - rewrite U. destruct (script_content o sh v c) as [k|x| |]; cbn [obind]; try discriminate.
      intros [= <-]. rewrite warnings_of_app, (dot_writes_quiet a _ (proj2 (opt_write_dot a))).
      destruct (zsh_warning_cases sh path (v_command v)) as [->|[x ->]]; reflexivity.
    - destruct U as (files & Fi & ->).
      destruct (fail_with upath text (v_command v) e) as [f|x| |] eqn:Hf; cbn [obind]; try discriminate.
      intros [= <-]. rewrite warnings_of_app, (dot_writes_quiet a files Fi). exact (fail_with_quiet _ _ _ _ _ Hf).
    - rewrite U. discriminate.
    - rewrite U. discriminate.
  Qed.
End Warnings.
