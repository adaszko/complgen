(** C04 end to end for bash: from a grammar text through [Driver.compile], [Tables.all_tables] and
    [EmitBash.script]: the emitted script reads back as the statement list [script_stmts]
    (registration naming the grammar's command), the tables carried by those statements describe
    exactly the transition relation and the per-level candidates of the compiled automaton (main
    and every within-word automaton, accepting sets included), and that automaton accepts exactly
    what the validated grammar denotes.  The well-formedness hypotheses of the C04 table theorems
    ([dfa_wf]) are discharged here from the compilation itself. *)
From CG Require Import Base.Prelude Model.Ast Model.Dfa Model.Check Model.Regex Model.Subset Model.Minimize.
From CG Require Import Model.Ambiguity Model.Parser Model.Driver Model.Tpl Model.Quote Model.Tables Model.EmitBash.
From CG Require Import Spec.Lang Spec.ShellDQ Spec.ScriptRead.
From CG Require Import Proofs.TablesSound Proofs.BashCodec Proofs.BashScript Proofs.BashScriptRead.
From CG Require Import Proofs.TreeFacts Proofs.CheckTree Proofs.DriverCorrect Proofs.CompiledFacts Proofs.SubCompiled.
From CG Require Import Proofs.ParseShape Proofs.SubTables Proofs.CompilerTotal.
Open Scope N_scope.
Open Scope list_scope.

Record describes (d : dfa) (cmds : list string) (start : N) (ord : list (string * string)) (t : tables)
  : Prop := {
  ds_literals : forall l text ds, In (l, text, ds) (t_literals t) <-> lit_at ord start l text ds;
  ds_mlit_sound : forall s l to, tbl_has (t_mlit t) s l to ->
      exists text dso lvl, trans_on d s (ILit text dso lvl) to /\ lit_at ord start l text (unwrap_descr dso);
  ds_mlit_complete : forall s text dso lvl to l,
      trans_on d s (ILit text dso lvl) to -> lit_at ord start l text (unwrap_descr dso) ->
      keys_unique d (lit_sel (all_literals ord start)) s -> tbl_has (t_mlit t) s l to;
  ds_mcmd_sound : forall m s c to, t_mcmd t = Some m -> tbl_has m s c to ->
      exists cmd lvl, trans_on d s (ICmd cmd lvl) to /\ index_of cmd cmds = Some c;
  ds_mcmd_complete : forall m s cmd lvl to c, t_mcmd t = Some m ->
      trans_on d s (ICmd cmd lvl) to -> index_of cmd cmds = Some c ->
      keys_unique d (cmd_sel cmds) s -> tbl_has m s c to;
  ds_mstar : forall l s to, t_mstar t = Some l -> (In (s, to) l <-> trans_on d s IStar to);
  ds_clit : forall k s l, mem3 (t_clit t) k s l <->
      exists text dso to, trans_on d s (ILit text dso k) to /\ lit_at ord start l text (unwrap_descr dso);
  ds_levels : List.length (t_clit t) = (N.to_nat (t_maxlevel t) + 1)%nat;
  ds_ccmd : forall m k s c, t_ccmd t = Some m ->
      (mem3 m k s c <-> exists cmd to, trans_on d s (ICmd cmd k) to /\ index_of cmd cmds = Some c)
}.

Lemma describes_of_tables : forall d cmds start nc ncp ns ord t,
  dfa_wf d -> NoDup ord -> get_lookup_tables d cmds start nc ncp ns ord = Ok t ->
  describes d cmds start ord t.
Proof.
  intros d cmds start nc ncp ns ord t W ND H. constructor.
  - eapply literals_exact; eauto.
  - eapply mlit_sound; eauto.
  - eapply mlit_complete; eauto.
  - eapply mcmd_sound; eauto.
  - eapply mcmd_complete; eauto.
  - eapply mstar_exact; eauto.
  - eapply clit_exact; eauto.
  - eapply clit_levels; eauto.
  - eapply ccmd_exact; eauto.
Qed.

Lemma subword_input : forall sh c om os nd a pi id t,
  all_tables sh c om os = Ok (nd, a) -> In (pi, id, t) (a_subwords a) ->
  exists l, In (ISub pi l) (d_inputs (c_main c)).
Proof.
  intros sh c om os nd a pi id t Hall Hin.
  apply (subwords_exact sh c om os nd a Hall) in Hin. destruct Hin as [rt [sd [Hrt [Hg _]]]].
  destruct (get_subwords_origin _ _ _ _ Hg) as [f [l [to Hf]]].
  apply (rtrans_in _ _ _ _ _ Hrt) in Hf. destruct Hf as [i [_ Hn]].
  exists l. unfold nthN in Hn. eapply nth_error_In; eauto.
Qed.

Definition carries_main (command : string) (start : N) (a : alltables) (sts : list stmt) : Prop :=
  In (SFunc (append "_" command)) sts /\
  In (SScalar "state" start) sts /\
  In (lits_stmt (a_main a)) sts /\
  incl (match_stmts (a_main a)) sts /\
  incl (completion_stmts (a_main a)) sts /\
  In (SRegister [append "_" command; command]) sts.

Definition carries_subs (command : string) (nd : needs) (a : alltables) (groups : list (list N))
           (sts : list stmt) : Prop :=
  n_subwords nd = true ->
  (exists rows, subtrans_rows a = Ok rows /\ incl (row_stmts "subword_transitions" rows) sts) /\
  incl (level_stmts "subword_transitions_level_" (a_csub a)) sts /\
  forall gid group, In (gid, group) (number_from 0 groups) ->
    exists l, group_stmts command a gid group = Ok l /\ incl l sts.

Lemma incl_app_mid : forall {A} (x l r : list A), incl x (l ++ x ++ r).
Proof. intros A x l r y Hy. apply in_app_iff. right. apply in_app_iff. left. exact Hy. Qed.

(** [in_solve]: membership in a list written with [++] and [::]: the member is found at its place, or is
    a hypothesis about one of the parts *)
Ltac in_solve :=
  match goal with
  | H : In ?y ?l |- In ?y ?l => exact H
  | |- In _ (_ ++ _) => apply in_or_app; first [left; in_solve | right; in_solve]
  | |- In _ (_ :: _) => first [left; reflexivity | right; in_solve]
  end.

Opaque match_stmts completion_stmts lits_stmt level_stmts row_stmts cmd_fns_stmts sub_fn_stmts.
Lemma script_stmts_carry : forall command start nd a groups sts,
  script_stmts command start nd a groups = Ok sts ->
  carries_main command start a sts /\ carries_subs command nd a groups sts.
Proof.
  intros command start nd a groups sts H. unfold script_stmts in H.
  apply obind_ok in H. destruct H as [gs [Hgs H]].
  apply obind_ok in H. destruct H as [st [Hst H]]. injection H as Hs. subst sts.
  split.
  - unfold carries_main. split; [in_solve|]. split; [in_solve|]. split; [in_solve|].
    split; [intros y Hy; in_solve|]. split; [intros y Hy; in_solve|]. in_solve.
  - intros Hn. rewrite Hn in *.
    apply obind_ok in Hgs. destruct Hgs as [l [Hl Hgs]]. injection Hgs as Hg'. subst gs.
    apply obind_ok in Hst. destruct Hst as [rows [Hrows Hst]]. injection Hst as Hs'. subst st.
    split; [|split].
    + exists rows. split; [exact Hrows|]. intros y Hy.
      assert (Hy' : In y (SDecl "subword_transitions" :: row_stmts "subword_transitions" rows)) by (right; exact Hy).
      clear Hy. in_solve.
    + intros y Hy. in_solve.
    + intros gid group Hin. destruct (omap_ok_each _ _ _ Hl (gid, group) Hin) as [lg [Hlg Hing]].
      exists lg. split; [exact Hlg|]. intros y Hy.
      assert (Hy' : In y (List.concat l ++ sub_fn_stmts command)).
      { apply in_or_app. left. apply in_concat. exists lg. auto. }
      clear Hy. in_solve.
Qed.
Transparent match_stmts completion_stmts lits_stmt level_stmts row_stmts cmd_fns_stmts sub_fn_stmts.

(** what a group of within-word automata puts into the script: for every member its wrapper with
    its own accepting states and literal list, and the match / completion tables of the group's
    leader (the member's own when it is alone; identical to the member's by
    [isomorphic_sound_full] when the grouping is valid) *)
Opaque match_stmts completion_stmts lits_stmt acc_stmt.
Lemma group_stmts_members : forall command a gid group l,
  group_stmts command a gid group = Ok l ->
  exists leader lt, hd_error group = Some leader /\ tables_of_id a leader = Ok lt /\
    incl (match_stmts lt) l /\ incl (completion_stmts lt) l /\
    forall id, In id group ->
      exists t acc, tables_of_id a id = Ok t /\ accepting_of_id a id = Ok acc /\
        In (SFunc (fn_name command (append "_subword_" (sN id)))) l /\
        In (acc_stmt acc) l /\ In (lits_stmt t) l.
Proof.
  intros command a gid group l H. destruct group as [|x [|y r]]; cbn [group_stmts] in H; [discriminate| |].
  - apply obind_ok in H. destruct H as [t [Ht H]]. apply obind_ok in H. destruct H as [acc [Hacc H]].
    injection H as Hl. subst l. exists x, t. split; [reflexivity|]. split; [exact Ht|].
    unfold wrapper_stmts. split; [intros z Hz; in_solve|]. split; [intros z Hz; in_solve|].
    intros id [<-|[]]. exists t, acc. split; [exact Ht|]. split; [exact Hacc|].
    split; [in_solve|]. split; in_solve.
  - apply obind_ok in H. destruct H as [lt [Hlt H]]. apply obind_ok in H. destruct H as [ws [Hws H]].
    injection H as Hl. subst l. exists x, lt. split; [reflexivity|]. split; [exact Hlt|].
    unfold shape_fn_stmts. split; [intros z Hz; in_solve|]. split; [intros z Hz; in_solve|].
    intros id Hid. destruct (omap_ok_each _ _ _ Hws id Hid) as [w [Hw Hin]].
    apply obind_ok in Hw. destruct Hw as [t [Ht Hw]]. apply obind_ok in Hw. destruct Hw as [acc [Hacc Hw]].
    injection Hw as Hw'. subst w. exists t, acc. split; [exact Ht|]. split; [exact Hacc|].
    assert (Hsub : forall z, In z (shape_wrapper_stmts command id gid t acc) -> In z (List.concat ws)).
    { intros z Hz. apply in_concat. eexists. split; [exact Hin|exact Hz]. }
    unfold shape_wrapper_stmts in Hsub.
    assert (H1 : In (SFunc (fn_name command (append "_subword_" (sN id)))) (List.concat ws)) by (apply Hsub; in_solve).
    assert (H2 : In (acc_stmt acc) (List.concat ws)) by (apply Hsub; in_solve).
    assert (H3 : In (lits_stmt t) (List.concat ws)) by (apply Hsub; in_solve).
    clear Hsub. split; [in_solve|]. split; in_solve.
Qed.
Transparent match_stmts completion_stmts lits_stmt acc_stmt.

Definition tables_describe (c : cdfa) (om : list (string * string)) (os : list (N * list (string * string)))
           (a : alltables) : Prop :=
  let start := array_start Bash in
  describes (c_main c) (a_commands a) start om (a_main a) /\
  (forall s pi to, (exists row, In (s, row) (a_subtrans a) /\ In (pi, to) row)
                   <-> exists lvl, trans_on (c_main c) s (ISub pi lvl) to) /\
  (forall k s id, mem3 (a_csub a) k s id <->
     exists rt pi to, rtrans (c_main c) = Ok rt /\ trans_on (c_main c) s (ISub pi k) to /\
                      assocN pi (get_subwords rt start) = Some id) /\
  (forall s pi lvl to, trans_on (c_main c) s (ISub pi lvl) to -> exists id t, In (pi, id, t) (a_subwords a)) /\
  (forall pi id t, In (pi, id, t) (a_subwords a) ->
     exists sd, nthN (c_subs c) pi = Some sd /\
       describes sd (a_commands a) start (match assocN pi os with Some o => o | None => [] end) t /\
       In (id, map (fun s => s + start) (d_accepting sd)) (a_subaccepting a)).

Theorem tables_describe_compiled : forall pick fuel v c om os nd a,
  alts_nonempty (v_expr v) = true ->
  compile_valid pick fuel v = Ok c ->
  NoDup om -> (forall pi o, assocN pi os = Some o -> NoDup o) ->
  all_tables Bash c om os = Ok (nd, a) ->
  tables_describe c om os a.
Proof.
  intros pick fuel v c om os nd a Ha Hc Hom Hos Hall.
  destruct (compiled_facts pick fuel v c Ha Hc) as [_ [W _]].
  destruct (all_tables_inv _ _ _ _ _ _ Hall) as [rt F].
  unfold tables_describe. cbv zeta. split; [|split; [|split; [|split]]].
  - eapply describes_of_tables; [exact W|exact Hom|exact (af_main _ _ _ _ _ _ _ F)].
  - intros s pi to. apply (subtrans_exact Bash c om os nd a W Hall).
  - intros k s id. apply (csub_exact Bash c om os nd a W Hall).
  - intros s pi lvl to Htr.
    pose proof (proj2 (trans_on_rt _ _ _ _ _ W (af_rt _ _ _ _ _ _ _ F)) Htr) as Hrt.
    pose proof (get_subwords_covers rt (array_start Bash) s pi lvl to Hrt) as Hcov.
    apply in_map_iff in Hcov. destruct Hcov as [[pi' id] [E Hin]]. simpl in E. subst pi'.
    destruct (omap_ok_each _ _ _ (af_subs _ _ _ _ _ _ _ F) (pi, id) Hin) as [[[p i] t] [Hy Hiny]].
    apply obind_ok in Hy. destruct Hy as [sd [_ Hy]]. apply obind_ok in Hy. destruct Hy as [t' [_ Hy]].
    inversion Hy; subst. exists i, t. exact Hiny.
  - intros pi id t Hin.
    destruct (subword_input _ _ _ _ _ _ _ _ _ Hall Hin) as [l Hl].
    destruct (sub_facts pick fuel v c pi l Ha Hc Hl) as [sd [Hsd Hok]].
    pose proof (proj1 (subwords_exact Bash c om os nd a Hall pi id t) Hin) as [rt' [sd' [Hrt' [Hg [Hsd' Hglt]]]]].
    assert (sd' = sd) by (unfold nthN in Hsd'; congruence). subst sd'.
    exists sd. split; [exact Hsd'|]. split.
    + eapply describes_of_tables; [apply (so_wf _ Hok)| |exact Hglt].
      destruct (assocN pi os) as [o|] eqn:Eo; [eapply Hos; eauto|constructor].
    + apply (subaccepting_exact Bash c om os nd a Hall). exists rt', pi, sd. auto.
Qed.

Definition same_shape (x y : tables) : Prop :=
  match_stmts x = match_stmts y /\ completion_stmts x = completion_stmts y.

Lemma iso_same_shape : forall x y, isomorphic_to x y = true -> same_shape x y.
Proof.
  intros x y H. destruct (isomorphic_sound _ _ H) as [H1 [H2 [H3 [H4 [H5 [H6 [H7 H8]]]]]]].
  unfold same_shape, match_stmts, completion_stmts. rewrite H1, H2, H4, H5, H6, H7. auto.
Qed.

Lemma same_shape_trans : forall x y z, same_shape x y -> same_shape y z -> same_shape x z.
Proof. intros x y z [A B] [C D]. split; congruence. Qed.

Lemma adjacent_iso_cons : forall a x y r,
  adjacent_iso a (x :: y :: r) =
  match tables_of_id a x, tables_of_id a y with
  | Ok tx, Ok ty => isomorphic_to tx ty && adjacent_iso a (y :: r)
  | _, _ => false
  end.
Proof. reflexivity. Qed.

Lemma adjacent_iso_leader : forall a g leader lt,
  adjacent_iso a g = true -> hd_error g = Some leader -> tables_of_id a leader = Ok lt ->
  forall id t, In id g -> tables_of_id a id = Ok t -> same_shape lt t.
Proof.
  intros a. induction g as [|x g IH]; intros leader lt Hadj Hhd Hlt id t Hin Ht; [destruct Hin|].
  simpl in Hhd. inversion Hhd; subst leader.
  destruct Hin as [<-|Hin].
  - rewrite Hlt in Ht. inversion Ht; subst. split; reflexivity.
  - destruct g as [|y r]; [destruct Hin|]. rewrite adjacent_iso_cons in Hadj. rewrite Hlt in Hadj.
    destruct (tables_of_id a y) as [ty| | |] eqn:Ey; try discriminate.
    apply andb_prop in Hadj. destruct Hadj as [Hiso Hadj].
    eapply same_shape_trans; [apply iso_same_shape; exact Hiso|].
    apply (IH y ty Hadj eq_refl Ey id t Hin Ht).
Qed.

Lemma find_unique : forall {A} (key : A -> N) (l : list A) x,
  NoDup (map key l) -> In x l -> find (fun e => N.eqb (key e) (key x)) l = Some x.
Proof.
  intros A key. induction l as [|y l IH]; intros x ND Hin; [destruct Hin|]. simpl.
  simpl in ND. inversion ND as [|? ? Hnot ND']; subst.
  destruct Hin as [->|Hin]; [rewrite N.eqb_refl; reflexivity|].
  destruct (N.eqb (key y) (key x)) eqn:E; [|apply IH; auto].
  apply N.eqb_eq in E. exfalso. apply Hnot. rewrite E. apply in_map. exact Hin.
Qed.

Lemma subword_ids_NoDup : forall c om os nd a,
  all_tables Bash c om os = Ok (nd, a) -> NoDup (map (fun e : N * N * tables => snd (fst e)) (a_subwords a)).
Proof.
  intros c om os nd a Hall. destruct (all_tables_inv _ _ _ _ _ _ Hall) as [rt F].
  pose proof (subs_pairs c om os nd a Hall rt (af_rt _ _ _ _ _ _ _ F)) as E.
  rewrite <- (map_map fst snd). rewrite E. apply ids_NoDup.
Qed.

(** with a valid grouping, every within-word automaton named by the tables has its wrapper in the
    script: its own accepting states and literal list, and match / completion tables equal to
    its own *)
Definition carries_each_sub (command : string) (a : alltables) (sts : list stmt) : Prop :=
  forall pi id t, In (pi, id, t) (a_subwords a) ->
    exists acc lt,
      accepting_of_id a id = Ok acc /\
      In (SFunc (fn_name command (append "_subword_" (sN id)))) sts /\
      In (acc_stmt acc) sts /\ In (lits_stmt t) sts /\
      incl (match_stmts lt) sts /\ incl (completion_stmts lt) sts /\ same_shape lt t.

Lemma in_number_from : forall {A} (l : list A) n x, In x l -> exists i, In (i, x) (number_from n l).
Proof.
  intros A. induction l as [|y l IH]; intros n x Hin; [destruct Hin|]. simpl.
  destruct Hin as [->|Hin]; [exists n; left; reflexivity|].
  destruct (IH (n + 1) x Hin) as [i Hi]. exists i. right. exact Hi.
Qed.

Lemma valid_grouping_carries : forall c om os nd a command groups sts,
  all_tables Bash c om os = Ok (nd, a) ->
  valid_grouping a groups = true -> n_subwords nd = true ->
  carries_subs command nd a groups sts -> carries_each_sub command a sts.
Proof.
  intros c om os nd a command groups sts Hall Hv Hn Hc pi id t Hin.
  destruct (Hc Hn) as [_ [_ Hgroups]].
  destruct (valid_grouping_inv a groups Hv) as [Hcover Hadj].
  assert (Hmem : In id (List.concat groups)).
  { apply Hcover. apply in_map_iff. exists (pi, id, t). auto. }
  apply in_concat in Hmem. destruct Hmem as [g [Hg Hidg]].
  destruct (in_number_from groups 0 g Hg) as [gid Hgid].
  destruct (Hgroups gid g Hgid) as [l [Hl Hincl]].
  destruct (group_stmts_members _ _ _ _ _ Hl) as [leader [lt [Hhd [Hlt [Hm [Hcm Hmem]]]]]].
  destruct (Hmem id Hidg) as [t' [acc [Ht' [Hacc [H1 [H2 H3]]]]]].
  assert (Et : tables_of_id a id = Ok t).
  { unfold tables_of_id.
    pose proof (find_unique (fun e : N * N * tables => snd (fst e)) (a_subwords a) (pi, id, t)
                  (subword_ids_NoDup _ _ _ _ _ Hall) Hin) as Hf. cbn [fst snd] in Hf.
    rewrite Hf. reflexivity. }
  rewrite Et in Ht'. inversion Ht'; subst t'.
  destruct (Hadj g Hg) as [_ Hadj'].
  exists acc, lt. split; [exact Hacc|].
  split; [apply Hincl; exact H1|]. split; [apply Hincl; exact H2|]. split; [apply Hincl; exact H3|].
  split; [intros z Hz; apply Hincl; apply Hm; exact Hz|].
  split; [intros z Hz; apply Hincl; apply Hcm; exact Hz|].
  eapply adjacent_iso_leader; eauto.
Qed.

Theorem embed_end_to_end :
  forall pick fuel builtins text v c om os nd a groups sig s,
    compile pick fuel builtins text Bash = Ok (v, c) ->
    name_ok (v_command v) -> no_nl sig = true ->
    Forall (fun cmd => body_ok (cmd_body cmd)) (a_commands a) ->
    NoDup om -> (forall pi o, assocN pi os = Some o -> NoDup o) ->
    all_tables Bash c om os = Ok (nd, a) ->
    script (v_command v) sig (d_start (c_main c)) nd a groups = Ok s ->
    (* (i) the script reads back as its statement list, which carries the tables *)
    (exists sts,
       script_stmts (v_command v) (d_start (c_main c)) nd a groups = Ok sts /\
       read_stmts Bash (v_command v) s = sts /\
       carries_main (v_command v) (d_start (c_main c)) a sts /\
       carries_subs (v_command v) nd a groups sts /\
       (valid_grouping a groups = true -> n_subwords nd = true -> carries_each_sub (v_command v) a sts)) /\
    (* (ii) the tables describe the compiled automaton *)
    tables_describe c om os a /\
    (* (iii) the compiled automaton accepts what the grammar denotes *)
    (forall w, accepts_items c w <-> denotes (v_expr v) w).
Proof.
  intros pick fuel builtins text v c om os nd a groups sig s Hcomp Hname Hsig Hbodies Hom Hos Hall Hscript.
  destruct (compile_stages _ _ _ _ _ _ _ Hcomp) as [Halts Ec].
  split; [|split].
  - destruct (bash_script_read _ _ _ _ _ _ _ Hname Hsig Hbodies Hscript) as [sts [Hsts Hread]].
    destruct (script_stmts_carry _ _ _ _ _ _ Hsts) as [Hm Hsb].
    exists sts. split; [exact Hsts|]. split; [exact Hread|]. split; [exact Hm|]. split; [exact Hsb|].
    intros Hv Hn. eapply valid_grouping_carries; eauto.
  - eapply tables_describe_compiled; eauto.
  - eapply driver_correct; eauto.
Qed.
