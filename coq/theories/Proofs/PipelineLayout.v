(** C14, end to end: two layouts of one grammar, and two orders of its definitions, compile to the
    same automata.  Composition of the parser's round trip ([roundtrip_cfg], Proofs/GrammarRound.v,
    the fact behind Props/C05.v), the checker's naturality in spans ([from_grammar_ms],
    Proofs/CheckSpans.v), [compile_valid_spans] (Proofs/PipelineSpans.v) and [definition_order]
    (Proofs/CheckOrder.v). *)
From CG Require Import Base.Prelude Model.Ast Model.Lexer Model.Parser Model.Check Model.Regex.
From CG Require Import Model.Dfa Model.Driver Spec.Printer.
From CG Require Import Proofs.GrammarRound Proofs.TreeFacts Proofs.CheckTree.
From CG Require Import Proofs.CheckSpans Proofs.CheckOrder Proofs.PipelineSpans.
From Coq Require Import Permutation.

Lemma erase_ms e : Printer.erase e = ms CheckSpans.erase e.
Proof.
  induction e using expr_ind'; cbn [Printer.erase ms]; try reflexivity; try (rewrite IHe; reflexivity);
    f_equal; apply map_ext_Forall; exact H.
Qed.

Lemma erase_grammar_ms g : erase_grammar g = ms_grammar CheckSpans.erase g.
Proof.
  unfold erase_grammar, ms_grammar. apply map_ext. intros [n sp e|n sp [[s ssp]|] rhs]; cbn;
    rewrite erase_ms; reflexivity.
Qed.

(** results equal up to spans: same command, trees equal up to spans, same automata; errors equal
    after erasing spans *)
Definition layout_rel (x y : dres (valid_grammar * cdfa)) : Prop :=
  match x, y with
  | Ok (v1, c1), Ok (v2, c2) =>
      v_command v1 = v_command v2 /\ ms CheckSpans.erase (v_expr v1) = ms CheckSpans.erase (v_expr v2)
      /\ c1 = c2
  | Err e1, Err e2 => ms_derr CheckSpans.erase e1 = ms_derr CheckSpans.erase e2
  | Panic a, Panic b => a = b
  | OutOfFuel, OutOfFuel => True
  | _, _ => False
  end.

Section Pipeline.
  Variable pick : nat -> list (list N) -> nat.
  Variable fuel : nat.
  Variable builtins : shell -> list (string * string).

  Definition after_parse (g : grammar) (sh : shell) : dres (valid_grammar * cdfa) :=
    do v <- lift DCheck (from_grammar builtins g sh);
    do c <- compile_valid pick fuel v;
    Ok (v, c).

  Lemma compile_after_parse text g sh :
    parse text = Ok g -> compile pick fuel builtins text sh = after_parse g sh.
  Proof. intro H. unfold compile, after_parse. rewrite H. reflexivity. Qed.

  Theorem same_shape_pipeline g1 g2 sh :
    same_shape g1 g2 -> layout_rel (after_parse g1 sh) (after_parse g2 sh).
  Proof.
    intro Hs. unfold after_parse.
    pose proof (from_grammar_ms CheckSpans.erase builtins g1 sh) as H1.
    pose proof (from_grammar_ms CheckSpans.erase builtins g2 sh) as H2.
    unfold same_shape in Hs. rewrite Hs, H2 in H1. clear H2.
    destruct (from_grammar builtins g1 sh) as [v1|e1|m1|] eqn:E1;
      destruct (from_grammar builtins g2 sh) as [v2|e2|m2|] eqn:E2; cbn [ms_res] in H1; try discriminate;
      cbn [lift obind layout_rel].
    - assert (Hv : ms_valid CheckSpans.erase v1 = ms_valid CheckSpans.erase v2) by congruence. clear H1.
      pose proof (check_tree builtins g1 sh v1 E1) as (_ & F1 & _).
      pose proof (check_tree builtins g2 sh v2 E2) as (_ & F2 & _).
      pose proof (compile_valid_spans CheckSpans.erase pick fuel v1 F1) as C1.
      pose proof (compile_valid_spans CheckSpans.erase pick fuel v2 F2) as C2.
      rewrite <- Hv in C2. rewrite C1 in C2.
      assert (Hc : v_command v1 = v_command v2).
      { change (v_command (ms_valid CheckSpans.erase v1) = v_command (ms_valid CheckSpans.erase v2)).
        rewrite Hv. reflexivity. }
      assert (He : ms CheckSpans.erase (v_expr v1) = ms CheckSpans.erase (v_expr v2)).
      { change (v_expr (ms_valid CheckSpans.erase v1) = v_expr (ms_valid CheckSpans.erase v2)).
        rewrite Hv. reflexivity. }
      destruct (compile_valid pick fuel v1) as [c1|x1|p1|]; destruct (compile_valid pick fuel v2) as [c2|x2|p2|];
        cbn [dmap obind layout_rel] in C2 |- *; try discriminate; auto.
      + inversion C2. auto.
      + inversion C2. reflexivity.
      + inversion C2. reflexivity.
    - inversion H1. cbn [ms_derr]. congruence.
    - inversion H1. reflexivity.
    - exact I.
  Qed.

  Theorem layout_pipeline g l1 l2 sh :
    wf g ->
    layout_rel (compile pick fuel builtins (text g l1) sh) (compile pick fuel builtins (text g l2) sh).
  Proof.
    intro W.
    pose proof (roundtrip_cfg pinned g l1 W) as P1. pose proof (roundtrip_cfg pinned g l2 W) as P2.
    rewrite (compile_after_parse _ _ sh P1), (compile_after_parse _ _ sh P2).
    apply same_shape_pipeline. unfold same_shape. rewrite <- !erase_grammar_ms, !erase_located. reflexivity.
  Qed.

  Lemma compile_valid_expr v v' : v_expr v = v_expr v' -> compile_valid pick fuel v = compile_valid pick fuel v'.
  Proof. intro H. unfold compile_valid. rewrite H. reflexivity. Qed.

  Theorem definition_order_pipeline sh g g' :
    Permutation g g' -> call_variants g = call_variants g' ->
    forall v, from_grammar builtins g sh = Ok v ->
      exists v', from_grammar builtins g' sh = Ok v' /\ v_command v' = v_command v
                 /\ compile_valid pick fuel v' = compile_valid pick fuel v.
  Proof.
    intros Hp Hcv v Hv. destruct (definition_order builtins sh g g' Hp Hcv v Hv) as (v' & Hv' & Hc & He).
    exists v'. repeat split; auto. apply compile_valid_expr. exact He.
  Qed.
End Pipeline.
