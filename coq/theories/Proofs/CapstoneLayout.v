(** Source-level corollaries of the capstone, C14: [compile_bash] on two layouts of one printable
    grammar, and on two texts whose statements are permutations of each other.  [emit_bash] reads
    only the command name, the automata and the oracles ([emit_bash_reads]); [layout_pipeline] and
    [definition_order_pipeline] (Props/C14b.v) say the first two are the same. *)
From Coq Require Import Permutation.
From CG Require Import Base.Prelude Model.Ast Model.Lexer Model.Parser Model.Check Model.Regex.
From CG Require Import Model.Dfa Model.Subset Model.Driver Model.Tables Model.EmitBash Model.Compiler Spec.Printer.
From CG Require Import Proofs.TreeFacts Proofs.CheckSpans Proofs.PipelineSpans Proofs.PipelineLayout Proofs.CheckTotal.

(** results equal up to spans: the same script byte for byte, or the same rejection after erasing
    the spans of the error (two layouts put the same construct at different positions) *)
Definition script_rel (x y : cres string) : Prop :=
  match x, y with
  | Ok s1, Ok s2 => s1 = s2
  | Err (CDriver e1), Err (CDriver e2) => ms_derr CheckSpans.erase e1 = ms_derr CheckSpans.erase e2
  | Err CBadOracle, Err CBadOracle => True
  | Panic a, Panic b => a = b
  | OutOfFuel, OutOfFuel => True
  | _, _ => False
  end.

Lemma emit_bash_reads o v1 c1 v2 c2 :
  v_command v1 = v_command v2 -> c1 = c2 -> emit_bash o v1 c1 = emit_bash o v2 c2.
Proof. intros Hc ->. unfold emit_bash. rewrite Hc. reflexivity. Qed.

Lemma script_rel_refl x : script_rel x x.
Proof. destruct x as [s|[e|]|m|]; cbn; auto. Qed.

Lemma layout_rel_script_rel o (x y : dres (valid_grammar * cdfa)) :
  layout_rel x y ->
  script_rel (match x with Ok (v, c) => emit_bash o v c | Err e => Err (CDriver e) | Panic s => Panic s | OutOfFuel => OutOfFuel end)
             (match y with Ok (v, c) => emit_bash o v c | Err e => Err (CDriver e) | Panic s => Panic s | OutOfFuel => OutOfFuel end).
Proof.
  destruct x as [[v1 c1]|e1|m1|], y as [[v2 c2]|e2|m2|]; cbn [layout_rel]; try contradiction; auto.
  intros [Hc [_ Hd]]. rewrite (emit_bash_reads o v1 c1 v2 c2 Hc Hd). apply script_rel_refl.
Qed.

Theorem compile_bash_layout o builtins g l1 l2 :
  wf g -> script_rel (compile_bash o builtins (text g l1)) (compile_bash o builtins (text g l2)).
Proof.
  intro W. unfold compile_bash. apply layout_rel_script_rel.
  apply layout_pipeline. exact W.
Qed.

Definition order_rel (x y : cres string) : Prop :=
  x = y \/ (exists e1 e2, x = Err (CDriver (DCheck e1)) /\ y = Err (CDriver (DCheck e2))).

Theorem compile_bash_definition_order o builtins t t' g g' :
  parse t = Ok g -> parse t' = Ok g' ->
  Permutation g g' -> call_variants g = call_variants g' ->
  order_rel (compile_bash o builtins t) (compile_bash o builtins t').
Proof.
  intros Hg Hg' Hp Hcv. unfold compile_bash.
  rewrite (compile_after_parse _ _ builtins t g Bash Hg), (compile_after_parse _ _ builtins t' g' Bash Hg').
  unfold after_parse.
  destruct (from_grammar_total builtins g Bash) as [[v Hv]|[e He]].
  - destruct (definition_order_pipeline (pick_table (o_pops o)) (o_fuel o) builtins Bash g g' Hp Hcv v Hv)
      as [v' [Hv' [Hc Hcomp]]].
    rewrite Hv, Hv'. cbn [lift obind]. rewrite Hcomp. left.
    destruct (compile_valid (pick_table (o_pops o)) (o_fuel o) v) as [c|e|m|]; cbn [obind];
      [apply emit_bash_reads; [symmetry; exact Hc|reflexivity] | reflexivity..].
  - destruct (from_grammar_total builtins g' Bash) as [[v' Hv']|[e' He']].
    + exfalso.
      destruct (definition_order_pipeline (pick_table (o_pops o)) (o_fuel o) builtins Bash g' g
                  (Permutation_sym Hp) (eq_sym Hcv) v' Hv') as [v [Hv _]]. congruence.
    + rewrite He, He'. cbn [lift obind]. right. eauto.
Qed.
