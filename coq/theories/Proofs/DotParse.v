(** C16, syntactic level: the text [Model.Dot.render_doc] makes of a list of well-formed lines is
    read by [Spec.DotRead] (lexer, then parser) as exactly the statements the lines stand for.
    This is the codec theorem shared by the two printers ([read_render_doc]). *)
From CG Require Import Base.Prelude Base.Facts Spec.DotRead Model.Dot Proofs.DotLex.
Local Open Scope string_scope.

(** induction on nested items: [P] of an item from [Q] of the body of a block *)
Section ItemInd.
  Variable P : item -> Prop.
  Variable Q : list item -> Prop.
  Hypothesis Hline : forall l, P (ILine l).
  Hypothesis Hblock : forall name body, Q body -> P (IBlock name body).
  Hypothesis Hnil : Q [].
  Hypothesis Hcons : forall x r, P x -> Q r -> Q (x :: r).
  Fixpoint item_list_ind (i : item) : P i :=
    match i with
    | ILine l => Hline l
    | IBlock name body =>
        Hblock name body
          ((fix go (l : list item) : Q l :=
              match l with
              | [] => Hnil
              | x :: r => Hcons x r (item_list_ind x) (go r)
              end) body)
    end.

  Lemma items_ind : (forall i, P i) /\ (forall l, Q l).
  Proof.
    split; [exact item_list_ind|]. induction l as [|x r IH]; [exact Hnil|exact (Hcons x r (item_list_ind x) IH)].
  Qed.
End ItemInd.

Definition item_ind2 (P : item -> Prop) (Hline : forall l, P (ILine l))
           (Hblock : forall name body, Forall P body -> P (IBlock name body)) : forall i, P i :=
  item_list_ind P (Forall P) Hline Hblock (Forall_nil P) (fun x r => @Forall_cons _ P x r).

Inductive item_ok : item -> Prop :=
| ok_line l : line_ok l -> item_ok (ILine l)
| ok_block name body : id_ok name -> Forall item_ok body -> item_ok (IBlock name body).

Fixpoint item_toks (i : item) : list tok :=
  match i with
  | ILine l => line_toks l
  | IBlock name body =>
      ([TId "subgraph"; TId name; TLB] ++ flat_map item_toks body ++ [TRB])%list
  end.
Definition items_toks (l : list item) : list tok := flat_map item_toks l.

Definition line_stmts (l : line) : list stmt :=
  match l with
  | LBlank => []
  | LNodeDefault sh => [SAttr KNode [("shape", sh)]]
  | LNode i b => [SNode i [("label", qdec b)]]
  | LEdge a b => [SEdge [a; b] []]
  | LEdgeQ a b k body => [SEdge [a; b] [(k, qdec body)]]
  | LAssign k v => [SAssign k v]
  | LAssignQ k body => [SAssign k (qdec body)]
  end.

Fixpoint item_stmts (i : item) : list stmt :=
  match i with
  | ILine l => line_stmts l
  | IBlock name body => [SSub (Some name) (flat_map item_stmts body)]
  end.
Definition items_stmts (l : list item) : list stmt := flat_map item_stmts l.

Lemma render_block depth name body :
  render_item depth (IBlock name body)
  = tabs (S depth) ++ "subgraph " ++ name ++ " {" ++ nl ++ render_items (S depth) body
    ++ tabs (S depth) ++ "}" ++ nl.
Proof.
  cbn [render_item].
  assert (H : (fix go (l : list item) : string :=
                 match l with [] => "" | x :: r => render_item (S depth) x ++ go r end) body
              = render_items (S depth) body).
  { induction body as [|x r IH]; [reflexivity|]. cbn [render_items]. now rewrite IH. }
  now rewrite H.
Qed.

Lemma lex_item_items :
  (forall i, item_ok i -> forall depth, lsteps L0 (render_item depth i) = Some (L0, item_toks i))
  /\ (forall l, Forall item_ok l -> forall depth, lsteps L0 (render_items depth l) = Some (L0, items_toks l)).
Proof.
  apply items_ind.
  - intros l Hok depth. inversion Hok; subst. now apply lex_line.
  - intros name body IH Hok depth. inversion Hok as [|n b [Hid _] Hbody]; subst.
    rewrite render_block.
    apply (lsteps_cat L0 _ _ L0 [] L0 _ (lsteps_tabs _)).
    change (item_toks (IBlock name body))
      with ([TId "subgraph"] ++ ([TId name; TLB] ++ (items_toks body ++ [TRB])))%list.
    apply (lsteps_cat L0 "subgraph " _ L0 [TId "subgraph"]); [reflexivity|].
    replace (name ++ " {" ++ nl ++ render_items (S depth) body ++ tabs (S depth) ++ "}" ++ nl)
      with (name ++ String " "%char ("{" ++ nl ++ render_items (S depth) body ++ tabs (S depth) ++ "}" ++ nl))
      by reflexivity.
    apply (lsteps_ident_then _ _ _ _ Hid).
    apply (lsteps_cat (LIdent name) (String " "%char ("{" ++ nl)) _ L0 [TId name; TLB]); [reflexivity|].
    apply (lsteps_cat L0 (render_items (S depth) body) _ L0 (items_toks body) _ _ (IH Hbody _)).
    apply (lsteps_cat L0 _ _ L0 [] L0 _ (lsteps_tabs _)). reflexivity.
  - reflexivity.
  - intros x r Hx Hr Hok depth. inversion Hok; subst. cbn [render_items items_toks flat_map].
    exact (lsteps_cat L0 _ _ L0 _ L0 _ (Hx ltac:(assumption) depth) (Hr ltac:(assumption) depth)).
Qed.

Definition lex_items := proj2 lex_item_items.

Lemma tok_id_ok i : id_ok i -> tok_id (TId i) = Some i.
Proof. intros [_ H]. unfold tok_id. now rewrite H. Qed.

Lemma tok_kw_ok i : id_ok i -> tok_kw (TId i) = None.
Proof. intros [_ H]. exact H. Qed.

(** [p_stmts] runs [skip_semi] after every statement; a line brings its own semicolon, a block has
    none, and what follows a block in a printed file does not start with one ([items_toks_head]),
    so that [skip_semi] leaves it alone ([skip_semi_id]). *)
Definition no_semi_head (ts : list tok) : Prop :=
  match ts with TSemi :: _ => False | _ => True end.

Lemma items_toks_head l rest : no_semi_head rest -> no_semi_head (items_toks l ++ rest)%list.
Proof.
  intro H. induction l as [|x r IH]; [exact H|].
  cbn [items_toks flat_map]. rewrite <- app_assoc.
  destruct x as [[|sh|i b|a b|a b k q|k v|k q]|name body]; cbn; try exact I. exact IH.
Qed.

Lemma skip_semi_id ts : no_semi_head ts -> skip_semi ts = ts.
Proof. destruct ts as [|[] ts]; cbn; intro H; try reflexivity. now elim H. Qed.

(** a line is one statement and its semicolon; the blank line is nothing *)
Lemma p_stmts_line ln f rest : line_ok ln ->
  p_stmts (S f) (line_toks ln ++ rest)%list
  = match ln with
    | LBlank => p_stmts (S f) rest
    | _ => match p_stmts f rest with
           | Some (ss, r') => Some ((line_stmts ln ++ ss)%list, r')
           | None => None
           end
    end.
Proof.
  intros H.
  destruct ln as [|sh|i b|a b|a b k q|k v|k q]; cbn [line_ok line_toks line_stmts app] in *; [reflexivity|..];
    cbn [p_stmts p_stmt].
  - change (tok_kw (TId "node")) with (Some KwNode). cbn [p_alist]. rewrite (tok_id_ok sh H). reflexivity.
  - destruct H as [Hi _]. rewrite (tok_kw_ok i Hi), (tok_id_ok i Hi). reflexivity.
  - destruct H as [Ha Hb]. rewrite (tok_kw_ok a Ha), (tok_id_ok a Ha). cbn [p_edge_rhs]. rewrite (tok_id_ok b Hb).
    reflexivity.
  - destruct H as (Ha & Hb & Hk & _). rewrite (tok_kw_ok a Ha), (tok_id_ok a Ha). cbn [p_edge_rhs].
    rewrite (tok_id_ok b Hb). cbn [app p_opt_alist p_alist]. rewrite (tok_id_ok k Hk). reflexivity.
  - destruct H as [Hk Hv]. rewrite (tok_kw_ok k Hk), (tok_id_ok k Hk), (tok_id_ok v Hv). reflexivity.
  - destruct H as [Hk _]. rewrite (tok_kw_ok k Hk), (tok_id_ok k Hk). reflexivity.
Qed.

(** the statements of a list of items are read up to the closing brace after them *)
Definition parsed (l : list item) : Prop :=
  forall fuel rest, (List.length (items_toks l) < fuel)%nat ->
    p_stmts fuel (items_toks l ++ TRB :: rest)%list = Some (items_stmts l, rest).

Lemma parse_items : forall l, Forall item_ok l -> parsed l.
Proof.
  apply (items_ind (fun i => item_ok i -> forall l, parsed l -> parsed (i :: l))
                   (fun l => Forall item_ok l -> parsed l)).
  - intros ln Hok l IHl fuel rest Hf. inversion Hok as [l' Hln|]; subst.
    destruct fuel as [|f]; [inversion Hf|].
    change (items_toks (ILine ln :: l)) with (line_toks ln ++ items_toks l)%list in *.
    change (items_stmts (ILine ln :: l)) with (line_stmts ln ++ items_stmts l)%list.
    rewrite app_length in Hf. rewrite <- app_assoc, (p_stmts_line ln f _ Hln).
    destruct ln; [exact (IHl _ rest Hf)|..]; (rewrite IHl; [reflexivity|cbn in Hf; lia]).
  - intros name body IHbody Hok l IHl fuel rest Hf. inversion Hok as [|n b Hid Hbody]; subst.
    destruct fuel as [|f]; [inversion Hf|].
    change (items_toks (IBlock name body :: l))
      with ((TId "subgraph" :: TId name :: TLB :: items_toks body ++ [TRB]) ++ items_toks l)%list in *.
    change (items_stmts (IBlock name body :: l)) with (SSub (Some name) (items_stmts body) :: items_stmts l).
    rewrite !app_length in Hf. cbn [List.length] in Hf. rewrite app_length in Hf. cbn [List.length] in Hf.
    rewrite <- !app_assoc. cbn [app p_stmts p_stmt]. change (tok_kw (TId "subgraph")) with (Some KwSubgraph).
    rewrite <- (app_assoc (items_toks body)). cbn [app].
    rewrite (tok_id_ok name Hid), (IHbody Hbody f) by lia. cbn iota beta.
    rewrite skip_semi_id by (apply items_toks_head; exact I).
    rewrite IHl; [reflexivity|lia].
  - intros _ fuel rest Hf. destruct fuel as [|f]; [inversion Hf|]. reflexivity.
  - intros x r Hx Hr Hok. inversion Hok; subst. auto.
Qed.

Lemma kw_digraph : keyword_of "digraph" = Some KwDigraph. Proof. reflexivity. Qed.

Lemma p_graph_ok name toks ss :
  keyword_of name = None ->
  p_stmts (S (List.length toks)) toks = Some (ss, []) ->
  p_graph (TId "digraph" :: TId name :: TLB :: toks) = Some (mkast false true (Some name) ss).
Proof.
  intros Hkw H. unfold p_graph, tok_kw, tok_id. rewrite kw_digraph. cbv beta iota zeta.
  rewrite Hkw. cbv beta iota zeta. rewrite H. reflexivity.
Qed.

Theorem read_render_doc name l :
  id_ok name -> Forall item_ok l ->
  read (render_doc name l) = Some (graph_of_ast (mkast false true (Some name) (items_stmts l))).
Proof.
  intros Hname Hl. unfold read.
  assert (Hlex : lex (render_doc name l)
                 = Some ([TId "digraph"; TId name; TLB] ++ items_toks l ++ [TRB])%list).
  { unfold lex, render_doc.
    replace (lex_from L0 ("digraph " ++ name ++ " {" ++ nl ++ render_items 0 l ++ "}" ++ nl))
      with (lex_from L0 ("digraph " ++ (name ++ String " "%char ("{" ++ nl ++ render_items 0 l ++ "}" ++ nl))))
      by reflexivity.
    rewrite <- (app_nil_r ([TId "digraph"; TId name; TLB] ++ items_toks l ++ [TRB])%list).
    apply (lex_from_lsteps L0 _ L0 ([TId "digraph"; TId name; TLB] ++ items_toks l ++ [TRB])%list []);
      [|reflexivity].
    change ([TId "digraph"; TId name; TLB] ++ items_toks l ++ [TRB])%list
      with ([TId "digraph"] ++ ([TId name; TLB] ++ (items_toks l ++ [TRB])))%list.
    apply (lsteps_cat L0 "digraph " _ L0 [TId "digraph"]); [reflexivity|].
    apply (lsteps_ident_then _ _ _ _ (proj1 Hname)).
    apply (lsteps_cat (LIdent name) (String " "%char ("{" ++ nl)) _ L0 [TId name; TLB]); [reflexivity|].
    apply (lsteps_cat L0 (render_items 0 l) _ L0 (items_toks l) L0 [TRB] (lex_items l Hl 0)).
    reflexivity. }
  rewrite Hlex. destruct Hname as [_ Hkw]. cbn [app].
  rewrite (p_graph_ok name (items_toks l ++ [TRB])%list (items_stmts l) Hkw); [reflexivity|].
  apply (parse_items l Hl). rewrite app_length. cbn. lia.
Qed.
