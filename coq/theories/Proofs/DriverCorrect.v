(** [Driver.compile_valid]: the oracle it computes itself ([compile_subs]) satisfies the hypotheses
    of the C02 theorems, so the compiled automaton accepts exactly what the validated tree denotes
    ([driver_correct]); and, given enough fuel for the subset constructions, it is total: [Ok], or
    one of the two diagnostics of [good_result] ([driver_total]). *)
From CG Require Import Base.Prelude Base.Facts Model.Ast Model.Dfa Model.Regex Model.Subset Model.Check Spec.Lang.
From CG Require Import Model.DfaEqb Model.Minimize Model.Ambiguity Model.Driver.
From CG Require Import Spec.DfaEquiv Spec.MinimizeSpec.
From CG Require Import Proofs.SubsetConstr Proofs.FromExpr Proofs.C02Lang Proofs.TreeFacts Proofs.CheckTree.
From CG Require Import Proofs.WfTrim Proofs.C02Total Proofs.RegexNoPanic Proofs.DfaEq.
From CG Require Import Proofs.MinimizePostGen Proofs.HopcroftLoop Proofs.MinimizeCorrect Proofs.MinimizeTotal.
From CG Require Import Proofs.AmbTotal Proofs.DriverFacts.

Lemma step_in_range : forall d s i y, wf d -> step d s i = Some y -> i < lenN (d_inputs d).
Proof.
  intros d s i y W H. unfold step in H.
  destruct (assocN s (d_trans d)) as [row|] eqn:Er; [|discriminate].
  apply assocN_In in Er. apply assocN_In in H. eapply (wf_inputs d W); eauto.
Qed.

Lemma minimize_inputs_in_range : forall d m,
  wf d -> trim d -> minimize d = Ok m -> inputs_in_range m.
Proof.
  intros d m W TR H s i t Hin.
  rewrite (minimize_inputs d m H).
  unfold minimize in H.
  destruct (do_minimize_inv d _ m H) as [h [reps [Hloop [Hreps [_ [_ Hrest]]]]]].
  cbn zeta in Hrest. destruct Hrest as [s' [ts' [accn [Hren ->]]]].
  destruct (hopcroft_loop_correct d W (proj2 TR) _ h Hloop) as [Gd [N1 N2]].
  unfold transitions_from in Hin. simpl in Hin.
  destruct (assocN s (hashmap_transitions_from_vec ts')) as [row|] eqn:Er; [|destruct Hin].
  apply assocN_In in Er.
  pose proof (hashmap_entries ts' s row i t Er Hin) as Hts.
  apply (ts'_In d reps s' ts' accn Hren) in Hts.
  destruct Hts as [a [b [HE _]]].
  eapply E_inv in HE; try eassumption. destruct HE as [y [Ey _]].
  eapply step_in_range; eauto.
Qed.

Lemma intern_dfa_spec : forall d subs i k subs',
  intern_dfa d subs i = (k, subs') ->
  exists j, k = i + N.of_nat j /\ nth_error subs' j = Some d /\ prefix subs subs'.
Proof.
  intros d. induction subs as [|x r IH]; intros i k subs' H; simpl in H.
  - inversion H; subst. exists O. split; [simpl; lia|]. split; [reflexivity|]. exists [d]. reflexivity.
  - destruct (dfa_eqb x d) eqn:E.
    + inversion H; subst. apply dfa_eqb_eq in E. subst. exists O. split; [simpl; lia|].
      split; [reflexivity|apply prefix_refl].
    + destruct (intern_dfa d r (N.succ i)) as [k' r'] eqn:Ei. inversion H; subst.
      destruct (IH _ _ _ Ei) as [j [Hk [Hn [m Hp]]]].
      exists (S j). split; [lia|]. split; [exact Hn|]. exists m. simpl. rewrite Hp. reflexivity.
Qed.

Section Subs.
  Variable pick : nat -> list (list N) -> nat.
  Variable fuel : nat.
  Variable pl : pool.

  (** [m] is what [compile_sub] makes of the within-word regex [rid] *)
  Definition sub_compiled (rid : N) (m : dfa) : Prop :=
    exists rr raw st, nthN pl rid = Some rr /\
                      dfa_from_regex pick fuel [] rr = Ok (raw, st) /\ minimize raw = Ok m.

  Definition cache_ok (cache : list (N * N)) (subs : list dfa) : Prop :=
    forall rid k, assocN rid cache = Some k ->
      exists m, nth_error subs (N.to_nat k) = Some m /\ sub_compiled rid m.

  Lemma cache_ok_nil : cache_ok [] [].
  Proof. intros rid k H. discriminate. Qed.

  Lemma compile_sub_ok : forall r m, compile_sub pick fuel r = Ok m ->
    exists raw st, dfa_from_regex pick fuel [] r = Ok (raw, st) /\ minimize raw = Ok m.
  Proof.
    intros r m H. unfold compile_sub in H.
    destruct (dfa_from_regex pick fuel [] r) as [[raw st]| | |] eqn:E1; simpl in H; try discriminate.
    destruct (check_ambiguity_best_effort raw) as [[]| | |]; simpl in H; try discriminate.
    destruct (minimize raw) as [m'| | |] eqn:E2; simpl in H; try discriminate.
    destruct (check_ambiguity_best_effort m') as [[]| | |]; simpl in H; try discriminate.
    inversion H; subst. eauto.
  Qed.

  Lemma compile_subs_ok : forall inputs cache subs cache' subs',
    cache_ok cache subs ->
    compile_subs pick fuel inputs pl cache subs = Ok (cache', subs') ->
    cache_ok cache' subs' /\
    (forall rid, assocN rid cache <> None -> assocN rid cache' <> None) /\
    (forall rid l sp, In (RSub rid l sp) inputs -> assocN rid cache' <> None).
  Proof.
    induction inputs as [|x inputs IH]; intros cache subs cache' subs' Hc H; simpl in H.
    - inversion H; subst. split; [exact Hc|]. split; [auto|]. intros rid l sp [].
    - assert (Hskip : forall (Hx : forall rid l sp, x <> RSub rid l sp),
                compile_subs pick fuel inputs pl cache subs = Ok (cache', subs') ->
                cache_ok cache' subs' /\
                (forall rid, assocN rid cache <> None -> assocN rid cache' <> None) /\
                (forall rid l sp, In (RSub rid l sp) (x :: inputs) -> assocN rid cache' <> None)).
      { intros Hx H'. destruct (IH _ _ _ _ Hc H') as [A [B C]]. split; [exact A|]. split; [exact B|].
        intros rid l sp [E|Hin]; [exfalso; eapply Hx; eauto|eauto]. }
      destruct x as [t d l sp|n l sp|c z l sp|rid l sp];
        try (apply Hskip; [intros; discriminate|exact H]).
      destruct (assocN rid cache) as [k0|] eqn:Ec.
      + destruct (IH _ _ _ _ Hc H) as [A [B C]]. split; [exact A|]. split; [exact B|].
        intros rid' l' sp' [E|Hin]; [|eauto]. inversion E; subst. apply B. congruence.
      + destruct (nthN pl rid) as [r|] eqn:En; [|discriminate].
        destruct (compile_sub pick fuel r) as [d| | |] eqn:Ed; simpl in H; try discriminate.
        destruct (intern_dfa d subs 0) as [k subs1] eqn:Ei.
        destruct (intern_dfa_spec _ _ _ _ _ Ei) as [j [Hk [Hn Hp]]].
        assert (Hc1 : cache_ok (cache ++ [(rid, k)]) subs1).
        { intros rid' k' Ha. rewrite assocN_app in Ha.
          destruct (assocN rid' cache) as [k1|] eqn:E1.
          - inversion Ha; subst. destruct (Hc _ _ E1) as [m [Hm Hs]]. exists m. split; auto.
            eapply prefix_nth_error; eauto.
          - simpl in Ha. destruct (N.eqb rid' rid) eqn:Er; [|discriminate]. inversion Ha; subst.
            apply N.eqb_eq in Er. subst. exists d. split.
            + rewrite N.add_0_l, Nnat.Nat2N.id. exact Hn.
            + destruct (compile_sub_ok _ _ Ed) as [raw [st [E1' E2']]]. exists r, raw, st. auto. }
        destruct (IH _ _ _ _ Hc1 H) as [A [B C]]. split; [exact A|]. split.
        * intros rid' Hne. apply B. rewrite assocN_app. destruct (assocN rid' cache); congruence.
        * intros rid' l' sp' [E|Hin]; [|eauto]. inversion E; subst. apply B.
          rewrite assocN_app, Ec. simpl. rewrite N.eqb_refl. discriminate.
  Qed.

  Lemma cache_ok_minimised : forall cache subs, cache_ok cache subs -> subs_minimised cache pl subs.
  Proof.
    intros cache subs H rid k Hk. destruct (H rid k Hk) as [m [Hm [rr [raw [st [Hn [Hd Hmin]]]]]]].
    exists rr, pick, fuel, [], raw, st. split; [exact Hn|]. split; [exact Hd|].
    rewrite (nth_error_nth _ _ _ Hm). exact Hmin.
  Qed.
End Subs.

Theorem driver_correct : forall pick fuel v c,
  alts_nonempty (v_expr v) = true ->
  compile_valid pick fuel v = Ok c ->
  forall w, accepts_items c w <-> denotes (v_expr v) w.
Proof.
  intros pick fuel v c Ha H w.
  apply compile_valid_Ok in H. destruct H as (r & pl & submap & raw & st & E & Es & Ed & Em & _).
  apply from_valid_expr_ok in E. destruct c as [m subs]. cbn [c_main c_subs] in *.
  destruct (compile_subs_ok pick fuel pl _ _ _ _ _ (cache_ok_nil pick fuel pl) Es) as [Hc _].
  eapply C02_minimised_model; eauto.
  eapply cache_ok_minimised; eauto.
Qed.

Section Total.
  Variable pick : nat -> list (list N) -> nat.
  Variable fuel : nat.

  Definition enough_fuel (r : regex) : Prop := (pow2 (S (List.length (r_inputs r))) < fuel)%nat.

  Lemma amb_cases : forall d, inputs_in_range d ->
    lift DAmb (check_ambiguity_best_effort d) = Ok tt \/
    exists e, lift DAmb (check_ambiguity_best_effort d) = Err (DAmb e).
  Proof.
    intros d H. destruct (check_ambiguity_total d H) as [E|[e E]]; rewrite E; simpl; eauto.
  Qed.

  Lemma compile_sub_total : forall rr,
    regex_good rr -> pure_inputs (r_inputs rr) -> enough_fuel rr ->
    (exists m, compile_sub pick fuel rr = Ok m) \/ (exists e, compile_sub pick fuel rr = Err (DAmb e)).
  Proof.
    intros rr Hg Hp Hf. unfold compile_sub.
    destruct (dfa_from_regex_total pick fuel [] rr Hg) as [raw [st Hd]]; [|exact Hf|].
    { intros rid l sp Hin. exfalso. apply (proj1 (pure_inputs_spec _) Hp rid l sp Hin). }
    rewrite Hd. simpl.
    destruct (wf_trim_pool _ _ _ _ _ _ Hg Hd) as [W T].
    destruct (amb_cases raw (wf_inputs_in_range raw W)) as [E|[e E]]; rewrite E; simpl; [|eauto].
    destruct (minimize_total raw W T) as [m Hm]. rewrite Hm. simpl.
    destruct (amb_cases m (minimize_inputs_in_range raw m W T Hm)) as [E'|[e E']]; rewrite E'; simpl; eauto.
  Qed.

  Variable pl : pool.
  Hypothesis pool_good : Forall (fun rr => regex_good rr /\ pure_inputs (r_inputs rr) /\ enough_fuel rr) pl.

  Lemma compile_subs_total : forall inputs cache subs,
    subs_in pl inputs ->
    (exists cs, compile_subs pick fuel inputs pl cache subs = Ok cs) \/
    (exists e, compile_subs pick fuel inputs pl cache subs = Err (DAmb e)).
  Proof.
    induction inputs as [|x inputs IH]; intros cache subs Hs; simpl; [eauto|].
    assert (Hs' : subs_in pl inputs) by (intros rid l sp Hin; apply (Hs rid l sp); right; exact Hin).
    destruct x as [t d l sp|n l sp|c z l sp|rid l sp]; try (apply IH; exact Hs').
    destruct (assocN rid cache); [apply IH; exact Hs'|].
    destruct (Hs rid l sp (or_introl eq_refl)) as [rr Hrr]. rewrite Hrr.
    pose proof (nthN_In _ _ _ Hrr) as Hin.
    rewrite Forall_forall in pool_good. destruct (pool_good rr Hin) as [Hg [Hp Hf]].
    destruct (compile_sub_total rr Hg Hp Hf) as [[m Hm]|[e He]].
    - rewrite Hm. simpl. destruct (intern_dfa m subs 0). apply IH. exact Hs'.
    - rewrite He. simpl. eauto.
  Qed.
End Total.

Definition good_result (x : dres cdfa) : Prop :=
  (exists c, x = Ok c) \/
  (exists a b, x = Err (DRegex (UnboundedMatchable a b))) \/
  (exists e, x = Err (DAmb e)).

Theorem driver_total : forall builtins g sh v pick fuel,
  from_grammar builtins g sh = Ok v -> grammar_alts_nonempty g = true ->
  (forall r pl, from_expr (v_expr v) [] = Ok (r, pl) ->
     enough_fuel fuel r /\ Forall (enough_fuel fuel) pl) ->
  good_result (compile_valid pick fuel v).
Proof.
  intros builtins g sh v pick fuel Hv Hga Hfuel.
  destruct (check_tree builtins g sh v Hv) as [Hdd [Hflat [_ Halts]]]. specialize (Halts Hga).
  destruct (from_expr_total (v_expr v) [] Hdd) as [r [pl E]].
  destruct (Hfuel r pl E) as [Hf Hfp].
  destruct (from_expr_good _ _ _ _ Halts E (Forall_nil _)) as [Hg Hpg].
  destruct (from_expr_invariants _ _ _ Hflat E) as [_ [Hpok Hsin]].
  unfold compile_valid, from_valid_expr. rewrite E. simpl.
  destruct (check_ambiguities_result _ _ _ Hflat E) as [Ec|[a [b Ec]]]; rewrite Ec; simpl.
  2: { right. left. eauto. }
  assert (Hpool : Forall (fun rr => regex_good rr /\ pure_inputs (r_inputs rr) /\ enough_fuel fuel rr) pl).
  { rewrite Forall_forall in *. intros rr Hin. split; [auto|]. split; [apply (Hpok rr Hin)|auto]. }
  destruct (compile_subs_total pick fuel pl Hpool (r_inputs r) [] [] Hsin) as [[[submap subs] Hs]|[e He]].
  2: { rewrite He. simpl. right. right. eauto. }
  rewrite Hs. simpl.
  destruct (compile_subs_ok pick fuel pl _ _ _ _ _ (cache_ok_nil pick fuel pl) Hs) as [_ [_ Hdef]].
  destruct (dfa_from_regex_total pick fuel submap r Hg Hdef Hf) as [raw [st Hd]].
  rewrite Hd. simpl.
  destruct (wf_trim_pool _ _ _ _ _ _ Hg Hd) as [W T].
  destruct (minimize_total raw W T) as [m Hm]. rewrite Hm. simpl.
  destruct (amb_cases m (minimize_inputs_in_range raw m W T Hm)) as [E'|[e E']]; rewrite E'; simpl.
  - left. eauto.
  - right. right. eauto.
Qed.

(** [driver_correct] from the checker's output: [check_tree] supplies [alts_nonempty] *)
Theorem driver_correct_from_grammar : forall builtins g sh v pick fuel c,
  from_grammar builtins g sh = Ok v -> grammar_alts_nonempty g = true ->
  compile_valid pick fuel v = Ok c ->
  forall w, accepts_items c w <-> denotes (v_expr v) w.
Proof.
  intros builtins g sh v pick fuel c Hv Hga H.
  destruct (check_tree builtins g sh v Hv) as [_ [_ [_ Halts]]].
  apply (driver_correct pick fuel v c (Halts Hga) H).
Qed.
