(** The model of [do_minimize] neither panics nor runs out of fuel on well-formed trim automata:
    [minimize_total], the totality half of C03.  Termination of the Hopcroft loop: with
    [Phi] = 2 * sum (|block| - 1) + |work-list|, a pop lowers [Phi] ([aclear_Phi]) and a split does
    not raise it ([asplit_Phi]: one unit of size is lost, at most one work-list entry is gained), so
    each iteration lowers it; [Phi] of the initial partition is below [minimize_fuel] ([Phi_A0]). *)
From CG Require Import Base.Prelude Base.Facts Model.Dfa Model.Minimize Spec.DfaEquiv Spec.MinimizeSpec
  Proofs.ListFacts Proofs.MinimizeBasics Proofs.MinimizeImage Proofs.HopcroftAbs Proofs.HopcroftSim Proofs.HopcroftOrder
  Proofs.HopcroftLoop Proofs.MinimizePostGen Proofs.MinimizeCorrect.
From CG Require Import Proofs.DfaEquivProofs.

Definition phi1 (p : ablock) : nat :=
  (2 * (List.length (fst p) - 1) + (if snd p then 1 else 0))%nat.

Definition Phi (A : astate) : nat := list_sum (map phi1 A).

Lemma Phi_cons p A : Phi (p :: A) = (phi1 p + Phi A)%nat.
Proof. reflexivity. Qed.

Lemma Phi_app A B : Phi (A ++ B) = (Phi A + Phi B)%nat.
Proof. unfold Phi. rewrite map_app, list_sum_app. reflexivity. Qed.

Lemma Phi_aremove B w A :
  NoDup (blocks A) -> In (B, w) A -> Phi A = (Phi (aremove B A) + phi1 (B, w))%nat.
Proof.
  unfold blocks, aremove. induction A as [|[b f] r IH]; cbn [map fst filter]; intros ND H; [contradiction|].
  inversion ND as [|? ? Hn Hr]; subst. rewrite Phi_cons. destruct H as [H|H].
  - inversion H; subst. rewrite bm_eqb_refl. cbn [negb]. rewrite filter_all; [lia|].
    intros [b' f'] Hb'. cbn [fst]. apply negb_true_iff, bm_eqb_false. intros ->.
    apply Hn, in_map_iff. exists (B, f'). auto.
  - rewrite (proj2 (bm_eqb_false b B)); [cbn [negb]; rewrite Phi_cons, (IH Hr H); lia|].
    intros ->. apply Hn, in_map_iff. exists (B, w). auto.
Qed.

Lemma length_inter_diff (B X : list N) :
  (List.length (bm_inter B X) + List.length (bm_diff B (bm_inter B X)) = List.length B)%nat.
Proof.
  rewrite bm_diff_inter. unfold bm_inter, bm_diff. induction B as [|x r IH]; cbn [filter]; [reflexivity|].
  destruct (memN x X); cbn [negb List.length]; lia.
Qed.

Section Measure.
  Variable U : list N.

  Lemma asplit_Phi A X B :
    APart U A -> In B (blocks A) -> (exists z, In z B /\ In z X) -> (Phi (asplit A X B) <= Phi A)%nat.
  Proof.
    intros P HB Hov.
    destruct (asplit_cases A X B (ap_sorted _ _ P _ HB) Hov) as [[_ [-> _]]|[Hv [_ [_ ->]]]]; [lia|].
    assert (L := length_inter_diff B X).
    assert (N1 : (1 <= List.length (bm_inter B X))%nat).
    { assert (H := hv_ne1 _ _ _ Hv). destruct (bm_inter B X); [congruence|cbn; lia]. }
    assert (N2 : (1 <= List.length (bm_diff B (bm_inter B X)))%nat).
    { assert (H := hv_ne2 _ _ _ Hv). destruct (bm_diff B (bm_inter B X)); [congruence|cbn; lia]. }
    apply in_blocks in HB. destruct HB as [w Hw].
    assert (Fw : aflag B A = w).
    { destruct w; [apply aflag_true; exact Hw|]. destruct (aflag B A) eqn:F; [|reflexivity].
      apply aflag_true in F. apply (flag_unique A B true false (ap_nodup _ _ P) F Hw). }
    rewrite (Phi_aremove B w A (ap_nodup _ _ P) Hw). unfold areplace. rewrite Phi_app, !Phi_cons.
    unfold phi1. cbn [fst snd]. rewrite Fw. change (Phi []) with 0%nat.
    destruct w; cbn [orb]; [lia|].
    destruct (Nat.leb _ _); cbn [negb]; lia.
  Qed.

  Lemma SplitPres_Phi X n : SplitPres U X (fun A => (Phi A <= n)%nat).
  Proof.
    intros A B P HB Hov H. assert (L := asplit_Phi A X B P HB Hov). lia.
  Qed.

  Lemma aclear_Phi_le A G : (Phi (aclear G A) <= Phi A)%nat.
  Proof.
    induction A as [|[b f] r IH]; [apply Nat.le_refl|]. unfold aclear in *. cbn [map fst]. rewrite !Phi_cons.
    destruct (bm_eqb b G), f; unfold phi1; cbn [fst snd]; lia.
  Qed.

  Lemma aclear_Phi A G : In (G, true) A -> (Phi (aclear G A) < Phi A)%nat.
  Proof.
    induction A as [|[b f] r IH]; [intros []|].
    intros [H|H]; unfold aclear; cbn [map fst]; fold (aclear G r); rewrite !Phi_cons.
    - inversion H; subst. rewrite bm_eqb_refl. pose proof (aclear_Phi_le r G). unfold phi1. cbn [fst snd]. lia.
    - specialize (IH H). destruct (bm_eqb b G), f; unfold phi1; cbn [fst snd]; lia.
  Qed.
End Measure.

Section LoopTotal.
  Variable U : list N.
  Variable image : list transition.

  Lemma iteration_Phi A A' : APart U A -> iteration_any image A A' -> (Phi A' < Phi A)%nat.
  Proof.
    intros P [G [Xs [HG [_ Hs]]]]. assert (L := aclear_Phi A G HG).
    destruct (refine_seq_spec U (fun B => (Phi B <= Phi (aclear G A))%nat) Xs _ _ Hs) as [_ [Q _]].
    - intros X _. apply SplitPres_Phi.
    - apply aclear_APart. exact P.
    - apply Nat.le_refl.
    - lia.
  Qed.

  Lemma loop_total fuel : forall h,
    Good U h -> (Phi (abs h) < fuel)%nat -> exists h', hopcroft_loop fuel image h = Ok h'.
  Proof.
    induction fuel as [|f IH]; intros h Gd L; [lia|]. cbn [hopcroft_loop].
    destruct (h_work h) as [|gid rest] eqn:Ew; [eauto|]. rewrite <- Ew.
    destruct (pop_sim U image h gid rest Gd Ew) as [h2 [E2 [Gd2 It]]]. rewrite E2. cbn [obind].
    apply IH; [exact Gd2|]. assert (Lt := iteration_Phi _ _ (g_part _ _ Gd) It). lia.
  Qed.
End LoopTotal.

Lemma filter_len_le {A} (p : A -> bool) l : (List.length (filter p l) <= List.length l)%nat.
Proof. induction l as [|x r IH]; cbn [filter]; [lia|]. destruct (p x); cbn [List.length]; lia. Qed.

Lemma Phi_A0 d : (Phi (A0 d) < minimize_fuel d)%nat.
Proof.
  unfold A0, init_blocks, minimize_fuel, Phi. rewrite !map_app, !map_map, !list_sum_app.
  assert (Hopt : forall b, (list_sum (map (fun x : list N => phi1 (x, true)) (opt_block b)) <= 2 * List.length b)%nat).
  { intros [|z r]; unfold list_sum; cbn [opt_block map fold_right]; [lia|].
    unfold phi1. cbn [fst snd List.length]. lia. }
  assert (H1 := Hopt (d_accepting d)). assert (H2 := Hopt (nonacc d)).
  assert (H3 : (List.length (nonacc d) <= List.length (get_all_states d))%nat).
  { unfold nonacc, bm_diff. etransitivity; apply filter_len_le. }
  unfold list_sum at 1. cbn [map fold_right]. unfold phi1 at 1. cbn [fst snd List.length]. lia.
Qed.

Lemma representatives_total pool parts :
  (forall id, In id parts -> exists b, pool_lookup pool id = Some b /\ b <> []) ->
  exists reps, representatives pool parts = Ok reps.
Proof.
  unfold representatives. generalize (@nil (N * N)).
  induction parts as [|id r IH]; intros m0 H; cbn [ofold]; [eauto|].
  destruct (H id (or_introl eq_refl)) as [b [Lb Nb]]. rewrite Lb.
  destruct (bm_min_some b Nb) as [mn ->]. cbn [obind].
  apply IH. intros j Hj. apply H. right. exact Hj.
Qed.

Theorem minimize_total d :
  wf d -> trim d -> exists m, minimize d = Ok m.
Proof.
  intros W TR. unfold minimize, do_minimize.
  destruct (loop_total (universe d) (make_transitions_image d) (minimize_fuel d) (initial_partition d)) as [h Hh].
  { apply initial_Good. exact W. }
  { rewrite (abs_initial d W). apply Phi_A0. }
  rewrite Hh. cbn [obind].
  destruct (hopcroft_loop_correct d W (proj2 TR) _ h Hh) as [Gd [N1 N2]].
  destruct (representatives_total (h_pool h) (h_parts h)) as [reps Hreps].
  { intros id Hid. destruct (good_lookup _ h id Gd Hid) as [b [Lb [Nb _]]]. eauto. }
  rewrite Hreps. cbn [obind].
  assert (Hrep : forall x, In x (states d) -> assocN x reps <> None).
  { intros x Hx. destruct (st_universe d W TR x Hx) as [Ux _].
    destruct (rep_block d h reps Gd Hreps x Ux) as [b [_ [_ [Hr _]]]]. congruence. }
  rewrite rep_get_eq by apply Hrep, start_In_states. cbn [obind].
  rewrite (omap_eq _ (getf reps)) by (intros a Ha; apply rep_get_eq, Hrep, In_states; auto).
  cbn [obind].
  rewrite (quotient_transitions_eq d reps) by (intros t Ht; apply Hrep, (iter_to_state d t Ht)).
  cbn [obind].
  rewrite (surjective_pairing (keep_only_states_with_input_transitions _ _ _)). cbv beta iota zeta.
  rewrite renumber_states_eq by exact (acc''_keys d W TR h reps Gd N1 N2 Hreps).
  cbn [obind]. eauto.
Qed.
