(** Words read letter by letter through a relation: the image [limg R L] of a language [L] under a
    relation [R] between letters.  Words over items against words over input ids, input ids against
    positions, items against letters of a regular expression are all of this form ([img], [pimg],
    [waccepts], [accepts_items], [lab_accepts] unfold to it); what is proved here is how the image
    goes through the operations languages are built with. *)
From CG Require Import Base.Prelude Proofs.ListFacts.

Inductive plusP {A} (P : list A -> Prop) : list A -> Prop :=
| PP_one u : P u -> plusP P u
| PP_more u v : P u -> plusP P v -> plusP P (u ++ v).

Lemma plusP_iff : forall {A} (P Q : list A -> Prop),
  (forall w, P w <-> Q w) -> forall w, plusP P w <-> plusP Q w.
Proof.
  intros A P Q H w. split; intros D; induction D.
  - apply PP_one. apply H. assumption.
  - apply PP_more; [apply H|]; assumption.
  - apply PP_one. apply H. assumption.
  - apply PP_more; [apply H|]; assumption.
Qed.

Definition limg {B A} (R : B -> A -> Prop) (L : list B -> Prop) (w : list A) : Prop :=
  exists v, L v /\ Forall2 R v w.

Lemma limg_ext : forall {B A} (R R' : B -> A -> Prop) (L L' : list B -> Prop),
  (forall b a, R b a <-> R' b a) -> (forall v, L v <-> L' v) ->
  forall w, limg R L w <-> limg R' L' w.
Proof.
  intros B A R R' L L' HR HL w.
  split; intros [v [H F]]; exists v; (split; [apply HL; exact H|]);
    (eapply Forall2_impl; [|exact F]); intros b a; apply HR.
Qed.

Lemma limg_eq : forall {A} (L : list A -> Prop) w, limg eq L w <-> L w.
Proof.
  intros A L w. split.
  - intros [v [H F]]. apply Forall2_eq in F. subst. exact H.
  - intros H. exists w. split; [exact H | apply Forall2_eq; reflexivity].
Qed.

Lemma limg_limg : forall {C B A} (S : C -> B -> Prop) (R : B -> A -> Prop) (L : list C -> Prop) w,
  limg R (limg S L) w <-> limg (fun c a => exists b, S c b /\ R b a) L w.
Proof.
  intros C B A S R L w. split.
  - intros [v [[u [H F1]] F2]]. exists u. split; [exact H|]. clear H. revert w F2.
    induction F1 as [|c b u v Hcb F1 IH]; intros w F2; inversion F2; subst; constructor; eauto.
  - intros [u [H F]]. cut (exists v, Forall2 S u v /\ Forall2 R v w).
    { intros [v [F1 F2]]. exists v. split; [exists u; auto | exact F2]. }
    clear H. induction F as [|c a u w [b [Hcb Hba]] F [v [F1 F2]]].
    + exists []. split; constructor.
    + exists (b :: v). split; constructor; assumption.
Qed.

Section Limg.
  Context {B A : Type}.
  Variable R : B -> A -> Prop.
  Implicit Types L X Y : list B -> Prop.

  Lemma limg_none : forall L, (forall v, ~ L v) -> forall w, limg R L w <-> False.
  Proof. intros L HL w. split; [intros [v [H _]]; exact (HL v H) | tauto]. Qed.

  Lemma limg_nil : forall L, (forall v, L v <-> v = []) -> forall w, limg R L w <-> w = [].
  Proof.
    intros L HL w. split.
    - intros [v [H F]]. apply HL in H. subst v. inversion F. reflexivity.
    - intros ->. exists []. split; [apply HL; reflexivity | constructor].
  Qed.

  Lemma limg_one : forall L b, (forall v, L v <-> v = [b]) ->
    forall w, limg R L w <-> exists a, w = [a] /\ R b a.
  Proof.
    intros L b HL w. split.
    - intros [v [H F]]. apply HL in H. subst v. inversion F as [|? a ? m Ra F']; subst.
      inversion F'; subst. eauto.
    - intros [a [-> Ra]]. exists [b]. split; [apply HL; reflexivity | repeat constructor; exact Ra].
  Qed.

  Lemma limg_app : forall L X Y, (forall v, L v <-> exists x y, v = x ++ y /\ X x /\ Y y) ->
    forall w, limg R L w <-> exists u v, w = u ++ v /\ limg R X u /\ limg R Y v.
  Proof.
    intros L X Y HL w. split.
    - intros [v [H F]]. apply HL in H. destruct H as [x [y [-> [Hx Hy]]]].
      apply Forall2_app_inv_l in F. destruct F as [u' [v' [F1 [F2 ->]]]].
      exists u', v'. split; [reflexivity|]. split; [exists x | exists y]; auto.
    - intros [u [v [-> [[x [Hx F1]] [y [Hy F2]]]]]]. exists (x ++ y). split.
      + apply HL. eauto.
      + apply Forall2_app; assumption.
  Qed.

  Lemma limg_or : forall L X Y, (forall v, L v <-> X v \/ Y v) ->
    forall w, limg R L w <-> limg R X w \/ limg R Y w.
  Proof.
    intros L X Y HL w. split.
    - intros [v [H F]]. apply HL in H. destruct H; [left | right]; exists v; auto.
    - intros [[v [H F]]|[v [H F]]]; exists v; split; auto; apply HL; auto.
  Qed.

  Lemma limg_plus : forall L X, (forall v, L v <-> plusP X v) ->
    forall w, limg R L w <-> plusP (limg R X) w.
  Proof.
    intros L X HL w. split.
    - intros [v [H F]]. apply HL in H. revert w F.
      induction H as [u Hu|u v Hu Hv IH]; intros w F.
      + apply PP_one. exists u. auto.
      + apply Forall2_app_inv_l in F. destruct F as [u' [v' [F1 [F2 ->]]]].
        apply PP_more; [exists u; auto | apply IH; exact F2].
    - intros D. cut (exists v, plusP X v /\ Forall2 R v w).
      { intros [v [H F]]. exists v. split; [apply HL; exact H | exact F]. }
      induction D as [u [x [H F]]|u v [x [H F]] D [z [H2 F2]]].
      + exists x. split; [apply PP_one; exact H | exact F].
      + exists (x ++ z). split; [apply PP_more; assumption | apply Forall2_app; assumption].
  Qed.
End Limg.
