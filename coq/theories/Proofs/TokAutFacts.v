(** Facts about [Spec.TokAut]: the character-level reading of a token automaton accepts exactly
    the concatenations of token texts along accepting paths ([tacc_cacc], [cacc_tacc]); the set
    simulation [accepts_from] decides it; [disjoint] is sound (no common word) and [common_word]
    returns a genuine common word. *)
From CG Require Import Base.Prelude Spec.TokAut.

Section AutFacts.
  Variable Q : Type.
  Variable next : Q -> list (tok * Q).
  Variable final : Q -> bool.

  Notation cfg := (cfg Q).
  Notation cstep := (cstep Q next).
  Notation cfinal := (cfinal Q final).

  Inductive cacc : cfg -> string -> Prop :=
  | cacc_nil c : cfinal c = true -> cacc c EmptyString
  | cacc_cons c l c' a w :
      In (l, c') (cstep c) -> lab_ok l a = true -> cacc c' w -> cacc c (String a w).

  Notation tacc := (tacc Q next final).

  Lemma accepts_from_spec : forall w cs,
      accepts_from Q next final cs w = true <-> exists c, In c cs /\ cacc c w.
  Proof.
    induction w as [| a w IH]; intro cs; cbn [accepts_from].
    - rewrite existsb_exists. split.
      + intros [c [Hin Hf]]. exists c. split; [assumption | constructor; assumption].
      + intros [c [Hin Hc]]. exists c. split; [assumption |]. inversion Hc; assumption.
    - rewrite IH. split.
      + intros [c' [Hin Hc']]. apply in_flat_map in Hin. destruct Hin as [c [Hc Hin]].
        unfold cstep_on in Hin. apply in_map_iff in Hin. destruct Hin as [[l c1] [E Hin]].
        cbn [snd] in E. subst c1. apply filter_In in Hin. destruct Hin as [Hin Hl]. cbn [fst] in Hl.
        exists c. split; [assumption |]. econstructor; eassumption.
      + intros [c [Hin Hc]]. inversion Hc as [| c0 l c' a0 w0 Hs Hl Hc']; subst.
        exists c'. split; [| assumption]. apply in_flat_map. exists c. split; [assumption |].
        unfold cstep_on. apply in_map_iff. exists (l, c'). split; [reflexivity |].
        apply filter_In. split; assumption.
  Qed.

  Lemma start_moves_lit q a r q' :
    In (TLit (String a r), q') (next q) -> In (Some a, CTok r q') (start_moves Q next q).
  Proof.
    intro H. unfold start_moves. apply in_flat_map. exists (TLit (String a r), q').
    split; [assumption | left; reflexivity].
  Qed.

  Lemma start_moves_wild q q' :
    In (TWild, q') (next q) -> In (None, CWild q') (start_moves Q next q).
  Proof.
    intro H. unfold start_moves. apply in_flat_map. exists (TWild, q').
    split; [assumption | left; reflexivity].
  Qed.

  Lemma cacc_tok_rest q w : cacc (CTok EmptyString q) w -> forall r, cacc (CTok r q) (append r w).
  Proof.
    intros H r. induction r as [| b r IH]; [assumption |].
    cbn [append]. apply cacc_cons with (l := Some b) (c' := CTok r q).
    - left; reflexivity.
    - cbn. apply Ascii.eqb_refl.
    - assumption.
  Qed.

  Lemma cacc_wild_start q w : cacc (CTok EmptyString q) w -> cacc (CWild q) w.
  Proof.
    intro H. inversion H as [c Hf | c l c' a w0 Hs Hl Hc']; subst.
    - constructor. assumption.
    - apply cacc_cons with (l := l) (c' := c'); [right; assumption | assumption | assumption].
  Qed.

  Lemma cacc_wild_rest q w : cacc (CTok EmptyString q) w -> forall u, cacc (CWild q) (append u w).
  Proof.
    intros H u. induction u as [| b u IH]; [apply cacc_wild_start; assumption |].
    cbn [append]. apply cacc_cons with (l := None) (c' := CWild q);
      [left; reflexivity | reflexivity | assumption].
  Qed.

  Theorem tacc_cacc q w : tacc q w -> cacc (CTok EmptyString q) w.
  Proof.
    induction 1 as [q Hf | q t q' w Hin Ht _ IH | q q' u w Hin Hu _ IH].
    - constructor. assumption.
    - destruct t as [| a r]; [contradiction |]. cbn [append].
      apply cacc_cons with (l := Some a) (c' := CTok r q').
      + apply start_moves_lit. assumption.
      + cbn. apply Ascii.eqb_refl.
      + apply cacc_tok_rest. assumption.
    - destruct u as [| a u]; [contradiction |]. cbn [append].
      apply cacc_cons with (l := None) (c' := CWild q').
      + apply start_moves_wild. assumption.
      + reflexivity.
      + apply cacc_wild_rest. assumption.
  Qed.

  Lemma start_moves_inv q l c :
    In (l, c) (start_moves Q next q) ->
    (exists a r q', l = Some a /\ c = CTok r q' /\ In (TLit (String a r), q') (next q))
    \/ (exists q', l = None /\ c = CWild q' /\ In (TWild, q') (next q)).
  Proof.
    unfold start_moves. intro H. apply in_flat_map in H. destruct H as [[t q'] [Hin H]].
    cbn [fst snd] in H. destruct t as [[| a r] |].
    - destruct H.
    - destruct H as [E | []]. inversion E; subst. left. exists a, r, q'. repeat split; assumption.
    - destruct H as [E | []]. inversion E; subst. right. exists q'. repeat split; assumption.
  Qed.

  (** What a configuration accepts, in terms of the token-level language. *)
  Definition cfg_lang (c : cfg) (w : string) : Prop :=
    match c with
    | CTok r q => exists w', w = append r w' /\ tacc q w'
    | CWild q => exists u w', w = append u w' /\ tacc q w'
    end.

  Lemma append_nil_l (s : string) : append EmptyString s = s.
  Proof. reflexivity. Qed.

  Lemma from_start_moves q l c a w :
    In (l, c) (start_moves Q next q) -> lab_ok l a = true -> cfg_lang c w ->
    exists t w', String a w = append t w' /\ t <> EmptyString /\ tacc q (append t w').
  Proof.
    intros Hin Hl Hc. apply start_moves_inv in Hin.
    destruct Hin as [[b [r [q' [-> [-> Hin]]]]] | [q' [-> [-> Hin]]]].
    - cbn in Hl. apply Ascii.eqb_eq in Hl. subst b.
      destruct Hc as [w' [-> Hw']].
      exists (String a r), w'. split; [reflexivity | split; [discriminate |]].
      apply tacc_lit with (q' := q'); [assumption | discriminate | assumption].
    - destruct Hc as [u [w' [-> Hw']]].
      exists (String a u), w'. split; [reflexivity | split; [discriminate |]].
      apply tacc_wild with (q' := q'); [assumption | discriminate | assumption].
  Qed.

  Lemma cacc_lang c w : cacc c w -> cfg_lang c w.
  Proof.
    induction 1 as [c Hf | c l c' a w Hs Hl Hc' IH].
    - destruct c as [[| b r] q | q]; cbn [cfinal] in Hf; try discriminate; cbn [cfg_lang].
      + exists EmptyString. split; [reflexivity | constructor; assumption].
      + exists EmptyString, EmptyString. split; [reflexivity | constructor; assumption].
    - destruct c as [[| b r] q | q]; cbn [TokAut.cstep] in Hs; cbn [cfg_lang].
      + destruct (from_start_moves _ _ _ _ _ Hs Hl IH) as [t [w' [E [Ht Hacc]]]].
        exists (String a w). split; [reflexivity |]. rewrite E. assumption.
      + destruct Hs as [E | []]. inversion E; subst. cbn in Hl. apply Ascii.eqb_eq in Hl. subst b.
        destruct IH as [w' [-> Hw']]. exists w'. split; [reflexivity | assumption].
      + destruct Hs as [E | Hs].
        * inversion E; subst. destruct IH as [u [w' [-> Hw']]].
          exists (String a u), w'. split; [reflexivity | assumption].
        * destruct (from_start_moves _ _ _ _ _ Hs Hl IH) as [t [w' [E [Ht Hacc]]]].
          exists EmptyString, (String a w). split; [reflexivity |]. rewrite E. assumption.
  Qed.

  Theorem cacc_tacc q w : cacc (CTok EmptyString q) w -> tacc q w.
  Proof.
    intro H. apply cacc_lang in H. destruct H as [w' [-> Hw']]. assumption.
  Qed.

  Theorem taccepts_spec q w : taccepts Q next final q w = true <-> tacc q w.
  Proof.
    unfold taccepts. rewrite accepts_from_spec. split.
    - intros [c [[<- | []] Hc]]. apply cacc_tacc. assumption.
    - intro H. exists (CTok EmptyString q). split; [left; reflexivity | apply tacc_cacc; assumption].
  Qed.
End AutFacts.

Lemma cfg_eqb_sound Q (eq : Q -> Q -> bool) :
  (forall a b, eq a b = true -> a = b) -> forall c d, cfg_eqb Q eq c d = true -> c = d.
Proof.
  intros S c d. destruct c, d; cbn [cfg_eqb]; intro H; try discriminate.
  - apply andb_true_iff in H. destruct H as [Hr Hq]. apply String.eqb_eq in Hr. apply S in Hq. subst; reflexivity.
  - apply S in H. subst; reflexivity.
Qed.

Section ProductFacts.
  Variables Q1 Q2 : Type.
  Variable next1 : Q1 -> list (tok * Q1).
  Variable next2 : Q2 -> list (tok * Q2).
  Variable final1 : Q1 -> bool.
  Variable final2 : Q2 -> bool.
  Variable eq1 : Q1 -> Q1 -> bool.
  Variable eq2 : Q2 -> Q2 -> bool.
  Hypothesis eq1_sound : forall a b, eq1 a b = true -> a = b.
  Hypothesis eq2_sound : forall a b, eq2 a b = true -> a = b.

  Notation ppair := (ppair Q1 Q2).
  Notation pmem := (pmem Q1 Q2 eq1 eq2).
  Notation psucc := (psucc Q1 Q2 next1 next2).
  Notation pfinal := (pfinal Q1 Q2 final1 final2).

  Lemma pmem_In (p : ppair) l : pmem p l = true -> In p l.
  Proof.
    unfold TokAut.pmem. intro H. apply existsb_exists in H. destruct H as [x [Hin Hx]].
    unfold ppair_eqb in Hx. apply andb_true_iff in Hx. destruct Hx as [H1 H2].
    apply (cfg_eqb_sound Q1 eq1 eq1_sound) in H1. apply (cfg_eqb_sound Q2 eq2 eq2_sound) in H2.
    destruct p, x. cbn [fst snd] in *. subst. assumption.
  Qed.

  Lemma joint_ok l1 l2 a : lab_ok l1 a = true -> lab_ok l2 a = true ->
                           exists l, joint l1 l2 = Some l.
  Proof.
    destruct l1 as [b |], l2 as [c |]; cbn; intros H1 H2; eauto.
    apply Ascii.eqb_eq in H1. apply Ascii.eqb_eq in H2. subst.
    rewrite Ascii.eqb_refl. eauto.
  Qed.

  Lemma psucc_In (p : ppair) l1 c1 l2 c2 l :
    In (l1, c1) (cstep Q1 next1 (fst p)) -> In (l2, c2) (cstep Q2 next2 (snd p)) ->
    joint l1 l2 = Some l -> In (l, (c1, c2)) (psucc p).
  Proof.
    intros H1 H2 J. unfold TokAut.psucc. apply in_flat_map. exists (l1, c1). split; [assumption |].
    apply in_flat_map. exists (l2, c2). split; [assumption |]. cbn [fst snd]. rewrite J. left; reflexivity.
  Qed.

  (** A checked closed set of pairs that contains no accepting pair separates the languages. *)
  Lemma closed_sound r p0 :
    closed_ok Q1 Q2 next1 next2 final1 final2 eq1 eq2 r p0 = true ->
    forall w (p : ppair), In p r ->
                          cacc Q1 next1 final1 (fst p) w -> cacc Q2 next2 final2 (snd p) w -> False.
  Proof.
    unfold closed_ok. intro H. apply andb_true_iff in H. destruct H as [_ H].
    rewrite forallb_forall in H.
    induction w as [| a w IH]; intros p Hp H1 H2.
    - specialize (H p Hp). apply andb_true_iff in H. destruct H as [Hf _].
      inversion H1 as [c1 Hf1 |]; subst. inversion H2 as [c2 Hf2 |]; subst.
      unfold TokAut.pfinal in Hf. rewrite Hf1, Hf2 in Hf. discriminate.
    - specialize (H p Hp). apply andb_true_iff in H. destruct H as [_ Hs].
      rewrite forallb_forall in Hs.
      inversion H1 as [| c l1 c1 a1 w1 Hs1 Hl1 Hc1]; subst.
      inversion H2 as [| c l2 c2 a2 w2 Hs2 Hl2 Hc2]; subst.
      destruct (joint_ok _ _ _ Hl1 Hl2) as [l J].
      pose proof (psucc_In p _ _ _ _ _ Hs1 Hs2 J) as Hin.
      specialize (Hs _ Hin). cbn [snd] in Hs. apply pmem_In in Hs.
      apply (IH (c1, c2) Hs); assumption.
  Qed.

  Theorem disjoint_sound q1 q2 :
    disjoint Q1 Q2 next1 next2 final1 final2 eq1 eq2 q1 q2 = true ->
    forall w, ~ (TokAut.tacc Q1 next1 final1 q1 w /\ TokAut.tacc Q2 next2 final2 q2 w).
  Proof.
    unfold disjoint. destruct (search _ _ _ _ _ _ _ _ _ _ _) as [w0 | r |]; try discriminate.
    intros H w [H1 H2].
    assert (Hin : In (start_pair Q1 Q2 q1 q2) r).
    { unfold closed_ok in H. apply andb_true_iff in H. destruct H as [H _]. apply pmem_In. assumption. }
    apply (closed_sound r _ H w _ Hin); cbn [start_pair fst snd]; apply tacc_cacc; assumption.
  Qed.

  Theorem common_word_sound q1 q2 w :
    common_word Q1 Q2 next1 next2 final1 final2 eq1 eq2 q1 q2 = Some w ->
    TokAut.tacc Q1 next1 final1 q1 w /\ TokAut.tacc Q2 next2 final2 q2 w.
  Proof.
    unfold common_word. destruct (search _ _ _ _ _ _ _ _ _ _ _) as [w0 | r |]; try discriminate.
    destruct (taccepts Q1 next1 final1 q1 w0 && taccepts Q2 next2 final2 q2 w0) eqn:E; [| discriminate].
    intro H. inversion H; subst. apply andb_true_iff in E. destruct E as [E1 E2].
    split; apply taccepts_spec; assumption.
  Qed.
End ProductFacts.
