(** C16 on what the pipeline produces, --regex side: the well-built, covered arena of
    [Proofs/DotFromExpr.v] ([rgood]) seen through the view [Model/DotOfRegex.v] satisfies the
    executable hypotheses [rx_total_b] and [rx_wf_b] of [C16_regex_dot]. *)
From CG Require Import Base.Prelude Base.Facts Model.Dfa Model.Dot.
From CG Require Import Proofs.DotStates Proofs.DotRegex Proofs.DotRegexTotal.
From CG Require Model.Regex Model.DotOfRegex Proofs.FromExpr Proofs.DotFromExpr.
Import DotOfRegex.

Lemma conv_pool_assoc P : forall i rid,
  assocN rid (conv_pool_from i P) = if rid <? i then None else option_map conv_regex (nthN P (rid - i)).
Proof.
  induction P as [|r rest IH]; intros i rid; cbn [conv_pool_from assocN].
  - unfold nthN. destruct (N.to_nat (rid - i)); destruct (rid <? i); reflexivity.
  - destruct (rid =? i) eqn:E.
    + apply N.eqb_eq in E. subst. rewrite N.ltb_irrefl, N.sub_diag. reflexivity.
    + apply N.eqb_neq in E. rewrite IH. destruct (rid <? i) eqn:L.
      * apply N.ltb_lt in L. assert (H : rid <? N.succ i = true) by (apply N.ltb_lt; lia). now rewrite H.
      * apply N.ltb_ge in L. assert (H : rid <? N.succ i = false) by (apply N.ltb_ge; lia). rewrite H.
        unfold nthN. assert (Hs : rid - i = N.succ (rid - N.succ i)) by lia. rewrite Hs, N2Nat.inj_succ. reflexivity.
Qed.

Lemma conv_pool_lookup P rid : assocN rid (conv_pool P) = option_map conv_regex (nthN P rid).
Proof.
  unfold conv_pool. rewrite conv_pool_assoc. destruct (rid <? 0) eqn:L; [apply N.ltb_lt in L; lia|]. now rewrite N.sub_0_r.
Qed.

Lemma conv_pool_in P : forall i q, In q (conv_pool_from i P) -> exists sr, In sr P /\ snd q = conv_regex sr.
Proof.
  induction P as [|r rest IH]; intros i q H; [destruct H|]. cbn in H. destruct H as [<-|H].
  - exists r. split; [now left|reflexivity].
  - destruct (IH _ _ H) as [sr [A B]]. exists sr. split; [now right|exact B].
Qed.

Lemma node_ok_conv I P m x :
  DotFromExpr.nd_ok I P m x ->
  rx_node_ok (conv_pool P) (mkregex 0 (map conv_input I) []) m (conv_node x) = true.
Proof.
  destruct x; cbn [DotFromExpr.nd_ok conv_node rx_node_ok r_inputs]; try reflexivity.
  - intros [t [d [l [sp H]]]]. rewrite nthN_map, H. reflexivity.
  - intros [n [l [sp H]]]. rewrite nthN_map, H. reflexivity.
  - intros [c [z [l [sp H]]]]. rewrite nthN_map, H. reflexivity.
  - intros [rid [l [sp [H [sr Hs]]]]]. rewrite nthN_map, H. cbn. rewrite conv_pool_lookup, Hs. reflexivity.
  - intro H. apply forallb_forall. intros c Hc. apply N.ltb_lt. now apply H.
  - intro H. apply forallb_forall. intros c Hc. apply N.ltb_lt. now apply H.
Qed.

(** [rx_node_ok] only looks at the inputs of the regex *)
Lemma rx_node_ok_inputs pool r r' m x : r_inputs r = r_inputs r' -> rx_node_ok pool r m x = rx_node_ok pool r' m x.
Proof. intro E. destruct x; cbn [rx_node_ok]; rewrite ?E; reflexivity. Qed.

Lemma rx_nodes_ok_intro pool r l : forall n0,
  (forall k x, nth_error l k = Some x -> rx_node_ok pool r (n0 + N.of_nat k) x = true) ->
  rx_nodes_ok pool r n0 l = true.
Proof.
  induction l as [|y rest IH]; intros n0 H; [reflexivity|]. cbn [rx_nodes_ok]. apply andb_true_iff. split.
  - specialize (H 0%nat y eq_refl). now rewrite N.add_0_r in H.
  - apply IH. intros k x E. specialize (H (S k) x E). replace (n0 + 1 + N.of_nat k) with (n0 + N.of_nat (S k)) by lia. exact H.
Qed.

Lemma arena_ok_conv P r : DotFromExpr.rgood P r -> rx_arena_ok (conv_pool P) (conv_regex r) = true.
Proof.
  intros [Hroot [Hn _]]. unfold rx_arena_ok, conv_regex. cbn [r_root r_nodes]. apply andb_true_iff. split.
  - apply N.ltb_lt. now rewrite lenN_map.
  - apply rx_nodes_ok_intro. intros k x E. rewrite N.add_0_l.
    rewrite nth_error_map in E. destruct (nth_error (Regex.r_arena r) k) as [y|] eqn:Ey; [|discriminate]. injection E as <-.
    rewrite (rx_node_ok_inputs _ _ (mkregex 0 (map conv_input (Regex.r_inputs r)) [])) by reflexivity.
    apply node_ok_conv. apply Hn. unfold nthN. now rewrite Nat2N.id.
Qed.

Lemma flat_conv r : DotFromExpr.sgood r -> rx_flat_b (conv_regex r) = true.
Proof.
  intros [_ [Hn _]]. unfold rx_flat_b, conv_regex. cbn [r_nodes]. apply forallb_forall. intros x Hx.
  apply in_map_iff in Hx as [y [<- Hy]]. apply In_nth_error in Hy as [k Hk].
  assert (E : nthN (Regex.r_arena r) (N.of_nat k) = Some y) by (unfold nthN; now rewrite Nat2N.id).
  specialize (Hn _ _ E). destruct y; cbn [conv_node]; try reflexivity.
  cbn [DotFromExpr.nd_ok] in Hn. destruct Hn as [rid [l [sp [_ [sr Hs]]]]]. unfold nthN in Hs. destruct (N.to_nat rid); discriminate.
Qed.

Lemma reach_conv r n m : DotFromExpr.reach (Regex.r_arena r) n m -> reach_from (conv_regex r) n m.
Proof.
  induction 1 as [n|n l c m E Hc _ IH|n l c m E Hc _ IH].
  - constructor.
  - apply (rf_cat _ n l c m); [|exact Hc|exact IH]. unfold conv_regex. cbn [r_nodes]. now rewrite nthN_map, E.
  - apply (rf_or _ n l c m); [|exact Hc|exact IH]. unfold conv_regex. cbn [r_nodes]. now rewrite nthN_map, E.
Qed.

Lemma rx_reach_complete r :
  (forall m x, nthN (r_nodes r) m = Some x -> match x with RCat l | ROr l => forall c, In c l -> c < m | _ => True end) ->
  forall n m, reach_from r n m -> forall f, (N.to_nat n < f)%nat -> In m (rx_reach f r n).
Proof.
  intros Hlt n m H. induction H as [n|n l c m E Hc _ IH|n l c m E Hc _ IH]; intros f Hf.
  - destruct f; [lia|]. now left.
  - destruct f; [lia|]. cbn [rx_reach]. right. rewrite E. apply in_flat_map. exists c. split; [exact Hc|].
    apply IH. pose proof (Hlt n _ E c Hc). lia.
  - destruct f; [lia|]. cbn [rx_reach]. right. rewrite E. apply in_flat_map. exists c. split; [exact Hc|].
    apply IH. pose proof (Hlt n _ E c Hc). lia.
Qed.

Lemma rnode_leaf_eqb_refl inp p : rnode_leaf_eqb (rx_leaf_for inp p) (rx_leaf_for inp p) = true.
Proof. destruct inp; cbn; apply N.eqb_refl. Qed.

Lemma rx_cover_from_intro r reachl : forall inputs p0,
  (forall k inp, nth_error inputs k = Some inp ->
                 exists m, In m reachl /\ nthN (r_nodes r) m = Some (rx_leaf_for inp (p0 + N.of_nat k))) ->
  rx_cover_from r reachl p0 inputs = true.
Proof.
  induction inputs as [|inp rest IH]; intros p0 H; [reflexivity|]. cbn [rx_cover_from]. apply andb_true_iff. split.
  - destruct (H 0%nat inp eq_refl) as [m [Hm E]]. apply existsb_exists. exists m. split; [exact Hm|].
    rewrite E, N.add_0_r. apply rnode_leaf_eqb_refl.
  - apply IH. intros k i E. destruct (H (S k) i E) as [m [Hm En]]. exists m. split; [exact Hm|].
    rewrite En. do 2 f_equal. lia.
Qed.

Lemma leaf_conv inp p : conv_node (DotFromExpr.leaf_of inp p) = rx_leaf_for (conv_input inp) p.
Proof. destruct inp; reflexivity. Qed.

Lemma cover_conv P r : DotFromExpr.rgood P r -> rx_cover_b (conv_regex r) = true.
Proof.
  intros [Hroot [Hn Hc]]. unfold rx_cover_b. apply rx_cover_from_intro. intros k inp E. rewrite N.add_0_l.
  unfold conv_regex in E. cbn [r_inputs] in E. rewrite nth_error_map in E.
  destruct (nth_error (Regex.r_inputs r) k) as [i0|] eqn:Ei; [|discriminate]. injection E as <-.
  destruct (Hc (N.of_nat k) i0) as [m [Hr Hm]]; [unfold nthN; now rewrite Nat2N.id|].
  exists m. split.
  - apply (rx_reach_complete (conv_regex r)); [|now apply reach_conv|].
    + intros m' x Ex. unfold conv_regex in Ex. cbn [r_nodes] in Ex. rewrite nthN_map in Ex.
      destruct (nthN (Regex.r_arena r) m') as [y|] eqn:Ey; [|discriminate]. injection Ex as <-.
      specialize (Hn _ _ Ey). destruct y; cbn [conv_node]; try exact I; exact Hn.
    + unfold conv_regex. cbn [r_nodes r_root]. rewrite map_length. unfold lenN in Hroot. lia.
  - unfold conv_regex. cbn [r_nodes]. rewrite nthN_map, Hm. cbn [option_map]. now rewrite leaf_conv.
Qed.

Theorem rgood_rx_hyps P r :
  DotFromExpr.rgood P r -> Forall DotFromExpr.sgood P ->
  rx_total_b (conv_pool P) (conv_regex r) = true /\ rx_wf_b (conv_pool P) (conv_regex r) = true.
Proof.
  intros Hr Hp. rewrite Forall_forall in Hp.
  assert (Hq : forall q, In q (conv_pool P) -> exists sr, DotFromExpr.sgood sr /\ snd q = conv_regex sr).
  { intros q Hq. destruct (conv_pool_in P 0 q Hq) as [sr [A B]]. exists sr. split; [now apply Hp|exact B]. }
  assert (Hmono : forall sr, DotFromExpr.sgood sr -> DotFromExpr.rgood P sr).
  { intros sr [A [B C]]. split; [exact A|]. split; [|exact C]. intros m x E.
    apply (DotFromExpr.nd_ok_mono (Regex.r_inputs sr) (Regex.r_inputs sr) [] P m x (FromExpr.prefix_refl _));
      [exists P; reflexivity|now apply B]. }
  split.
  - unfold rx_total_b. rewrite (arena_ok_conv P r Hr). cbn [andb]. apply forallb_forall. intros q Hin.
    destruct (Hq q Hin) as [sr [Hs ->]]. rewrite (arena_ok_conv P sr (Hmono sr Hs)), (flat_conv sr Hs). reflexivity.
  - unfold rx_wf_b. rewrite (cover_conv P r Hr). cbn [andb]. apply forallb_forall. intros q Hin.
    destruct (Hq q Hin) as [sr [Hs ->]]. rewrite (flat_conv sr Hs), (cover_conv [] sr Hs). reflexivity.
Qed.

Theorem from_expr_rx_hyps e pl r pl' :
  TreeFacts.flat_subwords e = true -> Forall DotFromExpr.sgood pl -> Regex.from_expr e pl = Ok (r, pl') ->
  rx_total_b (conv_pool pl') (conv_regex r) = true /\ rx_wf_b (conv_pool pl') (conv_regex r) = true.
Proof.
  intros Hf Hp H. destruct (DotFromExpr.from_expr_rgood e pl r pl' Hf Hp H) as [A B]. now apply rgood_rx_hyps.
Qed.
