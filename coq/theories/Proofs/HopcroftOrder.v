(** Independence of the hash-iteration orders.  The Rust loop pops an arbitrary element of the
    work-list ([worklist.iter().next()]), walks the per-input preimages in an arbitrary order
    ([transitions_to_group.values()]) and collects the overlapping groups in an arbitrary order
    ([partitions.iter()]).  [run_any] allows every such choice; every run ends in the Nerode
    partition (Proofs/HopcroftLoop.v), so any two runs end in the same partition, and the run of
    the model (which takes list order) is one of them ([model_run_any]). *)
From Coq Require Import Permutation.
From CG Require Import Base.Prelude Model.Dfa Model.Minimize Spec.DfaEquiv Spec.MinimizeSpec
  Base.Facts Proofs.MinimizeBasics Proofs.HopcroftAbs Proofs.HopcroftSim.

Definition refine_perm (A : astate) (X : list N) (A' : astate) : Prop :=
  exists l, Permutation l (aov A X) /\ A' = fold_left (fun A B => asplit A X B) l A.

Inductive refine_seq : list (list N) -> astate -> astate -> Prop :=
| rs_nil A : refine_seq [] A A
| rs_cons X Xs A A1 A' : refine_perm A X A1 -> refine_seq Xs A1 A' -> refine_seq (X :: Xs) A A'.

Definition splitters (image : list transition) (G : list N) : list (list N) :=
  match bm_min G, bm_max G with
  | Some gmin, Some gmax =>
      match find_bounds image gmin gmax with
      | Some ts => map snd (transitions_to_group ts G)
      | None => []
      end
  | _, _ => []
  end.

Definition iteration_any (image : list transition) (A A' : astate) : Prop :=
  exists G Xs, In (G, true) A /\ Permutation Xs (splitters image G) /\ refine_seq Xs (aclear G A) A'.

Inductive run_any (image : list transition) : astate -> astate -> Prop :=
| ra_stop A : (forall b, ~ In (b, true) A) -> run_any image A A
| ra_step A A1 A' : iteration_any image A A1 -> run_any image A1 A' -> run_any image A A'.

Lemma refine_seq_arefine Xs : forall A, refine_seq Xs A (fold_left arefine Xs A).
Proof.
  induction Xs as [|X r IH]; intro A; cbn [fold_left]; [constructor|].
  econstructor; [|apply IH]. exists (aov A X). split; [apply Permutation_refl|reflexivity].
Qed.

Section Order.
  Variable U : list N.

  Lemma refine_perm_spec X (Q : astate -> Prop) A A' :
    SplitPres U X Q -> APart U A -> Q A -> refine_perm A X A' ->
    APart U A' /\ Q A' /\ refines A' A /\ homog A' X.
  Proof.
    intros HQ P Q0 [l [Pl ->]].
    destruct (arefine_gen U X Q HQ l A P) as [P' [Q' [R' Hb]]]; auto.
    - apply (Permutation_NoDup (Permutation_sym Pl)). unfold aov. apply NoDup_filter, (ap_nodup _ _ P).
    - intros B HB. apply aov_In. apply (Permutation_in _ Pl). exact HB.
    - split; [exact P'|]. split; [exact Q'|]. split; [exact R'|]. intros x y H. split.
      + destruct H as [b [Hb' [Hx Hy]]]. intro HxX.
        destruct (Hb b Hb') as [[I1 I2]|[I|I]].
        * exfalso. apply I2. apply (Permutation_in _ (Permutation_sym Pl)).
          apply aov_In. split; [exact I1|]. exists x. auto.
        * auto.
        * exfalso. exact (I x Hx HxX).
      + destruct H as [b [Hb' [Hx Hy]]]. intro HyX.
        destruct (Hb b Hb') as [[I1 I2]|[I|I]].
        * exfalso. apply I2. apply (Permutation_in _ (Permutation_sym Pl)).
          apply aov_In. split; [exact I1|]. exists y. auto.
        * auto.
        * exfalso. exact (I y Hy HyX).
  Qed.

  Lemma refine_seq_spec (Q : astate -> Prop) Xs A A' :
    refine_seq Xs A A' ->
    (forall X, In X Xs -> SplitPres U X Q) -> APart U A -> Q A ->
    APart U A' /\ Q A' /\ refines A' A /\ (forall X, In X Xs -> homog A' X).
  Proof.
    induction 1 as [A|X Xs A A1 A' H1 Hr IH]; intros HQ P Q0.
    - split; [exact P|]. split; [exact Q0|]. split; [apply refines_refl|]. intros X [].
    - destruct (refine_perm_spec X Q A A1 (HQ X (or_introl eq_refl)) P Q0 H1) as [P1 [Q1 [R1 Hh1]]].
      destruct (IH (fun X' H => HQ X' (or_intror H)) P1 Q1) as [P' [Q' [R' H']]].
      split; [exact P'|]. split; [exact Q'|]. split; [eapply refines_trans; eassumption|].
      intros X' [E|HX'].
      + subst. eapply homog_refines; eassumption.
      + apply H'. exact HX'.
  Qed.

  Variable image : list transition.

  Lemma process_group_sim h gid G :
    Good U h -> pool_lookup (h_pool h) gid = Some G -> G <> [] ->
    exists h', process_group image h gid = Ok h' /\ Good U h'
               /\ refine_seq (splitters image G) (abs h) (abs h').
  Proof.
    intros Gd LG Hne. unfold process_group, splitters. rewrite LG.
    destruct (bm_min_some G Hne) as [mn ->]. destruct (bm_max_some G Hne) as [mx ->].
    destruct (find_bounds image mn mx) as [ts|].
    - destruct (ofold_refine_sim U (map snd (transitions_to_group ts G)) h Gd) as [h' [E [G' [A' _]]]].
      exists h'. split; [exact E|]. split; [exact G'|]. rewrite A'. apply refine_seq_arefine.
    - exists h. split; [reflexivity|]. split; [exact Gd|constructor].
  Qed.

  Lemma pop_sim h gid rest :
    Good U h -> h_work h = gid :: rest ->
    exists h', process_group image (mkhop (h_pool h) (h_parts h) (hs_remove gid (h_work h))) gid = Ok h'
               /\ Good U h' /\ iteration_any image (abs h) (abs h').
  Proof.
    intros Gd Ew.
    assert (Hgw : In gid (h_work h)) by (rewrite Ew; left; reflexivity).
    assert (Hgp : In gid (h_parts h)) by (apply (g_work _ _ Gd); exact Hgw).
    destruct (good_lookup U h gid Gd Hgp) as [G [LG [NG _]]].
    destruct (abs_pop U h gid G Gd Hgp LG) as [Gd1 A1].
    destruct (process_group_sim _ gid G Gd1 LG NG) as [h' [E [Gd' Hs]]].
    exists h'. split; [exact E|]. split; [exact Gd'|].
    exists G, (splitters image G). split; [|split; [apply Permutation_refl|rewrite <- A1; exact Hs]].
    apply abs_In. exists gid. split; [exact Hgp|]. split; [apply content_lookup, LG|apply memN_In, Hgw].
  Qed.

  Theorem model_run_any fuel : forall h h',
    Good U h -> hopcroft_loop fuel image h = Ok h' -> Good U h' /\ run_any image (abs h) (abs h').
  Proof.
    induction fuel as [|f IH]; intros h h' Gd E; cbn [hopcroft_loop] in E; [discriminate|].
    destruct (h_work h) as [|gid rest] eqn:Ew.
    - inversion E; subst. split; [exact Gd|]. apply ra_stop, abs_work_nil, Ew.
    - rewrite <- Ew in E. destruct (pop_sim h gid rest Gd Ew) as [h2 [E2 [Gd2 It]]].
      rewrite E2 in E. cbn [obind] in E. destruct (IH h2 h' Gd2 E) as [Gd' R].
      split; [exact Gd'|]. exact (ra_step image _ _ _ It R).
  Qed.
End Order.
