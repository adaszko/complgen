(** The span lists carried by checker errors are never empty, so [handle_error] prints at least one
    message for every located error ([Proofs/MainRun.v]: exit 1 comes with a diagnostic). *)
From CG Require Import Base.Prelude Model.Ast Model.Check Spec.Choice Spec.Mistakes.
From CG Require Import Proofs.CheckChoice Proofs.CheckMistakes Proofs.CheckLemmas Proofs.CheckWarnings.
From CG Require Import Proofs.CheckCycle Proofs.CheckTotal Proofs.CheckFront Proofs.CheckCycleSpec.
From CG Require Import Proofs.CheckProvenance.
Open Scope list_scope.

Definition err_nonempty (e : Check.cerror) : Prop :=
  match e with
  | VaryingCommandNames spans | NonterminalDefinitionsCycle spans => spans <> []
  | _ => True
  end.

Theorem from_grammar_err_nonempty builtins g sh e :
  from_grammar builtins g sh = Err e -> err_nonempty e.
Proof.
  intro H. pose proof (errors_provenance builtins g sh e H) as Prov.
  destruct e; try exact Logic.I.
  - (* [VaryingCommandNames]: of the seven ways in which [from_grammar] fails, only the second
       builds this error, from a list of at least two spans; the class of the error rules out
       the other six *)
    apply from_grammar_err in H.
    destruct H as [[_ H]|[(c & sp & m & more & _ & H)|[(c & sp & _ & H)|[H|[H|[[us H]|H]]]]]];
      try discriminate.
    + inversion H. discriminate.
    + apply (collect_plain_defs_prov sh (all_defs g) [] []) in H; [destruct H|intros d []].
    + apply (get_user_specs_prov sh (all_defs g) [] []) in H; [destruct H|intros n s []].
    + apply (get_fallback_specs_prov sh (map fst us) (all_defs g) [] []) in H; [destruct H|intros n c s []].
    + destruct H as (command & defs0 & us & fs & _ & H). apply back_end_err in H.
      destruct H as [H|(ord & _ & H)].
      * apply resolution_order_err_cycle in H. destruct H as [[spans' H] _]. discriminate.
      * apply spaces_err_kind in H. destruct H.
  - cbn in Prov. destruct Prov as (nsp & rest & -> & _). discriminate.
Qed.

