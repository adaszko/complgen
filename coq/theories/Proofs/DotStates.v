(** C16: the states the DFA printer enumerates (start, then the non-accepting states of the bitmap
    built by [get_all_states], then the accepting states) are, up to order, the states the
    specification enumerates; the numbering of within-word automata computed by [get_subwords] is the
    one the specification prescribes. *)
From Coq Require Import Permutation Sorted.
From CG Require Import Base.Prelude Base.Facts Proofs.ListFacts Model.Dfa Spec.DotRead Spec.DotSpec Model.Dot.
From CG Require Model.Minimize Proofs.MinimizeBasics.

(** [insert_sorted] is [bm_insert] of Model/Minimize.v under another name *)
Lemma insert_sorted_in x l z : In z (insert_sorted x l) <-> z = x \/ In z l.
Proof. change (insert_sorted x l) with (Minimize.bm_insert x l). apply MinimizeBasics.bm_insert_In. Qed.

Lemma insert_sorted_sorted x l :
  StronglySorted N.lt l -> StronglySorted N.lt (insert_sorted x l).
Proof.
  induction 1 as [|y r Hr IH Hy]; cbn.
  - constructor; [constructor|constructor].
  - destruct (x <? y) eqn:E1.
    + apply N.ltb_lt in E1. constructor; [constructor; assumption|].
      constructor; [exact E1|]. rewrite Forall_forall in *. intros z Hz. specialize (Hy z Hz). lia.
    + destruct (x =? y) eqn:E2; [constructor; assumption|].
      apply N.ltb_ge in E1. apply N.eqb_neq in E2. constructor; [exact IH|].
      rewrite Forall_forall in *. intros z Hz. apply insert_sorted_in in Hz as [->|Hz]; [lia|now apply Hy].
Qed.

Lemma sorted_nodup l : StronglySorted N.lt l -> NoDup l.
Proof.
  induction 1 as [|y r Hr IH Hy]; constructor; [|exact IH].
  intro H. rewrite Forall_forall in Hy. specialize (Hy y H). lia.
Qed.

Definition bitmap (l : list N) : list N := fold_left (fun acc x => insert_sorted x acc) l [].

Lemma bitmap_gen l : forall acc, StronglySorted N.lt acc ->
  StronglySorted N.lt (fold_left (fun acc x => insert_sorted x acc) l acc)
  /\ forall z, In z (fold_left (fun acc x => insert_sorted x acc) l acc) <-> In z l \/ In z acc.
Proof.
  induction l as [|x r IH]; intros acc Hs; cbn.
  - split; [exact Hs|]. intuition.
  - destruct (IH (insert_sorted x acc) (insert_sorted_sorted x acc Hs)) as [H1 H2]. split; [exact H1|].
    intro z. rewrite H2, insert_sorted_in. intuition.
Qed.

Lemma bitmap_in l z : In z (bitmap l) <-> In z l.
Proof. unfold bitmap. destruct (bitmap_gen l [] (SSorted_nil _)) as [_ H]. rewrite H. cbn. intuition. Qed.

Lemma bitmap_nodup l : NoDup (bitmap l).
Proof. apply sorted_nodup. apply (bitmap_gen l [] (SSorted_nil _)). Qed.

Lemma bitmap_sorted l : StronglySorted N.lt (bitmap l).
Proof. apply (bitmap_gen l [] (SSorted_nil _)). Qed.

Lemma dedup_go_in l : forall seen z, In z (dedup_go seen l) <-> In z l /\ ~ In z seen.
Proof.
  induction l as [|x r IH]; intros seen z; cbn.
  - intuition.
  - destruct (memN x seen) eqn:E.
    + apply memN_In in E. rewrite IH. split; [intuition|]. intros [[->|H] Hn]; [contradiction|intuition].
    + apply memN_false in E. cbn. rewrite IH. cbn. split.
      * intros [->|[H Hn]]; [intuition|]. split; [now right|]. intro Hs. apply Hn. now right.
      * intros [[->|H] Hn]; [now left|]. destruct (N.eq_dec x z) as [->|Hne]; [now left|].
        right. split; [exact H|]. intros [Hx|Hs]; [contradiction|contradiction].
Qed.

Lemma dedup_go_nodup l : forall seen, NoDup (dedup_go seen l).
Proof.
  induction l as [|x r IH]; intro seen; cbn; [constructor|].
  destruct (memN x seen); [apply IH|]. constructor; [|apply IH].
  intro H. apply dedup_go_in in H as [_ H]. apply H. now left.
Qed.

Lemma dedup_in l z : In z (dedup l) <-> In z l.
Proof. unfold dedup. rewrite dedup_go_in. cbn. intuition. Qed.

Lemma dedup_nodup l : NoDup (dedup l).
Proof. apply dedup_go_nodup. Qed.

Lemma nodupb_NoDup l : nodupb l = true -> NoDup l.
Proof.
  induction l as [|x r IH]; cbn; intro H; constructor.
  - apply andb_true_iff in H as [H _]. apply negb_true_iff in H. now apply memN_false.
  - apply andb_true_iff in H as [_ H]. now apply IH.
Qed.

(** the printer's enumeration of the states, in the [patched] variant: no unconditional state 0 *)
Definition regular (d : dfa) : list N :=
  filter (fun s => negb (memN s (d_accepting d)) && negb (s =? d_start d)) (get_all_states patched d).

Definition acc_rest (d : dfa) : list N :=
  filter (fun a => negb (a =? d_start d)) (d_accepting d).

Definition st_list (d : dfa) : list N := (d_start d :: regular d ++ acc_rest d)%list.

Lemma all_states_patched d : get_all_states patched d = bitmap (trans_states d).
Proof. reflexivity. Qed.

Lemma regular_in d s :
  In s (regular d) <-> In s (trans_states d) /\ ~ In s (d_accepting d) /\ s <> d_start d.
Proof.
  unfold regular. rewrite filter_In, all_states_patched, bitmap_in, andb_true_iff, !negb_true_iff.
  rewrite memN_false, N.eqb_neq. intuition.
Qed.

Lemma acc_rest_in d s : In s (acc_rest d) <-> In s (d_accepting d) /\ s <> d_start d.
Proof. unfold acc_rest. rewrite filter_In, negb_true_iff, N.eqb_neq. intuition. Qed.

Lemma st_list_in d s :
  In s (st_list d) <-> s = d_start d \/ In s (trans_states d) \/ In s (d_accepting d).
Proof.
  unfold st_list. cbn [In]. rewrite in_app_iff, regular_in, acc_rest_in.
  destruct (N.eq_dec s (d_start d)) as [->|Hne]; [intuition|].
  destruct (in_dec N.eq_dec s (d_accepting d)); intuition.
Qed.

Lemma st_list_nodup d : NoDup (d_accepting d) -> NoDup (st_list d).
Proof.
  intro Ha. unfold st_list. constructor.
  - rewrite in_app_iff, regular_in, acc_rest_in. intuition.
  - apply NoDup_app. split; [|split].
    + apply NoDup_filter. rewrite all_states_patched. apply bitmap_nodup.
    + now apply NoDup_filter.
    + intros s H1 H2. apply regular_in in H1. apply acc_rest_in in H2. intuition.
Qed.

Lemma st_list_perm d : NoDup (d_accepting d) -> Permutation (st_list d) (states d).
Proof.
  intro Ha. apply NoDup_Permutation.
  - now apply st_list_nodup.
  - apply dedup_nodup.
  - intro s. rewrite st_list_in. unfold states. rewrite dedup_in. cbn [In]. rewrite in_app_iff. intuition.
Qed.

(** the accepting states that are neither the start state nor regular: all but the start state *)
Lemma acc_unseen d :
  filter (fun s => negb (memN s (d_start d :: regular d))) (d_accepting d) = acc_rest d.
Proof.
  apply filter_ext_in. intros a Ha. f_equal. cbn [memN existsb]. fold (memN a (regular d)).
  replace (memN a (regular d)) with false; [apply orb_false_r|]. symmetry. apply memN_false.
  intro H. apply regular_in in H. tauto.
Qed.

Definition uses (d : dfa) (ts : list (N * N * N)) : list N :=
  flat_map (fun t : N * N * N =>
              match nthN (d_inputs d) (snd (fst t)) with
              | Some (ISub k _) => [k]
              | _ => []
              end) ts.

Definition in_range (d : dfa) (t : N * N * N) : bool :=
  match nthN (d_inputs d) (snd (fst t)) with Some _ => true | None => false end.

Lemma get_subwords_go_spec d : forall ts next acc seen,
  forallb (in_range d) ts = true ->
  (forall x, memN x seen = match assocN x acc with Some _ => true | None => false end) ->
  get_subwords_go d ts next acc = Ok (acc ++ number_from next (dedup_go seen (uses d ts))).
Proof.
  induction ts as [|[[f i] to] r IH]; intros next acc seen Hr Hinv.
  - cbn. now rewrite app_nil_r.
  - cbn [forallb] in Hr. apply andb_true_iff in Hr as [Hi Hr]. unfold in_range in Hi. cbn [fst snd] in Hi.
    cbn [get_subwords_go uses flat_map fst snd]. unfold get_input.
    destruct (nthN (d_inputs d) i) as [x|] eqn:Ex; [|discriminate]. cbn [obind].
    destruct x as [t' dd l|sub l|cm l|cm l|]; cbn [app];
      try (exact (IH next acc seen Hr Hinv)).
    cbn [dedup_go]. rewrite (Hinv sub).
    destruct (assocN sub acc) as [v|] eqn:Ea.
    + exact (IH next acc seen Hr Hinv).
    + cbn [number_from]. rewrite (IH (next + 1) (acc ++ [(sub, next)]) (sub :: seen) Hr).
      * now rewrite <- app_assoc.
      * intro x. cbn [memN existsb]. rewrite assocN_app. cbn [assocN].
        fold (memN x seen). rewrite (Hinv x).
        destruct (assocN x acc); [now rewrite orb_true_r|]. rewrite orb_false_r. now destruct (x =? sub).
Qed.

Lemma get_subwords_spec d base :
  inputs_in_range d = true -> get_subwords d base = Ok (sub_ids base d).
Proof.
  intro H. unfold get_subwords.
  rewrite (get_subwords_go_spec d (iter_transitions d) base [] []); [reflexivity|exact H|reflexivity].
Qed.

Lemma number_from_in l : forall n k id, In (k, id) (number_from n l) -> In k l.
Proof.
  induction l as [|x r IH]; intros n k id H; [exact H|]. cbn in H. destruct H as [H|H].
  - injection H as -> _. now left.
  - right. exact (IH _ _ _ H).
Qed.

Lemma number_from_ids l : forall n, NoDup (map snd (number_from n l))
                                    /\ forall k id, In (k, id) (number_from n l) -> n <= id.
Proof.
  induction l as [|x r IH]; intro n; cbn.
  - split; [constructor|intros ? ? []].
  - destruct (IH (n + 1)) as [H1 H2]. split.
    + constructor; [|exact H1]. intro H. apply in_map_iff in H as [[k id] [E Hin]]. cbn in E. subst id.
      specialize (H2 _ _ Hin). lia.
    + intros k id [H|H]; [injection H as _ <-; lia|]. specialize (H2 _ _ H). lia.
Qed.

Lemma number_from_fst l : forall n, map fst (number_from n l) = l.
Proof. induction l as [|x r IH]; intro n; cbn; [reflexivity|]. now rewrite IH. Qed.

Lemma uses_in d ts k : In k (uses d ts) -> exists t l, In t ts /\ nthN (d_inputs d) (snd (fst t)) = Some (ISub k l).
Proof.
  unfold uses. rewrite in_flat_map. intros [t [Ht Hk]]. exists t.
  destruct (nthN (d_inputs d) (snd (fst t))) as [[| k' l | | |]|]; try destruct Hk.
  - subst. exists l. now split.
  - destruct H.
Qed.
