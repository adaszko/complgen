(** Totality of the parser model on arbitrary input bytes: [parse_with c s] is [Ok] or [Err], never
    [Panic] (no panic site exists in the model of parse.rs) and never [OutOfFuel] (the fuel
    [parse_with] gives itself always suffices: every loop round and every bracket nesting consumes
    at least one byte).  Holds for every configuration [c] of the terminal lexer. *)
From CG Require Import Base.Prelude Base.Facts Model.Ast Model.Lexer Model.Parser Spec.Printer Spec.Spans
  Proofs.LexBase Proofs.LexBlanks Proofs.LexTerminal Proofs.LexCommand.
From CGgen Require Import Consts.

Definition len (i : input) : nat := String.length (rest i).

(** the result is [Ok] or [Err], and an [Ok] result has consumed input ([strict]: at least a byte) *)
Definition fine {A} (strict : bool) (i : input) (x : pres A) : Prop :=
  match x with
  | Ok (_, i') => if strict then (len i' < len i)%nat else (len i' <= len i)%nat
  | Err _ => True
  | _ => False
  end.

Lemma fine_weaken : forall A (i : input) (x : pres A), fine true i x -> fine false i x.
Proof. intros A i [[a j]| | |]; cbn; auto. lia. Qed.

Lemma fine_lt : forall A (i : input) (x : pres A) a i', fine true i x -> x = Ok (a, i') -> (len i' < len i)%nat.
Proof. intros A i x a i' F ->. exact F. Qed.

Lemma fine_bind_s : forall A B (i : input) (x : pres A) (f : A * input -> pres B),
    fine true i x -> (forall a i1, (len i1 < len i)%nat -> fine false i1 (f (a, i1))) -> fine true i (obind x f).
Proof.
  intros A B i [[a i1]| | |] f H1 H2; cbn [obind fine] in *; auto.
  specialize (H2 a i1 H1). destruct (f (a, i1)) as [[b i2]| | |]; cbn [fine] in *; auto. lia.
Qed.

Lemma fine_bind_l : forall A B s (i : input) (x : pres A) (f : A * input -> pres B),
    fine false i x -> (forall a i1, (len i1 <= len i)%nat -> fine s i1 (f (a, i1))) -> fine s i (obind x f).
Proof.
  intros A B s i [[a i1]| | |] f H1 H2; cbn [obind fine] in *; auto.
  specialize (H2 a i1 H1). destruct (f (a, i1)) as [[b i2]| | |]; cbn [fine] in *; auto. destruct s; lia.
Qed.

Lemma fine_ok : forall A (i : input) (a : A), fine false i (Ok (a, i)).
Proof. intros. cbn. lia. Qed.

Lemma fine_alt : forall A s (i : input) (x y : pres A), fine s i x -> fine s i y -> fine s i (x <|> y).
Proof. intros A s i [[a j]| | |] y Hx Hy; cbn in *; auto. Qed.

Lemma fine_err : forall A s (i : input) u, fine (A := A) s i (Err u).
Proof. intros. exact I. Qed.

Lemma adv_len : forall i i', adv i i' -> (len i' <= len i)%nat.
Proof. intros i i' (w & E & _). unfold len. rewrite E, length_append. lia. Qed.

Lemma char_p_fine : forall c i, fine true i (char_p c i).
Proof.
  intros c [s p]. unfold char_p. cbn [rest at_]. destruct s as [|d r]; [exact I|].
  destruct (Ascii.eqb d c); [|exact I]. cbn. lia.
Qed.

Lemma tag_p_fine : forall t i, t <> EmptyString -> fine true i (tag_p t i).
Proof.
  intros t [s p] Ht. unfold tag_p. cbn [rest at_]. destruct (strip_prefix t s) as [r|] eqn:E; [|exact I].
  apply strip_prefix_app in E. subst s. cbn. unfold len. cbn [rest]. rewrite length_append.
  destruct t; [congruence|]. cbn. lia.
Qed.

Lemma take_while1_fine : forall p i, fine true i (take_while1 p i).
Proof.
  intros p [s q]. unfold take_while1, take_while. cbn [rest at_]. destruct (span_while p s) as [a b] eqn:E.
  destruct a; [exact I|]. cbn. unfold len. cbn [rest]. rewrite (span_while_len _ _ _ _ E). cbn. lia.
Qed.

Lemma multiblanks0_fine : forall i, fine false i (multiblanks0 i).
Proof. intros. rewrite multiblanks0_spec. cbn. apply adv_len, skip_adv. Qed.

Lemma multiblanks1_fine : forall i, fine true i (multiblanks1 i).
Proof.
  intros. rewrite multiblanks1_spec. pose proof (blanks_spec i) as B.
  destruct (hd_is blank_start (rest i)); [|exact I].
  destruct B as (i1 & _ & S1 & L1). cbn. rewrite <- S1.
  pose proof (adv_len _ _ (skip_adv i1)). unfold len in *. lia.
Qed.

Lemma terminal_fine : forall c i, fine true i (terminal c i).
Proof.
  intros [rb re] [s p]. unfold terminal. cbn [reset_after_backslash reset_after_escaped]. rewrite terminal_spec.
  destruct (lex1 rb re s p) as [[t [r q]]|] eqn:E; [|exact I].
  destruct (lex1_ok rb re _ s p (Nat.le_refl _) _ _ _ E) as [L _].
  destruct t; [exact I|]. cbn in *. unfold len. cbn [rest]. lia.
Qed.

Lemma parse_fragment_fine : forall i, fine true i (parse_fragment i).
Proof.
  intros i. unfold parse_fragment, parse_escaped_char, parse_escaped_whitespace.
  apply fine_alt; [|apply fine_alt].
  - apply fine_bind_s; [apply take_while1_fine|]. intros. apply fine_ok.
  - apply fine_bind_s; [|intros; apply fine_ok].
    apply fine_bind_s; [apply char_p_fine|]. intros a i1 _. apply fine_weaken.
    apply fine_alt; (apply fine_bind_s; [apply char_p_fine|]; intros; apply fine_ok).
  - apply fine_bind_s; [|intros; apply fine_ok].
    apply fine_bind_s; [apply char_p_fine|]. intros a i1 _. apply fine_weaken.
    apply fine_bind_s; [apply take_while1_fine|]. intros. apply fine_ok.
Qed.

Lemma description_inner_f_fine : forall fuel i, (len i < fuel)%nat -> fine false i (description_inner_f fuel i).
Proof.
  induction fuel; intros i H; [lia|]. cbn [description_inner_f].
  pose proof (parse_fragment_fine i) as F.
  destruct (parse_fragment i) as [[fr i1]| | |]; cbn [fine] in F; try contradiction.
  - apply fine_bind_l; [|intros; apply fine_ok].
    specialize (IHfuel i1 ltac:(lia)).
    destruct (description_inner_f fuel i1) as [[m i2]| | |]; cbn [fine] in *; auto; try lia.
  - cbn. lia.
Qed.

Lemma description_fine : forall i, fine true i (description i).
Proof.
  intros i. unfold description.
  apply fine_bind_s; [apply char_p_fine|]. intros a i1 _.
  apply fine_bind_l; [apply description_inner_f_fine; unfold len; lia|]. intros d i2 _.
  apply fine_weaken, fine_bind_s; [apply char_p_fine|]. intros. apply fine_ok.
Qed.

Lemma opt_description_fine : forall i, fine false i (opt_description i).
Proof.
  intros i. unfold opt_description.
  assert (F : fine false i (do (_, i1) <- multiblanks0 i; description i1)).
  { apply fine_bind_l; [apply multiblanks0_fine|]. intros a i1 _. apply fine_weaken, description_fine. }
  destruct (do (_, i1) <- multiblanks0 i; description i1) as [[d i2]| | |]; cbn [fine] in *; auto; try lia.
Qed.

Lemma nonterm_fine : forall i, fine true i (nonterm i).
Proof.
  intros i. unfold nonterm.
  apply fine_bind_s; [apply char_p_fine|]. intros a i1 _.
  apply fine_weaken, fine_bind_s; [apply take_while1_fine|]. intros b i2 _.
  apply fine_weaken, fine_bind_s; [apply char_p_fine|]. intros. apply fine_ok.
Qed.

Lemma nonterm_specialization_fine : forall i, fine true i (nonterm_specialization i).
Proof.
  intros i. unfold nonterm_specialization.
  apply fine_bind_s; [apply char_p_fine|]. intros a i1 _.
  apply fine_weaken, fine_bind_s; [apply take_while1_fine|]. intros b i2 _.
  apply fine_weaken, fine_bind_s; [apply char_p_fine|]. intros a3 i3 _.
  apply fine_weaken, fine_bind_s; [apply take_while1_fine|]. intros b4 i4 _.
  apply fine_weaken, fine_bind_s; [apply char_p_fine|]. intros. apply fine_ok.
Qed.

Lemma take_until_fine : forall t i, fine false i (take_until t i).
Proof.
  intros t [s p]. unfold take_until. cbn [rest at_]. destruct (split_until t s) as [[a b]|] eqn:E; [|exact I].
  apply split_until_app in E. subst s. cbn. unfold len. cbn [rest]. rewrite length_append. lia.
Qed.

Lemma triple_bracket_command_fine : forall i, fine true i (triple_bracket_command i).
Proof.
  intros i. unfold triple_bracket_command.
  apply fine_bind_s; [apply tag_p_fine; discriminate|]. intros a i1 _.
  apply fine_bind_l; [apply take_until_fine|]. intros b i2 _.
  apply fine_weaken, fine_bind_s; [apply tag_p_fine; discriminate|]. intros. apply fine_ok.
Qed.

Lemma many1_tag_fine : forall i, fine true i (many1_tag i).
Proof.
  intros i. unfold many1_tag. apply fine_bind_l; [apply multiblanks0_fine|].
  intros a i1 _. apply tag_p_fine. discriminate.
Qed.

Lemma end_of_statement_fine : forall i, fine false i (end_of_statement i).
Proof.
  intros i. unfold end_of_statement. apply fine_alt; [apply fine_weaken, char_p_fine|].
  destruct (rest i); [apply fine_ok|exact I].
Qed.

Section Total.
  Variable c : cfg.

  Lemma terminal_expr_fine : forall i, fine true i (terminal_opt_description_expr c i).
  Proof.
    intros i. unfold terminal_opt_description_expr.
    apply fine_bind_s; [apply terminal_fine|]. intros t i1 _.
    apply fine_bind_l; [apply opt_description_fine|]. intros. apply fine_ok.
  Qed.

  Lemma nonterm_expr_fine : forall i, fine true i (nonterm_expr i).
  Proof. intros i. unfold nonterm_expr. apply fine_bind_s; [apply nonterm_fine|]. intros. apply fine_ok. Qed.

  Lemma command_expr_fine : forall i, fine true i (command_expr i).
  Proof.
    intros i. unfold command_expr. apply fine_bind_s; [apply triple_bracket_command_fine|]. intros. apply fine_ok.
  Qed.

  (** the recursive call, usable on inputs one byte shorter than the fuel allows *)
  Definition GoodEx (ex : input -> pres expr) (m : nat) : Prop :=
    forall i, (S (len i) < m)%nat -> fine true i (ex i).

  Definition GoodU (p : input -> pres expr) (m : nat) : Prop :=
    forall i, (len i < m)%nat -> fine true i (p i).

  (** [[ e ]] and [( e )]; [k] builds the result *)
  Lemma bracket_fine : forall ex m op cl (k : expr -> input -> input -> expr), GoodEx ex m ->
      GoodU (fun i => do (_, a1) <- char_p op i;
                      do (_, a2) <- multiblanks0 a1;
                      do (e, a3) <- ex a2;
                      do (_, a4) <- multiblanks0 a3;
                      do (_, a5) <- char_p cl a4;
                      Ok (k e i a5, a5)) m.
  Proof.
    intros ex m op cl k G i H. cbv beta.
    apply fine_bind_s; [apply char_p_fine|]. intros a i1 L1.
    apply fine_bind_l; [apply multiblanks0_fine|]. intros b i2 L2.
    apply fine_weaken, fine_bind_s; [apply G; lia|]. intros e i3 L3.
    apply fine_bind_l; [apply multiblanks0_fine|]. intros b4 i4 L4.
    apply fine_weaken, fine_bind_s; [apply char_p_fine|]. intros. apply fine_ok.
  Qed.

  Lemma unary_fine : forall ex m, GoodEx ex m -> GoodU (unary_expr c ex) m.
  Proof.
    intros ex m G i H. unfold unary_expr.
    apply fine_bind_s.
    - apply fine_alt; [apply nonterm_expr_fine|].
      apply fine_alt; [apply (bracket_fine ex m LBRACK RBRACK (fun e i a => Optional e (from_range i a)) G i H)|].
      apply fine_alt; [apply (bracket_fine ex m LPAREN RPAREN (fun e _ _ => e) G i H)|].
      apply fine_alt; [apply command_expr_fine|apply terminal_expr_fine].
    - intros e i1 _. pose proof (many1_tag_fine i1) as T.
      destruct (many1_tag i1) as [[u j]| | |]; cbn [fine] in *; auto; try lia.
  Qed.

  Lemma loop_fine : forall A (step : input -> pres A) m,
      (forall j, (len j < m)%nat -> fine true j (step j)) ->
      forall k i, (len i < k)%nat -> (len i < m)%nat -> fine false i (loop_p k step i).
  Proof.
    intros A step m G. induction k; intros i Hk Hm; [lia|]. cbn [loop_p].
    pose proof (G i Hm) as S1. destruct (step i) as [[a i1]| | |]; cbn [fine] in S1; try contradiction.
    - specialize (IHk i1 ltac:(lia) ltac:(lia)).
      destruct (loop_p k step i1) as [[l i2]| | |]; cbn [obind fine] in *; auto; try lia.
    - cbn. lia.
  Qed.

  (** a first operand, then a loop: words and the three list nodes *)
  Lemma nary_fine : forall (first step : input -> pres expr) (mk : list expr -> span -> expr) m,
      GoodU first m -> GoodU step m ->
      GoodU (fun i => do (lft, after) <- first i;
                      do (more, after) <- loop_p m step after;
                      match more with
                      | [] => Ok (lft, after)
                      | _ => Ok (mk (lft :: more) (from_range i after), after)
                      end) m.
  Proof.
    intros first step mk m G1 G2 i H. cbv beta.
    apply fine_bind_s; [apply G1; auto|]. intros e i1 L1.
    apply fine_bind_l; [apply (loop_fine _ step m G2); lia|].
    intros [|x l] i2 _; apply fine_ok.
  Qed.

  Lemma subword_fine : forall u m, GoodU u m -> GoodU (subword_sequence_expr m u) m.
  Proof. intros u m G. exact (nary_fine u u (fun l sp => Subword (Sequence (map flatten_expr l) sp) 0 sp) m G G). Qed.

  Lemma item_fine : forall u m, GoodU u m -> GoodU (subword_sequence_expr_opt_description m u) m.
  Proof.
    intros u m G i H. unfold subword_sequence_expr_opt_description.
    apply fine_bind_s; [apply subword_fine; auto|]. intros e i1 L1.
    pose proof (opt_description_fine i1) as O.
    destruct (opt_description i1) as [[d i2]| | |]; cbn [obind fine] in *; auto.
    destruct d; cbn; lia.
  Qed.

  Lemma sequence_fine : forall item m, GoodU item m -> GoodU (sequence_expr m item) m.
  Proof.
    intros item m G. apply (nary_fine item _ Sequence m G). intros j Hj.
    apply fine_bind_s; [apply multiblanks1_fine|]. intros a j1 L. apply fine_weaken, G. lia.
  Qed.

  Lemma alternative_fine : forall sq m, GoodU sq m -> GoodU (alternative_expr m sq) m.
  Proof.
    intros sq m G. apply (nary_fine sq _ Alternative m G). intros j Hj. unfold do_alternative_expr.
    apply fine_bind_l; [apply multiblanks0_fine|]. intros a j1 L1.
    apply fine_bind_s; [apply char_p_fine|]. intros b j2 L2.
    apply fine_bind_l; [apply multiblanks0_fine|]. intros a3 j3 L3. apply fine_weaken, G. lia.
  Qed.

  Lemma fallback_fine : forall al m, GoodU al m -> GoodU (fallback_expr m al) m.
  Proof.
    intros al m G. apply (nary_fine al _ Fallback m G). intros j Hj. unfold do_fallback_expr.
    apply fine_bind_l; [apply multiblanks0_fine|]. intros a j1 L1.
    apply fine_bind_s; [apply tag_p_fine; discriminate|]. intros b j2 L2.
    apply fine_bind_l; [apply multiblanks0_fine|]. intros a3 j3 L3. apply fine_weaken, G. lia.
  Qed.

  Theorem expr_fine : forall n, GoodEx (expr_p c n) n.
  Proof.
    induction n; intros i H; [lia|]. cbn [expr_p].
    apply fallback_fine; [|lia]. apply alternative_fine, sequence_fine, item_fine, unary_fine. exact IHn.
  Qed.

  Lemma call_variant_fine : forall n i, (S (len i) < n)%nat -> fine true i (call_variant c (expr_p c n) i).
  Proof.
    intros n i H. unfold call_variant.
    apply fine_bind_s; [apply terminal_fine|]. intros a i1 L1.
    apply fine_weaken, fine_bind_s; [apply multiblanks1_fine|]. intros b i2 L2.
    apply fine_weaken, fine_bind_s; [apply expr_fine; lia|]. intros e i3 L3.
    apply fine_bind_l; [apply multiblanks0_fine|]. intros b4 i4 L4.
    apply fine_bind_l; [apply end_of_statement_fine|]. intros. apply fine_ok.
  Qed.

  Lemma nonterm_def_fine : forall i, fine true i (nonterm_def i).
  Proof.
    intros i. unfold nonterm_def. pose proof (nonterm_specialization_fine i) as S1.
    destruct (nonterm_specialization i) as [[[[[nm nsp] sh] ssp] j]| | |]; cbn [fine] in *; auto.
    pose proof (nonterm_fine i) as N1.
    destruct (nonterm i) as [[[nm nsp] j]| | |]; cbn [fine] in *; auto.
  Qed.

  Lemma nonterm_def_statement_fine : forall n i, (S (len i) < n)%nat ->
      fine true i (nonterm_def_statement (expr_p c n) i).
  Proof.
    intros n i H. unfold nonterm_def_statement.
    apply fine_bind_s; [apply nonterm_def_fine|]. intros hd i1 L1.
    apply fine_bind_l; [apply multiblanks0_fine|]. intros b i2 L2.
    apply fine_weaken, fine_bind_s; [apply fine_alt; apply tag_p_fine; discriminate|]. intros a3 i3 L3.
    apply fine_bind_l; [apply multiblanks0_fine|]. intros b4 i4 L4.
    apply fine_weaken, fine_bind_s; [apply expr_fine; lia|]. intros e i5 L5.
    apply fine_bind_l; [apply multiblanks0_fine|]. intros b6 i6 L6.
    apply fine_bind_l; [apply end_of_statement_fine|]. intros u i7 L7.
    destruct hd as [[nm nsp] sh]. apply fine_ok.
  Qed.

  Lemma statement_fine : forall n i, (S (len i) < n)%nat -> fine true i (statement_p c (expr_p c n) i).
  Proof.
    intros n i H. unfold statement_p.
    apply fine_bind_s; [apply fine_alt; [apply call_variant_fine|apply nonterm_def_statement_fine]; auto|].
    intros st i1 L1. apply fine_bind_l; [apply multiblanks0_fine|]. intros. apply fine_ok.
  Qed.

  Definition settled {E A} (x : outcome E A) : Prop :=
    match x with Ok _ | Err _ => True | _ => False end.

  Lemma many0_settled : forall n k i, (len i < k)%nat -> (S (len i) < n)%nat ->
      match many0_p k (statement_p c (expr_p c n)) i with
      | Ok (_, i') => (len i' <= len i)%nat
      | Err _ => True
      | _ => False
      end.
  Proof.
    intros n. induction k; intros i Hk Hn; [lia|]. cbn [many0_p].
    pose proof (statement_fine n i Hn) as S1.
    destruct (statement_p c (expr_p c n) i) as [[st i1]| | |]; cbn [fine] in S1; try contradiction; auto.
    destruct (Nat.eqb _ _); auto.
    specialize (IHk i1 ltac:(lia) ltac:(lia)).
    destruct (many0_p k _ i1) as [[l i2]| | |]; auto. lia.
  Qed.

  Theorem parse_with_total : forall s,
      (exists g, parse_with c s = Ok g) \/ (exists sp, parse_with c s = Err sp).
  Proof.
    intros s. unfold parse_with, grammar_p. rewrite multiblanks0_spec.
    pose proof (adv_len _ _ (skip_adv (start s))) as L0. unfold len in L0. cbn [start rest] in L0.
    pose proof (many0_settled (S (S (String.length s))) (S (S (String.length s))) (skip (start s))
                  ltac:(unfold len; lia) ltac:(unfold len; lia)) as X.
    destruct (many0_p _ _ (skip (start s))) as [[l i2]|e| |]; try contradiction.
    - rewrite multiblanks0_spec. destruct (rest (skip i2)); eauto.
    - eauto.
  Qed.
End Total.
