(** What the walk of [check_tail_only] decides (Model/Regex.v models the walk repaired for
    finding N2): it accepts a within-word regex iff no position reachable from the first positions
    through the follow table is an unbounded item ([RNonterm]) whose follow set contains anything
    else than the end marker ([bad_pos]).  "Only if" holds of every regex, "if" where the walk is
    total ([pool_ok]). *)
From CG Require Import Base.Prelude Proofs.ListFacts Model.Ast Model.Regex.
From CG Require Import Base.Facts Proofs.FromExpr Proofs.RegexFuel Proofs.RegexNoPanic Proofs.DiagSpans Proofs.FollowWalk.

Section Walk.
  Variable r : regex.
  Variable fw : list (N * list N).

  Definition is_star (p : N) : Prop := exists n l sp, nthN (r_inputs r) p = Some (RNonterm n l sp).
  Definition only_end (s : list N) : Prop := forall q, In q s -> q = r_end r.
  Definition bad (p : N) : Prop :=
    p <> r_end r /\ is_star p /\ exists s, assocN p fw = Some s /\ ~ only_end s.

  Inductive reach_from (S : list N) : N -> Prop :=
  | rf_start p : In p S -> reach_from S p
  | rf_step p s q : reach_from S p -> p <> r_end r -> assocN p fw = Some s -> In q s -> reach_from S q.

  Lemma inputs_of_nil s : inputs_of r s = Ok [] -> only_end s.
  Proof.
    unfold inputs_of. intro H. apply omap_ok in H. inversion H as [E|]. intros q Hq.
    pose proof (proj1 (filter_nil _ _) (eq_sym E) q Hq) as Hf. apply negb_false_iff in Hf. apply N.eqb_eq in Hf. exact Hf.
  Qed.

  Lemma only_end_inputs s : only_end s -> inputs_of r s = Ok [].
  Proof.
    intro H. unfold inputs_of.
    assert (Hn : filter (fun p => negb (p =? r_end r)) s = []).
    { induction s as [|q s IH]; [reflexivity|]. cbn. rewrite (H q (or_introl eq_refl)), N.eqb_refl. cbn.
      apply IH. intros x Hx. apply H. right. exact Hx. }
    rewrite Hn. reflexivity.
  Qed.

  Lemma first_clash_some x inputs : first_clash (Some x) inputs = None -> inputs = [].
  Proof. destruct inputs; [reflexivity|discriminate]. Qed.

  Lemma each_skip rec ps visited :
    (forall p, In p ps -> In p visited) -> each (list N) (fun v => v) cons fw rec ps visited = Ok visited.
  Proof.
    induction ps as [|p rest IH]; intro H; cbn [each]; [reflexivity|].
    assert (Hm : memN p visited = true) by (apply memN_In; apply H; left; reflexivity).
    rewrite Hm. apply IH. intros q Hq. apply H. right. exact Hq.
  Qed.

  (** a call made right after an unbounded item: nothing but the end may follow *)
  Lemma tail_only_leaf f S x visited v' :
    In (r_end r) visited -> tail_only r fw f S (Some x) visited = Ok v' -> only_end S /\ v' = visited.
  Proof.
    intros Hend H. destruct f as [|f]; [discriminate|]. rewrite tail_only_S in H.
    destruct (inputs_of r S) as [inputs| | |] eqn:Ei; cbn [obind] in H; try discriminate.
    destruct (first_clash (Some x) inputs) eqn:Ec; [discriminate|].
    apply first_clash_some in Ec. subst inputs. pose proof (inputs_of_nil _ Ei) as Ho.
    split; [exact Ho|]. rewrite each_skip in H; [inversion H; reflexivity|].
    intros p Hp. rewrite (Ho p Hp). exact Hend.
  Qed.

  Lemma tail_only_leaf_err f S x visited e :
    tail_only r fw f S (Some x) visited = Err e -> In (r_end r) visited -> ~ only_end S.
  Proof.
    intros H Hend Ho. destruct f as [|f]; [discriminate|]. rewrite tail_only_S in H.
    rewrite (only_end_inputs _ Ho) in H. cbn [obind first_clash] in H.
    rewrite each_skip in H; [discriminate|]. intros p Hp. rewrite (Ho p Hp). exact Hend.
  Qed.

  Lemma star_input p inp : input_at r p = Ok inp -> is_star_subword inp = Ok false -> ~ is_star p.
  Proof.
    unfold input_at. intros Hi Hs (n & l & sp & Hn). rewrite Hn in Hi. inversion Hi; subst. discriminate.
  Qed.

  Definition ok_post := ok_post fw (fun u => ~ bad u).

  Lemma tail_only_ok f : forall S visited v',
    In (r_end r) visited -> tail_only r fw f S None visited = Ok v' -> ok_post S visited v'.
  Proof.
    induction f as [|f IHf]; intros S visited v' Hend H; [discriminate|].
    rewrite tail_only_S in H.
    destruct (inputs_of r S) as [inputs| | |]; cbn [obind first_clash] in H; try discriminate.
    apply (each_post _ _ _ fw _ (fun u => ~ bad u) (fun v => In (r_end r) v)) in H;
      [apply H| |exact Hend].
    intros p follow v v1 Hv Hn Ha Hr. unfold tail_call in Hr.
    destruct (input_at r p) as [inp| | |] eqn:Hia; cbn [obind] in Hr; try discriminate.
    destruct (is_star_subword inp) as [st| | |] eqn:Hst; cbn [obind] in Hr; try discriminate.
    assert (Hend' : In (r_end r) (p :: v)) by (right; exact Hv).
    destruct st; cbn [opt_or] in Hr.
    - (* an unbounded item: only the end follows, nothing more is visited *)
      destruct (tail_only_leaf _ _ _ _ _ Hend' Hr) as [Ho ->].
      split; [exact Hend'|]. split.
      + intros (_ & _ & s & Hs & Hno). rewrite Ha in Hs. injection Hs as <-. contradiction.
      + split; [apply incl_refl|]. split; [|intros u Hu Hnu; contradiction].
        intros q Hq. left. right. rewrite (Ho q Hq). exact Hv.
    - destruct (IHf _ _ _ Hend' Hr) as (A1 & B1 & C1).
      split; [apply A1; exact Hend'|]. split; [|split; [exact A1|split; [exact B1|exact C1]]].
      intros (_ & Hs & _). eapply star_input; eauto.
  Qed.

  Lemma reach_from_mono S S' p : incl S S' -> reach_from S p -> reach_from S' p.
  Proof. intros Hi H. induction H; [apply rf_start; auto|eapply rf_step; eauto]. Qed.

  Lemma reach_from_follow S p s q :
    In p S -> p <> r_end r -> assocN p fw = Some s -> reach_from s q -> reach_from S q.
  Proof.
    intros Hp Hne Hs H. induction H as [q Hq|a s' b Ha IH Hane Has Hb].
    - eapply rf_step; [apply rf_start; exact Hp|exact Hne|exact Hs|exact Hq].
    - eapply rf_step; eauto.
  Qed.

  Lemma tail_only_err f : forall S visited e,
    In (r_end r) visited -> tail_only r fw f S None visited = Err e ->
    exists u, reach_from S u /\ bad u.
  Proof.
    induction f as [|f IHf]; intros S visited e Hend H; [discriminate|].
    rewrite tail_only_S in H.
    destruct (inputs_of r S) as [inputs| | |] eqn:Ei; cbn [obind first_clash] in H; try discriminate.
    2:{ destruct (inputs_of_no_err _ _ _ Ei). }
    apply (each_err _ _ _ fw _ (fun v => In (r_end r) v)) in H as (p & follow & v & Hp & Hn & Ha & Hv & Hr);
      [| |exact Hend].
    2:{ (* the calls that return keep the end marker visited *)
        intros p follow v v1 Hv Hn Ha Hr. unfold tail_call in Hr.
        assert (Hend' : In (r_end r) (p :: v)) by (right; exact Hv).
        destruct (input_at r p) as [inp| | |]; cbn [obind] in Hr; try discriminate.
        destruct (is_star_subword inp) as [[|]| | |]; cbn [obind opt_or] in Hr; try discriminate.
        - destruct (tail_only_leaf _ _ _ _ _ Hend' Hr) as [_ ->]. exact Hend'.
        - destruct (tail_only_ok _ _ _ _ Hend' Hr) as (A1 & _). apply A1. exact Hend'. }
    assert (Hpne : p <> r_end r) by (intros ->; contradiction).
    assert (Hend' : In (r_end r) (p :: v)) by (right; exact Hv).
    unfold tail_call, input_at in Hr. destruct (nthN (r_inputs r) p) as [inp|] eqn:Hin; cbn [obind] in Hr; [|discriminate].
    destruct (is_star_subword inp) as [st|e1| |] eqn:Hst; cbn [obind] in Hr; try discriminate.
    2:{ destruct inp; discriminate. }
    destruct st; cbn [opt_or] in Hr.
    - exists p. split; [apply rf_start; exact Hp|]. split; [exact Hpne|]. split.
      + destruct inp; try discriminate. do 3 eexists. exact Hin.
      + exists follow. split; [exact Ha|]. eapply tail_only_leaf_err; [exact Hr|exact Hend'].
    - destruct (IHf _ _ _ Hend' Hr) as [u [Hu Hb]]. exists u. split; [|exact Hb].
      eapply reach_from_follow; [exact Hp|exact Hpne|exact Ha|exact Hu].
  Qed.

  (** after a walk from [S] that started with only the end marker visited, every position reachable
      from [S] is visited or has no follow set *)
  Lemma post_reached Q S v' :
    FollowWalk.ok_post fw Q S [r_end r] v' ->
    forall p, reach_from S p ->
      (In p v' \/ assocN p fw = None) /\ (p <> r_end r -> In p v' -> done fw Q v' p).
  Proof.
    intros (A & B & C). assert (HC : forall p, p <> r_end r -> In p v' -> done fw Q v' p).
    { intros p Hne Hin. apply C; [exact Hin|]. intros [Hx|[]]. congruence. }
    intros p Hp. split; [|apply HC]. induction Hp as [p Hp|p s q Hr IH Hne Hs Hq]; [apply B; exact Hp|].
    destruct IH as [IH|IH]; [|congruence]. exact (proj2 (HC p Hne IH) s q Hs Hq).
  Qed.
End Walk.

Definition reachable_pos (r : regex) : N -> Prop := reach_from r (regex_follow r) (regex_first r).
Definition bad_pos (r : regex) : N -> Prop := bad r (regex_follow r).

Theorem check_tail_only_accepts r :
  check_tail_only r = Ok tt -> forall p, reachable_pos r p -> ~ bad_pos r p.
Proof.
  unfold check_tail_only. intro H.
  destruct (tail_only r (regex_follow r) (regex_fuel r) (regex_first r) None [r_end r]) as [v'| | |] eqn:E;
    cbn [obind] in H; try discriminate.
  assert (He : In (r_end r) [r_end r]) by (left; reflexivity).
  destruct (tail_only_ok r (regex_follow r) _ _ _ _ He E) as (A & B & C).
  intros p Hp Hb. destruct (post_reached r (regex_follow r) _ _ _ (conj A (conj B C)) p Hp) as [[Hin|Hno] D].
  - apply (D (proj1 Hb) Hin). exact Hb.
  - destruct Hb as (_ & _ & s & Hs & _). unfold bad_pos in *. congruence.
Qed.

Theorem check_tail_only_rejects r e :
  check_tail_only r = Err e -> exists p, reachable_pos r p /\ bad_pos r p.
Proof.
  unfold check_tail_only. intro H.
  destruct (tail_only r (regex_follow r) (regex_fuel r) (regex_first r) None [r_end r]) as [v'|e'| |] eqn:E;
    cbn [obind] in H; try discriminate.
  inversion H; subst e'. eapply tail_only_err; [|exact E]. left. reflexivity.
Qed.

(** for the regex of a word (in range, without nested words) the walk is total *)
Theorem check_tail_only_decides r :
  pool_ok r ->
  (check_tail_only r = Ok tt <-> forall p, reachable_pos r p -> ~ bad_pos r p).
Proof.
  intro Hp. split; [apply check_tail_only_accepts|]. intro H.
  pose proof (check_tail_only_np r Hp) as Hnp. pose proof (check_tail_only_fuel r) as Hf.
  destruct (check_tail_only r) as [[]|e|m|] eqn:E; [reflexivity| | |].
  - exfalso. destruct (check_tail_only_rejects r e E) as [p [Hr Hb]]. exact (H p Hr Hb).
  - exfalso. exact Hnp.
  - exfalso. exact (Hf eq_refl).
Qed.
