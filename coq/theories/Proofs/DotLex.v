(** C16, lexical level: the DOT lexer of [Spec.DotRead] run on the lines [Model.Dot] prints.
    [lsteps] runs the lexer's state machine on a piece of text and composes over concatenation
    ([lsteps_cat]), so that a printed line is lexed piece by piece.  The quoted-string codec:
    [qdecode] is what a body between quotes decodes to; [escape_dot] decodes to the text with its
    backslashes doubled ([double_bs]), which the label renderer turns back into the text
    ([label_codec]).  [lex_line]: the text of a well-formed line lexes to [line_toks], from and to
    the state between tokens. *)
From CG Require Import Base.Prelude Base.Facts Spec.DotRead Model.Dot.
Local Open Scope string_scope.

Fixpoint lsteps (st : lstate) (s : string) : option (lstate * list tok) :=
  match s with
  | EmptyString => Some (st, [])
  | String c r =>
      match lstep st c with
      | Some (st', ts) =>
          match lsteps st' r with
          | Some (st'', ts') => Some (st'', (ts ++ ts')%list)
          | None => None
          end
      | None => None
      end
  end.

Lemma lsteps_cat st a b st1 t1 st2 t2 :
  lsteps st a = Some (st1, t1) -> lsteps st1 b = Some (st2, t2) ->
  lsteps st (a ++ b) = Some (st2, (t1 ++ t2)%list).
Proof.
  revert st st1 t1. induction a as [|c a IH]; intros st st1 t1 Ha Hb; cbn in *.
  - injection Ha as <- <-. exact Hb.
  - destruct (lstep st c) as [[st' ts]|]; [|discriminate].
    destruct (lsteps st' a) as [[st'' ts']|] eqn:E; [|discriminate].
    injection Ha as <- <-. rewrite (IH _ _ _ E Hb). now rewrite app_assoc.
Qed.

Lemma lex_from_lsteps st s st' ts fin :
  lsteps st s = Some (st', ts) -> lfinish st' = Some fin -> lex_from st s = Some (ts ++ fin)%list.
Proof.
  revert st st' ts. induction s as [|c s IH]; intros st st' ts H F; cbn in *.
  - injection H as <- <-. now rewrite F.
  - destruct (lstep st c) as [[st1 t1]|]; [|discriminate].
    destruct (lsteps st1 s) as [[st2 t2]|] eqn:E; [|discriminate].
    injection H as <- <-. rewrite (IH _ _ _ E F). now rewrite app_assoc.
Qed.

Fixpoint all_chars (p : ascii -> bool) (s : string) : bool :=
  match s with EmptyString => true | String c r => p c && all_chars p r end.

Definition ident_ok (s : string) : bool :=
  match s with EmptyString => false | String c r => is_idstart c && all_chars is_idchar r end.

Lemma all_chars_app p a b : all_chars p (a ++ b) = all_chars p a && all_chars p b.
Proof. induction a as [|c a IH]; cbn; [reflexivity|]. now rewrite IH, andb_assoc. Qed.

Lemma step0_idstart c : is_idstart c = true -> step0 c = Some (LIdent (String c ""), []).
Proof.
  assert (H : forall c, (negb (is_idstart c) ||
     match step0 c with Some (LIdent (String c' EmptyString), []) => Ascii.eqb c' c | _ => false end) = true)
    by (apply all_ascii_spec; vm_compute; reflexivity).
  intros Hc. specialize (H c). rewrite Hc in H. cbn [negb orb] in H.
  destruct (step0 c) as [[[| [|c' [|]] | | | | | | | |] [|]]|]; try discriminate H. apply Ascii.eqb_eq in H. now subst.
Qed.

Lemma snoc_app acc c s : snoc acc c ++ s = acc ++ String c s.
Proof. unfold snoc. induction acc as [|a acc IH]; cbn; [reflexivity|]. now rewrite IH. Qed.

Lemma lsteps_idchars s : forall acc,
  all_chars is_idchar s = true -> lsteps (LIdent acc) s = Some (LIdent (acc ++ s), []).
Proof.
  induction s as [|c s IH]; intros acc H; cbn in *.
  - now rewrite append_nil_r.
  - apply andb_true_iff in H as [Hc Hs]. rewrite Hc. rewrite (IH _ Hs). now rewrite snoc_app.
Qed.

Lemma lsteps_ident s : ident_ok s = true -> lsteps L0 s = Some (LIdent s, []).
Proof.
  destruct s as [|c s]; cbn; [discriminate|]. intro H. apply andb_true_iff in H as [Hc Hs].
  rewrite (step0_idstart _ Hc). now rewrite (lsteps_idchars s (String c "") Hs).
Qed.

Lemma lsteps_tabs n : lsteps L0 (tabs n) = Some (L0, []).
Proof. induction n as [|n IH]; cbn; [reflexivity|]. cbn in IH. now rewrite IH. Qed.

(** what the text between two double quotes decodes to; [pend]: a backslash is pending.  [None]: the
    text contains a closing quote, or ends with a pending backslash. *)
Fixpoint qdecode (pend : bool) (s : string) : option string :=
  match s with
  | EmptyString => if pend then None else Some ""
  | String c r =>
      if pend then
        if Ascii.eqb c c_dq then option_map (String c_dq) (qdecode false r)
        else if Ascii.eqb c c_bs then option_map (fun x => String c_bs (String c_bs x)) (qdecode false r)
        else if Ascii.eqb c c_nl then qdecode false r
        else option_map (fun x => String c_bs (String c x)) (qdecode false r)
      else
        if Ascii.eqb c c_dq then None
        else if Ascii.eqb c c_bs then qdecode true r
        else option_map (String c) (qdecode false r)
  end.

Lemma lsteps_quoted s : forall pend acc v,
  qdecode pend s = Some v ->
  lsteps (if pend then LQB acc else LQ acc) s = Some (LQ (acc ++ v), []).
Proof.
  induction s as [|c s IH]; intros pend acc v H.
  - destruct pend; cbn in *; [discriminate|]. injection H as <-. now rewrite append_nil_r.
  - destruct pend; cbn [qdecode] in H; cbn [lsteps lstep].
    + destruct (Ascii.eqb c c_dq).
      { destruct (qdecode false s) as [w|] eqn:E; [|discriminate]. injection H as <-.
        rewrite (IH false _ _ E). now rewrite snoc_app. }
      destruct (Ascii.eqb c c_bs).
      { destruct (qdecode false s) as [w|] eqn:E; [|discriminate]. injection H as <-.
        rewrite (IH false _ _ E). now rewrite !snoc_app. }
      destruct (Ascii.eqb c c_nl).
      { now rewrite (IH false _ _ H). }
      destruct (qdecode false s) as [w|] eqn:E; [|discriminate]. injection H as <-.
      rewrite (IH false _ _ E). now rewrite !snoc_app.
    + destruct (Ascii.eqb c c_dq); [discriminate|].
      destruct (Ascii.eqb c c_bs).
      { now rewrite (IH true _ _ H). }
      destruct (qdecode false s) as [w|] eqn:E; [|discriminate]. injection H as <-.
      rewrite (IH false _ _ E). now rewrite snoc_app.
Qed.

Lemma lsteps_dq_body body v :
  qdecode false body = Some v -> lsteps L0 (dq ++ body ++ dq) = Some (L0, [TQ v]).
Proof.
  intro H.
  apply (lsteps_cat L0 dq (body ++ dq) (LQ "") [] L0 [TQ v]); [reflexivity|].
  apply (lsteps_cat (LQ "") body dq (LQ v) [] L0 [TQ v]); [|reflexivity].
  exact (lsteps_quoted body false "" v H).
Qed.

Definition esc1 (c : ascii) : string :=
  if Ascii.eqb c c_bs then bs ++ bs else if Ascii.eqb c c_dq then bs ++ dq else String c "".

Fixpoint esc_all (s : string) : string :=
  match s with EmptyString => "" | String c r => esc1 c ++ esc_all r end.

Lemma replace_char_app c by_ a b :
  replace_char c by_ (a ++ b) = replace_char c by_ a ++ replace_char c by_ b.
Proof.
  induction a as [|x a IH]; cbn; [reflexivity|].
  destruct (Ascii.eqb x c); rewrite IH; [now rewrite append_assoc|reflexivity].
Qed.

Lemma escape_dot_chars s : escape_dot s = esc_all s.
Proof.
  unfold escape_dot, escape_quotes, escape_backslashes.
  induction s as [|c s IH]; [reflexivity|]. cbn [replace_char esc_all].
  unfold esc1. change c_bs with "\"%char. change c_dq with """"%char.
  destruct (Ascii.eqb c "\"%char) eqn:Eb.
  - rewrite replace_char_app, IH. reflexivity.
  - cbn [replace_char]. destruct (Ascii.eqb c """"%char); now rewrite IH.
Qed.

(** the text with every backslash doubled: what the DOT string holds after the lexer *)
Fixpoint double_bs (s : string) : string :=
  match s with
  | EmptyString => ""
  | String c r => if Ascii.eqb c c_bs then String c_bs (String c_bs (double_bs r)) else String c (double_bs r)
  end.

Lemma esc_all_app a b : esc_all (a ++ b) = esc_all a ++ esc_all b.
Proof. induction a as [|c a IH]; [reflexivity|]. cbn [append esc_all]. now rewrite IH, append_assoc. Qed.

Lemma qdecode_esc_app a rest :
  qdecode false (esc_all a ++ rest) = option_map (append (double_bs a)) (qdecode false rest).
Proof.
  induction a as [|c a IH].
  - cbn. destruct (qdecode false rest); reflexivity.
  - cbn [esc_all double_bs]. unfold esc1. destruct (Ascii.eqb c c_bs) eqn:Eb.
    + change ((bs ++ bs) ++ esc_all a) with (String c_bs (String c_bs (esc_all a))).
      cbn [append qdecode]. change (Ascii.eqb c_bs c_dq) with false. change (Ascii.eqb c_bs c_bs) with true.
      cbn match. rewrite IH. destruct (qdecode false rest); reflexivity.
    + destruct (Ascii.eqb c c_dq) eqn:Eq.
      * change ((bs ++ dq) ++ esc_all a) with (String c_bs (String c_dq (esc_all a))).
        cbn [append qdecode]. change (Ascii.eqb c_bs c_dq) with false. change (Ascii.eqb c_bs c_bs) with true.
        change (Ascii.eqb c_dq c_dq) with true. cbn match. rewrite IH.
        apply Ascii.eqb_eq in Eq. subst c. destruct (qdecode false rest); reflexivity.
      * change (String c "" ++ esc_all a) with (String c (esc_all a)).
        cbn [append qdecode]. rewrite Eq, Eb, IH. destruct (qdecode false rest); reflexivity.
Qed.

Lemma qdecode_esc_all s : qdecode false (esc_all s) = Some (double_bs s).
Proof. rewrite <- (append_nil_r (esc_all s)), qdecode_esc_app. cbn. now rewrite append_nil_r. Qed.

Lemma qdecode_escape_dot s : qdecode false (escape_dot s) = Some (double_bs s).
Proof. rewrite escape_dot_chars. apply qdecode_esc_all. Qed.

Lemma render_double_bs_app a rest : render_label (double_bs a ++ rest) = a ++ render_label rest.
Proof.
  induction a as [|c a IH]; [reflexivity|]. cbn [double_bs].
  destruct (Ascii.eqb c c_bs) eqn:Eb.
  - apply Ascii.eqb_eq in Eb. subst c. cbn [append render_label].
    change (Ascii.eqb c_bs c_bs) with true. cbn match.
    change (Ascii.eqb c_bs "n"%char) with false. change (Ascii.eqb c_bs "l"%char) with false.
    change (Ascii.eqb c_bs "r"%char) with false. change (Ascii.eqb c_bs "N"%char) with false.
    change (Ascii.eqb c_bs "G"%char) with false. change (Ascii.eqb c_bs "E"%char) with false.
    change (Ascii.eqb c_bs "T"%char) with false. change (Ascii.eqb c_bs "H"%char) with false.
    change (Ascii.eqb c_bs "L"%char) with false. cbn. now rewrite IH.
  - cbn [append render_label]. rewrite Eb. now rewrite IH.
Qed.

Lemma render_double_bs s : render_label (double_bs s) = s.
Proof. rewrite <- (append_nil_r (double_bs s)), render_double_bs_app. apply append_nil_r. Qed.

(** a text without backslashes renders as itself, and its quotes are all that needs escaping *)
Lemma double_bs_none s : contains_char c_bs s = false -> double_bs s = s.
Proof.
  induction s as [|c s IH]; [reflexivity|]. cbn [contains_char double_bs].
  destruct (Ascii.eqb c c_bs); [discriminate|]. intro H. now rewrite IH.
Qed.

Lemma render_plain s : contains_char c_bs s = false -> render_label s = s.
Proof. intro H. rewrite <- (double_bs_none s H) at 1. apply render_double_bs. Qed.

Lemma escape_backslashes_none s : contains_char c_bs s = false -> escape_backslashes s = s.
Proof.
  unfold escape_backslashes. change "\"%char with c_bs.
  induction s as [|c s IH]; [reflexivity|]. cbn [contains_char replace_char].
  destruct (Ascii.eqb c c_bs); [discriminate|]. intro H. now rewrite IH.
Qed.

Lemma escape_quotes_is_dot s : contains_char c_bs s = false -> escape_quotes s = escape_dot s.
Proof. intro H. unfold escape_dot. now rewrite escape_backslashes_none. Qed.

(** a piece of text that yields no token is stepped over by the quoted-string rule *)
Lemma read_quoted_from_steps a : forall st st' b,
  lsteps st a = Some (st', []) -> read_quoted_from st (a ++ b) = read_quoted_from st' b.
Proof.
  induction a as [|c a IH]; intros st st' b H; cbn [lsteps] in H; cbn [append read_quoted_from].
  - now injection H as <-.
  - destruct (lstep st c) as [[st1 t1]|] eqn:El; [|discriminate].
    destruct (lsteps st1 a) as [[st2 t2]|] eqn:E; [|discriminate]. injection H as <- H.
    apply app_eq_nil in H as [-> ->]. destruct st; rewrite El; try exact (IH _ _ b E). destruct st1; exact (IH _ _ b E).
Qed.

Lemma read_quoted_from_ok body pend acc v rest :
  qdecode pend body = Some v ->
  read_quoted_from (if pend then LQB acc else LQ acc) (body ++ dq ++ rest) = Some (acc ++ v, rest).
Proof. intro H. now rewrite (read_quoted_from_steps body _ _ _ (lsteps_quoted body pend acc v H)). Qed.

(** The codec leaf ([C16_label_codec]): what make_dot_string_constant (src/regex.rs) writes is read
    back, up to label rendering, as the text itself, whatever follows. *)
Lemma label_codec s rest :
  read_quoted (dq ++ escape_dot s ++ dq ++ rest) = Some (double_bs s, rest)
  /\ render_label (double_bs s) = s.
Proof.
  split; [|apply render_double_bs].
  change (dq ++ escape_dot s ++ dq ++ rest) with (String c_dq (escape_dot s ++ dq ++ rest)).
  cbn [read_quoted]. change (Ascii.eqb c_dq c_dq) with true. cbn match.
  exact (read_quoted_from_ok (escape_dot s) false "" (double_bs s) rest (qdecode_escape_dot s)).
Qed.

Definition id_ok (s : string) : Prop := ident_ok s = true /\ keyword_of s = None.

Definition body_ok (b : string) : Prop := qdecode false b <> None.

Definition qdec (b : string) : string :=
  match qdecode false b with Some v => v | None => "" end.

Definition line_ok (l : line) : Prop :=
  match l with
  | LBlank => True
  | LNodeDefault sh => id_ok sh
  | LNode i b => id_ok i /\ body_ok b
  | LEdge a b => id_ok a /\ id_ok b
  | LEdgeQ a b k body => id_ok a /\ id_ok b /\ id_ok k /\ body_ok body
  | LAssign k v => id_ok k /\ id_ok v
  | LAssignQ k body => id_ok k /\ body_ok body
  end.

Definition line_toks (l : line) : list tok :=
  match l with
  | LBlank => []
  | LNodeDefault sh => [TId "node"; TLS; TId "shape"; TEq; TId sh; TRS; TSemi]
  | LNode i b => [TId i; TLS; TId "label"; TEq; TQ (qdec b); TRS; TSemi]
  | LEdge a b => [TId a; TArrow; TId b; TSemi]
  | LEdgeQ a b k body => [TId a; TArrow; TId b; TLS; TId k; TEq; TQ (qdec body); TRS; TSemi]
  | LAssign k v => [TId k; TEq; TId v; TSemi]
  | LAssignQ k body => [TId k; TEq; TQ (qdec body); TSemi]
  end.

Lemma body_ok_qdec b : body_ok b -> qdecode false b = Some (qdec b).
Proof. unfold body_ok, qdec. destruct (qdecode false b); [reflexivity|intro H; now elim H]. Qed.

(** an identifier, then whatever the lexer makes of the rest from [LIdent i] *)
Lemma lsteps_ident_then i tail st2 t2 :
  ident_ok i = true ->
  lsteps (LIdent i) tail = Some (st2, t2) ->
  lsteps L0 (i ++ tail) = Some (st2, t2).
Proof.
  intros Hi H. rewrite (lsteps_cat L0 i tail (LIdent i) [] st2 t2 (lsteps_ident i Hi) H).
  reflexivity.
Qed.

Lemma lex_line_body (l : line) : line_ok l ->
  match l with LBlank => True | _ => lsteps L0 (render_line l ++ nl) = Some (L0, line_toks l) end.
Proof.
  destruct l as [|sh|i b|a b|a b k body|k v|k body]; cbn [line_ok render_line line_toks]; intro H.
  - exact I.
  - destruct H as [Hi _].
    replace (("node [shape=" ++ sh ++ "];") ++ nl) with ("node [shape=" ++ (sh ++ String "]"%char (";" ++ nl)))
      by (rewrite !append_assoc; reflexivity).
    eapply (lsteps_cat L0 "node [shape=" _ L0 [TId "node"; TLS; TId "shape"; TEq]); [reflexivity|].
    apply (lsteps_ident_then _ _ _ _ Hi). reflexivity.
  - destruct H as [[Hi _] Hb].
    replace ((i ++ "[label=" ++ dq ++ b ++ dq ++ "];") ++ nl)
      with (i ++ String "["%char ("label=" ++ (dq ++ b ++ dq) ++ ("];" ++ nl)))
      by (rewrite !append_assoc; reflexivity).
    apply (lsteps_ident_then _ _ _ _ Hi).
    eapply (lsteps_cat (LIdent i) (String "["%char "label=") _ L0 [TId i; TLS; TId "label"; TEq]); [reflexivity|].
    eapply (lsteps_cat L0 (dq ++ b ++ dq) _ L0 [TQ (qdec b)]);
      [apply lsteps_dq_body, body_ok_qdec, Hb|reflexivity].
  - destruct H as [[Ha _] [Hb _]].
    replace ((a ++ " -> " ++ b ++ ";") ++ nl) with (a ++ String " "%char ("-> " ++ (b ++ String ";"%char nl)))
      by (rewrite !append_assoc; reflexivity).
    apply (lsteps_ident_then _ _ _ _ Ha).
    eapply (lsteps_cat (LIdent a) (String " "%char "-> ") _ L0 [TId a; TArrow]); [reflexivity|].
    apply (lsteps_ident_then _ _ _ _ Hb). reflexivity.
  - destruct H as [[Ha _] [[Hb _] [[Hk _] Hq]]].
    replace ((a ++ " -> " ++ b ++ " [" ++ k ++ "=" ++ dq ++ body ++ dq ++ "];") ++ nl)
      with (a ++ String " "%char ("-> " ++ (b ++ String " "%char ("[" ++ (k ++ String "="%char ((dq ++ body ++ dq) ++ ("];" ++ nl)))))))
      by (rewrite !append_assoc; reflexivity).
    apply (lsteps_ident_then _ _ _ _ Ha).
    eapply (lsteps_cat (LIdent a) (String " "%char "-> ") _ L0 [TId a; TArrow]); [reflexivity|].
    apply (lsteps_ident_then _ _ _ _ Hb).
    eapply (lsteps_cat (LIdent b) (String " "%char "[") _ L0 [TId b; TLS]); [reflexivity|].
    apply (lsteps_ident_then _ _ _ _ Hk).
    eapply (lsteps_cat (LIdent k) (String "="%char "") _ L0 [TId k; TEq]); [reflexivity|].
    eapply (lsteps_cat L0 (dq ++ body ++ dq) _ L0 [TQ (qdec body)]);
      [apply lsteps_dq_body, body_ok_qdec, Hq|reflexivity].
  - destruct H as [[Hk _] [Hv _]].
    replace ((k ++ "=" ++ v ++ ";") ++ nl) with (k ++ String "="%char (v ++ String ";"%char nl))
      by (rewrite !append_assoc; reflexivity).
    apply (lsteps_ident_then _ _ _ _ Hk).
    eapply (lsteps_cat (LIdent k) (String "="%char "") _ L0 [TId k; TEq]); [reflexivity|].
    apply (lsteps_ident_then _ _ _ _ Hv). reflexivity.
  - destruct H as [[Hk _] Hq].
    replace ((k ++ "=" ++ dq ++ body ++ dq ++ ";") ++ nl)
      with (k ++ String "="%char ((dq ++ body ++ dq) ++ (";" ++ nl)))
      by (rewrite !append_assoc; reflexivity).
    apply (lsteps_ident_then _ _ _ _ Hk).
    eapply (lsteps_cat (LIdent k) (String "="%char "") _ L0 [TId k; TEq]); [reflexivity|].
    eapply (lsteps_cat L0 (dq ++ body ++ dq) _ L0 [TQ (qdec body)]);
      [apply lsteps_dq_body, body_ok_qdec, Hq|reflexivity].
Qed.

Lemma lex_line l depth : line_ok l -> lsteps L0 (render_item depth (ILine l)) = Some (L0, line_toks l).
Proof.
  intro H. pose proof (lex_line_body l H) as B.
  destruct l; [reflexivity|..]; exact (lsteps_cat L0 _ _ L0 [] L0 _ (lsteps_tabs _) B).
Qed.
