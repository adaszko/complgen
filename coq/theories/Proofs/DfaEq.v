(** C10: equality of automata as used for interning ([DFAInternPool]: [IndexSet<DFA>] with
    [DFA::eq] comparing start, transitions, accepting states and the input pool IN ORDER).
    Input ids are indices into the input pool, so the pool must be compared as a sequence:
    [dfa_eqb] (Model/DfaEqb.v) holds exactly of identical automata ([dfa_eqb_eq]).  The
    order-insensitive comparison that /repo commit bb0b710 replaces (IndexSet equality on the pool,
    [dfa_eqb_unordered]) is defined here only to be refuted: it identifies two automata whose
    accepted id-words read as different texts ([unordered_comparison_refuted]). *)
From CG Require Import Base.Prelude Base.Facts Model.Dfa Model.DfaEqb Proofs.DfaEquivProofs.

(** [IndexSet] equality: same length, and every element of the first is in the second *)
Definition inputs_eq_unordered (l1 l2 : list inp) : bool :=
  Nat.eqb (List.length l1) (List.length l2)
  && forallb (fun i => existsb (inp_eqb i) l2) l1.

Definition dfa_eqb_unordered (a b : dfa) : bool :=
  N.eqb (d_start a) (d_start b)
  && list_eqb row_eqb (d_trans a) (d_trans b)
  && list_eqb N.eqb (d_accepting a) (d_accepting b)
  && inputs_eq_unordered (d_inputs a) (d_inputs b).

Lemma list_eqb_eq {A} (eqb : A -> A -> bool) :
  (forall x y, eqb x y = true <-> x = y) ->
  forall l1 l2, list_eqb eqb l1 l2 = true <-> l1 = l2.
Proof.
  intros H l1. induction l1 as [|x r IH]; intros [|y s]; cbn; try (split; [discriminate|discriminate]).
  - tauto.
  - rewrite andb_true_iff, H, IH. split.
    + intros [-> ->]. reflexivity.
    + intro E. inversion E. auto.
Qed.

Lemma pairN_eqb_eq a b : pairN_eqb a b = true <-> a = b.
Proof.
  destruct a, b; unfold pairN_eqb; cbn. rewrite andb_true_iff, !N.eqb_eq.
  split; [intros [-> ->]; reflexivity|intro E; inversion E; auto].
Qed.

Lemma row_eqb_eq a b : row_eqb a b = true <-> a = b.
Proof.
  destruct a, b; unfold row_eqb; cbn.
  rewrite andb_true_iff, N.eqb_eq, (list_eqb_eq pairN_eqb pairN_eqb_eq).
  split; [intros [-> ->]; reflexivity|intro E; inversion E; auto].
Qed.

(** C10 ([C10_intern_equality_exact]): interning identifies exactly the identical automata. *)
Theorem dfa_eqb_eq a b : dfa_eqb a b = true <-> a = b.
Proof.
  destruct a as [s1 t1 a1 i1], b as [s2 t2 a2 i2]; unfold dfa_eqb; cbn.
  rewrite !andb_true_iff, N.eqb_eq, (list_eqb_eq row_eqb row_eqb_eq),
    (list_eqb_eq N.eqb N.eqb_eq), (list_eqb_eq inp_eqb inp_eqb_eq).
  split.
  - intros [[[-> ->] ->] ->]. reflexivity.
  - intro E. inversion E. auto.
Qed.

Corollary dfa_eqb_same_language a b :
  dfa_eqb a b = true -> forall w, accepts a w = accepts b w.
Proof. intros H w. apply dfa_eqb_eq in H. subst. reflexivity. Qed.

(** The within-word automata of [a[b]] and [b[a]] (from the grammar `cmd a[b] x | b[a] y;`): same
    start, transitions and accepting states over input ids, but id 0 is "a" in one pool and "b" in
    the other. *)
Definition wit_ab : dfa :=
  mkdfa 0 [(0, [(0, 1)]); (1, [(1, 2)])] [1; 2] [ILit "a" None 0; ILit "b" None 0].
Definition wit_ba : dfa :=
  mkdfa 0 [(0, [(0, 1)]); (1, [(1, 2)])] [1; 2] [ILit "b" None 0; ILit "a" None 0].

Definition texts (d : dfa) (w : list N) : list (option inp) := map (nthN (d_inputs d)) w.

Lemma unordered_comparison_refuted :
  dfa_eqb_unordered wit_ab wit_ba = true /\ dfa_eqb wit_ab wit_ba = false
  /\ accepts wit_ab [0] = true /\ texts wit_ab [0] = [Some (ILit "a" None 0)]
  /\ accepts wit_ba [0] = true /\ texts wit_ba [0] = [Some (ILit "b" None 0)].
Proof. vm_compute. repeat split; reflexivity. Qed.
