(** C04, bash: the WHOLE emitted script ([Model/EmitBash.script]) is read back by the specification-side
    reader, as the statement list [BashScript.script_stmts].  The skeleton is cut into line-aligned units
    (templates of gen/TplBash.v), each read line by line ([ScriptGen.unit_lines]); the few lines that carry
    the command name at statement indentation have a lemma each; the data sections are read by
    Proofs/BashCodec.v. *)
From Coq Require Import DecimalString.
From CG Require Import Base.Prelude Model.Ast Model.Dfa Model.Tpl Model.Quote Model.Tables Model.EmitBash
     Spec.ShellDQ Spec.ScriptRead Proofs.TablesSound Proofs.QuoteRT Proofs.BashCodec Proofs.BashScript Proofs.ScriptGen.
From CGgen Require Import Consts TplBash.
Open Scope N_scope.
Open Scope list_scope.

Notation line_semB := (line_semG Bash).
Notation scansB := (scansE Bash).

Lemma bdeep x : stmt_of Bash (append "     " x) = None.
Proof. reflexivity. Qed.
Lemma bblank rest : stmt_of Bash (append nl rest) = None.
Proof. reflexivity. Qed.

(** [    _<cmd><suffix> "$1" "$2"]: the call that ends a wrapper *)
Definition call_sem cmd suf Hc H1 := bz_call_sem bz_bash cmd suf "$1"" ""$2""" Hc H1 eq_refl.

(** complete -o nospace -F _<cmd> <cmd> *)
Lemma register_sem cmd :
  name_ok cmd ->
  line_semB cmd (append "complete -o nospace -F _" (append cmd (append " " cmd)))
           (Some (SRegister [append "_" cmd; cmd])).
Proof.
  intros [Hne Hc]. pose proof (name_ok_no_nl cmd (conj Hne Hc)) as Hnl.
  split; [|split; [|exact I]].
  - nonl Hnl Hnl.
  - intros rest. rewrite !append_assoc. change (stmt_of Bash) with bash_stmt. unfold bash_stmt, bz_stmt.
    do 7 (rewrite alt_skip by reflexivity). apply alt_take.
    change ("complete -o nospace -F _" ++ cmd ++ " " ++ cmd ++ nl ++ rest)%string
      with ("complete -o nospace -F " ++ ("_" ++ cmd) ++ " " ++ cmd ++ nl ++ rest)%string.
    rewrite pbind_lit. apply names_eol; split; [discriminate | exact Hc | exact Hne | exact Hc].
Qed.

Lemma reads_accepting acc : reads_as Bash (write_accepting_states acc) (acc_stmt acc).
Proof.
  unfold write_accepting_states, acc_stmt.
  eapply reads_tpl; [apply (bz_reads_pairs bz_bash "" "accepting_states" (acc_pairs acc)); vn|].
  unfold pairs_line, acc_pairs. rewrite map_map. reflexivity.
Qed.

Section Wrappers.
Variable command : string.
Hypothesis Hc : name_ok command.

Lemma wrapper_scans id t acc :
  scansB command (append (write_subword_wrapper_fn command id t acc) nl) (wrapper_stmts command id t acc).
Proof.
  pose proof (sub_suffix_ok "_subword_" id eq_refl) as S1.
  unfold write_subword_wrapper_fn, wrapper_stmts. rewrite !append_assoc. cbn [app].
  apply scansE_cons; [unit_by bdeep ltac:(open_line (bz_header_sem bz_bash command _ Hc S1 eq_refl); constructor)|].
  apply scansE_cons; [apply reads_scans1, reads_accepting|].
  apply scansE_cons; [apply reads_scans1, reads_literals|].
  apply scansE_app; [apply reads_scansG, reads_match|].
  apply scansE_app; [apply reads_scansG, reads_completion|].
  apply scansE_cons; [unit_by bdeep ltac:(open_line (call_sem command "_subword" Hc eq_refl); constructor)|].
  apply scansE_cons; [plain_unit bdeep | apply (blank_scansG Bash bblank)].
Qed.

Lemma shape_fn_scans sid t :
  scansB command (append (write_subword_shape_fn command sid t) nl) (shape_fn_stmts command sid t).
Proof.
  pose proof (sub_suffix_ok "_subword_shape_" sid eq_refl) as S1.
  unfold write_subword_shape_fn, shape_fn_stmts. rewrite !append_assoc. cbn [app].
  apply scansE_cons; [unit_by bdeep ltac:(open_line (bz_header_sem bz_bash command _ Hc S1 eq_refl); constructor)|].
  apply scansE_app; [apply reads_scansG, reads_match|].
  apply scansE_app; [apply reads_scansG, reads_completion|].
  apply scansE_cons; [unit_by bdeep ltac:(open_line (call_sem command "_subword" Hc eq_refl); constructor)|].
  apply scansE_cons; [plain_unit bdeep | apply (blank_scansG Bash bblank)].
Qed.

Lemma shape_wrapper_scans id sid t acc :
  scansB command (append (write_subword_shape_wrapper_fn command id sid t acc) nl)
         (shape_wrapper_stmts command id sid t acc).
Proof.
  pose proof (sub_suffix_ok "_subword_" id eq_refl) as S1.
  pose proof (sub_suffix_ok "_subword_shape_" sid eq_refl) as T1.
  unfold write_subword_shape_wrapper_fn, shape_wrapper_stmts. rewrite !append_assoc.
  apply scansE_cons; [unit_by bdeep ltac:(open_line (bz_header_sem bz_bash command _ Hc S1 eq_refl); constructor)|].
  apply scansE_cons; [apply reads_scans1, reads_accepting|].
  apply scansE_cons; [apply reads_scans1, reads_literals|].
  apply scansE_cons; [unit_by bdeep ltac:(open_line (call_sem command _ Hc T1); constructor)|].
  apply scansE_cons; [plain_unit bdeep | apply (blank_scansG Bash bblank)].
Qed.

Lemma group_scans a sid group text :
  write_group command a sid group = Ok text ->
  exists sts, group_stmts command a sid group = Ok sts /\ scansB command text sts.
Proof.
  intros H. destruct group as [|id [|id2 rest]]; [discriminate H | |]; unfold write_group in H; unfold group_stmts.
  - apply obind_ok in H. destruct H as [t [Ht H]]. apply obind_ok in H. destruct H as [acc [Hacc H]].
    rewrite Ht. cbn [obind]. rewrite Hacc. cbn [obind]. eexists. split; [reflexivity|].
    apply Ok_inj in H. subst. apply wrapper_scans.
  - apply obind_ok in H. destruct H as [lt [Hlt H]]. apply obind_ok in H. destruct H as [ws [Hws H]].
    rewrite Hlt. cbn [obind].
    apply (omap_scansE Bash command _ (fun id => do t <- tables_of_id a id; do acc <- accepting_of_id a id;
                                                 Ok (shape_wrapper_stmts command id sid t acc))) in Hws.
    + destruct Hws as [stss [Hs Hn]]. rewrite Hs. cbn [obind]. eexists. split; [reflexivity|]. apply Ok_inj in H. subst.
      rewrite <- (append_assoc (write_subword_shape_fn command sid lt)). apply scansE_app; [apply shape_fn_scans | exact Hn].
    + intros x text' Hx. apply obind_ok in Hx. destruct Hx as [t [Ht Hx]]. apply obind_ok in Hx. destruct Hx as [acc [Hacc Hx]].
      rewrite Ht. cbn [obind]. rewrite Hacc. cbn [obind]. eexists. split; [reflexivity|].
      apply Ok_inj in Hx. subst. apply shape_wrapper_scans.
Qed.
End Wrappers.

Lemma cmd_fns_scans command (Hc : name_ok command) ics :
  Forall (fun ic => body_ok (cmd_body (snd ic))) ics ->
  scansB command
    (sconcat (map (fun ic : N * string => fmtln write_completion_script_1
                                            (("id", sN (fst ic)) :: ("cmd", cmd_body (snd ic)) :: env_cmd command)) ics))
    (cmd_fns_stmts command ics).
Proof.
  apply (cmd_fns_scansG Bash "     " bdeep bblank command
           (fun id => append "_" (append command (append (append "_cmd_" (sN id)) " () {")))
           (fun id => fn_name command (append "_cmd_" (sN id))) _ cmd_body).
  - intros ic. unfold cmd_fn_textG. rewrite fmtln_renderln, !append_assoc. reflexivity.
  - discriminate.
  - intros id. pose proof (sub_suffix_ok "_cmd_" id eq_refl) as S1. apply (bz_header_reads bz_bash command _ Hc S1).
  - intros id. apply is_cmd_fn_true.
Qed.

Lemma sub_fn_scans command (Hc : name_ok command) nc ns :
  scansB command (write_subword_fn command nc ns) (sub_fn_stmts command).
Proof.
  unfold write_subword_fn, fmt. cbn [sconcat]. fold (env_cmd command).
  change (sub_fn_stmts command)
    with ([SFunc (fn_name command "_subword"); SScalar "subword_state" 0; SScalar "char_index" 0; SScalar "matched" 0]
          ++ [SLits "subword_candidates" []; SLits "subword_matches" []] ++ [SEnd]).
  apply scansE_app; [unit_by bdeep ltac:(open_line (bz_header_sem bz_bash command "_subword" Hc eq_refl eq_refl); constructor)|].
  apply scansE_app0; [apply scansE_if0; plain_unit bdeep|].
  apply scansE_app0; [plain_unit bdeep|].
  apply scansE_app0; [apply scansE_if0; plain_unit bdeep|].
  apply scansE_app0; [apply scansE_if0; plain_unit bdeep|].
  apply scansE_app0; [plain_unit bdeep|].
  apply scansE_app0; [plain_unit bdeep|].
  apply scansE_app; [plain_unit bdeep|].
  apply scansE_app0; [apply scansE_if0; plain_unit bdeep|].
  (* the last line of template 9 ends with the first newline of template 10 *)
  rewrite (fmtln_unit write_subword_fn_10), render_snoc_nl, append_nil_r, <- render_app. plain_unit bdeep.
Qed.

Lemma subtrans_text a rows_text :
  omap (fun row : N * list (N * N) =>
          do kvs <- omap (fun pt : N * N => do id <- script_id a (fst pt); Ok (kv (id, snd pt))) (snd row);
          Ok (fmtln write_completion_script_5 [("state", sN (fst row)); ("state_transitions", join " " kvs)]))
       (a_subtrans a) = Ok rows_text ->
  exists rows, subtrans_rows a = Ok rows
    /\ rows_text = map (fun row : N * list (N * N) =>
                          fmtln write_completion_script_5
                            [("state", sN (fst row)); ("state_transitions", join " " (map kv (snd row)))]) rows.
Proof.
  apply omap_map_ok. intros row text H. apply obind_ok in H. destruct H as [kvs [Hk H]].
  apply (omap_map_ok kv _ (fun pt : N * N => do id <- script_id a (fst pt); Ok (id, snd pt))) in Hk.
  - destruct Hk as [pairs [Hp ->]]. rewrite Hp. cbn [obind]. eexists. split; [reflexivity|]. apply Ok_inj in H. subst. reflexivity.
  - intros pt y Hy. apply obind_ok in Hy. destruct Hy as [id [Hid Hy]]. rewrite Hid. cbn [obind].
    eexists. split; [reflexivity|]. apply Ok_inj in Hy. subst. reflexivity.
Qed.

Lemma subtrans_scans cmd (rows : list (N * list (N * N))) :
  scansB cmd
    (append (fmtln write_completion_script_4 [])
       (sconcat (map (fun row : N * list (N * N) =>
                        fmtln write_completion_script_5
                          [("state", sN (fst row)); ("state_transitions", join " " (map kv (snd row)))]) rows)))
    (SDecl "subword_transitions" :: row_stmts "subword_transitions" rows).
Proof.
  apply scansE_cons; [plain_unit bdeep | apply reads_scansG, reads_subrows].
Qed.

Theorem bash_script_read command sig start nd a groups s :
  name_ok command -> no_nl sig = true ->
  Forall (fun c => body_ok (cmd_body c)) (a_commands a) ->
  script command sig start nd a groups = Ok s ->
  exists sts, script_stmts command start nd a groups = Ok sts /\ read_stmts Bash command s = sts.
Proof.
  intros Hc Hsig Hbodies H. unfold script in H. unfold script_stmts.
  refine (read_two Bash command (scansB command) (scansB command) _ _ _ _ _ _ s _ _ _ H).
  - (* the groups and the matcher *)
    intros subs_part Hsubs. destruct (n_subwords nd).
    + apply obind_ok in Hsubs. destruct Hsubs as [texts [Ht Hs]].
      apply (omap_scansE Bash command _ (fun ig : N * list N => group_stmts command a (fst ig) (snd ig))) in Ht;
        [|intros ig text; apply (group_scans command Hc)].
      destruct Ht as [stss [-> Hn]]. cbn [obind]. eexists. split; [reflexivity|]. apply Ok_inj in Hs. subst.
      apply scansE_app; [exact Hn | apply (sub_fn_scans command Hc)].
    + apply Ok_inj in Hsubs. subst. exists []. split; [reflexivity | apply scansE_nil].
  - (* the within-word transitions of the completion function *)
    intros subtrans_part Hst. destruct (n_subwords nd).
    + apply obind_ok in Hst. destruct Hst as [rows_text [Hr Hs]].
      destruct (subtrans_text a rows_text Hr) as [rows [-> ->]]. cbn [obind].
      eexists. split; [reflexivity|]. apply Ok_inj in Hs. subst. apply subtrans_scans.
    + apply Ok_inj in Hst. subst. exists []. split; [reflexivity | apply scansE_nil].
  - intros subs_part gs subtrans_part st Hgn Hstn.
    cbn [sconcat]. unfold fmt. rewrite fmtln_unit. fold (env_cmd command).
    rewrite <- (append_assoc (render (env_cmd command) write_completion_script_2)), <- render_app.
    rewrite (append_nil_r (render (env_cmd command) write_completion_script_17)).
    change [SLits "candidates" []; SLits "matches" []; SScalar "max_fallback_level" (t_maxlevel (a_main a)); SEnd;
            SRegister [("_" ++ command)%string; command]]
      with ([SLits "candidates" []; SLits "matches" []; SScalar "max_fallback_level" (t_maxlevel (a_main a))]
            ++ [SEnd; SRegister [("_" ++ command)%string; command]]).
    apply scansE_app0; [apply (sig_scansG Bash command sig (fun _ => eq_refl) Hsig)|].
    apply scansE_app0; [plain_unit bdeep|].
    apply scansE_app; [apply (cmd_fns_scans command Hc), (Forall_number_from (fun c => body_ok (cmd_body c))), Hbodies|].
    apply scansE_app; [exact Hgn|].
    apply scansE_cons; [unit_by bdeep ltac:(open_line (bz_header_main_sem bz_bash command Hc); constructor)|].
    apply scansE_cons; [apply reads_scans1, reads_literals|].
    apply scansE_app; [apply reads_scansG, reads_match|].
    apply scansE_app; [exact Hstn|].
    apply scansE_app; [unit_by bdeep ltac:(open_line (bz_scalar_sem bz_bash command "state" start ltac:(vn) eq_refl); constructor)|].
    apply scansE_app0; [apply scansE_if0; plain_unit bdeep|].
    apply scansE_app0; [apply scansE_if0; plain_unit bdeep|].
    apply scansE_app0; [apply scansE_if0; plain_unit bdeep|].
    apply scansE_app0; [plain_unit bdeep|].
    apply scansE_app; [apply reads_scansG, reads_completion|].
    apply scansE_app; [apply scansE_if, reads_scansG, reads_sublevels|].
    apply scans_nl_after;
      [unit_by bdeep ltac:(open_line (bz_scalar_sem bz_bash command "max_fallback_level" (t_maxlevel (a_main a)) ltac:(vn) eq_refl); constructor)|].
    apply scans_nl_if0; [reflexivity | plain_unit bdeep|].
    apply scans_nl_if0; [reflexivity | plain_unit bdeep|].
    apply scans_nl_last; [reflexivity|].
    apply scansE_app0; [plain_unit bdeep|].
    unit_by bdeep ltac:(open_line (register_sem command Hc); constructor).
Qed.
