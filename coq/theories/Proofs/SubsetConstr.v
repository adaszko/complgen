(** L-subset: correctness of the subset construction work-list loop of [Model/Subset.v], for an
    arbitrary pop order [pick].  Statements are in [Proofs/SubsetStmt.v]. *)
From CG Require Import Base.Prelude Base.Facts Proofs.ListFacts Model.Ast Model.Dfa Model.Regex Model.Subset
     Proofs.DfaEquivProofs Proofs.RxLang Proofs.Glushkov Proofs.SubsetStmt.

Lemma listN_eqb_eq : forall a b, listN_eqb a b = true <-> a = b.
Proof.
  induction a as [|x a IH]; intros [|y b]; cbn; autorewrite with eqb; try rewrite IH;
    intuition congruence.
Qed.
#[export] Hint Rewrite listN_eqb_eq : eqb.

Lemma NoDup_fst_fun : forall {A B} (l : list (A * B)) a b b',
  NoDup (map fst l) -> In (a, b) l -> In (a, b') l -> b = b'.
Proof.
  intros A B l a b b' Hnd H1 H2.
  assert (E : (a, b) = (a, b')) by (eapply (NoDup_map_inj fst); eauto).
  now inversion E.
Qed.

Lemma NoDup_snd_fun : forall {A B} (l : list (A * B)) a a' b,
  NoDup (map snd l) -> In (a, b) l -> In (a', b) l -> a = a'.
Proof.
  intros A B l a a' b Hnd H1 H2.
  assert (E : (a, b) = (a', b)) by (eapply (NoDup_map_inj snd); eauto).
  now inversion E.
Qed.

Definition tin (t : list (N * list N)) (p q : N) : Prop :=
  exists s, assocN p t = Some s /\ In q s.

Fixpoint tsorted (t : list (N * list N)) : Prop :=
  match t with
  | [] => True
  | (k, _) :: r => Forall (fun kv => k < fst kv) r /\ tsorted r
  end.

Lemma assocN_lb : forall k p (r : list (N * list N)),
  Forall (fun kv => k < fst kv) r -> p <= k -> assocN p r = None.
Proof.
  intros k p r H Hle. apply assocN_None. intros Hin.
  apply in_map_iff in Hin. destruct Hin as [[k' v] [E Hin]]. cbn in E. subst k'.
  rewrite Forall_forall in H. apply H in Hin. cbn in Hin. lia.
Qed.

Lemma tbl_add_lb : forall lb p q t,
  Forall (fun kv => lb < fst kv) t -> lb < p ->
  Forall (fun kv : N * list N => lb < fst kv) (tbl_add p q t).
Proof.
  induction t as [|[k s] r IH]; cbn [tbl_add]; intros H Hlt.
  - constructor; [exact Hlt|constructor].
  - inversion H as [|? ? Hk Hr]; subst. cbn in Hk.
    destruct (N.ltb_spec p k).
    + constructor; [exact Hlt|exact H].
    + destruct (N.eqb_spec p k) as [->|Hne].
      * constructor; [exact Hk|exact Hr].
      * constructor; [exact Hk|now apply IH].
Qed.

Lemma tbl_add_sorted : forall p q t, tsorted t -> tsorted (tbl_add p q t).
Proof.
  induction t as [|[k s] r IH]; cbn [tbl_add]; intros H.
  - cbn. split; [constructor|exact I].
  - destruct H as [Hk Hr].
    destruct (N.ltb_spec p k).
    + cbn [tsorted]. split; [|split; assumption].
      constructor; [exact H|].
      eapply Forall_impl; [|exact Hk]. cbn. intros; lia.
    + destruct (N.eqb_spec p k) as [->|Hne].
      * cbn [tsorted]. split; assumption.
      * cbn [tsorted]. split; [|now apply IH].
        apply tbl_add_lb; [exact Hk|lia].
Qed.

Lemma tsorted_assoc : forall t p s, tsorted t -> (assocN p t = Some s <-> In (p, s) t).
Proof.
  intros t p s Hs. split; [apply assocN_In|].
  induction t as [|[k v] t IH]; intros Hin; [destruct Hin|]. destruct Hs as [Hlt Hs]. cbn [assocN].
  destruct Hin as [E|Hin].
  - injection E as -> ->. rewrite N.eqb_refl. reflexivity.
  - rewrite Forall_forall in Hlt. specialize (Hlt _ Hin). cbn in Hlt.
    destruct (N.eqb_spec p k); [lia | auto].
Qed.

Lemma tbl_add_assoc : forall p q t p', tsorted t ->
  assocN p' (tbl_add p q t) =
  if N.eqb p' p then Some (match assocN p t with Some s => pins q s | None => [q] end)
  else assocN p' t.
Proof.
  induction t as [|[k s] r IH]; intros p' Hs; cbn [tbl_add assocN]; [reflexivity|].
  destruct Hs as [Hk Hr]. destruct (N.ltb_spec p k); [|destruct (N.eqb_spec p k) as [->|Hne]].
  - cbn [assocN]. destruct (N.eqb_spec p' p) as [->|_]; [|reflexivity].
    destruct (N.eqb_spec p k); [lia|]. rewrite (assocN_lb k p r Hk) by lia. reflexivity.
  - cbn [assocN]. destruct (N.eqb p' k); reflexivity.
  - cbn [assocN]. rewrite (IH p' Hr). destruct (N.eqb_spec p' k) as [->|_]; [|reflexivity].
    destruct (N.eqb_spec k p); [congruence | reflexivity].
Qed.

Lemma tbl_add_tin : forall p q t p' q',
  tsorted t -> (tin (tbl_add p q t) p' q' <-> (p' = p /\ q' = q) \/ tin t p' q').
Proof.
  intros p q t p' q' Hs. unfold tin. rewrite (tbl_add_assoc p q t p' Hs).
  destruct (N.eqb_spec p' p) as [->|Hne].
  - destruct (assocN p t) as [s|]; split.
    + intros [s' [E Hin]]. injection E as <-. apply in_pins in Hin. destruct Hin as [->|Hin]; eauto.
    + intros [[_ ->]|[s' [E Hin]]]; (eexists; split; [reflexivity|]); apply in_pins; [auto|].
      injection E as <-. auto.
    + intros [s' [E Hin]]. injection E as <-. destruct Hin as [->|[]]. auto.
    + intros [[_ ->]|[s' [E _]]]; [|discriminate]. exists [q]. split; [reflexivity | left; reflexivity].
  - split; [auto|]. intros [[E _]|H]; [contradiction | exact H].
Qed.

Lemma follow_table_gen : forall F t,
  tsorted t ->
  tsorted (fold_left (fun t pq => tbl_add (fst pq) (snd pq) t) F t) /\
  forall p q, tin (fold_left (fun t pq => tbl_add (fst pq) (snd pq) t) F t) p q <->
              In (p, q) F \/ tin t p q.
Proof.
  induction F as [|[a b] F IH]; intros t Hs; cbn [fold_left].
  - split; [exact Hs|]. intros p q. cbn. intuition.
  - destruct (IH (tbl_add a b t) (tbl_add_sorted a b t Hs)) as [IH1 IH2].
    split; [exact IH1|]. intros p q. rewrite IH2. cbn [fst snd].
    rewrite tbl_add_tin by exact Hs. cbn [In]. split.
    + intros [H|[[-> ->]|H]]; auto.
    + intros [[E|H]|H]; auto. inversion E; subst. auto.
Qed.

Lemma follow_table_tin : forall F p q, tin (follow_table F) p q <-> In (p, q) F.
Proof.
  intros F p q. unfold follow_table.
  destruct (follow_table_gen F [] I) as [_ H]. rewrite H.
  split; [|now left]. intros [H'|[s [E _]]]; [exact H'|discriminate].
Qed.

Section Reach.
  Variable labels : list inp.
  Variable F : list (N * N).
  Variable fw : list (N * list N).
  Variable inputs : list inp.
  Hypothesis fw_ok : forall p q, tin fw p q <-> In (p, q) F.

  Let tstep := fun (x : inp) (acc : list N) (p : N) =>
                 match nthN labels p with
                 | Some y => if inp_eqb y x
                             then match assocN p fw with
                                  | Some f => punion acc f
                                  | None => acc
                                  end
                             else acc
                 | None => acc
                 end.

  Lemma tstep_In : forall x acc p q,
    In q (tstep x acc p) <-> In q acc \/ (nthN labels p = Some x /\ In (p, q) F).
  Proof.
    intros x acc p q. unfold tstep. rewrite <- fw_ok. unfold tin.
    destruct (nthN labels p) as [y|]; [|split; [auto | intros [H|[E _]]; [exact H | discriminate]]].
    destruct (inp_eqb y x) eqn:Eyx.
    - apply inp_eqb_eq in Eyx. subst y. destruct (assocN p fw) as [f|].
      + rewrite in_punion. split.
        * intros [H|H]; eauto.
        * intros [H|[_ [s [E H]]]]; [auto|]. injection E as <-. auto.
      + split; [auto|]. intros [H|[_ [s [E _]]]]; [exact H | discriminate].
    - split; [auto|]. intros [H|[E _]]; [exact H|]. injection E as ->.
      rewrite (proj2 (inp_eqb_eq x x) eq_refl) in Eyx. discriminate.
  Qed.

  Lemma target_gen : forall x S acc q,
    In q (fold_left (tstep x) S acc) <->
    In q acc \/ exists p, In p S /\ nthN labels p = Some x /\ In (p, q) F.
  Proof.
    induction S as [|a S IH]; intros acc q; cbn [fold_left].
    - split; [now left|]. intros [H|[p [[] _]]]. exact H.
    - rewrite IH, tstep_In. split.
      + intros [[H|H]|[p [Hp H]]]; [auto | right; exists a | right; exists p]; cbn; auto.
      + intros [H|[p [[->|Hp] H]]]; eauto.
  Qed.

  Lemma target_In : forall S x q,
    In q (target labels fw S x) <->
    exists p, In p S /\ nthN labels p = Some x /\ In (p, q) F.
  Proof.
    intros S x q. unfold target. fold (tstep x). rewrite target_gen.
    split; [|now right]. intros [[]|H]. exact H.
  Qed.

  Lemma target_nil : forall x, target labels fw [] x = [].
  Proof. reflexivity. Qed.

  Lemma reach_from_nil : forall ids, reach_from labels fw inputs [] ids = [].
  Proof.
    induction ids as [|i ids IH]; cbn [reach_from]; [reflexivity|].
    destruct (nthN inputs i); [|reflexivity]. rewrite target_nil. exact IH.
  Qed.

  Definition lab_ok (p i : N) : Prop :=
    exists x, nthN labels p = Some x /\ nthN inputs i = Some x.

  (** A position word from the set [S] along [F]-edges, followed by [q]. *)
  Definition path_from (S : list N) (ps : list N) (q : N) : Prop :=
    match ps with
    | [] => In q S
    | a :: r => In a S /\ chain F a r /\ In (last r a, q) F
    end.

  Lemma reach_from_In : forall ids S q,
    In q (reach_from labels fw inputs S ids) <->
    exists ps, Forall2 lab_ok ps ids /\ path_from S ps q.
  Proof.
    induction ids as [|i ids IH]; intros S q; cbn [reach_from].
    - split.
      + intros H. exists []. split; [constructor|exact H].
      + intros [ps [H2 Hp]]. inversion H2; subst. exact Hp.
    - destruct (nthN inputs i) as [x|] eqn:Ei.
      + rewrite IH. split.
        * intros [ps [H2 Hp]]. destruct ps as [|b r]; cbn [path_from] in Hp.
          -- apply target_In in Hp. destruct Hp as [a [Ha [Hl HF]]].
             exists [a]. split.
             ++ constructor; [|exact H2]. exists x. now split.
             ++ cbn. now repeat split.
          -- destruct Hp as [Hb [Hc Hlast]].
             apply target_In in Hb. destruct Hb as [a [Ha [Hl HF]]].
             exists (a :: b :: r). split.
             ++ constructor; [|exact H2]. exists x. now split.
             ++ cbn [path_from chain]. rewrite last_cons. now repeat split.
        * intros [ps [H2 Hp]]. inversion H2 as [|a i' r ids' Hlab H2']; subst.
          destruct Hlab as [x' [Hl Hi]]. rewrite Ei in Hi. inversion Hi; subst x'.
          cbn [path_from] in Hp. destruct Hp as [Ha [Hc Hlast]].
          exists r. split; [exact H2'|].
          destruct r as [|b r]; cbn [path_from].
          -- cbn in Hlast. apply target_In. exists a. now repeat split.
          -- cbn [chain] in Hc. destruct Hc as [Hab Hc]. rewrite last_cons in Hlast.
             split; [|now split]. apply target_In. exists a. now repeat split.
      + split; [intros []|].
        intros [ps [H2 _]]. inversion H2 as [|a i' r ids' Hlab H2']; subst.
        destruct Hlab as [x' [_ Hi]]. congruence.
  Qed.
End Reach.

Lemma regex_reach_In : forall r labels inputs ids S q,
  In q (reach_from labels (regex_follow r) inputs S ids) <->
  exists ps, Forall2 (lab_ok labels inputs) ps ids /\ path_from (followpos (r_tree r)) S ps q.
Proof. intros. apply reach_from_In. apply follow_table_tin. Qed.

Lemma find_set_Some : forall S ids s, find_set S ids = Some s -> In (S, s) ids.
Proof.
  induction ids as [|[S' i] ids IH]; cbn [find_set]; intros s H; [discriminate|].
  destruct (listN_eqb S' S) eqn:E.
  - apply listN_eqb_eq in E. inversion H; subst. now left.
  - right. now apply IH.
Qed.

Lemma find_set_None : forall S ids, find_set S ids = None -> ~ In S (map fst ids).
Proof.
  induction ids as [|[S' i] ids IH]; cbn [find_set map fst In]; intros H; [intros []|].
  destruct (listN_eqb S' S) eqn:E; [discriminate|].
  intros [->|H']; [|now apply IH].
  assert (listN_eqb S S = true) by now apply listN_eqb_eq. congruence.
Qed.

Lemma find_set_complete : forall S ids, In S (map fst ids) -> exists s, find_set S ids = Some s.
Proof.
  intros S ids H. destruct (find_set S ids) eqn:E; [eauto|]. destruct (find_set_None _ _ E H).
Qed.

Lemma remove_nth_split : forall {A} n (l : list A) x,
  nth_error l n = Some x -> exists l1 l2, l = l1 ++ x :: l2 /\ remove_nth n l = l1 ++ l2.
Proof.
  induction n as [|n IH]; intros [|a l] x H; cbn in H; try discriminate.
  - inversion H; subst. exists [], l. now split.
  - destruct (IH l x H) as [l1 [l2 [E1 E2]]].
    exists (a :: l1), l2. cbn. now rewrite <- E1, E2.
Qed.

Lemma pop_Some : forall {A} n (l : list A) x rest,
  pop n l = Some (x, rest) -> exists l1 l2, l = l1 ++ x :: l2 /\ rest = l1 ++ l2.
Proof.
  unfold pop. intros A n l x rest H.
  destruct (nth_error l n) as [y|] eqn:E.
  - inversion H; subst. now apply remove_nth_split.
  - destruct l as [|a l]; [discriminate|]. inversion H; subst. exists [], rest. now split.
Qed.

Lemma pop_None : forall {A} n (l : list A), pop n l = None -> l = [].
Proof.
  unfold pop. intros A n l H.
  destruct (nth_error l n); [discriminate|]. destruct l; [reflexivity|discriminate].
Qed.

Section LoopInv.
  Variable labels : list inp.
  Variable fw : list (N * list N).
  Variable inputs : list inp.
  Variable start : list N.

  Local Notation reach := (reach_from labels fw inputs).

  Definition sstep (S : list N) (i : N) : list N :=
    match nthN inputs i with Some x => target labels fw S x | None => [] end.

  Lemma reach_cons : forall S i w, reach S (i :: w) = reach (sstep S i) w.
  Proof.
    intros. unfold sstep. cbn [reach_from]. destruct (nthN inputs i); [reflexivity|].
    symmetry. apply reach_from_nil.
  Qed.

  Lemma reach_app : forall w S w', reach S (w ++ w') = reach (reach S w) w'.
  Proof.
    induction w as [|i w IH]; intros S w'; [reflexivity|].
    cbn [app]. rewrite !reach_cons. apply IH.
  Qed.

  (** The second clause: an empty stored set can only be the start set, reached by the empty word.
      [subset_run] needs, for every stored set, a word on which [run] does not fall off the
      automaton. *)
  Definition reachable (S : list N) : Prop :=
    exists w, reach start w = S /\ (S = [] -> w = []).

  Lemma reachable_step : forall S i, reachable S -> sstep S i <> [] -> reachable (sstep S i).
  Proof.
    intros S i [w [Hw _]] Hne. exists (w ++ [i]). split.
    - rewrite reach_app, Hw, reach_cons. reflexivity.
    - intros E. contradiction.
  Qed.

  Definition row_ok (ids : list (list N * N)) (S : list N) (row : list (N * N)) : Prop :=
    forall i, match assocN i row with
              | Some to => sstep S i <> [] /\ In (sstep S i, to) ids
              | None => sstep S i = []
              end.

  Lemma row_ok_mono : forall ids ids' S row, incl ids ids' -> row_ok ids S row -> row_ok ids' S row.
  Proof.
    intros ids ids' S row Hi H i. specialize (H i).
    destruct (assocN i row); [|exact H]. destruct H as [H1 H2]. split; [exact H1|now apply Hi].
  Qed.

  (** [done]: the state ids already popped from the work list.  Between iterations it is
      [map fst (s_trans st)]; inside one, the popped id stands in front of it while its row is
      being built ([Inv_pop], [Inv_row]). *)
  Record Inv (done : list N) (st : sst) : Prop := mkInv {
    inv_nd_fst : NoDup (map fst (s_ids st));
    inv_nd_snd : NoDup (map snd (s_ids st));
    inv_lt : forall S s, In (S, s) (s_ids st) -> s < s_next st;
    inv_nd_todo : NoDup (s_todo st);
    inv_todo : forall T, In T (s_todo st) <-> exists t, In (T, t) (s_ids st) /\ ~ In t done;
    inv_nd_trans : NoDup (map fst (s_trans st));
    inv_rows : forall s row, In (s, row) (s_trans st) ->
                 exists S, In (S, s) (s_ids st) /\ row_ok (s_ids st) S row /\ NoDup (map fst row);
    inv_reach : forall S s, In (S, s) (s_ids st) -> reachable S;
    inv_done : forall s, In s done -> In s (map snd (s_ids st))
  }.

  Lemma Inv_init : forall s0,
    Inv [] (mksst [(start, s0)] (N.succ s0) [] [start]).
  Proof.
    intros s0. constructor; cbn [s_ids s_next s_trans s_todo map fst snd].
    - constructor; [intros []|constructor].
    - constructor; [intros []|constructor].
    - intros S s [E|[]]. inversion E; subst. lia.
    - constructor; [intros []|constructor].
    - intros T. split.
      + intros [<-|[]]. exists s0. split; [now left|intros []].
      + intros [t [[E|[]] _]]. inversion E; subst. now left.
    - constructor.
    - intros s row [].
    - intros S s [E|[]]. inversion E; subst. exists []. split; [reflexivity|reflexivity].
    - intros s [].
  Qed.

  Lemma Inv_alloc : forall done st t,
    Inv done st -> reachable t -> ~ In t (map fst (s_ids st)) ->
    Inv done (mksst (s_ids st ++ [(t, s_next st)]) (N.succ (s_next st)) (s_trans st)
                    (s_todo st ++ [t])).
  Proof.
    intros done st t HI Hr Hnew.
    assert (Hfresh : ~ In (s_next st) (map snd (s_ids st))).
    { intros H. apply in_map_iff in H. destruct H as [[S s] [E Hin]]. cbn in E. subst s.
      apply (inv_lt _ _ HI) in Hin. lia. }
    constructor; cbn [s_ids s_next s_trans s_todo].
    - rewrite map_app. cbn [map fst]. apply NoDup_snoc; [apply (inv_nd_fst _ _ HI)|exact Hnew].
    - rewrite map_app. cbn [map snd]. apply NoDup_snoc; [apply (inv_nd_snd _ _ HI)|exact Hfresh].
    - intros S s H. apply in_app_iff in H. destruct H as [H|[E|[]]].
      + apply (inv_lt _ _ HI) in H. lia.
      + inversion E; subst. lia.
    - apply NoDup_snoc; [apply (inv_nd_todo _ _ HI)|].
      intros H. apply (inv_todo _ _ HI) in H. destruct H as [t' [Hin _]].
      apply Hnew. change t with (fst (t, t')). now apply in_map.
    - intros T. rewrite in_app_iff. split.
      + intros [H|[<-|[]]].
        * apply (inv_todo _ _ HI) in H. destruct H as [t' [Hin Hnd]].
          exists t'. split; [|exact Hnd]. apply in_app_iff. now left.
        * exists (s_next st). split; [apply in_app_iff; right; now left|].
          intros H. apply Hfresh. now apply (inv_done _ _ HI).
      + intros [t' [Hin Hnd]]. apply in_app_iff in Hin. destruct Hin as [Hin|[E|[]]].
        * left. apply (inv_todo _ _ HI). now exists t'.
        * inversion E; subst. right. now left.
    - apply (inv_nd_trans _ _ HI).
    - intros s row H. destruct (inv_rows _ _ HI s row H) as [S [H1 [H2 H3]]].
      exists S. split; [apply in_app_iff; now left|]. split; [|exact H3].
      eapply row_ok_mono; [|exact H2]. intros x Hx. apply in_app_iff. now left.
    - intros S s H. apply in_app_iff in H. destruct H as [H|[E|[]]].
      + eapply (inv_reach _ _ HI); eauto.
      + inversion E; subst. exact Hr.
    - intros s H. rewrite map_app, in_app_iff. left. now apply (inv_done _ _ HI).
  Qed.

  Lemma Inv_pop : forall done st l1 S l2 from,
    Inv done st -> s_todo st = l1 ++ S :: l2 -> In (S, from) (s_ids st) ->
    Inv (from :: done) (mksst (s_ids st) (s_next st) (s_trans st) (l1 ++ l2)).
  Proof.
    intros done st l1 S l2 from HI Et Hin.
    pose proof (inv_nd_todo _ _ HI) as Hnd. rewrite Et in Hnd.
    constructor; cbn [s_ids s_next s_trans s_todo]; try apply HI.
    - eapply NoDup_remove_1; eauto.
    - intros T. split.
      + intros H.
        assert (HT : In T (s_todo st)).
        { rewrite Et. apply in_app_iff in H. apply in_app_iff. cbn. intuition. }
        apply (inv_todo _ _ HI) in HT. destruct HT as [t [Ht Hnd']].
        exists t. split; [exact Ht|]. intros [<-|H']; [|contradiction].
        assert (T = S) by (eapply NoDup_snd_fun; [apply (inv_nd_snd _ _ HI)| |]; eauto).
        subst T. apply NoDup_remove_2 in Hnd. contradiction.
      + intros [t [Ht Hnd']].
        assert (HT : In T (s_todo st)).
        { apply (inv_todo _ _ HI). exists t. split; [exact Ht|]. intros H. apply Hnd'. now right. }
        rewrite Et in HT. apply in_app_iff in HT. apply in_app_iff.
        destruct HT as [HT|[<-|HT]]; [now left| |now right].
        exfalso. apply Hnd'. left.
        eapply NoDup_fst_fun; [apply (inv_nd_fst _ _ HI)| |]; eauto.
    - intros s [<-|H].
      + change from with (snd (S, from)). now apply in_map.
      + now apply (inv_done _ _ HI).
  Qed.

  Lemma Inv_row : forall st S from row,
    Inv (from :: map fst (s_trans st)) st ->
    ~ In from (map fst (s_trans st)) ->
    In (S, from) (s_ids st) -> row_ok (s_ids st) S row -> NoDup (map fst row) ->
    Inv (map fst (s_trans st ++ [(from, row)]))
        (mksst (s_ids st) (s_next st) (s_trans st ++ [(from, row)]) (s_todo st)).
  Proof.
    intros st S from row HI Hnew Hin Hrow Hnd.
    assert (Hd : forall t, In t (map fst (s_trans st ++ [(from, row)])) <->
                           In t (from :: map fst (s_trans st))).
    { intros t. rewrite map_app, in_app_iff. cbn. intuition. }
    constructor; cbn [s_ids s_next s_trans s_todo]; try apply HI.
    - intros T. rewrite (inv_todo _ _ HI). split; intros [t [H1 H2]]; exists t; (split; [exact H1|]);
        intros H; apply H2; now apply Hd.
    - rewrite map_app. cbn [map fst]. apply NoDup_snoc; [apply (inv_nd_trans _ _ HI)|exact Hnew].
    - intros s row' H. apply in_app_iff in H. destruct H as [H|[E|[]]].
      + now apply (inv_rows _ _ HI).
      + inversion E; subst. exists S. now repeat split.
    - intros s H. apply Hd in H. now apply (inv_done _ _ HI).
  Qed.

  Lemma row_entry : forall done st s row i to,
    Inv done st -> In (s, row) (s_trans st) -> In (i, to) row ->
    nthN inputs i <> None /\ In to (map snd (s_ids st)).
  Proof.
    intros done st s row i to HI Hrow Hin.
    destruct (inv_rows _ _ HI _ _ Hrow) as [S [HS [Hok Hnd]]].
    specialize (Hok i). rewrite (in_assocN _ _ _ Hnd Hin) in Hok. destruct Hok as [Hne Hto].
    split; [|exact (in_map snd _ _ Hto)]. unfold sstep in Hne. destruct (nthN inputs i); congruence.
  Qed.

  (** The row built so far: correct below [id], no entry at or above [id]. *)
  Definition prow (ids : list (list N * N)) (S : list N) (id : N) (row : list (N * N)) : Prop :=
    (forall i, i < id -> match assocN i row with
                         | Some to => sstep S i <> [] /\ In (sstep S i, to) ids
                         | None => sstep S i = []
                         end) /\
    (forall i, In i (map fst row) -> i < id) /\
    NoDup (map fst row).

  Lemma prow_mono : forall ids ids' S id row,
    incl ids ids' -> prow ids S id row -> prow ids' S id row.
  Proof.
    intros ids ids' S id row Hi [H1 [H2 H3]]. split; [|split; assumption].
    intros i Hlt. specialize (H1 i Hlt). destruct (assocN i row); [|exact H1].
    destruct H1 as [H1 H1']. split; [exact H1|now apply Hi].
  Qed.

  Lemma prow_fresh : forall ids S id row, prow ids S id row -> assocN id row = None.
  Proof.
    intros ids S id row [_ [H2 _]]. apply assocN_None. intros H. apply H2 in H. lia.
  Qed.

  Lemma prow_skip : forall ids S id row,
    prow ids S id row -> sstep S id = [] -> prow ids S (N.succ id) row.
  Proof.
    intros ids S id row H He. pose proof (prow_fresh _ _ _ _ H) as Hf.
    destruct H as [H1 [H2 H3]]. split; [|split; [|exact H3]].
    - intros i Hlt. destruct (N.eq_dec i id) as [->|Hne].
      + rewrite Hf. exact He.
      + apply H1. lia.
    - intros i Hi. apply H2 in Hi. lia.
  Qed.

  Lemma prow_push : forall ids S id row to,
    prow ids S id row -> sstep S id <> [] -> In (sstep S id, to) ids ->
    prow ids S (N.succ id) (row ++ [(id, to)]).
  Proof.
    intros ids S id row to H Hne Hin. pose proof (prow_fresh _ _ _ _ H) as Hf.
    destruct H as [H1 [H2 H3]]. split; [|split].
    - intros i Hlt. rewrite assocN_app. destruct (N.eq_dec i id) as [->|Hne'].
      + rewrite Hf. cbn [assocN]. rewrite N.eqb_refl. now split.
      + assert (Hlt' : i < id) by lia. specialize (H1 i Hlt').
        destruct (assocN i row); [exact H1|].
        cbn [assocN]. destruct (N.eqb_spec i id); [contradiction|exact H1].
    - intros i Hi. rewrite map_app, in_app_iff in Hi. destruct Hi as [Hi|[<-|[]]].
      + apply H2 in Hi. lia.
      + cbn. lia.
    - rewrite map_app. cbn [map fst]. apply NoDup_snoc; [exact H3|].
      intros Hi. apply H2 in Hi. lia.
  Qed.

  Lemma prow_final : forall ids S row,
    prow ids S (N.of_nat (List.length inputs)) row -> row_ok ids S row /\ NoDup (map fst row).
  Proof.
    intros ids S row [H1 [H2 H3]]. split; [|exact H3]. intros i.
    destruct (N.lt_ge_cases i (N.of_nat (List.length inputs))) as [Hlt|Hge].
    - now apply H1.
    - assert (E : assocN i row = None).
      { apply assocN_None. intros H. apply H2 in H. lia. }
      rewrite E. unfold sstep, nthN.
      assert (En : nth_error inputs (N.to_nat i) = None) by (apply nth_error_None; lia).
      now rewrite En.
  Qed.

  Lemma process_spec : forall S done xs pre st row st1 row1,
    reachable S ->
    inputs = pre ++ xs ->
    Inv done st -> prow (s_ids st) S (N.of_nat (List.length pre)) row ->
    process labels fw S xs (N.of_nat (List.length pre)) st row = (st1, row1) ->
    Inv done st1 /\ s_trans st1 = s_trans st /\ incl (s_ids st) (s_ids st1) /\
    prow (s_ids st1) S (N.of_nat (List.length inputs)) row1.
  Proof.
    intros S done xs. induction xs as [|x xs IH]; intros pre st row st1 row1 HS Ei HI Hp H;
      cbn [process] in H.
    - inversion H; subst st1 row1. rewrite app_nil_r in Ei. subst pre. auto using incl_refl.
    - assert (Eid : N.succ (N.of_nat (List.length pre)) = N.of_nat (List.length (pre ++ [x]))).
      { rewrite app_length. cbn. lia. }
      assert (Ei' : inputs = (pre ++ [x]) ++ xs) by (rewrite <- app_assoc; exact Ei).
      assert (Es : sstep S (N.of_nat (List.length pre)) = target labels fw S x).
      { unfold sstep. rewrite Ei. fold (lenN pre). now rewrite nthN_app_mid. }
      rewrite Eid in H.
      destruct (target labels fw S x) as [|a t] eqn:Et.
      + eapply IH; eauto. rewrite <- Eid. now apply prow_skip.
      + assert (Hne : sstep S (N.of_nat (List.length pre)) <> []) by (rewrite Es; discriminate).
        destruct (find_set (a :: t) (s_ids st)) as [to|] eqn:Ef.
        * eapply IH; eauto. rewrite <- Eid. apply prow_push; [exact Hp|exact Hne|].
          rewrite Es. now apply find_set_Some.
        * apply find_set_None in Ef.
          assert (Hr : reachable (a :: t)).
          { rewrite <- Es. now apply reachable_step. }
          pose proof (Inv_alloc _ _ _ HI Hr Ef) as HI'.
          assert (Hp' : prow (s_ids st ++ [(a :: t, s_next st)]) S (N.of_nat (List.length (pre ++ [x])))
                             (row ++ [(N.of_nat (List.length pre), s_next st)])).
          { rewrite <- Eid. apply prow_push; [|exact Hne|rewrite Es; apply in_app_iff; right; now left].
            eapply prow_mono; [|exact Hp]. apply incl_appl, incl_refl. }
          destruct (IH _ _ _ _ _ HS Ei' HI' Hp' H) as [R1 [R2 [R3 R4]]].
          split; [exact R1|]. split; [exact R2|]. split; [|exact R4].
          exact (incl_tran (incl_appl _ (incl_refl _)) R3).
  Qed.

  Lemma Inv_step : forall st k S rest from st1 row,
    Inv (map fst (s_trans st)) st ->
    pop k (s_todo st) = Some (S, rest) ->
    find_set S (s_ids st) = Some from ->
    process labels fw S inputs 0 (mksst (s_ids st) (s_next st) (s_trans st) rest) [] = (st1, row) ->
    Inv (map fst (s_trans st1 ++ [(from, row)]))
        (mksst (s_ids st1) (s_next st1) (s_trans st1 ++ [(from, row)]) (s_todo st1)) /\
    s_trans st1 = s_trans st.
  Proof.
    intros st k S rest from st1 row HI Ep Ef Epr.
    apply pop_Some in Ep. destruct Ep as [l1 [l2 [Et ->]]].
    apply find_set_Some in Ef.
    assert (Hnew : ~ In from (map fst (s_trans st))).
    { assert (HS : In S (s_todo st)) by (rewrite Et; apply in_app_iff; right; now left).
      apply (inv_todo _ _ HI) in HS. destruct HS as [s [Hs Hnd]].
      assert (s = from) by (eapply NoDup_fst_fun; [apply (inv_nd_fst _ _ HI)| |]; eauto).
      now subst s. }
    pose proof (Inv_pop _ _ _ _ _ _ HI Et Ef) as HI0.
    pose proof (inv_reach _ _ HI _ _ Ef) as HS.
    change 0 with (N.of_nat (List.length (@nil inp))) in Epr.
    eapply process_spec in Epr; [|exact HS|reflexivity|exact HI0|].
    - destruct Epr as [R1 [R2 [R3 R4]]]. cbn [s_trans s_ids] in R2, R3.
      apply prow_final in R4. destruct R4 as [R4 R5]. split; [|exact R2].
      rewrite <- R2 in R1, Hnew. apply (Inv_row st1 S from row); auto.
    - split; [|split].
      + intros i Hlt. cbn in Hlt. lia.
      + intros i [].
      + constructor.
  Qed.

  Variable pick : nat -> list (list N) -> nat.

  Lemma loop_spec : forall fuel step st st',
    Inv (map fst (s_trans st)) st ->
    loop labels fw inputs pick fuel step st = Ok st' ->
    Inv (map fst (s_trans st')) st' /\ s_todo st' = [].
  Proof.
    induction fuel as [|fuel IH]; intros step st st' HI H; cbn [loop] in H; [discriminate|].
    destruct (pop (pick step (s_todo st)) (s_todo st)) as [[S rest]|] eqn:Ep.
    - destruct (find_set S (s_ids st)) as [from|] eqn:Ef; [|discriminate].
      destruct (process labels fw S inputs 0 _ []) as [st1 row] eqn:Epr.
      apply IH in H; [exact H|]. exact (proj1 (Inv_step _ _ _ _ _ _ _ HI Ep Ef Epr)).
    - injection H as <-. split; [exact HI | exact (pop_None _ _ Ep)].
  Qed.

  (** What depends only on the stored sets and the next id holds at exit if allocating a non-empty
      target keeps it. *)
  Section Stored.
    Variable P : list (list N * N) -> N -> Prop.
    Hypothesis P_alloc : forall ids nx S x, P ids nx -> target labels fw S x <> [] ->
      P (ids ++ [(target labels fw S x, nx)]) (N.succ nx).

    Lemma process_stored : forall S xs id st row st1 row1,
      P (s_ids st) (s_next st) -> process labels fw S xs id st row = (st1, row1) ->
      P (s_ids st1) (s_next st1).
    Proof.
      intros S. induction xs as [|x xs IH]; intros id st row st1 row1 HP H; cbn [process] in H.
      - injection H as <- _. exact HP.
      - destruct (target labels fw S x) as [|a t] eqn:Et; [exact (IH _ _ _ _ _ HP H)|].
        destruct (find_set (a :: t) (s_ids st)); [exact (IH _ _ _ _ _ HP H)|].
        refine (IH _ _ _ _ _ _ H). cbn [s_ids s_next]. rewrite <- Et.
        apply P_alloc; [exact HP | rewrite Et; discriminate].
    Qed.

    Lemma loop_stored : forall fuel step st st',
      P (s_ids st) (s_next st) -> loop labels fw inputs pick fuel step st = Ok st' ->
      P (s_ids st') (s_next st').
    Proof.
      induction fuel as [|fuel IH]; intros step st st' HP H; cbn [loop] in H; [discriminate|].
      destruct (pop (pick step (s_todo st)) (s_todo st)) as [[S rest]|]; [|injection H as <-; exact HP].
      destruct (find_set S (s_ids st)); [|discriminate].
      destruct (process labels fw S inputs 0 _ []) as [st1 row] eqn:Epr.
      apply process_stored in Epr; [|exact HP]. apply IH in H; [exact H | exact Epr].
    Qed.
  End Stored.
End LoopInv.

Section Final.
  Variable labels : list inp.
  Variable fw : list (N * list N).
  Variable inputs : list inp.
  Variable start : list N.
  Variable st : sst.
  Hypothesis HI : Inv labels fw inputs start (map fst (s_trans st)) st.
  Hypothesis Htodo : s_todo st = [].
  Variable d : dfa.
  Hypothesis Hd : d_trans d = s_trans st.

  Local Notation reach := (reach_from labels fw inputs).

  Lemma has_row : forall S s, In (S, s) (s_ids st) ->
    exists row, assocN s (s_trans st) = Some row /\
                row_ok labels fw inputs (s_ids st) S row /\ NoDup (map fst row).
  Proof.
    intros S s Hin.
    destruct (in_dec N.eq_dec s (map fst (s_trans st))) as [Hs|Hs].
    - apply in_map_iff in Hs. destruct Hs as [[s' row] [E Hrow]]. cbn in E. subst s'.
      exists row. split; [apply in_assocN; [apply (inv_nd_trans _ _ _ _ _ _ HI)|exact Hrow]|].
      destruct (inv_rows _ _ _ _ _ _ HI _ _ Hrow) as [S' [H1 [H2 H3]]].
      assert (S' = S) by (eapply NoDup_snd_fun; [apply (inv_nd_snd _ _ _ _ _ _ HI)| |]; eauto).
      subst S'. now split.
    - exfalso. assert (HT : In S (s_todo st)).
      { apply (inv_todo _ _ _ _ _ _ HI). now exists s. }
      rewrite Htodo in HT. exact HT.
  Qed.

  Lemma run_spec : forall w S s, In (S, s) (s_ids st) ->
    match run d s w with
    | Some s' => In (reach S w, s') (s_ids st)
    | None => reach S w = []
    end.
  Proof.
    induction w as [|i w IH]; intros S s Hin; cbn [run].
    - exact Hin.
    - rewrite reach_cons. unfold step. rewrite Hd.
      destruct (has_row S s Hin) as [row [E [Hrow _]]]. rewrite E.
      specialize (Hrow i). destruct (assocN i row) as [to|].
      + destruct Hrow as [_ Hto]. now apply IH.
      + rewrite Hrow. apply reach_from_nil.
  Qed.

  Lemma rows_states : forall s, In s (map fst (s_trans st)) <-> In s (map snd (s_ids st)).
  Proof.
    intros s. split.
    - now apply (inv_done _ _ _ _ _ _ HI).
    - intros H. apply in_map_iff in H. destruct H as [[S s'] [E Hin]]. cbn in E. subst s'.
      destruct (has_row S s Hin) as [row [E _]]. apply assocN_In in E.
      change s with (fst (s, row)). now apply in_map.
  Qed.
End Final.

Definition init_sst (r : regex) : sst :=
  mksst [(regex_first r, first_state_id)] (N.succ first_state_id) [] [regex_first r].

Lemma dfa_from_regex_Ok : forall pick fuel submap r d states,
  dfa_from_regex pick fuel submap r = Ok (d, states) <->
  exists labels st s0,
    omap (from_input submap) (r_inputs r) = Ok labels /\
    loop labels (regex_follow r) (intern_all labels) pick fuel 0 (init_sst r) = Ok st /\
    find_set (regex_first r) (s_ids st) = Some s0 /\
    d = mkdfa s0 (s_trans st)
              (flat_map (fun si => if memN (r_end r) (fst si) then [snd si] else []) (s_ids st))
              (intern_all labels) /\
    states = s_ids st.
Proof.
  intros pick fuel submap r d states. unfold dfa_from_regex, init_sst. split.
  - intros H. apply obind_ok in H. destruct H as [labels [Hl H]]. cbv zeta in H.
    apply obind_ok in H. destruct H as [st [El H]].
    destruct (find_set (regex_first r) (s_ids st)) as [s0|] eqn:Ef; [|discriminate].
    injection H as <- <-. exists labels, st, s0. auto.
  - intros [labels [st [s0 [Hl [El [Ef [-> ->]]]]]]].
    rewrite Hl. cbn [obind]. cbv zeta. rewrite El. cbn [obind]. rewrite Ef. reflexivity.
Qed.

Lemma dfa_from_regex_labels : forall pick fuel submap r d states,
  dfa_from_regex pick fuel submap r = Ok (d, states) ->
  exists labels, omap (from_input submap) (r_inputs r) = Ok labels.
Proof.
  intros pick fuel submap r d states H. apply dfa_from_regex_Ok in H.
  destruct H as [labels [_ [_ [Hl _]]]]. eauto.
Qed.

Lemma dfa_from_regex_inv : forall pick fuel submap r d states labels,
  dfa_from_regex pick fuel submap r = Ok (d, states) ->
  omap (from_input submap) (r_inputs r) = Ok labels ->
  exists st s0,
    Inv labels (regex_follow r) (intern_all labels) (regex_first r) (map fst (s_trans st)) st /\
    s_todo st = [] /\ states = s_ids st /\ In (regex_first r, s0) (s_ids st) /\
    d = mkdfa s0 (s_trans st)
              (flat_map (fun si => if memN (r_end r) (fst si) then [snd si] else []) (s_ids st))
              (intern_all labels).
Proof.
  intros pick fuel submap r d states labels H Hl. apply dfa_from_regex_Ok in H.
  destruct H as [labels' [st [s0 [Hl' [El [Ef [-> ->]]]]]]].
  assert (labels' = labels) by congruence. subst labels'.
  apply loop_spec with (start := regex_first r) in El; [|exact (Inv_init _ _ _ _ first_state_id)].
  destruct El as [HI Ht]. apply find_set_Some in Ef. exists st, s0. auto.
Qed.

Lemma dfa_from_regex_stored : forall (P : list (list N * N) -> N -> Prop) pick fuel submap r d states,
  (forall ids nx t, P ids nx -> t <> [] -> P (ids ++ [(t, nx)]) (N.succ nx)) ->
  P [(regex_first r, first_state_id)] (N.succ first_state_id) ->
  dfa_from_regex pick fuel submap r = Ok (d, states) -> exists nx, P states nx.
Proof.
  intros P pick fuel submap r d states Ha H0 H. apply dfa_from_regex_Ok in H.
  destruct H as [labels [st [s0 [_ [El [_ [_ ->]]]]]]]. exists (s_next st).
  apply (loop_stored _ _ _ _ P) in El; [exact El | intros; apply Ha; assumption | exact H0].
Qed.

Theorem subset_run : subset_run_statement.
Proof.
  intros pick fuel submap r d states labels H Hl reach.
  destruct (dfa_from_regex_inv _ _ _ _ _ _ _ H Hl) as [st [s0 [HI [Ht [-> [Hs0 Ed]]]]]].
  assert (Hdt : d_trans d = s_trans st) by (subst d; reflexivity).
  assert (Hds : d_start d = s0) by (subst d; reflexivity).
  assert (Hrun : forall ids, match run d (d_start d) ids with
                             | Some s => In (reach ids, s) (s_ids st)
                             | None => reach ids = []
                             end).
  { intros ids. rewrite Hds. unfold reach.
    eapply run_spec; eauto. }
  split; [subst d; reflexivity|].
  split; [rewrite Hdt; apply (inv_nd_trans _ _ _ _ _ _ HI)|].
  split.
  { rewrite Hdt. apply Forall_forall. intros [s row] Hin.
    destruct (inv_rows _ _ _ _ _ _ HI _ _ Hin) as [S [_ [_ Hnd]]]. exact Hnd. }
  split; [apply (inv_nd_fst _ _ _ _ _ _ HI)|].
  split; [apply (inv_nd_snd _ _ _ _ _ _ HI)|].
  split; [exact Hrun|].
  split.
  { intros ids. unfold accepts, accepts_from, is_accepting. specialize (Hrun ids).
    destruct (run d (d_start d) ids) as [t|].
    - rewrite memN_In. subst d. cbn [d_accepting]. rewrite in_flat_map. split.
      + intros [[S' t'] [Hin Hif]]. cbn [fst snd] in Hif.
        destruct (memN (r_end r) S') eqn:Em; [|destruct Hif].
        destruct Hif as [<-|[]]. apply memN_In in Em.
        assert (S' = reach ids)
          by (eapply NoDup_snd_fun; [apply (inv_nd_snd _ _ _ _ _ _ HI)| |]; eauto).
        now subst S'.
      + intros He. exists (reach ids, t). split; [exact Hrun|]. cbn [fst snd].
        apply memN_In in He. rewrite He. now left.
    - rewrite Hrun. split; [discriminate|intros []]. }
  split.
  { intros S s Hin. destruct (inv_reach _ _ _ _ _ _ HI _ _ Hin) as [w [Hw Hnil]].
    exists w. specialize (Hrun w). fold reach in Hw. rewrite Hw in Hrun.
    destruct (run d (d_start d) w) as [s'|] eqn:Er.
    - f_equal. eapply NoDup_fst_fun; [apply (inv_nd_fst _ _ _ _ _ _ HI)| |]; eauto.
    - rewrite (Hnil Hrun) in Er. cbn in Er. discriminate. }
  { intros s. rewrite Hdt. eapply rows_states; eauto. }
Qed.

Theorem subset_language : subset_language_statement.
Proof.
  intros pick fuel submap r d states labels H Hl ids.
  destruct (subset_run pick fuel submap r d states labels H Hl)
    as [Hin [_ [_ [_ [_ [_ [Hacc _]]]]]]].
  rewrite Hacc, Hin. apply regex_reach_In.
Qed.

Print Assumptions subset_run.
Print Assumptions subset_language.
