(** The loop that the two walks over the follow table share ([tail_only] and [check_subwords] of
    Model/Regex.v): each position of a set that is not yet visited and has a follow set is marked,
    the walk recurses into its follow set and goes on with the state the recursion returns.
    [each] is that loop, over an abstract state; [tail_only_S] and [check_subwords_S] fold the two
    walks into it. *)
From CG Require Import Base.Prelude Base.Facts Model.Ast Model.Regex.

Section Each.
  Variable S : Type.
  Variable vis : S -> list N.
  Variable mark : N -> S -> S.
  Variable fw : list (N * list N).
  Variable rec : N -> list N -> S -> rres S.

  Fixpoint each (ps : list N) (s : S) : rres S :=
    match ps with
    | [] => Ok s
    | p :: rest =>
        if memN p (vis s) then each rest s
        else match assocN p fw with
             | None => each rest s
             | Some follow => do s1 <- rec p follow (mark p s); each rest s1
             end
    end.

  (** [Q]: what a finished call knows of a position it entered; [I]: what holds of the state *)
  Variable Q : N -> Prop.
  Variable I : S -> Prop.

  Definition done (v' : list N) (u : N) : Prop :=
    Q u /\ forall s q, assocN u fw = Some s -> In q s -> In q v' \/ assocN q fw = None.

  Lemma done_mono v1 v' u : incl v1 v' -> done v1 u -> done v' u.
  Proof.
    intros Hi [A B]. split; [exact A|]. intros s q Hs Hq. destruct (B s q Hs Hq) as [H|H]; auto.
  Qed.

  Definition ok_post (ps visited v' : list N) : Prop :=
    incl visited v' /\ (forall p, In p ps -> In p v' \/ assocN p fw = None)
    /\ (forall u, In u v' -> ~ In u visited -> done v' u).

  Lemma each_post :
    (forall p follow s s1, I s -> ~ In p (vis s) -> assocN p fw = Some follow ->
       rec p follow (mark p s) = Ok s1 ->
       I s1 /\ Q p /\ ok_post follow (p :: vis s) (vis s1)) ->
    forall ps s s', I s -> each ps s = Ok s' -> I s' /\ ok_post ps (vis s) (vis s').
  Proof.
    intro Hrec. induction ps as [|p rest IH]; intros s s' Hs H; cbn [each] in H.
    - injection H as <-. split; [exact Hs|]. split; [apply incl_refl|]. split; [intros p []|]. intros u Hu Hn. contradiction.
    - destruct (memN p (vis s)) eqn:Hm.
      + apply memN_In in Hm. destruct (IH _ _ Hs H) as (Is' & A & B & C). split; [exact Is'|]. split; [exact A|]. split; [|exact C].
        intros q [<-|Hq]; [left; apply A; exact Hm|apply B; exact Hq].
      + destruct (assocN p fw) as [follow|] eqn:Ha.
        2:{ destruct (IH _ _ Hs H) as (Is' & A & B & C). split; [exact Is'|]. split; [exact A|]. split; [|exact C].
            intros q [<-|Hq]; [right; exact Ha|apply B; exact Hq]. }
        assert (Hn : ~ In p (vis s)) by (intro Hp; apply memN_In in Hp; congruence).
        destruct (rec p follow (mark p s)) as [s1| | |] eqn:Hr; cbn [obind] in H; try discriminate.
        destruct (Hrec _ _ _ _ Hs Hn Ha Hr) as (Is1 & Qp & A1 & B1 & C1).
        destruct (IH _ _ Is1 H) as (Is' & A & B & C). split; [exact Is'|].
        assert (Dp : done (vis s1) p).
        { split; [exact Qp|]. intros f q Hf Hq. rewrite Ha in Hf. injection Hf as <-. apply B1. exact Hq. }
        split; [intros u Hu; apply A, A1; right; exact Hu|]. split.
        * intros q [<-|Hq]; [left; apply A, A1; left; reflexivity|apply B; exact Hq].
        * intros u Hu Hnu. destruct (in_dec N.eq_dec u (vis s1)) as [Hu1|Hu1]; [|apply C; assumption].
          destruct (N.eq_dec u p) as [->|Hne]; [exact (done_mono _ _ p A Dp)|].
          apply (done_mono _ _ u A). apply C1; [exact Hu1|]. intros [Hx|Hx]; [congruence|contradiction].
  Qed.

  Lemma each_err :
    (forall p follow s s1, I s -> ~ In p (vis s) -> assocN p fw = Some follow ->
       rec p follow (mark p s) = Ok s1 -> I s1) ->
    forall ps s e, I s -> each ps s = Err e ->
      exists p follow s0, In p ps /\ ~ In p (vis s0) /\ assocN p fw = Some follow /\ I s0
                          /\ rec p follow (mark p s0) = Err e.
  Proof.
    intro Hrec. induction ps as [|p rest IH]; intros s e Hs H; cbn [each] in H; [discriminate|].
    assert (Hgo : forall s1, I s1 -> each rest s1 = Err e ->
              exists p0 follow s0, In p0 (p :: rest) /\ ~ In p0 (vis s0) /\ assocN p0 fw = Some follow /\ I s0
                                   /\ rec p0 follow (mark p0 s0) = Err e).
    { intros s1 Is1 H1. destruct (IH _ _ Is1 H1) as (p0 & fo & s0 & Hp0 & R). exists p0, fo, s0. split; [now right|exact R]. }
    destruct (memN p (vis s)) eqn:Hm; [exact (Hgo _ Hs H)|].
    destruct (assocN p fw) as [follow|] eqn:Ha; [|exact (Hgo _ Hs H)].
    assert (Hn : ~ In p (vis s)) by (intro Hp; apply memN_In in Hp; congruence).
    destruct (rec p follow (mark p s)) as [s1|e1| |] eqn:Hr; cbn [obind] in H; try discriminate.
    - exact (Hgo _ (Hrec _ _ _ _ Hs Hn Ha Hr) H).
    - injection H as ->. exists p, follow, s. split; [now left|]. auto.
  Qed.
End Each.

Definition tail_call (r : regex) (fw : list (N * list N)) (f : nat) (pp : option rinput)
           (p : N) (follow visited : list N) : rres (list N) :=
  do inp <- input_at r p;
  do st <- is_star_subword inp;
  tail_only r fw f follow (opt_or pp (if st then Some inp else None)) visited.

Lemma tail_only_S r fw f fp pp visited :
  tail_only r fw (S f) fp pp visited =
  do inputs <- inputs_of r fp;
  match first_clash pp inputs with
  | Some e => Err e
  | None => each (list N) (fun v => v) cons fw (tail_call r fw f pp) fp visited
  end.
Proof.
  cbn [tail_only]. destruct (inputs_of r fp) as [inputs| | |]; cbn [obind]; try reflexivity.
  destruct (first_clash pp inputs); [reflexivity|]. clear inputs.
  revert visited. induction fp as [|p rest IH]; intro visited; cbn [each]; [reflexivity|].
  destruct (memN p visited); [apply IH|]. destruct (assocN p fw) as [follow|]; [|apply IH].
  unfold tail_call. destruct (input_at r p) as [inp| | |]; cbn [obind]; try reflexivity.
  destruct (is_star_subword inp) as [st| | |]; cbn [obind]; try reflexivity.
  destruct (tail_only r fw f follow _ (p :: visited)); cbn [obind]; try reflexivity. apply IH.
Qed.

Lemma check_subwords_S r fw pl f fp visited checked :
  check_subwords r fw pl (S f) fp visited checked =
  do inputs <- inputs_of r fp;
  do checked1 <- check_each_sub pl (filter (fun rid => negb (memN rid checked)) (sub_ids_of inputs)) checked;
  each (list N * list N) fst (fun p s => (p :: fst s, snd s)) fw
       (fun _ follow s => check_subwords r fw pl f follow (fst s) (snd s)) fp (visited, checked1).
Proof.
  cbn [check_subwords]. destruct (inputs_of r fp) as [inputs| | |]; cbn [obind]; try reflexivity.
  destruct (check_each_sub pl _ checked) as [c1| | |]; cbn [obind]; try reflexivity. clear inputs checked.
  revert visited c1. induction fp as [|p rest IH]; intros visited c1; cbn [each fst snd]; [reflexivity|].
  destruct (memN p visited); [apply IH|]. destruct (assocN p fw) as [follow|]; [|apply IH].
  destruct (check_subwords r fw pl f follow (p :: visited) c1) as [[v1 c2]| | |]; cbn [obind]; try reflexivity.
  apply IH.
Qed.
