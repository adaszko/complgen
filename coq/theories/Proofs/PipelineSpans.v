(** C14, end to end: the pipeline after the checker ([Driver.compile_valid]: regex, within-word
    automata, subset construction, minimisation, ambiguity checks) ignores spans.

    Automata carry no spans ([Subset.from_input] drops them) and within-word automata are interned
    by [dfa_eqb]; but [Regex.pool_intern] compares regexes INCLUDING spans, so mapping a
    non-injective function over the spans can merge pool entries and shift the ids of within-word
    regexes.  The proof therefore never relates the two pools as a whole: it only uses that the
    id stored in an [RSub] input points at the right regex of its own pool ([irel]), that pools
    only grow, and that the caches keyed by regex id (the arguments [checked] of [check_subwords]
    and [cache] of [compile_subs], `subwords_cache` in the Rust source) only save work that would
    give the same answer.

    Hypothesis: composite words are flat ([flat_subwords], guaranteed by [from_grammar]:
    Proofs/CheckTree.v), so that pool entries contain no [RSub] themselves. *)
From CG Require Import Base.Prelude Proofs.ListFacts Model.Ast Model.Check Model.Regex Model.Dfa Model.DfaEqb.
From CG Require Import Model.Subset Model.Minimize Model.Ambiguity Model.Driver.
From CG Require Import Base.Facts Proofs.SubsetConstr Proofs.FromExpr Proofs.DfaEq Proofs.TreeFacts Proofs.DotFromExpr
     Proofs.FollowWalk.
From CG Require Import Proofs.CheckSpans Proofs.DiagPipeline.

Section Spans.
  Variable f : span -> span.

  Definition msi (i : rinput) : rinput :=
    match i with
    | RLit t d l sp => RLit t d l (f sp)
    | RNonterm n l sp => RNonterm n l (f sp)
    | RCmd c z l sp => RCmd c z l (f sp)
    | RSub rid l sp => RSub rid l (f sp)
    end.

  Definition msr (r : regex) : regex :=
    mkregex (r_root r) (map msi (r_inputs r)) (r_end r) (r_arena r) (r_tree r).

  Definition msb (s : bst) : bst := mkbst (b_nodes s) (map msi (b_inputs s)).

  Definition msrerr (e : rerror) : rerror :=
    match e with UnboundedMatchable a b => UnboundedMatchable (f a) (f b) end.

  (** two inputs, each read through its own pool, are the same up to spans *)
  Definition irel (pl pl' : pool) (i i' : rinput) : Prop :=
    match i, i' with
    | RLit t d l sp, RLit t' d' l' sp' => t = t' /\ d = d' /\ l = l' /\ sp' = f sp
    | RNonterm n l sp, RNonterm n' l' sp' => n = n' /\ l = l' /\ sp' = f sp
    | RCmd c z l sp, RCmd c' z' l' sp' => c = c' /\ z = z' /\ l = l' /\ sp' = f sp
    | RSub rid l sp, RSub rid' l' sp' =>
        l = l' /\ sp' = f sp /\ exists x, nthN pl rid = Some x /\ nthN pl' rid' = Some (msr x)
    | _, _ => False
    end.

  Lemma irel_mono pl pl' pl2 pl2' i i' :
    prefix pl pl2 -> prefix pl' pl2' -> irel pl pl' i i' -> irel pl2 pl2' i i'.
  Proof.
    intros H1 H2. destruct i, i'; cbn; try tauto.
    intros (A & B & x & Hx & Hx'). repeat split; auto. exists x.
    split; eapply prefix_nthN; eauto.
  Qed.

  Lemma irel_span pl pl' i i' : irel pl pl' i i' -> rinput_span i' = f (rinput_span i).
  Proof. destruct i, i'; cbn; tauto. Qed.

  Lemma irel_msi pl pl' i : (match i with RSub _ _ _ => False | _ => True end) -> irel pl pl' i (msi i).
  Proof. destruct i; cbn; tauto. Qed.

  Lemma irel_leaf pl pl' i i' :
    irel pl pl' i i' -> input_kind i = input_kind i' /\ forall p, input_node i p = input_node i' p.
  Proof. destruct i, i'; cbn; try contradiction; auto. Qed.

  Definition brel (pl pl' : pool) (s s' : bst) : Prop :=
    b_nodes s = b_nodes s' /\ Forall2 (irel pl pl') (b_inputs s) (b_inputs s').

  Lemma brel_mono pl pl' pl2 pl2' s s' :
    prefix pl pl2 -> prefix pl' pl2' -> brel pl pl' s s' -> brel pl2 pl2' s s'.
  Proof.
    intros H1 H2 [A B]. split; [exact A|].
    induction B; constructor; [eapply irel_mono; eauto|assumption].
  Qed.

  Lemma brel_add pl pl' n s s' : brel pl pl' s s' -> brel pl pl' (add_node n s) (add_node n s').
  Proof. intros [A B]. split; [cbn; rewrite A; reflexivity|exact B]. Qed.

  Definition orel {A B} (R : A -> B -> Prop) (x : rres A) (y : rres B) : Prop :=
    match x, y with
    | Ok a, Ok b => R a b
    | Err a, Err b => b = msrerr a
    | Panic a, Panic b => a = b
    | OutOfFuel, OutOfFuel => True
    | _, _ => False
    end.

  Lemma orel_bind {A B A' B'} (R : A -> A' -> Prop) (S : B -> B' -> Prop) x y k k' :
    orel R x y -> (forall a a', R a a' -> orel S (k a) (k' a')) -> orel S (obind x k) (obind y k').
  Proof. destruct x, y; cbn; try contradiction; auto. Qed.

  Definition res_rel {V} (pl pl' : pool) (x y : V * bst * pool) : Prop :=
    let '(v, s2, pl2) := x in
    let '(v', s2', pl2') := y in
    v = v' /\ prefix pl pl2 /\ prefix pl' pl2' /\ brel pl2 pl2' s2 s2'.

  Lemma res_rel_intro {V} pl pl' (v : V) s2 s2' pl2 pl2' :
    prefix pl pl2 -> prefix pl' pl2' -> brel pl2 pl2' s2 s2' -> res_rel pl pl' (v, s2, pl2) (v, s2', pl2').
  Proof. cbn. auto. Qed.

  Lemma leaf_rel pl pl' pl2 pl2' i i' s s' :
    prefix pl pl2 -> prefix pl' pl2' -> brel pl2 pl2' s s' -> irel pl2 pl2' i i' ->
    res_rel pl pl' (push_leaf i s, pl2) (push_leaf i' s', pl2').
  Proof.
    intros P P' [A B] Hi. destruct (irel_leaf _ _ _ _ Hi) as [Hk Hl]. unfold push_leaf, pushed.
    rewrite A, Hk, Hl, (Forall2_lenN _ _ _ B). apply res_rel_intro; auto.
    split; [reflexivity|]. cbn [b_inputs]. apply Forall2_app; [exact B|]. constructor; [exact Hi|constructor].
  Qed.

  Lemma form_ms e :
    form_of (ms f e) = match form_of e with
                       | FLeaf i => FLeaf (msi i)
                       | FNary cat cs => FNary cat (map (ms f) cs)
                       | FUnary many c => FUnary many (ms f c)
                       | FSub c l sp => FSub (ms f c) l (f sp)
                       | FDist c => FDist (ms f c)
                       end.
  Proof. destruct e; reflexivity. Qed.

  Definition G (e : expr) : Prop :=
    forall s s' pl pl', brel pl pl' s s' ->
      orel (res_rel pl pl') (do_from_expr e s pl) (do_from_expr (ms f e) s' pl').

  Lemma children_rel cs : Forall G cs ->
    forall s s' pl pl', brel pl pl' s s' ->
      orel (res_rel pl pl') (do_children do_from_expr cs s pl)
           (do_children do_from_expr (map (ms f) cs) s' pl').
  Proof.
    induction 1 as [|c r Hc Hr IH]; intros s s' pl pl' Hb; cbn [map do_children].
    - apply res_rel_intro; auto using prefix_refl.
    - apply (orel_bind _ _ _ _ _ _ (Hc s s' pl pl' Hb)).
      intros [[[id t] s1] pl1] [[v' s1'] pl1'] (<- & P1 & P1' & B1).
      apply (orel_bind _ _ _ _ _ _ (IH s1 s1' pl1 pl1' B1)).
      intros [[[ids ts] s2] pl2] [[v2' s2'] pl2'] (<- & P2 & P2' & B2).
      apply res_rel_intro; [eapply prefix_trans; eauto|eapply prefix_trans; eauto|exact B2].
  Qed.

  Definition rmap {A B} (g : A -> B) (x : rres A) : rres B :=
    match x with Ok a => Ok (g a) | Err e => Err (msrerr e) | Panic m => Panic m | OutOfFuel => OutOfFuel end.

  (** a word without nested words: the pool is neither read nor written *)
  Definition free_res {V} (pl' : pool) : rres (V * bst * pool) -> rres (V * bst * pool) :=
    rmap (fun x => let '(v, s2, _) := x in (v, msb s2, pl')).

  Definition Fr (e : expr) : Prop :=
    forall s pl pl', do_from_expr (ms f e) (msb s) pl' = free_res pl' (do_from_expr e s pl).

  Lemma children_free cs : Forall Fr cs ->
    forall s pl pl', do_children do_from_expr (map (ms f) cs) (msb s) pl'
                     = free_res pl' (do_children do_from_expr cs s pl).
  Proof.
    induction 1 as [|c r Hc Hr IH]; intros s pl pl'; cbn [map do_children]; [reflexivity|].
    rewrite (Hc s pl pl').
    destruct (do_from_expr c s pl) as [[[[id t] s1] pl1]| | |]; cbn [free_res rmap obind]; try reflexivity.
    rewrite (IH s1 pl1 pl').
    destruct (do_children do_from_expr r s1 pl1) as [[[[ids ts] s2] pl2]| | |]; reflexivity.
  Qed.

  Lemma push_leaf_msb i s :
    push_leaf (msi i) (msb s)
    = (lenN (b_nodes s), XPos (input_kind i) (lenN (b_inputs s)), msb (pushed i s)).
  Proof.
    unfold push_leaf, pushed, msb. cbn [b_nodes b_inputs]. rewrite map_app. unfold lenN. rewrite map_length.
    destruct i; reflexivity.
  Qed.

  Lemma from_expr_free e : subword_free e = true -> Fr e.
  Proof.
    induction e as [e IH] using expr_form_ind. rewrite subword_free_form. intros Hf s pl pl'.
    rewrite !do_from_expr_form, form_ms. destruct (form_of e) as [i|cat cs|many c|c l sp|c].
    - rewrite push_leaf_msb. reflexivity.
    - rewrite (children_free cs) with (pl := pl).
      2:{ exact (Forall_mp _ _ _ IH (proj1 (forallb_Forall _ _) Hf)). }
      destruct (do_children do_from_expr cs s pl) as [[[[ids ts] s1] pl1]| | |]; reflexivity.
    - rewrite (IH Hf s pl pl'). destruct (do_from_expr c s pl) as [[[[cid ct] s1] pl1]| | |]; reflexivity.
    - discriminate.
    - reflexivity.
  Qed.

  Lemma finish_regex_msb id t s : finish_regex id t (msb s) = msr (finish_regex id t s).
  Proof.
    unfold finish_regex, msr, Regex.alloc, msb. cbn. unfold lenN. rewrite map_length. reflexivity.
  Qed.

  Lemma from_expr_rel e : flat_subwords e = true -> G e.
  Proof.
    induction e as [e IH] using expr_form_ind. rewrite flat_subwords_form. intros Hf s s' pl pl' Hb.
    rewrite !do_from_expr_form, form_ms. pose proof (leaf_not_sub e) as Hleaf.
    destruct (form_of e) as [i|cat cs|many c|c l sp|c].
    - apply leaf_rel; auto using prefix_refl. apply irel_msi. exact (Hleaf i eq_refl).
    - assert (HG : Forall G cs).
      { exact (Forall_mp _ _ _ IH (proj1 (forallb_Forall _ _) Hf)). }
      apply (orel_bind _ _ _ _ _ _ (children_rel cs HG s s' pl pl' Hb)).
      intros [[[ids ts] s1] pl1] [[v' s1'] pl1'] (<- & P1 & P1' & B1).
      rewrite (proj1 B1). apply res_rel_intro; auto. apply brel_add. exact B1.
    - apply (orel_bind _ _ _ _ _ _ (IH Hf s s' pl pl' Hb)).
      intros [[[cid ct] s1] pl1] [[v' s1'] pl1'] (<- & P1 & P1' & B1).
      cbn zeta. cbn [add_node b_nodes]. rewrite (proj1 B1). apply res_rel_intro; auto.
      apply (brel_add _ _ _ _ _ (brel_add _ _ (aux_node many cid) _ _ B1)).
    - (* the inner regex is mapped exactly; both pools point at it *)
      pose proof (from_expr_free c Hf empty_bst pl pl') as Hfree.
      change (msb empty_bst) with empty_bst in Hfree. rewrite Hfree.
      assert (P1 : forall r1, do_from_expr c empty_bst pl = Ok r1 -> prefix pl (snd r1)).
      { assert (Hbe : brel pl pl' empty_bst empty_bst) by (split; [reflexivity|constructor]).
        pose proof (IH (subword_free_flat c Hf) empty_bst empty_bst pl pl' Hbe) as Hr. intros r1 E1. rewrite E1 in Hr.
        destruct r1 as [[v1 s1] pl1]. destruct (do_from_expr (ms f c) empty_bst pl') as [[[v1' s1'] pl1']| | |]; cbn in Hr; tauto. }
      destruct (do_from_expr c empty_bst pl) as [[[[cid ct] cs] pl1]| | |]; cbn [free_res rmap obind orel]; auto.
      specialize (P1 _ eq_refl). cbn [snd] in P1. rewrite finish_regex_msb.
      destruct (Regex.pool_intern (finish_regex cid ct cs) pl1) as [rid pl2] eqn:Ei.
      destruct (Regex.pool_intern (msr (finish_regex cid ct cs)) pl') as [rid' pl2'] eqn:Ei'.
      destruct (pool_intern_spec _ _ _ _ Ei) as [P2 Hx]. destruct (pool_intern_spec _ _ _ _ Ei') as [P2' Hx'].
      assert (Pa : prefix pl pl2) by (eapply prefix_trans; eauto).
      apply leaf_rel; auto; [eapply brel_mono; eauto|].
      cbn. repeat split; auto. eexists. split; [exact Hx|exact Hx'].
    - reflexivity.
  Qed.

  Definition rrel (pl pl' : pool) (r r' : regex) : Prop :=
    r_root r = r_root r' /\ r_end r = r_end r' /\ r_arena r = r_arena r' /\ r_tree r = r_tree r'
    /\ Forall2 (irel pl pl') (r_inputs r) (r_inputs r').

  Lemma finish_regex_rel pl pl' id t s s' :
    brel pl pl' s s' -> rrel pl pl' (finish_regex id t s) (finish_regex id t s').
  Proof.
    intros [A B]. unfold finish_regex, Regex.alloc. cbn. rewrite A, (Forall2_lenN _ _ _ B).
    repeat split; auto.
  Qed.

  Theorem from_expr_rrel e : flat_subwords e = true ->
    orel (fun x y => rrel (snd x) (snd y) (fst x) (fst y)) (from_expr e []) (from_expr (ms f e) []).
  Proof.
    intro Hf. unfold from_expr.
    assert (Hbe : brel [] [] empty_bst empty_bst) by (split; [reflexivity|constructor]).
    apply (orel_bind _ _ _ _ _ _ (from_expr_rel e Hf empty_bst empty_bst [] [] Hbe)).
    intros [[[id t] s1] pl1] [[v' s1'] pl1'] (<- & _ & _ & B). apply finish_regex_rel. exact B.
  Qed.

  Definition mres {A} (x : rres A) : rres A := rmap (fun a => a) x.

  Lemma orel_eq_mres {A} (x y : rres A) : orel eq x y -> y = mres x.
  Proof. destruct x, y; cbn; try contradiction; congruence. Qed.

  Lemma mres_orel_eq {A} (x : rres A) : orel eq x (mres x).
  Proof. destruct x; cbn; auto. Qed.

  Lemma input_at_msr x p : input_at (msr x) p = rmap msi (input_at x p).
  Proof. unfold input_at. cbn [msr r_inputs]. rewrite nthN_map. destruct (nthN (r_inputs x) p); reflexivity. Qed.

  Lemma inputs_of_msr x fp : inputs_of (msr x) fp = rmap (map msi) (inputs_of x fp).
  Proof.
    unfold inputs_of. change (r_end (msr x)) with (r_end x).
    induction (filter (fun p => negb (p =? r_end x)) fp) as [|p r IH]; cbn [omap]; [reflexivity|].
    rewrite input_at_msr, IH. destruct (input_at x p); cbn [rmap obind]; try reflexivity.
    destruct (omap (input_at x) r); reflexivity.
  Qed.

  Lemma first_clash_msi pp inputs :
    first_clash (option_map msi pp) (map msi inputs) = option_map msrerr (first_clash pp inputs).
  Proof.
    destruct pp as [p|]; [|reflexivity]. destruct inputs as [|i r]; [reflexivity|].
    destruct p, i; reflexivity.
  Qed.

  Lemma each_orel {S S'} (R : S -> S' -> Prop) vis vis' mark mark' fw rec rec' :
    (forall s s', R s s' -> vis s = vis' s') ->
    (forall p follow s s', R s s' -> orel R (rec p follow (mark p s)) (rec' p follow (mark' p s'))) ->
    forall ps s s', R s s' -> orel R (each S vis mark fw rec ps s) (each S' vis' mark' fw rec' ps s').
  Proof.
    intros Hv Hr. induction ps as [|p rest IH]; intros s s' HR; cbn [each]; [exact HR|].
    rewrite <- (Hv _ _ HR). destruct (memN p (vis s)); [apply IH; exact HR|].
    destruct (assocN p fw) as [follow|]; [|apply IH; exact HR].
    apply (orel_bind _ _ _ _ _ _ (Hr p follow s s' HR)). exact IH.
  Qed.

  Lemma tail_only_msr x fw fuel : forall fp pp visited,
    tail_only (msr x) fw fuel fp (option_map msi pp) visited = mres (tail_only x fw fuel fp pp visited).
  Proof.
    induction fuel as [|fuel IH]; intros fp pp visited; [reflexivity|].
    rewrite !tail_only_S, inputs_of_msr.
    destruct (inputs_of x fp) as [inputs| | |]; cbn [obind rmap]; try reflexivity.
    rewrite first_clash_msi. destruct (first_clash pp inputs); [reflexivity|]. cbn [option_map].
    apply orel_eq_mres, (each_orel eq); [intros ? ? ->; reflexivity| |reflexivity].
    intros p follow v ? <-. unfold tail_call. rewrite input_at_msr.
    destruct (input_at x p) as [i| | |]; cbn [rmap obind orel]; auto.
    assert (Hs : is_star_subword (msi i) = is_star_subword i) by (destruct i; reflexivity).
    rewrite Hs. destruct (is_star_subword i) as [st|e0| |] eqn:Ei; cbn [obind orel]; auto; [|destruct i; discriminate].
    assert (Ho : opt_or (option_map msi pp) (if st then Some (msi i) else None)
                 = option_map msi (opt_or pp (if st then Some i else None))).
    { destruct pp; [reflexivity|]. destruct st; reflexivity. }
    rewrite Ho, IH. apply mres_orel_eq.
  Qed.

  Lemma check_tail_only_msr x : check_tail_only (msr x) = mres (check_tail_only x).
  Proof.
    unfold check_tail_only. change (regex_follow (msr x)) with (regex_follow x).
    change (regex_fuel (msr x)) with (regex_fuel x). change (regex_first (msr x)) with (regex_first x).
    change (r_end (msr x)) with (r_end x).
    pose proof (tail_only_msr x (regex_follow x) (regex_fuel x) (regex_first x) None [r_end x]) as H.
    cbn [option_map] in H. rewrite H.
    destruct (tail_only x _ _ _ None _); reflexivity.
  Qed.

  Definition lrel (pl pl' : pool) (rid rid' : N) : Prop :=
    exists x, nthN pl rid = Some x /\ nthN pl' rid' = Some (msr x).

  Fixpoint all_checks (pl : pool) (ids : list N) : rres unit :=
    match ids with
    | [] => Ok tt
    | rid :: rest =>
        match nthN pl rid with
        | None => Panic "RegexInternPool::lookup"
        | Some sub => do _ <- check_tail_only sub; all_checks pl rest
        end
    end.

  Lemma all_checks_rel pl pl' ids ids' :
    Forall2 (lrel pl pl') ids ids' -> all_checks pl' ids' = mres (all_checks pl ids).
  Proof.
    induction 1 as [|a b l l' (x & Hx & Hx') _ IH]; cbn [all_checks]; [reflexivity|].
    rewrite Hx, Hx', check_tail_only_msr.
    destruct (check_tail_only x) as [[]| | |]; cbn [mres rmap obind]; try reflexivity. exact IH.
  Qed.

  Definition Cinv (pl : pool) (checked : list N) : Prop :=
    forall rid, In rid checked -> exists x, nthN pl rid = Some x /\ check_tail_only x = Ok tt.

  (** checking only the ids that are not yet known to be fine gives the verdict of checking all *)
  Lemma check_each_sub_char pl ids : forall checked0 checked,
    Cinv pl checked0 -> Cinv pl checked ->
    match check_each_sub pl (filter (fun rid => negb (memN rid checked0)) ids) checked with
    | Ok c1 => all_checks pl ids = Ok tt /\ Cinv pl c1
    | Err e => all_checks pl ids = Err e
    | Panic m => all_checks pl ids = Panic m
    | OutOfFuel => all_checks pl ids = OutOfFuel
    end.
  Proof.
    induction ids as [|rid r IH]; intros checked0 checked H0 Hc; cbn [filter check_each_sub all_checks].
    - split; [reflexivity|exact Hc].
    - destruct (memN rid checked0) eqn:Em; cbn [negb].
      + apply memN_In in Em. destruct (H0 rid Em) as (x & Hx & Hok). rewrite Hx, Hok. cbn [obind].
        apply IH; assumption.
      + cbn [check_each_sub]. destruct (nthN pl rid) as [sub|] eqn:Hx; [|reflexivity].
        destruct (check_tail_only sub) as [[]| | |] eqn:Hck; cbn [obind]; try reflexivity.
        apply IH; [exact H0|]. intros k [Hk|Hk]; [subst; eauto|apply Hc; exact Hk].
  Qed.

  Lemma input_at_rel pl pl' r r' p : rrel pl pl' r r' -> orel (irel pl pl') (input_at r p) (input_at r' p).
  Proof.
    intros (_ & _ & _ & _ & Hi). unfold input_at, nthN. generalize (N.to_nat p).
    induction Hi as [|a b l l' Hab _ IHl]; intros [|n]; cbn; auto.
  Qed.

  Lemma inputs_of_rel pl pl' r r' fp : rrel pl pl' r r' ->
    orel (Forall2 (irel pl pl')) (inputs_of r fp) (inputs_of r' fp).
  Proof.
    intros Hr. unfold inputs_of. rewrite <- (proj1 (proj2 Hr)).
    induction (filter (fun p => negb (p =? r_end r)) fp) as [|p ps IH]; cbn [omap]; [constructor|].
    apply (orel_bind _ _ _ _ _ _ (input_at_rel pl pl' r r' p Hr)). intros i i' Hi.
    apply (orel_bind _ _ _ _ _ _ IH). intros l l' Hl. constructor; assumption.
  Qed.

  Lemma sub_ids_rel pl pl' l l' :
    Forall2 (irel pl pl') l l' -> Forall2 (lrel pl pl') (sub_ids_of l) (sub_ids_of l').
  Proof.
    induction 1 as [|i i' r r' Hi _ IH]; [constructor|]. unfold sub_ids_of in *. cbn [flat_map].
    destruct i, i'; cbn in Hi; try contradiction; cbn [app]; try exact IH.
    constructor; [|exact IH]. destruct Hi as (_ & _ & x & Hx & Hx'). exists x. tauto.
  Qed.

  Lemma check_each_sub_rel pl pl' l l' c c' :
    Forall2 (irel pl pl') l l' -> Cinv pl c -> Cinv pl' c' ->
    orel (fun c1 c1' => Cinv pl c1 /\ Cinv pl' c1')
         (check_each_sub pl (filter (fun rid => negb (memN rid c)) (sub_ids_of l)) c)
         (check_each_sub pl' (filter (fun rid => negb (memN rid c')) (sub_ids_of l')) c').
  Proof.
    intros Hi Hc Hc'.
    pose proof (check_each_sub_char pl (sub_ids_of l) c c Hc Hc) as H1.
    pose proof (check_each_sub_char pl' (sub_ids_of l') c' c' Hc' Hc') as H2.
    pose proof (all_checks_rel pl pl' _ _ (sub_ids_rel pl pl' l l' Hi)) as Ha.
    destruct (check_each_sub pl _ c) as [c1|e1|m1|]; [destruct H1 as [H1 H1c]| | |];
      rewrite H1 in Ha; cbn [mres rmap] in Ha;
      (destruct (check_each_sub pl' _ c') as [c1'|e1'|m1'|]; [destruct H2 as [H2 H2c]| | |]);
      cbn [orel]; try (exfalso; congruence); try congruence; auto.
  Qed.

  (** the walks agree on what is visited; each keeps its own list of checked ids *)
  Definition wrel (pl pl' : pool) (s s' : list N * list N) : Prop :=
    fst s = fst s' /\ Cinv pl (snd s) /\ Cinv pl' (snd s').

  Lemma check_subwords_rel pl pl' r r' fw (Hr : rrel pl pl' r r') fuel :
    forall fp visited c c', Cinv pl c -> Cinv pl' c' ->
      orel (wrel pl pl') (check_subwords r fw pl fuel fp visited c) (check_subwords r' fw pl' fuel fp visited c').
  Proof.
    induction fuel as [|fuel IH]; intros fp visited c c' Hc Hc'; [exact I|].
    rewrite !check_subwords_S.
    apply (orel_bind _ _ _ _ _ _ (inputs_of_rel pl pl' r r' fp Hr)). intros l l' Hi.
    apply (orel_bind _ _ _ _ _ _ (check_each_sub_rel pl pl' l l' c c' Hi Hc Hc')). intros c1 c1' [H1 H1'].
    apply (each_orel (wrel pl pl')); [intros s s' H; apply H| |repeat split; assumption].
    intros p follow [v c2] [v' c2'] (Hv & H2 & H2'). cbn [fst snd] in *. subst v'. apply IH; assumption.
  Qed.

  Theorem check_ambiguities_rel pl pl' r r' : rrel pl pl' r r' ->
    check_ambiguities r' pl' = mres (check_ambiguities r pl).
  Proof.
    intro Hr. apply orel_eq_mres. unfold check_ambiguities.
    destruct Hr as (Hroot & Hend & Har & Htree & Hin).
    assert (Hfw : regex_follow r' = regex_follow r) by (unfold regex_follow; rewrite Htree; reflexivity).
    assert (Hfu : regex_fuel r' = regex_fuel r) by (unfold regex_fuel; rewrite Hfw; reflexivity).
    assert (Hfi : regex_first r' = regex_first r) by (unfold regex_first; rewrite Htree; reflexivity).
    rewrite Hfw, Hfu, Hfi, <- Hend.
    apply (orel_bind _ _ _ _ _ _
             (check_subwords_rel pl pl' r r' (regex_follow r)
                (conj Hroot (conj Hend (conj Har (conj Htree Hin)))) (regex_fuel r)
                (regex_first r) [r_end r] [] [] (fun _ H => match H with end) (fun _ H => match H with end))).
    reflexivity.
  Qed.
End Spans.

Section Compile.
  Variable f : span -> span.
  Variable pick : nat -> list (list N) -> nat.
  Variable fuel : nat.

  Lemma from_input_msi sm i : from_input sm (msi f i) = from_input sm i.
  Proof. destruct i; reflexivity. Qed.

  Lemma omap_from_input_msi sm l : omap (from_input sm) (map (msi f) l) = omap (from_input sm) l.
  Proof. induction l as [|i r IH]; cbn [map omap]; [reflexivity|]. rewrite from_input_msi, IH. reflexivity. Qed.

  Lemma dfa_from_regex_msr sm x : dfa_from_regex pick fuel sm (msr f x) = dfa_from_regex pick fuel sm x.
  Proof. unfold dfa_from_regex. cbn [msr r_inputs]. rewrite omap_from_input_msi. reflexivity. Qed.

  Lemma compile_sub_msr x : compile_sub pick fuel (msr f x) = compile_sub pick fuel x.
  Proof. unfold compile_sub. rewrite dfa_from_regex_msr. reflexivity. Qed.

  Lemma intern_app d subs : forall i k l,
    intern_dfa d subs i = (k, subs) -> intern_dfa d (subs ++ l) i = (k, subs ++ l).
  Proof.
    induction subs as [|x r IH]; intros i k l H; cbn [intern_dfa app] in *.
    - inversion H.
    - destruct (dfa_eqb x d); [inversion H; subst; reflexivity|].
      destruct (intern_dfa d r (N.succ i)) as [k' r'] eqn:E. inversion H; subst.
      rewrite (IH _ _ l E). reflexivity.
  Qed.

  Lemma intern_shape d subs : forall i k subs',
    intern_dfa d subs i = (k, subs') ->
    (subs' = subs \/ subs' = subs ++ [d]) /\ intern_dfa d subs' i = (k, subs').
  Proof.
    induction subs as [|x r IH]; intros i k subs' H; cbn [intern_dfa] in H.
    - inversion H; subst. split; [right; reflexivity|]. cbn [intern_dfa].
      rewrite (proj2 (dfa_eqb_eq d d) eq_refl). reflexivity.
    - destruct (dfa_eqb x d) eqn:E.
      + inversion H; subst. split; [left; reflexivity|]. cbn [intern_dfa]. rewrite E. reflexivity.
      + destruct (intern_dfa d r (N.succ i)) as [k' r'] eqn:E2. inversion H; subst.
        destruct (IH _ _ _ E2) as [Hs Hi]. split.
        * destruct Hs as [Hs|Hs]; rewrite Hs; [left|right]; reflexivity.
        * cbn [intern_dfa]. rewrite E, Hi. reflexivity.
  Qed.

  Lemma intern_stable d d2 subs k k2 subs2 :
    intern_dfa d subs 0 = (k, subs) -> intern_dfa d2 subs 0 = (k2, subs2) ->
    intern_dfa d subs2 0 = (k, subs2).
  Proof.
    intros H H2. destruct (intern_shape _ _ _ _ _ H2) as [[Hs|Hs] _]; rewrite Hs; [exact H|].
    apply intern_app. exact H.
  Qed.

  Definition K (pl : pool) (cache : list (N * N)) (subs : list dfa) : Prop :=
    forall rid k, assocN rid cache = Some k ->
      exists x d, nthN pl rid = Some x /\ compile_sub pick fuel x = Ok d /\ intern_dfa d subs 0 = (k, subs).

  (** the cache after the regex [rid] got the automaton number [k]: unchanged when it had one *)
  Definition cache_add (rid k : N) (cache : list (N * N)) : list (N * N) :=
    match assocN rid cache with Some _ => cache | None => cache ++ [(rid, k)] end.

  Lemma cache_add_assoc rid0 rid k cache :
    assocN rid0 (cache_add rid k cache)
    = match assocN rid0 cache with Some v => Some v | None => if N.eqb rid0 rid then Some k else None end.
  Proof.
    unfold cache_add. destruct (assocN rid cache) as [v|] eqn:E.
    - destruct (assocN rid0 cache) eqn:E0; [reflexivity|]. destruct (N.eqb_spec rid0 rid) as [->|_]; [congruence|reflexivity].
    - rewrite assocN_app. cbn [assocN]. reflexivity.
  Qed.

  Lemma K_add pl cache subs rid x d k subs2 :
    K pl cache subs -> nthN pl rid = Some x -> compile_sub pick fuel x = Ok d ->
    intern_dfa d subs 0 = (k, subs2) -> K pl (cache_add rid k cache) subs2.
  Proof.
    intros HK Hx Hc Hi rid0 k0 H0. rewrite cache_add_assoc in H0.
    destruct (assocN rid0 cache) as [v|] eqn:E.
    - inversion H0; subst v. destruct (HK rid0 k0 E) as (x0 & d0 & Hx0 & Hc0 & Hi0).
      exists x0, d0. repeat split; auto. eapply intern_stable; eauto.
    - destruct (N.eqb rid0 rid) eqn:En; [|discriminate]. apply N.eqb_eq in En. subst rid0.
      inversion H0; subst k0. exists x, d. repeat split; auto.
      destruct (intern_shape _ _ _ _ _ Hi) as [_ H]. exact H.
  Qed.

  (** a regex that is cached could as well be compiled again *)
  Lemma compile_subs_step pl cache subs rid l sp x rest :
    K pl cache subs -> nthN pl rid = Some x ->
    compile_subs pick fuel (RSub rid l sp :: rest) pl cache subs
    = do d <- compile_sub pick fuel x;
      let (k, subs') := intern_dfa d subs 0 in
      compile_subs pick fuel rest pl (cache_add rid k cache) subs'.
  Proof.
    intros HK Hx. cbn [compile_subs]. unfold cache_add. destruct (assocN rid cache) as [k|] eqn:Ec.
    - destruct (HK rid k Ec) as (x0 & d & Hx0 & Hc & Hin). rewrite Hx in Hx0. injection Hx0 as <-.
      rewrite Hc. cbn [obind]. rewrite Hin. reflexivity.
    - rewrite Hx. reflexivity.
  Qed.

  Definition covers (cache : list (N * N)) (inputs : list rinput) (c : list (N * N)) : Prop :=
    forall rid, (assocN rid cache <> None \/ In rid (sub_ids_of inputs)) -> assocN rid c <> None.

  Definition drel (pl pl' : pool) (cache cache' : list (N * N)) (inputs inputs' : list rinput)
             (x y : dres (list (N * N) * list dfa)) : Prop :=
    match x, y with
    | Ok (c, s), Ok (c', s') => s = s' /\ K pl c s /\ K pl' c' s
                                /\ covers cache inputs c /\ covers cache' inputs' c'
    | Err e, Err e' => e = e'
    | Panic a, Panic b => a = b
    | OutOfFuel, OutOfFuel => True
    | _, _ => False
    end.

  Lemma covers_skip cache i inputs c : 
    (match i with RSub _ _ _ => False | _ => True end) ->
    covers cache inputs c -> covers cache (i :: inputs) c.
  Proof.
    intros Hi H rid Hr. apply H. destruct Hr as [Hr|Hr]; [left; exact Hr|right].
    unfold sub_ids_of in *. cbn [flat_map] in Hr. destruct i; try destruct Hi; exact Hr.
  Qed.

  Lemma covers_add cache rid k l sp inputs c :
    covers (cache_add rid k cache) inputs c -> covers cache (RSub rid l sp :: inputs) c.
  Proof.
    intros H rid1 H1. apply H. rewrite cache_add_assoc.
    destruct H1 as [H1|[<-|H1]]; [left|left|right; exact H1].
    - destruct (assocN rid1 cache); congruence.
    - destruct (assocN rid cache); [discriminate|]. rewrite N.eqb_refl. discriminate.
  Qed.

  Lemma compile_subs_rel pl pl' inputs inputs' :
    Forall2 (irel f pl pl') inputs inputs' ->
    forall cache cache' subs, K pl cache subs -> K pl' cache' subs ->
      drel pl pl' cache cache' inputs inputs'
           (compile_subs pick fuel inputs pl cache subs) (compile_subs pick fuel inputs' pl' cache' subs).
  Proof.
    induction 1 as [|i i' r r' Hi Hr IH]; intros cache cache' subs HK HK'.
    - cbn. repeat split; auto; intros rid [H|[]]; exact H.
    - destruct i, i'; cbn in Hi; try contradiction.
      1-3: (cbn [compile_subs]; specialize (IH cache cache' subs HK HK');
            destruct (compile_subs pick fuel r pl cache subs) as [[cc ss]| | |];
            destruct (compile_subs pick fuel r' pl' cache' subs) as [[cc' ss']| | |]; cbn [drel] in IH |- *;
            try contradiction; try exact IH;
            destruct IH as (A & B & C & D & E); repeat split; auto; apply covers_skip; auto; exact I).
      (* both runs look the regex up, compile it and intern the automaton *)
      destruct Hi as (_ & _ & x & Hx & Hx').
      rewrite (compile_subs_step pl cache subs rid l sp x r HK Hx),
              (compile_subs_step pl' cache' subs rid0 l0 _ (msr f x) r' HK' Hx'), compile_sub_msr.
      destruct (compile_sub pick fuel x) as [d|e|m|] eqn:Hc; cbn [obind drel]; auto.
      destruct (intern_dfa d subs 0) as [k subs2] eqn:Hin.
      assert (Hc' : compile_sub pick fuel (msr f x) = Ok d) by (rewrite compile_sub_msr; exact Hc).
      specialize (IH _ _ subs2 (K_add _ _ _ _ _ _ _ _ HK Hx Hc Hin) (K_add _ _ _ _ _ _ _ _ HK' Hx' Hc' Hin)).
      destruct (compile_subs pick fuel r pl _ subs2) as [[c s]| | |];
        destruct (compile_subs pick fuel r' pl' _ subs2) as [[c' s']| | |];
        cbn [drel] in IH |- *; try contradiction; try exact IH.
      destruct IH as (A & B & C & D & E). repeat split; auto; eapply covers_add; eauto.
  Qed.

  Lemma labels_eq pl pl' c c' subs inputs inputs' inputs0 inputs0' cache0 cache0' :
    Forall2 (irel f pl pl') inputs inputs' ->
    K pl c subs -> K pl' c' subs ->
    covers cache0 inputs0 c -> covers cache0' inputs0' c' ->
    incl (sub_ids_of inputs) (sub_ids_of inputs0) -> incl (sub_ids_of inputs') (sub_ids_of inputs0') ->
    omap (from_input c) inputs = omap (from_input c') inputs'.
  Proof.
    intros HF HK HK' Hcov Hcov'. induction HF as [|i i' r r' Hi _ IH]; intros Hin Hin'; [reflexivity|].
    cbn [omap].
    assert (Hr : omap (from_input c) r = omap (from_input c') r').
    { apply IH; intros x Hx; [apply Hin|apply Hin']; unfold sub_ids_of in *; cbn [flat_map];
        apply in_or_app; right; exact Hx. }
    rewrite Hr.
    assert (Hh : from_input c i = from_input c' i').
    { destruct i, i'; cbn in Hi; try contradiction; cbn [from_input].
      - destruct Hi as (-> & -> & -> & _). reflexivity.
      - reflexivity.
      - destruct Hi as (-> & -> & -> & _). reflexivity.
      - destruct Hi as (-> & _ & x & Hx & Hx').
        assert (H1 : assocN rid c <> None).
        { apply Hcov. right. apply Hin. unfold sub_ids_of. cbn. left. reflexivity. }
        assert (H1' : assocN rid0 c' <> None).
        { apply Hcov'. right. apply Hin'. unfold sub_ids_of. cbn. left. reflexivity. }
        destruct (assocN rid c) as [k|] eqn:E; [|congruence].
        destruct (assocN rid0 c') as [k'|] eqn:E'; [|congruence].
        destruct (HK rid k E) as (x1 & d1 & A1 & B1 & C1).
        destruct (HK' rid0 k' E') as (x2 & d2 & A2 & B2 & C2).
        rewrite Hx in A1. inversion A1; subst x1. rewrite Hx' in A2. inversion A2; subst x2.
        rewrite compile_sub_msr in B2. rewrite B1 in B2. inversion B2; subst d2.
        rewrite C1 in C2. inversion C2. reflexivity. }
    rewrite Hh. reflexivity.
  Qed.

  Definition ms_derr (e : derror) : derror :=
    match e with
    | DParse sp => DParse (f sp)
    | DCheck ce => DCheck (ms_err f ce)
    | DRegex re => DRegex (msrerr f re)
    | DSubset _ | DAmb _ => e
    end.

  Definition dmap {A} (x : dres A) : dres A :=
    match x with Ok a => Ok a | Err e => Err (ms_derr e) | Panic m => Panic m | OutOfFuel => OutOfFuel end.

  Theorem compile_valid_spans v :
    flat_subwords (v_expr v) = true ->
    compile_valid pick fuel (ms_valid f v) = dmap (compile_valid pick fuel v).
  Proof.
    intro Hf. unfold compile_valid, from_valid_expr. cbn [ms_valid v_expr].
    pose proof (from_expr_rrel f (v_expr v) Hf) as Hr.
    destruct (from_expr (v_expr v) []) as [[r pl]|e0|m0|] eqn:E1;
      destruct (from_expr (ms f (v_expr v)) []) as [[r' pl']|e0'|m0'|] eqn:E2;
      cbn [orel fst snd] in Hr; try contradiction; cbn [obind lift dmap ms_derr]; try congruence.
    cbn [fst snd]. rewrite (check_ambiguities_rel f pl pl' r r' Hr).
    destruct (check_ambiguities r pl) as [[]|e1|m1|]; cbn [mres rmap obind lift dmap ms_derr]; try reflexivity.
    destruct Hr as (Hroot & Hend & Har & Htree & Hin).
    pose proof (compile_subs_rel pl pl' (r_inputs r) (r_inputs r') Hin [] [] []
                  (fun rid k H => ltac:(discriminate)) (fun rid k H => ltac:(discriminate))) as Hc.
    destruct (compile_subs pick fuel (r_inputs r) pl [] []) as [[c subs]|e2|m2|] eqn:Ecs;
      destruct (compile_subs pick fuel (r_inputs r') pl' [] []) as [[c' subs']|e2'|m2'|];
      cbn [drel] in Hc; try contradiction; cbn [obind dmap]; try congruence.
    2:{ subst e2'. destruct (compile_subs_err pick fuel _ _ _ _ _ Ecs) as [[x ->]|[x ->]]; reflexivity. }
    destruct Hc as (<- & HK & HK' & Hcov & Hcov').
    assert (Hd : dfa_from_regex pick fuel c' r' = dfa_from_regex pick fuel c r).
    { unfold dfa_from_regex.
      rewrite (labels_eq pl pl' c c' subs (r_inputs r) (r_inputs r') (r_inputs r) (r_inputs r') [] []
                         Hin HK HK' Hcov Hcov' (incl_refl _) (incl_refl _)).
      unfold regex_first, regex_follow. rewrite Htree, Hend. reflexivity. }
    rewrite Hd.
    destruct (dfa_from_regex pick fuel c r) as [raw|e3|m3|]; cbn [lift obind dmap ms_derr]; try reflexivity.
    destruct (minimize (fst raw)) as [m|e4|m4|]; cbn [lift_noerr obind dmap]; try reflexivity.
    destruct (check_ambiguity_best_effort m) as [[]|e5|m5|]; reflexivity.
  Qed.
End Compile.
