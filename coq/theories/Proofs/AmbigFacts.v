(** [Ambig.find] is a sound decision of [Ambig.unambiguous]: when it finds nothing, no state has
    two outgoing items that read a common word and differ in target; when it exhibits a word,
    the two transitions exist, differ in target and both items read that word. *)
From CG Require Import Base.Prelude Base.Facts Model.Dfa Spec.TokAut Spec.Ambig Proofs.TokAutFacts.

Lemma first_some_none {A B} (f : A -> option B) l :
  first_some f l = None -> forall x, In x l -> f x = None.
Proof.
  induction l as [| y l IH]; intros H x Hin; [destruct Hin |].
  cbn [first_some] in H. destruct (f y) eqn:E; [discriminate |].
  destruct Hin as [<- | Hin]; [assumption | apply IH; assumption].
Qed.

Lemma first_some_some {A B} (f : A -> option B) l b :
  first_some f l = Some b -> exists x, In x l /\ f x = Some b.
Proof.
  induction l as [| y l IH]; intro H; [discriminate |].
  cbn [first_some] in H. destruct (f y) eqn:E.
  - inversion H; subst. exists y. split; [left; reflexivity | assumption].
  - destruct (IH H) as [x [Hin Hx]]. exists x. split; [right; assumption | assumption].
Qed.

Lemma step_row d s i t :
  step d s i = Some t -> exists tos, assocN s (d_trans d) = Some tos /\ In (i, t) tos.
Proof.
  unfold step. destruct (assocN s (d_trans d)) as [tos |] eqn:E; [| discriminate].
  intro H. exists tos. split; [reflexivity | apply assocN_In; assumption].
Qed.

Lemma Neqb_sound a b : N.eqb a b = true -> a = b.
Proof. apply N.eqb_eq. Qed.

Lemma sub_accepts_spec d w :
  sub_accepts d w = true <-> tacc N (dnext d) (dfinal d) (d_start d) w.
Proof. apply taccepts_spec. Qed.

(** The facts of [TokAutFacts] at the two within-word automata.  They are stated on [subs_disjoint] and
    [subs_common] so that a use never has to compare these with their unfoldings (which evaluates the
    search as far as it goes). *)
Lemma subs_disjoint_sound d d' w :
  subs_disjoint d d' = true ->
  tacc N (dnext d) (dfinal d) (d_start d) w -> tacc N (dnext d') (dfinal d') (d_start d') w -> False.
Proof.
  unfold subs_disjoint. intros H W W'.
  exact (disjoint_sound N N _ _ _ _ N.eqb N.eqb Neqb_sound Neqb_sound _ _ H w (conj W W')).
Qed.

Lemma subs_common_sound d d' w :
  subs_common d d' = Some w ->
  tacc N (dnext d) (dfinal d) (d_start d) w /\ tacc N (dnext d') (dfinal d') (d_start d') w.
Proof. unfold subs_common. apply common_word_sound. Qed.

Lemma find_some_inv c wit :
  find c = Some wit ->
  exists s tos x y, In (s, tos) (d_trans (c_main c)) /\ In x tos /\ In y tos /\ check_pair c s x y = Some wit.
Proof.
  unfold find, find_at. intro H. apply first_some_some in H. destruct H as [[s tos] [Hrow H]]. cbn [fst snd] in H.
  apply first_some_some in H. destruct H as [x [Hx H]]. apply first_some_some in H. destruct H as [y [Hy H]].
  exists s, tos, x, y. auto.
Qed.

Lemma check_pair_complete c s i t j u ii ij w :
  nthN (d_inputs (c_main c)) i = Some ii -> nthN (d_inputs (c_main c)) j = Some ij ->
  matches_item c ii w -> matches_item c ij w -> t <> u ->
  check_pair c s (i, t) (j, u) <> None.
Proof.
  intros Hi Hj Mi Mj Htu. unfold check_pair. cbn [fst snd].
  destruct (N.eqb t u) eqn:E; [apply N.eqb_eq in E; contradiction |].
  rewrite Hi, Hj.
  destruct ii as [a da la | k lk | | |]; cbn [matches_item] in Mi; try contradiction;
    destruct ij as [b db lb | k' lk' | | |]; cbn [matches_item] in Mj; try contradiction.
  - subst. rewrite String.eqb_refl. discriminate.
  - destruct Mj as [d [Hd Hacc]]. subst a. rewrite Hd.
    apply sub_accepts_spec in Hacc. rewrite Hacc. discriminate.
  - destruct Mi as [d [Hd Hacc]]. subst b. rewrite Hd.
    apply sub_accepts_spec in Hacc. rewrite Hacc. discriminate.
  - destruct Mi as [d [Hd Hacc]]. destruct Mj as [d' [Hd' Hacc']]. rewrite Hd, Hd'.
    destruct (subs_disjoint d d') eqn:Ed; [| discriminate].
    exfalso. exact (subs_disjoint_sound d d' w Ed Hacc Hacc').
Qed.

Theorem find_none_unambiguous c : find c = None -> unambiguous c.
Proof.
  intros H s i j ii ij w t u Hs1 Hs2 Hi Hj Mi Mj.
  destruct (N.eq_dec t u) as [E | Ne]; [assumption | exfalso].
  apply step_row in Hs1. destruct Hs1 as [tos [Hrow Hit]].
  apply step_row in Hs2. destruct Hs2 as [tos' [Hrow' Hju]].
  rewrite Hrow in Hrow'. inversion Hrow'; subst tos'.
  apply assocN_In in Hrow.
  unfold find in H.
  pose proof (first_some_none _ _ H _ Hrow) as H1. unfold find_at in H1. cbn [fst snd] in H1.
  pose proof (first_some_none _ _ H1 _ Hit) as H2. cbn beta in H2.
  pose proof (first_some_none _ _ H2 _ Hju) as H3.
  revert H3. eapply check_pair_complete; eassumption.
Qed.

Theorem find_some_genuine c s i j w :
  find c = Some (mkwit s i j (Some w)) ->
  exists tos t u ii ij,
    In (s, tos) (d_trans (c_main c)) /\ In (i, t) tos /\ In (j, u) tos /\ t <> u
    /\ nthN (d_inputs (c_main c)) i = Some ii /\ nthN (d_inputs (c_main c)) j = Some ij
    /\ matches_item c ii w /\ matches_item c ij w.
Proof.
  intro H. apply find_some_inv in H. destruct H as [s0 [tos [[i0 t] [[j0 u] [Hrow [Hit [Hju H]]]]]]].
  unfold check_pair in H. cbn [fst snd] in H.
  destruct (N.eqb_spec t u) as [| Htu]; [discriminate |].
  destruct (nthN (d_inputs (c_main c)) i0) as [ii |] eqn:Hi; [| discriminate].
  destruct (nthN (d_inputs (c_main c)) j0) as [ij |] eqn:Hj;
    [| destruct ii; discriminate].
  destruct ii as [a da la | k lk | | |]; try discriminate;
    destruct ij as [b db lb | k' lk' | | |]; try discriminate.
  - destruct (String.eqb a b) eqn:Eab; [| discriminate]. apply String.eqb_eq in Eab.
    inversion H; subst. exists tos, t, u, (ILit w da la), (ILit w db lb).
    repeat split; try assumption.
  - destruct (nthN (c_subs c) k') as [d |] eqn:Hd; [| discriminate].
    destruct (sub_accepts d a) eqn:Ea; [| discriminate].
    inversion H; subst. exists tos, t, u, (ILit w da la), (ISub k' lk').
    repeat split; try assumption. cbn [matches_item]. exists d. split; [assumption |].
    apply sub_accepts_spec. assumption.
  - destruct (nthN (c_subs c) k) as [d |] eqn:Hd; [| discriminate].
    destruct (sub_accepts d b) eqn:Ea; [| discriminate].
    inversion H; subst. exists tos, t, u, (ISub k lk), (ILit w db lb).
    repeat split; try assumption. cbn [matches_item]. exists d. split; [assumption |].
    apply sub_accepts_spec. assumption.
  - destruct (nthN (c_subs c) k) as [d |] eqn:Hd; [| discriminate].
    destruct (nthN (c_subs c) k') as [d' |] eqn:Hd'; [| discriminate].
    destruct (subs_disjoint d d'); [discriminate |].
    inversion H as [[Es Ei Ej Ew]]. subst.
    apply subs_common_sound in Ew. destruct Ew as [W1 W2].
    exists tos, t, u, (ISub k lk), (ISub k' lk').
    repeat split; try assumption; cbn [matches_item]; eexists; split; eassumption.
Qed.
