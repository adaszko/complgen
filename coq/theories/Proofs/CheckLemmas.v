(** Shared lemmas about the passes of Model/Check.v: list views of the nested fixpoints of
    [distribute] and [propagate]; properties of nodes ([tree_all]) and how each pass carries them
    over, with [DistDescr]-freeness as an instance; reference lists; the named intermediate results of
    [from_grammar], its two halves and its inversion lemmas. *)
From CG Require Import Base.Prelude Base.Facts Proofs.ListFacts Model.Ast Model.Check Spec.Choice Spec.Mistakes.
From CG Require Import Proofs.CheckMistakes.

Lemma mem_str_ext n l1 l2 :
  (forall x, In x l1 <-> In x l2) -> mem_str n l1 = mem_str n l2.
Proof.
  intro H. destruct (mem_str n l2) eqn:E.
  - apply mem_str_In. apply H. apply mem_str_In. exact E.
  - apply mem_str_false. intro H'. apply H in H'. apply mem_str_In in H'. congruence.
Qed.

Lemma assoc_NoDup_In {V} k (l : list (string * V)) v :
  NoDup (map fst l) -> In (k, v) l -> assoc k l = Some v.
Proof. exact (in_assoc k l v). Qed.

Lemma find_name_map (F : defn -> defn) n acc :
  (forall d, d_name (F d) = d_name d) ->
  find (fun d => String.eqb (d_name d) n) (map F acc)
  = option_map F (find (fun d => String.eqb (d_name d) n) acc).
Proof.
  intro HF. induction acc as [|d acc IH]; cbn; [reflexivity|]. rewrite HF.
  destruct (String.eqb (d_name d) n); [reflexivity|exact IH].
Qed.

Fixpoint distribute_list (l : list expr) (d : option string) : list expr * option string :=
  match l with
  | [] => ([], d)
  | c :: r => let (c', d1) := distribute c d in
              let (r', d2) := distribute_list r d1 in (c' :: r', d2)
  end.

Lemma distribute_seq cs sp d :
  distribute (Sequence cs sp) d = let (cs', d') := distribute_list cs d in (Sequence cs' sp, d').
Proof. reflexivity. Qed.

Lemma distribute_fb cs sp d :
  distribute (Fallback cs sp) d = let (cs', d') := distribute_list cs d in (Fallback cs' sp, d').
Proof. reflexivity. Qed.

Lemma distribute_list_Forall2 (R : expr -> expr -> Prop) cs :
  Forall (fun c => forall d, R c (fst (distribute c d))) cs ->
  forall d, Forall2 R cs (fst (distribute_list cs d)).
Proof.
  induction 1 as [|c r Hc _ IH]; intro d; cbn [distribute_list]; [constructor|].
  specialize (Hc d). destruct (distribute c d) as [c' d1].
  specialize (IH d1). destruct (distribute_list r d1). constructor; assumption.
Qed.

Fixpoint propagate_list (i : N) (l : list expr) : list expr :=
  match l with
  | [] => []
  | c :: r => propagate c i :: propagate_list (N.succ i) r
  end.

Lemma propagate_fb cs sp lvl : propagate (Fallback cs sp) lvl = Fallback (propagate_list 0 cs) sp.
Proof. reflexivity. Qed.

Lemma specialize_ref_leaf sh us bi fs plain n l sp :
  (exists c z, specialize_ref sh us bi fs plain n l sp = Command c z l sp) \/
  specialize_ref sh us bi fs plain n l sp = NontermRef n l sp.
Proof.
  unfold specialize_ref.
  destruct (assoc n us) as [s|]; [left; eauto|].
  destruct (assoc n fs) as [[cmd ?]|]; [left; eauto|].
  destruct (mem_str n plain); [right; reflexivity|].
  destruct (assoc n bi) as [cmd|]; [left; eauto|right; reflexivity].
Qed.

Lemma assoc_update_def m n x t :
  assoc m (update_def n x t) =
  if String.eqb m n then match assoc m t with Some _ => Some x | None => None end else assoc m t.
Proof.
  unfold update_def. induction t as [|[k v] t IH]; cbn [map assoc fst].
  - destruct (String.eqb m n); reflexivity.
  - destruct (String.eqb k n) eqn:Ekn; cbn [assoc].
    + apply String.eqb_eq in Ekn. subst k. destruct (String.eqb m n) eqn:Emn; [reflexivity|exact IH].
    + destruct (String.eqb m k) eqn:Emk.
      * apply String.eqb_eq in Emk. subst k. rewrite Ekn. reflexivity.
      * exact IH.
Qed.

(** [node_of e] is a part of a node that the passes leave as it is when they rebuild the node: its
    constructor, the span of a terminal, the name and the span of a reference, whether a [|] or
    [||] has no operand.  Levels, descriptions, command strings and the other spans are not part
    of it. *)
Inductive node :=
| NTerminal (sp : span) | NRef (n : string) (sp : span) | NCommand
| NSequence | NAlternative (empty : bool) | NFallback (empty : bool)
| NOptional | NMany1 | NDistDescr | NSubword.

Definition is_nil {A} (l : list A) : bool := match l with [] => true | _ => false end.

Definition node_of (e : expr) : node :=
  match e with
  | Terminal _ _ _ sp => NTerminal sp
  | NontermRef n _ sp => NRef n sp
  | Command _ _ _ _ => NCommand
  | Sequence _ _ => NSequence
  | Alternative cs _ => NAlternative (is_nil cs)
  | Fallback cs _ => NFallback (is_nil cs)
  | Optional _ _ => NOptional
  | Many1 _ _ => NMany1
  | DistDescr _ _ _ => NDistDescr
  | Subword _ _ _ => NSubword
  end.

Definition children_of (e : expr) : list expr :=
  match e with
  | Terminal _ _ _ _ | NontermRef _ _ _ | Command _ _ _ _ => []
  | Sequence cs _ | Alternative cs _ | Fallback cs _ => cs
  | Optional c _ | Many1 c _ | DistDescr c _ _ | Subword c _ _ => [c]
  end.

Lemma expr_children_ind (P : expr -> Prop) :
  (forall e, Forall P (children_of e) -> P e) -> forall e, P e.
Proof. intros H e. induction e using expr_ind'; apply H; cbn [children_of]; auto. Qed.

Inductive tree_all (q : node -> Prop) : expr -> Prop :=
| tree_all_node e : q (node_of e) -> Forall (tree_all q) (children_of e) -> tree_all q e.

Lemma tree_all_iff (q : node -> Prop) e : tree_all q e <-> q (node_of e) /\ Forall (tree_all q) (children_of e).
Proof. split; [intros [e' Hq Hc]; split; assumption|intros [Hq Hc]; constructor; assumption]. Qed.

Lemma tree_all_char (P : expr -> Prop) (q : node -> Prop) :
  (forall e, P e <-> q (node_of e) /\ Forall P (children_of e)) -> forall e, P e <-> tree_all q e.
Proof.
  intros HP e. induction e as [e IH] using expr_children_ind. rewrite HP, tree_all_iff.
  split; intros [Hq Hc]; (split; [exact Hq|]); (eapply Forall_mp; [|exact Hc]);
    (eapply Forall_impl; [|exact IH]); cbn; intros c Hc'; apply Hc'.
Qed.

Lemma tree_all_impl (q q' : node -> Prop) e : (forall n, q n -> q' n) -> tree_all q e -> tree_all q' e.
Proof.
  intro Hq. induction e as [e IH] using expr_children_ind. intro H. apply tree_all_iff in H.
  destruct H as [Hn Hc]. constructor; [auto|]. eapply Forall_mp; eassumption.
Qed.

Lemma tree_all_any (q : node -> Prop) e : (forall n, q n) -> tree_all q e.
Proof.
  intro Hq. induction e as [e IH] using expr_children_ind. constructor; [apply Hq|exact IH].
Qed.

Lemma tree_all_rebuild (q q' : node -> Prop) e e' :
  (q (node_of e) -> q' (node_of e')) ->
  Forall2 (fun c c' => tree_all q c -> tree_all q' c') (children_of e) (children_of e') ->
  tree_all q e -> tree_all q' e'.
Proof.
  intros Hn Hc H. apply tree_all_iff in H. destruct H as [Hq Ha]. constructor; [auto|].
  induction Hc; inversion Ha; subst; constructor; auto.
Qed.

Lemma tree_all_child (q : node -> Prop) e c : tree_all q e -> In c (children_of e) -> tree_all q c.
Proof. intros H Hc. apply tree_all_iff in H. destruct H as [_ H]. rewrite Forall_forall in H. auto. Qed.

Lemma is_nil_map {A B} (F : A -> B) l : is_nil (map F l) = is_nil l.
Proof. destruct l; reflexivity. Qed.

Definition table_all (q : node -> Prop) (t : list (string * expr)) : Prop :=
  forall n rhs, assoc n t = Some rhs -> tree_all q rhs.

(** A pass rebuilds nodes over rewritten children, puts a command or an entry of the table for a
    reference, or drops a node.  Hence it carries a property [q] of nodes over, provided [q]
    holds of [NCommand] ([specialize]) or of the table ([resolve]). *)
Section Passes.
  Variable q : node -> Prop.

  Lemma tree_all_specialize sh us bi fs plain e :
    q NCommand -> tree_all q e -> tree_all q (specialize sh us bi fs plain e).
  Proof.
    intro Hc. induction e using expr_ind'; cbn [specialize]; try (intro H0; exact H0);
      try (apply tree_all_rebuild; cbn [node_of children_of]; rewrite ?is_nil_map;
           auto using Forall2_map_self; fail).
    intro H0. destruct (specialize_ref_leaf sh us bi fs plain n l sp) as [(c & z & ->)| ->]; [|exact H0].
    constructor; [exact Hc|constructor].
  Qed.

  Lemma tree_all_resolve t e : table_all q t -> tree_all q e -> tree_all q (resolve t e).
  Proof.
    intro Ht. induction e using expr_ind'; cbn [resolve]; try (intro H0; exact H0);
      try (apply tree_all_rebuild; cbn [node_of children_of]; rewrite ?is_nil_map;
           auto using Forall2_map_self; fail).
    intro H0. destruct (assoc n t) as [rhs|] eqn:E; [exact (Ht _ _ E)|exact H0].
  Qed.

  Lemma tree_all_resolve_in_order ord : forall t, table_all q t -> table_all q (resolve_in_order ord t).
  Proof.
    induction ord as [|n r IH]; intros t Ht; cbn [resolve_in_order]; [exact Ht|].
    destruct (assoc n t) as [rhs|] eqn:E; [|apply IH; exact Ht].
    apply IH. intros m rhs' Hm. rewrite assoc_update_def in Hm.
    destruct (String.eqb m n); [|exact (Ht _ _ Hm)].
    destruct (assoc m t); [|discriminate]. inversion Hm; subst.
    apply tree_all_resolve; [exact Ht|exact (Ht _ _ E)].
  Qed.

  Lemma tree_all_propagate e : tree_all q e -> forall lvl, tree_all q (propagate e lvl).
  Proof.
    induction e using expr_ind'; intros H0 lvl; try rewrite propagate_fb; cbn [propagate]; revert H0;
      apply tree_all_rebuild; cbn [node_of children_of]; rewrite ?is_nil_map; auto.
    - apply Forall2_map_self. eapply Forall_impl; [|exact H]. cbn. auto.
    - apply Forall2_map_self. eapply Forall_impl; [|exact H]. cbn. auto.
    - destruct cs; exact (fun x => x).
    - generalize 0 as i. induction H; intro i; cbn [propagate_list]; constructor; auto.
  Qed.

  (** [flatten] drops the [Subword] nodes, so nothing is asked of them *)
  Lemma tree_all_flatten e : tree_all (fun n => n <> NSubword -> q n) e -> tree_all q (flatten e).
  Proof.
    induction e using expr_ind'; cbn [flatten];
      try (apply tree_all_rebuild; cbn [node_of children_of]; rewrite ?is_nil_map;
           auto using Forall2_map_self; intro Hq; apply Hq; discriminate).
    intro H0. apply IHe. apply (tree_all_child _ _ _ H0). left. reflexivity.
  Qed.

  Lemma tree_all_collapse e : tree_all q e -> tree_all q (collapse e).
  Proof.
    induction e using expr_ind'; cbn [collapse]; try (intro H0; exact H0);
      apply tree_all_rebuild; cbn [node_of children_of]; rewrite ?is_nil_map;
      auto using Forall2_map_self.
    constructor; [|constructor]. intro H0. apply tree_all_flatten. eapply tree_all_impl; [|exact H0]. auto.
  Qed.

  (** [distribute] drops the [DistDescr] nodes *)
  Lemma tree_all_distribute e :
    tree_all (fun n => n <> NDistDescr -> q n) e -> forall d, tree_all q (fst (distribute e d)).
  Proof.
    assert (Hl : forall cs, Forall (fun e => tree_all (fun n => n <> NDistDescr -> q n) e ->
                                             forall d, tree_all q (fst (distribute e d))) cs ->
                            Forall (tree_all (fun n => n <> NDistDescr -> q n)) cs ->
                            forall d, Forall (tree_all q) (fst (distribute_list cs d))
                                      /\ is_nil (fst (distribute_list cs d)) = is_nil cs).
    { induction 1 as [|c r Hc _ IH]; intros Ha d; cbn [distribute_list]; [split; constructor|].
      inversion Ha; subst. specialize (Hc H1 d). destruct (distribute c d) as [c' d1].
      destruct (IH H2 d1) as [IH1 _]. destruct (distribute_list r d1) as [r' d2].
      split; [constructor; assumption|reflexivity]. }
    induction e using expr_ind'; intros H0 d0; apply tree_all_iff in H0; destruct H0 as [Hq Hc];
      cbn [node_of children_of] in Hq, Hc;
      try (constructor; [apply Hq; discriminate|constructor]; fail);
      try (cbn [distribute]; inversion Hc; subst; specialize (IHe H1 d0); destruct (distribute e d0);
           constructor; [apply Hq; discriminate|constructor; [exact IHe|constructor]]; fail).
    - assert (Hn : tree_all q (Terminal t d l sp)) by (constructor; [apply Hq; discriminate|constructor]).
      cbn. destruct d; [exact Hn|]. destruct d0; [|exact Hn]. constructor; [apply Hq; discriminate|constructor].
    - rewrite distribute_seq. destruct (Hl cs H Hc d0) as [Ha _]. destruct (distribute_list cs d0).
      constructor; [apply Hq; discriminate|exact Ha].
    - cbn [distribute fst]. constructor; cbn [node_of children_of]; rewrite ?is_nil_map;
        [apply Hq; discriminate|]. apply Forall_map. eapply Forall_mp; [|exact Hc].
      eapply Forall_impl; [|exact H]. cbn. auto.
    - cbn [distribute fst]. inversion Hc; subst. apply IHe. exact H1.
    - rewrite distribute_fb. destruct (Hl cs H Hc d0) as [Ha Hn]. destruct (distribute_list cs d0).
      constructor; cbn [node_of children_of fst] in *; [rewrite Hn; apply Hq; discriminate|exact Ha].
  Qed.
End Passes.

Fixpoint dd_free (e : expr) : Prop :=
  match e with
  | Terminal _ _ _ _ | NontermRef _ _ _ | Command _ _ _ _ => True
  | Sequence cs _ | Alternative cs _ | Fallback cs _ =>
      (fix all (l : list expr) : Prop :=
         match l with [] => True | c :: r => dd_free c /\ all r end) cs
  | Optional c _ | Many1 c _ | Subword c _ _ => dd_free c
  | DistDescr _ _ _ => False
  end.

Fixpoint dd_free_list (l : list expr) : Prop :=
  match l with [] => True | c :: r => dd_free c /\ dd_free_list r end.

Lemma dd_free_seq cs sp : dd_free (Sequence cs sp) = dd_free_list cs.
Proof. reflexivity. Qed.
Lemma dd_free_alt cs sp : dd_free (Alternative cs sp) = dd_free_list cs.
Proof. reflexivity. Qed.
Lemma dd_free_fb cs sp : dd_free (Fallback cs sp) = dd_free_list cs.
Proof. reflexivity. Qed.

Lemma dd_free_list_Forall l : dd_free_list l <-> Forall dd_free l.
Proof.
  induction l; cbn [dd_free_list]; split; intro H.
  - constructor.
  - exact I.
  - destruct H. constructor; [assumption|apply IHl; assumption].
  - inversion H; subst. split; [assumption|apply IHl; assumption].
Qed.

Lemma dd_free_tree e : dd_free e <-> tree_all (fun n => n <> NDistDescr) e.
Proof.
  apply (tree_all_char dd_free). clear e. intro e.
  destruct e; cbn [node_of children_of];
    rewrite ?dd_free_seq, ?dd_free_alt, ?dd_free_fb, ?dd_free_list_Forall; cbn [dd_free];
    try (split; [intro H; split; [discriminate|auto]|intros [_ H]; auto; inversion H; assumption]).
  split; [intros []|intros [Hn _]; apply Hn; reflexivity].
Qed.

Lemma distribute_dd_free e : forall d, dd_free (fst (distribute e d)).
Proof. intro d. apply dd_free_tree, tree_all_distribute, tree_all_any. auto. Qed.

Lemma specialize_dd_free sh us bi fs plain e : dd_free e -> dd_free (specialize sh us bi fs plain e).
Proof. rewrite !dd_free_tree. apply tree_all_specialize. discriminate. Qed.

Lemma collapse_dd_free e : dd_free e -> dd_free (collapse e).
Proof. rewrite !dd_free_tree. apply tree_all_collapse. Qed.

Lemma propagate_dd_free e lvl : dd_free e -> dd_free (propagate e lvl).
Proof. rewrite !dd_free_tree. intro H. apply tree_all_propagate. exact H. Qed.

(** [nonterm_refs] does not look below a [DistDescr]; after [distribute], which drops these
    wrappers, it sees every reference of the source. *)
Lemma distribute_refs e : forall d,
  map fst (nonterm_refs (fst (distribute e d))) = all_refs e.
Proof.
  assert (Hl : forall cs, Forall (fun e => forall d, map fst (nonterm_refs (fst (distribute e d))) = all_refs e) cs ->
                          forall d, map fst (flat_map nonterm_refs (fst (distribute_list cs d)))
                                    = flat_map all_refs cs).
  { intros cs H d. rewrite map_flat_map. apply Forall2_flat_map.
    apply (distribute_list_Forall2 (fun c c' => map fst (nonterm_refs c') = all_refs c)). exact H. }
  induction e using expr_ind'; intro d0; try reflexivity;
    try (cbn [distribute]; specialize (IHe d0); destruct (distribute e d0); exact IHe).
  - cbn. destruct d; [reflexivity|]. destruct d0; reflexivity.
  - rewrite distribute_seq. specialize (Hl cs H d0). destruct (distribute_list cs d0). exact Hl.
  - cbn [distribute fst nonterm_refs all_refs]. rewrite flat_map_map, map_flat_map.
    apply flat_map_ext_Forall. eapply Forall_impl; [|exact H]. cbn. auto.
  - cbn [distribute fst all_refs]. apply IHe.
  - rewrite distribute_fb. specialize (Hl cs H d0). destruct (distribute_list cs d0). exact Hl.
Qed.

Lemma distribute_descriptions_refs e :
  map fst (nonterm_refs (distribute_descriptions e)) = all_refs e.
Proof. apply distribute_refs. Qed.

Lemma dd_free_refs e : dd_free e -> map fst (nonterm_refs e) = all_refs e.
Proof.
  induction e using expr_ind'; intro Hf; try reflexivity; try (cbn in *; auto; fail);
    try (rewrite ?dd_free_seq, ?dd_free_alt, ?dd_free_fb, dd_free_list_Forall in Hf;
         cbn [nonterm_refs all_refs]; rewrite map_flat_map; apply flat_map_ext_Forall;
         eapply Forall_mp; eassumption).
  destruct Hf.
Qed.

Definition cv_names (g : grammar) : list (string * span) :=
  map (fun x => (fst (fst x), snd (fst x))) (call_variants g).

Definition expr0_of (g : grammar) : expr :=
  match map snd (call_variants g) with
  | [e] => e
  | es => Alternative es (match es with e :: _ => expr_span e | [] => mkspan 0 0 0 end)
  end.

Definition defs1_of (defs0 : list defn) : list defn :=
  map (fun d => mkdefn (d_name d) (d_span d) (distribute_descriptions (d_rhs d))) defs0.

Definition spec_of (builtins : shell -> list (string * string)) (sh : shell)
           (us : list (string * user_spec)) (fs : list (string * (string * span)))
           (defs1 : list defn) : expr -> expr :=
  specialize sh us (builtins sh) fs (map d_name defs1).

Definition defs2_of (spec : expr -> expr) (defs1 : list defn) : list defn :=
  map (fun d => mkdefn (d_name d) (d_span d) (spec (d_rhs d))) defs1.

Definition table0_of (defs2 : list defn) : list (string * expr) :=
  map (fun d => (d_name d, d_rhs d)) defs2.

Definition referenced_of (defs1 : list defn) (expr1 : expr) : list string :=
  map fst (flat_map (fun d => nonterm_refs (d_rhs d)) defs1 ++ nonterm_refs expr1).

Definition spaces_fuel (table : list (string * expr)) (expr2 : expr) : nat :=
  (S (fold_right (fun p n => expr_size (snd p) + n) (expr_size expr2) table)
   * S (List.length table))%nat.

Definition unused_of (referenced : list string) (defs1 : list defn) : list (string * span) :=
  filter (fun p => negb (mem_str (fst p) referenced)) (map (fun d => (d_name d, d_span d)) defs1).

Definition unused_specs_of (referenced : list string) (us : list (string * user_spec))
  : list (string * span) :=
  filter (fun p => negb (mem_str (fst p) referenced)) (map (fun p => (fst p, us_span (snd p))) us).

Lemma in_all_defs g n nsp sh rhs :
  In (n, nsp, sh, rhs) (all_defs g) <-> In (NontermDef n nsp sh rhs) g.
Proof.
  unfold all_defs. rewrite in_flat_map. split.
  - intros [s [Hs Hin]]. destruct s; [destruct Hin|]. destruct Hin as [Hin|[]]. inversion Hin; subst.
    exact Hs.
  - intro H. eexists. split; [exact H|]. left. reflexivity.
Qed.

Lemma in_call_variants g n sp e : In (n, sp, e) (call_variants g) <-> In (CallVariant n sp e) g.
Proof.
  unfold call_variants. rewrite in_flat_map. split.
  - intros [s [Hs Hin]]. destruct s; [|destruct Hin]. destruct Hin as [Hin|[]]. inversion Hin; subst.
    exact Hs.
  - intro H. eexists. split; [exact H|]. left. reflexivity.
Qed.

Lemma plain_defs_in g d :
  In d (plain_defs_of (all_defs g)) -> In (NontermDef (d_name d) (d_span d) None (d_rhs d)) g.
Proof.
  unfold plain_defs_of. rewrite in_flat_map. intros [[[[n nsp] [s|]] rhs] [Hin Hd]]; [destruct Hd|].
  destruct Hd as [Hd|[]]. subst d. cbn. apply in_all_defs. exact Hin.
Qed.

Lemma expr0_of_tree_all (q : node -> Prop) g :
  q (NAlternative (is_nil (call_variants g))) ->
  (forall n sp e, In (CallVariant n sp e) g -> tree_all q e) -> tree_all q (expr0_of g).
Proof.
  intros Halt Hcv.
  assert (Hall : Forall (tree_all q) (map snd (call_variants g))).
  { apply Forall_forall. intros e He. apply in_map_iff in He. destruct He as [[[n sp] e'] [Heq Hin]].
    cbn in Heq. subst e'. apply in_call_variants in Hin. eapply Hcv. exact Hin. }
  unfold expr0_of. rewrite <- (is_nil_map snd) in Halt.
  destruct (map snd (call_variants g)) as [|e [|e' r]]; try (constructor; assumption).
  inversion Hall. assumption.
Qed.

(** What holds of every node of the statements (but for the [DistDescr] nodes, which go) holds of
    every node of the table handed to the later passes. *)
Section TableAll.
  Variable q : node -> Prop.
  Variable builtins : shell -> list (string * string).
  Variable sh : shell.
  Variable us : list (string * user_spec).
  Variable fs : list (string * (string * span)).
  Variable defs0 : list defn.
  Hypothesis Hcmd : q NCommand.
  Hypothesis Hdefs : Forall (fun d => tree_all (fun n => n <> NDistDescr -> q n) (d_rhs d)) defs0.

  Lemma spec_all e :
    tree_all (fun n => n <> NDistDescr -> q n) e ->
    tree_all q (spec_of builtins sh us fs (defs1_of defs0) (distribute_descriptions e)).
  Proof. intro H. apply tree_all_specialize; [exact Hcmd|]. apply tree_all_distribute. exact H. Qed.

  Lemma table0_all :
    table_all q (table0_of (defs2_of (spec_of builtins sh us fs (defs1_of defs0)) (defs1_of defs0))).
  Proof.
    intros n rhs Hn. apply assoc_In in Hn. unfold table0_of, defs2_of, defs1_of in Hn.
    rewrite !map_map in Hn. apply in_map_iff in Hn. destruct Hn as [d [Heq Hin]].
    inversion Heq; subst. apply spec_all. rewrite Forall_forall in Hdefs. apply Hdefs. exact Hin.
  Qed.
End TableAll.

Record accepted (builtins : shell -> list (string * string)) (g : grammar) (sh : shell)
       (v : valid_grammar) : Type := mkacc {
  a_command : string;
  a_cspan : span;
  a_defs0 : list defn;
  a_us : list (string * user_spec);
  a_fs : list (string * (string * span));
  a_ord : list string;
  a_dedup : dedup_names [] (cv_names g) = [(a_command, a_cspan)];
  a_noslash : contains_char slash a_command = false;
  a_collect : collect_plain_defs (all_defs g) [] = Ok a_defs0;
  a_specs : get_specializations g sh = Ok (a_us, a_fs);
  a_defs1 := defs1_of a_defs0;
  a_expr1 := distribute_descriptions (expr0_of g);
  a_spec := spec_of builtins sh a_us a_fs a_defs1;
  a_defs2 := defs2_of a_spec a_defs1;
  a_expr2 := a_spec a_expr1;
  a_order : resolution_order a_defs2 = Ok a_ord;
  a_table := resolve_in_order a_ord (table0_of a_defs2);
  a_spaces : spaces a_table (spaces_fuel a_table a_expr2) a_expr2 [] false false = Ok tt;
  a_expr5 := propagate (collapse (resolve a_table a_expr2)) 0;
  a_referenced := referenced_of a_defs1 a_expr1;
  a_v : v = mkvalid a_command a_expr5 (get_nonterm_refs a_expr5)
                    (unused_of a_referenced a_defs1) (unused_specs_of a_referenced a_us)
}.

(** [from_grammar] in two halves: the passes that read the statements (call variants, plain
    definitions, specialisations), and the passes that work on what those produced. *)
Definition back_end (builtins : shell -> list (string * string)) (g : grammar) (sh : shell)
           (command : string) (defs0 : list defn)
           (us : list (string * user_spec)) (fs : list (string * (string * span)))
  : res valid_grammar :=
  let defs1 := defs1_of defs0 in
  let expr1 := distribute_descriptions (expr0_of g) in
  let spec := spec_of builtins sh us fs defs1 in
  let defs2 := defs2_of spec defs1 in
  let expr2 := spec expr1 in
  do ord <- resolution_order defs2;
  let table := resolve_in_order ord (table0_of defs2) in
  do _ <- spaces table (spaces_fuel table expr2) expr2 [] false false;
  let expr5 := propagate (collapse (resolve table expr2)) 0 in
  let referenced := referenced_of defs1 expr1 in
  Ok (mkvalid command expr5 (get_nonterm_refs expr5) (unused_of referenced defs1)
              (unused_specs_of referenced us)).

Definition from_grammar_named (builtins : shell -> list (string * string)) (g : grammar) (sh : shell)
  : res valid_grammar :=
  match dedup_names [] (cv_names g) with
  | [] => Err MissingCallVariants
  | (command, command_span) :: more =>
      match more with
      | _ :: _ => Err (VaryingCommandNames (command_span :: map snd more))
      | [] =>
          if contains_char slash command then Err (InvalidCommandName command_span) else
          do defs0 <- collect_plain_defs (all_defs g) [];
          do specs <- get_specializations g sh;
          back_end builtins g sh command defs0 (fst specs) (snd specs)
      end
  end.

Lemma from_grammar_named_eq builtins g sh :
  from_grammar builtins g sh = from_grammar_named builtins g sh.
Proof.
  unfold from_grammar, from_grammar_named. fold (cv_names g).
  destruct (dedup_names [] (cv_names g)) as [|[command cspan] more]; [reflexivity|].
  destruct more; [|reflexivity].
  destruct (contains_char slash command); [reflexivity|].
  destruct (collect_plain_defs (all_defs g) []) as [defs0| | |]; cbn [obind]; try reflexivity.
  destruct (get_specializations g sh) as [[us fs]| | |]; reflexivity.
Qed.

Lemma from_grammar_back_end builtins g sh command cspan defs0 us fs :
  dedup_names [] (cv_names g) = [(command, cspan)] -> contains_char slash command = false ->
  collect_plain_defs (all_defs g) [] = Ok defs0 -> get_specializations g sh = Ok (us, fs) ->
  from_grammar builtins g sh = back_end builtins g sh command defs0 us fs.
Proof.
  intros Hd Hs Hc Hsp. rewrite from_grammar_named_eq. unfold from_grammar_named.
  rewrite Hd, Hs, Hc, Hsp. reflexivity.
Qed.

Lemma from_grammar_ok builtins g sh v :
  from_grammar builtins g sh = Ok v -> accepted builtins g sh v.
Proof.
  rewrite from_grammar_named_eq. unfold from_grammar_named.
  destruct (dedup_names [] (cv_names g)) as [|[command cspan] [|m more]] eqn:Hd; try discriminate.
  destruct (contains_char slash command) eqn:Hs; [discriminate|].
  destruct (collect_plain_defs (all_defs g) []) as [defs0| | |] eqn:Hc; try discriminate.
  destruct (get_specializations g sh) as [[us fs]| | |] eqn:Hsp; try discriminate.
  cbn [obind fst snd]. unfold back_end. cbn zeta.
  destruct (resolution_order _) as [ord| | |] eqn:Ho; try discriminate. cbn [obind].
  destruct (spaces _ _ _ [] false false) as [[]| | |] eqn:Hspaces; try discriminate.
  intro H. inversion H.
  exact (mkacc builtins g sh _ command cspan defs0 us fs ord Hd Hs Hc Hsp Ho Hspaces eq_refl).
Qed.

Lemma from_grammar_ok_front builtins g sh v :
  from_grammar builtins g sh = Ok v ->
  exists command cspan defs0 us fs,
    dedup_names [] (cv_names g) = [(command, cspan)] /\ contains_char slash command = false
    /\ collect_plain_defs (all_defs g) [] = Ok defs0 /\ get_specializations g sh = Ok (us, fs)
    /\ back_end builtins g sh command defs0 us fs = Ok v.
Proof.
  intro H. pose proof H as H0. apply from_grammar_ok in H. destruct H as [command cspan defs0 us fs].
  exists command, cspan, defs0, us, fs. repeat split; try assumption.
  rewrite <- H0. symmetry. eapply from_grammar_back_end; eassumption.
Qed.

Lemma back_end_err builtins g sh command defs0 us fs e :
  back_end builtins g sh command defs0 us fs = Err e ->
  let spec := spec_of builtins sh us fs (defs1_of defs0) in
  let defs2 := defs2_of spec (defs1_of defs0) in
  let expr2 := spec (distribute_descriptions (expr0_of g)) in
  resolution_order defs2 = Err e \/
  exists ord, resolution_order defs2 = Ok ord /\
              let table := resolve_in_order ord (table0_of defs2) in
              spaces table (spaces_fuel table expr2) expr2 [] false false = Err e.
Proof.
  unfold back_end. cbn zeta. destruct (resolution_order _) as [ord|e'| |]; cbn [obind]; try discriminate.
  - intro H. right. exists ord. split; [reflexivity|].
    destruct (spaces _ _ _ [] false false) as [[]|e'| |]; cbn [obind] in H; try discriminate.
    inversion H. reflexivity.
  - intro H. left. inversion H. reflexivity.
Qed.

Lemma from_grammar_err builtins g sh e :
  from_grammar builtins g sh = Err e ->
  (dedup_names [] (cv_names g) = [] /\ e = MissingCallVariants)
  \/ (exists c sp m more, dedup_names [] (cv_names g) = (c, sp) :: m :: more
                          /\ e = VaryingCommandNames (sp :: map snd (m :: more)))
  \/ (exists c sp, dedup_names [] (cv_names g) = [(c, sp)] /\ e = InvalidCommandName sp)
  \/ collect_plain_defs (all_defs g) [] = Err e
  \/ get_user_specs sh (all_defs g) [] = Err e
  \/ (exists us : list (string * user_spec), get_fallback_specs (map fst us) (all_defs g) [] = Err e)
  \/ (exists command defs0 us fs, collect_plain_defs (all_defs g) [] = Ok defs0
                                  /\ back_end builtins g sh command defs0 us fs = Err e).
Proof.
  rewrite from_grammar_named_eq. unfold from_grammar_named, get_specializations.
  destruct (dedup_names [] (cv_names g)) as [|[command cspan] [|m more]].
  - intro H. inversion H. auto.
  - destruct (contains_char slash command).
    { intro H. inversion H. right; right; left. eauto. }
    destruct (collect_plain_defs (all_defs g) []) as [defs0|e'| |]; cbn [obind]; try discriminate.
    2:{ intro H. inversion H. auto. }
    destruct (get_user_specs sh (all_defs g) []) as [us|e'| |]; cbn [obind]; try discriminate.
    2:{ intro H. inversion H. auto 6. }
    destruct (get_fallback_specs (map fst us) (all_defs g) []) as [fs|e'| |] eqn:Hfs; cbn [obind];
      try discriminate.
    + intro H. do 6 right. exists command, defs0, us, fs. split; [reflexivity|exact H].
    + intro H. inversion H. subst e'. do 5 right. left. exists us. exact Hfs.
  - intro H. inversion H. right; left. exists command, cspan, m, more. split; reflexivity.
Qed.

(** What holds of every node of the source (but for the [DistDescr] nodes, which go) holds of every
    node of the validated expression. *)
Section AcceptedAll.
  Variable q : node -> Prop.
  Variable builtins : shell -> list (string * string).
  Variable g : grammar.
  Variable sh : shell.
  Variable v : valid_grammar.
  Variable A : accepted builtins g sh v.
  Hypothesis Hcmd : q NCommand.
  Hypothesis Halt : q (NAlternative (is_nil (call_variants g))).
  Hypothesis Hcv : forall n sp e, In (CallVariant n sp e) g -> tree_all (fun n => n <> NDistDescr -> q n) e.
  Hypothesis Hdef : forall n sp rhs, In (NontermDef n sp None rhs) g ->
                                     tree_all (fun n => n <> NDistDescr -> q n) rhs.

  Lemma a_table_all : table_all q (a_table _ _ _ _ A).
  Proof.
    apply tree_all_resolve_in_order, table0_all; [exact Hcmd|]. apply Forall_forall. intros d Hd.
    rewrite (collect_plain_defs_eq _ _ _ (a_collect _ _ _ _ A)) in Hd. apply plain_defs_in in Hd.
    exact (Hdef _ _ _ Hd).
  Qed.

  Lemma a_expr2_all : tree_all q (a_expr2 _ _ _ _ A).
  Proof. apply spec_all; [exact Hcmd|]. apply expr0_of_tree_all; auto. Qed.

  Lemma v_expr_all : tree_all q (v_expr v).
  Proof.
    rewrite (f_equal v_expr (a_v _ _ _ _ A)). cbn [v_expr].
    apply tree_all_propagate, tree_all_collapse, tree_all_resolve; [exact a_table_all|exact a_expr2_all].
  Qed.
End AcceptedAll.
