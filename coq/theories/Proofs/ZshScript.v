(** C04, zsh: the WHOLE emitted script ([Model/EmitZsh.script]) is read back by the specification-side
    reader.  Same construction as Proofs/BashScriptRead.v, over the generic machinery of Proofs/ScriptGen.v:
    the skeleton is cut into line-aligned units (templates of gen/TplZsh.v, the leading newline of a
    template moved to the piece in front of it), each read line by line ([ScriptGen.unit_lines]); the few
    lines that carry the command name at statement indentation have a lemma each; the data sections are
    read by Proofs/ZshCodec.v. *)
From Coq Require Import DecimalString.
From CG Require Import Base.Prelude Model.Ast Model.Dfa Model.Tpl Model.Quote Model.Tables Model.EmitBash Model.EmitData
     Model.EmitZsh Spec.ShellDQ Spec.ScriptRead Proofs.TablesSound Proofs.QuoteRT Proofs.BashCodec Proofs.BashScript Proofs.ScriptGen
     Proofs.ZshCodec.
From CGgen Require Import Consts TplZsh.
Open Scope N_scope.
Open Scope list_scope.

Notation envZ := EmitZsh.env_cmd.
Notation line_semZ := (line_semG Zsh).
Notation scansZ := (scansE Zsh).

Lemma zdeep x : stmt_of Zsh (append "     " x) = None.
Proof. reflexivity. Qed.
Lemma zblank rest : stmt_of Zsh (append nl rest) = None.
Proof. reflexivity. Qed.

(** [    _<cmd><suffix> "$@"]: the call that ends a wrapper *)
Definition zcall_sem cmd suf Hc H1 := bz_call_sem bz_zsh cmd suf "$@""" Hc H1 eq_refl.

(** #compdef <cmd> *)
Lemma zcompdef_sem cmd :
  name_ok cmd -> line_semZ cmd (append "#compdef " cmd) (Some (SRegister [cmd])).
Proof.
  intros [Hne Hc]. pose proof (name_ok_no_nl cmd (conj Hne Hc)) as Hnl.
  split; [|split; [|exact I]].
  - nonl Hnl Hnl.
  - intros rest. rewrite !append_assoc. change (stmt_of Zsh) with zsh_stmt. unfold zsh_stmt, bz_stmt.
    do 9 (rewrite alt_skip by reflexivity).
    rewrite pbind_lit.
    rewrite (pbind_some _ _ _ _ _ (name_app cmd nl_char "" rest (conj Hne Hc) eq_refl)).
    rewrite (pbind_some _ _ _ _ _ (eol_nl rest)). reflexivity.
Qed.

(** [    compdef _<cmd> <cmd>] *)
Lemma zregister_sem cmd :
  name_ok cmd ->
  line_semZ cmd (append "    compdef _" (append cmd (append " " cmd)))
            (Some (SRegister [append "_" cmd; cmd])).
Proof.
  intros [Hne Hc]. pose proof (name_ok_no_nl cmd (conj Hne Hc)) as Hnl.
  split; [|split; [|exact I]].
  - nonl Hnl Hnl.
  - intros rest. rewrite !append_assoc. change (stmt_of Zsh) with zsh_stmt. unfold zsh_stmt, bz_stmt.
    do 8 (rewrite alt_skip by reflexivity). apply alt_take.
    change ("    compdef _" ++ cmd ++ " " ++ cmd ++ nl ++ rest)%string
      with ("    compdef " ++ ("_" ++ cmd) ++ " " ++ cmd ++ nl ++ rest)%string.
    rewrite pbind_lit. apply names_eol; split; [discriminate | exact Hc | exact Hne | exact Hc].
Qed.

(** [    _<cmd>]: the direct call in the last lines of the script is no data statement *)
Lemma zelse_sem cmd : name_ok cmd -> line_semZ cmd (append "    _" cmd) None.
Proof.
  intros [Hne Hc]. pose proof (name_ok_no_nl cmd (conj Hne Hc)) as Hnl.
  split; [|split; [|exact I]].
  - nonl Hnl Hnl.
  - intros rest. rewrite !append_assoc. change (stmt_of Zsh) with zsh_stmt. unfold zsh_stmt, bz_stmt.
    assert (H1 : forallb is_name_char (list_ascii_of_string ("_" ++ cmd)%string) = true) by (cbn; exact Hc).
    do 3 (rewrite alt_skip by reflexivity).
    rewrite alt_skip.
    2:{ change ("    _" ++ cmd ++ nl ++ rest)%string with ("    " ++ ("_" ++ cmd) ++ String nl_char rest)%string.
        rewrite pbind_lit.
        rewrite (pbind_some _ _ _ _ _ (name_read ("_" ++ cmd)%string nl_char _ ltac:(discriminate) H1 eq_refl)).
        reflexivity. }
    rewrite alt_skip.
    2:{ change ("    _" ++ cmd ++ nl ++ rest)%string with ("    _" ++ cmd ++ String nl_char rest)%string.
        rewrite pbind_lit.
        rewrite (pbind_some _ _ _ _ _ (name_read cmd nl_char _ Hne Hc eq_refl)).
        reflexivity. }
    reflexivity.
Qed.

Definition zwrapper_stmts (command : string) (id : N) (t : tables) : list stmt :=
  [SFunc (fn_name command (append "_subword_" (sN id)))]
  ++ zlits_stmts "subword_" (t_literals t) ++ zmatch_stmts "subword_" t ++ zcompletion_stmts "subword_" t
  ++ [SCall (fn_name command "_subword")] ++ [SEnd].

Definition zshape_fn_stmts (command : string) (sid : N) (t : tables) : list stmt :=
  [SFunc (fn_name command (append "_subword_shape_" (sN sid)))]
  ++ zmatch_stmts "subword_" t ++ zcompletion_stmts "subword_" t ++ [SCall (fn_name command "_subword")] ++ [SEnd].

Definition zshape_wrapper_stmts (command : string) (id sid : N) (t : tables) : list stmt :=
  [SFunc (fn_name command (append "_subword_" (sN id)))] ++ zlits_stmts "subword_" (t_literals t)
  ++ [SCall (fn_name command (append "_subword_shape_" (sN sid)))] ++ [SEnd].

Section Wrappers.
Variable command : string.
Hypothesis Hc : name_ok command.

Lemma zwrapper_scans id t :
  scansZ command (append (Z.wrapper command id t) nl) (zwrapper_stmts command id t).
Proof.
  pose proof (sub_suffix_ok "_subword_" id eq_refl) as S1.
  unfold Z.wrapper, zwrapper_stmts. cbn [sconcat]. rewrite !append_assoc.
  apply scansE_app; [unit_by zdeep ltac:(open_line (bz_header_sem bz_zsh command _ Hc S1 eq_refl); constructor)|].
  apply scansE_app; [apply reads_scansG, zreads_lits, pfx_sub|].
  apply scansE_app; [apply reads_scansG, zreads_match, pfx_sub|].
  apply scansE_app; [apply reads_scansG, zreads_completion, pfx_sub|].
  apply scansE_app; [unit_by zdeep ltac:(open_line (zcall_sem command "_subword" Hc eq_refl); constructor)|].
  apply scansE_cons; [plain_unit zdeep | apply (blank_scansG Zsh zblank)].
Qed.

Lemma zshape_fn_scans sid t :
  scansZ command (append (Z.shape_fn command sid t) nl) (zshape_fn_stmts command sid t).
Proof.
  pose proof (sub_suffix_ok "_subword_shape_" sid eq_refl) as S1.
  unfold Z.shape_fn, zshape_fn_stmts. cbn [sconcat]. rewrite !append_assoc.
  apply scansE_app; [unit_by zdeep ltac:(open_line (bz_header_sem bz_zsh command _ Hc S1 eq_refl); constructor)|].
  apply scansE_app; [apply reads_scansG, zreads_match, pfx_sub|].
  apply scansE_app; [apply reads_scansG, zreads_completion, pfx_sub|].
  apply scansE_app; [unit_by zdeep ltac:(open_line (zcall_sem command "_subword" Hc eq_refl); constructor)|].
  apply scansE_cons; [plain_unit zdeep | apply (blank_scansG Zsh zblank)].
Qed.

Lemma zshape_wrapper_scans id sid t :
  scansZ command (append (Z.shape_wrapper command id sid t) nl) (zshape_wrapper_stmts command id sid t).
Proof.
  pose proof (sub_suffix_ok "_subword_" id eq_refl) as S1.
  pose proof (sub_suffix_ok "_subword_shape_" sid eq_refl) as T1.
  unfold Z.shape_wrapper, zshape_wrapper_stmts. cbn [sconcat]. rewrite !append_assoc.
  apply scansE_app; [unit_by zdeep ltac:(open_line (bz_header_sem bz_zsh command _ Hc S1 eq_refl); constructor)|].
  apply scansE_app; [apply reads_scansG, zreads_lits, pfx_sub|].
  apply scansE_app; [unit_by zdeep ltac:(open_line (zcall_sem command _ Hc T1); constructor)|].
  apply scansE_cons; [plain_unit zdeep | apply (blank_scansG Zsh zblank)].
Qed.
End Wrappers.

Definition zcmd_fns_stmts (command : string) (ics : list (N * string)) : list stmt :=
  flat_map (fun ic => [SFunc (fn_name command (append "_cmd_" (sN (fst ic)))); SBody (snd ic); SEnd]) ics.

Lemma zcmd_fns_scans command (Hc : name_ok command) ics :
  Forall (fun ic => body_okG Zsh (snd ic)) ics ->
  scansZ command
    (sconcat (map (fun ic : N * string => fmt write_completion_script_1 (("id", sN (fst ic)) :: ("cmd", snd ic) :: envZ command)) ics))
    (zcmd_fns_stmts command ics).
Proof.
  apply (cmd_fns_scansG Zsh "     " zdeep zblank command
           (fun id => append "_" (append command (append (append "_cmd_" (sN id)) " () {")))
           (fun id => fn_name command (append "_cmd_" (sN id))) _ (fun b => b)).
  - intros ic. unfold cmd_fn_textG. rewrite !append_assoc. reflexivity.
  - discriminate.
  - intros id. pose proof (sub_suffix_ok "_cmd_" id eq_refl) as S1. apply (bz_header_reads bz_zsh command _ Hc S1).
  - intros id. apply is_cmd_fn_true.
Qed.

Definition zsub_fn_stmts (command : string) : list stmt :=
  [SFunc (fn_name command "_subword"); SScalar "subword_state" 1; SScalar "char_index" 0; SScalar "matched" 0; SEnd].

Lemma zsub_fn_scans command (Hc : name_ok command) nc ncp ns :
  scansZ command (write_subword_fn command nc ncp ns) (zsub_fn_stmts command).
Proof.
  unfold write_subword_fn, fmt. cbn [sconcat]. rewrite <- render_app.
  change (zsub_fn_stmts command)
    with ([SFunc (fn_name command "_subword")] ++ [SScalar "subword_state" 1; SScalar "char_index" 0; SScalar "matched" 0] ++ [SEnd]).
  apply scans_nl_after; [unit_by zdeep ltac:(open_line (bz_header_sem bz_zsh command "_subword" Hc eq_refl eq_refl); constructor)|].
  apply scans_nl_app; [reflexivity | plain_unit zdeep|].
  apply scans_nl_if0; [reflexivity | plain_unit zdeep|].
  apply scans_nl_if0; [reflexivity | plain_unit zdeep|].
  apply scans_nl_if0; [reflexivity | plain_unit zdeep|].
  apply scans_nl_app0; [reflexivity | plain_unit zdeep|].
  apply scans_nl_app0; [reflexivity | plain_unit zdeep|].
  apply scans_nl_if0; [reflexivity | plain_unit zdeep|].
  apply scans_nl_app0; [reflexivity | plain_unit zdeep|].
  apply scans_nl_if0; [reflexivity | plain_unit zdeep|].
  apply scans_nl_if0; [reflexivity | plain_unit zdeep|].
  rewrite <- (app_nil_r [SEnd]).
  apply scans_nl_app; [reflexivity | plain_unit zdeep | apply scans_nl_nl, scansE_nil].
Qed.

Definition zgroup_stmts (command : string) : alltables -> N -> list N -> res (list stmt) :=
  group_stmtsG (zwrapper_stmts command) (zshape_fn_stmts command) (zshape_wrapper_stmts command).

Definition zsubtrans_stmts (rows : list (N * list (N * N))) : list stmt :=
  SAssoc "subword_transitions" [] :: row_stmts "subword_transitions" (zoff_rows rows).

Definition zscript_stmts (command : string) (start : N) (nd : needs) (a : alltables) (groups : list (list N))
  : res (list stmt) :=
  let main := a_main a in
  do gs <- (if n_subwords nd then
              do l <- omap (fun ig : N * list N => zgroup_stmts command a (fst ig) (snd ig)) (number_from 0 groups);
              Ok (List.concat l)
            else Ok []);
  do rows <- (if n_subwords nd then resolve_rows a else Ok []);
  Ok ([SRegister [command]] ++ zcmd_fns_stmts command (number_from 0 (a_commands a)) ++ gs
      ++ (if n_top_compadd nd || n_sub_compadd nd then [SLits "matches" []; SEnd] else [])
      ++ (if n_subwords nd then zsub_fn_stmts command else [])
      ++ [SFunc (append "_" command)] ++ zlits_stmts EmptyString (t_literals main) ++ zmatch_stmts EmptyString main
      ++ (if n_subwords nd then zsubtrans_stmts rows else [])
      ++ [SScalar "state" (start + Z.st); SScalar "word_index" 2]
      ++ zcompletion_stmts EmptyString main
      ++ (if n_subwords nd then zlevel_stmts "subword_transitions_level_" (a_csub a) else [])
      ++ [SEnd] ++ [SRegister [append "_" command; command]]).

Theorem zsh_script_read command sig start nd a groups s :
  name_ok command -> no_nl sig = true ->
  Forall (fun c => body_okG Zsh c) (a_commands a) ->
  EmitZsh.script command sig start nd a groups = Ok s ->
  exists sts, zscript_stmts command start nd a groups = Ok sts /\ read_stmts Zsh command s = sts.
Proof.
  intros Hc Hsig Hbodies H. unfold EmitZsh.script in H. unfold zscript_stmts, zgroup_stmts.
  refine (script_readG Zsh command _ _ _ _ _ _ (fun _ => True)
            (fun id t _ => zwrapper_scans command Hc id t) (zshape_fn_scans command Hc)
            (fun id sid t _ => zshape_wrapper_scans command Hc id sid t) a groups _ _ _ _ s (fun _ _ _ => I) _ H).
  intros groups_part gs rows Hgn.
  cbn [sconcat]. unfold fmt.
  rewrite (append_nil_r (render (envZ command) write_completion_script_23)).
  apply scansE_app; [unit_by zdeep ltac:(open_line (zcompdef_sem command Hc); constructor)|].
  apply scansE_app0; [apply (sig_scansG Zsh command sig (fun _ => eq_refl) Hsig)|].
  apply scansE_app0; [apply (blank_scansG Zsh zblank)|].
  apply scansE_app; [apply (zcmd_fns_scans command Hc), (Forall_number_from (fun c => body_okG Zsh c)), Hbodies|].
  apply scansE_app; [exact Hgn|].
  apply scansE_app; [apply scansE_if; plain_unit zdeep|].
  apply scansE_app; [apply scansE_if; apply (zsub_fn_scans command Hc)|].
  apply scansE_app; [unit_by zdeep ltac:(open_line (bz_header_main_sem bz_zsh command Hc); constructor)|].
  apply scansE_app; [apply reads_scansG, zreads_lits, pfx_nil|].
  apply scansE_app; [apply reads_scansG, zreads_match, pfx_nil|].
  apply scansE_app; [apply scansE_if, reads_scansG, zreads_subrows|].
  apply scansE_app; [unit_by zdeep ltac:(open_line (bz_scalar_sem bz_zsh command "state" (start + Z.st) ltac:(vn) eq_refl); constructor)|].
  apply scansE_app0; [apply scansE_if0; plain_unit zdeep|].
  apply scansE_app0; [apply scansE_if0; plain_unit zdeep|].
  apply scansE_app0; [apply scansE_if0; plain_unit zdeep|].
  apply scansE_app0; [apply scansE_if0; plain_unit zdeep|].
  apply scansE_app0; [plain_unit zdeep|].
  apply scansE_app; [apply reads_scansG, zreads_completion, pfx_nil|].
  apply scansE_app; [apply scansE_if, reads_scansG, zreads_sublevels|].
  apply scans_nl_after0; [plain_unit zdeep|].
  apply scans_nl_if0; [reflexivity | plain_unit zdeep|].
  apply scans_nl_app0; [reflexivity | plain_unit zdeep|].
  apply scans_nl_if0; [reflexivity | plain_unit zdeep|].
  apply scans_nl_if0; [reflexivity | plain_unit zdeep|].
  apply scans_nl_if0; [reflexivity | plain_unit zdeep|].
  apply scans_nl_app0; [reflexivity | plain_unit zdeep|].
  apply scans_nl_if2; [reflexivity | reflexivity | plain_unit zdeep | plain_unit zdeep|].
  apply scans_nl_last; [reflexivity|].
  apply scansE_app; [plain_unit zdeep|].
  unit_by zdeep ltac:(open_line (zregister_sem command Hc); open_line (zelse_sem command Hc); constructor).
Qed.

(** C07 on the whole script: the literal list and every description of the completion function read
    back to the texts of the tables *)
Lemma zsh_script_constants command sig start nd a groups s :
  name_ok command -> no_nl sig = true ->
  Forall (fun c => body_okG Zsh c) (a_commands a) ->
  EmitZsh.script command sig start nd a groups = Ok s ->
  In (SLits "literals" (map (fun l : N * string * string => snd (fst l)) (t_literals (a_main a)))) (read_stmts Zsh command s)
  /\ forall k d, In (k, d) (number_from 0 (descr_set (t_literals (a_main a)))) ->
                 In (SStr "descriptions" k d) (read_stmts Zsh command s).
Proof.
  intros Hc Hsig Hb H. destruct (zsh_script_read _ _ _ _ _ _ _ Hc Hsig Hb H) as [sts [Hs ->]].
  unfold zscript_stmts in Hs.
  apply obind_ok in Hs. destruct Hs as [gs [_ Hs]]. apply obind_ok in Hs. destruct Hs as [rows [_ Hs]].
  apply Ok_inj in Hs. subst sts.
  (* the literals of the completion function are the seventh piece of the statement list *)
  split; [|intros k d Hkd]; do 6 (apply in_or_app; right); apply in_or_app; left.
  - left. reflexivity.
  - right. right. apply in_or_app. left.
    apply (in_map (fun id : N * string => SStr "descriptions" (fst id) (snd id)) _ (k, d) Hkd).
Qed.
