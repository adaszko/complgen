(** From the language of a within-word automaton over [Lang.witem] (what C02 states about it) to
    [SubSim.simR] over inputs (what [WordSimGen] starts from). *)
From CG Require Import Base.Prelude Model.Ast Model.Dfa Spec.Lang Spec.Rx Spec.Meaning Spec.DfaEquiv.
From CG Require Import Proofs.RxFacts Proofs.MeaningFacts Proofs.TablesSound Proofs.LangBridge Proofs.DfaMeaning
     Proofs.SubBridge Proofs.SubSim Proofs.WordSim Proofs.SubCompiled.

Lemma wlab_inv x a : wlab x = Some (witem_of_wleaf a) -> x = inp_of_wleaf a.
Proof. destruct x, a; cbn; intro H; try discriminate; inversion H; subst; reflexivity. Qed.

Lemma wlab_inp_of_wleaf a : wlab (inp_of_wleaf a) = Some (witem_of_wleaf a).
Proof. destruct a; reflexivity. Qed.

Lemma witem_of_wleaf_inj a b : witem_of_wleaf a = witem_of_wleaf b -> a = b.
Proof. destruct a, b; cbn; intro H; try discriminate; inversion H; subst; reflexivity. Qed.

Lemma map_witem_inj : forall ls ls', map witem_of_wleaf ls = map witem_of_wleaf ls' -> ls = ls'.
Proof.
  induction ls as [| a ls IH]; intros [| b ls'] H; cbn [map] in H; try discriminate; [reflexivity |].
  inversion H as [[H1 H2]]. apply witem_of_wleaf_inj in H1. subst. f_equal. apply IH. exact H2.
Qed.

Lemma wlangI_denotes x x' : (forall v, wlangI x v <-> wlangI x' v) -> forall ls, RxFacts.denotes x ls <-> RxFacts.denotes x' ls.
Proof.
  intros H ls. split; intro Hd.
  - destruct (proj1 (H _) (ex_intro _ ls (conj Hd eq_refl))) as [ls' [Hd' E]]. apply map_witem_inj in E. subst. exact Hd'.
  - destruct (proj2 (H _) (ex_intro _ ls (conj Hd eq_refl))) as [ls' [Hd' E]]. apply map_witem_inj in E. subst. exact Hd'.
Qed.

Theorem sub_sim sd x0 :
  (forall x, In x (d_inputs sd) -> exists a, wlab x = Some a) ->
  (forall v, Lang.waccepts sd v <-> wlangI x0 v) ->
  simR sd (fun a x => x = inp_of_wleaf a) (d_start sd) [x0].
Proof.
  intros Hplain HL. split.
  - intros xs [ids [Ha Hf]].
    assert (G : exists v, Forall2 (fun i a => exists x, nthN (d_inputs sd) i = Some x /\ wlab x = Some a) ids v
                          /\ Forall2 (fun x a => wlab x = Some a) xs v).
    { clear Ha. induction Hf as [| i x ids xs Hi Hf IH].
      - exists []. split; constructor.
      - destruct IH as [v [F1 F2]]. destruct (Hplain x) as [a Hx]; [unfold nthN in Hi; eapply nth_error_In; exact Hi |].
        exists (a :: v). split; constructor; eauto. }
    destruct G as [v [F1 F2]].
    assert (Hacc : Lang.waccepts sd v) by (exists ids; split; assumption).
    apply HL in Hacc. destruct Hacc as [ls [Hden ->]].
    exists x0, ls. split; [left; reflexivity | split; [exact Hden |]].
    clear -F2. revert xs F2. induction ls as [| a ls IH]; intros xs F2; cbn [map] in F2; inversion F2; subst; constructor.
    + apply wlab_inv; assumption.
    + apply IH; assumption.
  - intros k ls [<- | []] Hden. exists (map inp_of_wleaf ls). split; [clear; induction ls as [| a ls IH]; cbn [map]; [constructor | constructor; [reflexivity | exact IH]] |].
    assert (Hacc : Lang.waccepts sd (map witem_of_wleaf ls)) by (apply HL; exists ls; split; [exact Hden | reflexivity]).
    destruct Hacc as [ids [Ha Hf]]. exists ids. split; [exact Ha |].
    clear -Hf. revert ids Hf. induction ls as [| a ls IH]; intros ids Hf; cbn [map] in *; inversion Hf as [| i it ids' its [x [Hi Hx]] Hf']; subst; constructor.
    + apply wlab_inv in Hx. subst x. exact Hi.
    + apply IH. exact Hf'.
Qed.
