(** [Diag.render] never panics on a span that starts at a byte of the text, and the line it quotes
    contains that byte (unless the byte is itself a line terminator). *)
From CG Require Import Base.Prelude Base.Facts Model.Ast Model.Lexer Model.Parser Model.Diag Spec.Spans
  Proofs.LexCommand.

Lemma adv_char_facts : forall c p, pline p <= pline (adv_char c p) /\ 1 <= pcol (adv_char c p).
Proof. intros c [l k]. unfold adv_char. cbn. destruct (Ascii.eqb c LF); cbn; lia. Qed.

Lemma adv_str_line_mono : forall w p, pline p <= pline (adv_str w p).
Proof. induction w; intros p; cbn [adv_str]; [lia|]. pose proof (adv_char_facts a p). specialize (IHw (adv_char a p)). lia. Qed.

Lemma adv_str_col_pos : forall w p, 1 <= pcol p -> 1 <= pcol (adv_str w p).
Proof. induction w; intros p H; cbn [adv_str]; auto. apply IHw. apply adv_char_facts. Qed.

Lemma span_ok_pos_ok : forall s sp, span_ok s sp -> pos_ok s sp.
Proof.
  intros s sp ([r q] & [r' q'] & (pre & E & Q) & (w & Nw & Ew & Pw) & ->). cbn [rest at_] in *.
  exists pre, r. unfold from_range. cbn [at_ sline scol secol]. subst q. repeat split; auto.
  - intros ->. destruct w; [congruence|discriminate].
  - rewrite Pw. apply adv_str_col_pos. apply adv_str_col_pos. cbn. lia.
Qed.

Lemma get_lt : forall s k ch, String.get k s = Some ch -> (k < String.length s)%nat.
Proof. induction s; intros k ch H; [discriminate|]. destruct k; cbn in *; [lia|]. apply IHs in H. lia. Qed.

Lemma get_app_l : forall s t k ch, String.get k s = Some ch -> String.get k (append s t) = Some ch.
Proof. intros. rewrite <- append_correct1; auto. eapply get_lt; eauto. Qed.

Lemma get_snoc : forall s ch, String.get (String.length s) (append s (String ch EmptyString)) = Some ch.
Proof. induction s; intros; cbn; auto. Qed.

Lemma get_snoc_inv : forall s c k ch, String.get k (append s (String c EmptyString)) = Some ch -> ch <> c ->
    String.get k s = Some ch.
Proof.
  induction s; intros c k ch H N; cbn [append] in H.
  - destruct k; cbn in H; [inversion H; congruence|destruct k; discriminate].
  - destruct k; cbn in *; auto. eapply IHs; eauto.
Qed.

Lemma get_strip_cr : forall s k ch, String.get k s = Some ch -> ch <> CR -> String.get k (strip_cr s) = Some ch.
Proof.
  intros s k ch H N. unfold strip_cr. destruct (srev s) as [|c r] eqn:E; auto.
  destruct (Ascii.eqb c CR) eqn:C; auto. apply Ascii.eqb_eq in C. subst c.
  assert (Es : s = append (srev r) (String CR EmptyString)).
  { rewrite <- (srev_involutive s), E, srev_cons. reflexivity. }
  rewrite Es in H. eapply get_snoc_inv; eauto.
Qed.

(** the current line is emitted, and keeps its bytes that are not a CR *)
Lemma lines_acc_keeps : forall s cur k ch, String.get k cur = Some ch ->
    exists ln tl, lines_acc cur s = ln :: tl /\ (ch <> CR -> String.get k ln = Some ch).
Proof.
  induction s; intros cur k ch H; cbn [lines_acc].
  - destruct cur; [discriminate|]. eauto.
  - destruct (Ascii.eqb a LF).
    + eexists; eexists; split; [reflexivity|]. intros N. apply get_strip_cr; auto.
    + apply IHs. apply get_app_l; auto.
Qed.

Lemma lines_acc_pos : forall pre cur rest l, rest <> EmptyString ->
    let p := adv_str pre (mkpos l (N.of_nat (String.length cur) + 1)) in
    exists ln, nth_error (lines_acc cur (append pre rest)) (N.to_nat (pline p - l)) = Some ln
               /\ (forall b r, rest = String b r -> b <> LF -> b <> CR ->
                               String.get (N.to_nat (pcol p - 1)) ln = Some b).
Proof.
  induction pre as [|c pre IH]; intros cur rest l Hr; cbv zeta.
  - cbn [adv_str append pline pcol]. rewrite N.sub_diag. cbn [N.to_nat nth_error].
    replace (N.to_nat (N.of_nat (String.length cur) + 1 - 1)) with (String.length cur) by lia.
    destruct rest as [|b r]; [congruence|]. cbn [lines_acc].
    destruct (Ascii.eqb b LF) eqn:B.
    + eexists; split; [reflexivity|]. intros b0 r0 E N1 _. inversion E; subst. apply Ascii.eqb_eq in B. congruence.
    + destruct (lines_acc_keeps r (append cur (String b EmptyString)) (String.length cur) b (get_snoc _ _))
        as (ln & tl & E & G).
      rewrite E. exists ln. split; auto. intros b0 r0 E0 _ N2. inversion E0; subst. auto.
  - cbn [adv_str append lines_acc]. unfold adv_char. cbn [pline pcol].
    destruct (Ascii.eqb c LF).
    + specialize (IH EmptyString rest (l + 1) Hr). cbv zeta in IH. cbn [String.length N.of_nat] in IH.
      change (0 + 1) with 1 in IH.
      set (p := adv_str pre (mkpos (l + 1) 1)) in *.
      pose proof (adv_str_line_mono pre (mkpos (l + 1) 1)) as M. fold p in M. cbn [pline] in M.
      destruct IH as (ln & E & G). exists ln. split; auto.
      replace (N.to_nat (pline p - l)) with (S (N.to_nat (pline p - (l + 1)))) by lia. exact E.
    + specialize (IH (append cur (String c EmptyString)) rest l Hr). cbv zeta in IH.
      rewrite length_append in IH. cbn [String.length] in IH.
      replace (N.of_nat (String.length cur + 1) + 1) with (N.of_nat (String.length cur) + 1 + 1) in IH by lia.
      exact IH.
Qed.

Theorem render_at : forall path pre b rest sp,
    sline sp = pline (adv_str pre pos0) -> scol sp = pcol (adv_str pre pos0) -> 1 <= secol sp ->
    exists r, render path (append pre (String b rest)) sp = Ok r
              /\ r_line_no r = sline sp
              /\ nth_error (lines (append pre (String b rest))) (N.to_nat (sline sp - 1)) = Some (r_line r)
              /\ (b <> LF -> b <> CR -> String.get (N.to_nat (scol sp - 1)) (r_line r) = Some b).
Proof.
  intros path pre b rest sp L C Ce.
  pose proof (adv_str_line_mono pre pos0) as M1. pose proof (adv_str_col_pos pre pos0 ltac:(cbn; lia)) as M2.
  cbn [pos0 pline pcol] in M1.
  unfold render.
  assert (Z : N.eqb (sline sp) 0 || N.eqb (scol sp) 0 || N.eqb (secol sp) 0 = false)
    by (rewrite !orb_false_iff, !N.eqb_neq; lia).
  rewrite Z.
  pose proof (lines_acc_pos pre EmptyString (String b rest) 1 ltac:(discriminate)) as X. cbv zeta in X.
  cbn [String.length N.of_nat] in X. change (mkpos 1 (0 + 1)) with pos0 in X. destruct X as (ln & X & G).
  unfold lines. rewrite L, X.
  eexists. split; [reflexivity|]. cbn [r_line_no r_line]. repeat split; auto.
  intros N1 N2. rewrite C. eapply G; eauto.
Qed.

Corollary render_total : forall path text sp, pos_ok text sp -> exists r, render path text sp = Ok r.
Proof.
  intros path text sp (pre & rest & E & Nr & L & C & Ce). destruct rest as [|b rest]; [congruence|]. subst text.
  destruct (render_at path pre b rest sp L C Ce) as (r & H & _). eauto.
Qed.
