(** C12 end to end on the tables of  cmd <pre>(<v1>|...|<vn>) <next>;  (Model/ChainTables.v):
    [run_from var], for every [var <> Pinned] (glob-free literals unless [var = Repaired]), recognises every fully
    typed value and offers exactly the extending values; [run_from Pinned] offers them too when no value extends
    [pre].  Props/C12.v states them at [Repaired], and once for any such [var]. *)
From CG Require Import Base.Prelude Base.Facts Spec.Meaning Model.Dfa Model.Glob Model.BashSem Model.ChainTables.
From CG Require Import Proofs.GlobFacts Proofs.SubwordFacts Proofs.C12Proofs Proofs.StripFacts Proofs.TableLookup.

Lemma in_indexed_in {A} (l : list A) k i x : In (i, x) (indexed_from k l) -> In x l.
Proof. intros H. apply indexed_from_in in H. exact (nth_error_In _ _ (proj2 H)). Qed.

Lemma indexed_from_fun {A} (l : list A) k i x y :
  In (i, x) (indexed_from k l) -> In (i, y) (indexed_from k l) -> x = y.
Proof. intros H1 H2. apply indexed_from_in in H1, H2. destruct H1 as [_ H1]. destruct H2 as [_ H2]. congruence. Qed.

Lemma indexed_from_nthN {A} (l : list A) i x : In (i, x) (indexed_from 0 l) -> nthN l i = Some x.
Proof. intros H. apply indexed_from_in in H. rewrite N.sub_0_r in H. exact (proj2 H). Qed.

Lemma nthN_indexed_from {A} (l : list A) i x : nthN l i = Some x -> In (i, x) (indexed_from 0 l).
Proof. intros H. apply indexed_from_in. rewrite N.sub_0_r. split; [lia | exact H]. Qed.

(** [sorted_desc] on a list of texts without their ids ([sorted_len_desc]) *)
Fixpoint sorted_len (l : list string) : Prop :=
  match l with
  | [] => True
  | a :: r => (forall b, In b r -> (String.length b <= String.length a)%nat) /\ sorted_len r
  end.

Lemma sorted_len_desc l : forall k, sorted_len l -> sorted_desc (indexed_from k l).
Proof.
  induction l as [|a r IH]; intros k H; [exact I|].
  destruct H as [H1 H2]. cbn [indexed_from sorted_desc]. split.
  - intros id l' Hin. apply H1. eapply in_indexed_in; eauto.
  - now apply IH.
Qed.

Section Chain.
  Variables (lits : list string) (ipre : N) (pre next : string).
  Hypothesis Hpre : nthN lits ipre = Some pre.
  Hypothesis Hnodup : NoDup lits.
  (** any variant with the repaired stop test; glob-free literals unless the operands are quoted ([Repaired]) *)
  Variable var : variant.
  Hypothesis Hvar : var <> Pinned.
  Hypothesis Hdom : var = Repaired \/ (forall l, In l lits -> plain l = true).
  Hypothesis Hprint : forall l, In l lits -> printable_str l = true.
  Hypothesis Hnonempty : forall l, In l lits -> l <> EmptyString.
  Hypothesis Hsorted : sorted_len lits.
  Let T := chain_sub_tables lits ipre.
  Let tabs := chain_alltables lits ipre next.
  Let st1 := map (fun x : N * string => (fst x, 2)) (chain_vals lits ipre).

  Lemma chain_literal_texts : literal_texts T = lits.
  Proof.
    unfold T, chain_sub_tables, literal_texts. cbn [t_literals]. rewrite map_map. cbn [fst snd].
    apply map_snd_indexed_from.
  Qed.

  Lemma chain_lits_of : lits_of T = indexed_from 0 lits.
  Proof. unfold lits_of. now rewrite chain_literal_texts. Qed.

  Lemma chain_all_plain : (forall l, In l lits -> plain l = true) -> all_plain (lits_of T).
  Proof. intros Hplain. rewrite chain_lits_of. intros id l H. apply Hplain. eapply in_indexed_in; eauto. Qed.

  Lemma chain_sorted : sorted_desc (lits_of T).
  Proof. rewrite chain_lits_of. now apply sorted_len_desc. Qed.

  Lemma chain_mlit0 : assocN 0 (t_mlit T) = Some [(ipre, 1)].
  Proof. reflexivity. Qed.

  Lemma chain_mlit1 : assocN 1 (t_mlit T) = Some st1.
  Proof. reflexivity. Qed.

  Lemma chain_pre_in : In (ipre, pre) (lits_of T).
  Proof. rewrite chain_lits_of. now apply nthN_indexed_from. Qed.

  Lemma assocN_single (id k v : N) t : assocN id [(k, v)] = Some t -> id = k /\ t = v.
  Proof.
    cbn [assocN]. destruct (N.eqb id k) eqn:E; [|discriminate].
    apply N.eqb_eq in E. intros H. injection H as <-. now split.
  Qed.

  Lemma assocN_single_same (k v : N) : assocN k [(k, v)] = Some v.
  Proof. cbn [assocN]. now rewrite N.eqb_refl. Qed.

  Lemma chain_state0_unique id l t :
    In (id, l) (lits_of T) -> assocN id [(ipre, 1)] = Some t -> id = ipre /\ l = pre.
  Proof.
    intros Hin Ha. destruct (assocN_single _ _ _ _ Ha) as [-> _]. split; [reflexivity|].
    rewrite chain_lits_of in Hin. pose proof chain_pre_in as Hp. rewrite chain_lits_of in Hp.
    eapply indexed_from_fun; eauto.
  Qed.

  Definition is_value (v : string) : Prop := In v lits /\ v <> pre.

  Lemma value_index v : is_value v -> exists id, In (id, v) (chain_vals lits ipre).
  Proof.
    intros [Hin Hne]. destruct (In_nthN _ _ Hin) as [id Hid]. apply nthN_indexed_from in Hid.
    exists id. unfold chain_vals. apply filter_In. split; [exact Hid|].
    cbn [fst]. apply negb_true_iff. apply N.eqb_neq. intros E.
    apply Hne. rewrite E in Hid. pose proof chain_pre_in as H2. rewrite chain_lits_of in H2.
    eapply indexed_from_fun; eauto.
  Qed.

  Lemma assocN_map_const {A} (c : N) (l : list (N * A)) id x :
    In (id, x) l -> assocN id (map (fun y => (fst y, c)) l) = Some c.
  Proof.
    induction l as [|[k y] r IH]; intros H; [contradiction|].
    cbn [map assocN fst]. destruct (N.eqb id k) eqn:E; [reflexivity|].
    destruct H as [H|H]; [injection H as -> ->; rewrite N.eqb_refl in E; discriminate|now apply IH].
  Qed.

  Lemma assocN_map_const_inv {A} (c : N) (l : list (N * A)) id t :
    assocN id (map (fun y => (fst y, c)) l) = Some t -> t = c.
  Proof.
    induction l as [|[k y] r IH]; intros H; [discriminate|].
    cbn [map assocN fst] in H. destruct (N.eqb id k); [now injection H|now apply IH].
  Qed.

  Lemma vals_in_lits id v : In (id, v) (chain_vals lits ipre) -> In (id, v) (lits_of T).
  Proof. rewrite chain_lits_of. unfold chain_vals. intros H. now apply filter_In in H. Qed.

  Lemma first_enabled_const lits0 st v to :
    (forall id t, assocN id st = Some t -> t = to) ->
    (exists id, In (id, v) lits0 /\ assocN id st <> None) ->
    first_enabled lits0 st v = Some to.
  Proof.
    intros Hc. induction lits0 as [|[i l] r IH]; intros (id & Hin & Ha); [contradiction|].
    cbn [first_enabled]. destruct (String.eqb l v) eqn:E.
    - apply String.eqb_eq in E. subst l.
      destruct (assocN i st) as [t|] eqn:Ei.
      + now rewrite (Hc i t Ei).
      + apply IH. destruct Hin as [Hin|Hin]; [injection Hin as -> ; congruence|]. now exists id.
    - apply IH. destruct Hin as [Hin|Hin].
      + injection Hin as _ ->. rewrite String.eqb_refl in E. discriminate.
      + now exists id.
  Qed.

  Lemma chain_first_enabled v : is_value v -> first_enabled (lits_of T) st1 v = Some 2.
  Proof.
    intros Hv. apply first_enabled_const.
    - intros id t H. eapply assocN_map_const_inv; eauto.
    - destruct (value_index v Hv) as [id Hid]. exists id. split; [now apply vals_in_lits|].
      unfold st1. now rewrite (assocN_map_const 2 _ id v Hid).
  Qed.

  Lemma pre_nonempty : pre <> EmptyString.
  Proof. apply Hnonempty. unfold nthN in Hpre. eapply nth_error_In; eauto. Qed.

  Lemma pre_in : In pre lits.
  Proof. unfold nthN in Hpre. eapply nth_error_In; eauto. Qed.

  Lemma chain_strdom w : In w lits \/ (var = Repaired \/ plain w = true) -> strdom var (lits_of T) (pre ++ w).
  Proof.
    intros Hw. destruct Hdom as [Hr|Hplain]; [now left|].
    destruct Hw as [Hw|[Hw|Hw]]; [|now left|].
    - right. split; [now apply chain_all_plain|]. now rewrite plain_app, (Hplain pre pre_in), (Hplain w Hw).
    - right. split; [now apply chain_all_plain|]. now rewrite plain_app, (Hplain pre pre_in), Hw.
  Qed.

  Lemma length_pos s : s <> EmptyString -> (0 < String.length s)%nat.
  Proof. destruct s; [congruence|cbn; lia]. Qed.

  Lemma chain_star_first c s : star_first var c T s = false.
  Proof. unfold star_first, T, chain_sub_tables. cbn [t_mstar]. apply andb_false_r. Qed.

  Theorem chain_value_matched fuel e v log :
    is_value v ->
    sw_loop (S (S (S fuel))) var false tabs e T [2] (pre ++ v) 0 0 log
    = Ok (true, 2, String.length (pre ++ v), log).
  Proof.
    intros Hv. destruct Hv as [Hin Hne].
    pose proof (chain_strdom v (or_introl Hin)) as Hpw.
    pose proof (length_pos v (Hnonempty v Hin)) as Lv.
    rewrite (fixed_piece_consumed var _ false tabs e T [2] (pre ++ v) 0 [(ipre, 1)] 0 ipre pre 1 log
               Hvar Hpw chain_mlit0 chain_state0_unique chain_pre_in (assocN_single_same ipre 1)).
    - cbn [Nat.add].
      apply (fixed_value_recognised var fuel tabs e T [2] (pre ++ v) 1 st1 (String.length pre) v 2 log
               Hvar Hpw chain_sorted chain_mlit1).
      + apply sdrop_app.
      + rewrite length_append. lia.
      + apply chain_first_enabled. now split.
      + apply orb_true_r.
      + apply chain_star_first.
    - cbn [sdrop]. apply prefix_app_l.
    - rewrite length_append. lia.
    - apply chain_star_first.
  Qed.

  Lemma sw_fuel_ge T0 word n : (n <= String.length word + 2)%nat -> exists f, sw_fuel T0 word = (n + f)%nat.
  Proof. intros H. exists (sw_fuel T0 word - n)%nat. unfold sw_fuel. nia. Qed.

  Theorem chain_subword_matches e v log :
    is_value v -> subword_matches var tabs e T [2] (pre ++ v) log = Ok (true, log).
  Proof.
    intros Hv. unfold subword_matches, subword_matches_from.
    destruct (sw_fuel_ge T (pre ++ v) 3) as [f ->].
    { rewrite length_append. pose proof (length_pos pre pre_nonempty). lia. }
    cbn [Nat.add]. rewrite (chain_value_matched f e v log Hv). reflexivity.
  Qed.

  Lemma chain_main_mlit0 : assocN 0 (t_mlit (a_main tabs)) = None.
  Proof. reflexivity. Qed.
  Lemma chain_subtrans0 : assocN 0 (a_subtrans tabs) = Some [(0, 1)].
  Proof. reflexivity. Qed.
  Lemma chain_sub_row : sub_row (a_subwords tabs) [(0, 1)] = Ok [(0, 1)].
  Proof. reflexivity. Qed.
  Lemma chain_assoc_of : assoc_of [(0, 1)] = [(0, 1)].
  Proof. reflexivity. Qed.
  Lemma chain_subword_tables : subword_tables (a_subwords tabs) 0 = Some T.
  Proof. reflexivity. Qed.
  Lemma chain_sub_accepting : sub_accepting tabs 0 = [2].
  Proof. reflexivity. Qed.

  Lemma chain_walk_value e v :
    is_value v -> walk var tabs e 0 [(pre ++ v)%string] [] = Ok (Some 1, []).
  Proof.
    intros Hv. cbn [walk].
    rewrite chain_main_mlit0, chain_subtrans0, chain_sub_row. cbn [obind].
    rewrite chain_assoc_of. cbn [top_sub_loop]. rewrite chain_subword_tables, chain_sub_accepting.
    rewrite (chain_subword_matches e v [] Hv). cbn [obind]. reflexivity.
  Qed.

  Definition default_wordbreaks : string :=
    String (ch 32) (String (ch 9) (String (ch 10) """'@><=;|&(:")).

  Lemma rm_shortest_prefix_empty m : rm_shortest_prefix "" m = Some m.
  Proof.
    unfold rm_shortest_prefix, with_pat. cbn [String.length parse]. unfold upto. cbn [seq first_cut].
    destruct m; reflexivity.
  Qed.

  Lemma strip_reply_whole e prefix ms :
    shortest_suffix (e_wordbreaks e) prefix prefix = Ok prefix -> strip_reply e prefix ms = Ok ms.
  Proof.
    intros H. unfold strip_reply. rewrite H. cbn [obind]. rewrite String.eqb_refl. cbn [obind].
    induction ms as [|m r IH]; [reflexivity|]. cbn [omap]. rewrite rm_shortest_prefix_empty. cbn [obind].
    rewrite IH. reflexivity.
  Qed.

  Lemma strip_empty_prefix e ms :
    e_wordbreaks e = EmptyString \/ e_wordbreaks e = default_wordbreaks ->
    strip_reply e EmptyString ms = Ok ms.
  Proof. intros [H|H]; apply strip_reply_whole; rewrite H; [reflexivity|vm_compute; reflexivity]. Qed.

  Lemma strip_no_wordbreaks e prefix ms :
    e_wordbreaks e = EmptyString -> strip_reply e prefix ms = Ok ms.
  Proof. intros H. apply strip_reply_whole. rewrite H. reflexivity. Qed.

  Lemma chain_main_maxlevel : N.to_nat (t_maxlevel (a_main tabs)) = 0%nat.
  Proof. reflexivity. Qed.
  Lemma chain_main_clit1 : level_row (t_clit (a_main tabs)) 0 1 = [0].
  Proof. reflexivity. Qed.
  Lemma chain_csub1 : level_row (a_csub tabs) 0 1 = [].
  Proof. reflexivity. Qed.
  Lemma chain_main_ccmd : t_ccmd (a_main tabs) = None.
  Proof. reflexivity. Qed.
  Lemma chain_main_lit0 : literal_at (a_main tabs) 0 = next.
  Proof. reflexivity. Qed.

  Theorem chain_value_recognised e v :
    e_wordbreaks e = EmptyString \/ e_wordbreaks e = default_wordbreaks ->
    is_value v ->
    run_from var 0 tabs e [(pre ++ v)%string] EmptyString = Ok (mkresult 0 [(next ++ " ")%string] []).
  Proof.
    intros Hw Hv. unfold run_from. rewrite (chain_walk_value e v Hv). cbn [obind].
    rewrite chain_main_maxlevel. cbn [top_levels].
    replace (if quirky var then @nil string else []) with (@nil string) by (destruct (quirky var); reflexivity).
    rewrite chain_main_clit1, chain_csub1, chain_main_ccmd.
    cbn [map List.app]. rewrite chain_main_lit0.
    cbn [match_fn obind top_subs_level List.app].
    rewrite (strip_empty_prefix e _ Hw). reflexivity.
  Qed.

  Definition values : list string := map snd (chain_vals lits ipre).

  Lemma chain_clit1 : level_row (t_clit T) 0 1 = map fst (chain_vals lits ipre).
  Proof. reflexivity. Qed.
  Lemma chain_ccmd : t_ccmd T = None.
  Proof. reflexivity. Qed.
  Lemma chain_maxlevel : N.to_nat (t_maxlevel T) = 0%nat.
  Proof. reflexivity. Qed.

  Lemma chain_literal_at id v : In (id, v) (chain_vals lits ipre) -> literal_at T id = v.
  Proof.
    intros H. apply vals_in_lits in H. rewrite chain_lits_of in H.
    unfold literal_at. rewrite chain_literal_texts. now rewrite (indexed_from_nthN lits id v H).
  Qed.

  Lemma chain_offer_list :
    map (fun id => (pre ++ literal_at T id)%string) (map fst (chain_vals lits ipre)) = map (append pre) values.
  Proof.
    unfold values. rewrite !map_map. apply map_ext_in. intros [id v] Hin. cbn [fst snd].
    now rewrite (chain_literal_at id v Hin).
  Qed.

  Lemma value_in_values v : is_value v -> In v values.
  Proof.
    intros Hv. destruct (value_index v Hv) as [id Hid]. unfold values.
    change v with (snd (id, v)). now apply in_map.
  Qed.

  Lemma printable_app a b : printable_str (a ++ b) = printable_str a && printable_str b.
  Proof. induction a as [|c a IH]; cbn [append printable_str]; [reflexivity|]. rewrite IH. now rewrite andb_assoc. Qed.

  (** the offers are not empty: [pre ++ v] is among them *)
  Lemma offers_nonempty p :
    (exists v, is_value v /\ String.prefix p v = true /\ p <> v) ->
    map (append pre) (filter (String.prefix p) values) <> [].
  Proof.
    intros (v & Hv & Hpv & _) E.
    assert (In (pre ++ v)%string (map (append pre) (filter (String.prefix p) values))) as Hin.
    { apply in_map. apply filter_In. split; [now apply value_in_values|exact Hpv]. }
    rewrite E in Hin. contradiction.
  Qed.

  (** Completing [pre ++ p] takes two rounds of the loop, whatever the variant: the piece is consumed in state 0,
      the loop stops in state 1 in front of the value being typed; then the values extending [p] are offered. *)
  Theorem chain_complete_rounds e p log :
    e_ignore_case e = false -> printable_str p = true ->
    (exists v, is_value v /\ String.prefix p v = true /\ p <> v) ->
    (forall f, sw_loop (S f) var true tabs e T [] (pre ++ p) 0 0 log
               = sw_loop f var true tabs e T [] (pre ++ p) 1 (String.length pre) log) ->
    (forall f, exists m, sw_loop (S f) var true tabs e T [] (pre ++ p) 1 (String.length pre) log
                         = Ok (m, 1, String.length pre, log)) ->
    subword_complete var tabs e T (pre ++ p) log
    = Ok (map (append pre) (filter (String.prefix p) values), log).
  Proof.
    intros Hi Hpr Hex H0 H1.
    assert (Hprw : printable_str (pre ++ p) = true) by (rewrite printable_app, (Hprint pre pre_in), Hpr; reflexivity).
    unfold subword_complete, subword_complete_from.
    destruct (sw_fuel_ge T (pre ++ p) 2) as [f ->]; [lia|]. cbn [Nat.add].
    rewrite H0. destruct (H1 f) as [m ->]. cbn [obind]. rewrite chain_maxlevel.
    assert (Hlist : map (fun id => (stake (String.length pre) (pre ++ p) ++ literal_at T id)%string)
                        (level_row (t_clit T) 0 1) = map (append pre) values).
    { rewrite stake_app, chain_clit1. apply chain_offer_list. }
    rewrite (levels_offer_extensions var 0 tabs e T (pre ++ p) 1 (String.length pre) log Hi Hprw chain_ccmd);
      rewrite Hlist, offers_as_values; [reflexivity|now apply offers_nonempty].
  Qed.

  Theorem chain_subword_complete e p log :
    e_ignore_case e = false ->
    (var = Repaired \/ plain p = true) -> printable_str p = true ->
    (exists v, is_value v /\ String.prefix p v = true /\ p <> v) ->
    subword_complete var tabs e T (pre ++ p) log
    = Ok (map (append pre) (filter (String.prefix p) values), log).
  Proof.
    intros Hi Hpp Hpr Hex. pose proof (chain_strdom p (or_intror Hpp)) as Hpw.
    apply chain_complete_rounds; try assumption; intros f.
    - apply (fixed_piece_consumed var _ true tabs e T [] (pre ++ p) 0 [(ipre, 1)] 0 ipre pre 1 log
               Hvar Hpw chain_mlit0 chain_state0_unique chain_pre_in (assocN_single_same ipre 1)).
      + cbn [sdrop]. apply prefix_app_l.
      + rewrite length_append. pose proof (length_pos pre pre_nonempty). lia.
      + apply chain_star_first.
    - apply (fixed_partial_stops var f tabs e T [] (pre ++ p) 1 st1 (String.length pre) log
               Hvar Hpw chain_sorted chain_mlit1).
      destruct Hex as (v & Hv & Hpv & Hne). rewrite sdrop_app. destruct (value_index v Hv) as [id Hid].
      exists id, v, 2. repeat split; try assumption.
      + now apply vals_in_lits.
      + unfold st1. now apply (assocN_map_const 2 _ id v).
  Qed.

  Lemma chain_main_clit0 : level_row (t_clit (a_main tabs)) 0 0 = [].
  Proof. reflexivity. Qed.
  Lemma chain_csub0 : level_row (a_csub tabs) 0 0 = [0].
  Proof. reflexivity. Qed.

  (** the reply before bash's own word-break stripping, from what the within-word function offers *)
  Lemma chain_offers_of_complete e p :
    (exists v, is_value v /\ String.prefix p v = true /\ p <> v) ->
    subword_complete var tabs e T (pre ++ p) [] = Ok (map (append pre) (filter (String.prefix p) values), []) ->
    run_from var 0 tabs e [] (pre ++ p)
    = (do reply <- strip_reply e (pre ++ p) (map (append pre) (filter (String.prefix p) values));
       Ok (mkresult 0 reply [])).
  Proof.
    intros Hex Hc. unfold run_from. cbn [walk obind].
    rewrite chain_main_maxlevel. cbn [top_levels].
    replace (if quirky var then @nil string else []) with (@nil string) by (destruct (quirky var); reflexivity).
    rewrite chain_main_clit0, chain_csub0, chain_main_ccmd. cbn [map List.app obind].
    cbn [top_subs_level]. rewrite chain_subword_tables, Hc. cbn [obind List.app top_subs_level].
    pose proof (offers_nonempty p Hex) as Hne.
    destruct (map (append pre) (filter (String.prefix p) values)) as [|x r]; [contradiction|].
    destruct (strip_reply e (pre ++ p) (x :: r)); reflexivity.
  Qed.

  Theorem chain_partial_offers_gen e p :
    e_ignore_case e = false ->
    (var = Repaired \/ plain p = true) -> printable_str p = true ->
    (exists v, is_value v /\ String.prefix p v = true /\ p <> v) ->
    run_from var 0 tabs e [] (pre ++ p)
    = (do reply <- strip_reply e (pre ++ p) (map (append pre) (filter (String.prefix p) values));
       Ok (mkresult 0 reply [])).
  Proof.
    intros Hi Hpp Hpr Hex. apply (chain_offers_of_complete e p Hex). now apply chain_subword_complete.
  Qed.

  Theorem chain_partial_offers e p :
    e_ignore_case e = false -> e_wordbreaks e = EmptyString ->
    (var = Repaired \/ plain p = true) -> printable_str p = true ->
    (exists v, is_value v /\ String.prefix p v = true /\ p <> v) ->
    run_from var 0 tabs e [] (pre ++ p)
    = Ok (mkresult 0 (map (append pre) (filter (String.prefix p) values)) []).
  Proof.
    intros Hi Hw Hpp Hpr Hex. rewrite (chain_partial_offers_gen e p Hi Hpp Hpr Hex).
    now rewrite (strip_no_wordbreaks e _ _ Hw).
  Qed.
End Chain.

Lemma pinned_consumes_piece st sub : forall lits lid lit to,
    (forall id l t, In (id, l) lits -> assocN id st = Some t -> id = lid /\ l = lit) ->
    (forall id l, In (id, l) lits -> String.prefix sub l = true -> id = lid) ->
    In (lid, lit) lits ->
    assocN lid st = Some to ->
    String.prefix lit sub = true ->
    lit_pure_pinned lits st sub = SCont to (String.length lit).
Proof.
  induction lits as [|[i l] r IH]; intros lid lit to Hu Hx Hin Ha Hp; [contradiction|].
  cbn [lit_pure_pinned].
  destruct (N.eq_dec i lid) as [->|Hne].
  - (* the entry of the piece (or an entry with the same id: then the same text) *)
    assert (l = lit) as ->.
    { destruct (Hu lid l to (or_introl eq_refl) Ha) as [_ ->]. reflexivity. }
    rewrite Ha. destruct (String.eqb lit sub) eqn:E; [reflexivity|].
    destruct (String.prefix sub lit) eqn:E2.
    + pose proof (prefix_length _ _ E2). pose proof (prefix_length _ _ Hp).
      assert (lit = sub) by (apply prefix_same_length; [exact Hp|lia]).
      apply String.eqb_neq in E. contradiction.
    + rewrite Hp. reflexivity.
  - (* any other entry is passed over: it has no transition, and the pinned stop test, which looks at entries
       without a transition too, does not fire on it because the rest of the word is not a prefix of it *)
    assert (assocN i st = None) as Hn.
    { destruct (assocN i st) as [t|] eqn:Ea; [|reflexivity].
      destruct (Hu i l t (or_introl eq_refl) Ea) as [-> _]. contradiction. }
    rewrite Hn.
    assert (String.prefix sub l = false) as ->.
    { destruct (String.prefix sub l) eqn:E; [|reflexivity].
      exfalso. apply Hne. apply (Hx i l); [now left|exact E]. }
    destruct (String.eqb l sub); destruct (String.prefix l sub);
      (apply (IH lid lit to); try assumption;
       [intros id l0 t Hin0; apply (Hu id l0 t); now right
       |intros id l0 Hin0; apply (Hx id l0); now right
       |destruct Hin as [Hin|Hin]; [injection Hin as -> ->; contradiction|exact Hin]]).
Qed.

Theorem pinned_piece_consumed :
  forall fuel complete tabs e T acc word s st ci lid lit to log,
    all_plain (lits_of T) -> plain word = true ->
    assocN s (t_mlit T) = Some st ->
    (forall id l t, In (id, l) (lits_of T) -> assocN id st = Some t -> id = lid /\ l = lit) ->
    (forall id l, In (id, l) (lits_of T) -> String.prefix (sdrop ci word) l = true -> id = lid) ->
    In (lid, lit) (lits_of T) -> assocN lid st = Some to ->
    String.prefix lit (sdrop ci word) = true ->
    (ci < String.length word)%nat ->
    sw_loop (S fuel) Pinned complete tabs e T acc word s ci log
    = sw_loop fuel Pinned complete tabs e T acc word to (ci + String.length lit) log.
Proof.
  intros fuel complete tabs e T acc word s st ci lid lit to log Hpl Hpw Hst Hu Hx Hin Ha Hp Hl.
  apply (sw_loop_lit_cont _ Pinned complete _ _ T _ _ s _ _ st to _ Hl eq_refl Hst).
  cbn [lit_loop]. rewrite (lit_loop_pinned_plain st _ (lits_of T) Hpl (plain_sdrop ci word Hpw)).
  now rewrite (pinned_consumes_piece st _ (lits_of T) lid lit to Hu Hx Hin Ha Hp).
Qed.

Theorem pinned_partial_stops :
  forall fuel tabs e T acc word s st ci log,
    all_plain (lits_of T) -> plain word = true -> sorted_desc (lits_of T) ->
    assocN s (t_mlit T) = Some st ->
    (exists id l, In (id, l) (lits_of T) /\ String.prefix (sdrop ci word) l = true /\ l <> sdrop ci word) ->
    exists m, sw_loop (S fuel) Pinned true tabs e T acc word s ci log = Ok (m, s, ci, log).
Proof.
  intros fuel tabs e T acc word s st ci log Hpl Hpw Hs Hst Hex.
  destruct (Nat.le_gt_cases (String.length word) ci) as [Hci|Hci]; [rewrite sw_loop_end by exact Hci; eauto|].
  exists false. apply (sw_loop_lit_break _ Pinned true _ _ T _ _ s _ _ st Hci eq_refl Hst).
  cbn [lit_loop]. rewrite (lit_loop_pinned_plain st _ (lits_of T) Hpl (plain_sdrop ci word Hpw)).
  now rewrite (pinned_refuses_shorter_value st _ (lits_of T) Hs Hex).
Qed.

Section ChainPinned.
  Variables (lits : list string) (ipre : N) (pre next : string).
  Hypothesis Hpre : nthN lits ipre = Some pre.
  Hypothesis Hnodup : NoDup lits.
  Hypothesis Hplain : forall l, In l lits -> plain l = true.
  Hypothesis Hprint : forall l, In l lits -> printable_str l = true.
  Hypothesis Hnonempty : forall l, In l lits -> l <> EmptyString.
  Hypothesis Hsorted : sorted_len lits.
  Hypothesis Hpiece : forall v, is_value lits pre v -> String.prefix pre v = false.

  Local Notation T := (chain_sub_tables lits ipre).
  Local Notation tabs := (chain_alltables lits ipre next).

  Lemma chain_state0_prefix_unique p id l :
    In (id, l) (lits_of T) -> String.prefix (pre ++ p) l = true -> id = ipre.
  Proof.
    intros Hin Hp. rewrite (chain_lits_of lits ipre) in Hin.
    assert (Hl : In l lits) by (eapply in_indexed_in; eauto).
    assert (Hpl : String.prefix pre l = true) by (eapply prefix_trans; [apply prefix_app_l|exact Hp]).
    assert (l = pre) as ->.
    { destruct (string_dec l pre) as [E|E]; [exact E|].
      rewrite (Hpiece l (conj Hl E)) in Hpl. discriminate. }
    apply indexed_from_nthN in Hin. exact (nthN_NoDup_inj lits id ipre pre Hnodup Hin Hpre).
  Qed.

  Theorem chain_subword_complete_pinned e p log :
    e_ignore_case e = false ->
    plain p = true -> printable_str p = true ->
    (exists v, is_value lits pre v /\ String.prefix p v = true /\ p <> v) ->
    subword_complete Pinned tabs e T (pre ++ p) log
    = Ok (map (append pre) (filter (String.prefix p) (values lits ipre)), log).
  Proof.
    intros Hi Hpp Hpr Hex.
    pose proof (pre_in lits ipre pre Hpre) as Hprein.
    assert (Hpw : plain (pre ++ p) = true) by (rewrite plain_app, (Hplain pre Hprein), Hpp; reflexivity).
    pose proof (pre_nonempty lits ipre pre Hpre Hnonempty) as Hpne.
    apply (chain_complete_rounds lits ipre pre next Hpre Pinned Hprint); try assumption; intros f.
    - apply (pinned_piece_consumed _ true tabs e T [] (pre ++ p) 0 [(ipre, 1)] 0 ipre pre 1 log
               (chain_all_plain lits ipre Hplain) Hpw (chain_mlit0 lits ipre)
               (chain_state0_unique lits ipre pre Hpre)).
      + cbn [sdrop]. intros id l Hin Hp. eapply chain_state0_prefix_unique; eauto.
      + apply (chain_pre_in lits ipre pre Hpre).
      + apply assocN_single_same.
      + cbn [sdrop]. apply prefix_app_l.
      + rewrite length_append. pose proof (length_pos pre Hpne). lia.
    - apply (pinned_partial_stops f tabs e T [] (pre ++ p) 1 _ (String.length pre) log
               (chain_all_plain lits ipre Hplain) Hpw (chain_sorted lits ipre Hsorted) (chain_mlit1 lits ipre)).
      destruct Hex as (v & Hv & Hpv & Hne). rewrite sdrop_app.
      destruct (value_index lits ipre pre Hpre v Hv) as [id Hid].
      exists id, v. repeat split; try assumption; [now apply vals_in_lits|congruence].
  Qed.

  (** The second half of C12 for the loop pinned in /repo: on the chain tables a partially typed value is completed
      correctly by the pinned script too, provided no value extends the literal piece [pre] itself ([Hpiece];
      otherwise the pinned stop test fires already in state 0, on a literal that is not expected there). *)
  Theorem chain_partial_offers_pinned e p :
    e_ignore_case e = false -> e_wordbreaks e = EmptyString ->
    plain p = true -> printable_str p = true ->
    (exists v, is_value lits pre v /\ String.prefix p v = true /\ p <> v) ->
    run_from Pinned 0 tabs e [] (pre ++ p)
    = Ok (mkresult 0 (map (append pre) (filter (String.prefix p) (values lits ipre))) []).
  Proof.
    intros Hi Hw Hpp Hpr Hex.
    rewrite (chain_offers_of_complete lits ipre pre next Hpre Pinned e p Hex
               (chain_subword_complete_pinned e p [] Hi Hpp Hpr Hex)).
    now rewrite (strip_no_wordbreaks e _ _ Hw).
  Qed.
End ChainPinned.

(** C12, second half, for any COMP_WORDBREAKS without glob characters (bash's default value included): the reply
    is the extending values with the typed word removed up to its last word-break character
    ([Spec.Meaning.strip], through Proofs/StripFacts.v). *)
Theorem chain_partial_offers_wordbreaks :
  forall lits ipre pre next,
    nthN lits ipre = Some pre ->
    forall var, var <> Pinned ->
    (forall l, In l lits -> plain l = true) ->
    (forall l, In l lits -> printable_str l = true) ->
    (forall l, In l lits -> l <> EmptyString) ->
    sorted_len lits ->
    forall e p,
      e_ignore_case e = false -> breaks_ok (e_wordbreaks e) = true ->
      plain p = true -> printable_str p = true ->
      (exists v, is_value lits pre v /\ String.prefix p v = true /\ p <> v) ->
      run_from var 0 (chain_alltables lits ipre next) e [] (pre ++ p)
      = Ok (mkresult 0 (map (Meaning.strip (e_wordbreaks e) (pre ++ p))
                            (map (append pre) (filter (String.prefix p) (values lits ipre)))) []).
Proof.
  intros lits ipre pre next Hpre var Hvar Hplain Hprint Hne Hs e p Hi Hwb Hpp Hpr Hex.
  rewrite (chain_partial_offers_gen lits ipre pre next Hpre var Hvar (or_intror Hplain) Hprint Hne Hs e p Hi
             (or_intror Hpp) Hpr Hex).
  rewrite strip_reply_plain; [reflexivity|exact Hwb| |].
  - rewrite plain_app, (Hplain pre (pre_in lits ipre pre Hpre)), Hpp. reflexivity.
  - intros m Hm. apply in_map_iff in Hm as (v & <- & Hv). apply filter_In in Hv as [_ Hv].
    now rewrite prefix_app_same.
Qed.
