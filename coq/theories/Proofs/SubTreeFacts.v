(** The trees of layer (c) of C01 ([C01Layers.bash_meaning_subword]): the leaves are literals and
    within-word expressions all of whose pieces are literals ([subw_tree]). *)
From CG Require Import Base.Prelude Model.Ast Spec.Rx Spec.Meaning.
From CG Require Import Proofs.RxFacts Proofs.MeaningFacts Proofs.MeaningLevels Proofs.TreeFacts Proofs.LangBridge
     Proofs.BashMeaningLit.

Fixpoint subw_tree (e : expr) : bool :=
  match e with
  | Terminal _ _ _ _ => true
  | Subword c _ _ => lit_tree c
  | NontermRef _ _ _ | Command _ _ _ _ | DistDescr _ _ _ => false
  | Sequence cs _ | Alternative cs _ | Fallback cs _ => forallb subw_tree cs
  | Optional c _ | Many1 c _ => subw_tree c
  end.

Lemma lit_subw_tree e : lit_tree e = true -> subw_tree e = true.
Proof.
  induction e using expr_ind'; cbn [lit_tree subw_tree]; intro Ht; try discriminate; try reflexivity;
    try (apply IHe; assumption);
    (rewrite forallb_forall in *; rewrite Forall_forall in H; intros x Hx; apply H; [assumption | apply Ht; assumption]).
Qed.

Definition wlit_leaf (b : wleaf) : Prop := exists t d l, b = WLit t d l.

Lemma lit_tree_wleaves c : lit_tree c = true -> forall b, In b (leaves (trw c)) -> wlit_leaf b.
Proof.
  apply (trw_leaves lit_tree wlit_leaf).
  intros e0 H. destruct e0; cbn in H |- *; try discriminate; try exact H. unfold wlit_leaf. eauto.
Qed.
