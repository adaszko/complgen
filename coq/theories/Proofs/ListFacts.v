(** Facts about the standard library's lists that it does not have itself. *)
From CG Require Import Base.Prelude.

Lemma flat_map_map {A B C} (f : B -> list C) (g : A -> B) l :
  flat_map f (map g l) = flat_map (fun x => f (g x)) l.
Proof. induction l as [|x l IH]; cbn; [reflexivity|rewrite IH; reflexivity]. Qed.

Lemma map_flat_map {A B C} (f : B -> C) (g : A -> list B) l :
  map f (flat_map g l) = flat_map (fun x => map f (g x)) l.
Proof. induction l; cbn; [reflexivity | rewrite map_app, IHl; reflexivity]. Qed.

Lemma flat_map_flat_map {A B C} (f : A -> list B) (g : B -> list C) l :
  flat_map g (flat_map f l) = flat_map (fun x => flat_map g (f x)) l.
Proof. induction l as [|x l IH]; cbn; [reflexivity|rewrite flat_map_app, IH; reflexivity]. Qed.

Lemma filter_flat_map {A B} (p : B -> bool) (f : A -> list B) l :
  filter p (flat_map f l) = flat_map (fun x => filter p (f x)) l.
Proof. induction l as [|x l IH]; cbn; [reflexivity|rewrite filter_app, IH; reflexivity]. Qed.

Lemma flat_map_ext_Forall {A B} (f g : A -> list B) l :
  Forall (fun x => f x = g x) l -> flat_map f l = flat_map g l.
Proof. induction 1 as [|x l H _ IH]; cbn; [reflexivity|rewrite H, IH; reflexivity]. Qed.

Lemma last_cons {A} (x : A) l d : last (x :: l) d = last l x.
Proof.
  revert x d. induction l as [|y l IH]; intros x d; [reflexivity|].
  change (last (x :: y :: l) d) with (last (y :: l) d). rewrite (IH y d), (IH y x). reflexivity.
Qed.

Lemma last_app_cons {A} (l : list A) x m d : last (l ++ x :: m) d = last m x.
Proof.
  revert d. induction l as [|y l IH]; intro d; cbn [app]; [apply last_cons|]. rewrite last_cons. apply IH.
Qed.

Lemma Forall_mp {A} (P Q : A -> Prop) l : Forall (fun x => P x -> Q x) l -> Forall P l -> Forall Q l.
Proof. induction 1; intro H'; inversion H'; subst; constructor; auto. Qed.

Lemma Forall2_impl {A B} (P Q : A -> B -> Prop) l m :
  (forall a b, P a b -> Q a b) -> Forall2 P l m -> Forall2 Q l m.
Proof. intro H. induction 1; constructor; auto. Qed.

Lemma Forall2_length {A B} (P : A -> B -> Prop) l m : Forall2 P l m -> List.length l = List.length m.
Proof. induction 1; cbn; congruence. Qed.

Lemma Forall2_eq {A} (l m : list A) : Forall2 eq l m <-> l = m.
Proof.
  split.
  - induction 1; congruence.
  - intros ->. induction m; constructor; auto.
Qed.

Lemma Forall2_In_l {A B} (P : A -> B -> Prop) l m x : Forall2 P l m -> In x l -> exists y, In y m /\ P x y.
Proof.
  induction 1 as [|a b l m Hab _ IH]; [intros []|]. intros [<-|Hx].
  - exists b. split; [left; reflexivity|exact Hab].
  - destruct (IH Hx) as [y [Hy Hp]]. exists y. split; [right; exact Hy|exact Hp].
Qed.

Lemma Forall2_In_r {A B} (P : A -> B -> Prop) l m y : Forall2 P l m -> In y m -> exists x, In x l /\ P x y.
Proof.
  induction 1 as [|a b l m Hab _ IH]; [intros []|]. intros [<-|Hy].
  - exists a. split; [left; reflexivity|exact Hab].
  - destruct (IH Hy) as [x [Hx Hp]]. exists x. split; [right; exact Hx|exact Hp].
Qed.

Lemma Forall2_map_self {A B} (P : A -> B -> Prop) (f : A -> B) l :
  Forall (fun x => P x (f x)) l -> Forall2 P l (map f l).
Proof. induction 1; cbn; constructor; assumption. Qed.

Lemma Forall2_map_eq {A B} (g : A -> B) (P : A -> B -> Prop) l m :
  Forall2 P l m -> (forall x y, In x l -> P x y -> y = g x) -> m = map g l.
Proof.
  induction 1 as [|x y l m Hxy _ IH]; intro H; cbn [map]; [reflexivity|].
  f_equal; [apply H; [left; reflexivity|exact Hxy]|]. apply IH. intros x' y' Hx'. apply H. right. exact Hx'.
Qed.

Lemma Forall2_flat_map {A B C} (f : A -> list C) (g : B -> list C) l m :
  Forall2 (fun a b => g b = f a) l m -> flat_map g m = flat_map f l.
Proof. induction 1 as [|a b l m H _ IH]; cbn; [reflexivity|rewrite H, IH; reflexivity]. Qed.

Lemma Forall2_total {A B} (P : A -> B -> Prop) l : (forall a, In a l -> exists b, P a b) -> exists m, Forall2 P l m.
Proof.
  induction l as [|a l IH]; intro H; [exists []; constructor|].
  destruct (H a (or_introl eq_refl)) as [b Hb].
  destruct (IH (fun x Hx => H x (or_intror Hx))) as [m Hm]. exists (b :: m). constructor; assumption.
Qed.

Lemma existsb_map {A B} (p : B -> bool) (g : A -> B) l : existsb p (map g l) = existsb (fun x => p (g x)) l.
Proof. induction l as [|x l IH]; cbn; [reflexivity|rewrite IH; reflexivity]. Qed.

Lemma existsb_flat_map {A B} (p : B -> bool) (g : A -> list B) l :
  existsb p (flat_map g l) = existsb (fun x => existsb p (g x)) l.
Proof. induction l as [|x l IH]; cbn; [reflexivity|rewrite existsb_app, IH; reflexivity]. Qed.

Lemma existsb_ext_Forall {A} (p q : A -> bool) l : Forall (fun x => p x = q x) l -> existsb p l = existsb q l.
Proof. induction 1 as [|x l H _ IH]; cbn; [reflexivity|rewrite H, IH; reflexivity]. Qed.

Lemma existsb_false {A} (p : A -> bool) l : existsb p l = false <-> forall x, In x l -> p x = false.
Proof.
  induction l as [|a l IH]; cbn [existsb In]; [tauto|]. rewrite orb_false_iff, IH. split.
  - intros [Ha Hl] x [<-|Hx]; auto.
  - intro H. split; [|intros x Hx]; apply H; auto.
Qed.

Lemma forallb_map {A B} (p : B -> bool) (g : A -> B) l : forallb p (map g l) = forallb (fun x => p (g x)) l.
Proof. induction l as [|x l IH]; cbn; [reflexivity|rewrite IH; reflexivity]. Qed.

Lemma forallb_ext_Forall {A} (p q : A -> bool) l : Forall (fun x => p x = q x) l -> forallb p l = forallb q l.
Proof. induction 1 as [|x l H _ IH]; cbn; [reflexivity|rewrite H, IH; reflexivity]. Qed.

Lemma forallb_Forall {A} (p : A -> bool) l : forallb p l = true <-> Forall (fun x => p x = true) l.
Proof. rewrite forallb_forall, Forall_forall. reflexivity. Qed.

Lemma forallb_impl_Forall {A} (p q : A -> bool) l :
  Forall (fun x => p x = true -> q x = true) l -> forallb p l = true -> forallb q l = true.
Proof. rewrite !forallb_Forall. apply Forall_mp. Qed.

Lemma filter_all {A} (p : A -> bool) l : (forall x, In x l -> p x = true) -> filter p l = l.
Proof.
  induction l as [|x r IH]; intro H; cbn [filter]; [reflexivity|].
  rewrite (H x (or_introl eq_refl)). f_equal. apply IH. intros y Hy. apply H. right. exact Hy.
Qed.

Lemma filter_nil {A} (p : A -> bool) l : filter p l = [] <-> forall x, In x l -> p x = false.
Proof.
  induction l as [|a l IH]; cbn [filter In]; [tauto|]. destruct (p a) eqn:E.
  - split; [discriminate|]. intro H. rewrite H in E by auto. discriminate.
  - rewrite IH. split; [intros H x [<-|Hx]; auto|auto].
Qed.

Lemma map_filter_commute {A B} (f : A -> B) (p : A -> bool) (q : B -> bool) l :
  (forall x, In x l -> p x = q (f x)) -> map f (filter p l) = filter q (map f l).
Proof.
  induction l as [|x r IH]; intro H; cbn [filter map]; [reflexivity|].
  rewrite <- (H x (or_introl eq_refl)), <- IH by (intros y Hy; apply H; right; exact Hy).
  destruct (p x); reflexivity.
Qed.

Lemma NoDup_snoc {A} (l : list A) x : NoDup l -> ~ In x l -> NoDup (l ++ [x]).
Proof. intros ND H. apply (NoDup_Add (Add_app x l [])). rewrite app_nil_r. auto. Qed.

Lemma NoDup_app {A} (l m : list A) :
  NoDup (l ++ m) <-> NoDup l /\ NoDup m /\ forall x, In x l -> ~ In x m.
Proof.
  induction l as [|a l IH]; cbn [app In].
  - split; [intro H; split; [constructor|split; [exact H|tauto]]|tauto].
  - rewrite !NoDup_cons_iff, IH, in_app_iff. split.
    + intros [Ha [Hl [Hm D]]]. split; [tauto|]. split; [exact Hm|]. intros x [<-|Hx]; [tauto|auto].
    + intros [[Ha Hl] [Hm D]]. split; [intros [H|H]; [tauto|exact (D a (or_introl eq_refl) H)]|].
      split; [exact Hl|]. split; [exact Hm|]. intros x Hx. apply D. right. exact Hx.
Qed.

Lemma NoDup_map_filter {A B} (g : A -> B) (p : A -> bool) l : NoDup (map g l) -> NoDup (map g (filter p l)).
Proof.
  induction l as [|x l IH]; cbn [map filter]; [auto|]. rewrite NoDup_cons_iff. intros [Hx Hl].
  destruct (p x); [|exact (IH Hl)]. cbn [map]. constructor; [|exact (IH Hl)].
  intro H. apply Hx. apply in_map_iff in H. destruct H as [z [Ez Hz]]. apply filter_In in Hz.
  apply in_map_iff. exists z. split; [exact Ez|apply Hz].
Qed.

Lemma NoDup_map_inj {A B} (f : A -> B) l x y :
  NoDup (map f l) -> In x l -> In y l -> f x = f y -> x = y.
Proof.
  induction l as [|a l IH]; cbn [map]; [intros _ []|].
  intros Hnd Hx Hy E. inversion Hnd as [|? ? Hnotin Hnd']; subst.
  destruct Hx as [->|Hx], Hy as [->|Hy].
  - reflexivity.
  - exfalso. apply Hnotin. rewrite E. apply in_map, Hy.
  - exfalso. apply Hnotin. rewrite <- E. apply in_map, Hx.
  - apply IH; assumption.
Qed.

Lemma NoDup_map_of_inj {A B} (f : A -> B) l :
  NoDup l -> (forall x y, In x l -> In y l -> f x = f y -> x = y) -> NoDup (map f l).
Proof.
  induction 1 as [|a l Hnin Hnd IH]; intro Hinj; cbn [map]; constructor.
  - intro Hin. apply in_map_iff in Hin. destruct Hin as [x [Hfx Hx]]. apply Hnin.
    rewrite <- (Hinj x a); [exact Hx|right; exact Hx|left; reflexivity|exact Hfx].
  - apply IH. intros x y Hx Hy. apply Hinj; right; assumption.
Qed.

Lemma fold_left_inv {A B} (P : A -> Prop) (f : A -> B -> A) l a :
  P a -> (forall a x, P a -> P (f a x)) -> P (fold_left f l a).
Proof. intros H Hf. revert a H. induction l as [|x r IH]; intros a H; cbn [fold_left]; auto. Qed.

Lemma fold_left_flat_map {A B C} (f : A -> C -> A) (g : B -> list C) l a :
  fold_left f (flat_map g l) a = fold_left (fun a x => fold_left f (g x) a) l a.
Proof.
  revert a. induction l as [|x r IH]; intro a; cbn [flat_map fold_left]; [reflexivity|].
  rewrite fold_left_app. apply IH.
Qed.

Lemma fold_left_collect_inv {A B} (f : A -> B -> A) (M : A -> Prop) (Nx : B -> Prop) :
  (forall a x, M (f a x) -> M a \/ Nx x) ->
  forall l a, M (fold_left f l a) -> M a \/ exists x, In x l /\ Nx x.
Proof.
  intros H l. induction l as [|x r IH]; intros a Hm; cbn [fold_left] in Hm; [auto|].
  destruct (IH _ Hm) as [Ha|[y [Hy Ny]]]; [|right; exists y; split; [right; exact Hy|exact Ny]].
  destruct (H _ _ Ha) as [Ha'|Hx]; [auto|]. right. exists x. split; [left; reflexivity|exact Hx].
Qed.

Lemma fold_left_collect {A B} (f : A -> B -> A) (M : A -> Prop) (Nx : B -> Prop) :
  (forall a x, M (f a x) <-> M a \/ Nx x) ->
  forall l a, M (fold_left f l a) <-> M a \/ exists x, In x l /\ Nx x.
Proof.
  intros H l a. split; [apply fold_left_collect_inv; intros; apply H; assumption|].
  revert a. induction l as [|x r IH]; intros a; cbn [fold_left].
  - intros [Ha|[x [[] _]]]. exact Ha.
  - intros [Ha|[y [[<-|Hy] Ny]]]; apply IH.
    + left. apply H. auto.
    + left. apply H. auto.
    + right. exists y. auto.
Qed.
