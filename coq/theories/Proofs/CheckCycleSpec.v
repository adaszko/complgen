(** C08, cycles: the dependency graph searched by the model is the [depends] relation of
    Spec/Mistakes.v, and [from_grammar] reports a cycle exactly when [Mistakes.cyclic] holds
    (when the earlier mistake classes are absent). *)
From CG Require Import Base.Prelude Base.Facts Proofs.ListFacts Model.Ast Model.Check Spec.Choice Spec.Mistakes.
From CG Require Import Proofs.CheckChoice Proofs.CheckMistakes Proofs.CheckLemmas Proofs.CheckWarnings.
From CG Require Import Proofs.CheckCycle Proofs.CheckTotal Proofs.CheckFront.

Section Bounded.
  Variable dep : string -> string -> bool.
  Variable V : list string.
  Variable graph : list (string * list (string * span)).
  Hypothesis Hdep : forall x y, dep x y = true <-> edge graph x y.
  Hypothesis HV : forall x y, edge graph x y -> In y V.

  Fixpoint reachesb (n : nat) (x y : string) : bool :=
    dep x y ||
    match n with
    | O => false
    | S k => existsb (fun z => dep x z && reachesb k z y) V
    end.

  Lemma reachesb_reach n : forall x y, reachesb n x y = true -> reach graph x y.
  Proof.
    induction n as [|k IH]; intros x y H; cbn [reachesb] in H; apply orb_true_iff in H;
      destruct H as [H|H]; try (apply reach_one; apply Hdep; exact H); [discriminate|].
    apply existsb_exists in H. destruct H as [z [_ Hz]]. apply andb_true_iff in Hz.
    destruct Hz as [Hxz Hzy]. eapply reach_step; [apply Hdep; exact Hxz|apply IH; exact Hzy].
  Qed.

  Lemma reachesb_S n : forall x y, reachesb n x y = true -> reachesb (S n) x y = true.
  Proof.
    induction n as [|k IH]; intros x y H; cbn [reachesb] in H; apply orb_true_iff in H;
      destruct H as [H|H]; try (cbn [reachesb]; rewrite H; reflexivity); [discriminate|].
    apply existsb_exists in H. destruct H as [z [Hz Hzz]]. apply andb_true_iff in Hzz.
    destruct Hzz as [Hxz Hzy]. apply IH in Hzy.
    change (reachesb (S (S k)) x y) with
      (dep x y || existsb (fun z => dep x z && reachesb (S k) z y) V).
    apply orb_true_iff. right. apply existsb_exists. exists z. split; [exact Hz|].
    rewrite Hxz, Hzy. reflexivity.
  Qed.

  Lemma reachesb_mono n m x y : (n <= m)%nat -> reachesb n x y = true -> reachesb m x y = true.
  Proof. induction 1 as [|m Hle IH]; [auto|]. intro Hr. apply reachesb_S. auto. Qed.

  Lemma reachesb_snoc k : forall x y z,
    reachesb k x y = true -> dep y z = true -> In y V -> reachesb (S k) x z = true.
  Proof.
    induction k as [|k IH]; intros x y z H Hyz Hy; cbn [reachesb] in H; apply orb_true_iff in H;
      destruct H as [H|H].
    - cbn [reachesb]. apply orb_true_iff. right. apply existsb_exists. exists y.
      split; [exact Hy|]. rewrite H, Hyz. reflexivity.
    - discriminate.
    - change (reachesb (S (S k)) x z) with
        (dep x z || existsb (fun w => dep x w && reachesb (S k) w z) V).
      apply orb_true_iff. right. apply existsb_exists. exists y. split; [exact Hy|].
      rewrite H. cbn [andb reachesb]. rewrite Hyz. reflexivity.
    - apply existsb_exists in H. destruct H as [w [Hw Hww]]. apply andb_true_iff in Hww.
      destruct Hww as [Hxw Hwy].
      change (reachesb (S (S k)) x z) with
        (dep x z || existsb (fun w => dep x w && reachesb (S k) w z) V).
      apply orb_true_iff. right. apply existsb_exists. exists w. split; [exact Hw|].
      rewrite Hxw. cbn [andb]. eapply IH; eauto.
  Qed.

  Lemma chain_edge a b sb : In (b, sb) (children graph a) -> edge graph a b.
  Proof. intro H. apply in_map_iff. exists (b, sb). split; [reflexivity|exact H]. Qed.

  Lemma chain_reachesb a rest :
    chain graph a rest -> rest <> [] ->
    reachesb (List.length rest - 1) a (last (map fst rest) a) = true.
  Proof.
    revert a. induction rest as [|[b sb] r IH]; intros a Hc Hne; [congruence|].
    cbn [chain] in Hc. destruct Hc as [Hb Hc]. apply (chain_edge a b sb) in Hb.
    cbn [map fst]. rewrite last_cons.
    destruct r as [|p r'] eqn:E.
    - cbn. rewrite (proj2 (Hdep a b) Hb). reflexivity.
    - rewrite <- E in *. assert (Hr : r <> []) by (rewrite E; discriminate).
      specialize (IH b Hc Hr).
      replace (List.length ((b, sb) :: r) - 1)%nat with (S (List.length r - 1)).
      2:{ rewrite E. cbn. lia. }
      cbn [reachesb]. apply orb_true_iff. right. apply existsb_exists. exists b.
      split; [eapply HV; exact Hb|]. rewrite (proj2 (Hdep a b) Hb), IH. reflexivity.
  Qed.

  Lemma cycle_report_bounded verts e :
    incl (map fst verts) V -> cycle_report graph verts e ->
    existsb (fun x => reachesb (List.length V) x x) V = true.
  Proof.
    intros Hverts (r & rsp & rest & c & sp & Hv & Hch & Hnd & Hc & Hin & He).
    pose proof (chain_edge _ _ _ Hc) as Hvc.
    assert (HcV : In c V) by (eapply HV; exact Hvc).
    assert (HrV : In r V).
    { apply Hverts. apply in_map_iff. exists (r, rsp). split; [reflexivity|exact Hv]. }
    assert (Hi : incl (r :: map fst rest) V).
    { intros x [Hx|Hx]; [subst x; exact HrV|eapply (chain_targets graph V HV); eauto]. }
    assert (Hlen : (S (List.length rest) <= List.length V)%nat).
    { pose proof (NoDup_incl_length Hnd Hi) as Hl. cbn in Hl. rewrite map_length in Hl. exact Hl. }
    apply existsb_exists. exists c. split; [exact HcV|].
    set (v := last (map fst rest) r) in *.
    assert (HvV : In v V) by (apply Hi; apply last_In_cons).
    assert (Hvc' : dep v c = true) by (apply Hdep; exact Hvc).
    (* the part of the path from [c] to [v] *)
    destruct (chain_from _ _ _ _ Hch Hin) as (l2 & Hc2 & Hl & Hlen2). fold v in Hl.
    assert (Hpath : c = v \/ l2 <> []) by (destruct l2; [left; exact Hl|right; discriminate]).
    destruct Hpath as [Heq|Hne].
    - subst c. cbn [reachesb]. destruct (List.length V); cbn [reachesb]; rewrite Hvc'; reflexivity.
    - pose proof (chain_reachesb _ _ Hc2 Hne) as Hr. rewrite Hl in Hr.
      pose proof (reachesb_snoc _ _ _ _ Hr Hvc' HvV) as Hr2.
      eapply reachesb_mono; [|exact Hr2].
      destruct l2; [congruence|]. cbn in *. lia.
  Qed.
End Bounded.

Lemma reaches_reachesb g sh n x y :
  reaches g sh n x y = reachesb (depends g sh) (plain_names g) n x y.
Proof.
  revert x y. induction n as [|k IH]; intros x y; cbn [reaches reachesb]; [reflexivity|].
  f_equal. apply existsb_ext_Forall, Forall_forall. intros z _. rewrite IH. reflexivity.
Qed.

Section Keeps.
  Variable sh : shell.
  Variable us : list (string * user_spec).
  Variable bi : list (string * string).
  Variable fs : list (string * (string * span)).
  Variable plain : list string.

  Definition keeps (n : string) : bool :=
    match assoc n us with
    | Some _ => false
    | None => match assoc n fs with
              | Some _ => false
              | None => mem_str n plain || match assoc n bi with Some _ => false | None => true end
              end
    end.

  Lemma specialize_ref_refs n l sp :
    all_refs (specialize_ref sh us bi fs plain n l sp) = if keeps n then [n] else [].
  Proof.
    unfold specialize_ref, keeps. destruct (assoc n us); [reflexivity|].
    destruct (assoc n fs) as [[c s]|]; [reflexivity|].
    destruct (mem_str n plain); [reflexivity|]. destruct (assoc n bi); reflexivity.
  Qed.

  Lemma specialize_refs e :
    all_refs (specialize sh us bi fs plain e) = filter keeps (all_refs e).
  Proof.
    induction e using expr_ind'; cbn [specialize all_refs filter]; try reflexivity; try assumption;
      try (rewrite flat_map_map, filter_flat_map; apply flat_map_ext_Forall; exact H).
    rewrite specialize_ref_refs. destruct (keeps n); reflexivity.
  Qed.
End Keeps.

Lemma distribute_descriptions_all_refs e :
  all_refs (distribute_descriptions e) = all_refs e.
Proof.
  rewrite <- (dd_free_refs (distribute_descriptions e)) by apply distribute_dd_free.
  apply distribute_descriptions_refs.
Qed.

Lemma plain_defs_table g : map (fun d => (d_name d, d_rhs d)) (plain_defs_of (all_defs g)) = plain_table g.
Proof.
  unfold plain_defs_of, plain_table, all_defs. induction g as [|[n sp e|n sp [s|] rhs] g IH]; cbn; congruence.
Qed.

Section ModelGraph.
  Variable builtins : shell -> list (string * string).
  Variable g : grammar.
  Variable sh : shell.
  Variable defs0 : list defn.
  Variable us : list (string * user_spec).
  Variable fs : list (string * (string * span)).
  Hypothesis Hcollect : collect_plain_defs (all_defs g) [] = Ok defs0.
  Hypothesis Hspecs : get_specializations g sh = Ok (us, fs).

  Let defs1 := defs1_of defs0.
  Let spec := spec_of builtins sh us fs defs1.
  Let defs2 := defs2_of spec defs1.

  Lemma defs0_eq : defs0 = plain_defs_of (all_defs g).
  Proof. apply collect_plain_defs_eq in Hcollect. exact Hcollect. Qed.

  Lemma defs2_names_plain : map d_name defs2 = plain_names g.
  Proof.
    unfold defs2, defs1. rewrite defs2_names. unfold defs1_of. rewrite map_map. cbn.
    rewrite defs0_eq, plain_defs_of_names, plain_names_all_defs. reflexivity.
  Qed.

  Lemma table0_assoc x :
    assoc x (table0_of defs2)
    = option_map (fun rhs => spec (distribute_descriptions rhs)) (plain_definition g x).
  Proof.
    rewrite plain_definition_assoc, <- assoc_map_snd, <- plain_defs_table, <- defs0_eq.
    unfold table0_of, defs2, defs2_of, defs1, defs1_of. rewrite !map_map. reflexivity.
  Qed.

  Lemma keeps_lookup y :
    keeps us (builtins sh) fs (map d_name defs1) y =
    match shell_definition g sh y, plain_definition g y, assoc y (builtins sh) with
    | None, Some _, _ | None, None, None => true
    | _, _, _ => false
    end.
  Proof.
    unfold keeps, defs1, defs1_of. rewrite map_map. cbn [d_name].
    pose proof (us_shell_definition g sh us fs Hspecs y) as Hu.
    destruct (shell_definition g sh y) as [rhs|].
    - destruct Hu as (s & z & l & sp & -> & _). reflexivity.
    - rewrite Hu, (fs_none g sh us fs Hspecs y Hu), (plain_mem g defs0 Hcollect).
      destruct (plain_definition g y); [reflexivity|]. destruct (assoc y (builtins sh)); reflexivity.
  Qed.

  Lemma keeps_plain y :
    In y (plain_names g) ->
    keeps us (builtins sh) fs (map d_name defs1) y = true <-> shell_definition g sh y = None.
  Proof.
    intro Hy. apply plain_names_pd in Hy. rewrite keeps_lookup.
    destruct (shell_definition g sh y); destruct (plain_definition g y); try congruence;
      split; (reflexivity || discriminate).
  Qed.

  Theorem model_graph_depends x y :
    edge (graph_of defs2) x y <-> depends g sh x y = true.
  Proof.
    unfold edge, children, graph_of. rewrite assoc_graph_of', table0_assoc.
    unfold depends, plain_chosen.
    destruct (plain_definition g x) as [rhs|] eqn:Ex; cbn [option_map]; [|split; [intros []|discriminate]].
    rewrite in_map_iff. rewrite andb_true_iff, mem_str_In. split.
    - intros [[y' sp] [Hy Hin]]. cbn in Hy. subst y'. apply filter_In in Hin. destruct Hin as [Hin Hm].
      cbn in Hm. apply mem_str_In in Hm. rewrite defs2_names_plain in Hm.
      assert (Hr : In y (map fst (get_nonterm_refs (spec (distribute_descriptions rhs))))).
      { apply in_map_iff. exists (y, sp). split; [reflexivity|exact Hin]. }
      apply get_nonterm_refs_names in Hr.
      rewrite dd_free_refs in Hr by (apply specialize_dd_free; apply distribute_dd_free).
      unfold spec, spec_of in Hr. rewrite specialize_refs in Hr. apply filter_In in Hr.
      destruct Hr as [Hr Hk]. rewrite distribute_descriptions_all_refs in Hr.
      split; [exact Hr|]. apply (keeps_plain y Hm) in Hk. rewrite Hk.
      apply plain_names_pd in Hm. destruct (plain_definition g y); [reflexivity|congruence].
    - intros [Hr Hch].
      destruct (shell_definition g sh y) eqn:Es; [discriminate|].
      assert (Hm : In y (plain_names g)).
      { apply plain_names_pd. destruct (plain_definition g y); [discriminate|discriminate]. }
      assert (Hr' : In y (map fst (get_nonterm_refs (spec (distribute_descriptions rhs))))).
      { apply get_nonterm_refs_names.
        rewrite dd_free_refs by (apply specialize_dd_free; apply distribute_dd_free).
        unfold spec, spec_of. rewrite specialize_refs. apply filter_In.
        rewrite distribute_descriptions_all_refs. split; [exact Hr|].
        apply (keeps_plain y Hm). exact Es. }
      apply in_map_iff in Hr'. destruct Hr' as [[y' sp] [Hy Hin]]. cbn in Hy. subst y'.
      exists (y, sp). split; [reflexivity|]. apply filter_In. split; [exact Hin|].
      cbn. apply mem_str_In. rewrite defs2_names_plain. exact Hm.
  Qed.

  Lemma model_graph_targets x y : edge (graph_of defs2) x y -> In y (plain_names g).
  Proof. intro H. apply graph_of_closed in H. rewrite defs2_names_plain in H. exact H. Qed.

  Theorem cyclic_iff_search :
    cyclic g sh = true <-> exists spans, resolution_order defs2 = Err (NonterminalDefinitionsCycle spans).
  Proof.
    assert (Hdep : forall x y, depends g sh x y = true <-> edge (graph_of defs2) x y).
    { intros. symmetry. apply model_graph_depends. }
    split.
    - unfold cyclic. intro H. apply existsb_exists in H. destruct H as [x [_ Hx]].
      rewrite reaches_reachesb in Hx.
      apply (reachesb_reach _ _ (graph_of defs2) Hdep) in Hx.
      destruct (resolution_order_total defs2) as [[ord Ho]|[e He]].
      + exfalso. apply resolution_order_ok in Ho. destruct Ho as [Ha _].
        eapply acyclic_no_cycle; eassumption.
      + pose proof (resolution_order_err _ _ He) as Hr.
        destruct Hr as (r & rsp & rest & c & sp & _ & _ & _ & _ & _ & Heq). subst e.
        eexists. exact He.
    - intros [spans He]. apply resolution_order_err in He.
      unfold cyclic.
      rewrite (existsb_ext_Forall _ (fun x => reachesb (depends g sh) (plain_names g)
                                                  (List.length (plain_names g)) x x)).
      2:{ apply Forall_forall. intros x _. apply reaches_reachesb. }
      eapply (cycle_report_bounded _ _ (graph_of defs2) Hdep model_graph_targets); [|exact He].
      rewrite verts_of_names, defs2_names_plain. apply incl_refl.
  Qed.
End ModelGraph.

Definition is_spaces_error (e : cerror) : Prop :=
  match e with SubwordSpaces _ _ _ => True | _ => False end.

Lemma sp_all_err (P : cerror -> Prop) rec cs e :
  Forall (fun c => forall e, rec c = Err e -> P e) cs -> sp_all rec cs = Err e -> P e.
Proof.
  induction 1 as [|x l Hx Hl IH]; cbn; [discriminate|].
  destruct (rec x) as [[]|e'| |] eqn:E; cbn; try discriminate.
  - exact IH.
  - intro H. inversion H; subst. apply Hx. reflexivity.
Qed.

Lemma expr_end_no_err hd follow f : forall e err, expr_end hd follow f e <> Err err.
Proof.
  induction f as [|f IH]; intros e err; [destruct hd; discriminate|]. rewrite expr_end_S.
  destruct e; try discriminate; try apply IH.
  - destruct (followed follow name); [apply IH|discriminate].
  - destruct (pick hd children); [apply IH|discriminate].
Qed.

Lemma adjacent_terminals_no_err follow f cs : forall err, adjacent_terminals follow f cs <> Err err.
Proof.
  induction cs as [|a r IH]; intro err; [discriminate|]. destruct r as [|b r']; [discriminate|].
  rewrite adjacent_terminals_eq.
  destruct (expr_end false follow f a) as [ta|e1| |] eqn:Ea; cbn [obind];
    [|exfalso; eapply expr_end_no_err; eauto|discriminate|discriminate].
  destruct (expr_end true follow f b) as [hb|e2| |] eqn:Eb; cbn [obind];
    [|exfalso; eapply expr_end_no_err; eauto|discriminate|discriminate].
  destruct ta; try apply IH. destruct hb; try apply IH. discriminate.
Qed.

Lemma spaces_err_kind table f : forall e trace within juxt err,
  spaces table f e trace within juxt = Err err -> is_spaces_error err.
Proof.
  induction f as [|f IH]; intros e trace within juxt err H; [discriminate|].
  rewrite spaces_S in H.
  assert (Hall : forall cs err, sp_all (fun c => spaces table f c trace within false) cs = Err err ->
                                is_spaces_error err).
  { intros cs err' H'. eapply sp_all_err; [|exact H']. apply Forall_forall. intros c _ e' He'.
    eapply IH; eauto. }
  destruct e; try discriminate; try (eapply IH; eauto; fail); try (eapply Hall; eauto; fail).
  - destruct (assoc name table); [eapply IH; eauto|discriminate].
  - destruct (sp_all _ children) as [[]|e'| |] eqn:E; cbn [obind] in H; try discriminate.
    + destruct within; [|discriminate].
      destruct (adjacent_terminals _ f children) as [[[l r]|]|e'| |] eqn:Ea; cbn [obind] in H;
        try discriminate.
      * inversion H. exact I.
      * exfalso. eapply adjacent_terminals_no_err; eauto.
    + inversion H; subst. eapply Hall; eauto.
Qed.

Theorem cycle_rejected builtins g sh :
  no_call_variant g = false -> varying_names g = false -> slash_in_name g = false ->
  duplicate_plain g = false ->
  unknown_shell g = false -> non_command_for_shell g = false -> duplicate_for_shell g sh = false ->
  specs_have_command_plain g = true ->
  (cyclic g sh = true <->
   exists spans, from_grammar builtins g sh = Err (NonterminalDefinitionsCycle spans)).
Proof.
  intros Hn Hv Hsl Hdp H1 H2 H3 Hsp.
  destruct (front_clean g Hn Hv Hsl Hdp) as (command & cspan & defs0 & Hd & Hs & Hc).
  destruct (get_specializations_ok g sh Hdp H1 H2 H3 Hsp) as (us & fs & Hspecs).
  rewrite (from_grammar_back_end builtins g sh _ _ _ _ _ Hd Hs Hc Hspecs).
  rewrite (cyclic_iff_search builtins g sh defs0 us fs Hc Hspecs). split.
  - intros [spans Ho]. exists spans. unfold back_end. cbn zeta. rewrite Ho. reflexivity.
  - intros [spans H]. apply back_end_err in H. cbn zeta in H.
    destruct H as [H|(ord & _ & H)]; [eauto|]. apply spaces_err_kind in H. destruct H.
Qed.

(** A grammar free of every class decided before the walk of [check_subword_spaces] can only be
    rejected by that walk. *)
Theorem clean_verdict builtins g sh :
  no_call_variant g = false -> varying_names g = false -> slash_in_name g = false ->
  duplicate_plain g = false ->
  unknown_shell g = false -> non_command_for_shell g = false -> duplicate_for_shell g sh = false ->
  specs_have_command_plain g = true -> cyclic g sh = false ->
  (exists v, from_grammar builtins g sh = Ok v) \/
  (exists l r trace, from_grammar builtins g sh = Err (SubwordSpaces l r trace)).
Proof.
  intros Hn Hv Hsl Hdp H1 H2 H3 Hsp Hcyc.
  destruct (from_grammar_total builtins g sh) as [[v Hv']|[e He]]; [left; eauto|right].
  destruct (front_clean g Hn Hv Hsl Hdp) as (command & cspan & defs0 & Hd & Hs & Hc).
  destruct (get_specializations_ok g sh Hdp H1 H2 H3 Hsp) as (us & fs & Hspecs).
  pose proof He as He0.
  rewrite (from_grammar_back_end builtins g sh _ _ _ _ _ Hd Hs Hc Hspecs) in He.
  apply back_end_err in He. cbn zeta in He. destruct He as [He|(ord & _ & He)].
  - exfalso. destruct (resolution_order_err_cycle _ _ He) as [[spans Heq] _]. subst e.
    assert (cyclic g sh = true) by (apply (cyclic_iff_search builtins g sh defs0 us fs Hc Hspecs); eauto).
    congruence.
  - apply spaces_err_kind in He. destruct e; try destruct He. rewrite He0. eauto.
Qed.
