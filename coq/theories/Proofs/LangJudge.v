(** Soundness of the judges of Spec/Lang.v:
    - [equiv_src] / [equiv_wdfa_expr] (inside a word);
    - [equiv_dfa_expr] (the main automaton with its within-word automata against a validated tree):
      [Equal] implies equal languages over items, [Differ w] gives a word that distinguishes. *)
From CG Require Import Base.Prelude Base.Facts Model.Ast Model.Dfa Spec.Lang.
From CG Require Import Proofs.SubsetConstr Proofs.LangRe Proofs.LangNfa Proofs.LangDen.

Lemma witem_eqb_spec : forall a b, witem_eqb a b = true <-> a = b.
Proof. intros a b. destruct a, b; cbn; autorewrite with eqb; intuition congruence. Qed.
#[export] Hint Rewrite witem_eqb_spec : eqb.

Lemma tl_eqb_spec : forall a b, tl_eqb a b = true <-> a = b.
Proof. intros a b. destruct a, b; cbn; autorewrite with eqb; intuition congruence. Qed.

Lemma Forall_incl_app_l : forall {A} (l m : list A) v,
  Forall (fun b => In b l) v -> Forall (fun b => In b (l ++ m)) v.
Proof. intros. eapply Forall_impl; [|eassumption]. intros; apply in_app_iff; auto. Qed.

Lemma Forall_incl_app_r : forall {A} (l m : list A) v,
  Forall (fun b => In b m) v -> Forall (fun b => In b (l ++ m)) v.
Proof. intros. eapply Forall_impl; [|eassumption]. intros; apply in_app_iff; auto. Qed.

Lemma wleaf_ok : forall e r, is_leaf e = true -> wtrl e = Some r ->
  forall w, wleaf e w <-> img witem witem eq r w.
Proof.
  intros e r _ E w. destruct e; simpl in E; inversion E; subst; simpl;
    try (rewrite img_sym; split; [intros ->; eauto|intros [a [-> <-]]; reflexivity]).
  all: rewrite img_emp; tauto.
Qed.

Lemma wdenotes_tr : forall c r, wtr c = Some r -> forall w, wdenotes c w <-> Lre r w.
Proof.
  intros c r E w. unfold wdenotes, wtr in *.
  rewrite (tr_den witem witem wleaf wtrl eq wleaf_ok c r E w). apply limg_eq.
Qed.

Lemma waccepts_lab : forall d v,
  waccepts d v <-> lab_accepts witem d (map wlab (d_inputs d)) v.
Proof.
  intros d v. apply (limg_ext _ _ (fun ids => accepts d ids = true)); [|tauto].
  intros i a. rewrite nthN_map. destruct (nthN (d_inputs d) i) as [x|]; cbn [option_map].
  - split; [intros [y [E H]]; congruence | intros E; exists x; split; congruence].
  - split; [intros [y [E _]] | intros E]; discriminate.
Qed.

Record nfa_for (L : list witem -> Prop) (x : nfa witem) (lx : list witem) : Prop := {
  nf_eqb : forall s t, n_eqb x s t = true <-> s = t;
  nf_lang : forall v, nfa_lang x v <-> L v;
  nf_letters : forall v, L v -> Forall (fun b => In b lx) v
}.

Lemma src_nfa_ok : forall s x lx, src_nfa s = Some (x, lx) -> nfa_for (src_lang s) x lx.
Proof.
  intros [d|c] x lx E; simpl in E.
  - inversion E; subst. split.
    + apply dfa_nfa_eqb.
    + intros v. rewrite (dfa_nfa_lang witem witem_eqb witem_eqb_spec). symmetry. apply waccepts_lab.
    + intros v H. apply waccepts_lab in H. apply lab_accepts_letters in H. exact H.
  - destruct (wtr c) as [r|] eqn:Er; [|discriminate]. inversion E; subst. split.
    + apply (re_nfa_eqb witem witem_eqb witem_eqb_spec).
    + intros v. rewrite (re_nfa_lang witem witem_eqb witem_eqb_spec). symmetry.
      apply wdenotes_tr. exact Er.
    + intros v H. apply (wdenotes_tr c r Er) in H. apply (Lre_syms witem). exact H.
Qed.

Theorem equiv_src_equal : forall fuel s t,
  equiv_src fuel s t = Equal -> forall v, src_lang s v <-> src_lang t v.
Proof.
  intros fuel s t E v. unfold equiv_src in E.
  destruct (src_nfa s) as [[x lx]|] eqn:Es; [|discriminate].
  destruct (src_nfa t) as [[y ly]|] eqn:Et; [|discriminate].
  destruct (src_nfa_ok _ _ _ Es) as [Hx1 Hx2 Hx3]. destruct (src_nfa_ok _ _ _ Et) as [Hy1 Hy2 Hy3].
  pose proof (equiv_nfa_equal witem x y (lx ++ ly) Hx1 Hy1 fuel E v) as HE.
  split; intros H.
  - apply Hy2. apply HE; [apply Forall_incl_app_l; auto|]. apply Hx2. exact H.
  - apply Hx2. apply HE; [apply Forall_incl_app_r; auto|]. apply Hy2. exact H.
Qed.

Theorem equiv_src_differ : forall fuel s t v,
  equiv_src fuel s t = Differ v -> ~ (src_lang s v <-> src_lang t v).
Proof.
  intros fuel s t v E. unfold equiv_src in E.
  destruct (src_nfa s) as [[x lx]|] eqn:Es; [|discriminate].
  destruct (src_nfa t) as [[y ly]|] eqn:Et; [|discriminate].
  destruct (src_nfa_ok _ _ _ Es) as [Hx1 Hx2 Hx3]. destruct (src_nfa_ok _ _ _ Et) as [Hy1 Hy2 Hy3].
  destruct (equiv_nfa_differ witem x y (lx ++ ly) Hx1 Hy1 fuel v E) as [HD _].
  intros H. apply HD. rewrite Hx2, Hy2. exact H.
Qed.

Theorem wjudge_sound : forall fuel d c,
  equiv_wdfa_expr fuel d c = Equal -> forall v, waccepts d v <-> wdenotes c v.
Proof. intros fuel d c E v. apply (equiv_src_equal fuel (SD d) (SE c) E v). Qed.

Theorem wjudge_differ : forall fuel d c v,
  equiv_wdfa_expr fuel d c = Differ v -> ~ (waccepts d v <-> wdenotes c v).
Proof. intros fuel d c v E. apply (equiv_src_differ fuel (SD d) (SE c) v E). Qed.

Lemma item_equiv_refl : forall x, item_equiv x x.
Proof. intros [a|L l]; simpl; [reflexivity|]. split; [reflexivity|tauto]. Qed.

Lemma item_equiv_sym : forall x y, item_equiv x y -> item_equiv y x.
Proof.
  intros [a|L l] [b|L' l']; simpl; try tauto; [congruence|].
  intros [-> H]. split; [reflexivity|]. intros v. symmetry. apply H.
Qed.

Lemma item_equiv_trans : forall x y z, item_equiv x y -> item_equiv y z -> item_equiv x z.
Proof.
  intros [a|L l] [b|L' l'] [c|L'' l'']; simpl; try tauto; [congruence|].
  intros [-> H1] [-> H2]. split; [reflexivity|]. intros v. rewrite H1. apply H2.
Qed.

Section TopFacts.
  Variable fuel : nat.
  Variable cd : cdfa.
  Variable srcs : list src.

  Definition src_at (j : N) : src := nth (N.to_nat j) srcs (SD dead_dfa).

  (** what a letter stands for *)
  Definition sem (t : tl) : item :=
    match t with
    | TLeaf a => ILeaf a
    | TSub j l => IWord (src_lang (src_at j)) l
    end.

  Definition rel (t : tl) (it : item) : Prop := item_equiv (sem t) it.

  Lemma class_from_spec : forall l i s j,
    class_from fuel l i s = Some j ->
    exists k t, j = i + N.of_nat k /\ nth_error l k = Some t /\
                equiv_src fuel t s = Equal /\
                forall k' t', (k' < k)%nat -> nth_error l k' = Some t' ->
                              exists v, equiv_src fuel t' s = Differ v.
  Proof.
    induction l as [|t l IH]; intros i s j E; simpl in E; [discriminate|].
    destruct (equiv_src fuel t s) as [|v|] eqn:Eq; [| |discriminate].
    - inversion E; subst. exists O, t. split; [simpl; lia|]. split; [reflexivity|]. split; auto.
      intros k' t' Hk. lia.
    - apply IH in E. destruct E as [k [t0 [Hj [Hn [He Hd]]]]].
      exists (S k), t0. split; [lia|]. split; [exact Hn|]. split; auto.
      intros [|k'] t' Hk Hn'.
      + simpl in Hn'. inversion Hn'; subst. eauto.
      + simpl in Hn'. apply (Hd k' t'); [lia|exact Hn'].
  Qed.

  Lemma class_of_spec : forall s j, class_of fuel srcs s = Some j ->
    (forall v, src_lang (src_at j) v <-> src_lang s v).
  Proof.
    intros s j E. unfold class_of in E. apply class_from_spec in E.
    destruct E as [k [t [Hj [Hn [He _]]]]]. unfold src_at. subst j.
    rewrite N.add_0_l, Nnat.Nat2N.id. rewrite (nth_error_nth _ _ _ Hn).
    apply (equiv_src_equal fuel t s He).
  Qed.

  Definition canonical (j : N) : Prop := exists s, class_of fuel srcs s = Some j.

  (** A class id is the index of the first source judged [Equal]: of two ids with one language,
      the smaller would have been found before the larger. *)
  Lemma canonical_inj : forall j j', canonical j -> canonical j' ->
    (forall v, src_lang (src_at j) v <-> src_lang (src_at j') v) -> j = j'.
  Proof.
    assert (Hlt : forall j j' s s', class_of fuel srcs s = Some j -> class_of fuel srcs s' = Some j' ->
                  (forall v, src_lang (src_at j) v <-> src_lang (src_at j') v) -> ~ (j < j')).
    { intros j j' s s' E E' H Hlt.
      pose proof (class_of_spec _ _ E') as Hs'.
      unfold class_of in E, E'. apply class_from_spec in E, E'.
      destruct E as [k [t [Hj [Hn [He _]]]]]. destruct E' as [k' [t' [Hj' [Hn' [He' Hd']]]]].
      subst j j'. assert (Hk : (k < k')%nat) by lia.
      destruct (Hd' k t Hk Hn) as [v Hv]. apply equiv_src_differ in Hv. apply Hv. clear Hv.
      rewrite <- Hs'. rewrite <- H. unfold src_at.
      rewrite N.add_0_l, Nnat.Nat2N.id. rewrite (nth_error_nth _ _ _ Hn). tauto. }
    intros j j' [s E] [s' E'] H.
    destruct (N.lt_total j j') as [L|[L|L]]; auto.
    - exfalso. apply (Hlt j j' s s' E E' H L).
    - exfalso. apply (Hlt j' j s' s E' E); auto. intros v. symmetry. apply H.
  Qed.

  Definition canon_letter (t : tl) : Prop :=
    match t with TLeaf _ => True | TSub j _ => canonical j end.

  Lemma rel_inj : forall t t' it, canon_letter t -> canon_letter t' -> rel t it -> rel t' it -> t = t'.
  Proof.
    intros t t' it C C' R R'. unfold rel in *.
    pose proof (item_equiv_trans _ _ _ R (item_equiv_sym _ _ R')) as E.
    destruct t as [a|j l], t' as [a'|j' l']; simpl in E; try tauto.
    - congruence.
    - destruct E as [-> E]. f_equal. apply canonical_inj; auto.
  Qed.

  Lemma top_lab_ok : forall x t, top_lab fuel cd srcs x = Some t ->
    item_equiv (sem t) (item_of_inp cd x) /\ canon_letter t.
  Proof.
    intros x t E. destruct x; simpl in E; try (inversion E; subst; simpl; split; auto; reflexivity).
    destruct (class_of fuel srcs (SD (sub_dfa cd sub))) as [j|] eqn:Ec; [|discriminate].
    simpl in E. inversion E; subst. simpl. split.
    - split; [reflexivity|]. apply (class_of_spec _ _ Ec).
    - exists (SD (sub_dfa cd sub)). exact Ec.
  Qed.

  Lemma tleaf_ok : forall e r, is_leaf e = true -> ttrl fuel srcs e = Some r ->
    forall w, tleaf e w <-> img item tl rel r w.
  Proof.
    intros e r _ E w.
    assert (Hgen : forall b X, item_equiv (sem b) X ->
                   ((exists it, w = [it] /\ item_equiv it X) <-> img item tl rel (Sym b) w)).
    { intros b X HX. rewrite img_sym. unfold rel. split; intros [it [-> H]]; exists it; split; auto.
      - eapply item_equiv_trans; [exact HX|apply item_equiv_sym; exact H].
      - eapply item_equiv_trans; [apply item_equiv_sym; exact H|exact HX]. }
    destruct e; simpl in E; unfold tleaf;
      try (injection E as <-; rewrite img_emp; split; [intros [it [_ []]] | tauto]).
    - inversion E; subst. apply Hgen. apply item_equiv_refl.
    - inversion E; subst. apply Hgen. apply item_equiv_refl.
    - inversion E; subst. apply Hgen. apply item_equiv_refl.
    - destruct (class_of fuel srcs (SE e)) as [j|] eqn:Ec; [|discriminate].
      simpl in E. inversion E; subst. apply Hgen. simpl. split; [reflexivity|].
      apply (class_of_spec _ _ Ec).
  Qed.

  Lemma ttrl_canon : forall e r, ttrl fuel srcs e = Some r ->
    Forall canon_letter (syms tl r).
  Proof.
    intros e r E. destruct e; simpl in E; try (inversion E; subst; simpl; repeat constructor).
    destruct (class_of fuel srcs (SE e)) as [j|] eqn:Ec; [|discriminate].
    simpl in E. inversion E; subst. simpl. constructor; [|constructor]. exists (SE e). exact Ec.
  Qed.

  Lemma tr_canon : forall e r, tr tl (ttrl fuel srcs) e = Some r -> Forall canon_letter (syms tl r).
  Proof.
    assert (Hseq : forall cs, Forall (fun e => forall r, tr tl (ttrl fuel srcs) e = Some r ->
                                                  Forall canon_letter (syms tl r)) cs ->
                   forall r, tr_seq tl (ttrl fuel srcs) cs = Some r -> Forall canon_letter (syms tl r)).
    { intros cs HF. induction HF as [|c cs Hc HF IH]; simpl; intros r E.
      - inversion E; subst. constructor.
      - destruct (tr tl (ttrl fuel srcs) c) as [x|] eqn:Ex; [|discriminate].
        destruct (tr_seq tl (ttrl fuel srcs) cs) as [y|] eqn:Ey; [|discriminate].
        inversion E; subst. simpl. apply Forall_app. split; auto. }
    assert (Halt : forall cs, Forall (fun e => forall r, tr tl (ttrl fuel srcs) e = Some r ->
                                                  Forall canon_letter (syms tl r)) cs ->
                   forall r, tr_alt tl (ttrl fuel srcs) cs = Some r -> Forall canon_letter (syms tl r)).
    { intros cs HF. induction HF as [|c cs Hc HF IH]; simpl; intros r E.
      - inversion E; subst. constructor.
      - destruct (tr tl (ttrl fuel srcs) c) as [x|] eqn:Ex; [|discriminate].
        destruct (tr_alt tl (ttrl fuel srcs) cs) as [y|] eqn:Ey; [|discriminate].
        inversion E; subst. simpl. apply Forall_app. split; auto. }
    induction e using expr_ind'; intros r E.
    - eapply ttrl_canon; exact E.
    - eapply ttrl_canon; exact E.
    - eapply ttrl_canon; exact E.
    - rewrite tr_sequence in E. eapply Hseq; eauto.
    - rewrite tr_alternative in E. eapply Halt; eauto.
    - simpl in E. destruct (tr tl (ttrl fuel srcs) e) as [x|] eqn:Ex; [|discriminate].
      inversion E; subst. simpl. auto.
    - simpl in E. destruct (tr tl (ttrl fuel srcs) e) as [x|] eqn:Ex; [|discriminate].
      inversion E; subst. simpl. auto.
    - simpl in E. inversion E; subst. constructor.
    - rewrite tr_fallback in E. eapply Halt; eauto.
    - eapply ttrl_canon; exact E.
  Qed.

  Lemma all_some_nth : forall {A} (l : list (option A)) i o,
    all_some l = true -> nthN l i = Some o -> exists a, o = Some a.
  Proof.
    intros A l i o H E. unfold nthN in E. revert E. generalize (N.to_nat i). clear i.
    induction l as [|[a|] l IH]; intros [|n] E; simpl in *; try discriminate.
    - inversion E; subst. eauto.
    - eapply IH; eauto.
  Qed.

  Notation main := (c_main cd).
  Notation labs := (map (top_lab fuel cd srcs) (d_inputs main)).

  Lemma accepts_items_img : all_some labs = true ->
    forall w, accepts_items cd w <->
              exists v, lab_accepts tl main labs v /\ Forall2 rel v w.
  Proof.
    intros Hall w.
    change (accepts_items cd w <->
            limg rel (limg (fun i b => nthN labs i = Some (Some b)) (fun ids => accepts main ids = true)) w).
    rewrite limg_limg. apply limg_ext; [|tauto]. intros i it. rewrite nthN_map. split.
    - intros [x [Hx Hit]].
      assert (Hl : nthN labs i = Some (top_lab fuel cd srcs x)) by (rewrite nthN_map, Hx; reflexivity).
      destruct (all_some_nth _ _ _ Hall Hl) as [t Ht]. exists t. rewrite Hx. cbn. rewrite Ht.
      split; [reflexivity|]. exact (item_equiv_trans _ _ _ (proj1 (top_lab_ok _ _ Ht)) Hit).
    - intros [t [Hi R]]. destruct (nthN (d_inputs main) i) as [x|]; [|discriminate].
      cbn in Hi. injection Hi as Ht. exists x. split; [reflexivity|].
      exact (item_equiv_trans _ _ _ (item_equiv_sym _ _ (proj1 (top_lab_ok _ _ Ht))) R).
  Qed.

  Lemma labs_canon : forall b, In b (lab_letters labs) -> canon_letter b.
  Proof.
    intros b H. unfold lab_letters in H. apply in_flat_map in H. destruct H as [o [Ho Hb]].
    destruct o as [t|]; [|destruct Hb]. destruct Hb as [<-|[]].
    apply in_map_iff in Ho. destruct Ho as [x [Ex _]]. apply (top_lab_ok _ _ Ex).
  Qed.
End TopFacts.

Theorem judge_sound : forall fuel cd e,
  equiv_dfa_expr fuel cd e = Equal ->
  forall w, accepts_items cd w <-> denotes e w.
Proof.
  intros fuel cd e E w. unfold equiv_dfa_expr in E.
  set (srcs := sources cd e) in *.
  set (labs := map (top_lab fuel cd srcs) (d_inputs (c_main cd))) in *.
  destruct (all_some labs) eqn:Hall; [|discriminate].
  destruct (tr tl (ttrl fuel srcs) e) as [r|] eqn:Er; [|discriminate].
  pose proof (equiv_nfa_equal tl _ _ _ (dfa_nfa_eqb tl tl_eqb (c_main cd) labs)
                (re_nfa_eqb tl tl_eqb tl_eqb_spec r) fuel E) as HE.
  assert (HL : forall v, lab_accepts tl (c_main cd) labs v <-> Lre r v).
  { intros v. split; intros H.
    - apply (re_nfa_lang tl tl_eqb tl_eqb_spec). apply HE.
      + apply Forall_incl_app_l. eapply lab_accepts_letters; exact H.
      + apply (dfa_nfa_lang tl tl_eqb tl_eqb_spec). exact H.
    - apply (dfa_nfa_lang tl tl_eqb tl_eqb_spec). apply HE.
      + apply Forall_incl_app_r. apply (Lre_syms tl). exact H.
      + apply (re_nfa_lang tl tl_eqb tl_eqb_spec). exact H. }
  rewrite (accepts_items_img fuel cd srcs Hall w).
  unfold denotes. rewrite (tr_den item tl tleaf (ttrl fuel srcs) (rel srcs) (tleaf_ok fuel srcs) e r Er w).
  unfold img. split; intros [v [H F]]; exists v; split; auto; apply HL; auto.
Qed.

Lemma rel_unique : forall fuel srcs (P : tl -> Prop),
  (forall b, P b -> canon_letter fuel srcs b) ->
  forall v v' w, Forall P v -> Forall P v' ->
  Forall2 (rel srcs) v w -> Forall2 (rel srcs) v' w -> v' = v.
Proof.
  intros fuel srcs P HP v v' w Hv Hv' F. revert v' Hv'.
  induction F as [|b it v w R F IH]; intros v' Hv' F'.
  - inversion F'. reflexivity.
  - inversion F' as [|b' ? v'' ? R' F'']; subst.
    inversion Hv; subst. inversion Hv'; subst. f_equal.
    + eapply rel_inj; eauto.
    + apply IH; auto.
Qed.

(** A returned word distinguishes: reading every letter as the item it stands for gives an item
    word on which the automaton and the tree disagree. *)
Theorem judge_differ : forall fuel cd e v,
  equiv_dfa_expr fuel cd e = Differ v ->
  let w := map (sem (sources cd e)) v in
  ~ (accepts_items cd w <-> denotes e w).
Proof.
  intros fuel cd e v E w. unfold equiv_dfa_expr in E.
  set (srcs := sources cd e) in *.
  set (labs := map (top_lab fuel cd srcs) (d_inputs (c_main cd))) in *.
  destruct (all_some labs) eqn:Hall; [|discriminate].
  destruct (tr tl (ttrl fuel srcs) e) as [r|] eqn:Er; [|discriminate].
  destruct (equiv_nfa_differ tl _ _ _ (dfa_nfa_eqb tl tl_eqb (c_main cd) labs)
              (re_nfa_eqb tl tl_eqb tl_eqb_spec r) fuel v E) as [HD HV].
  rewrite (dfa_nfa_lang tl tl_eqb tl_eqb_spec), (re_nfa_lang tl tl_eqb tl_eqb_spec) in HD.
  assert (Hcanon : forall b, In b (lab_letters labs ++ syms tl r) -> canon_letter fuel srcs b).
  { intros b Hb. apply in_app_iff in Hb. destruct Hb as [Hb|Hb].
    - apply (labs_canon fuel cd srcs). exact Hb.
    - pose proof (tr_canon fuel srcs e r Er) as HF. rewrite Forall_forall in HF. auto. }
  assert (Hvw : Forall2 (rel srcs) v w).
  { subst w. clear. induction v; simpl; constructor; auto. apply item_equiv_refl. }
  assert (Huniq : forall v', Forall (fun b => In b (lab_letters labs ++ syms tl r)) v' ->
                  Forall2 (rel srcs) v' w -> v' = v).
  { intros v' Hv' F. apply (rel_unique fuel srcs _ Hcanon v v' w); auto. }
  intros H. apply HD.
  rewrite (accepts_items_img fuel cd srcs Hall w) in H.
  unfold denotes in H.
  rewrite (tr_den item tl tleaf (ttrl fuel srcs) (rel srcs) (tleaf_ok fuel srcs) e r Er w) in H.
  unfold img in H. split; intros Hv.
  - destruct (proj1 H (ex_intro _ v (conj Hv Hvw))) as [v' [H1 H2]].
    rewrite <- (Huniq v'); auto. apply Forall_incl_app_r. apply (Lre_syms tl). exact H1.
  - destruct (proj2 H (ex_intro _ v (conj Hv Hvw))) as [v' [H1 H2]].
    rewrite <- (Huniq v'); auto. apply Forall_incl_app_l. eapply lab_accepts_letters; exact H1.
Qed.
