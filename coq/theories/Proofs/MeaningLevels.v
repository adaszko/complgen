(** "|| behaves exactly like | when matching" at the level of the specification: which command
    lines [Spec.Meaning] matches does not depend on the || levels the leaves carry, hence not on
    whether the grammar was written with [||] or with [|].

    [erase] sets every level to 0 and drops every description (inside within-word expressions
    too).  [rel] relates a state with its erased image; [rel_step] shows that reading a word
    preserves the relation, because the rule [chosen] never looks at a level.  On trees
    ([matched_bar_of_barbar], [expected_bar_of_barbar]): [Check.propagate] changes levels only and
    the translation of [Fallback] is that of [Alternative].  The unfoldings [tr_seq] .. [trw_fb] and
    the leaf lemmas [tr_leaves], [trw_leaves] serve other files too. *)
From CG Require Import Base.Prelude Base.Facts Proofs.ListFacts Model.Ast Model.Check Spec.Rx Spec.Meaning
     Proofs.RxFacts Proofs.MeaningFacts.
From CG Require Proofs.CheckLemmas.

Definition erase_w (a : wleaf) : wleaf :=
  match a with
  | WLit t _ _ => WLit t None 0
  | WCmd c _ => WCmd c 0
  | WAny => WAny
  end.

Definition erase_l (a : leaf) : leaf :=
  match a with
  | LLit t _ _ => LLit t None 0
  | LCmd c _ => LCmd c 0
  | LAny => LAny
  | LSub x _ => LSub (rmap erase_w x) 0
  end.

Definition erase (r : rx leaf) : rx leaf := rmap erase_l r.

Lemma wconsume_erase en a r : wconsume en (erase_w a) r = wconsume en a r.
Proof. destruct a; reflexivity. Qed.

Definition erase_split (s : rx wleaf * string * string) : rx wleaf * string * string :=
  (rmap erase_w (fst (fst s)), snd (fst s), snd s).

Lemma wsplits_erase en : forall fuel e d r,
    wsplits en fuel (rmap erase_w e) d r = map erase_split (wsplits en fuel e d r).
Proof.
  induction fuel as [| f IH]; intros e d r; cbn [wsplits map]; [reflexivity |].
  unfold erase_split at 1. cbn [fst snd]. f_equal.
  rewrite rmap_lf, flat_map_map, map_flat_map.
  apply flat_map_ext. intros [a k]. cbn [fst snd].
  rewrite wconsume_erase, map_flat_map.
  apply flat_map_ext. intros [t r']. cbn [fst snd]. apply IH.
Qed.

Lemma waccepts_erase en e w : waccepts en (rmap erase_w e) w = waccepts en e w.
Proof.
  unfold waccepts, wsplits_of. rewrite wsplits_erase, existsb_map.
  induction (wsplits en (String.length w) e EmptyString w) as [| [[e' d] r] l IH]; [reflexivity |].
  cbn [existsb]. rewrite IH. unfold erase_split. cbn [fst snd]. rewrite rmap_nullable. reflexivity.
Qed.

Lemma mid_accepts_erase en a w : mid_accepts en (erase_l a) w = mid_accepts en a w.
Proof. destruct a; cbn [erase_l mid_accepts]; try reflexivity. apply waccepts_erase. Qed.

Definition erase_move (ak : leaf * rx leaf) : leaf * rx leaf := (erase_l (fst ak), erase (snd ak)).

Lemma lf_erase r : lf (erase r) = map erase_move (lf r).
Proof. unfold erase. rewrite rmap_lf. reflexivity. Qed.

(** [s'] is the erased image of [s], as sets. *)
Definition rel (s s' : state) : Prop := forall k', In k' s' <-> exists k, In k s /\ erase k = k'.

Lemma rel_moves s s' : rel s s' ->
  forall ak', In ak' (moves s') <-> exists ak, In ak (moves s) /\ erase_move ak = ak'.
Proof.
  intros R [a' k']. rewrite moves_In. split.
  - intros [r' [Hr' Hlf]]. apply R in Hr'. destruct Hr' as [r [Hr <-]].
    rewrite lf_erase in Hlf. apply in_map_iff in Hlf. destruct Hlf as [ak [E Hin]].
    exists ak. split; [| assumption]. destruct ak as [a k]. apply moves_In. exists r. split; assumption.
  - intros [[a k] [Hin E]]. apply moves_In in Hin. destruct Hin as [r [Hr Hlf]].
    exists (erase r). split.
    + apply R. exists r. split; [assumption | reflexivity].
    + rewrite lf_erase. apply in_map_iff. exists (a, k). split; assumption.
Qed.

Lemma erase_l_lit a w d l : erase_l a = LLit w d l -> exists d0 l0, a = LLit w d0 l0.
Proof. destruct a; cbn; intro H; inversion H; subst. eauto. Qed.

Section Rel.
  Variable en : env.
  Variables s s' : state.
  Hypothesis R : rel s s'.

  Lemma lit_expected_erase w : lit_expected (moves s') w <-> lit_expected (moves s) w.
  Proof.
    split.
    - intros [d [l [k' Hin]]]. apply (rel_moves _ _ R) in Hin. destruct Hin as [[a k] [Hin E]].
      unfold erase_move in E. cbn [fst snd] in E. inversion E as [[Ea Ek]].
      apply erase_l_lit in Ea. destruct Ea as [d0 [l0 ->]]. exists d0, l0, k. assumption.
    - intros [d [l [k Hin]]]. exists None, 0, (erase k).
      apply (rel_moves _ _ R). exists (LLit w d l, k). split; [assumption | reflexivity].
  Qed.

  Lemma mid_expected_erase w : mid_expected en (moves s') w <-> mid_expected en (moves s) w.
  Proof.
    split.
    - intros [a' [k' [Hin Ha]]]. apply (rel_moves _ _ R) in Hin. destruct Hin as [[a k] [Hin E]].
      unfold erase_move in E. cbn [fst snd] in E. inversion E; subst.
      rewrite mid_accepts_erase in Ha. exists a, k. split; assumption.
    - intros [a [k [Hin Ha]]]. exists (erase_l a), (erase k). split.
      + apply (rel_moves _ _ R). exists (a, k). split; [assumption | reflexivity].
      + rewrite mid_accepts_erase. assumption.
  Qed.

  Lemma chosen_erase w a : chosen en (moves s') w (erase_l a) <-> chosen en (moves s) w a.
  Proof.
    destruct a; cbn [erase_l chosen].
    - reflexivity.
    - rewrite lit_expected_erase. reflexivity.
    - rewrite lit_expected_erase, mid_expected_erase. reflexivity.
    - change (mid_accepts en (LSub (rmap erase_w w0) 0) w) with (mid_accepts en (erase_l (LSub w0 lvl)) w).
      rewrite mid_accepts_erase, lit_expected_erase. reflexivity.
  Qed.

  Lemma rel_step w : rel (step en s w) (step en s' w).
  Proof.
    intro k'. rewrite step_spec. split.
    - intros [a' [Hin Hc]]. apply (rel_moves _ _ R) in Hin. destruct Hin as [[a k] [Hin E]].
      unfold erase_move in E. cbn [fst snd] in E. inversion E; subst.
      exists k. split; [| reflexivity]. apply step_spec. exists a. split; [assumption |].
      apply chosen_erase. assumption.
    - intros [k [Hin <-]]. apply step_spec in Hin. destruct Hin as [a [Hin Hc]].
      exists (erase_l a). split.
      + apply (rel_moves _ _ R). exists (a, k). split; [assumption | reflexivity].
      + apply chosen_erase. assumption.
  Qed.

  Lemma rel_nil : s = [] <-> s' = [].
  Proof.
    split; intro E.
    - destruct s' as [| k' r']; [reflexivity |]. exfalso.
      assert (H : In k' (k' :: r')) by (left; reflexivity).
      apply R in H. destruct H as [k [Hin _]]. rewrite E in Hin. destruct Hin.
    - destruct s as [| k r]; [reflexivity |]. exfalso.
      assert (H : In (erase k) s'). { apply R. exists k. split; [left; reflexivity | reflexivity]. }
      rewrite E in H. destruct H.
  Qed.
End Rel.

Lemma rel_run en : forall ws s s', rel s s' -> rel (run en s ws) (run en s' ws).
Proof.
  induction ws as [| w ws IH]; intros s s' R; [assumption |].
  cbn [run fold_left]. apply (IH (step en s w) (step en s' w)). apply rel_step. assumption.
Qed.

Lemma rel_start r : rel [r] [erase r].
Proof.
  intro k'. split.
  - intros [<- | []]. exists r. split; [left; reflexivity | reflexivity].
  - intros [k [[<- | []] <-]]. left; reflexivity.
Qed.

Definition matched_rx (en : env) (r : rx leaf) (ws : list string) : bool :=
  match run en [r] ws with [] => false | _ :: _ => true end.

Theorem matched_rx_erase en r ws : matched_rx en (erase r) ws = matched_rx en r ws.
Proof.
  unfold matched_rx.
  pose proof (rel_run en ws _ _ (rel_start r)) as R. apply rel_nil in R.
  destruct (run en [r] ws) eqn:E1; destruct (run en [erase r] ws) eqn:E2; try reflexivity.
  - destruct R as [R _]. specialize (R eq_refl). discriminate.
  - destruct R as [_ R]. specialize (R eq_refl). discriminate.
Qed.

Theorem expected_erase en r ws a' :
  In a' (map fst (moves (run en [erase r] ws)))
  <-> exists a, In a (map fst (moves (run en [r] ws))) /\ erase_l a = a'.
Proof.
  pose proof (rel_run en ws _ _ (rel_start r)) as R.
  rewrite in_map_iff. split.
  - intros [[a1 k1] [E Hin]]. cbn [fst] in E. subst a1.
    apply (rel_moves _ _ R) in Hin. destruct Hin as [[a k] [Hin E]].
    unfold erase_move in E. cbn [fst snd] in E. inversion E; subst.
    exists a. split; [| reflexivity]. apply in_map_iff. exists (a, k). split; [reflexivity | assumption].
  - intros [a [Hin <-]]. apply in_map_iff in Hin. destruct Hin as [[a1 k] [E Hin]]. cbn [fst] in E. subst a1.
    exists (erase_l a, erase k). split; [reflexivity |].
    apply (rel_moves _ _ R). exists (a, k). split; [assumption | reflexivity].
Qed.

Fixpoint bar_of_barbar (e : expr) : expr :=
  match e with
  | Terminal _ _ _ _ | NontermRef _ _ _ | Command _ _ _ _ => e
  | Sequence cs sp => Sequence (map bar_of_barbar cs) sp
  | Alternative cs sp => Alternative (map bar_of_barbar cs) sp
  | Fallback cs sp => Alternative (map bar_of_barbar cs) sp
  | Optional c sp => Optional (bar_of_barbar c) sp
  | Many1 c sp => Many1 (bar_of_barbar c) sp
  | DistDescr c d sp => DistDescr (bar_of_barbar c) d sp
  | Subword c l sp => Subword (bar_of_barbar c) l sp
  end.

Lemma tr_seq cs sp : tr (Sequence cs sp) = fold_right cat Eps (map tr cs).
Proof. cbn [tr]. induction cs as [| c r IH]; [reflexivity | cbn [map fold_right]; rewrite <- IH; reflexivity]. Qed.
Lemma tr_alt cs sp : tr (Alternative cs sp) = fold_right alt Zero (map tr cs).
Proof. cbn [tr]. induction cs as [| c r IH]; [reflexivity | cbn [map fold_right]; rewrite <- IH; reflexivity]. Qed.
Lemma tr_fb cs sp : tr (Fallback cs sp) = fold_right alt Zero (map tr cs).
Proof. cbn [tr]. induction cs as [| c r IH]; [reflexivity | cbn [map fold_right]; rewrite <- IH; reflexivity]. Qed.
Lemma trw_seq cs sp : trw (Sequence cs sp) = fold_right cat Eps (map trw cs).
Proof. cbn [trw]. induction cs as [| c r IH]; [reflexivity | cbn [map fold_right]; rewrite <- IH; reflexivity]. Qed.
Lemma trw_alt cs sp : trw (Alternative cs sp) = fold_right alt Zero (map trw cs).
Proof. cbn [trw]. induction cs as [| c r IH]; [reflexivity | cbn [map fold_right]; rewrite <- IH; reflexivity]. Qed.
Lemma trw_fb cs sp : trw (Fallback cs sp) = fold_right alt Zero (map trw cs).
Proof. cbn [trw]. induction cs as [| c r IH]; [reflexivity | cbn [map fold_right]; rewrite <- IH; reflexivity]. Qed.

(** A property [Q] of the leaves of the translation, from a property [P] of trees that is passed on
    to the children. *)
Lemma tr_leaves (P : expr -> bool) (Q : leaf -> Prop) :
  (forall e, P e = true ->
     match e with
     | Terminal t d l _ => Q (LLit t d l)
     | NontermRef _ _ _ => Q LAny
     | Command c _ l _ => Q (LCmd c l)
     | Subword c l _ => Q (LSub (trw c) l)
     | Sequence cs _ | Alternative cs _ | Fallback cs _ => forallb P cs = true
     | Optional c _ | Many1 c _ | DistDescr c _ _ => P c = true
     end) ->
  forall e, P e = true -> forall a, In a (leaves (tr e)) -> Q a.
Proof.
  intro Hstep. induction e using expr_ind'; intros Hp a Ha; pose proof (Hstep _ Hp) as Hs; cbn beta iota in Hs.
  - cbn in Ha. destruct Ha as [<- | []]. exact Hs.
  - cbn in Ha. destruct Ha as [<- | []]. exact Hs.
  - cbn in Ha. destruct Ha as [<- | []]. exact Hs.
  - rewrite tr_seq in Ha. apply leaves_fold_cat in Ha. destruct Ha as [r [Hr Ha]].
    apply in_map_iff in Hr. destruct Hr as [c [<- Hc]].
    rewrite Forall_forall in H. rewrite forallb_forall in Hs. apply (H c Hc (Hs c Hc) a Ha).
  - rewrite tr_alt in Ha. apply leaves_fold_alt in Ha. destruct Ha as [r [Hr Ha]].
    apply in_map_iff in Hr. destruct Hr as [c [<- Hc]].
    rewrite Forall_forall in H. rewrite forallb_forall in Hs. apply (H c Hc (Hs c Hc) a Ha).
  - cbn [tr leaves] in Ha. rewrite app_nil_r in Ha. apply (IHe Hs a Ha).
  - cbn [tr leaves] in Ha. apply (IHe Hs a Ha).
  - cbn [tr] in Ha. apply (IHe Hs a Ha).
  - rewrite tr_fb in Ha. apply leaves_fold_alt in Ha. destruct Ha as [r [Hr Ha]].
    apply in_map_iff in Hr. destruct Hr as [c [<- Hc]].
    rewrite Forall_forall in H. rewrite forallb_forall in Hs. apply (H c Hc (Hs c Hc) a Ha).
  - cbn in Ha. destruct Ha as [<- | []]. exact Hs.
Qed.

Lemma trw_leaves (P : expr -> bool) (Q : wleaf -> Prop) :
  (forall e, P e = true ->
     match e with
     | Terminal t d l _ => Q (WLit t d l)
     | NontermRef _ _ _ => Q WAny
     | Command c _ l _ => Q (WCmd c l)
     | Sequence cs _ | Alternative cs _ | Fallback cs _ => forallb P cs = true
     | Optional c _ | Many1 c _ | DistDescr c _ _ | Subword c _ _ => P c = true
     end) ->
  forall e, P e = true -> forall b, In b (leaves (trw e)) -> Q b.
Proof.
  intro Hstep. induction e using expr_ind'; intros Hp a Ha; pose proof (Hstep _ Hp) as Hs; cbn beta iota in Hs.
  - cbn in Ha. destruct Ha as [<- | []]. exact Hs.
  - cbn in Ha. destruct Ha as [<- | []]. exact Hs.
  - cbn in Ha. destruct Ha as [<- | []]. exact Hs.
  - rewrite trw_seq in Ha. apply leaves_fold_cat in Ha. destruct Ha as [r [Hr Ha]].
    apply in_map_iff in Hr. destruct Hr as [c [<- Hc]].
    rewrite Forall_forall in H. rewrite forallb_forall in Hs. apply (H c Hc (Hs c Hc) a Ha).
  - rewrite trw_alt in Ha. apply leaves_fold_alt in Ha. destruct Ha as [r [Hr Ha]].
    apply in_map_iff in Hr. destruct Hr as [c [<- Hc]].
    rewrite Forall_forall in H. rewrite forallb_forall in Hs. apply (H c Hc (Hs c Hc) a Ha).
  - cbn [trw leaves] in Ha. rewrite app_nil_r in Ha. apply (IHe Hs a Ha).
  - cbn [trw leaves] in Ha. apply (IHe Hs a Ha).
  - cbn [trw] in Ha. apply (IHe Hs a Ha).
  - rewrite trw_fb in Ha. apply leaves_fold_alt in Ha. destruct Ha as [r [Hr Ha]].
    apply in_map_iff in Hr. destruct Hr as [c [<- Hc]].
    rewrite Forall_forall in H. rewrite forallb_forall in Hs. apply (H c Hc (Hs c Hc) a Ha).
  - cbn [trw] in Ha. apply (IHe Hs a Ha).
Qed.

(** The translation does not distinguish [||] from [|]. *)
Lemma tr_bar e : tr (bar_of_barbar e) = tr e /\ trw (bar_of_barbar e) = trw e.
Proof.
  induction e using expr_ind'; cbn [bar_of_barbar]; try (split; reflexivity).
  - rewrite !tr_seq, !trw_seq, !map_map. split; f_equal; apply map_ext_Forall;
      (eapply Forall_impl; [| eassumption]); cbn; intros a [H1 H2]; assumption.
  - rewrite !tr_alt, !trw_alt, !map_map. split; f_equal; apply map_ext_Forall;
      (eapply Forall_impl; [| eassumption]); cbn; intros a [H1 H2]; assumption.
  - destruct IHe as [H1 H2]. cbn [tr trw]. rewrite H1, H2. split; reflexivity.
  - destruct IHe as [H1 H2]. cbn [tr trw]. rewrite H1, H2. split; reflexivity.
  - destruct IHe as [H1 H2]. cbn [tr trw]. split; assumption.
  - rewrite tr_alt, trw_alt, tr_fb, trw_fb, !map_map. split; f_equal; apply map_ext_Forall;
      (eapply Forall_impl; [| eassumption]); cbn; intros a [H1 H2]; assumption.
  - destruct IHe as [H1 H2]. cbn [tr trw]. rewrite H2. split; reflexivity.
Qed.

Definition erase_ww (r : rx wleaf) : rx wleaf := rmap erase_w r.

Lemma erase_fold_cat (l : list (rx leaf)) :
  erase (fold_right cat Eps l) = fold_right cat Eps (map erase l).
Proof. unfold erase. induction l as [| r l IH]; [reflexivity |]. cbn [fold_right map]. rewrite rmap_cat, IH. reflexivity. Qed.
Lemma erase_fold_alt (l : list (rx leaf)) :
  erase (fold_right alt Zero l) = fold_right alt Zero (map erase l).
Proof. unfold erase. induction l as [| r l IH]; [reflexivity |]. cbn [fold_right map]. rewrite rmap_alt, IH. reflexivity. Qed.
Lemma erase_ww_fold_cat (l : list (rx wleaf)) :
  erase_ww (fold_right cat Eps l) = fold_right cat Eps (map erase_ww l).
Proof. unfold erase_ww. induction l as [| r l IH]; [reflexivity |]. cbn [fold_right map]. rewrite rmap_cat, IH. reflexivity. Qed.
Lemma erase_ww_fold_alt (l : list (rx wleaf)) :
  erase_ww (fold_right alt Zero l) = fold_right alt Zero (map erase_ww l).
Proof. unfold erase_ww. induction l as [| r l IH]; [reflexivity |]. cbn [fold_right map]. rewrite rmap_alt, IH. reflexivity. Qed.

(** Levels are the only thing [Check.propagate] changes. *)
Lemma erase_propagate e :
  (forall l, erase (tr (propagate e l)) = erase (tr e))
  /\ (forall l, erase_ww (trw (propagate e l)) = erase_ww (trw e)).
Proof.
  induction e using expr_ind'.
  - split; intro l0; reflexivity.
  - split; intro l0; reflexivity.
  - split; intro l0; reflexivity.
  - split; intro l0; cbn [propagate].
    + rewrite !tr_seq, !erase_fold_cat, !map_map. f_equal. apply map_ext_Forall.
      eapply Forall_impl; [| eassumption]. cbn. intros a [H1 H2]. apply H1.
    + rewrite !trw_seq, !erase_ww_fold_cat, !map_map. f_equal. apply map_ext_Forall.
      eapply Forall_impl; [| eassumption]. cbn. intros a [H1 H2]. apply H2.
  - split; intro l0; cbn [propagate].
    + rewrite !tr_alt, !erase_fold_alt, !map_map. f_equal. apply map_ext_Forall.
      eapply Forall_impl; [| eassumption]. cbn. intros a [H1 H2]. apply H1.
    + rewrite !trw_alt, !erase_ww_fold_alt, !map_map. f_equal. apply map_ext_Forall.
      eapply Forall_impl; [| eassumption]. cbn. intros a [H1 H2]. apply H2.
  - destruct IHe as [H1 H2]. split; intro l0; cbn [propagate tr trw erase erase_ww rmap].
    + f_equal. apply H1.
    + f_equal. apply H2.
  - destruct IHe as [H1 H2]. split; intro l0; cbn [propagate tr trw erase erase_ww rmap].
    + f_equal. apply H1.
    + f_equal. apply H2.
  - destruct IHe as [H1 H2]. split; intro l0; cbn [propagate tr trw]; [apply H1 | apply H2].
  - split; intro l0; rewrite CheckLemmas.propagate_fb.
    + rewrite !tr_fb, !erase_fold_alt, !map_map. f_equal.
      generalize 0 as i. induction H as [| c r Hc Hr IH]; intro i; [reflexivity |].
      cbn [CheckLemmas.propagate_list map]. f_equal; [apply Hc | apply IH].
    + rewrite !trw_fb, !erase_ww_fold_alt, !map_map. f_equal.
      generalize 0 as i. induction H as [| c r Hc Hr IH]; intro i; [reflexivity |].
      cbn [CheckLemmas.propagate_list map]. f_equal; [apply Hc | apply IH].
  - destruct IHe as [H1 H2]. split; intro l0; cbn [propagate tr trw].
    + cbn [erase rmap erase_l]. f_equal. f_equal. apply H2.
    + apply H2.
Qed.

Lemma matched_as_rx en e ws : matched en e ws = matched_rx en (tr e) ws.
Proof. reflexivity. Qed.

(** Replacing every [||] by [|] before the levels are assigned never changes which command
    lines are matched ... *)
Theorem matched_bar_of_barbar en e ws :
  matched en (propagate (bar_of_barbar e) 0) ws = matched en (propagate e 0) ws.
Proof.
  rewrite !matched_as_rx.
  rewrite <- (matched_rx_erase en (tr (propagate (bar_of_barbar e) 0))).
  rewrite <- (matched_rx_erase en (tr (propagate e 0))).
  destruct (erase_propagate (bar_of_barbar e)) as [H1 _].
  destruct (erase_propagate e) as [H2 _].
  rewrite H1, H2. destruct (tr_bar e) as [H3 _]. rewrite H3. reflexivity.
Qed.

(** ... nor, up to levels, what may follow them. *)
Theorem expected_bar_of_barbar en e ws a0 :
  (exists a, In a (map fst (moves (run en (start (propagate (bar_of_barbar e) 0)) ws))) /\ erase_l a = a0)
  <-> (exists a, In a (map fst (moves (run en (start (propagate e 0)) ws))) /\ erase_l a = a0).
Proof.
  unfold start. rewrite <- !expected_erase.
  destruct (erase_propagate (bar_of_barbar e)) as [H1 _].
  destruct (erase_propagate e) as [H2 _].
  rewrite H1, H2. destruct (tr_bar e) as [H3 _]. rewrite H3. reflexivity.
Qed.
