(** Correctness of the model of [do_minimize] on the automata [dfa_from_regex] produces
    (well-formed, trim): the result accepts the same words, is trim, has pairwise
    distinguishable states, hence has the size of the minimal automaton (Props/C03.v).
    The idea: representative of the block, then renumbering ([phi]), is a morphism from the
    raw automaton onto the result ([F1], [F23], [F4], [m_states]); the three conclusions are
    those of the morphism lemmas of Proofs/DfaEquivProofs.v. *)
From CG Require Import Base.Prelude Base.Facts Model.Dfa Model.Minimize Spec.DfaEquiv Spec.MinimizeSpec
  Proofs.ListFacts Proofs.MinimizeBasics Proofs.MinimizeImage Proofs.HopcroftAbs Proofs.HopcroftSim Proofs.HopcroftLoop
  Proofs.MinimizePostGen.
From CG Require Import Proofs.DfaEquivProofs.

Section Correct.
  Variable d : dfa.
  Hypothesis W : wf d.
  Hypothesis TR : trim d.

  Let U := universe d.
  Let st (x : N) : Prop := In x (states d).

  Lemma st_coreach_cases x :
    st x -> is_accepting d x = true \/ exists j y, step d x j = Some y.
  Proof.
    intro H. destruct (proj2 TR x H) as [w Hw]. destruct w as [|j w].
    - left. exact Hw.
    - right. unfold accepts_from in Hw. cbn [run] in Hw.
      destruct (step d x j) as [y|] eqn:E; [eauto|discriminate].
  Qed.

  Lemma st_universe x : st x -> In x U /\ x <> 0.
  Proof.
    intro H. split.
    - apply universe_In. destruct (st_coreach_cases x H) as [A|[j [y E]]].
      + right. apply is_accepting_In, A.
      + left. apply all_states_In. right. apply (step_iter d W) in E.
        exists (mktr x y j). split; [exact E|]. left. reflexivity.
    - intros ->. apply (wf_nozero _ W). exact H.
  Qed.

  Lemma run_snoc s0 w j x :
    run d s0 (w ++ [j]) = Some x -> exists p, run d s0 w = Some p /\ step d p j = Some x.
  Proof.
    rewrite run_app. destruct (run d s0 w) as [p|]; [|discriminate].
    cbn [run]. destruct (step d p j) as [y|] eqn:E; [|discriminate]. intro H. inversion H; subst. eauto.
  Qed.

  Lemma st_reach_cases x :
    st x -> x = d_start d \/ exists p j, st p /\ step d p j = Some x.
  Proof.
    intro H. destruct (proj1 TR x H) as [w Hw].
    destruct (rev w) as [|j rw] eqn:E.
    - left. assert (w = []) by (apply (f_equal (@rev N)) in E; rewrite rev_involutive in E; exact E).
      subst. cbn in Hw. inversion Hw. reflexivity.
    - right. assert (Ew : w = rev rw ++ [j]).
      { apply (f_equal (@rev N)) in E. rewrite rev_involutive in E. exact E. }
      rewrite Ew in Hw. apply run_snoc in Hw. destruct Hw as [p [_ Hp]].
      exists p, j. split; [|exact Hp]. eapply step_src_In_states. exact Hp.
  Qed.

  Definition quotient_list (repf : N -> N) : list transition :=
    map (fun t => mktr (tr_from t) (repf (tr_to t)) (tr_input t)) (iter_transitions d).

  Lemma quotient_transitions_ok reps Q :
    quotient_transitions d reps = Ok Q ->
    Q = quotient_list (getf reps)
    /\ forall t, In t (iter_transitions d) -> assocN (tr_to t) reps = Some (getf reps (tr_to t)).
  Proof.
    unfold quotient_transitions. intro H. apply omap_ok in H. split.
    - apply (Forall2_map_eq _ _ _ _ H). intros t y _ Hy. apply obind_ok in Hy.
      destruct Hy as [r [Hr Hy]]. inversion Hy; subst. apply rep_get_ok in Hr.
      rewrite (getf_some _ _ _ Hr). reflexivity.
    - intros t Ht. destruct (Forall2_In_l _ _ _ t H Ht) as [y [_ Hy]]. apply obind_ok in Hy.
      destruct Hy as [r [Hr _]]. apply rep_get_ok in Hr. rewrite (getf_some _ _ _ Hr). exact Hr.
  Qed.

  Lemma quotient_transitions_eq reps :
    (forall t, In t (iter_transitions d) -> assocN (tr_to t) reps <> None) ->
    quotient_transitions d reps = Ok (quotient_list (getf reps)).
  Proof.
    intro H. apply omap_eq. intros t Ht. rewrite rep_get_eq by apply H, Ht. reflexivity.
  Qed.

  Lemma do_minimize_inv fuel m :
    do_minimize fuel d = Ok m ->
    exists h reps,
      hopcroft_loop fuel (make_transitions_image d) (initial_partition d) = Ok h
      /\ representatives (h_pool h) (h_parts h) = Ok reps
      /\ assocN (d_start d) reps <> None
      /\ (forall a, In a (d_accepting d) -> assocN a reps <> None)
      /\ let repf := getf reps in
         let start' := repf (d_start d) in
         let acc' := bm_from_iter (map repf (d_accepting d)) in
         let Q := quotient_list repf in
         let K := fst (keep_only_states_with_input_transitions start' Q acc') in
         let acc'' := snd (keep_only_states_with_input_transitions start' Q acc') in
         let E := eliminate_nonaccepting_states_without_output_transitions K acc'' in
         exists s' ts' accn,
           renumber_states start' E acc'' = Ok (s', ts', accn)
           /\ m = mkdfa s' (hashmap_transitions_from_vec ts') accn (d_inputs d).
  Proof.
    unfold do_minimize. intro H.
    apply obind_ok in H. destruct H as [h [Hh H]].
    apply obind_ok in H. destruct H as [reps [Hreps H]].
    apply obind_ok in H. destruct H as [start' [Hs H]]. apply rep_get_ok in Hs.
    apply obind_ok in H. destruct H as [accl [Hacc H]]. apply omap_rep_get in Hacc.
    destruct Hacc as [Hacc1 Hacc2].
    apply obind_ok in H. destruct H as [Q [HQ H]]. apply quotient_transitions_ok in HQ.
    destruct HQ as [HQ _].
    exists h, reps. split; [exact Hh|]. split; [exact Hreps|]. split; [congruence|].
    split; [intros a Ha; rewrite (Hacc2 a Ha); discriminate|].
    cbn zeta. assert (Es : start' = getf reps (d_start d)) by (symmetry; apply getf_some, Hs).
    subst start' accl Q.
    destruct (keep_only_states_with_input_transitions _ _ _) as [K acc''] eqn:EK. cbn [fst snd].
    apply obind_ok in H. destruct H as [[[s' ts'] accn] [Hr H]]. inversion H; subst.
    exists s', ts', accn. auto.
  Qed.

  Variable h : hop.
  Variable reps : list (N * N).

  Let A := abs h.
  Let repf := getf reps.

  Hypothesis Gd : Good U h.
  Hypothesis N1 : forall x y, sameb A x y -> forall w, accepts_from d x w = accepts_from d y w.
  Hypothesis N2 : forall x y, In x U -> In y U -> ~ sameb A x y ->
                              exists w, accepts_from d x w <> accepts_from d y w.
  Hypothesis Hreps : representatives (h_pool h) (h_parts h) = Ok reps.

  Let P : APart U A := g_part _ _ Gd.

  Lemma block_of_id id b : In id (h_parts h) -> pool_lookup (h_pool h) id = Some b -> In b (blocks A).
  Proof.
    intros Hid L. unfold A. rewrite blocks_abs. apply in_map_iff. exists id. unfold content. rewrite L. auto.
  Qed.

  Lemma rep_block x :
    In x U -> exists b, In b (blocks A) /\ In x b /\ assocN x reps = Some (repf x) /\ bm_min b = Some (repf x).
  Proof.
    intro Hx. destruct (proj1 (ap_cover _ _ P x) Hx) as [b [Hb Hxb]].
    assert (Hb' := Hb). unfold A in Hb'. rewrite blocks_abs in Hb'. apply in_map_iff in Hb'.
    destruct Hb' as [id [Eb Hid]].
    destruct (good_lookup U h id Gd Hid) as [b0 [L0 _]].
    assert (b0 = b) by (unfold content in Eb; rewrite L0 in Eb; exact Eb). subst b0.
    unfold representatives in Hreps.
    destruct (representatives_spec _ _ _ _ Hreps) as [R1 [R2 _]].
    destruct (assocN x reps) as [r|] eqn:Er; [|exfalso; exact (R2 id b x Hid L0 Hxb Er)].
    destruct (R1 x r Er) as [F|[id' [b' [Hid' [L' [Hxb' Hmin]]]]]]; [discriminate|].
    assert (b' = b).
    { apply (ap_overlap _ _ P b' b x); auto. eapply block_of_id; eauto. }
    subst b'. exists b. unfold repf, getf. rewrite Er. auto.
  Qed.

  Lemma repf_same x : In x U -> sameb A x (repf x).
  Proof.
    intro Hx. destruct (rep_block x Hx) as [b [Hb [Hxb [_ Hmin]]]].
    exists b. split; [exact Hb|]. split; [exact Hxb|].
    apply (bm_min_spec b _ (ap_sorted _ _ P _ Hb) Hmin).
  Qed.

  Lemma repf_canon x y : sameb A x y -> repf x = repf y.
  Proof.
    intro S. destruct (sameb_in_U U A x y P S) as [Ux Uy].
    destruct (rep_block x Ux) as [b [Hb [Hxb [_ Hmin]]]].
    destruct (rep_block y Uy) as [b' [Hb' [Hyb' [_ Hmin']]]].
    assert (In y b) by (eapply sameb_block; eauto).
    assert (b = b') by (apply (ap_overlap _ _ P b b' y); auto). subst b'. congruence.
  Qed.

  Lemma repf_U x : In x U -> In (repf x) U.
  Proof. intro H. apply (sameb_in_U U A x (repf x) P (repf_same x H)). Qed.

  Lemma repf_inv x y : In x U -> In y U -> repf x = repf y -> sameb A x y.
  Proof.
    intros Ux Uy E. apply (sameb_trans U A x (repf x) y P (repf_same x Ux)).
    rewrite E. apply sameb_sym, repf_same. exact Uy.
  Qed.

  Lemma repf_idem x : In x U -> repf (repf x) = repf x.
  Proof. intro H. symmetry. apply repf_canon, repf_same, H. Qed.

  Lemma not_same_zero x : st x -> ~ sameb A x 0.
  Proof.
    intros Hx S. destruct (proj2 TR x Hx) as [w Hw].
    rewrite (N1 _ _ S w), (accepts_from_zero d W) in Hw. discriminate.
  Qed.

  Lemma repf_st x : st x -> st (repf x).
  Proof.
    intro Hx. destruct (st_universe x Hx) as [Ux _]. apply (universe_state d); [apply repf_U; exact Ux|].
    intro F. apply (not_same_zero x Hx). rewrite <- F. apply repf_same. exact Ux.
  Qed.

  (** equivalent states have equivalent successors, and the partition separates inequivalent
      states: a transition of one state is matched by every state of its block *)
  Lemma step_cong x s i y :
    st x -> sameb A x s -> step d x i = Some y ->
    exists y', step d s i = Some y' /\ sameb A y y'.
  Proof.
    intros Hx S E. assert (Hy : st y) by (eapply step_In_states; eauto).
    assert (Eq : forall w, accepts_from d y w = accepts_from d (delta d s i) w).
    { intro w. rewrite <- (accepts_from_delta d W s i w), <- (N1 _ _ S (i :: w)), (accepts_from_delta d W x i w).
      unfold delta. rewrite E. reflexivity. }
    destruct (step d s i) as [y'|] eqn:E'.
    - exists y'. split; [reflexivity|].
      destruct (sameb_dec A y y') as [Sy|Ny]; [exact Sy|]. exfalso.
      destruct (N2 y y') as [w Hw]; auto.
      + apply (st_universe y Hy).
      + apply (st_universe y'). eapply step_In_states; eauto.
      + apply Hw. rewrite (Eq w). unfold delta. rewrite E'. reflexivity.
    - exfalso. destruct (proj2 TR y Hy) as [w Hw]. rewrite (Eq w) in Hw. unfold delta in Hw.
      rewrite E', (accepts_from_zero d W) in Hw. discriminate.
  Qed.

  Let start' := repf (d_start d).
  Let acc' := bm_from_iter (map repf (d_accepting d)).
  Let Q := quotient_list repf.
  Let Tgt := bm_from_iter (map tr_to Q).
  Let K := fst (keep_only_states_with_input_transitions start' Q acc').
  Let acc'' := snd (keep_only_states_with_input_transitions start' Q acc').
  Let E := eliminate_nonaccepting_states_without_output_transitions K acc''.

  Lemma Q_In s t i : In (mktr s t i) Q <-> exists y, step d s i = Some y /\ t = repf y.
  Proof.
    unfold Q, quotient_list. rewrite in_map_iff. split.
    - intros [t0 [E0 H0]]. inversion E0; subst. exists (tr_to t0). split; [|reflexivity].
      apply (step_iter d W). destruct t0; exact H0.
    - intros [y [Hy ->]]. apply (step_iter d W) in Hy. exists (mktr s y i). auto.
  Qed.

  Lemma Tgt_In z : In z Tgt <-> exists s i, In (mktr s z i) Q.
  Proof.
    unfold Tgt. rewrite bm_from_iter_In, in_map_iff. split.
    - intros [t [Et Ht]]. exists (tr_from t), (tr_input t). subst z. destruct t; exact Ht.
    - intros [s [i H]]. exists (mktr s z i). auto.
  Qed.

  Lemma K_In t :
    In t K <-> In t Q /\ (tr_from t = start' \/ (In (tr_from t) Tgt /\ In (tr_to t) Tgt)).
  Proof.
    unfold K, keep_only_states_with_input_transitions. cbn [fst]. fold Tgt. rewrite filter_In.
    destruct (N.eqb_spec (tr_from t) start') as [Es|Es]; [tauto|]. rewrite <- !memN_In.
    destruct (memN (tr_from t) Tgt), (memN (tr_to t) Tgt); cbn [negb orb]; intuition congruence.
  Qed.

  Lemma acc''_In a : In a acc'' <-> In a acc' /\ (a = start' \/ In a Tgt).
  Proof.
    unfold acc'', keep_only_states_with_input_transitions. cbn [snd]. fold Tgt.
    rewrite filter_In, orb_true_iff, N.eqb_eq, memN_In. tauto.
  Qed.

  Lemma acc'_In a : In a acc' <-> exists a0, In a0 (d_accepting d) /\ a = repf a0.
  Proof.
    unfold acc'. rewrite bm_from_iter_In, in_map_iff. split; intros [a0 [H1 H2]]; exists a0; auto.
  Qed.

  Lemma E_In t :
    In t E <-> In t K /\ (In (tr_to t) acc'' \/ exists t1, In t1 K /\ tr_from t1 = tr_to t).
  Proof.
    unfold E, eliminate_nonaccepting_states_without_output_transitions.
    rewrite filter_In, orb_true_iff, !memN_In, bm_from_iter_In, in_map_iff.
    split; intros [H1 H2]; (split; [exact H1|]); destruct H2 as [H2|[t1 [H2 H3]]]; eauto.
  Qed.

  Lemma repf_start_or_target x : st x -> repf x = start' \/ In (repf x) Tgt.
  Proof.
    intro Hx. destruct (st_reach_cases x Hx) as [->|[p [j [Hp Ep]]]]; [left; reflexivity|].
    right. apply Tgt_In. exists p, j. apply Q_In. eauto.
  Qed.

  Lemma InK x i y : st x -> step d x i = Some y -> In (mktr (repf x) (repf y) i) K.
  Proof.
    intros Hx Ex. destruct (st_universe x Hx) as [Ux _].
    destruct (step_cong x (repf x) i y Hx (repf_same x Ux) Ex) as [y' [Ey' Sy]].
    apply K_In. cbn [tr_from tr_to]. split.
    - apply Q_In. exists y'. split; [exact Ey'|]. apply repf_canon. exact Sy.
    - assert (T : In (repf y) Tgt).
      { apply Tgt_In. exists x, i. apply Q_In. eauto. }
      destruct (repf_start_or_target x Hx) as [H|H]; auto.
  Qed.

  Lemma InE x i y : st x -> step d x i = Some y -> In (mktr (repf x) (repf y) i) E.
  Proof.
    intros Hx Ex. apply E_In. split; [apply InK; assumption|]. cbn [tr_to].
    assert (Hy : st y) by (eapply step_In_states; eauto).
    assert (Hry := repf_st y Hy). destruct (st_universe y Hy) as [Uy _].
    destruct (st_coreach_cases (repf y) Hry) as [Acc|[j [z Ez]]].
    - left. apply acc''_In. split.
      + apply acc'_In. exists (repf y). split; [|symmetry; apply repf_idem; exact Uy].
        apply is_accepting_In, Acc.
      + right. apply Tgt_In. exists x, i. apply Q_In. eauto.
    - right. exists (mktr (repf (repf y)) (repf z) j). split; [apply InK; assumption|].
      cbn [tr_from]. apply repf_idem. exact Uy.
  Qed.

  Lemma E_inv s t i :
    In (mktr s t i) E -> exists y, step d s i = Some y /\ t = repf y /\ repf s = s /\ st s.
  Proof.
    intro H. apply E_In in H. destruct H as [H _]. apply K_In in H. destruct H as [HQ HK].
    cbn [tr_from tr_to] in HK. apply Q_In in HQ. destruct HQ as [y [Ey Et]].
    exists y. split; [exact Ey|]. split; [exact Et|].
    assert (Hs : st s) by (eapply step_src_In_states; eauto).
    split; [|exact Hs].
    destruct HK as [Es|[Ts _]].
    - rewrite Es. unfold start'. apply repf_idem. apply (st_universe _ (start_In_states d)).
    - apply Tgt_In in Ts. destruct Ts as [p [j Hp]]. apply Q_In in Hp. destruct Hp as [z [Ez ->]].
      apply repf_idem. apply (st_universe z). eapply step_In_states; eauto.
  Qed.

  Lemma E_keys s t i : In (mktr s t i) E -> In s (renumber_keys start' E) /\ In t (renumber_keys start' E).
  Proof.
    intro H. unfold renumber_keys. split; right; apply in_flat_map; exists (mktr s t i); cbn; auto.
  Qed.

  Lemma repf_key x : st x -> In (repf x) (renumber_keys start' E).
  Proof.
    intro Hx. destruct (st_reach_cases x Hx) as [->|[p [j [Hp Ep]]]].
    - left. reflexivity.
    - apply (E_keys (repf p) (repf x) j). apply InE; assumption.
  Qed.

  Lemma acc''_keys : incl acc'' (renumber_keys start' E).
  Proof.
    intros a Ha. apply acc''_In in Ha. destruct Ha as [Ha _]. apply acc'_In in Ha.
    destruct Ha as [a0 [Ha0 ->]]. apply repf_key, In_states. auto.
  Qed.

  Variables (s' : N) (ts' : list transition) (accn : list N).
  Hypothesis Hren : renumber_states start' E acc'' = Ok (s', ts', accn).

  Let m := mkdfa s' (hashmap_transitions_from_vec ts') accn (d_inputs d).
  Let nf := renumber_map start' E.
  Let rho := getf nf.
  Let phi (x : N) : N := rho (repf x).

  Lemma ren_facts :
    s' = rho start'
    /\ ts' = map (fun t => mktr (rho (tr_from t)) (rho (tr_to t)) (tr_input t)) E
    /\ accn = bm_from_iter (map rho acc'')
    /\ (forall a, In a acc'' -> assocN a nf = Some (rho a)).
  Proof. exact (renumber_states_ok _ _ _ _ _ _ Hren). Qed.

  Lemma rho_key k : In k (renumber_keys start' E) -> assocN k nf = Some (rho k).
  Proof.
    intro H. apply assocN_getf, (renumber_map_spec start' E), H.
  Qed.

  Lemma rho_inj k k' :
    assocN k nf = Some (rho k) -> assocN k' nf = Some (rho k') -> rho k = rho k' -> k = k'.
  Proof.
    intros H H' Eq. destruct (renumber_map_spec start' E) as [_ R2]. fold nf in R2.
    apply (R2 k k' (rho k)); [exact H|]. rewrite Eq. exact H'.
  Qed.

  Lemma ts'_In q1 q2 i :
    In (mktr q1 q2 i) ts' <-> exists s t, In (mktr s t i) E /\ q1 = rho s /\ q2 = rho t.
  Proof.
    destruct ren_facts as [_ [-> _]]. rewrite in_map_iff. split.
    - intros [t [Et Ht]]. inversion Et; subst. exists (tr_from t), (tr_to t). destruct t; auto.
    - intros [s [t [H [-> ->]]]]. exists (mktr s t i). auto.
  Qed.

  Lemma ts'_functional t1 t2 :
    In t1 ts' -> In t2 ts' -> tr_from t1 = tr_from t2 -> tr_input t1 = tr_input t2 -> tr_to t1 = tr_to t2.
  Proof.
    destruct t1 as [f1 o1 i1], t2 as [f2 o2 i2]. cbn [tr_from tr_to tr_input]. intros H1 H2 Ef Ei. subst f2 i2.
    apply ts'_In in H1. apply ts'_In in H2.
    destruct H1 as [a1 [b1 [H1 [Ea1 Eb1]]]], H2 as [a2 [b2 [H2 [Ea2 Eb2]]]].
    assert (a1 = a2).
    { apply rho_inj; [apply rho_key, (E_keys _ _ _ H1)|apply rho_key, (E_keys _ _ _ H2)|congruence]. }
    subst a2. apply E_inv in H1. apply E_inv in H2.
    destruct H1 as [y1 [S1 [T1 _]]], H2 as [y2 [S2 [T2 _]]]. congruence.
  Qed.

  Lemma step_m q i q' : step m q i = Some q' <-> In (mktr q q' i) ts'.
  Proof. apply (hashmap_step ts' q i q' ts'_functional). Qed.

  Lemma F2 x i y : st x -> step d x i = Some y -> step m (phi x) i = Some (phi y).
  Proof.
    intros Hx Ex. apply step_m. apply ts'_In. exists (repf x), (repf y). split; [|auto].
    apply InE; assumption.
  Qed.

  Lemma F3 x i : st x -> step d x i = None -> step m (phi x) i = None.
  Proof.
    intros Hx Ex. destruct (step m (phi x) i) as [q|] eqn:Em; [|reflexivity]. exfalso.
    apply step_m, ts'_In in Em. destruct Em as [s [t [He [Es _]]]].
    assert (s = repf x).
    { apply rho_inj; [apply rho_key, (E_keys _ _ _ He)|apply rho_key, repf_key, Hx|]. symmetry. exact Es. }
    subst s. apply E_inv in He. destruct He as [y' [Ey' _]].
    destruct (st_universe x Hx) as [Ux _].
    destruct (step_cong (repf x) x i y' (repf_st x Hx) (sameb_sym _ _ _ (repf_same x Ux)) Ey') as [y [Ey _]].
    congruence.
  Qed.

  Lemma F4 x : st x -> is_accepting m (phi x) = is_accepting d x.
  Proof.
    intro Hx. destruct (st_universe x Hx) as [Ux _].
    unfold is_accepting at 1. cbn [d_accepting m]. destruct ren_facts as [_ [_ [-> Hacc]]].
    destruct (is_accepting d x) eqn:Ed.
    - apply memN_In, bm_from_iter_In, in_map_iff. exists (repf x). split; [reflexivity|].
      apply acc''_In. split; [|apply repf_start_or_target; exact Hx].
      apply acc'_In. exists x. split; [|reflexivity]. apply is_accepting_In, Ed.
    - apply memN_false. intro F. apply bm_from_iter_In, in_map_iff in F. destruct F as [a [Ea Ha]].
      assert (a = repf x).
      { apply rho_inj; [apply Hacc; exact Ha|apply rho_key, repf_key, Hx|exact Ea]. }
      subst a. apply acc''_In in Ha. destruct Ha as [Ha _]. apply acc'_In in Ha.
      destruct Ha as [a0 [Ha0 Er]].
      assert (Sa : st a0) by (apply In_states; auto).
      assert (S : sameb A x a0) by (apply repf_inv; [exact Ux|apply (st_universe a0 Sa)|exact Er]).
      assert (Eq := N1 _ _ S []). unfold accepts_from in Eq. cbn [run] in Eq.
      rewrite Ed in Eq. unfold is_accepting in Eq. symmetry in Eq. apply memN_false in Eq. contradiction.
  Qed.

  Lemma F1 : d_start m = phi (d_start d).
  Proof. cbn [d_start m]. destruct ren_facts as [-> _]. reflexivity. Qed.

  Lemma F23 x i : st x -> step m (phi x) i = option_map phi (step d x i).
  Proof. intro Hx. destruct (step d x i) as [y|] eqn:Ex; [apply F2|apply F3]; assumption. Qed.

  Lemma m_states q : In q (states m) -> exists x, st x /\ q = phi x.
  Proof.
    intro H. apply In_states in H. destruct H as [H|[H|H]].
    - exists (d_start d). split; [apply start_In_states|]. rewrite H. apply F1.
    - apply trans_states_In in H.
      assert (Hfrom : forall t, In t ts' -> exists x, st x /\ tr_from t = phi x).
      { intros [q1 q2 i] Ht. apply ts'_In in Ht. destruct Ht as [s [t [He [-> _]]]].
        apply E_inv in He. destruct He as [y [_ [_ [Rs Ss]]]]. exists s. split; [exact Ss|].
        cbn [tr_from]. unfold phi. rewrite Rs. reflexivity. }
      assert (Hto : forall t, In t ts' -> exists x, st x /\ tr_to t = phi x).
      { intros [q1 q2 i] Ht. apply ts'_In in Ht. destruct Ht as [s [t [He [_ ->]]]].
        apply E_inv in He. destruct He as [y [Ey [-> _]]]. exists y. split; [eapply step_In_states; eauto|reflexivity]. }
      destruct H as [H|[t [Ht ->]]].
      + cbn [d_trans m] in H. apply hashmap_keys in H. destruct H as [t [Ht <-]]. apply Hfrom. exact Ht.
      + apply Hto. apply iter_transitions_In in Ht. destruct Ht as [row [R1 R2]]. cbn [d_trans m] in R1.
        assert (I := hashmap_entries _ _ _ _ _ R1 R2). destruct t; exact I.
    - cbn [d_accepting m] in H. destruct ren_facts as [_ [_ [Ea _]]]. rewrite Ea in H.
      apply bm_from_iter_In, in_map_iff in H. destruct H as [a [<- Ha]].
      apply acc''_In in Ha. destruct Ha as [Ha _]. apply acc'_In in Ha. destruct Ha as [a0 [Ha0 ->]].
      exists a0. split; [apply In_states; auto|reflexivity].
  Qed.

  Lemma m_lang : lang_eq m d.
  Proof. exact (morphism_lang d m phi F1 F23 F4). Qed.

  Lemma m_trim : trim m.
  Proof. exact (morphism_trim d m phi F1 F23 F4 m_states TR). Qed.

  Lemma m_distinct : pairwise_distinguishable m.
  Proof.
    apply (morphism_distinct d m phi F23 F4 m_states). intros x1 x2 Hx1 Hx2 Hne.
    apply N2; [apply (st_universe x1 Hx1)|apply (st_universe x2 Hx2)|].
    intro S. apply Hne. unfold phi. rewrite (repf_canon _ _ S). reflexivity.
  Qed.
End Correct.

Theorem minimize_correct d m :
  wf d -> trim d -> minimize d = Ok m ->
  lang_eq m d /\ trim m /\ pairwise_distinguishable m /\ minimal_size m.
Proof.
  intros W TR H. unfold minimize in H.
  destruct (do_minimize_inv d _ m H) as [h [reps [Hloop [Hreps [_ [_ Hrest]]]]]].
  cbn zeta in Hrest. destruct Hrest as [s' [ts' [accn [Hren ->]]]].
  destruct (hopcroft_loop_correct d W (proj2 TR) _ h Hloop) as [Gd [N1 N2]].
  assert (L := m_lang d W TR h reps Gd N1 N2 Hreps s' ts' accn Hren).
  assert (T := m_trim d W TR h reps Gd N1 N2 Hreps s' ts' accn Hren).
  assert (D := m_distinct d W TR h reps Gd N1 N2 Hreps s' ts' accn Hren).
  split; [exact L|]. split; [exact T|]. split; [exact D|].
  apply myhill_nerode_size; assumption.
Qed.
