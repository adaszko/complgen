(** C08: the verdicts of the model of [from_grammar] on the first two mistake classes of
    Spec/Mistakes.v (no call variant, call variants for several command names), and closed forms
    of [collect_plain_defs] and [get_user_specs], from which CheckFront.v reads the verdicts on
    the other statement-level classes. *)
From CG Require Import Base.Prelude Base.Facts Model.Ast Model.Check Spec.Choice Spec.Mistakes.

Lemma call_names_variants g :
  call_names g = map (fun x => fst (fst x)) (call_variants g).
Proof.
  unfold call_names, call_variants.
  induction g as [|s g IH]; cbn; [reflexivity|].
  destruct s; cbn; rewrite IH; reflexivity.
Qed.

Lemma dedup_names_nil seen l :
  dedup_names seen l = [] <-> forallb (fun p => mem_str (fst p) seen) l = true.
Proof.
  revert seen; induction l as [|[n sp] l IH]; intro seen; cbn; [tauto|].
  destruct (mem_str n seen) eqn:E; cbn.
  - apply IH.
  - split; intro H; discriminate.
Qed.

Lemma mem_str_single n m : mem_str m [n] = String.eqb m n.
Proof. unfold mem_str. cbn. apply orb_false_r. Qed.

Theorem no_call_variant_rejected builtins g sh :
  no_call_variant g = true -> from_grammar builtins g sh = Err MissingCallVariants.
Proof.
  unfold no_call_variant, from_grammar. rewrite call_names_variants.
  destruct (call_variants g) as [|[[n sp] e] r]; cbn; [reflexivity|discriminate].
Qed.

Theorem varying_names_rejected builtins g sh :
  varying_names g = true ->
  exists spans, from_grammar builtins g sh = Err (VaryingCommandNames spans).
Proof.
  unfold varying_names, from_grammar. rewrite call_names_variants.
  destruct (call_variants g) as [|[[n sp] e] r]; cbn; [discriminate|].
  intro H.
  destruct (dedup_names [n] (map (fun x => (fst (fst x), snd (fst x))) r)) as [|p more] eqn:D.
  - exfalso. apply dedup_names_nil in D.
    rewrite existsb_exists in H. destruct H as [m [Hin Hm]].
    apply in_map_iff in Hin. destruct Hin as [[[m' sp'] e'] [Hm' Hin]]. cbn in Hm'. subst m'.
    rewrite forallb_forall in D.
    specialize (D (m, sp')). rewrite mem_str_single in D. cbn [fst] in D.
    assert (Hin' : In (m, sp') (map (fun x => (fst (fst x), snd (fst x))) r)).
    { apply in_map_iff. exists (m, sp', e'). split; [reflexivity|exact Hin]. }
    apply D in Hin'. rewrite String.eqb_sym in Hin'. rewrite Hin' in Hm. discriminate.
  - eexists. reflexivity.
Qed.

Lemma not_varying_all_equal n r :
  existsb (fun m => negb (String.eqb n m)) r = false -> forall m, In m r -> m = n.
Proof.
  intros H m Hin. destruct (String.eqb n m) eqn:E.
  - apply String.eqb_eq in E. auto.
  - exfalso. assert (existsb (fun m => negb (String.eqb n m)) r = true).
    { apply existsb_exists. exists m. split; [exact Hin|]. rewrite E. reflexivity. }
    congruence.
Qed.

Fixpoint plain_names_of (ds : list (string * span * option (string * span) * expr)) : list string :=
  match ds with
  | [] => []
  | (n, _, None, _) :: r => n :: plain_names_of r
  | _ :: r => plain_names_of r
  end.

Lemma plain_names_all_defs g : plain_names g = plain_names_of (all_defs g).
Proof.
  unfold plain_names, all_defs.
  induction g as [|s g IH]; cbn; [reflexivity|].
  destruct s as [n sp e|n sp [[shn shsp]|] rhs]; cbn; rewrite IH; reflexivity.
Qed.

Lemma find_name_none acc n :
  find (fun d => String.eqb (d_name d) n) acc = None <-> mem_str n (map d_name acc) = false.
Proof.
  induction acc as [|d acc IH]; cbn; [tauto|].
  rewrite (String.eqb_sym n (d_name d)).
  destruct (String.eqb (d_name d) n); cbn; [split; discriminate|exact IH].
Qed.

Lemma mem_str_assoc {V} k (l : list (string * V)) :
  mem_str k (map fst l) = match assoc k l with Some _ => true | None => false end.
Proof.
  induction l as [|[k' v] l IH]; cbn; [reflexivity|].
  destruct (String.eqb k k'); cbn; [reflexivity|apply IH].
Qed.

Lemma In_assoc_some {V} k (l : list (string * V)) : In k (map fst l) -> exists v, assoc k l = Some v.
Proof.
  intro H. destruct (assoc k l) eqn:E; [eexists; reflexivity|].
  apply assoc_None in E. contradiction.
Qed.

Lemma has_dup_NoDup l : has_dup l = false <-> NoDup l.
Proof.
  induction l as [|x l IH]; cbn; [split; [constructor|reflexivity]|].
  rewrite orb_false_iff, IH, mem_str_false, NoDup_cons_iff. reflexivity.
Qed.

Definition plain_defs_of (ds : list (string * span * option (string * span) * expr)) : list defn :=
  flat_map (fun x => match x with
                     | (n, nsp, None, rhs) => [mkdefn n nsp rhs]
                     | _ => []
                     end) ds.

Lemma plain_defs_of_names ds : map d_name (plain_defs_of ds) = plain_names_of ds.
Proof.
  unfold plain_defs_of.
  induction ds as [|[[[n nsp] [[shn shsp]|]] rhs] r IH]; cbn; rewrite ?IH; reflexivity.
Qed.

Definition defs_t := list (string * span * option (string * span) * expr).

Lemma fresh_snoc (names seen : list string) n :
  ~ In n seen ->
  (NoDup names /\ forall x, In x names -> ~ In x (seen ++ [n]))
  <-> (NoDup (n :: names) /\ forall x, In x (n :: names) -> ~ In x seen).
Proof.
  intro F. rewrite NoDup_cons_iff. split.
  - intros [Hnd Hd]. split; [split; [|exact Hnd]|].
    + intro Hn. apply (Hd n Hn). apply in_or_app. right. left. reflexivity.
    + intros x [<-|Hx]; [exact F|]. intro Hx'. apply (Hd x Hx). apply in_or_app. left. exact Hx'.
  - intros [[Hn Hnd] Hd]. split; [exact Hnd|]. intros x Hx Hx'. apply in_app_or in Hx'.
    destruct Hx' as [Hx'|[<-|[]]]; [apply (Hd x (or_intror Hx) Hx')|contradiction].
Qed.

(** [collect_plain_defs] returns the plain definitions in source order, unless a name comes twice
    (among them, or in what was collected before) *)
Lemma collect_plain_defs_spec ds : forall acc,
  let fresh := NoDup (plain_names_of ds)
               /\ forall x, In x (plain_names_of ds) -> ~ In x (map d_name acc) in
  match collect_plain_defs ds acc with
  | Ok r => r = acc ++ plain_defs_of ds /\ fresh
  | Err e => (exists a b, e = DuplicateNonterminalDefinition a b) /\ ~ fresh
  | _ => False
  end.
Proof.
  induction ds as [|[[[n nsp] sh] rhs] r IH]; intro acc; cbn zeta.
  - cbn. rewrite app_nil_r. split; [reflexivity|]. split; [constructor|intros x []].
  - cbn [collect_plain_defs]. destruct sh as [s|]; [exact (IH acc)|].
    change (plain_defs_of ((n, nsp, None, rhs) :: r)) with (mkdefn n nsp rhs :: plain_defs_of r).
    cbn [plain_names_of].
    destruct (find (fun d => String.eqb (d_name d) n) acc) as [dup|] eqn:F.
    + split; [eauto|]. intros [_ Hd]. apply (Hd n (or_introl eq_refl)). apply mem_str_In.
      destruct (mem_str n (map d_name acc)) eqn:E; [reflexivity|]. apply find_name_none in E. congruence.
    + apply find_name_none, mem_str_false in F. specialize (IH (acc ++ [mkdefn n nsp rhs])).
      cbn zeta in IH.
      rewrite map_app in IH. cbn [map d_name] in IH.
      pose proof (fresh_snoc (plain_names_of r) _ n F) as Hiff.
      destruct (collect_plain_defs r (acc ++ [mkdefn n nsp rhs])) as [r'|e| |]; try exact IH.
      * destruct IH as [-> IH]. split; [rewrite <- app_assoc; reflexivity|apply Hiff; exact IH].
      * destruct IH as [He IH]. split; [exact He|]. intro H. apply IH. apply Hiff. exact H.
Qed.

Lemma collect_plain_defs_eq ds acc defs :
  collect_plain_defs ds acc = Ok defs -> defs = acc ++ plain_defs_of ds.
Proof. intro H. pose proof (collect_plain_defs_spec ds acc) as S. rewrite H in S. apply S. Qed.

Lemma collect_plain_defs_ok_iff ds :
  (exists defs, collect_plain_defs ds [] = Ok defs) <-> NoDup (plain_names_of ds).
Proof.
  pose proof (collect_plain_defs_spec ds []) as S. cbn zeta in S.
  destruct (collect_plain_defs ds []) as [r|e| |]; [| |destruct S|destruct S].
  - destruct S as [_ [S _]]. split; [intros _; exact S|intros _; eexists; reflexivity].
  - destruct S as [_ S]. split; [intros [d Hd]; discriminate|]. intro Hnd. exfalso. apply S.
    split; [exact Hnd|intros x _ []].
Qed.

Lemma collect_plain_defs_dup ds :
  ~ NoDup (plain_names_of ds) -> exists a b, collect_plain_defs ds [] = Err (DuplicateNonterminalDefinition a b).
Proof.
  intro Hd. pose proof (collect_plain_defs_spec ds []) as S. cbn zeta in S.
  destruct (collect_plain_defs ds []) as [r|e| |]; try destruct S.
  - exfalso. apply Hd. tauto.
  - destruct H as (a & b & ->). eauto.
Qed.

Lemma plain_names_pd g y : In y (plain_names g) <-> plain_definition g y <> None.
Proof.
  unfold plain_names. induction g as [|s g IH]; cbn; [split; [tauto|congruence]|].
  destruct s as [n sp e|n sp [[shn shsp]|] rhs]; cbn; try exact IH.
  destruct (String.eqb n y) eqn:E.
  - apply String.eqb_eq in E. subst. split; [discriminate|auto].
  - apply String.eqb_neq in E. rewrite <- IH. split; [intros [H|H]; [congruence|exact H]|auto].
Qed.

Definition shell_defs_of (target : shell) (ds : defs_t) : list (string * span) :=
  flat_map (fun x => match x with
                     | (n, nsp, Some (shn, _), _) => if is_shell shn target then [(n, nsp)] else []
                     | _ => []
                     end) ds.
Definition shell_names_of (target : shell) (ds : defs_t) : list string :=
  map fst (shell_defs_of target ds).
Definition ds_unknown_shell (ds : defs_t) : bool :=
  existsb (fun x => match x with
                    | (_, _, Some (shn, _), _) =>
                        match shell_of_string shn with None => true | Some _ => false end
                    | _ => false
                    end) ds.
Definition ds_non_command (ds : defs_t) : bool :=
  existsb (fun x => match x with
                    | (_, _, Some _, rhs) => negb (is_command rhs)
                    | _ => false
                    end) ds.

Definition user_view (target : shell) (ds : defs_t) : list (string * user_spec) :=
  flat_map (fun x => match x with
                     | (n, nsp, Some (shn, _), Command cmd _ _ _) =>
                         if is_shell shn target then [(n, mkspec cmd nsp)] else []
                     | _ => []
                     end) ds.

Definition us_spans (us : list (string * user_spec)) : list (string * span) :=
  map (fun p => (fst p, us_span (snd p))) us.

(** one entry per definition for the target shell, in source order, with the span of the
    definition's name; success exactly when every shell-specific definition (for whatever shell)
    is an external command for a known shell and no name is defined twice for the target *)
Lemma get_user_specs_spec target ds : forall acc,
  let fresh := NoDup (shell_names_of target ds)
               /\ forall x, In x (shell_names_of target ds) -> ~ In x (map fst acc) in
  match get_user_specs target ds acc with
  | Ok us => us = acc ++ user_view target ds
             /\ ds_unknown_shell ds = false /\ ds_non_command ds = false /\ fresh
  | Err (UnknownShell _) => ds_unknown_shell ds = true
  | Err (NonCommandSpecialization _) => ds_non_command ds = true
  | Err (DuplicateNonterminalDefinition _ _) => ~ fresh
  | _ => False
  end.
Proof.
  induction ds as [|[[[n nsp] sh] rhs] r IH]; intro acc; cbn zeta.
  - cbn. rewrite app_nil_r. repeat split; [constructor|intros x []].
  - cbn [get_user_specs]. destruct sh as [[shn shsp]|]; [|exact (IH acc)].
    destruct rhs as [| |cmd z lv csp| | | | | | |]; try reflexivity.
    destruct (shell_of_string shn) as [s|] eqn:Hs; [|cbn; rewrite Hs; reflexivity].
    assert (Hu : ds_unknown_shell ((n, nsp, Some (shn, shsp), Command cmd z lv csp) :: r) = ds_unknown_shell r)
      by (cbn; rewrite Hs; reflexivity).
    change (ds_non_command ((n, nsp, Some (shn, shsp), Command cmd z lv csp) :: r)) with (ds_non_command r).
    rewrite Hu. unfold shell_names_of, shell_defs_of, user_view. cbn [flat_map].
    fold (shell_defs_of target r) (user_view target r). unfold is_shell. rewrite Hs.
    destruct (shell_eqb s target); cbn [app map fst]; [|exact (IH acc)].
    fold (shell_names_of target r).
    destruct (assoc n acc) as [prev|] eqn:Ea.
    + intros [_ Hd]. apply (Hd n (or_introl eq_refl)). eapply assoc_Some_in; eauto.
    + assert (F : ~ In n (map fst acc)) by (apply assoc_None; exact Ea).
      specialize (IH (acc ++ [(n, mkspec cmd nsp)])). cbn zeta in IH.
      rewrite map_app in IH. cbn [map fst] in IH. pose proof (fresh_snoc (shell_names_of target r) _ n F) as Hiff.
      destruct (get_user_specs target r (acc ++ [(n, mkspec cmd nsp)])) as [us|e| |]; try exact IH.
      * destruct IH as (-> & H1 & H2 & H3). rewrite <- app_assoc. repeat split; auto; apply Hiff; exact H3.
      * destruct e; try exact IH. intro H. apply IH. apply Hiff. exact H.
Qed.

Lemma user_view_spans target ds :
  ds_non_command ds = false -> us_spans (user_view target ds) = shell_defs_of target ds.
Proof.
  unfold us_spans, user_view, shell_defs_of.
  induction ds as [|[[[n nsp] [[shn shsp]|]] rhs] r IH]; cbn [ds_non_command existsb flat_map]; intro H;
    [reflexivity| |apply IH; exact H].
  apply orb_false_iff in H. destruct H as [Hc H]. rewrite map_app, (IH H).
  destruct rhs; try discriminate. destruct (is_shell shn target); reflexivity.
Qed.

Lemma get_user_specs_ok target ds us :
  get_user_specs target ds [] = Ok us ->
  us = user_view target ds /\ ds_unknown_shell ds = false /\ ds_non_command ds = false
  /\ NoDup (shell_names_of target ds).
Proof.
  intro H. pose proof (get_user_specs_spec target ds []) as S. rewrite H in S. cbn zeta in S. tauto.
Qed.
