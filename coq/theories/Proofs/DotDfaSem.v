(** C16: the statements the DFA printer's lines of one automaton stand for ([stmts_node_lines],
    [stmts_edge_items]), and what the reader makes of its node statements ([run_states],
    [run_node_lines]). *)
From CG Require Import Base.Prelude Base.Facts Proofs.ListFacts Model.Dfa Spec.DotRead Spec.DotSpec Model.Dot
     Proofs.DotLex Proofs.DotParse Proofs.DotSem Proofs.DotNames Proofs.DotStates Proofs.DotDfaItems.
Local Open Scope string_scope.

Definition nmlb (base : N) (p : string) (s : N) : string * string :=
  (node_id p (s + base), p ++ dec (s + base)).

Lemma items_stmts_app a b : items_stmts (a ++ b)%list = (items_stmts a ++ items_stmts b)%list.
Proof. apply flat_map_app. Qed.

Lemma stmts_state_lines p base l :
  prefix_ok p ->
  items_stmts (map (state_line p base) l) = map label_stmt (map (nmlb base p) l).
Proof.
  intro Hp. induction l as [|s r IH]; [reflexivity|].
  cbn [map]. change (items_stmts (state_line p base s :: map (state_line p base) r))
    with (item_stmts (state_line p base s) ++ items_stmts (map (state_line p base) r))%list.
  rewrite IH. cbn [item_stmts state_line line_stmts app].
  destruct (plain_body _ (label_plain p (s + base) Hp)) as [_ ->]. reflexivity.
Qed.

Definition shape_stmt (sh : string) : stmt := SAttr KNode [("shape", sh)].

Lemma stmts_node_lines base d p :
  prefix_ok p ->
  items_stmts (node_lines patched base d p)
  = (shape_stmt (if memN (d_start d) (d_accepting d) then "doubleoctagon" else "octagon")
     :: map label_stmt [nmlb base p (d_start d)]
     ++ shape_stmt "circle" :: map label_stmt (map (nmlb base p) (regular d))
     ++ shape_stmt "doublecircle" :: map label_stmt (map (nmlb base p) (d_accepting d)))%list.
Proof.
  intro Hp. unfold node_lines. fold (regular d).
  rewrite !items_stmts_app, !(stmts_state_lines p base _ Hp).
  change (items_stmts [ILine LBlank]) with (@nil stmt).
  rewrite app_nil_r.
  change (state_line p base (d_start d)) with (hd (ILine LBlank) (map (state_line p base) [d_start d])).
  cbn [items_stmts flat_map item_stmts line_stmts app map hd state_line].
  destruct (plain_body _ (label_plain p (d_start d + base) Hp)) as [_ ->]. reflexivity.
Qed.

Definition conv (e : edge4) : string * string * attrs :=
  (fst (fst (fst e)), snd (fst (fst e)), [(snd (fst e), qdec (snd e))]).

Lemma stmts_edge_items l : items_stmts (map edge_item l) = map edge_stmt (map conv l).
Proof. induction l as [|e r IH]; [reflexivity|]. cbn [map]. rewrite <- IH. reflexivity. Qed.

Definition x_node (base : N) (p : string) (d : dfa) (s : N) : gnode :=
  mkgnode (node_id p (s + base)) [("shape", shape_of d s); ("label", p ++ dec (s + base))].

Definition one_shape (a : attrs) : Prop := a = [] \/ exists x, a = [("shape", x)].

Lemma run_shape sh o sc :
  one_shape (s_ndef sc) ->
  run_stmt (shape_stmt sh) (o, sc)
  = (o, mkscope [("shape", sh)] (s_edef sc) (s_gattrs sc) (s_members sc) (s_subs sc)).
Proof. intros [E|[x E]]; cbn [run_stmt shape_stmt]; rewrite E; reflexivity. Qed.

Lemma nm_inj base p s s' : prefix_ok p -> node_id p (s + base) = node_id p (s' + base) -> s = s'.
Proof. intros Hp E. destruct (node_id_inj _ _ _ _ Hp Hp E) as [_ H]. lia. Qed.

Definition nm (base : N) (p : string) (s : N) : string := node_id p (s + base).

Lemma nm_in base p s l : prefix_ok p -> In (nm base p s) (map (nm base p) l) <-> In s l.
Proof.
  intro Hp. split; [|apply in_map]. intro H. apply in_map_iff in H as [s' [E Hs']].
  apply (nm_inj base p _ _ Hp) in E. now subst.
Qed.

Lemma ids_x_nodes base p d l : ids (map (x_node base p d) l) = map (nm base p) l.
Proof. unfold ids. rewrite map_map. reflexivity. Qed.

Lemma shape_start d :
  shape_of d (d_start d) = (if memN (d_start d) (d_accepting d) then "doubleoctagon" else "octagon").
Proof. unfold shape_of, is_accepting. now rewrite N.eqb_refl. Qed.

Lemma shape_regular d s : In s (regular d) -> shape_of d s = "circle".
Proof.
  intro H. apply regular_in in H as [_ [Ha Hs]]. unfold shape_of, is_accepting.
  apply N.eqb_neq in Hs. rewrite Hs. apply memN_false in Ha. now rewrite Ha.
Qed.

Lemma shape_acc_rest d s : In s (acc_rest d) -> shape_of d s = "doublecircle".
Proof.
  intro H. apply acc_rest_in in H as [Ha Hs]. unfold shape_of, is_accepting.
  apply N.eqb_neq in Hs. rewrite Hs. apply memN_In in Ha. now rewrite Ha.
Qed.

(** A batch of node statements for the states [L], after [seen] have got their nodes: a state met
    again keeps its node (the statement repeats its label), the others are created in order. *)
Lemma run_states base p d sh ed ga su o0 e m0 L : forall seen,
  prefix_ok p -> NoDup (ids o0) ->
  (forall s, ~ In (nm base p s) (ids o0) /\ ~ In (nm base p s) m0) ->
  NoDup seen -> NoDup L -> (forall s, In s L -> ~ In s seen -> shape_of d s = sh) ->
  let all := (seen ++ filter (fun s => negb (memN s seen)) L)%list in
  run_stmts (map label_stmt (map (nmlb base p) L))
            (mkobjs (o0 ++ map (x_node base p d) seen) e,
             mkscope [("shape", sh)] ed ga (m0 ++ map (nm base p) seen) su)
  = (mkobjs (o0 ++ map (x_node base p d) all) e, mkscope [("shape", sh)] ed ga (m0 ++ map (nm base p) all) su).
Proof.
  intros seen Hp Hnd Hf. revert seen. induction L as [|s L IH]; intros seen Hseen HL Hsh; cbn zeta.
  - cbn [filter map run_stmts fold_left]. rewrite app_nil_r. reflexivity.
  - cbn [map filter]. rewrite run_stmts_cons. inversion HL as [|? ? HsL HL']; subst.
    change (label_stmt (nmlb base p s)) with (SNode (nm base p s) [("label", p ++ dec (s + base))]).
    destruct (memN s seen) eqn:Em; cbn [negb].
    +
      apply memN_In in Em. rewrite run_node_same; cbn [o_nodes s_members].
      * apply IH; [exact Hseen|exact HL'|]. intros t Ht. apply Hsh. now right.
      * rewrite ids_app, ids_x_nodes. apply in_or_app. right. now apply in_map.
      * apply in_or_app. right. now apply in_map.
      * apply (update_node_idem _ (shape_of d s)); [apply in_or_app; right; apply (in_map (x_node base p d) _ _ Em)|].
        rewrite ids_app, ids_x_nodes. apply NoDup_app. split; [exact Hnd|split].
        -- apply FinFun.Injective_map_NoDup; [|exact Hseen]. intros a b E. exact (nm_inj base p _ _ Hp E).
        -- intros x Hx Hx'. apply in_map_iff in Hx' as [t [<- _]]. now apply (proj1 (Hf t)).
    +
      apply memN_false in Em. rewrite run_node_fresh; cbn [o_nodes o_edges s_ndef s_edef s_gattrs s_members s_subs].
      * change (set_attrs [("label", p ++ dec (s + base))] [("shape", sh)]) with [("shape", sh); ("label", p ++ dec (s + base))].
        assert (Hxs : mkgnode (nm base p s) [("shape", sh); ("label", p ++ dec (s + base))] = x_node base p d s)
          by (unfold x_node; now rewrite (Hsh s (or_introl eq_refl) Em)).
        rewrite Hxs.
        rewrite <- !app_assoc. change [x_node base p d s] with (map (x_node base p d) [s]).
        change [nm base p s] with (map (nm base p) [s]). rewrite <- !map_app.
        rewrite (IH (seen ++ [s])%list).
        -- cbn zeta. rewrite <- app_assoc. cbn [app].
           rewrite (filter_ext_in (fun t => negb (memN t (seen ++ [s]))) (fun t => negb (memN t seen))); [reflexivity|].
           intros t Ht. f_equal. unfold memN. rewrite existsb_app. cbn [existsb]. rewrite orb_false_r.
           destruct (N.eqb_spec t s) as [->|_]; [contradiction|apply orb_false_r].
        -- apply NoDup_snoc; assumption.
        -- exact HL'.
        -- intros t Ht Hn. apply Hsh; [now right|]. intro Ht'. apply Hn. apply in_or_app. now left.
      * rewrite ids_app, ids_x_nodes. intro H. apply in_app_or in H as [H|H]; [now apply (proj1 (Hf s))|].
        apply (nm_in base p s seen Hp) in H. contradiction.
      * intro H. apply in_app_or in H as [H|H]; [now apply (proj2 (Hf s))|].
        apply (nm_in base p s seen Hp) in H. contradiction.
Qed.

Lemma run_node_lines base d p o sc :
  prefix_ok p -> NoDup (d_accepting d) -> one_shape (s_ndef sc) -> NoDup (ids (o_nodes o)) ->
  (forall s, ~ In (node_id p (s + base)) (ids (o_nodes o)) /\ ~ In (node_id p (s + base)) (s_members sc)) ->
  run_stmts (items_stmts (node_lines patched base d p)) (o, sc)
  = (mkobjs (o_nodes o ++ map (x_node base p d) (st_list d)) (o_edges o),
     mkscope [("shape", "doublecircle")] (s_edef sc) (s_gattrs sc)
             (s_members sc ++ map (fun s => node_id p (s + base)) (st_list d)) (s_subs sc)).
Proof.
  intros Hp Hacc H1 Hnd Hf. rewrite (stmts_node_lines base d p Hp).
  destruct o as [o0 e], sc as [nd ed ga m0 su]. cbn [o_nodes o_edges s_ndef s_edef s_gattrs s_members s_subs] in *.
  pose proof (st_list_nodup d Hacc) as Hsl. unfold st_list in Hsl. inversion Hsl as [|? ? Hstart Hrest]; subst.
  assert (Hreg : NoDup (regular d)) by (apply NoDup_filter; rewrite all_states_patched; apply bitmap_nodup).
  set (S0 := if memN (d_start d) (d_accepting d) then "doubleoctagon" else "octagon").
  (* the start state; the regular states; the accepting states, among which the start state may
     occur again *)
  rewrite run_stmts_cons, (run_shape S0 (mkobjs o0 e) (mkscope nd ed ga m0 su) H1), run_stmts_app. cbn [s_edef s_gattrs s_members s_subs].
  assert (R : run_stmts (map label_stmt [nmlb base p (d_start d)]) (mkobjs o0 e, mkscope [("shape", S0)] ed ga m0 su)
              = (mkobjs (o0 ++ map (x_node base p d) [d_start d]) e,
                 mkscope [("shape", S0)] ed ga (m0 ++ map (nm base p) [d_start d]) su)).
  { pose proof (run_states base p d S0 ed ga su o0 e m0 [d_start d] [] Hp Hnd Hf (NoDup_nil _)) as R.
    cbn zeta in R. cbn [map filter memN existsb negb app] in R. rewrite !app_nil_r in R. apply R.
    - constructor; [intros []|constructor].
    - intros s [<-|[]] _. apply shape_start. }
  rewrite R.
  rewrite run_stmts_cons, run_shape by (right; now exists S0). rewrite run_stmts_app. cbn [s_edef s_gattrs s_members s_subs].
  rewrite (run_states base p d "circle" ed ga su o0 e m0 (regular d) [d_start d] Hp Hnd Hf);
    [|constructor; [intros []|constructor]|exact Hreg|intros s Hs _; now apply shape_regular].
  cbn zeta. rewrite run_stmts_cons, run_shape by (right; now exists "circle"). cbn [s_edef s_gattrs s_members s_subs].
  rewrite (filter_all _ (regular d)) by (intros s Hs; apply negb_true_iff, memN_false; intros [<-|[]]; apply regular_in in Hs; tauto).
  cbn [app].
  rewrite (run_states base p d "doublecircle" ed ga su o0 e m0 (d_accepting d) (d_start d :: regular d) Hp Hnd Hf);
    [|constructor; [exact (fun H => Hstart (in_or_app _ _ _ (or_introl H)))|exact Hreg]|exact Hacc|].
  - cbn zeta. rewrite acc_unseen. reflexivity.
  - intros s Hs Hn. apply shape_acc_rest, acc_rest_in. split; [exact Hs|]. intros ->. apply Hn. now left.
Qed.
