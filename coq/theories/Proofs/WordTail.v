(** "Nothing follows an undefined nonterminal inside a word" is a consequence of the regex stage.

    [Regex.from_valid_expr] succeeds only on trees all of whose words have their placeholders last
    ([Mistakes.ph_last], [PhPool.from_valid_expr_placeholder]).  [ph_last] of a word
    gives a syntactic invariant [tail_rx] of its translation [trw]; the invariant is preserved by
    linear forms and makes what is left after [WAny] the empty sentence.  Hence, for a compiled
    grammar in which no sequence, alternative or fallback is empty ([PhSpec.grammar_ops_nonempty]),
    the conjunct [eps_only] of [Domain.wpoint_ok] holds at every point [explore] visits:
    [C01_domain_core] implies [C01_domain] (and [C01_tail_only]). *)
From CG Require Import Base.Prelude Model.Ast Model.Check Model.Driver Spec.Choice Spec.Mistakes.
From CG Require Import Spec.Rx Spec.Meaning Spec.Domain Spec.DomainCore.
From CG Require Import Proofs.CheckLemmas Proofs.CheckWarnings Proofs.CheckOrder Proofs.CheckUndefined.
From CG Require Import Proofs.CheckSpacesSpec Proofs.TreeFacts Proofs.CheckTree.
From CG Require Import Proofs.PhExpr Proofs.PhSkel Proofs.PhPool Proofs.PhSpec Proofs.PhTree.
From CG Require Proofs.LangBridge Proofs.DriverFacts Model.Regex.

Local Open Scope list_scope.

Definition any_in (r : rx wleaf) : bool :=
  existsb (fun a => match a with WAny => true | _ => false end) (leaves r).

Fixpoint tail_rx (r : rx wleaf) : bool :=
  match r with
  | Zero | Eps | Leaf _ => true
  | Cat a b => negb (any_in a) && tail_rx b
  | Alt a b => tail_rx a && tail_rx b
  | Plus a => negb (any_in a)
  end.

Lemma any_in_false r : any_in r = false <-> ~ In WAny (leaves r).
Proof.
  unfold any_in. split.
  - intros H Hin. assert (E : existsb (fun a => match a with WAny => true | _ => false end) (leaves r) = true).
    { apply existsb_exists. exists WAny. split; [exact Hin|reflexivity]. }
    congruence.
  - intro H. destruct (existsb _ (leaves r)) eqn:E; [|reflexivity]. exfalso.
    apply existsb_exists in E. destruct E as [a [Hin Ha]]. destruct a; try discriminate. exact (H Hin).
Qed.

Lemma any_in_Cat a b : any_in (Cat a b) = any_in a || any_in b.
Proof. unfold any_in. cbn [leaves]. apply existsb_app. Qed.
Lemma any_in_Alt a b : any_in (Alt a b) = any_in a || any_in b.
Proof. unfold any_in. cbn [leaves]. apply existsb_app. Qed.

Lemma any_in_cat a b : any_in a = false -> any_in b = false -> any_in (cat a b) = false.
Proof.
  rewrite !any_in_false. intros Ha Hb Hin. apply RxFacts.leaves_cat in Hin. tauto.
Qed.

Lemma any_in_alt a b : any_in a = false -> any_in b = false -> any_in (alt a b) = false.
Proof.
  rewrite !any_in_false. intros Ha Hb Hin. apply RxFacts.leaves_alt in Hin. tauto.
Qed.

Lemma noany_tail r : any_in r = false -> tail_rx r = true.
Proof.
  induction r; cbn [tail_rx]; intro H; try reflexivity.
  - rewrite any_in_Cat in H. apply orb_false_iff in H. destruct H as [H1 H2].
    rewrite H1, (IHr2 H2). reflexivity.
  - rewrite any_in_Alt in H. apply orb_false_iff in H. destruct H as [H1 H2].
    rewrite (IHr1 H1), (IHr2 H2). reflexivity.
  - unfold any_in in *. cbn [leaves] in H. rewrite H. reflexivity.
Qed.

Lemma tail_cat a b : any_in a = false -> tail_rx b = true -> tail_rx (cat a b) = true.
Proof.
  intros Ha Hb. pose proof (noany_tail a Ha) as Ta.
  destruct a; destruct b; cbn [cat]; try reflexivity; try exact Hb; try exact Ta;
    cbn [tail_rx]; rewrite Ha; cbn [negb andb]; exact Hb.
Qed.

Lemma tail_cat_eps a : tail_rx a = true -> tail_rx (cat a Eps) = true.
Proof. intro H. destruct a; cbn [cat]; try reflexivity; exact H. Qed.

Lemma tail_alt a b : tail_rx a = true -> tail_rx b = true -> tail_rx (alt a b) = true.
Proof.
  intros Ha Hb.
  destruct a; destruct b; cbn [alt]; try reflexivity; try exact Hb; try exact Ha;
    cbn [tail_rx]; cbn [tail_rx] in Ha, Hb; rewrite ?Ha, ?Hb; reflexivity.
Qed.

Lemma noph_noany w : contains_ph isref w = false -> any_in (trw w) = false.
Proof.
  induction w using expr_ind'; cbn [contains_ph trw]; intro Hc; try reflexivity.
  - discriminate.
  - induction H as [|x l Hx Hl IH]; [reflexivity|].
    cbn [existsb] in Hc. apply orb_false_iff in Hc. destruct Hc as [H1 H2].
    apply any_in_cat; [exact (Hx H1)|exact (IH H2)].
  - induction H as [|x l Hx Hl IH]; [reflexivity|].
    cbn [existsb] in Hc. apply orb_false_iff in Hc. destruct Hc as [H1 H2].
    apply any_in_alt; [exact (Hx H1)|exact (IH H2)].
  - rewrite any_in_Alt, (IHw Hc). reflexivity.
  - exact (IHw Hc).
  - exact (IHw Hc).
  - induction H as [|x l Hx Hl IH]; [reflexivity|].
    cbn [existsb] in Hc. apply orb_false_iff in Hc. destruct Hc as [H1 H2].
    apply any_in_alt; [exact (Hx H1)|exact (IH H2)].
  - exact (IHw Hc).
Qed.

Lemma ph_tail w : ph_last isref w = true -> tail_rx (trw w) = true.
Proof.
  induction w using expr_ind'; try (intros _; reflexivity).
  - rewrite ph_last_seq. cbn [trw].
    induction H as [|x l Hx Hl IH]; intro Hs; [reflexivity|].
    destruct l as [|y l'].
    + cbn [seq_b] in Hs. apply tail_cat_eps. exact (Hx Hs).
    + change (seq_b (x :: y :: l')) with (negb (contains_ph isref x) && seq_b (y :: l')) in Hs.
      apply andb_true_iff in Hs. destruct Hs as [H1 H2]. apply negb_true_iff in H1.
      apply tail_cat; [exact (noph_noany x H1)|exact (IH H2)].
  - cbn [ph_last trw]. induction H as [|x l Hx Hl IH]; intro Hs; [reflexivity|].
    cbn [forallb] in Hs. apply andb_true_iff in Hs. destruct Hs as [H1 H2].
    apply tail_alt; [exact (Hx H1)|exact (IH H2)].
  - cbn [ph_last trw tail_rx]. intro Hs. rewrite (IHw Hs). reflexivity.
  - cbn [ph_last trw tail_rx]. intro Hs. apply negb_true_iff in Hs. rewrite (noph_noany w Hs). reflexivity.
  - cbn [ph_last trw]. exact IHw.
  - cbn [ph_last trw]. induction H as [|x l Hx Hl IH]; intro Hs; [reflexivity|].
    cbn [forallb] in Hs. apply andb_true_iff in Hs. destruct Hs as [H1 H2].
    apply tail_alt; [exact (Hx H1)|exact (IH H2)].
  - cbn [ph_last trw]. exact IHw.
Qed.

Lemma lf_noany r : any_in r = false ->
  forall a k, In (a, k) (lf r) -> a <> WAny /\ any_in k = false.
Proof.
  intros Hr a k Hin. destruct (RxFacts.lf_leaves r a k Hin) as [Ha Hk].
  rewrite any_in_false in Hr. split.
  - intro E. subst a. exact (Hr Ha).
  - apply any_in_false. intro Hw. exact (Hr (Hk _ Hw)).
Qed.

Lemma eps_only_Eps : eps_only Eps = true.
Proof. reflexivity. Qed.

Lemma tail_lf r : tail_rx r = true ->
  forall a k, In (a, k) (lf r) -> tail_rx k = true /\ (a = WAny -> eps_only k = true).
Proof.
  induction r; cbn [tail_rx lf]; intros Ht x k Hin.
  - destruct Hin.
  - destruct Hin.
  - destruct Hin as [E|[]]. inversion E; subst. split; [reflexivity|intros _; reflexivity].
  - apply andb_true_iff in Ht. destruct Ht as [H1 H2]. apply negb_true_iff in H1.
    apply in_app_or in Hin. destruct Hin as [Hin|Hin].
    + apply in_map_iff in Hin. destruct Hin as [[y k'] [E Hin]]. cbn [fst snd] in E. inversion E; subst.
      destruct (lf_noany r1 H1 _ _ Hin) as [Hy Hk']. split.
      * apply tail_cat; assumption.
      * intro E'. contradiction.
    + destruct (nullable r1); [|destruct Hin]. exact (IHr2 H2 _ _ Hin).
  - apply andb_true_iff in Ht. destruct Ht as [H1 H2].
    apply in_app_or in Hin. destruct Hin as [Hin|Hin]; [exact (IHr1 H1 _ _ Hin)|exact (IHr2 H2 _ _ Hin)].
  - apply negb_true_iff in Ht.
    apply in_map_iff in Hin. destruct Hin as [[y k'] [E Hin]]. cbn [fst snd] in E. inversion E; subst.
    destruct (lf_noany r Ht _ _ Hin) as [Hy Hk']. split.
    + apply tail_cat; [exact Hk'|]. unfold star. cbn [tail_rx]. rewrite Ht. reflexivity.
    + intro E'. contradiction.
Qed.

Section ExploreInv.
  Context {A : Type}.
  Variable eqA : A -> A -> bool.
  Variable si : A -> A -> bool.
  Variables ok1 ok2 : list (A * rx A) -> bool.
  Variable Inv : list (rx A) -> Prop.
  Hypothesis Hok : forall s, Inv s -> ok1 (flat_map lf s) = true -> ok2 (flat_map lf s) = true.
  Hypothesis Hsucc : forall s, Inv s -> Forall Inv (succs eqA si s).

  Lemma explore_inv : forall f todo seen,
    Forall Inv todo -> explore eqA si ok1 f todo seen = true -> explore eqA si ok2 f todo seen = true.
  Proof.
    induction f as [|f IH]; intros todo seen Ht; cbn [explore]; [discriminate|].
    destruct todo as [|s rest]; [reflexivity|].
    inversion Ht as [|? ? Hs Hrest]; subst.
    destruct (existsb (state_eqb eqA s) seen).
    - apply IH. exact Hrest.
    - intro H. apply andb_true_iff in H. destruct H as [H1 H2].
      rewrite (Hok s Hs H1). cbn [andb]. apply IH; [|exact H2].
      apply Forall_app. split; [exact Hrest|exact (Hsucc s Hs)].
  Qed.
End ExploreInv.

Lemma dedup_rx_sub {A} (eqA : A -> A -> bool) (l : list (rx A)) r : In r (dedup_rx eqA l) -> In r l.
Proof.
  induction l as [|x l IH]; cbn [dedup_rx]; [tauto|].
  destruct (mem_rx eqA x (dedup_rx eqA l)).
  - intro H. right. exact (IH H).
  - intros [E|H]; [left; exact E|right; exact (IH H)].
Qed.

Definition tails (s : list (rx wleaf)) : Prop := Forall (fun r => tail_rx r = true) s.

Lemma tails_succs s : tails s -> Forall tails (succs wleaf_eqb wsame_item s).
Proof.
  intro Hs. apply Forall_forall. intros t Ht. unfold succs in Ht.
  apply in_map_iff in Ht. destruct Ht as [a [E _]]. subst t.
  apply Forall_forall. intros r Hr. apply dedup_rx_sub in Hr.
  apply in_map_iff in Hr. destruct Hr as [[b k] [E Hin]]. cbn [snd] in E. subst k.
  apply filter_In in Hin. destruct Hin as [Hin _].
  apply in_flat_map in Hin. destruct Hin as [x [Hx Hin]].
  unfold tails in Hs. rewrite Forall_forall in Hs.
  exact (proj1 (tail_lf x (Hs x Hx) _ _ Hin)).
Qed.

Lemma tails_point s : tails s -> wtail_point (flat_map lf s) = true.
Proof.
  intro Hs. unfold wtail_point. apply forallb_forall. intros [a k] Hin. cbn [fst snd].
  apply in_flat_map in Hin. destruct Hin as [x [Hx Hin]].
  unfold tails in Hs. rewrite Forall_forall in Hs.
  destruct a; try reflexivity. exact (proj2 (tail_lf x (Hs x Hx) _ _ Hin) eq_refl).
Qed.

Lemma word_core_ok x : tail_rx x = true -> word_core x = true -> word_ok x = true.
Proof.
  intros Hx H. unfold word_core in H. unfold word_ok.
  apply andb_true_iff in H. destruct H as [H1 H2]. rewrite H1. cbn [andb].
  refine (explore_inv wleaf_eqb wsame_item wpoint_core wpoint_ok tails _ tails_succs _ _ _ _ H2).
  - intros s Hs Hc. change (wpoint_ok (flat_map lf s)) with (wpoint_core (flat_map lf s) && wtail_point (flat_map lf s)).
    rewrite Hc, (tails_point s Hs). reflexivity.
  - constructor; [|constructor]. constructor; [exact Hx|constructor].
Qed.

Lemma word_core_tail x : tail_rx x = true -> word_core x = true ->
  explore wleaf_eqb wsame_item wtail_point explore_fuel [[x]] [] = true.
Proof.
  intros Hx H. unfold word_core in H. apply andb_true_iff in H. destruct H as [_ H2].
  refine (explore_inv wleaf_eqb wsame_item wpoint_core wtail_point tails _ tails_succs _ _ _ _ H2).
  - intros s Hs _. exact (tails_point s Hs).
  - constructor; [|constructor]. constructor; [exact Hx|constructor].
Qed.

Lemma sub_leaves e : forall x lv, In (LSub x lv) (leaves (tr e)) -> exists c, In c (words_of e) /\ x = trw c.
Proof.
  induction e using expr_ind'; cbn [tr words_of]; intros x lv Hin.
  - destruct Hin as [E|[]]. discriminate.
  - destruct Hin as [E|[]]. discriminate.
  - destruct Hin as [E|[]]. discriminate.
  - induction H as [|y r Hy Hr IH]; [destruct Hin|].
    apply RxFacts.leaves_cat in Hin. cbn [flat_map]. destruct Hin as [Hin|Hin].
    + destruct (Hy _ _ Hin) as [c [Hc E]]. exists c. split; [apply in_or_app; left; exact Hc|exact E].
    + destruct (IH Hin) as [c [Hc E]]. exists c. split; [apply in_or_app; right; exact Hc|exact E].
  - induction H as [|y r Hy Hr IH]; [destruct Hin|].
    apply RxFacts.leaves_alt in Hin. cbn [flat_map]. destruct Hin as [Hin|Hin].
    + destruct (Hy _ _ Hin) as [c [Hc E]]. exists c. split; [apply in_or_app; left; exact Hc|exact E].
    + destruct (IH Hin) as [c [Hc E]]. exists c. split; [apply in_or_app; right; exact Hc|exact E].
  - cbn [leaves] in Hin. rewrite app_nil_r in Hin. exact (IHe _ _ Hin).
  - cbn [leaves] in Hin. exact (IHe _ _ Hin).
  - exact (IHe _ _ Hin).
  - induction H as [|y r Hy Hr IH]; [destruct Hin|].
    apply RxFacts.leaves_alt in Hin. cbn [flat_map]. destruct Hin as [Hin|Hin].
    + destruct (Hy _ _ Hin) as [c [Hc E]]. exists c. split; [apply in_or_app; left; exact Hc|exact E].
    + destruct (IH Hin) as [c [Hc E]]. exists c. split; [apply in_or_app; right; exact Hc|exact E].
  - destruct Hin as [E|[]]. inversion E; subst. exists e. split; [left; reflexivity|reflexivity].
Qed.

Lemma subwords_words e x : In x (subwords_of (tr e)) -> exists c, In c (words_of e) /\ x = trw c.
Proof.
  unfold subwords_of. intro Hin. apply in_flat_map in Hin. destruct Hin as [a [Ha Hx]].
  destruct a; try (destruct Hx; fail). destruct Hx as [E|[]]. subst. exact (sub_leaves e _ _ Ha).
Qed.

Theorem regex_ok_tails e rp :
  TreeFacts.dd_free e = true -> flat_subwords e = true -> alts_nonempty e = true ->
  (forall c, In c (words_of e) -> ops_nonempty c = true) ->
  Regex.from_valid_expr e = Ok rp ->
  forall x, In x (subwords_of (tr e)) -> tail_rx x = true.
Proof.
  intros Hd Hf Ha Ho Hr x Hx.
  destruct (subwords_words e x Hx) as [c [Hc E]]. subst x.
  apply ph_tail. destruct (ph_last isref c) eqn:Hp; [reflexivity|]. exfalso.
  destruct (from_valid_expr_placeholder e Hd Hf Ha Ho) as [Hiff _].
  destruct (proj2 Hiff (ex_intro _ c (conj Hc Hp))) as [a [b Herr]]. congruence.
Qed.

Theorem core_domain e :
  (forall x, In x (subwords_of (tr e)) -> tail_rx x = true) ->
  C01_domain_core e = true -> C01_domain e = true /\ C01_tail_only e = true.
Proof.
  intros Ht H. unfold C01_domain_core in H. apply andb_true_iff in H. destruct H as [H1 H2].
  rewrite forallb_forall in H1. split.
  - unfold C01_domain. rewrite H2, andb_true_r. apply forallb_forall. intros x Hx.
    exact (word_core_ok x (Ht x Hx) (H1 x Hx)).
  - unfold C01_tail_only. apply forallb_forall. intros x Hx.
    exact (word_core_tail x (Ht x Hx) (H1 x Hx)).
Qed.

Lemma domain_core e : C01_domain e = true -> C01_domain_core e = true.
Proof.
  unfold C01_domain, C01_domain_core. intro H. apply andb_true_iff in H. destruct H as [H1 H2].
  rewrite H2, andb_true_r. rewrite forallb_forall in *. intros x Hx. specialize (H1 x Hx).
  unfold word_ok in H1. unfold word_core. apply andb_true_iff in H1. destruct H1 as [Ha Hb].
  rewrite Ha. cbn [andb].
  refine (explore_inv wleaf_eqb wsame_item wpoint_ok wpoint_core (fun _ => True) _ _ _ _ _ _ Hb).
  - intros s _ Hc. change (wpoint_ok (flat_map lf s)) with (wpoint_core (flat_map lf s) && wtail_point (flat_map lf s)) in Hc.
    apply andb_true_iff in Hc. exact (proj1 Hc).
  - intros s _. apply Forall_forall. intros; exact I.
  - constructor; [exact I|constructor].
Qed.

Theorem compiled_tails builtins g sh v pick fuel c :
  from_grammar builtins g sh = Ok v -> grammar_ops_nonempty g = true ->
  compile_valid pick fuel v = Ok c ->
  forall x, In x (subwords_of (tr (v_expr v))) -> tail_rx x = true.
Proof.
  intros Hv Hg Hc.
  destruct (check_tree builtins g sh v Hv) as (Hdd & Hflat & _ & Halts).
  specialize (Halts (grammar_ops_alts g Hg)).
  apply DriverFacts.compile_valid_Ok in Hc. destruct Hc as (r & pl & _ & _ & _ & Hr & _).
  exact (regex_ok_tails (v_expr v) (r, pl) Hdd Hflat Halts (valid_words_ops builtins g sh v Hv Hg) Hr).
Qed.

Theorem compiled_domain builtins g sh v pick fuel c :
  from_grammar builtins g sh = Ok v -> grammar_ops_nonempty g = true ->
  compile_valid pick fuel v = Ok c ->
  (C01_domain_core (v_expr v) = true <-> C01_domain (v_expr v) = true) /\
  (C01_domain_core (v_expr v) = true -> C01_tail_only (v_expr v) = true).
Proof.
  intros Hv Hg Hc. pose proof (compiled_tails builtins g sh v pick fuel c Hv Hg Hc) as Ht.
  split; [split|].
  - intro H. exact (proj1 (core_domain _ Ht H)).
  - apply domain_core.
  - intro H. exact (proj2 (core_domain _ Ht H)).
Qed.
