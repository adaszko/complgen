(** Source-level corollary of the capstone, C11: the external commands the emitted bash script can
    run ([compile_bash_commands], last in the file).  Composition of [compile_bash] with Part A / B / C
    of Proofs/CapstoneCommands.v and with the converse direction, proved here in two halves
    ([reachable_commands], [compiled_commands_complete]). *)

(** C11, converse direction, checker half: the command the specification [Spec.Choice.spec]
    chooses for a nonterminal that is reachable from the call variants through the chosen plain
    definitions ([Spec.Warnings.used_names], the reachability of C15) is written in the validated
    tree.  On the infrastructure of Proofs/CheckUndefined.v (paths in the grammar = paths in the
    table; the resolved table is the fixed point of "replace every reference by its entry"). *)
From CG Require Import Base.Prelude Model.Ast Model.Check Spec.Choice Spec.Mistakes Spec.Warnings.
From CG Require Import Proofs.CheckChoice Proofs.CheckLemmas Proofs.CheckUndefined Proofs.CheckResolve Proofs.CheckCycle
  Proofs.CheckCycleSpec Proofs.CheckOrder Proofs.CheckWarnings Proofs.CheckMistakes Proofs.CheckTotal Proofs.TreeAtoms
  Proofs.CapstoneCommands.

Lemma flat_map_lift {X} (P : expr -> list X) (Q : expr -> list string) (h : expr -> expr) cs (x : X) c :
  Forall (fun e => In x (P e) -> In c (Q (h e))) cs -> In x (flat_map P cs) -> In c (flat_map Q (map h cs)).
Proof.
  intros H Hx. apply in_flat_map in Hx. destruct Hx as [e [He Hx]]. rewrite Forall_forall in H.
  apply in_flat_map. exists (h e). split; [apply in_map; exact He|exact (H e He Hx)].
Qed.

Lemma resolve_keeps_cmds t e c : In c (cmd_texts e) -> In c (cmd_texts (resolve t e)).
Proof.
  induction e using expr_ind'; cbn [cmd_texts resolve]; intro Hc; try exact Hc; try (apply IHe; exact Hc);
    try (destruct Hc; fail); exact (flat_map_lift cmd_texts cmd_texts (resolve t) cs c c H Hc).
Qed.

Lemma resolve_entry_cmds t e n rn c :
  In n (all_refs e) -> assoc n t = Some rn -> In c (cmd_texts rn) -> In c (cmd_texts (resolve t e)).
Proof.
  intros Hn Ha Hc. induction e using expr_ind'; cbn [all_refs cmd_texts resolve] in *; try (destruct Hn; fail);
    try (apply IHe; exact Hn); try (exact (flat_map_lift all_refs cmd_texts (resolve t) cs n c H Hn)).
  destruct Hn as [<-|[]]. rewrite Ha. exact Hc.
Qed.

Lemma specialize_ref_cmd sh us bi fs plain e n cm :
  In n (all_refs e) ->
  (forall l sp, exists z, specialize_ref sh us bi fs plain n l sp = Command cm z l sp) ->
  In cm (cmd_texts (specialize sh us bi fs plain e)).
Proof.
  intros Hn Hs. induction e using expr_ind'; cbn [all_refs cmd_texts specialize] in *; try (destruct Hn; fail);
    try (apply IHe; exact Hn); try (exact (flat_map_lift all_refs cmd_texts (specialize sh us bi fs plain) cs n cm H Hn)).
  destruct Hn as [<-|[]]. destruct (Hs l sp) as [z ->]. left. reflexivity.
Qed.

Lemma choose_ref_command builtins g sh x cm l sp :
  Choice.spec builtins g sh x = ChCommand cm -> choose_ref builtins g sh x l sp = Command cm (is_zsh sh) l sp.
Proof.
  unfold Choice.spec, choose_ref. destruct (shell_definition g sh x) as [[]|]; intro H; try discriminate.
  - inversion H; subst. reflexivity.
  - destruct (plain_definition g x); [discriminate|]. destruct (assoc x (builtins sh)); [|discriminate].
    inversion H; subst. reflexivity.
Qed.

Section Reach.
  Variable builtins : shell -> list (string * string).
  Variable g : grammar.
  Variable sh : shell.
  Variable defs0 : list defn.
  Variable us : list (string * user_spec).
  Variable fs : list (string * (string * span)).
  Hypothesis Hcollect : collect_plain_defs (all_defs g) [] = Ok defs0.
  Hypothesis Hspecs : get_specializations g sh = Ok (us, fs).
  Variable ord : list string.

  Let defs1 := defs1_of defs0.
  Let spec := spec_of builtins sh us fs defs1.
  Let defs2 := defs2_of spec defs1.
  Let t0 := table0_of defs2.
  Hypothesis Hord : resolution_order defs2 = Ok ord.
  Let T := resolve_in_order ord t0.

  Lemma T_fix n : assoc n T = option_map (resolve T) (assoc n t0).
  Proof.
    destruct (T_sol builtins sh defs0 us fs ord Hord) as [B HB]. fold defs1 spec defs2 t0 T in HB.
    rewrite (HB (S B)) by lia. rewrite assoc_sol_S. destruct (assoc n t0) as [rhs|]; [|reflexivity].
    cbn [option_map]. f_equal. apply resolve_ext. intros c _. symmetry. apply HB. lia.
  Qed.

  Lemma rpath_cmds e l x cm :
    rpath g sh e l x -> Choice.spec builtins g sh x = ChCommand cm ->
    In cm (cmd_texts (resolve T (spec (distribute_descriptions e)))).
  Proof.
    intros Hp Hx. induction Hp as [e y Hy|e n rhs l y Hn Hc Hp IH].
    - apply resolve_keeps_cmds. unfold spec, spec_of.
      apply (specialize_ref_cmd _ _ _ _ _ _ y cm); [rewrite distribute_descriptions_all_refs; exact Hy|].
      intros l sp. exists (is_zsh sh). unfold defs1.
      rewrite (specialize_ref_choose builtins g sh defs0 us fs Hcollect Hspecs y l sp).
      apply choose_ref_command. exact Hx.
    - specialize (IH Hx).
      destruct (plain_chosen_kept builtins g sh defs0 us fs Hcollect Hspecs n rhs Hc) as [Hk _].
      assert (Hn' : In n (all_refs (spec (distribute_descriptions e)))).
      { apply (spec_refs builtins sh defs0 us fs e n). split; assumption. }
      assert (Ht : assoc n T = Some (resolve T (spec (distribute_descriptions rhs)))).
      { rewrite T_fix. unfold t0, defs2, spec, defs1.
        rewrite (t0_assoc builtins g sh defs0 us fs Hcollect n), (plain_chosen_plain g sh n rhs Hc). reflexivity. }
      exact (resolve_entry_cmds T _ n _ cm Hn' Ht IH).
  Qed.

  Lemma rpath_root e l y : In e (call_exprs g) -> rpath g sh e l y -> rpath g sh (expr0_of g) l y.
  Proof.
    intros He Hp.
    assert (Hroot : forall n, In n (all_refs e) -> In n (all_refs (expr0_of g))).
    { intros n Hn. rewrite expr0_refs. apply in_flat_map. exists e. split; assumption. }
    inversion Hp; subst.
    - apply rp_here. auto.
    - eapply rp_step; eauto.
  Qed.

  Theorem used_cmds x cm :
    In x (used_names g sh) -> Choice.spec builtins g sh x = ChCommand cm ->
    In cm (cmd_texts (resolve T (spec (distribute_descriptions (expr0_of g))))).
  Proof.
    intros Hu Hx.
    assert (Hacyc : exists rank : string -> nat, forall a b, depends g sh a b = true -> (rank b < rank a)%nat).
    { pose proof Hord as Ho. apply resolution_order_ok in Ho. destruct Ho as ([rank Hr] & _ & _).
      exists rank. intros a b Hd. apply Hr.
      apply (model_graph_depends builtins g sh defs0 us fs Hcollect Hspecs). exact Hd. }
    destruct Hacyc as [rank Hrank].
    apply (used_names_rpath g sh rank Hrank) in Hu. destruct Hu as [e [l [He Hp]]].
    apply (rpath_cmds _ l x cm); [|exact Hx]. apply (rpath_root e); assumption.
  Qed.
End Reach.

Theorem reachable_commands builtins g sh v :
  from_grammar builtins g sh = Ok v ->
  forall x cm, In x (used_names g sh) -> Choice.spec builtins g sh x = ChCommand cm ->
               In cm (cmd_texts (v_expr v)).
Proof.
  intros H x cm Hu Hx. apply from_grammar_ok in H. rename H into A.
  rewrite (a_v _ _ _ _ A). cbn [v_expr]. unfold a_expr5.
  rewrite cmd_texts_atoms, propagate_atoms, collapse_atoms, <- cmd_texts_atoms.
  exact (used_cmds builtins g sh _ _ _ (a_collect _ _ _ _ A) (a_specs _ _ _ _ A) _ (a_order _ _ _ _ A) x cm Hu Hx).
Qed.

(** C11, converse direction, automaton half: every command written in the validated tree is in the
    command table of the compiled automata.  Every leaf of a tree without empty alternatives
    occurs in a denoted word ([den_leaf]); the automaton accepts that word (C02, [driver_correct]
    through [compiled_facts]); an accepting run uses a transition for each of its inputs ([accepts_uses]);
    [get_commands] lists the command of every transition of the main automaton and of every
    within-word automaton met on one ([get_commands_total]). *)
From CG Require Import Base.Prelude Model.Ast Model.Check Model.Dfa Model.Driver Model.Tables Spec.Lang.
From CG Require Import Proofs.TablesSound Proofs.TreeFacts Proofs.LangBridge Proofs.SubBridge Proofs.DriverCorrect
  Proofs.CompiledFacts Proofs.CompilerTotal Proofs.CapstoneCommands.
Open Scope list_scope.

(** a word made of pieces ([Subword]) is ONE leaf: a leaf is what the main automaton reads one input for;
    the commands inside a word are reached through the leaves of its piece expression
    ([cmd_texts_leaves]) *)
Fixpoint leaves (e : expr) : list expr :=
  match e with
  | Terminal _ _ _ _ | NontermRef _ _ _ | Command _ _ _ _ | Subword _ _ _ => [e]
  | Sequence cs _ | Alternative cs _ | Fallback cs _ => flat_map leaves cs
  | Optional c _ | Many1 c _ | DistDescr c _ _ => leaves c
  end.

Fixpoint no_dd (e : expr) : bool :=
  match e with
  | Terminal _ _ _ _ | NontermRef _ _ _ | Command _ _ _ _ | Subword _ _ _ => true
  | Sequence cs _ | Alternative cs _ | Fallback cs _ => forallb no_dd cs
  | Optional c _ | Many1 c _ => no_dd c
  | DistDescr _ _ _ => false
  end.

Section DenLeaf.
  Variable A : Type.
  Variable leaf : expr -> list A -> Prop.
  Let den := den A leaf.

  Definition inh_leaves (e : expr) : Prop := forall x, In x (leaves e) -> exists w, leaf x w.

  Lemma leaves_is_leaf e : forall x, In x (leaves e) -> is_leaf x = true.
  Proof.
    induction e using expr_ind'; intros x Hx; cbn [leaves] in Hx;
      try (destruct Hx as [<-|[]]; reflexivity); try (apply IHe; exact Hx);
      try (apply in_flat_map in Hx; destruct Hx as [c [Hc Hx]]; rewrite Forall_forall in H; exact (H c Hc x Hx)).
  Qed.

  Lemma alts_forall cs : match cs with [] => false | _ => forallb alts_nonempty cs end = true -> forallb alts_nonempty cs = true.
  Proof. destruct cs; [discriminate|auto]. Qed.

  Lemma inh_child cs c : In c cs -> (forall x, In x (flat_map leaves cs) -> exists w, leaf x w) -> inh_leaves c.
  Proof. intros Hc Hi x Hx. apply Hi. apply in_flat_map. eauto. Qed.

  (** the induction for [den_leaf] carries along that [e] denotes some word: in a sequence the
      siblings of the child that holds the leaf must each contribute one *)
  Definition covers (e : expr) : Prop :=
    (exists w, den e w) /\ forall x, In x (leaves e) -> exists u w v, den e (u ++ w ++ v) /\ leaf x w.

  Lemma den_covers e : alts_nonempty e = true -> no_dd e = true -> inh_leaves e -> covers e.
  Proof.
    assert (Leaf : forall e0, is_leaf e0 = true -> leaves e0 = [e0] -> inh_leaves e0 -> covers e0).
    { intros e0 He El Hi. destruct (Hi e0) as [w Hw]; [rewrite El; left; reflexivity|].
      assert (D : den e0 w) by (apply D_leaf; assumption). split; [eauto|]. rewrite El.
      intros x [<-|[]]. exists [], w, []. rewrite app_nil_r. auto. }
    (* an alternative: its first branch gives a word, the branch of the leaf gives the word of the leaf *)
    assert (Alt : forall (mk : list expr -> expr) cs,
               (forall c u, In c cs -> den c u -> den (mk cs) u) -> leaves (mk cs) = flat_map leaves cs ->
               Forall (fun c => alts_nonempty c = true -> no_dd c = true -> inh_leaves c -> covers c) cs ->
               match cs with [] => false | _ => forallb alts_nonempty cs end = true -> forallb no_dd cs = true ->
               inh_leaves (mk cs) -> covers (mk cs)).
    { intros mk cs Hmk El H Ha Hd Hi. unfold inh_leaves in Hi. rewrite El in Hi. unfold covers. rewrite El.
      rewrite Forall_forall in H. pose proof (alts_forall cs Ha) as Ha'. rewrite forallb_forall in Ha', Hd.
      assert (Hc : forall c, In c cs -> covers c) by (intros c Hc; exact (H c Hc (Ha' c Hc) (Hd c Hc) (inh_child cs c Hc Hi))).
      split.
      - destruct cs as [|c cs']; [discriminate|]. destruct (proj1 (Hc c (or_introl eq_refl))) as [w Hw].
        exists w. exact (Hmk c w (or_introl eq_refl) Hw).
      - intros x Hx. apply in_flat_map in Hx. destruct Hx as [c [Hin Hx]].
        destruct (proj2 (Hc c Hin) x Hx) as [u [w [v [D L]]]]. exists u, w, v. split; [exact (Hmk c _ Hin D)|exact L]. }
    induction e using expr_ind'; intros Ha Hd Hi; cbn [alts_nonempty no_dd] in Ha, Hd;
      try (apply Leaf; [reflexivity|reflexivity|exact Hi]).
    - (* Sequence *)
      unfold inh_leaves in Hi. cbn [leaves] in Hi. unfold covers. cbn [leaves].
      induction H as [|c cs Hc _ IH]; [split; [exists []; apply D_seq_nil|intros x []]|].
      cbn [forallb flat_map] in Ha, Hd, Hi |- *. apply andb_prop in Ha. apply andb_prop in Hd.
      destruct (Hc (proj1 Ha) (proj1 Hd) (fun x Hx => Hi x (in_or_app _ _ _ (or_introl Hx)))) as [[r Hr] Lc].
      destruct (IH (proj2 Ha) (proj2 Hd) (fun x Hx => Hi x (in_or_app _ _ _ (or_intror Hx)))) as [[r' Hr'] Lcs].
      split; [exists (r ++ r'); apply D_seq_cons; assumption|].
      intros x Hx. apply in_app_or in Hx. destruct Hx as [Hx|Hx].
      + destruct (Lc x Hx) as [u [w [v [D L]]]]. exists u, w, (v ++ r'). split; [|exact L].
        replace (u ++ w ++ v ++ r') with ((u ++ w ++ v) ++ r') by (rewrite <- !app_assoc; reflexivity).
        apply D_seq_cons; assumption.
      + destruct (Lcs x Hx) as [u [w [v [D L]]]]. exists (r ++ u), w, v. split; [|exact L].
        rewrite <- app_assoc. apply D_seq_cons; assumption.
    - apply (Alt (fun cs => Alternative cs sp) cs); try assumption; [intros c u Hc D; eapply D_alt; eauto|reflexivity].
    - split; [exists []; apply D_opt_none|]. intros x Hx.
      destruct (proj2 (IHe Ha Hd Hi) x Hx) as [u [w [v [D L]]]]. exists u, w, v. split; [apply D_opt_some; exact D|exact L].
    - destruct (IHe Ha Hd Hi) as [[r Hr] Lc]. split; [exists r; apply D_many_one; exact Hr|]. intros x Hx.
      destruct (Lc x Hx) as [u [w [v [D L]]]]. exists u, w, v. split; [apply D_many_one; exact D|exact L].
    - discriminate.
    - apply (Alt (fun cs => Fallback cs sp) cs); try assumption; [intros c u Hc D; eapply D_fb; eauto|reflexivity].
  Qed.

  Lemma den_leaf e : alts_nonempty e = true -> no_dd e = true -> inh_leaves e ->
    forall x, In x (leaves e) -> exists u w v, den e (u ++ w ++ v) /\ leaf x w.
  Proof. intros Ha Hd Hi. exact (proj2 (den_covers e Ha Hd Hi)). Qed.
End DenLeaf.

Lemma run_uses d : forall w s t i u v,
  run d s w = Some t -> w = u ++ i :: v -> exists s' t', step d s' i = Some t'.
Proof.
  induction w as [|j w IH]; intros s t i u v Hr Hw.
  - destruct u; discriminate.
  - cbn [run] in Hr. destruct (step d s j) as [t1|] eqn:Es; [|discriminate].
    destruct u as [|j' u]; cbn in Hw; inversion Hw; subst.
    + eauto.
    + eapply IH; [exact Hr|reflexivity].
Qed.

Lemma accepts_uses d ids i u v :
  dfa_wf d -> accepts d ids = true -> ids = u ++ i :: v -> exists s t, In (s, i, t) (iter_transitions d).
Proof.
  intros W Ha Hw. unfold accepts, accepts_from in Ha.
  destruct (run d (d_start d) ids) as [t|] eqn:Hr; [|discriminate].
  destruct (run_uses d ids _ _ i u v Hr Hw) as [s' [t' Hs]]. exists s', t'.
  apply (transitions_from_iter d s' i t' W). unfold step in Hs. unfold transitions_from.
  destruct (assocN s' (d_trans d)) as [tos|]; [|discriminate]. apply assocN_In in Hs. exact Hs.
Qed.

Lemma Forall2_mid {X Y} (R : X -> Y -> Prop) l u y v :
  Forall2 R l (u ++ y :: v) -> exists lu x lv, l = lu ++ x :: lv /\ R x y.
Proof.
  intro H. apply Forall2_app_inv_r in H. destruct H as [lu [l2 [_ [H2 ->]]]].
  inversion H2 as [|x y' lv v' Hxy _]; subst. exists lu, x, lv. auto.
Qed.

Lemma names_cmd_witem x cm z l : wlab x = Some (cmd_witem cm z l) -> names_cmd x cm.
Proof.
  destruct x; cbn [wlab]; intro H; try discriminate; destruct z; cbn [cmd_witem] in H; inversion H; subst;
    exists l; auto.
Qed.

Lemma cmd_texts_leaves e : sub_tree e = true -> forall cm, In cm (cmd_texts e) ->
  (exists z l sp, In (Command cm z l sp) (leaves e))
  \/ (exists c l sp z l' sp', In (Subword c l sp) (leaves e) /\ In (Command cm z l' sp') (leaves c)).
Proof.
  assert (Htop : forall e0, toplevel_tree e0 = true -> forall cm, In cm (cmd_texts e0) ->
                            exists z l sp, In (Command cm z l sp) (leaves e0)).
  { intro e0. induction e0 using expr_ind'; intros Ht cm Hc; cbn [toplevel_tree cmd_texts leaves] in *; try discriminate;
      try (destruct Hc; fail); try (apply IHe0; assumption).
    - destruct Hc as [<-|[]]. do 3 eexists. apply in_eq.
    - apply in_flat_map in Hc. destruct Hc as [c [Hc Hcm]]. rewrite Forall_forall in H. rewrite forallb_forall in Ht.
      destruct (H c Hc (Ht c Hc) cm Hcm) as [z [l [sp' Hl]]]. exists z, l, sp'. apply in_flat_map. eauto.
    - apply in_flat_map in Hc. destruct Hc as [c [Hc Hcm]]. rewrite Forall_forall in H. rewrite forallb_forall in Ht.
      destruct (H c Hc (Ht c Hc) cm Hcm) as [z [l [sp' Hl]]]. exists z, l, sp'. apply in_flat_map. eauto.
    - apply in_flat_map in Hc. destruct Hc as [c [Hc Hcm]]. rewrite Forall_forall in H. rewrite forallb_forall in Ht.
      destruct (H c Hc (Ht c Hc) cm Hcm) as [z [l [sp' Hl]]]. exists z, l, sp'. apply in_flat_map. eauto. }
  assert (Hlist : forall cs, Forall (fun e => sub_tree e = true -> forall cm, In cm (cmd_texts e) ->
       (exists z l sp, In (Command cm z l sp) (leaves e))
       \/ (exists c l sp z l' sp', In (Subword c l sp) (leaves e) /\ In (Command cm z l' sp') (leaves c))) cs ->
     forallb sub_tree cs = true -> forall cm, In cm (flat_map cmd_texts cs) ->
       (exists z l sp, In (Command cm z l sp) (flat_map leaves cs))
       \/ (exists c l sp z l' sp', In (Subword c l sp) (flat_map leaves cs) /\ In (Command cm z l' sp') (leaves c))).
  { intros cs H Ht cm Hc. apply in_flat_map in Hc. destruct Hc as [c [Hc Hcm]]. rewrite Forall_forall in H.
    rewrite forallb_forall in Ht. destruct (H c Hc (Ht c Hc) cm Hcm) as [[z [l [sp' Hl]]]|[c' [l [sp' [z [l' [sp'' [H1 H2]]]]]]]].
    - left. exists z, l, sp'. apply in_flat_map. eauto.
    - right. exists c', l, sp', z, l', sp''. split; [apply in_flat_map; eauto|exact H2]. }
  induction e using expr_ind'; intros Ht cm Hc; cbn [sub_tree cmd_texts leaves] in *; try discriminate;
    try (destruct Hc; fail); try (apply IHe; assumption); try (apply Hlist; assumption).
  - destruct Hc as [<-|[]]. left. do 3 eexists. apply in_eq.
  - destruct (Htop e Ht cm Hc) as [z [l' [sp' Hl]]]. right. do 6 eexists. split; [left; reflexivity|exact Hl].
Qed.

Lemma sub_tree_no_dd e : sub_tree e = true -> no_dd e = true.
Proof.
  induction e using expr_ind'; intro Ht; cbn [sub_tree no_dd] in *; try reflexivity; try discriminate; try (apply IHe; exact Ht);
    apply forallb_forall; intros c Hc; rewrite Forall_forall in H; rewrite forallb_forall in Ht; apply (H c Hc); apply Ht; exact Hc.
Qed.

Lemma toplevel_no_dd e : toplevel_tree e = true -> no_dd e = true.
Proof.
  induction e using expr_ind'; intro Ht; cbn [toplevel_tree no_dd] in *; try reflexivity; try discriminate; try (apply IHe; exact Ht);
    apply forallb_forall; intros c Hc; rewrite Forall_forall in H; rewrite forallb_forall in Ht; apply (H c Hc); apply Ht; exact Hc.
Qed.

Lemma tleaf_inh e : inh_leaves item tleaf e.
Proof.
  intros x Hx. apply leaves_is_leaf in Hx. destruct x; try discriminate.
  - exists [ILeaf (WLit term descr level)]. eexists. split; [reflexivity|]. cbn. reflexivity.
  - exists [ILeaf WStar]. eexists. split; [reflexivity|]. cbn. reflexivity.
  - exists [ILeaf (cmd_witem cmd compadd level)]. eexists. split; [reflexivity|]. cbn. reflexivity.
  - exists [IWord (wdenotes x) level]. eexists. split; [reflexivity|]. cbn. split; [reflexivity|tauto].
Qed.

Lemma wleaf_inh e : toplevel_tree e = true -> inh_leaves witem wleaf e.
Proof.
  induction e using expr_ind'; intros Ht x Hx; cbn [toplevel_tree leaves] in *; try discriminate;
    try (destruct Hx as [<-|[]]; eexists; cbn; reflexivity); try (apply IHe; assumption);
    apply in_flat_map in Hx; destruct Hx as [c [Hc Hx]]; rewrite Forall_forall in H; rewrite forallb_forall in Ht;
    exact (H c Hc (Ht c Hc) x Hx).
Qed.

Lemma leaves_alts e : alts_nonempty e = true -> forall x, In x (leaves e) -> alts_nonempty x = true.
Proof.
  induction e using expr_ind'; intros Ha x Hx; cbn [leaves alts_nonempty] in *;
    try (destruct Hx as [<-|[]]; exact Ha); try (apply IHe; assumption);
    try (apply alts_forall in Ha); apply in_flat_map in Hx; destruct Hx as [c [Hc Hx]]; rewrite Forall_forall in H;
    rewrite forallb_forall in Ha; exact (H c Hc (Ha c Hc) x Hx).
Qed.

Lemma leaves_sub_tree e : sub_tree e = true -> forall c l sp, In (Subword c l sp) (leaves e) -> toplevel_tree c = true.
Proof.
  induction e using expr_ind'; intros Ht c0 l0 sp0 Hx; cbn [leaves sub_tree] in *; try discriminate;
    try (destruct Hx as [Hx|[]]; inversion Hx; subst; exact Ht); try (eapply IHe; eassumption);
    apply in_flat_map in Hx; destruct Hx as [c [Hc Hx]]; rewrite Forall_forall in H;
    rewrite forallb_forall in Ht; exact (H c Hc (Ht c Hc) _ _ _ Hx).
Qed.

Theorem compiled_commands_complete pick fuel v c cmds :
  alts_nonempty (v_expr v) = true -> sub_tree (v_expr v) = true ->
  compile_valid pick fuel v = Ok c -> get_commands c = Ok cmds ->
  forall cm, In cm (cmd_texts (v_expr v)) -> In cm cmds.
Proof.
  intros Ha Ht Hc Hg cm Hcm.
  destruct (compiled_facts pick fuel v c Ha Hc) as [HL [W _]].
  destruct (rtrans_total _ W) as [rt Hrt].
  assert (Hp := compiled_pool_closed pick fuel v c rt Ha Hc Hrt).
  destruct (get_commands_total c rt Hrt Hp) as [cmds' [Hg' [C1 C2]]].
  rewrite Hg in Hg'. inversion Hg'; subst cmds'. clear Hg'.
  destruct (cmd_texts_leaves _ Ht cm Hcm) as [[z [l [sp Hl]]]|[e [l [sp [z [l' [sp' [Hl Hl']]]]]]]].
  - destruct (den_leaf item tleaf _ Ha (sub_tree_no_dd _ Ht) (tleaf_inh _) _ Hl) as [u [w [r [Hden [it [-> Hit]]]]]].
    apply HL in Hden. destruct Hden as [ids [Hacc HF]]. cbn [app] in HF.
    destruct (Forall2_mid _ _ _ _ _ HF) as [lu [i [lv [-> [x [Hx Hxe]]]]]].
    destruct (accepts_uses _ _ i lu lv W Hacc eq_refl) as [s [t Hin]].
    apply (C1 s x t cm); [apply (rtrans_in _ _ _ _ _ Hrt); eauto|].
    apply (names_cmd_witem x cm z l).
    destruct it as [a|L lw]; cbn [item_equiv] in Hit; [subst a|destruct Hit].
    destruct x; cbn [item_of_inp item_equiv wlab] in *; try (rewrite Hxe; reflexivity); destruct Hxe.
  - assert (Hte := leaves_sub_tree _ Ht _ _ _ Hl).
    assert (Hae : alts_nonempty e = true) by (apply (leaves_alts _ Ha _ Hl)).
    destruct (den_leaf item tleaf _ Ha (sub_tree_no_dd _ Ht) (tleaf_inh _) _ Hl) as [u [w [r [Hden [it [-> Hit]]]]]].
    apply HL in Hden. destruct Hden as [ids [Hacc HF]]. cbn [app] in HF.
    destruct (Forall2_mid _ _ _ _ _ HF) as [lu [i [lv [-> [x [Hx Hxe]]]]]].
    destruct (accepts_uses _ _ i lu lv W Hacc eq_refl) as [s [t Hin]].
    destruct it as [a|L lw]; cbn [item_equiv] in Hit; [destruct Hit|]. destruct Hit as [-> HLw].
    destruct x as [t0 d0 l0|k lk|c0 l0|c0 l0|]; cbn [item_of_inp item_equiv] in Hxe; try (destruct Hxe; fail).
    destruct Hxe as [-> Hsub].
    assert (Hrtin : In (s, ISub k l, t) rt) by (apply (rtrans_in _ _ _ _ _ Hrt); eauto).
    destruct (Hp _ _ _ _ Hrtin) as [sd [Hsd Wsd]].
    destruct (rtrans_total _ Wsd) as [srt Hsrt].
    destruct (den_leaf witem wleaf _ Hae (toplevel_no_dd _ Hte) (wleaf_inh _ Hte) _ Hl') as [u' [w' [r' [Hden' Hw']]]].
    cbn [wleaf] in Hw'. subst w'.
    apply HLw in Hden'. apply Hsub in Hden'. destruct Hden' as [ids' [Hacc' HF']].
    unfold sub_dfa in *. unfold nthN in Hsd. rewrite (nth_error_nth _ _ dead_dfa Hsd) in *.
    cbn [app] in HF'. destruct (Forall2_mid _ _ _ _ _ HF') as [lu' [i' [lv' [-> [x' [Hx' Hxl]]]]]].
    destruct (accepts_uses _ _ i' lu' lv' Wsd Hacc' eq_refl) as [s' [t' Hin']].
    apply (C2 s k l t sd srt s' x' t' cm Hrtin); [exact Hsd|exact Hsrt|apply (rtrans_in _ _ _ _ _ Hsrt); eauto|].
    exact (names_cmd_witem x' cm z l' Hxl).
Qed.

From CG Require Import Base.Prelude Model.Ast Model.Parser Model.Check Model.Dfa Model.Driver Model.Tables
  Model.EmitBash Model.Compiler Spec.Choice Spec.ScriptRead Spec.Warnings.
From CG Require Import Proofs.TablesSound Proofs.BashCodec Proofs.BashScript Proofs.BashScriptRead Proofs.CapstoneMeaning Proofs.CapstoneCommands.

Theorem compile_bash_commands o builtins text s :
  compile_bash o builtins text = Ok s ->
  exists g v c nd a,
    Parser.parse text = Ok g
    /\ compile (pick_table (o_pops o)) (o_fuel o) builtins text Bash = Ok (v, c)
    /\ all_tables Bash c (o_main_lits o) (o_sub_lits o) = Ok (nd, a)
    /\ (forall cm, In cm (a_commands a) -> cmd_source builtins g Bash cm)
    /\ (forall x cm, In x (used_names g Bash) -> Choice.spec builtins g Bash x = ChCommand cm -> In cm (a_commands a))
    /\ (name_ok (v_command v) -> no_nl (o_sig o) = true ->
        Forall (fun cm => body_ok (cmd_body cm)) (a_commands a) ->
        exists sts,
          script_stmts (v_command v) (d_start (c_main c)) nd a (o_groups o) = Ok sts
          /\ read_stmts Bash (v_command v) s = sts
          /\ forall b, In (SBody b) sts <-> exists cm, In cm (a_commands a) /\ b = cmd_body cm).
Proof.
  intro H. destruct (compile_bash_inv o builtins text s H) as [g [v [c [nd [a [Hg [Hv [Hcv [Hc [Halts [Ho [Ha [Vg Hs]]]]]]]]]]]]].
  exists g, v, c, nd, a. split; [exact Hg|]. split; [exact Hc|]. split; [exact Ha|]. split; [|split].
  - intros cm Hcm. destruct (all_tables_inv _ _ _ _ _ _ Ha) as [rt F].
    apply (from_grammar_cmds builtins g Bash v Hv).
    exact (compiled_commands _ _ v c _ Hcv (af_cmds _ _ _ _ _ _ _ F) cm Hcm).
  - intros x cm Hu Hx. destruct (all_tables_inv _ _ _ _ _ _ Ha) as [rt F].
    apply (compiled_commands_complete _ _ v c _ Halts (parsed_sub_tree builtins text g Bash v Hg eq_refl Hv) Hcv
             (af_cmds _ _ _ _ _ _ _ F)).
    exact (reachable_commands builtins g Bash v Hv x cm Hu Hx).
  - intros Hn Hsig Hb.
    destruct (bash_script_read _ _ _ _ _ _ _ Hn Hsig Hb Hs) as [sts [S1 S2]].
    exists sts. split; [exact S1|]. split; [exact S2|]. apply (script_bodies _ _ _ _ _ _ S1).
Qed.
