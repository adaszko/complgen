(** Forgetting what matching cannot see -- [||] levels, descriptions, and the [||] / [|]
    distinction -- on the item languages of [Spec.Lang]: the validated tree of a grammar and of
    its [|] variant ([CheckBar.bar_grammar]) denote the same item words once every item is erased
    ([erases]), because [denotes (norm e)] IS the erased language of [denotes e]. *)
From CG Require Import Base.Prelude Model.Ast Model.Check Spec.Lang.
From CG Require Import Proofs.LangDen Proofs.LangJudge Proofs.MeaningLevels Proofs.CheckBar.

Definition erase_witem (a : witem) : witem :=
  match a with
  | WLit t _ _ => WLit t None 0
  | WCmd c _ => WCmd c 0
  | WCompadd c _ => WCompadd c 0
  | WStar => WStar
  end.

Definition erase_lang (L : list witem -> Prop) (u : list witem) : Prop :=
  exists v, L v /\ map erase_witem v = u.

(** [y] is (equivalent to) the erasure of [x] *)
Definition erases (x y : item) : Prop :=
  match x with
  | ILeaf a => item_equiv (ILeaf (erase_witem a)) y
  | IWord L _ => item_equiv (IWord (erase_lang L) 0) y
  end.

Definition erased_lang (L : list item -> Prop) (u : list item) : Prop :=
  exists w, L w /\ Forall2 erases w u.

Lemma erase_lang_iff : forall L L', (forall v, L v <-> L' v) -> forall u, erase_lang L u <-> erase_lang L' u.
Proof. intros L L' H u. split; intros [v [Hv E]]; exists v; split; auto; apply H; auto. Qed.

Lemma erases_equiv_l : forall x x' y, item_equiv x x' -> erases x y -> erases x' y.
Proof.
  intros [a|L l] [a'|L' l'] y He H; simpl in He; try tauto.
  - subst. exact H.
  - destruct He as [-> He]. unfold erases in *. eapply item_equiv_trans; [|exact H].
    simpl. split; [reflexivity|]. intros v. apply erase_lang_iff. intros v0. symmetry. apply He.
Qed.

Lemma erases_equiv_r : forall x y y', item_equiv y y' -> erases x y -> erases x y'.
Proof. intros [a|L l] y y' He H; unfold erases in *; eapply item_equiv_trans; eauto. Qed.

Section NormDen.
  Variables A A' : Type.
  Variable leaf : expr -> list A -> Prop.
  Variable leaf' : expr -> list A' -> Prop.
  Variable R : A -> A' -> Prop.

  Definition eimg (e : expr) (u : list A') : Prop := exists w, den A leaf e w /\ Forall2 R w u.

  Hypothesis leaf_norm : forall e, is_leaf e = true ->
    forall u, leaf' (norm e) u <-> exists w, leaf e w /\ Forall2 R w u.

  Lemma is_leaf_norm : forall e, is_leaf (norm e) = is_leaf e.
  Proof. destruct e; reflexivity. Qed.

  Lemma eimg_seq_nil : forall sp u, eimg (Sequence [] sp) u <-> u = [].
  Proof.
    intros sp u. unfold eimg. split.
    - intros [w [D F]]. apply den_seq_nil in D. subst. inversion F. reflexivity.
    - intros ->. exists []. split; [apply den_seq_nil; reflexivity|constructor].
  Qed.

  Lemma eimg_seq_cons : forall c cs sp u,
    eimg (Sequence (c :: cs) sp) u <-> exists u1 u2, u = u1 ++ u2 /\ eimg c u1 /\ eimg (Sequence cs sp) u2.
  Proof.
    intros c cs sp u. unfold eimg. split.
    - intros [w [D F]]. apply den_seq_cons in D. destruct D as [w1 [w2 [-> [D1 D2]]]].
      apply Forall2_app_inv_l in F. destruct F as [u1 [u2 [F1 [F2 ->]]]].
      exists u1, u2. split; [reflexivity|]. split; eauto.
    - intros [u1 [u2 [-> [[w1 [D1 F1]] [w2 [D2 F2]]]]]]. exists (w1 ++ w2). split.
      + apply den_seq_cons. eauto.
      + apply Forall2_app; assumption.
  Qed.

  Lemma eimg_alt : forall cs sp u, eimg (Alternative cs sp) u <-> exists c, In c cs /\ eimg c u.
  Proof.
    intros cs sp u. unfold eimg. split.
    - intros [w [D F]]. apply den_alt in D. destruct D as [c [Hc D]]. eauto.
    - intros [c [Hc [w [D F]]]]. exists w. split; auto. apply den_alt. eauto.
  Qed.

  Lemma eimg_fb : forall cs sp u, eimg (Fallback cs sp) u <-> exists c, In c cs /\ eimg c u.
  Proof.
    intros cs sp u. unfold eimg. split.
    - intros [w [D F]]. apply den_fb in D. destruct D as [c [Hc D]]. eauto.
    - intros [c [Hc [w [D F]]]]. exists w. split; auto. apply den_fb. eauto.
  Qed.

  Lemma eimg_opt : forall c sp u, eimg (Optional c sp) u <-> u = [] \/ eimg c u.
  Proof.
    intros c sp u. unfold eimg. split.
    - intros [w [D F]]. apply den_opt in D. destruct D as [->|D]; [left; inversion F; reflexivity|right; eauto].
    - intros [->|[w [D F]]].
      + exists []. split; [apply den_opt; auto|constructor].
      + exists w. split; auto. apply den_opt. auto.
  Qed.

  Lemma eimg_many : forall c sp u, eimg (Many1 c sp) u <-> plusP (eimg c) u.
  Proof.
    intros c sp u. unfold eimg. split.
    - intros [w [D F]]. apply den_many in D. revert u F.
      induction D as [w D|w1 w2 D1 D2 IH]; intros u F.
      + apply PP_one. eauto.
      + apply Forall2_app_inv_l in F. destruct F as [u1 [u2 [F1 [F2 ->]]]].
        apply PP_more; [eauto|]. apply IH. exact F2.
    - intros P. induction P as [u [w [D F]]|u1 u2 [w1 [D1 F1]] P [w2 [D2 F2]]].
      + exists w. split; auto. apply den_many. apply PP_one. exact D.
      + exists (w1 ++ w2). split; [|apply Forall2_app; assumption].
        apply den_many. apply PP_more; [exact D1|]. apply den_many in D2. exact D2.
  Qed.

  Theorem den_norm : forall e u, den A' leaf' (norm e) u <-> eimg e u.
  Proof.
    assert (Leaf : forall e, is_leaf e = true -> forall u, den A' leaf' (norm e) u <-> eimg e u).
    { intros e He u. rewrite den_leaf_iff by (rewrite is_leaf_norm; exact He). rewrite (leaf_norm e He).
      unfold eimg. split; intros [w [Hw F]]; exists w; (split; [|exact F]).
      - apply den_leaf_iff; assumption.
      - apply (den_leaf_iff A leaf) in Hw; assumption. }
    (* an alternative of the normalised children is an alternative of the children *)
    assert (Alt : forall cs, Forall (fun e => forall u, den A' leaf' (norm e) u <-> eimg e u) cs ->
                             forall u, (exists c', In c' (map norm cs) /\ den A' leaf' c' u) <-> (exists c, In c cs /\ eimg c u)).
    { intros cs H u. rewrite Forall_forall in H. split.
      - intros [c' [Hin D]]. apply in_map_iff in Hin. destruct Hin as [c [<- Hin]].
        exists c. split; auto. apply H; auto.
      - intros [c [Hin D]]. exists (norm c). split; [apply in_map; exact Hin|]. apply H; auto. }
    induction e using expr_ind'; intros u; try (apply Leaf; reflexivity); cbn [norm].
    - revert u. induction H as [|c cs Hc H IH]; intros u; cbn [map].
      + rewrite den_seq_nil, eimg_seq_nil. tauto.
      + rewrite den_seq_cons, eimg_seq_cons.
        split; intros [u1 [u2 [-> [H1 H2]]]]; exists u1, u2; (split; [reflexivity|]); split;
          try (apply Hc; assumption); apply IH; assumption.
    - rewrite den_alt, eimg_alt. apply Alt. exact H.
    - rewrite den_opt, eimg_opt, IHe. tauto.
    - rewrite den_many, eimg_many. apply plusP_iff. exact IHe.
    - split.
      + intros D. destruct (den_dd _ _ _ _ _ _ D).
      + intros [w [D _]]. destruct (den_dd _ _ _ _ _ _ D).
    - (* Fallback becomes Alternative *)
      rewrite den_alt, eimg_fb. apply Alt. exact H.
  Qed.
End NormDen.

Lemma Forall2_erase_map : forall v u, Forall2 (fun a a' => a' = erase_witem a) v u <-> map erase_witem v = u.
Proof.
  intros v u. split.
  - intros F. induction F; simpl; congruence.
  - intros <-. induction v; simpl; constructor; auto.
Qed.

Lemma wleaf_norm : forall e, is_leaf e = true ->
  forall u, wleaf (norm e) u <-> exists w, wleaf e w /\ Forall2 (fun a a' => a' = erase_witem a) w u.
Proof.
  intros e _ u. destruct e; cbn [norm wleaf]; try (split; [tauto|intros [w [[] _]]]).
  - split.
    + intros ->. eexists. split; [reflexivity|]. repeat constructor.
    + intros [w [-> F]]. apply Forall2_erase_map in F. subst. reflexivity.
  - split.
    + intros ->. eexists. split; [reflexivity|]. repeat constructor.
    + intros [w [-> F]]. apply Forall2_erase_map in F. subst. reflexivity.
  - split.
    + intros ->. eexists. split; [reflexivity|]. constructor; [destruct compadd; reflexivity|constructor].
    + intros [w [-> F]]. apply Forall2_erase_map in F. subst. destruct compadd; reflexivity.
Qed.

Theorem wdenotes_norm : forall c u, wdenotes (norm c) u <-> erase_lang (wdenotes c) u.
Proof.
  intros c u. unfold wdenotes. rewrite (den_norm witem witem wleaf wleaf _ wleaf_norm c u).
  unfold eimg, erase_lang. split; intros [v [D F]]; exists v; split; auto; apply Forall2_erase_map; auto.
Qed.

Lemma tleaf_norm : forall e, is_leaf e = true ->
  forall u, tleaf (norm e) u <-> exists w, tleaf e w /\ Forall2 erases w u.
Proof.
  intros e _ u.
  assert (G : forall X Y, erases X Y ->
              ((exists it, u = [it] /\ item_equiv it Y) <->
               (exists w, (exists it0, w = [it0] /\ item_equiv it0 X) /\ Forall2 erases w u))).
  { intros X Y HXY. split.
    - intros [it [-> Hit]]. exists [X]. split; [exists X; split; [reflexivity|apply item_equiv_refl]|].
      constructor; [|constructor]. eapply erases_equiv_r; [apply item_equiv_sym; exact Hit|exact HXY].
    - intros [w [[it0 [-> H0]] F]]. inversion F as [|? y ? ? Hy F']; subst. inversion F'; subst.
      exists y. split; [reflexivity|].
      (* y is an erasure of it0 ~ X, Y is an erasure of X: they are equivalent *)
      assert (HXy : erases X y) by (eapply erases_equiv_l; eauto).
      destruct X as [a|L l]; unfold erases in HXY, HXy;
        (eapply item_equiv_trans; [apply item_equiv_sym; exact HXy|exact HXY]). }
  destruct e; cbn [norm]; unfold tleaf.
  - apply G. simpl. reflexivity.
  - apply G. simpl. reflexivity.
  - apply G. simpl. destruct compadd; reflexivity.
  - split; [intros [it [_ []]]|intros [w [[it [_ []]] _]]].
  - split; [intros [it [_ []]]|intros [w [[it [_ []]] _]]].
  - split; [intros [it [_ []]]|intros [w [[it [_ []]] _]]].
  - split; [intros [it [_ []]]|intros [w [[it [_ []]] _]]].
  - split; [intros [it [_ []]]|intros [w [[it [_ []]] _]]].
  - split; [intros [it [_ []]]|intros [w [[it [_ []]] _]]].
  - apply G. simpl. split; [reflexivity|]. intros v. symmetry. apply wdenotes_norm.
Qed.

Theorem denotes_norm : forall e u, denotes (norm e) u <-> erased_lang (denotes e) u.
Proof. intros e u. unfold denotes. apply (den_norm item item tleaf tleaf erases tleaf_norm e u). Qed.

Corollary erased_denotes_of_norm_eq : forall e e', norm e = norm e' ->
  forall u, erased_lang (denotes e) u <-> erased_lang (denotes e') u.
Proof. intros e e' H u. rewrite <- !denotes_norm, H. tauto. Qed.

Theorem from_grammar_bar_norm : forall builtins g sh v v',
  from_grammar builtins g sh = Ok v ->
  from_grammar builtins (bar_grammar g) sh = Ok v' ->
  norm (v_expr v') = norm (v_expr v).
Proof.
  intros builtins g sh v v' H H'.
  apply from_grammar_expand in H. destruct H as [defs0 [us [fs [ord [Ed [Es [Eo Ev]]]]]]].
  apply from_grammar_expand in H'. destruct H' as [defs0' [us' [fs' [ord' [Ed' [Es' [Eo' Ev']]]]]]].
  rewrite get_specializations_bar, Es in Es'. inversion Es'; subst us' fs'.
  rewrite all_defs_bar in Ed'. pose proof (collect_plain_defs_bar (all_defs g) []) as C.
  cbn [map] in C. rewrite Ed, Ed' in C. inversion C; subst defs0'. clear C.
  assert (Hnames : map d_name (map bar_defn defs0) = map d_name defs0).
  { rewrite map_map. reflexivity. }
  assert (Hplain : plain_of (map bar_defn defs0) = bar_defs (plain_of defs0)).
  { unfold plain_of, bar_defs. rewrite !map_map. reflexivity. }
  assert (Eord : ord' = ord).
  { assert (R : resolution_order (prepared_defns sh us (builtins sh) fs (map bar_defn defs0))
                = resolution_order (prepared_defns sh us (builtins sh) fs defs0)).
    { apply resolution_order_ext; unfold prepared_defns; rewrite Hnames, !map_map; cbn [d_name d_span d_rhs bar_defn];
        try reflexivity.
      apply map_ext. intro d. apply get_nonterm_refs_of_norm_eq.
      rewrite !norm_specialize, !norm_distribute_descriptions, norm_bar. reflexivity. }
    rewrite R, Eo in Eo'. inversion Eo'. reflexivity. }
  subst ord'. rewrite Ev, Ev', Hnames, Hplain, call_expr_bar.
  apply expand_bar.
Qed.
