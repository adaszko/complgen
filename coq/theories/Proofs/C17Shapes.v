(** C17, for ALL inputs: every invocation Model/BashSem.v logs has one of the documented argument shapes and
    names a command that exists ([run_from_shapes]).  The same walk through the interpreter ([run_from_good])
    shows, for [Repaired] only, that nothing but the within-word loop can run out of fuel and that nothing panics. *)
From CG Require Import Base.Prelude Base.Facts Model.Dfa Model.Glob Model.BashSem.
From CG Require Import Proofs.C12Proofs.

Inductive shape (ws : list string) (p : string) : invocation -> Prop :=
| ShWalk cid : shape ws p (cid, EmptyString, EmptyString)                         (* matching a complete word *)
| ShCursor cid : shape ws p (cid, p, EmptyString)                                 (* completing at the cursor *)
| ShInWord cid w ci : In w (p :: ws) -> shape ws p (cid, sdrop ci w, stake ci w). (* inside the word w *)

(** [good B R x]: the outcome [x] is a result that satisfies [R], or it is [Err] (the query leaves the modelled
    domain); it runs out of fuel or panics only if [B]. *)
Notation good B R := (post R any B B).

Lemma good_allowed {A} (B : Prop) (x : M A) : B -> good B any x.
Proof. intros HB. destruct x; cbn; auto; exact I. Qed.

Lemma filterM_good {A} B (f : A -> M bool) l : (forall x, good B any (f x)) -> good B any (filterM f l).
Proof.
  intros H. induction l as [|x r IH]; [exact I|]. cbn [filterM].
  apply (post_bind any); [apply H|]. intros b _ _. apply (post_bind any); [exact IH|]. intros; exact I.
Qed.

Lemma match_fn_good B e p cands : good B any (match_fn e p cands).
Proof.
  unfold match_fn. destruct p; [exact I|]. destruct (printf_q _); [|exact I].
  apply filterM_good. intros x. unfold globm. destruct (glob_match true _ _); exact I.
Qed.

Lemma shortest_suffix_good B prefix : forall breaks best, good B any (shortest_suffix breaks prefix best).
Proof.
  induction breaks as [|c r IH]; intros best; [exact I|]. cbn [shortest_suffix].
  destruct (rm_longest_prefix _ prefix); [apply IH|exact I].
Qed.

Lemma strip_reply_good B e prefix matches : good B any (strip_reply e prefix matches).
Proof.
  unfold strip_reply. apply (post_bind any); [apply shortest_suffix_good|]. intros sh _ _.
  apply (post_bind any).
  { destruct (String.eqb sh prefix); [exact I|]. destruct (rm_shortest_suffix sh prefix); exact I. }
  intros sup _ _. apply post_omap. intros m _. destruct (rm_shortest_prefix sup m); exact I.
Qed.

Lemma sub_row_good B subs : forall row, good B any (sub_row subs row).
Proof.
  induction row as [|[pool to] r IH]; [exact I|]. cbn [sub_row].
  destruct (script_id subs pool); [|exact I]. apply (post_bind any); [exact IH|]. intros; exact I.
Qed.

(** every round of the within-word loop over [T] that goes on consumes a character *)
Definition progresses (v : variant) (tabs : alltables) (e : env) (T : tables) : Prop :=
  forall c word state ci log st adv l,
    (ci < String.length word)%nat ->
    sw_round v c tabs e T word state ci log = Ok (SCont st adv, l) -> (1 <= adv)%nat.

(** [- 0]: the fuel hypothesis of [sw_loop_good] at [ci = 0] *)
Lemma sw_fuel_enough T word : (String.length word - 0 < sw_fuel T word)%nat.
Proof.
  unfold sw_fuel.
  set (k := (count_entries (t_mlit T) + match t_mcmd T with Some l => count_entries l | None => 0 end)%nat).
  nia.
Qed.

(** The walk through the interpreter: [P] holds of everything logged, given that it holds of the three kinds of
    call the script makes.  Either [B], or the variant is [Repaired], whose tests are string comparisons (the glob
    matcher of the other variants is not looked into), and then the within-word loops have to progress. *)
Section Run.
  Variables (B : Prop) (v : variant) (tabs : alltables) (e : env) (P : invocation -> Prop).
  Hypothesis Hv : B \/ v = Repaired.

  Definition called (cid : N) : Prop := nthN (a_commands tabs) cid <> None.
  Definition logged {A} (r : A * list invocation) : Prop := Forall P (snd r).

  Lemma run_cmd_good cid a1 a2 log :
    (called cid -> P (cid, a1, a2)) -> Forall P log -> good B logged (run_cmd v tabs e cid a1 a2 log).
  Proof.
    unfold run_cmd, called. intros HP L. destruct (nthN (a_commands tabs) cid); [|exact I].
    constructor; [apply HP; discriminate|exact L].
  Qed.

  Section Word.
    Variables (word : string).
    Hypothesis Hword : forall cid ci, called cid -> P (cid, sdrop ci word, stake ci word).

    Lemma cmd_loop_good c cmds ci : forall log,
        Forall P log -> good B logged (cmd_loop v c tabs e cmds (sdrop ci word) (stake ci word) log).
    Proof.
      induction cmds as [|[cid to] r IH]; intros log L; [exact L|]. cbn [cmd_loop].
      apply (post_bind logged); [apply run_cmd_good; [apply Hword|exact L]|]. intros [cands log1] _ L1.
      destruct cands as [|c0 cs]; [apply IH; exact L1|].
      apply (post_bind any); [destruct Hv as [HB| ->]; [apply good_allowed; exact HB|exact I]|].
      intros s _ _. destruct s; [exact L1|exact L1|apply IH; exact L1].
    Qed.

    Variable T : tables.
    Hypothesis Hprog : B \/ progresses v tabs e T.

    Lemma sw_round_good c state ci log : Forall P log -> good B logged (sw_round v c tabs e T word state ci log).
    Proof.
      intros L. unfold sw_round.
      apply (post_bind any).
      { destruct (assocN state (t_mlit T)); [|exact I]. destruct Hv as [HB| ->]; [apply good_allowed; exact HB|exact I]. }
      intros s1 _ _. destruct s1; [exact L|exact L|]. unfold sw_cmds.
      destruct (t_mcmd T) as [ct|]; [|exact L]. destruct (assocN state ct) as [row|]; [|exact L].
      apply cmd_loop_good. exact L.
    Qed.

    Lemma sw_loop_good c acc : forall fuel state ci log,
        B \/ (String.length word - ci < fuel)%nat -> Forall P log ->
        good B logged (sw_loop fuel v c tabs e T acc word state ci log).
    Proof.
      induction fuel as [|fuel IH]; intros state ci log Hf L; [destruct Hf as [HB|Hf]; [exact HB|lia]|].
      rewrite sw_loop_S. destruct (Nat.leb (String.length word) ci) eqn:El; [exact L|].
      destruct (star_first v c T state); [exact L|]. apply Nat.leb_gt in El.
      apply (post_bind logged); [apply sw_round_good; exact L|]. intros [s l] E L1.
      destruct s as [st adv| |]; [|exact L1|exact L1].
      apply IH; [|exact L1]. destruct Hf as [HB|Hf]; [left; exact HB|].
      destruct Hprog as [HB|Hp]; [left; exact HB|right]. pose proof (Hp _ _ _ _ _ _ _ _ El E). lia.
    Qed.

    Lemma sw_cmds_level_good ci : forall cids sc sm log,
        Forall P log -> good B logged (sw_cmds_level v tabs e cids (sdrop ci word) (stake ci word) sc sm log).
    Proof.
      induction cids as [|cid r IH]; intros sc sm log L; [exact L|]. cbn [sw_cmds_level].
      apply (post_bind logged); [apply run_cmd_good; [apply Hword|exact L]|]. intros [cands log1] _ L1.
      apply (post_bind any); [apply match_fn_good|]. intros f _ _. apply IH. exact L1.
    Qed.

    Lemma sw_levels_good state ci : forall n level sc sm log,
        Forall P log -> good B logged (sw_levels n level v tabs e T state (stake ci word) (sdrop ci word) sc sm log).
    Proof.
      induction n as [|n IH]; intros level sc sm log L; [exact L|]. cbn [sw_levels].
      apply (post_bind any); [apply match_fn_good|]. intros m _ _.
      apply (post_bind logged); [destruct (t_ccmd T); [apply sw_cmds_level_good|]; exact L|].
      intros [[sc2 sm2] log2] _ L2. destruct sm2; [apply IH|]; exact L2.
    Qed.

    Lemma subword_matches_good acc log : Forall P log -> good B logged (subword_matches v tabs e T acc word log).
    Proof.
      intros L. unfold subword_matches, subword_matches_from.
      apply (post_bind logged); [apply sw_loop_good; [right; apply sw_fuel_enough|exact L]|].
      intros [[[m s] c] l] _ L1. exact L1.
    Qed.

    Lemma subword_complete_good log : Forall P log -> good B logged (subword_complete v tabs e T word log).
    Proof.
      intros L. unfold subword_complete, subword_complete_from.
      apply (post_bind logged); [apply sw_loop_good; [right; apply sw_fuel_enough|exact L]|].
      intros [[[m s] c] l] _ L1. apply sw_levels_good. exact L1.
    Qed.
  End Word.

  Variables (ws : list string) (p : string).
  Hypothesis Hwalk : forall cid, called cid -> P (cid, EmptyString, EmptyString).
  Hypothesis Hcursor : forall cid, called cid -> P (cid, p, EmptyString).
  Hypothesis Hinword : forall w, In w (p :: ws) -> forall cid ci, called cid -> P (cid, sdrop ci w, stake ci w).
  Hypothesis Hprogs : B \/ forall sid T, subword_tables (a_subwords tabs) sid = Some T -> progresses v tabs e T.

  Lemma progress_of sid T : subword_tables (a_subwords tabs) sid = Some T -> B \/ progresses v tabs e T.
  Proof. intros E. destruct Hprogs as [HB|H]; [left; exact HB|right; exact (H sid T E)]. Qed.

  Lemma top_sub_loop_good w : In w (p :: ws) -> forall row log,
      Forall P log -> good B logged (top_sub_loop v tabs e row w log).
  Proof.
    intros Hin. induction row as [|[sid to] rest IH]; intros log L; [exact L|]. cbn [top_sub_loop].
    destruct (subword_tables (a_subwords tabs) sid) as [T|] eqn:E; [|exact I].
    apply (post_bind logged); [apply (subword_matches_good w (Hinword w Hin) T (progress_of sid T E)); exact L|].
    intros [m log1] _ L1. destruct m; [exact L1|apply IH; exact L1].
  Qed.

  Lemma top_cmd_loop_good w last : forall cmds log,
      Forall P log -> good B logged (top_cmd_loop v tabs e cmds w last log).
  Proof.
    induction cmds as [|[cid to] rest IH]; intros log L; [exact L|]. cbn [top_cmd_loop].
    apply (post_bind logged); [apply run_cmd_good; [apply Hwalk|exact L]|]. intros [cands log1] _ L1.
    destruct cands as [|c cs]; [apply IH; exact L1|].
    apply (post_bind any); [destruct Hv as [HB| ->]; [apply good_allowed; exact HB|exact I]|].
    intros m _ _. destruct m; [exact L1|]. destruct (last && quirky v); [exact L1|apply IH; exact L1].
  Qed.

  Lemma walk_good : forall words state log,
      incl words ws -> Forall P log -> good B logged (walk v tabs e state words log).
  Proof.
    induction words as [|w rest IH]; intros state log Hincl L; [exact L|].
    assert (Hw : In w (p :: ws)) by (right; apply Hincl; now left).
    assert (Hrest : incl rest ws) by (intros x Hx; apply Hincl; now right).
    cbn [walk].
    destruct (match assocN state (t_mlit (a_main tabs)) with Some st => _ | None => None end) as [to|];
      [apply IH; assumption|].
    apply (post_bind logged).
    { destruct (assocN state (a_subtrans tabs)) as [row|]; [|exact L].
      apply (post_bind any); [apply sub_row_good|]. intros srow _ _. apply top_sub_loop_good; assumption. }
    intros [s1 log1] _ L1. destruct s1 as [to|]; [apply IH; assumption|].
    apply (post_bind logged).
    { destruct (t_mcmd (a_main tabs)) as [ct|]; [|exact L1].
      destruct (assocN state ct) as [row|]; [apply top_cmd_loop_good|]; exact L1. }
    intros [s2 log2] _ L2. destruct s2 as [to| |]; [apply IH; assumption|exact L2|].
    destruct (match t_mstar (a_main tabs) with Some stars => assocN state stars | None => None end);
      [apply IH; assumption|exact L2].
  Qed.

  Lemma top_subs_level_good : forall sids matches log,
      Forall P log -> good B logged (top_subs_level v tabs e sids p matches log).
  Proof.
    induction sids as [|sid r IH]; intros matches log L; [exact L|]. cbn [top_subs_level].
    destruct (subword_tables (a_subwords tabs) sid) as [T|] eqn:E; [|exact I].
    apply (post_bind logged);
      [apply (subword_complete_good p (Hinword p (or_introl eq_refl)) T (progress_of sid T E)); exact L|].
    intros [add log1] _ L1. apply IH. exact L1.
  Qed.

  Lemma top_cmds_level_good : forall cids cands matches log,
      Forall P log -> good B logged (top_cmds_level v tabs e cids p cands matches log).
  Proof.
    induction cids as [|cid r IH]; intros cands matches log L; [exact L|]. cbn [top_cmds_level].
    apply (post_bind logged); [apply run_cmd_good; [apply Hcursor|exact L]|]. intros [cands1 log1] _ L1.
    apply (post_bind any); [destruct cands1; [exact I|apply match_fn_good]|]. intros m _ _. apply IH. exact L1.
  Qed.

  Lemma top_levels_good state : forall n level cands matches log,
      Forall P log -> good B logged (top_levels n level v tabs e state p cands matches log).
  Proof.
    induction n as [|n IH]; intros level cands matches log L; [exact L|]. cbn [top_levels].
    apply (post_bind any); [destruct (_ ++ _); [exact I|apply match_fn_good]|]. intros m _ _.
    apply (post_bind logged); [apply top_subs_level_good; exact L|]. intros [matches2 log2] _ L2.
    apply (post_bind logged); [destruct (t_ccmd (a_main tabs)); [apply top_cmds_level_good|]; exact L2|].
    intros [[cands3 matches3] log3] _ L3. destruct matches3; [apply IH; exact L3|].
    apply (post_bind any); [apply strip_reply_good|]. intros reply _ _. exact L3.
  Qed.

  Theorem run_from_good start :
    good B (fun r => Forall P (r_log r) /\ (r_rc r = 0 \/ r_rc r = 1)) (run_from v start tabs e ws p).
  Proof.
    unfold run_from. apply (post_bind logged); [apply walk_good; [apply incl_refl|constructor]|].
    intros [st log] _ L. destruct st as [state|]; [|split; [apply Forall_rev; exact L|now right]].
    apply (post_bind logged); [apply top_levels_good; exact L|].
    intros [reply log1] _ L1. split; [apply Forall_rev; exact L1|now left].
  Qed.
End Run.

Theorem run_from_shapes tabs e ws p v start r :
  run_from v start tabs e ws p = Ok r ->
  Forall (fun inv => shape ws p inv /\ nthN (a_commands tabs) (fst (fst inv)) <> None) (r_log r).
Proof.
  intros H.
  assert (G : good True (fun r => Forall (fun inv => shape ws p inv /\ called tabs (fst (fst inv))) (r_log r)
                                  /\ (r_rc r = 0 \/ r_rc r = 1)) (run_from v start tabs e ws p)).
  { apply run_from_good; try (left; exact I).
    - intros cid Hc. split; [apply ShWalk|exact Hc].
    - intros cid Hc. split; [apply ShCursor|exact Hc].
    - intros w Hw cid ci Hc. split; [now apply ShInWord|exact Hc]. }
  rewrite H in G. exact (proj1 G).
Qed.

Corollary run_from_no_commands v tabs e start words p r :
  a_commands tabs = [] -> run_from v start tabs e words p = Ok r -> r_log r = [].
Proof.
  intros E H. apply run_from_shapes in H. destruct (r_log r) as [|i l]; [reflexivity|].
  inversion H as [|? ? [_ Hi] _]. rewrite E in Hi. exfalso. apply Hi. unfold nthN.
  destruct (N.to_nat (fst (fst i))); reflexivity.
Qed.
