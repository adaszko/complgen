(** C17 at top level (tables without within-word expressions: [spec_subword_free]): [run_from] of Model/BashSem.v
    returns what Spec/Invocations.v prescribes.  Every variant does on clean command output and glob-free words,
    outside the escape situation ([run_from_spec]); [Repaired] does without those three conditions
    ([run_from_spec_repaired]). *)
From CG Require Import Base.Prelude Base.Facts Model.Dfa Model.Glob Model.BashSem Spec.Invocations.
From CG Require Import Proofs.GlobFacts Proofs.SubwordFacts.

Definition nl : string := String c_nl EmptyString.
Definition unlines (ls : list string) : string := sconcat (map (fun l => (l ++ nl)%string) ls).

(** no newline, no blank (space or tab), and not an option word of echo *)
Definition clean_line (l : string) : Prop :=
  contains_char c_nl l = false /\ contains_char c_sp l = false /\ contains_char c_tab l = false
  /\ echo_text l = (l ++ nl)%string.

Lemma contains_char_cons c d s : contains_char c (String d s) = false -> aeq d c = false /\ contains_char c s = false.
Proof. cbn [contains_char]. unfold aeq. destruct (Ascii.eqb d c); [discriminate|]. now split. Qed.

Lemma lines_acc_line l : forall rest cur,
    contains_char c_nl l = false ->
    lines_acc (l ++ nl ++ rest) cur = (cur ++ l)%string :: lines_acc rest EmptyString.
Proof.
  induction l as [|d l IH]; intros rest cur H.
  - cbn [append nl lines_acc]. rewrite aeq_refl. now rewrite append_nil_r.
  - apply contains_char_cons in H as [Hd Hl]. cbn [append lines_acc]. rewrite Hd.
    rewrite (IH rest _ Hl). now rewrite append_assoc.
Qed.

Lemma readarray_acc_line l : forall rest cur,
    contains_char c_nl l = false ->
    readarray_acc (l ++ nl ++ rest) cur = (cur ++ l)%string :: readarray_acc rest EmptyString.
Proof.
  induction l as [|d l IH]; intros rest cur H.
  - cbn [append nl readarray_acc]. rewrite aeq_refl. now rewrite append_nil_r.
  - apply contains_char_cons in H as [Hd Hl]. cbn [append readarray_acc]. rewrite Hd.
    rewrite (IH rest _ Hl). now rewrite append_assoc.
Qed.

Lemma unlines_cons l ls : unlines (l :: ls) = (l ++ nl ++ unlines ls)%string.
Proof. unfold unlines. cbn [map sconcat fold_right]. now rewrite append_assoc. Qed.

Lemma complete_lines_unlines ls :
  Forall (fun l => contains_char c_nl l = false) ls -> complete_lines (unlines ls) = ls.
Proof.
  unfold complete_lines. induction ls as [|l ls IH]; intros H; [reflexivity|].
  inversion H as [|? ? Hl Hls]; subst. rewrite unlines_cons, (lines_acc_line l _ _ Hl). cbn [append].
  now rewrite IH.
Qed.

Lemma readarray_unlines ls :
  Forall (fun l => contains_char c_nl l = false) ls -> readarray_acc (unlines ls) EmptyString = ls.
Proof.
  induction ls as [|l ls IH]; intros H; [reflexivity|].
  inversion H as [|? ? Hl Hls]; subst. rewrite unlines_cons, (readarray_acc_line l _ _ Hl). cbn [append].
  now rewrite IH.
Qed.

Lemma is_blank_false d : aeq d c_sp = false -> aeq d c_tab = false -> is_blank d = false.
Proof. intros H1 H2. unfold is_blank. now rewrite H1, H2. Qed.

Lemma until_blank_clean l :
  contains_char c_sp l = false -> contains_char c_tab l = false -> until_blank l = l.
Proof.
  induction l as [|d l IH]; intros H1 H2; [reflexivity|].
  apply contains_char_cons in H1 as [A1 B1]. apply contains_char_cons in H2 as [A2 B2].
  cbn [until_blank]. rewrite (is_blank_false d A1 A2). now rewrite IH.
Qed.

Lemma first_field_clean l :
  contains_char c_sp l = false -> contains_char c_tab l = false -> first_field l = l.
Proof.
  intros H1 H2. unfold first_field. destruct l as [|d l]; [reflexivity|].
  pose proof (contains_char_cons _ _ _ H1) as [A1 _]. pose proof (contains_char_cons _ _ _ H2) as [A2 _].
  cbn [skip_blanks]. rewrite (is_blank_false d A1 A2). now apply until_blank_clean.
Qed.

Lemma until_tab_clean l : contains_char c_tab l = false -> until_tab l = l.
Proof.
  induction l as [|d l IH]; intros H; [reflexivity|].
  apply contains_char_cons in H as [A B]. cbn [until_tab]. rewrite A. now rewrite IH.
Qed.

(** the candidates of the quirky variants: on clean output `read -r f1 _` + `echo "$f1"` + readarray is the
    identity on lines *)
Theorem filter_lines_clean ls : Forall clean_line ls -> filter_lines (unlines ls) = ls.
Proof.
  intros H. unfold filter_lines.
  assert (Hn : Forall (fun l => contains_char c_nl l = false) ls).
  { eapply Forall_impl; [|exact H]. intros l (A & _). exact A. }
  rewrite (complete_lines_unlines ls Hn).
  replace (sconcat (map (fun l => echo_text (first_field l)) ls)) with (unlines ls).
  - now apply readarray_unlines.
  - unfold unlines. f_equal. apply map_ext_in. intros l Hin.
    rewrite Forall_forall in H. destruct (H l Hin) as (_ & B & C & D).
    now rewrite (first_field_clean l B C), D.
Qed.

Theorem spec_candidates_clean ls : Forall clean_line ls -> spec_candidates (unlines ls) = ls.
Proof.
  intros H. unfold spec_candidates.
  assert (Hn : Forall (fun l => contains_char c_nl l = false) ls).
  { eapply Forall_impl; [|exact H]. intros l (A & _). exact A. }
  rewrite (complete_lines_unlines ls Hn).
  rewrite <- (map_id ls) at 2. apply map_ext_in. intros l Hin.
  rewrite Forall_forall in H. destruct (H l Hin) as (_ & _ & C & _). now apply until_tab_clean.
Qed.

Definition clean_env (e : env) : Prop :=
  forall cid, exists ls, cmd_output e cid = unlines ls /\ Forall clean_line ls.

Lemma clean_env_candidates e : clean_env e -> forall cid, filter_lines (cmd_output e cid) = spec_candidates (cmd_output e cid).
Proof.
  intros H cid. destruct (H cid) as (ls & -> & Hc).
  now rewrite (filter_lines_clean ls Hc), (spec_candidates_clean ls Hc).
Qed.

Lemma any_glob_plain w : plain w = true -> forall cands, any_glob w cands = Ok (existsb (String.eqb w) cands).
Proof.
  intros Hw. induction cands as [|c r IH]; [reflexivity|].
  cbn [any_glob existsb]. rewrite (globm_exact w c Hw). cbn [obind].
  destruct (String.eqb w c); [reflexivity|exact IH].
Qed.

Lemma existsb_insert_desc f x : forall l,
    existsb f (map snd (insert_desc x l)) = f (snd x) || existsb f (map snd l).
Proof.
  induction l as [|y r IH]; [reflexivity|].
  cbn [insert_desc]. destruct (cand_before y x).
  - cbn [map existsb]. rewrite IH. rewrite !orb_assoc. f_equal. apply orb_comm.
  - reflexivity.
Qed.

Lemma existsb_sorted f : forall L : list (N * string),
    existsb f (map snd (fold_right insert_desc [] L)) = existsb f (map snd L).
Proof.
  induction L as [|x r IH]; [reflexivity|].
  cbn [fold_right map existsb]. now rewrite existsb_insert_desc, IH.
Qed.

Lemma existsb_sort_desc f l : existsb f (sort_desc l) = existsb f l.
Proof. unfold sort_desc. now rewrite existsb_sorted, map_snd_indexed_from. Qed.

Lemma lines_acc_no_nl : forall s cur,
    contains_char c_nl cur = false ->
    Forall (fun l => contains_char c_nl l = false) (lines_acc s cur).
Proof.
  induction s as [|c r IH]; intros cur Hc; [constructor|].
  cbn [lines_acc]. destruct (aeq c c_nl) eqn:E.
  - constructor; [exact Hc|]. now apply IH.
  - apply IH. clear IH. induction cur as [|d cur IHc]; cbn [append contains_char].
    + unfold aeq in E. rewrite E. reflexivity.
    + apply contains_char_cons in Hc as [A B]. unfold aeq in A. rewrite A. now apply IHc.
Qed.

Lemma until_tab_no_nl l : contains_char c_nl l = false -> contains_char c_nl (until_tab l) = false.
Proof.
  induction l as [|d l IH]; intros H; [reflexivity|].
  apply contains_char_cons in H as [A B]. cbn [until_tab].
  destruct (aeq d c_tab); [reflexivity|]. cbn [contains_char]. unfold aeq in A. rewrite A. now apply IH.
Qed.

(** [Repaired]: the candidates of a command are the text before the first tab of every line, whatever it prints *)
Theorem filter_lines_repaired_spec output : filter_lines_repaired output = spec_candidates output.
Proof.
  unfold filter_lines_repaired, spec_candidates.
  pose proof (lines_acc_no_nl output EmptyString eq_refl) as H. fold (complete_lines output) in H.
  change (sconcat (map (fun l => (until_tab l ++ String c_nl "")%string) (complete_lines output)))
    with (sconcat (map (fun l => (until_tab l ++ nl)%string) (complete_lines output))).
  rewrite <- (map_map until_tab (fun l => (l ++ nl)%string)).
  change (sconcat (map (fun l => (l ++ nl)%string) (map until_tab (complete_lines output))))
    with (unlines (map until_tab (complete_lines output))).
  apply readarray_unlines. apply Forall_map. eapply Forall_impl; [|exact H].
  intros l Hl. now apply until_tab_no_nl.
Qed.

Section TopLevel.
  Variables (v : variant) (tabs : alltables) (e : env).
  Hypothesis Hfree : spec_subword_free tabs.
  (** holds for the quirky variants on clean environments, and for [Repaired] always *)
  Hypothesis Hcands : forall cid, command_lines v (cmd_output e cid) = spec_candidates (cmd_output e cid).
  Hypothesis Hcase : e_ignore_case e = false.

  Lemma run_cmd_spec cid a1 a2 log : run_cmd v tabs e cid a1 a2 log = spec_call tabs e cid a1 a2 log.
  Proof. unfold run_cmd, spec_call. destruct (nthN (a_commands tabs) cid); [|reflexivity]. now rewrite Hcands. Qed.

  Lemma top_cmd_loop_spec w last : (quirky v = true -> plain w = true) -> forall cmds log r log' esc,
      spec_cmd_loop tabs e cmds w last log = Ok (r, log', esc) ->
      (quirky v = true -> esc = false) ->
      top_cmd_loop v tabs e cmds w last log
      = Ok (match r with Some to => WNext to | None => WNone end, log').
  Proof.
    intros Hw. induction cmds as [|[cid to] rest IH]; intros log r log' esc H Hq.
    - cbn in H. injection H as <- <- _. reflexivity.
    - cbn [spec_cmd_loop top_cmd_loop] in *. rewrite run_cmd_spec.
      destruct (spec_call tabs e cid "" "" log) as [[cands log1]| | |]; cbn [obind] in *; try discriminate.
      destruct cands as [|c cs].
      + cbn [existsb] in H.
        destruct (spec_cmd_loop tabs e rest w last log1) as [[[r2 l2] esc2]| | |] eqn:E; cbn [obind] in H; try discriminate.
        injection H as <- <- Hesc. rewrite andb_false_r, orb_false_r in Hesc. subst esc2.
        exact (IH _ _ _ _ E Hq).
      + destruct (quirky v) eqn:Q.
        * rewrite (any_glob_plain w (Hw eq_refl)), existsb_sort_desc. cbn [obind].
          destruct (existsb (String.eqb w) (c :: cs)).
          -- injection H as <- <- _. reflexivity.
          -- destruct (spec_cmd_loop tabs e rest w last log1) as [[[r2 l2] esc2]| | |] eqn:E; cbn [obind] in H; try discriminate.
             injection H as <- <- Hesc.
             specialize (Hq eq_refl). rewrite Hq in Hesc.
             apply orb_false_iff in Hesc as [-> Hl]. rewrite andb_true_r in Hl. subst last.
             cbn [andb]. exact (IH _ _ _ _ E (fun _ => eq_refl)).
        * rewrite existsb_sort_desc. cbn [obind].
          destruct (existsb (String.eqb w) (c :: cs)).
          -- injection H as <- <- _. reflexivity.
          -- destruct (spec_cmd_loop tabs e rest w last log1) as [[[r2 l2] esc2]| | |] eqn:E; cbn [obind] in H; try discriminate.
             injection H as <- <- Hesc.
             rewrite andb_false_r. apply (IH _ _ _ _ E). discriminate.
  Qed.

  Lemma walk_spec : forall ws state log r log' esc,
      (quirky v = true -> Forall (fun w => plain w = true) ws) ->
      spec_walk tabs e state ws log = Ok (r, log', esc) ->
      (quirky v = true -> esc = false) ->
      walk v tabs e state ws log = Ok (r, log').
  Proof.
    induction ws as [|w rest IH]; intros state log r log' esc Hp H Hq.
    - cbn in H. injection H as <- <- _. reflexivity.
    - assert (Hw : quirky v = true -> plain w = true).
      { intros Q. specialize (Hp Q). now inversion Hp. }
      assert (Hrest : quirky v = true -> Forall (fun w => plain w = true) rest).
      { intros Q. specialize (Hp Q). now inversion Hp. }
      cbn [spec_walk walk] in *.
      destruct (match assocN state (t_mlit (a_main tabs)) with
                | Some st => top_lit_loop (indexed_from 0 (literal_texts (a_main tabs))) st w
                | None => None
                end) as [to|].
      { exact (IH _ _ _ _ _ Hrest H Hq). }
      destruct Hfree as [Hs _]. rewrite Hs. cbn [assocN obind].
      set (last := match rest with [] => true | _ => false end) in *.
      (* going on in the state [to] *)
      assert (Step : forall to l1 esc1,
                 (do (r2, log2, esc2) <- spec_walk tabs e to rest l1; Ok (r2, log2, esc1 || esc2)) = Ok (r, log', esc) ->
                 (quirky v = true -> esc1 = false) /\ walk v tabs e to rest l1 = Ok (r, log')).
      { intros to l1 esc1 HT.
        destruct (spec_walk tabs e to rest l1) as [[[r2 l2] esc2]| | |] eqn:E2; cbn [obind] in HT; try discriminate.
        injection HT as <- <- Hesc.
        assert (Hq' : quirky v = true -> esc1 = false /\ esc2 = false)
          by (intros Q; apply orb_false_iff; rewrite Hesc; exact (Hq Q)).
        split; [intros Q; exact (proj1 (Hq' Q))|]. apply (IH _ _ _ _ _ Hrest E2). intros Q. exact (proj2 (Hq' Q)). }
      (* the tail of both functions after the command loop *)
      assert (Tail : forall r1 l1 esc1,
                 match r1 with
                 | Some to => do (r2, log2, esc2) <- spec_walk tabs e to rest l1; Ok (r2, log2, esc1 || esc2)
                 | None =>
                   match (match t_mstar (a_main tabs) with Some stars => assocN state stars | None => None end) with
                   | Some to => do (r2, log2, esc2) <- spec_walk tabs e to rest l1; Ok (r2, log2, esc1 || esc2)
                   | None => Ok (None, l1, esc1)
                   end
                 end = Ok (r, log', esc) ->
                 (quirky v = true -> esc1 = false)
                 /\ match (match r1 with Some to => WNext to | None => WNone end) with
                    | WNext to => walk v tabs e to rest l1
                    | WEscape => Ok (Some state, l1)
                    | WNone =>
                      match (match t_mstar (a_main tabs) with Some stars => assocN state stars | None => None end) with
                      | Some to => walk v tabs e to rest l1
                      | None => Ok (None, l1)
                      end
                    end = Ok (r, log')).
      { intros r1 l1 esc1 HT. destruct r1 as [to|]; [exact (Step to l1 esc1 HT)|].
        destruct (match t_mstar (a_main tabs) with Some stars => assocN state stars | None => None end) as [to|];
          [exact (Step to l1 esc1 HT)|].
        injection HT as <- <- ->. split; [exact Hq|reflexivity]. }
      destruct (t_mcmd (a_main tabs)) as [ct|].
      + destruct (assocN state ct) as [row|].
        * destruct (spec_cmd_loop tabs e (assoc_of row) w last log) as [[[r1 l1] esc1]| | |] eqn:E;
            cbn [obind] in H; try discriminate.
          destruct (Tail r1 l1 esc1 H) as [Hq1 HW].
          rewrite (top_cmd_loop_spec w last Hw _ _ _ _ _ E Hq1). cbn [obind]. exact HW.
        * cbn [obind] in *. destruct (Tail None log false H) as [_ HW]. exact HW.
      + cbn [obind] in *. destruct (Tail None log false H) as [_ HW]. exact HW.
  Qed.

  Variable p : string.
  Hypothesis Hprint : printable_str p = true.

  Lemma spec_cmds_level_appends : forall cids matches log m' l',
      spec_cmds_level tabs e cids p matches log = Ok (m', l') -> exists extra, m' = matches ++ extra.
  Proof.
    induction cids as [|cid r IH]; intros matches log m' l' H.
    - cbn in H. injection H as <- <-. exists []. now rewrite app_nil_r.
    - cbn [spec_cmds_level] in H.
      destruct (spec_call tabs e cid p "" log) as [[cands1 log1]| | |]; cbn [obind] in H; try discriminate.
      destruct (IH _ _ _ _ H) as [extra ->]. exists (filter (String.prefix p) cands1 ++ extra).
      now rewrite app_assoc.
  Qed.

  (** the commands of one level: same matches and log; the bash array `candidates` ([cands']) offers nothing new if
      nothing was offered *)
  Lemma top_cmds_level_spec : forall cids cands matches log m' l',
      spec_cmds_level tabs e cids p matches log = Ok (m', l') ->
      exists cands', top_cmds_level v tabs e cids p cands matches log = Ok (cands', m', l')
                     /\ (filter (String.prefix p) cands = [] -> m' = [] -> filter (String.prefix p) cands' = []).
  Proof.
    induction cids as [|cid r IH]; intros cands matches log m' l' H.
    - cbn in H. injection H as <- <-. cbn. exists cands. split; [reflexivity|tauto].
    - cbn [spec_cmds_level top_cmds_level] in *. rewrite run_cmd_spec.
      destruct (spec_call tabs e cid p "" log) as [[cands1 log1]| | |]; cbn [obind] in *; try discriminate.
      assert (Hm : (match cands1 with [] => Ok [] | _ => match_fn e p cands1 end)
                   = (Ok (filter (String.prefix p) cands1) : M (list string))).
      { destruct cands1; [reflexivity|]. now apply match_fn_prefix_filter. }
      rewrite Hm. cbn [obind].
      destruct (IH cands1 _ _ _ _ H) as (cands' & -> & Hinv). exists cands'. split; [reflexivity|].
      intros _ Hnil. apply Hinv; [|exact Hnil].
      destruct (spec_cmds_level_appends _ _ _ _ _ H) as [extra Hx]. rewrite Hnil in Hx.
      symmetry in Hx. apply app_eq_nil in Hx as [Hx _]. now apply app_eq_nil in Hx as [_ Hx].
  Qed.

  Lemma top_levels_spec : forall n level state cands log,
      filter (String.prefix p) cands = [] ->
      forall res, spec_levels n level tabs e state p log = Ok res ->
      top_levels n level v tabs e state p cands [] log = Ok res.
  Proof.
    induction n as [|n IH]; intros level state cands log Hinv0 res H.
    - exact H.
    - cbn [spec_levels top_levels] in *.
      set (cands0 := if quirky v then cands else []).
      assert (Hinv : filter (String.prefix p) cands0 = []) by (unfold cands0; destruct (quirky v); [exact Hinv0|reflexivity]).
      clearbody cands0.
      set (lits := map (fun id => (literal_at (a_main tabs) id ++ " ")%string)
                       (level_row (t_clit (a_main tabs)) level state)) in *.
      assert (Hm : (match cands0 ++ lits with [] => Ok [] | _ => match_fn e p (cands0 ++ lits) end)
                   = (Ok (filter (String.prefix p) lits) : M (list string))).
      { replace (filter (String.prefix p) lits) with (filter (String.prefix p) (cands0 ++ lits))
          by (now rewrite filter_app, Hinv).
        destruct (cands0 ++ lits); [reflexivity|]. now apply match_fn_prefix_filter. }
      rewrite Hm. cbn [obind List.app].
      destruct Hfree as [_ Hc]. rewrite Hc. cbn [top_subs_level obind].
      destruct (t_ccmd (a_main tabs)) as [cc|].
      + destruct (spec_cmds_level tabs e (level_row cc level state) p (filter (String.prefix p) lits) log)
          as [[m' l']| | |] eqn:E; cbn [obind] in H; try discriminate.
        destruct (top_cmds_level_spec _ (cands0 ++ lits) _ _ _ _ E) as (cands' & -> & Hinv'). cbn [obind].
        destruct m' as [|x m'].
        * apply IH; [|exact H]. apply Hinv'; [|reflexivity].
          rewrite filter_app, Hinv. cbn [List.app].
          destruct (spec_cmds_level_appends _ _ _ _ _ E) as [extra Hx].
          symmetry in Hx. now apply app_eq_nil in Hx as [Hx _].
        * exact H.
      + cbn [obind] in *.
        destruct (filter (String.prefix p) lits) as [|x m'] eqn:El.
        * apply IH; [|exact H]. now rewrite filter_app, Hinv, El.
        * exact H.
  Qed.
End TopLevel.

Theorem run_from_spec_gen :
  forall v start tabs e ws p r esc,
    spec_subword_free tabs -> e_ignore_case e = false -> printable_str p = true ->
    (forall cid, command_lines v (cmd_output e cid) = spec_candidates (cmd_output e cid)) ->
    (quirky v = true -> Forall (fun w => plain w = true) ws) ->
    spec_run start tabs e ws p = Ok (r, esc) ->
    (quirky v = true -> esc = false) ->
    run_from v start tabs e ws p = Ok r.
Proof.
  intros v start tabs e ws p r esc Hfree Hcase Hp Hc Hws H Hq.
  unfold spec_run in H. unfold run_from.
  destruct (spec_walk tabs e start ws []) as [[[st log] esc0]| | |] eqn:E; cbn [obind] in H; try discriminate.
  assert (esc0 = esc) as ->.
  { destruct st as [state|].
    - destruct (spec_levels _ 0 tabs e state p log) as [[reply log1]| | |]; cbn [obind] in H; try discriminate.
      now injection H.
    - now injection H. }
  rewrite (walk_spec v tabs e Hfree Hc ws start [] st log esc Hws E Hq). cbn [obind].
  destruct st as [state|].
  - destruct (spec_levels _ 0 tabs e state p log) as [[reply log1]| | |] eqn:E2; cbn [obind] in H; try discriminate.
    rewrite (top_levels_spec v tabs e Hfree Hc Hcase p Hp _ 0 state [] log eq_refl _ E2). cbn [obind].
    now injection H as <-.
  - now injection H as <-.
Qed.

(** every variant, so the templates before the repair too: on the clean domain, outside the escape situation *)
Theorem run_from_spec :
  forall v start tabs e ws p r,
    spec_subword_free tabs -> clean_env e -> e_ignore_case e = false ->
    Forall (fun w => plain w = true) ws -> printable_str p = true ->
    spec_run start tabs e ws p = Ok (r, false) ->
    run_from v start tabs e ws p = Ok r.
Proof.
  intros v start tabs e ws p r Hfree Hclean Hcase Hws Hp H.
  apply (run_from_spec_gen v start tabs e ws p r false Hfree Hcase Hp); try assumption; try tauto.
  intros cid. unfold command_lines. destruct (quirky v).
  - now apply clean_env_candidates.
  - apply filter_lines_repaired_spec.
Qed.

(** the repaired templates: whatever the commands print, whatever the words typed, escape situation or not *)
Theorem run_from_spec_repaired :
  forall start tabs e ws p r esc,
    spec_subword_free tabs -> e_ignore_case e = false -> printable_str p = true ->
    spec_run start tabs e ws p = Ok (r, esc) ->
    run_from Repaired start tabs e ws p = Ok r.
Proof.
  intros start tabs e ws p r esc Hfree Hcase Hp H.
  apply (run_from_spec_gen Repaired start tabs e ws p r esc Hfree Hcase Hp); try assumption.
  - intros cid. apply filter_lines_repaired_spec.
  - discriminate.
  - discriminate.
Qed.
