(** C04, PowerShell: every printer of a data statement in [Model/EmitData.P] is read back by the
    statement reader of [Spec/ScriptRead.v] (hashtable literals [@{k=v;...}], array literals [@(a, b)],
    zero-based ids, string constants by C07's PowerShell reader -- for the texts without a smart double
    quote, the class of the known finding of C07). *)
From CG Require Import Base.Prelude Base.Facts Proofs.ListFacts Model.Ast Model.Dfa Model.Tpl Model.Quote Model.Tables Model.EmitBash Model.EmitData
     Spec.ShellDQ Spec.ScriptRead Proofs.QuoteRT Proofs.QuotePwsh Proofs.BashCodec.
From CGgen Require Import Consts TplPwsh.
Open Scope N_scope.
Open Scope list_scope.

(** the common head of the statements about a variable: [    $VAR] followed by a non-name character *)
Lemma pw_head {A} var c k r (f : string -> parser A) :
  vname var -> is_name_char c = false ->
  (let* _ := lit "    $" in let* v := name in f v) (append "    $" (append var (append (String c k) r))) = f var (append (String c k) r).
Proof. intros Hv Hc. rewrite pbind_lit. rewrite (pbind_some _ _ _ _ _ (name_app var c k r Hv Hc)). reflexivity. Qed.

(** a text that starts with a digit where the reader expects a non-digit *)
Lemma lit_digit_none pre a p c s : is_digit a = false -> is_digit c = true -> lit (append pre (String a p)) (append pre (String c s)) = None.
Proof.
  intros Ha Hc. rewrite lit_app_both. unfold lit. cbn [strip]. destruct (Ascii.eqb_spec a c) as [->|]; [congruence | reflexivity].
Qed.

Lemma eq_pair_pkv p r : no_digit_head r -> eq_pair (append (P.pkv p) r) = Some (p, r).
Proof.
  intros Hr. destruct p as [k v]. unfold eq_pair, P.pkv, pbind, pret. cbn [fst snd]. rewrite !append_assoc.
  rewrite nat10_sN by reflexivity. rewrite lit_app. rewrite nat10_sN by exact Hr. reflexivity.
Qed.

Lemma pkv_list l r :
  starts_with "}"%char r -> sep_by eq_pair ";" (append (join ";" (map P.pkv l)) r) = Some (l, r).
Proof.
  apply (sep_by_join eq_pair P.pkv ";" no_digit_head "}"%char);
    [intros a r0; apply eq_pair_pkv | reflexivity | reflexivity | reflexivity | reflexivity | discriminate].
Qed.

Lemma comma_list l r :
  starts_with ")"%char r -> sep_by nat10 "," (append (join "," (map sN l)) r) = Some (l, r).
Proof.
  apply (sep_by_join nat10 sN "," no_digit_head ")"%char);
    [intros a r0; apply nat10_sN | reflexivity | reflexivity | reflexivity | reflexivity | discriminate].
Qed.

Lemma eq_cell_cell c r : eq_cell (append (P.cell c) r) = Some (c, r).
Proof.
  destruct c as [k ids]. unfold eq_cell, P.cell, pbind, pret. cbn [fst snd]. rewrite !append_assoc.
  rewrite nat10_sN by reflexivity. rewrite lit_app. rewrite comma_list by (eexists; reflexivity).
  rewrite lit_app. reflexivity.
Qed.

Lemma cell_list l r :
  starts_with "}"%char r -> sep_by eq_cell "; " (append (join "; " (map P.cell l)) r) = Some (l, r).
Proof.
  apply (sep_by_join eq_cell P.cell "; " (fun _ => True) "}"%char);
    [intros a r0 _; apply eq_cell_cell | exact (fun _ => I) | exact (fun _ => I) | reflexivity | reflexivity | discriminate].
Qed.

Lemma eq_cell_on_pkv p r : eq_cell (append (P.pkv p) r) = None.
Proof.
  destruct p as [k v]. unfold eq_cell, P.pkv, pbind. cbn [fst snd]. rewrite !append_assoc.
  rewrite nat10_sN by reflexivity. destruct (sN_digit v) as [c [s' [E Hd]]]. rewrite E.
  apply pbind_none. exact (lit_digit_none "=" "@"%char "(" c _ eq_refl Hd).
Qed.

Lemma pwsh_dq_list texts r :
  Forall (fun s => smart_free s = true) texts -> starts_with ")"%char r ->
  sep_by (dq Pwsh) ", " (append (join ", " (map (make_string_constant Pwsh) texts)) r) = Some (texts, r).
Proof.
  intros Ht [r' ->].
  apply (dq_listG Pwsh (fun s => smart_free s = true) pwsh_roundtrip_exact ", "); try reflexivity; [discriminate | exact Ht].
Qed.

Definition plits_line (texts : list string) : string :=
  append "    $literals = @(" (append (join ", " (map (make_string_constant Pwsh) texts)) (append ")" nl)).

Lemma preads_literals texts :
  Forall (fun s => smart_free s = true) texts -> reads_as Pwsh (plits_line texts) (SLits "literals" texts).
Proof.
  intros Ht. apply reads_as_of; [exact I|]. intros rest. unfold plits_line. rewrite !append_assoc. unfold stmt_of, pwsh_stmt.
  apply alt_take. erewrite pbind_lit' by reflexivity.
  erewrite pbind_some by exact (name_app "literals" " " "= @(" _ ltac:(vn) eq_refl).
  erewrite pbind_lit' by reflexivity.
  erewrite pbind_some by (apply pwsh_dq_list; [exact Ht | eexists; reflexivity]).
  erewrite pbind_lit' by reflexivity. rewrite (pbind_some _ _ _ _ _ (eol_nl rest)). reflexivity.
Qed.

Definition prow_line (var : string) (s : N) (row : list (N * N)) : string :=
  append "    $" (append var (append "[" (append (sN s) (append "] = @{" (append (join ";" (map P.pkv row)) (append "}" nl)))))).

Lemma preads_row var s row : vname var -> reads_as Pwsh (prow_line var s row) (SRow var s row).
Proof.
  intros Hv. apply reads_as_of; [exact I|]. intros rest. unfold prow_line. rewrite !append_assoc. unfold stmt_of, pwsh_stmt.
  rewrite alt_skip by (rewrite (pw_head var "[" "" _ _ Hv eq_refl); reflexivity).
  apply alt_take. rewrite (pw_head var "[" "" _ _ Hv eq_refl).
  rewrite pbind_lit.
  erewrite pbind_some by (apply nat10_sN; reflexivity).
  rewrite pbind_lit.
  erewrite pbind_some by (apply pkv_list; eexists; reflexivity).
  erewrite pbind_lit' by reflexivity. rewrite (pbind_some _ _ _ _ _ (eol_nl rest)). reflexivity.
Qed.

(** what follows [ = @{] in a table that is not empty starts with a digit, so it is neither the end of
    the line nor the closing brace *)
Lemma table_head_digit sep k x (l : list string) r :
  exists c s, append (join sep (append (sN k) x :: l)) r = String c s /\ is_digit c = true.
Proof.
  destruct (sN_digit k) as [c [s [E Hc]]]. destruct (join_head sep (append (sN k) x) l r) as [r' ->].
  rewrite append_assoc, E. exists c. eexists. split; [reflexivity | exact Hc].
Qed.

(** $X = @{k=v;k=v}  (also the empty table @{}) *)
Definition ppairs_line (var : string) (l : list (N * N)) : string :=
  append "    $" (append var (append " = @{" (append (join ";" (map P.pkv l)) (append "}" nl)))).

Lemma preads_pairs var l : vname var -> reads_as Pwsh (ppairs_line var l) (SAssoc var (map (fun p => (fst p, [snd p])) l)).
Proof.
  intros Hv. apply reads_as_of; [exact I|]. intros rest. unfold ppairs_line. rewrite !append_assoc. unfold stmt_of, pwsh_stmt.
  do 2 (rewrite alt_skip by (rewrite (pw_head var " " "= @{" _ _ Hv eq_refl); reflexivity)).
  apply alt_take. rewrite (pw_head var " " "= @{" _ _ Hv eq_refl).
  rewrite pbind_lit.
  destruct l as [|[k v] l]; [reflexivity|]. cbn [map].
  destruct (table_head_digit ";" k (append "=" (sN v)) (map P.pkv l) ("}" ++ nl ++ rest)) as [c [s' [E Hc]]].
  change (sN k ++ "=" ++ sN v)%string with (P.pkv (k, v)) in E.
  assert (Ln : eol (String c s') = None) by exact (lit_digit_none "" nl_char "" c s' eq_refl Hc).
  assert (Lb : lit "}" (String c s') = None) by exact (lit_digit_none "" "}"%char "" c s' eq_refl Hc).
  rewrite alt_skip by (rewrite E; apply pbind_none, Ln).
  rewrite alt_skip by (rewrite E; apply pbind_none, Lb).
  rewrite alt_skip.
  2:{ unfold pbind, sep_by. destruct (join_head ";" (P.pkv (k, v)) (map P.pkv l) ("}" ++ nl ++ rest)) as [r' E'].
      rewrite E', eq_cell_on_pkv, <- E', E, Lb. reflexivity. }
  erewrite pbind_some by (apply (pkv_list ((k, v) :: l)); eexists; reflexivity).
  erewrite pbind_lit' by reflexivity. rewrite (pbind_some _ _ _ _ _ (eol_nl rest)). reflexivity.
Qed.

(** $X_level_K = @{s=@(l,l); s=@(l)} *)
Definition plevel_line (var : string) (k : N) (rows : list (N * list N)) : string :=
  append "    $" (append var (append (sN k) (append " = @{" (append (join "; " (map P.cell rows)) (append "}" nl))))).

Lemma preads_level var k rows : vname var -> reads_as Pwsh (plevel_line var k rows) (SAssoc (append var (sN k)) rows).
Proof.
  intros Hv0. pose proof (vname_app_sN var k Hv0) as Hv. apply reads_as_of; [exact I|]. intros rest. unfold plevel_line.
  rewrite !append_assoc. rewrite <- (append_assoc var (sN k)). unfold stmt_of, pwsh_stmt.
  do 2 (rewrite alt_skip by (rewrite (pw_head _ " " "= @{" _ _ Hv eq_refl); reflexivity)).
  apply alt_take. rewrite (pw_head _ " " "= @{" _ _ Hv eq_refl).
  rewrite pbind_lit.
  destruct rows as [|[s ids] rows]; [reflexivity|]. cbn [map].
  destruct (table_head_digit "; " s (append "=@(" (append (join "," (map sN ids)) ")")) (map P.cell rows) ("}" ++ nl ++ rest))
    as [c [s' [E Hc]]].
  change (sN s ++ "=@(" ++ join "," (map sN ids) ++ ")")%string with (P.cell (s, ids)) in E.
  assert (Ln : eol (String c s') = None) by exact (lit_digit_none "" nl_char "" c s' eq_refl Hc).
  assert (Lb : lit "}" (String c s') = None) by exact (lit_digit_none "" "}"%char "" c s' eq_refl Hc).
  rewrite alt_skip by (rewrite E; apply pbind_none, Ln).
  rewrite alt_skip by (rewrite E; apply pbind_none, Lb).
  apply alt_take.
  erewrite pbind_some by (apply (cell_list ((s, ids) :: rows)); eexists; reflexivity).
  erewrite pbind_lit' by reflexivity. rewrite (pbind_some _ _ _ _ _ (eol_nl rest)). reflexivity.
Qed.

(** $X = N *)
Definition pscalar_line (var : string) (n : N) : string :=
  append "    $" (append var (append " = " (append (sN n) nl))).

Lemma preads_scalar var n : vname var -> reads_as Pwsh (pscalar_line var n) (SScalar var n).
Proof.
  intros Hv. apply reads_as_of; [exact I|]. intros rest. unfold pscalar_line. rewrite !append_assoc. unfold stmt_of, pwsh_stmt.
  destruct (sN_digit n) as [c [s' [E Hc]]].
  assert (L : forall b X, lit (append " = " (String "@" b)) (append " = " (append (sN n) X)) = None).
  { intros b X. rewrite E. apply (lit_digit_none " = " "@"%char b c _ eq_refl Hc). }
  rewrite alt_skip by (rewrite (pw_head var " " "= " _ _ Hv eq_refl); unfold pbind; rewrite (L "("); reflexivity).
  rewrite alt_skip by (rewrite (pw_head var " " "= " _ _ Hv eq_refl); reflexivity).
  rewrite alt_skip by (rewrite (pw_head var " " "= " _ _ Hv eq_refl); unfold pbind; rewrite (L "{"); reflexivity).
  rewrite alt_skip by reflexivity.
  apply alt_take. rewrite (pw_head var " " "= " _ _ Hv eq_refl).
  rewrite pbind_lit.
  erewrite pbind_some by (apply nat10_sN; reflexivity).
  rewrite (pbind_some _ _ _ _ _ (eol_nl rest)). reflexivity.
Qed.

(** the table of descriptions: opening line, one line per described literal, closing line *)
Definition pdescr_open : string := append "    $descriptions = @{" nl.

Lemma preads_descr_open : reads_as Pwsh pdescr_open (SDecl "descriptions").
Proof. apply reads_as_of; [exact I | reflexivity]. Qed.

Definition pdescr_line (k : N) (d : string) : string :=
  append "        " (append (sN k) (append " = " (append (make_string_constant Pwsh d) (append ";" nl)))).

Lemma preads_descr k d : smart_free d = true -> reads_as Pwsh (pdescr_line k d) (SStr "descriptions" k d).
Proof.
  intros Hd. apply reads_as_of; [exact I|]. intros rest. unfold pdescr_line. rewrite !append_assoc. unfold stmt_of, pwsh_stmt.
  do 3 (rewrite alt_skip by reflexivity).
  apply alt_take. rewrite pbind_lit.
  erewrite pbind_some by (apply nat10_sN; reflexivity).
  rewrite pbind_lit.
  unfold dq. erewrite pbind_some by (apply pwsh_roundtrip_exact; [exact Hd | reflexivity]).
  erewrite pbind_lit' by reflexivity. rewrite (pbind_some _ _ _ _ _ (eol_nl rest)). reflexivity.
Qed.

Definition pmatch_stmts (t : tables) : list stmt :=
  SAssoc "literal_transitions" [] :: row_stmts "literal_transitions" (t_mlit t)
  ++ (match t_mcmd t with
      | Some m => SAssoc "command_transitions" [] :: row_stmts "command_transitions" m
      | None => []
      end)
  ++ (match t_mstar t with Some l => [SAssoc "star_transitions" (map (fun p => (fst p, [snd p])) l)] | None => [] end).

Lemma preads_match t : reads_lines Pwsh (P.write_matching_tables t) (pmatch_stmts t).
Proof.
  unfold P.write_matching_tables, pmatch_stmts, P.rows. cbn [sconcat]. rewrite append_nil_r.
  constructor; [by_line (preads_pairs "literal_transitions" []); vn|].
  apply reads_app; [apply reads_map; intros row _; by_line (preads_row "literal_transitions"); vn|].
  apply reads_app.
  - destruct (t_mcmd t) as [m|]; [|constructor]. constructor; [by_line (preads_pairs "command_transitions" []); vn|].
    apply reads_map. intros row _. by_line (preads_row "command_transitions"). vn.
  - destruct (t_mstar t) as [l|]; [|constructor]. apply reads_one. by_line (preads_pairs "star_transitions" l). vn.
Qed.

Lemma preads_completion t : reads_lines Pwsh (P.write_completion_tables t) (completion_stmts t).
Proof.
  unfold P.write_completion_tables, completion_stmts, P.levels. cbn [sconcat]. rewrite append_nil_r.
  apply reads_app; [apply reads_map; intros kl _; by_line (preads_level "literal_transitions_level_"); vn|].
  apply reads_app.
  - destruct (t_ccmd t); [|constructor]. apply reads_map. intros kl _. by_line (preads_level "commands_level_"). vn.
  - apply reads_one. by_line (preads_scalar "max_fallback_level"). vn.
Qed.

Definition pdescrs (lits : list (N * string * string)) : list (N * string) :=
  flat_map (fun l => match snd l with EmptyString => [] | d => [(fst (fst l), d)] end) lits.

Definition plits_stmts (lits : list (N * string * string)) : list stmt :=
  SLits "literals" (map (fun l => snd (fst l)) lits)
  :: match pdescrs lits with
     | [] => [SAssoc "descriptions" []]
     | ds => SDecl "descriptions" :: map (fun kd : N * string => SStr "descriptions" (fst kd) (snd kd)) ds
     end.

Definition lits_smart_free (lits : list (N * string * string)) : Prop :=
  Forall (fun l => smart_free (snd (fst l)) = true /\ smart_free (snd l) = true) lits.

Lemma join_nl_unlines (x : string) l : append (join nl (x :: l)) nl = sconcat (map (fun y => append y nl) (x :: l)).
Proof.
  revert x. induction l as [|y l IH]; intros x.
  - rewrite join_one. cbn [map sconcat]. rewrite append_nil_r. reflexivity.
  - rewrite join_cons_cons, !append_assoc, IH. cbn [map sconcat]. rewrite !append_assoc. reflexivity.
Qed.

Lemma descr_block a :
  fmtln TplPwsh.write_literals_2 [("descriptions", a)] = (pdescr_open ++ a ++ nl ++ "    }" ++ nl)%string.
Proof. apply fmtln_renderln. Qed.

(** the closing line of a table of descriptions that is not empty; it is no statement *)
Definition pdescr_close (lits : list (N * string * string)) : string :=
  match pdescrs lits with [] => EmptyString | _ => append "    }" nl end.

Lemma preads_lits lits :
  lits_smart_free lits ->
  exists body, P.write_literals lits = append body (pdescr_close lits) /\ reads_lines Pwsh body (plits_stmts lits).
Proof.
  intros Hs. unfold P.write_literals, plits_stmts, pdescr_close. cbv zeta.
  assert (E : flat_map (fun l : N * string * string =>
                          match snd l with
                          | EmptyString => []
                          | d => [("        " ++ sN (fst (fst l)) ++ " = " ++ P.msc d ++ ";")%string]
                          end) lits
              = map (fun kd : N * string => ("        " ++ sN (fst kd) ++ " = " ++ P.msc (snd kd) ++ ";")%string) (pdescrs lits)).
  { unfold pdescrs. rewrite map_flat_map. apply flat_map_ext. intros l. destruct (snd l); reflexivity. }
  rewrite E. clear E. set (L := fmtln TplPwsh.write_literals_0 _).
  assert (Hl : reads_as Pwsh L (SLits "literals" (map (fun l : N * string * string => snd (fst l)) lits))).
  { eapply reads_tpl; [apply preads_literals | unfold plits_line; rewrite map_map; reflexivity].
    clear -Hs. induction Hs as [|l lits [H1 _] _ IH]; constructor; assumption. }
  assert (Hd : Forall (fun kd : N * string => smart_free (snd kd) = true) (pdescrs lits)).
  { clear -Hs. unfold pdescrs. induction Hs as [|l lits [_ H2] _ IH]; cbn [flat_map]; [constructor|].
    apply Forall_app. split; [|exact IH]. destruct (snd l); [constructor | constructor; [exact H2 | constructor]]. }
  destruct (pdescrs lits) as [|kd kds]; cbn [map].
  - eexists. split; [symmetry; apply append_nil_r|]. constructor; [exact Hl|]. apply reads_one.
    by_line (preads_pairs "descriptions" []). vn.
  - exists (append L (append pdescr_open (sconcat (map (fun kd0 : N * string => pdescr_line (fst kd0) (snd kd0)) (kd :: kds))))).
    split.
    + rewrite descr_block, !append_assoc. do 2 f_equal.
      rewrite <- (append_assoc (join nl _) nl), (join_nl_unlines _ _).
      assert (H : forall x : N * string, (("        " ++ sN (fst x) ++ " = " ++ P.msc (snd x) ++ ";") ++ nl)%string = pdescr_line (fst x) (snd x))
        by (intros x; unfold pdescr_line, P.msc; rewrite !append_assoc; reflexivity).
      cbn [map sconcat]. rewrite map_map, (map_ext _ _ H), H. reflexivity.
    + constructor; [exact Hl|]. constructor; [exact preads_descr_open|].
      apply (reads_map Pwsh _ (fun x : N * string => SStr "descriptions" (fst x) (snd x)) (kd :: kds)). intros x Hx. apply preads_descr, (proj1 (Forall_forall _ _) Hd x Hx).
Qed.

Lemma preads_subrows (rows : list (N * list (N * N))) :
  reads_lines Pwsh
    (append (fmtln TplPwsh.write_completion_script_4 [])
            (sconcat (map (fun row : N * list (N * N) =>
                             fmtln TplPwsh.write_completion_script_5
                               [("state", sN (fst row)); ("state_transitions", join ";" (map P.pkv (snd row)))]) rows)))
    (SAssoc "subword_transitions" [] :: row_stmts "subword_transitions" rows).
Proof.
  constructor; [by_line (preads_pairs "subword_transitions" []); vn|].
  apply reads_map. intros row _. by_line (preads_row "subword_transitions"). vn.
Qed.

Lemma preads_sublevels (ls : list (list (N * list N))) :
  reads_lines Pwsh
    (sconcat (map (fun kl : N * list (N * list N) =>
                     fmtln TplPwsh.write_completion_script_12
                       [("level", sN (fst kl));
                        ("initializer",
                         join "; " (map (fun r : N * list N => fmt TplPwsh.write_completion_script_11
                                                    [("from_state", sN (fst r)); ("0", join "," (map sN (snd r)))])
                                        (snd kl)))])
                  (number_from 0 ls)))
    (level_stmts "subword_transitions_level_" ls).
Proof. apply reads_map. intros kl _. by_line (preads_level "subword_transitions_level_"). vn. Qed.
