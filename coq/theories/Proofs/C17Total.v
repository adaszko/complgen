(** The repaired skeleton always terminates: on tables whose within-word literals are non-empty
    ([wf_subword_literals]) [run_from Repaired] never runs out of fuel (every round of the within-word loop
    consumes at least one character: a literal is non-empty, an empty candidate is never consumed) and never
    panics; its result is a return code 0 or 1, or [Err] = outside the modelled domain.  The walk through the
    interpreter is [run_from_good] of C17Shapes.v; here is the progress it asks for. *)
From CG Require Import Base.Prelude Base.Facts Model.Dfa Model.Glob Model.BashSem Proofs.C12Proofs Proofs.C17Shapes.

Definition nonempty_lits (lits : list (N * string)) : Prop := forall id l, In (id, l) lits -> l <> EmptyString.

Lemma lit_loop_str_progress c st sub : forall lits to adv,
    nonempty_lits lits -> lit_loop_str c lits st sub = SCont to adv -> (1 <= adv)%nat.
Proof.
  induction lits as [|[lid lit] r IH]; intros to adv Hn H; [discriminate|].
  assert (Hr : nonempty_lits r) by (intros id l Hin; apply (Hn id l); now right).
  assert (Hl : (1 <= String.length lit)%nat).
  { pose proof (Hn lid lit (or_introl eq_refl)). destruct lit; [congruence|cbn; lia]. }
  cbn [lit_loop_str] in H. destruct (assocN lid st) as [t|]; [|now apply (IH to adv)].
  destruct (String.eqb lit sub); [injection H as _ <-; exact Hl|].
  destruct (c && String.prefix sub lit); [discriminate|].
  destruct (String.prefix lit sub); [injection H as _ <-; exact Hl|now apply (IH to adv)].
Qed.

Lemma cand_loop_str_progress c sub to : forall cands t adv,
    sub <> EmptyString -> cand_loop_str c cands to sub = SCont t adv -> (1 <= adv)%nat.
Proof.
  induction cands as [|x r IH]; intros t adv Hs H; [discriminate|].
  cbn [cand_loop_str] in H.
  destruct (String.eqb sub x) eqn:E.
  - apply String.eqb_eq in E. subst x. injection H as _ <-. destruct sub; [congruence|cbn; lia].
  - destruct (c && String.prefix sub x); [discriminate|].
    destruct x as [|a x']; cbn [andb] in H; [now apply (IH t adv)|].
    destruct (String.prefix (String a x') sub); [injection H as _ <-; cbn; lia|now apply (IH t adv)].
Qed.

Lemma cmd_loop_progress c tabs e sub mp : sub <> EmptyString -> forall cmds log t adv log',
    cmd_loop Repaired c tabs e cmds sub mp log = Ok (SCont t adv, log') -> (1 <= adv)%nat.
Proof.
  intros Hs. induction cmds as [|[cid to] r IH]; intros log t adv log' H; [discriminate|].
  cbn [cmd_loop] in H. apply obind_ok in H. destruct H as [[cands log1] [_ H]].
  destruct cands as [|x xs]; [exact (IH _ _ _ _ H)|]. cbn [cand_loop quirky obind] in H.
  destruct (cand_loop_str c (sort_desc (x :: xs)) to sub) eqn:E; [|discriminate|exact (IH _ _ _ _ H)].
  injection H as <- <- _. eapply cand_loop_str_progress; eauto.
Qed.

Lemma sdrop_nonempty ci : forall word, (ci < String.length word)%nat -> sdrop ci word <> EmptyString.
Proof.
  induction ci as [|ci IH]; intros word H; destruct word as [|a w]; cbn in *; try lia; [discriminate|].
  apply IH. lia.
Qed.

Lemma repaired_progresses tabs e T : nonempty_lits (lits_of T) -> progresses Repaired tabs e T.
Proof.
  intros Hn c word state ci log st adv l Hci H. unfold sw_round in H.
  assert (Cmds : sw_cmds Repaired c tabs e T word state ci log = Ok (SCont st adv, l) -> (1 <= adv)%nat).
  { unfold sw_cmds. destruct (t_mcmd T) as [ct|]; [|discriminate]. destruct (assocN state ct) as [row|]; [|discriminate].
    apply cmd_loop_progress. apply sdrop_nonempty. exact Hci. }
  destruct (assocN state (t_mlit T)) as [st0|]; [|exact (Cmds H)]. cbn [lit_loop obind] in H.
  destruct (lit_loop_str c (lits_of T) st0 (sdrop ci word)) eqn:E; [|discriminate|exact (Cmds H)].
  injection H as <- <- _. eapply lit_loop_str_progress; eauto.
Qed.

Definition wf_subword_literals (tabs : alltables) : Prop :=
  forall pool sid T, In (pool, sid, T) (a_subwords tabs) -> nonempty_lits (lits_of T).

Lemma subword_tables_Some_in subs sid T : subword_tables subs sid = Some T -> exists pool, In (pool, sid, T) subs.
Proof.
  induction subs as [|[[p i] t] r IH]; cbn [subword_tables]; [discriminate|].
  destruct (N.eqb i sid) eqn:E.
  - intros H. injection H as <-. apply N.eqb_eq in E. subst i. exists p. now left.
  - intros H. destruct (IH H) as [pool Hin]. exists pool. now right.
Qed.

Theorem run_from_repaired_total tabs e start ws p :
  wf_subword_literals tabs ->
  run_from Repaired start tabs e ws p <> OutOfFuel
  /\ (forall site, run_from Repaired start tabs e ws p <> Panic site)
  /\ (forall r, run_from Repaired start tabs e ws p = Ok r -> r_rc r = 0 \/ r_rc r = 1).
Proof.
  intros Hwf.
  assert (G : good False (fun r => Forall any (r_log r) /\ (r_rc r = 0 \/ r_rc r = 1)) (run_from Repaired start tabs e ws p)).
  { apply run_from_good; try (intros; exact I); right; [reflexivity|].
    intros sid T E. destruct (subword_tables_Some_in _ _ _ E) as [pool Hin].
    apply repaired_progresses. exact (Hwf pool sid T Hin). }
  destruct (run_from Repaired start tabs e ws p); cbn in G; try contradiction.
  - repeat split; try discriminate. intros r [= <-]. exact (proj2 G).
  - repeat split; discriminate.
Qed.
