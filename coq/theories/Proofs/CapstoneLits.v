(** From "no description of the grammar is empty" to "the literal orders the emitter uses have no
    repeated entry": descriptions of the regex inputs, of the automata, of every automaton of the
    within-word pool ([CapstoneCommands.compiled_inputs] carries the property along); and the
    decidable form of the premise on the text, [text_descr_ok]. *)
From CG Require Import Base.Prelude Model.Ast Model.Parser Model.Check Model.Dfa Model.Subset Model.Driver Model.Tables Model.Compiler
  Model.Regex.
From CG Require Import Proofs.TablesSound
  Proofs.CompilerTotal Proofs.TreeFacts Proofs.TreeAtoms Proofs.CapstoneCommands Proofs.CapstoneDescr Proofs.CheckProvenance.

Theorem compiled_no_empty_descr pick fuel v c :
  compile_valid pick fuel v = Ok c -> tok (v_expr v) ->
  no_empty_descr (c_main c) /\ (forall sd, In sd (c_subs c) -> no_empty_descr sd).
Proof.
  intros H Ht.
  destruct (compiled_inputs (fun x => forall t l, x <> ILit t (Some EmptyString) l) pick fuel v c H) as [Hm Hs].
  { intros a l x Ha Hx t0 l0 ->. destruct a as [t d sp|n sp|c0 z sp|d]; cbn [atom_inp] in Hx.
    - destruct Hx as [Hx|[]]. injection Hx as -> -> _. apply (Ht (Some EmptyString)); [|reflexivity].
      rewrite tdescrs_atoms. apply in_flat_map. exists (ALit t0 (Some EmptyString) sp). split; [exact Ha|left; reflexivity].
    - destruct Hx as [Hx|[]]. discriminate Hx.
    - destruct Hx as [Hx|[]]. destruct z; discriminate Hx.
    - destruct Hx. }
  { intros k l t l0. discriminate. }
  assert (G : forall d, Forall (fun x => forall t l, x <> ILit t (Some EmptyString) l) (d_inputs d) -> no_empty_descr d).
  { intros d F t l Hin. rewrite Forall_forall in F. exact (F _ Hin t l eq_refl). }
  split; [exact (G _ Hm)|intros sd Hsd; exact (G _ (Hs sd Hsd))].
Qed.

Theorem compiled_orders_nodup pick fuel v c om os :
  compile_valid pick fuel v = Ok c -> tok (v_expr v) ->
  orders_ok c om os = true ->
  NoDup om /\ (forall pi o, assocN pi os = Some o -> NoDup o).
Proof.
  intros H Ht Ho. destruct (compiled_no_empty_descr pick fuel v c H Ht) as [Hm Hs]. split.
  - exact (valid_order_NoDup _ om (orders_ok_main _ _ _ Ho) Hm).
  - intros pi o Ha. apply assocN_In in Ha.
    unfold orders_ok in Ho. apply andb_prop in Ho. destruct Ho as [Ho _].
    unfold valid_orders in Ho. apply andb_prop in Ho. destruct Ho as [_ Ho].
    rewrite forallb_forall in Ho. specialize (Ho (pi, o) Ha). cbn [fst snd] in Ho.
    destruct (nthN (c_subs c) pi) as [sd|] eqn:En; [|discriminate].
    apply (valid_order_NoDup sd o Ho). apply Hs. unfold nthN in En. eapply nth_error_In. exact En.
Qed.

Definition dgoodb (d : option string) : bool :=
  match d with Some EmptyString => false | _ => true end.
Definition grammar_descr_okb (g : grammar) : bool :=
  forallb (fun s => forallb dgoodb (tdescrs (stmt_expr s))
                    && forallb (fun x => negb (String.eqb x EmptyString)) (ddescrs (stmt_expr s))) g.
Definition text_descr_ok (text : string) : bool :=
  match Parser.parse text with Ok g => grammar_descr_okb g | _ => false end.

Lemma grammar_descr_okb_sound g : grammar_descr_okb g = true -> grammar_descr_ok g.
Proof.
  unfold grammar_descr_okb. intros H s Hs. rewrite forallb_forall in H. specialize (H s Hs).
  apply andb_prop in H. destruct H as [H1 H2]. rewrite forallb_forall in H1, H2. split.
  - intros x Hx. specialize (H1 x Hx). unfold dgood. intros ->. discriminate.
  - intros x Hx. specialize (H2 x Hx). intros ->. discriminate.
Qed.

Lemma text_descr_ok_sound text g : Parser.parse text = Ok g -> text_descr_ok text = true -> grammar_descr_ok g.
Proof. unfold text_descr_ok. intros ->. apply grammar_descr_okb_sound. Qed.
