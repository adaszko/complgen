(** Bridge between the two denotations of a validated tree: [Spec.Lang.denotes] (package regex:
    words over [Lang.item], what the compiled automaton is proved to accept, C02) and
    [Proofs.RxFacts.denotes (Spec.Meaning.tr e)] (this package: words over [Meaning.leaf], what
    [Spec.Meaning] computes residuals of).

    Inside a word ([wbridge]): [Lang.wdenotes c] (words over [Lang.witem]) is the language of
    [Spec.Meaning.trw c], piece by piece through [witem_of_wleaf] -- for [c] whose leaves are
    literals, commands and undefined nonterminals.

    On the command line ([sbridge]): [Lang.denotes e w] iff [tr e] denotes a sequence of leaves
    that stand for the items of [w] ([leaf_item]: a plain leaf stands for the equal item, a
    within-word leaf [LSub x l] for any [IWord L l] with [L] = the language of [x]) -- for [e]
    whose leaves are plain leaves and within-word expressions of the kind above ([sub_tree]). *)
From CG Require Import Base.Prelude Model.Ast Model.Dfa Spec.Lang Spec.Rx Spec.Meaning.
From CG Require Import Proofs.ListFacts Proofs.RxFacts Proofs.MeaningFacts Proofs.MeaningLevels Proofs.TreeFacts Proofs.LangBridge.

Definition witem_of_wleaf (a : wleaf) : witem :=
  match a with
  | WLit t d l => Lang.WLit t d l
  | WCmd c l => Lang.WCmd c l
  | WAny => WStar
  end.

Definition wlangI (x : rx wleaf) (v : list witem) : Prop :=
  exists ls, RxFacts.denotes x ls /\ v = map witem_of_wleaf ls.

(** Both bridges are one induction: [Lang.den] over the leaf languages [lf] against a translation [T] that
    has the shape of [tr] on the inner nodes of the trees that [ok] admits, the leaves answering each other
    through [P]. *)
Section Bridge.
  Context {X L : Type} (lf : expr -> list X -> Prop) (T : expr -> rx L) (ok : expr -> bool) (P : L -> X -> Prop).
  Hypothesis T_seq : forall cs sp, T (Sequence cs sp) = fold_right cat Eps (map T cs).
  Hypothesis T_alt : forall cs sp, T (Alternative cs sp) = fold_right alt Zero (map T cs).
  Hypothesis T_fb : forall cs sp, T (Fallback cs sp) = fold_right alt Zero (map T cs).
  Hypothesis T_opt : forall c sp, T (Optional c sp) = Alt (T c) Eps.
  Hypothesis T_many : forall c sp, T (Many1 c sp) = Plus (T c).
  Hypothesis ok_seq : forall cs sp, ok (Sequence cs sp) = forallb ok cs.
  Hypothesis ok_alt : forall cs sp, ok (Alternative cs sp) = forallb ok cs.
  Hypothesis ok_fb : forall cs sp, ok (Fallback cs sp) = forallb ok cs.
  Hypothesis ok_opt : forall c sp, ok (Optional c sp) = ok c.
  Hypothesis ok_many : forall c sp, ok (Many1 c sp) = ok c.
  Hypothesis ok_dist : forall c d sp, ok (DistDescr c d sp) = false.
  Hypothesis leaf_ok : forall e w, is_leaf e = true -> ok e = true ->
    (lf e w <-> exists ls, RxFacts.denotes (T e) ls /\ Forall2 P ls w).

  Lemma bridge_to e w : den X lf e w -> ok e = true -> exists ls, RxFacts.denotes (T e) ls /\ Forall2 P ls w.
  Proof.
    induction 1 as [e w Hl Hw | sp | c cs sp u v Hc IHc Hcs IHcs | c cs sp u Hin Hc IHc
                   | c cs sp u Hin Hc IHc | c sp | c sp u Hc IHc | c sp u Hc IHc | c sp u v Hc IHc Hm IHm]; intro Ht.
    - apply leaf_ok; assumption.
    - exists []. split; [rewrite T_seq; constructor | constructor].
    - rewrite ok_seq in Ht, IHcs. cbn [forallb] in Ht. apply andb_true_iff in Ht. destruct Ht as [Ht1 Ht2].
      destruct (IHc Ht1) as [l1 [D1 F1]]. destruct (IHcs Ht2) as [l2 [D2 F2]].
      exists (l1 ++ l2). split; [| apply Forall2_app; assumption].
      rewrite T_seq in D2 |- *. cbn [map fold_right]. apply cat_denotes. constructor; assumption.
    - rewrite ok_alt, forallb_forall in Ht.
      destruct (IHc (Ht c Hin)) as [l1 [D1 F1]]. exists l1. split; [| exact F1].
      rewrite T_alt. eapply denotes_fold_alt_in; [apply in_map; exact Hin | assumption].
    - rewrite ok_fb, forallb_forall in Ht.
      destruct (IHc (Ht c Hin)) as [l1 [D1 F1]]. exists l1. split; [| exact F1].
      rewrite T_fb. eapply denotes_fold_alt_in; [apply in_map; exact Hin | assumption].
    - exists []. split; [rewrite T_opt; apply D_alt_r; constructor | constructor].
    - rewrite ok_opt in Ht. destruct (IHc Ht) as [l1 [D1 F1]]. exists l1. split; [rewrite T_opt; apply D_alt_l; assumption | exact F1].
    - rewrite ok_many in Ht. destruct (IHc Ht) as [l1 [D1 F1]]. exists l1. split; [rewrite T_many; apply D_plus_one; assumption | exact F1].
    - destruct (IHm Ht) as [l2 [D2 F2]]. rewrite ok_many in Ht. destruct (IHc Ht) as [l1 [D1 F1]].
      exists (l1 ++ l2). split; [| apply Forall2_app; assumption].
      rewrite T_many in D2 |- *. apply D_plus_more; assumption.
  Qed.

  Lemma bridge_from e : ok e = true ->
    forall ls w, RxFacts.denotes (T e) ls -> Forall2 P ls w -> den X lf e w.
  Proof.
    induction e using expr_ind'; intros Ht ls w Hd Hf.
    - apply Lang.D_leaf; [reflexivity | apply leaf_ok; eauto].
    - apply Lang.D_leaf; [reflexivity | apply leaf_ok; eauto].
    - apply Lang.D_leaf; [reflexivity | apply leaf_ok; eauto].
    - rewrite T_seq in Hd. rewrite ok_seq, forallb_forall in Ht. revert ls w Hd Hf.
      induction H as [| c cs Hc Hcs IH]; intros ls w Hd Hf.
      + cbn in Hd. inversion Hd; subst. inversion Hf; subst. apply D_seq_nil.
      + cbn [map fold_right] in Hd. apply cat_denotes in Hd.
        inversion Hd as [| | r s u v Hu Hv | | | |]; subst.
        apply Forall2_app_inv_l in Hf. destruct Hf as [w1 [w2 [F1 [F2 ->]]]].
        apply D_seq_cons.
        * eapply Hc; [apply Ht; left; reflexivity | eassumption | assumption].
        * eapply IH; [intros x Hx; apply Ht; right; assumption | eassumption | assumption].
    - rewrite T_alt in Hd. apply denotes_fold_alt_inv in Hd. destruct Hd as [r [Hr Hd]].
      apply in_map_iff in Hr. destruct Hr as [c [<- Hc]].
      rewrite Forall_forall in H. rewrite ok_alt, forallb_forall in Ht.
      eapply D_alt; [exact Hc | eapply H; [assumption | apply Ht; assumption | eassumption | assumption]].
    - rewrite T_opt in Hd. rewrite ok_opt in Ht. inversion Hd as [| | | r0 s0 u Hu | r0 s0 u Hu | |]; subst.
      + apply D_opt_some. eapply IHe; eassumption.
      + inversion Hu; subst. inversion Hf; subst. apply D_opt_none.
    - rewrite T_many in Hd. rewrite ok_many in Ht. remember (Plus (T e)) as p eqn:Ep. revert w Hf.
      induction Hd; intros w Hf; try discriminate.
      + inversion Ep; subst. apply D_many_one. eapply IHe; eassumption.
      + inversion Ep; subst. apply Forall2_app_inv_l in Hf. destruct Hf as [w1 [w2 [F1 [F2 ->]]]].
        apply D_many_more; [eapply IHe; eassumption | apply IHHd2; [reflexivity | assumption]].
    - rewrite ok_dist in Ht. discriminate.
    - rewrite T_fb in Hd. apply denotes_fold_alt_inv in Hd. destruct Hd as [r [Hr Hd]].
      apply in_map_iff in Hr. destruct Hr as [c [<- Hc]].
      rewrite Forall_forall in H. rewrite ok_fb, forallb_forall in Ht.
      eapply D_fb; [exact Hc | eapply H; [assumption | apply Ht; assumption | eassumption | assumption]].
    - apply Lang.D_leaf; [reflexivity | apply leaf_ok; eauto].
  Qed.

  Theorem bridge e w : ok e = true -> (den X lf e w <-> exists ls, RxFacts.denotes (T e) ls /\ Forall2 P ls w).
  Proof.
    intro Ht. split; [intro H; apply bridge_to; assumption |].
    intros [ls [Hd Hf]]. eapply bridge_from; eassumption.
  Qed.
End Bridge.

Lemma leaf_single {A B} (R : A -> B -> Prop) a w :
  (exists ls, RxFacts.denotes (Leaf a) ls /\ Forall2 R ls w) <-> exists b, w = [b] /\ R a b.
Proof.
  split.
  - intros [ls [Hd H]]. inversion Hd; subst. inversion H as [| x y l l' Hxy Hl]; subst. inversion Hl; subst. eauto.
  - intros [b [-> H]]. exists [a]. split; [constructor | constructor; [exact H | constructor]].
Qed.

Lemma Forall2_graph {A B} (f : A -> B) l m : Forall2 (fun a b => b = f a) l m <-> m = map f l.
Proof.
  split; [intro H; apply (Forall2_map_eq f _ _ _ H); auto | intros ->; apply Forall2_map_self, Forall_forall; auto].
Qed.

Theorem wbridge c v : toplevel_tree c = true -> (Lang.wdenotes c v <-> wlangI (trw c) v).
Proof.
  intro Ht. unfold wlangI.
  rewrite (bridge Lang.wleaf trw toplevel_tree (fun a b => b = witem_of_wleaf a) trw_seq trw_alt trw_fb); try reflexivity; try exact Ht.
  - split; intros [ls [Hd H]]; exists ls; (split; [exact Hd | apply Forall2_graph; exact H]).
  - intros e w Hl He. destruct e; cbn [is_leaf toplevel_tree] in Hl, He; try discriminate; cbn [Lang.wleaf trw]; rewrite leaf_single.
    + split; [intros ->; eexists; split; reflexivity | intros [b [-> ->]]; reflexivity].
    + split; [intros ->; eexists; split; reflexivity | intros [b [-> ->]]; reflexivity].
    + destruct compadd; [discriminate |].
      split; [intros ->; eexists; split; reflexivity | intros [b [-> ->]]; reflexivity].
Qed.

Fixpoint sub_tree (e : expr) : bool :=
  match e with
  | Terminal _ _ _ _ | NontermRef _ _ _ => true
  | Command _ z _ _ => negb z
  | Subword c _ _ => toplevel_tree c
  | Sequence cs _ | Alternative cs _ | Fallback cs _ => forallb sub_tree cs
  | Optional c _ | Many1 c _ => sub_tree c
  | DistDescr _ _ _ => false
  end.

Lemma toplevel_sub_tree e : toplevel_tree e = true -> sub_tree e = true.
Proof.
  induction e using expr_ind'; cbn [toplevel_tree sub_tree]; intro Ht; try discriminate; try reflexivity; try assumption;
    try (apply IHe; assumption);
    (rewrite forallb_forall in *; rewrite Forall_forall in H; intros x Hx; apply H; [assumption | apply Ht; assumption]).
Qed.

Definition item_of_leaf' (a : leaf) : item :=
  match a with
  | LSub x l => IWord (wlangI x) l
  | _ => item_of_leaf a
  end.

Definition leaf_item (a : leaf) (it : item) : Prop := item_equiv it (item_of_leaf' a).

Lemma item_equiv_sym x y : item_equiv x y -> item_equiv y x.
Proof.
  destruct x, y; cbn; try contradiction; [intro H; symmetry; exact H |].
  intros [-> H]. split; [reflexivity | intro v; symmetry; apply H].
Qed.

Lemma item_equiv_trans x y z : item_equiv x y -> item_equiv y z -> item_equiv x z.
Proof.
  destruct x, y, z; cbn; try contradiction; [intros -> ->; reflexivity |].
  intros [-> H1] [-> H2]. split; [reflexivity | intro v; rewrite H1; apply H2].
Qed.

Lemma item_equiv_refl' it : item_equiv it it.
Proof. destruct it; cbn; [reflexivity | split; [reflexivity | intro; reflexivity]]. Qed.

Lemma leaf_item_refl a : leaf_item a (item_of_leaf' a).
Proof. apply item_equiv_refl'. Qed.

Theorem sbridge e w : sub_tree e = true ->
  (Lang.denotes e w <-> exists ls, RxFacts.denotes (tr e) ls /\ Forall2 leaf_item ls w).
Proof.
  unfold Lang.denotes. apply (bridge tleaf tr sub_tree leaf_item tr_seq tr_alt tr_fb); try reflexivity.
  intros e' w' Hl Ht. unfold tleaf.
  destruct e'; cbn [is_leaf sub_tree] in Hl, Ht; try discriminate; cbn [tr]; rewrite leaf_single.
  - reflexivity.
  - reflexivity.
  - destruct compadd; [discriminate | reflexivity].
  - assert (E : item_equiv (IWord (wdenotes e') level) (IWord (wlangI (trw e')) level)).
    { cbn [item_equiv]. split; [reflexivity | intro v; apply wbridge; exact Ht]. }
    split; intros [it [-> H]]; exists it; (split; [reflexivity |]).
    + exact (item_equiv_trans _ _ _ H E).
    + exact (item_equiv_trans _ _ _ H (item_equiv_sym _ _ E)).
Qed.
