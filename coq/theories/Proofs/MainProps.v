(** What a caller of the complgen command observes ([Model/Main.v] [run]), read off the normal form
    of [MainRun.run_with_case]: totality and exit status, no script on exit 1, exactly one script on
    exit 0, the diagnostics are those of the verdict of [Driver.compile]; and, for runs given as
    [Ok _] and hence with no fuel hypothesis here, the warnings are [Diag.warning_messages] and
    nothing else depends on them.  Statements: [Props/C06c.v] (C06, and [main_verdict] as
    [C08_main_verdict]), [Props/C15c.v] (C15). *)
From CG Require Import Base.Prelude Proofs.ListFacts Model.Ast Model.Lexer Model.Parser Model.Check Model.Regex.
From CG Require Import Model.Dfa Model.Driver Model.Diag Model.Compiler Model.Main.
From CG Require Import Proofs.PipelineTotal Proofs.DiagPipeline Proofs.MainRun.
Open Scope list_scope.

(** the subset construction has fuel for whatever the input validates to, for the selected shell *)
Definition covers (builtins : shell -> list (string * string)) (o : oracles) (a : cli_args)
           (input : option string) : Prop :=
  forall text sh path, input = Some text -> select_shell a = Some (sh, path) ->
                       fuel_covers (o_fuel o) builtins text sh.

Lemma zsh_warning_in sh path command e : In e (zsh_warning sh path command) -> exists x, e = Stderr (SZshName x).
Proof.
  destruct (zsh_warning_cases sh path command) as [->|[x ->]]; [intros []|]. intros [<-|[]]. eauto.
Qed.

Section Props.
  Variable builtins : shell -> list (string * string).
  Variable o : oracles.
  Variable version : string.

  Notation pick := (pick_table (o_pops o)).
  Notation fuel := (o_fuel o).
  Notation run := (run builtins o version).

  Theorem main_total a input :
    covers builtins o a input ->
    (exists pre code, run a input = Ok (pre ++ [Exit code]) /\ (code = 0 \/ code = 1)%N
                      /\ filter is_exit pre = [])
    \/ (run a input = Err BadOracle /\ exists path, select_shell a = Some (Bash, path)).
  Proof.
    intro Hc.
    destruct (run_with_case builtins o version a input Hc)
      as [_|m _ _ _|upath text command e pre f _ _ _ _ P D|text sh path v c k pre _ _ _ _ _ P|text path v c _ Hs _].
    5:{ right. split; [reflexivity|]. exists path. exact Hs. }
    all: left; eexists; eexists; split; [reflexivity|]; split; [auto|].
    - reflexivity.
    - reflexivity.
    - destruct (prelude_unseen a pre P) as (Pe & _), (diag_trace_props _ _ _ _ _ D) as (_ & De & _).
      rewrite filter_app, Pe, De. reflexivity.
    - destruct (prelude_unseen a pre P) as (Pe & _). rewrite filter_app, Pe.
      destruct (zsh_warning_cases sh path (v_command v)) as [->|[x ->]]; reflexivity.
  Qed.

  Theorem main_exit1 a input t :
    covers builtins o a input ->
    run a input = Ok t -> exit_code t = Some 1%N ->
    filter is_script_write t = []
    /\ (exists pre m, t = pre ++ [Stderr m; Exit 1] /\ is_diag (Stderr m) = true)
    /\ (forall d k, In (Write d k) t ->
          (k = KRegexDot /\ exists p, a_regex a = Some p /\ d = dest_of p)
          \/ (k = KDfaDot /\ exists p, a_dfa a = Some p /\ d = dest_of p)).
  Proof.
    intro Hc.
    destruct (run_with_case builtins o version a input Hc)
      as [_|m _ _ Hm|upath text command e pre f _ _ _ _ P D|text sh path v c k pre _ _ _ _ _ _|text path v c _ _ _];
      intros [= <-] Hx; try rewrite exit_code_last in Hx; try discriminate Hx.
    - split; [reflexivity|]. split; [exists [], m; auto|].
      intros d k [Hi|[Hi|[]]]; discriminate Hi.
    - destruct (prelude_unseen a pre P) as (_ & Ps & _).
      destruct (diag_trace_props _ _ _ _ _ D) as (_ & _ & Ds & Dw & pre' & m & E & Hm).
      split; [rewrite !filter_app, Ps, Ds; reflexivity|]. split.
      + exists (pre ++ pre'), m. rewrite E, <- !app_assoc. auto.
      + intros d k Hi. rewrite !in_app_iff in Hi. destruct Hi as [[Hi|Hi]|[Hi|[]]].
        * exact (prelude_write a pre d k P Hi).
        * destruct (Dw d k Hi).
        * discriminate Hi.
  Qed.

  (** the two provisos are needed: a [--regex] / [--dfa] file that names the script destination is
      written there on exit 1 (the known finding recorded in Props/C06c.v) *)
  Corollary main_exit1_destination_untouched a input t sh path :
    covers builtins o a input ->
    run a input = Ok t -> exit_code t = Some 1%N ->
    select_shell a = Some (sh, path) ->
    (forall p, a_regex a = Some p -> dest_of p <> dest_of path) ->
    (forall p, a_dfa a = Some p -> dest_of p <> dest_of path) ->
    forall k, ~ In (Write (dest_of path) k) t.
  Proof.
    intros Hc Hrun Hx Hs Hr Hd k Hi.
    destruct (main_exit1 a input t Hc Hrun Hx) as (_ & _ & W).
    destruct (W _ _ Hi) as [[_ [p [Hp E]]]|[_ [p [Hp E]]]]; [eapply Hr|eapply Hd]; eauto.
  Qed.

  Theorem main_exit0 a input t :
    covers builtins o a input ->
    run a input = Ok t -> exit_code t = Some 0%N -> a_version a = false ->
    exists text sh path v c k pre,
      input = Some text /\ select_shell a = Some (sh, path)
      /\ compile pick fuel builtins text sh = Ok (v, c)
      /\ t = pre ++ [Write (dest_of path) (KScript k)] ++ zsh_warning sh path (v_command v) ++ [Exit 0]
      /\ filter is_script_write pre = [] /\ filter is_diag t = []
      /\ match sh with
         | Bash => exists s, k = CBash s /\ compile_bash o builtins text = Ok s
         | _ => k = COpaque sh v c
         end.
  Proof.
    intro Hc.
    destruct (run_with_case builtins o version a input Hc)
      as [V|m _ _ _|upath text command e pre f _ _ _ _ _ _|text sh path v c k pre _ Hin Hs Hcomp Hk P|text path v c _ _ _];
      intros [= <-] Hx Hver; try rewrite exit_code_last in Hx; try discriminate Hx.
    - congruence.
    - exists text, sh, path, v, c, k, pre. destruct (prelude_unseen a pre P) as (_ & Ps & Pd).
      split; [exact Hin|]. split; [exact Hs|]. split; [exact Hcomp|].
      split; [rewrite <- app_assoc; reflexivity|]. split; [exact Ps|].
      split; [|exact (script_content_ok builtins o text sh v c k Hcomp Hk)].
      rewrite !filter_app, Pd. destruct (zsh_warning_cases sh path (v_command v)) as [->|[x ->]]; reflexivity.
  Qed.

  Theorem main_version a input : a_version a = true -> run a input = Ok [Stdout version; Exit 0].
  Proof. intro H. unfold Main.run, run_with. rewrite H. reflexivity. Qed.

  (** C08 ([C08_main_verdict] of Props/C06c.v): the verdict of [Driver.compile] is the verdict of
      the command, and the diagnostics printed are those of the error *)
  Theorem main_verdict a input upath text sh path :
    covers builtins o a input ->
    a_version a = false -> a_usage a = Some upath -> input = Some text ->
    select_shell a = Some (sh, path) ->
    match compile pick fuel builtins text sh with
    | Err e => exists t command, run a input = Ok t /\ exit_code t = Some 1%N
                                 /\ diag_trace upath text command e (filter is_diag t)
    | Ok (v, c) => (exists t, run a input = Ok t /\ exit_code t = Some 0%N)
                   \/ (sh = Bash /\ run a input = Err BadOracle)
    | _ => False
    end.
  Proof.
    intros Hc Hver Hu Hin Hs.
    destruct (run_with_case builtins o version a input Hc)
      as [V|m _ E _|upath' text' command e pre f _ Hu' Hin' He P D
         |text' sh' path' v c k pre _ Hin' Hs' Hcomp _ _|text' path' v c Hin' Hs' Hcomp].
    - congruence.
    - destruct E as [E|[E|E]]; congruence.
    - rewrite Hu in Hu'. rewrite Hin in Hin'. injection Hu' as <-. injection Hin' as <-.
      rewrite (He sh path Hs). exists ((pre ++ f) ++ [Exit 1]), command.
      split; [reflexivity|]. split; [apply exit_code_last|].
      destruct (prelude_unseen a pre P) as (_ & _ & Pd), (diag_trace_props _ _ _ _ _ D) as (Dd & _).
      rewrite !filter_app, Pd, Dd. cbn. rewrite app_nil_r. exact D.
    - rewrite Hin in Hin'. rewrite Hs in Hs'. injection Hin' as <-. injection Hs' as <- <-.
      rewrite Hcomp. left. eexists. split; [reflexivity|apply exit_code_last].
    - rewrite Hin in Hin'. rewrite Hs in Hs'. injection Hin' as <-. injection Hs' as -> _.
      rewrite Hcomp. right. split; reflexivity.
  Qed.

  (** C15: [run_with wm] is the command with the three warning loops printing [wm v] instead
      of [warning_messages v]; no hypothesis on the fuel is needed. *)
  Definition all_warnings (wm : valid_grammar -> list message) : Prop :=
    forall v m, In m (wm v) -> m_warning m = true.

  Theorem run_with_warnings_exact wm a input upath text g sh path v rp t :
    all_warnings wm ->
    a_version a = false -> a_usage a = Some upath -> input = Some text ->
    parse text = Ok g -> select_shell a = Some (sh, path) ->
    from_grammar builtins g sh = Ok v -> from_valid_expr (v_expr v) = Ok rp ->
    run_with builtins o version wm a input = Ok t ->
    warnings_of t = wm v
    /\ exists ws rest, t = ws ++ rest /\ Forall2 (rendered_as upath text) (wm v) ws
                       /\ warnings_of rest = [].
  Proof.
    intros Hall Hver Hu Hin Hg Hs Hv Hr. unfold run_with. rewrite Hver, Hu, Hin, Hg, Hs, Hv, Hr.
    destruct rp as [r pl]. intro Hrun.
    apply warnings_then_inv in Hrun. destruct Hrun as (ws & rest & -> & F2 & Hrest).
    apply after_warnings_quiet in Hrest; [|exact Hr].
    split; [|eauto].
    rewrite warnings_of_app, Hrest, app_nil_r, (rendered_warnings_of _ _ _ _ F2).
    apply filter_all. exact (Hall v).
  Qed.

  Theorem main_without_warnings wm a input t :
    all_warnings wm ->
    run_with builtins o version wm a input = Ok t ->
    exists ws rest, t = ws ++ rest
                    /\ Forall (fun e => is_warning e = true) ws
                    /\ run_with builtins o version (fun _ => []) a input = Ok rest.
  Proof.
    intros Hall Hrun. destruct (run_with_wm builtins o version a input) as [[x Hx]|(upath & text & v & rest & Hx)].
    - exists [], t. split; [reflexivity|]. split; [constructor|]. rewrite Hx, <- (Hx wm). exact Hrun.
    - rewrite Hx in Hrun. apply warnings_then_inv in Hrun. destruct Hrun as (ws & r & -> & F2 & ->).
      exists ws, r. split; [reflexivity|]. split; [|rewrite Hx; reflexivity].
      eapply rendered_Forall; [exact F2|]. intros m r' Hi. exact (Hall v m Hi).
  Qed.

  Theorem main_warnings_harmless wm1 wm2 a input t1 t2 :
    all_warnings wm1 -> all_warnings wm2 ->
    run_with builtins o version wm1 a input = Ok t1 ->
    run_with builtins o version wm2 a input = Ok t2 ->
    strip_warnings t1 = strip_warnings t2
    /\ filter is_exit t1 = filter is_exit t2
    /\ filter is_script_write t1 = filter is_script_write t2.
  Proof.
    intros A1 A2 R1 R2.
    destruct (main_without_warnings wm1 a input t1 A1 R1) as (ws1 & r1 & -> & W1 & E1).
    destruct (main_without_warnings wm2 a input t2 A2 R2) as (ws2 & r2 & -> & W2 & E2).
    rewrite E1 in E2. injection E2 as <-.
    destruct (warnings_unseen ws1 W1) as (S1 & X1 & Y1), (warnings_unseen ws2 W2) as (S2 & X2 & Y2).
    unfold strip_warnings in *. rewrite !filter_app, S1, S2, X1, X2, Y1, Y2. auto.
  Qed.
End Props.
