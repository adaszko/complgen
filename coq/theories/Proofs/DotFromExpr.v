(** The arena [Regex.from_expr] builds: the invariant of [do_from_expr] ([built],
    [do_from_expr_inv]) and what it gives of the finished regex ([from_expr_rgood]).
    [do_from_expr] allocates bottom-up, so the children of a node have smaller indices; a leaf is
    allocated right after its input is pushed, so its position holds an input of its kind; the
    regex of a within-word expression is interned before its [NSub] node is allocated; every
    position pushed below a node has its leaf reachable from that node through [NCat]/[NOr] nodes
    ([Many1 c] = [NCat [c; NStar c]] reaches [c] directly); arena, inputs and pool only grow
    ([ext]).  Stated on [Model/Regex.v]'s types.  For C16 [DotPipelineRegex.v] carries [rgood] to
    the view [Model/DotOfRegex.v]; the span and placeholder files of C14 and C08
    ([PipelineSpans.v], [PhPool.v]) use the growth facts. *)
From CG Require Import Base.Prelude Base.Facts Proofs.ListFacts Model.Ast Model.Regex.
From CG Require Import Proofs.SubsetConstr Proofs.FromExpr Proofs.TreeFacts.

Lemma prefix_nthN_lt {A} (l l' : list A) m : prefix l l' -> m < lenN l -> nthN l' m = nthN l m.
Proof. intros [k ->] H. unfold nthN, lenN in *. apply nth_error_app1. lia. Qed.

Definition nd_ok (I : list rinput) (P : pool) (m : N) (x : rnode) : Prop :=
  match x with
  | NEps | NEnd _ | NStar _ => True
  | NCat l | NOr l => forall c, In c l -> c < m
  | NTerm p => exists t d l sp, nthN I p = Some (RLit t d l sp)
  | NNonterm p => exists n l sp, nthN I p = Some (RNonterm n l sp)
  | NCmd p => exists c z l sp, nthN I p = Some (RCmd c z l sp)
  | NSub p => exists rid l sp, nthN I p = Some (RSub rid l sp) /\ exists sr, nthN P rid = Some sr
  end.

Lemma nd_ok_mono I I' P P' m x : prefix I I' -> prefix P P' -> nd_ok I P m x -> nd_ok I' P' m x.
Proof.
  intros HI HP. destruct x; cbn [nd_ok]; auto.
  - intros [t [d [l [sp H]]]]. exists t, d, l, sp. eapply prefix_nthN; eauto.
  - intros [n [l [sp H]]]. exists n, l, sp. eapply prefix_nthN; eauto.
  - intros [c [z [l [sp H]]]]. exists c, z, l, sp. eapply prefix_nthN; eauto.
  - intros [rid [l [sp [H [sr Hs]]]]]. exists rid, l, sp. split; [eapply prefix_nthN; eauto|].
    exists sr. eapply prefix_nthN; eauto.
Qed.

Inductive reach (A : list rnode) : N -> N -> Prop :=
| rc_here n : reach A n n
| rc_cat n l c m : nthN A n = Some (NCat l) -> In c l -> reach A c m -> reach A n m
| rc_or n l c m : nthN A n = Some (NOr l) -> In c l -> reach A c m -> reach A n m.

Lemma reach_mono A A' n m : prefix A A' -> reach A n m -> reach A' n m.
Proof.
  intros HP H. induction H as [n|n l c m E Hc _ IH|n l c m E Hc _ IH].
  - constructor.
  - eapply rc_cat; [eapply prefix_nthN; eauto|exact Hc|exact IH].
  - eapply rc_or; [eapply prefix_nthN; eauto|exact Hc|exact IH].
Qed.

(** [FromExpr.input_node] again: the node allocated for the leaf of an input *)
Definition leaf_of (inp : rinput) (p : N) : rnode :=
  match inp with
  | RLit _ _ _ _ => NTerm p
  | RNonterm _ _ _ => NNonterm p
  | RCmd _ _ _ _ => NCmd p
  | RSub _ _ _ => NSub p
  end.

Lemma subword_free_form e :
  subword_free e = match form_of e with
                   | FLeaf _ => true
                   | FNary _ cs => forallb subword_free cs
                   | FUnary _ c | FDist c => subword_free c
                   | FSub _ _ _ => false
                   end.
Proof. destruct e; reflexivity. Qed.

Lemma flat_subwords_form e :
  flat_subwords e = match form_of e with
                    | FLeaf _ => true
                    | FNary _ cs => forallb flat_subwords cs
                    | FUnary _ c | FDist c => flat_subwords c
                    | FSub c _ _ => subword_free c
                    end.
Proof. destruct e; reflexivity. Qed.

Lemma subword_free_flat e : subword_free e = true -> flat_subwords e = true.
Proof.
  induction e as [e IH] using expr_form_ind. rewrite subword_free_form, flat_subwords_form.
  destruct (form_of e); try exact IH; [reflexivity|apply forallb_impl_Forall; exact IH|discriminate].
Qed.

Definition new_ok (s s' : bst) (P : pool) : Prop :=
  forall m x, lenN (b_nodes s) <= m -> nthN (b_nodes s') m = Some x -> nd_ok (b_inputs s') P m x.
(** the new positions have their leaves below one of [ids] *)
Definition covered (s s' : bst) (ids : list N) : Prop :=
  forall p inp, lenN (b_inputs s) <= p -> nthN (b_inputs s') p = Some inp ->
    exists id m, In id ids /\ reach (b_nodes s') id m /\ nthN (b_nodes s') m = Some (leaf_of inp p).

(** a regex whose arena is well built and covered, relative to a pool *)
Definition rgood (P : pool) (r : regex) : Prop :=
  r_root r < lenN (r_arena r)
  /\ (forall m x, nthN (r_arena r) m = Some x -> nd_ok (r_inputs r) P m x)
  /\ (forall p inp, nthN (r_inputs r) p = Some inp ->
        exists m, reach (r_arena r) (r_root r) m /\ nthN (r_arena r) m = Some (leaf_of inp p)).
(** a pooled regex: well built without reference to any pool, hence without within-word node *)
Definition sgood (r : regex) : Prop := rgood [] r.

Definition ext (s s' : bst) (pl pl' : pool) : Prop :=
  prefix (b_nodes s) (b_nodes s') /\ prefix (b_inputs s) (b_inputs s') /\ prefix pl pl'.

Definition ids_in (s s' : bst) (ids : list N) : Prop :=
  forall id, In id ids -> lenN (b_nodes s) <= id < lenN (b_nodes s').

(** A run from [(s, pl)] to [(s', pl')] that hands the nodes [ids] to its caller; [free] and [flat]
    say whether what was run is [subword_free], has [flat_subwords]. *)
Definition built (s : bst) (pl : pool) (s' : bst) (pl' : pool) (ids : list N) (free flat : bool) : Prop :=
  ext s s' pl pl' /\ ids_in s s' ids /\ new_ok s s' pl' /\ covered s s' ids
  /\ (free = true -> new_ok s s' [])
  /\ (flat = true -> Forall sgood pl -> Forall sgood pl').

Lemma new_ok_refl s P : new_ok s s P.
Proof. intros m x Hm E. apply nthN_some_lt in E. lia. Qed.

Lemma built_nil s pl free flat : built s pl s pl [] free flat.
Proof.
  split; [repeat split; apply prefix_refl|]. split; [intros ? []|]. split; [apply new_ok_refl|].
  split; [|split; [intros _; apply new_ok_refl|auto]].
  intros p inp Hp E. apply nthN_some_lt in E. lia.
Qed.

Lemma new_ok_trans s s1 s2 P1 P2 :
  prefix (b_nodes s1) (b_nodes s2) -> prefix (b_inputs s1) (b_inputs s2) -> prefix P1 P2 ->
  new_ok s s1 P1 -> new_ok s1 s2 P2 -> new_ok s s2 P2.
Proof.
  intros A B C H1 H2 m x Hm E. destruct (N.lt_ge_cases m (lenN (b_nodes s1))) as [Hlt|Hge].
  - rewrite (prefix_nthN_lt _ _ _ A Hlt) in E. eapply nd_ok_mono; [exact B|exact C|]. now apply H1.
  - now apply H2.
Qed.

Lemma covered_mono s s1 s2 ids1 ids2 :
  prefix (b_nodes s1) (b_nodes s2) -> b_inputs s2 = b_inputs s1 -> incl ids1 ids2 ->
  covered s s1 ids1 -> covered s s2 ids2.
Proof.
  intros A B Hi H p inp Hp E. rewrite B in E. destruct (H p inp Hp E) as [id [m [Hid [Hr Hn]]]].
  exists id, m. split; [apply Hi; exact Hid|]. split; [eapply reach_mono; eauto|eapply prefix_nthN; eauto].
Qed.

Lemma built_app s pl s1 pl1 s2 pl2 ids1 ids2 a1 a2 b1 b2 :
  built s pl s1 pl1 ids1 a1 b1 -> built s1 pl1 s2 pl2 ids2 a2 b2 ->
  built s pl s2 pl2 (ids1 ++ ids2) (a1 && a2) (b1 && b2).
Proof.
  intros [[A1 [B1 D1]] [I1 [N1 [C1 [S1 P1]]]]] [[A2 [B2 D2]] [I2 [N2 [C2 [S2 P2]]]]].
  pose proof (prefix_lenN _ _ A1) as L1. pose proof (prefix_lenN _ _ A2) as L2.
  split; [repeat split; eapply prefix_trans; eauto|]. split; [|split; [|split; [|split]]].
  - intros i Hi. apply in_app_or in Hi as [Hi|Hi]; [specialize (I1 i Hi)|specialize (I2 i Hi)]; lia.
  - apply (new_ok_trans s s1 s2 pl1 pl2); auto.
  - intros p inp Hp E. destruct (N.lt_ge_cases p (lenN (b_inputs s1))) as [Hlt|Hge].
    + rewrite (prefix_nthN_lt _ _ _ B2 Hlt) in E. destruct (C1 p inp Hp E) as [id [m [Hi [Hr Hn]]]].
      exists id, m. split; [apply in_or_app; now left|]. split; [eapply reach_mono; eauto|eapply prefix_nthN; eauto].
    + destruct (C2 p inp Hge E) as [id [m [Hi [Hr Hn]]]]. exists id, m. split; [apply in_or_app; now right|]. now split.
  - intro Hf. apply andb_true_iff in Hf as [F1 F2]. apply (new_ok_trans s s1 s2 [] []); auto. apply prefix_refl.
  - intro Hf. apply andb_true_iff in Hf as [F1 F2]. auto.
Qed.

(** one node on top that is no leaf: the run hands on [ids'], provided it covers what [ids] did *)
Lemma built_add s pl s1 pl1 ids a b n ids' :
  built s pl s1 pl1 ids a b -> nd_ok (b_inputs s1) [] (lenN (b_nodes s1)) n ->
  incl ids' (lenN (b_nodes s1) :: ids) -> covered s (add_node n s1) ids' ->
  built s pl (add_node n s1) pl1 ids' a b.
Proof.
  intros [[A [B D]] [I1 [N1 [C1 [S1 P1]]]]] Hn Hi Hc. pose proof (prefix_lenN _ _ A) as L.
  assert (Hnew : forall P, new_ok s s1 P -> new_ok s (add_node n s1) P).
  { intros P H m x Hm E. cbn [add_node b_nodes b_inputs] in *. apply nthN_snoc_inv in E as [[_ E]|[-> ->]]; [now apply H|].
    apply (nd_ok_mono _ _ [] P _ _ (prefix_refl _)); [exists P; reflexivity|exact Hn]. }
  split; [repeat split; auto; eapply prefix_trans; [exact A|apply prefix_snoc]|]. split; [|auto 6].
  intros i Hin. cbn [add_node b_nodes]. rewrite lenN_snoc. destruct (Hi i Hin) as [<-|Hin']; [|specialize (I1 i Hin')]; lia.
Qed.

(** a parent over [ids] covers what they cover *)
Lemma built_parent s pl s1 pl1 ids a b cat :
  built s pl s1 pl1 ids a b -> built s pl (add_node (nary_node cat ids) s1) pl1 [lenN (b_nodes s1)] a b.
Proof.
  intros H. pose proof H as [_ [I1 [_ [C1 _]]]]. apply (built_add _ _ _ _ ids); [exact H| |intros i [<-|[]]; now left|].
  - destruct cat; exact (fun c Hc => proj2 (I1 c Hc)).
  - intros p inp Hp E. cbn [add_node b_nodes b_inputs] in *. destruct (C1 p inp Hp E) as [id [m [Hi [Hr Hm]]]].
    exists (lenN (b_nodes s1)), m. split; [now left|]. split; [|eapply prefix_nthN; [apply prefix_snoc|exact Hm]].
    apply (reach_mono _ _ _ _ (prefix_snoc _ (nary_node cat ids))) in Hr.
    destruct cat; [eapply rc_cat|eapply rc_or]; eauto using nthN_app_mid.
Qed.

Lemma built_aux s pl s1 pl1 ids a b many c :
  built s pl s1 pl1 ids a b -> built s pl (add_node (aux_node many c) s1) pl1 (ids ++ [lenN (b_nodes s1)]) a b.
Proof.
  intros H. apply (built_add _ _ _ _ ids); [exact H|destruct many; exact I| |].
  - intros i Hi. apply in_app_or in Hi as [Hi|[<-|[]]]; [now right|now left].
  - eapply covered_mono; [apply prefix_snoc|reflexivity|apply incl_appl, incl_refl|apply H].
Qed.

Lemma leaf_nd_ok I i P m :
  match i with RSub rid _ _ => exists sr, nthN P rid = Some sr | _ => True end ->
  nd_ok (I ++ [i]) P m (leaf_of i (lenN I)).
Proof.
  destruct i as [t d l sp|n l sp|c z l sp|rid l sp]; cbn [leaf_of nd_ok]; intros H.
  1-3: repeat eexists; apply nthN_app_mid.
  exists rid, l, sp. split; [apply nthN_app_mid|exact H].
Qed.

(** a leaf: one input pushed, one node allocated *)
Lemma built_leaf s pl pl' i (a b : bool) :
  prefix pl pl' ->
  nd_ok (b_inputs s ++ [i]) pl' (lenN (b_nodes s)) (leaf_of i (lenN (b_inputs s))) ->
  (a = true -> nd_ok (b_inputs s ++ [i]) [] (lenN (b_nodes s)) (leaf_of i (lenN (b_inputs s)))) ->
  (b = true -> Forall sgood pl -> Forall sgood pl') ->
  built s pl (pushed i s) pl' [lenN (b_nodes s)] a b.
Proof.
  intros Hp Hn Ha Hs. unfold pushed. change input_node with leaf_of.
  set (I := b_inputs s ++ [i]) in *. set (n := leaf_of i (lenN (b_inputs s))) in *.
  assert (Hnew : forall P, nd_ok I P (lenN (b_nodes s)) n -> new_ok s (mkbst (b_nodes s ++ [n]) I) P).
  { intros P HP m x Hm E. cbn [b_nodes b_inputs] in *. apply nthN_snoc_inv in E as [[Hlt _]|[-> ->]]; [lia|exact HP]. }
  split; [repeat split; try apply prefix_snoc; exact Hp|]. split; [|split; [|split; [|split]]]; auto.
  - intros x [<-|[]]. cbn [b_nodes]. rewrite lenN_snoc. lia.
  - intros p inp Hl E. cbn [b_nodes b_inputs] in *. apply nthN_snoc_inv in E as [[Hlt _]|[-> ->]]; [lia|].
    exists (lenN (b_nodes s)), (lenN (b_nodes s)). split; [now left|]. split; [constructor|apply nthN_app_mid].
Qed.

Lemma leaf_not_sub e i : form_of e = FLeaf i -> match i with RSub _ _ _ => False | _ => True end.
Proof. destruct e; intros [= <-]; exact I. Qed.

Lemma alloc_spec n s id s' : alloc n s = (id, s') ->
  id = lenN (b_nodes s) /\ b_nodes s' = b_nodes s ++ [n] /\ b_inputs s' = b_inputs s.
Proof. unfold alloc. intro H. injection H as <- <-. auto. Qed.

(** finishing a regex: end marker and root on top *)
Lemma finish_rgood id t s0 P :
  ids_in empty_bst s0 [id] -> new_ok empty_bst s0 P -> covered empty_bst s0 [id] ->
  rgood P (finish_regex id t s0).
Proof.
  intros Hid Hn Hc. unfold finish_regex, alloc. cbn [b_nodes b_inputs].
  set (A1 := b_nodes s0 ++ [NEnd (lenN (b_inputs s0))]).
  assert (Hl1 : lenN A1 = N.succ (lenN (b_nodes s0))) by apply lenN_snoc.
  unfold rgood. cbn [r_root r_arena r_inputs]. split; [rewrite lenN_snoc; lia|]. split.
  - intros m x E. apply nthN_snoc_inv in E as [[Hlt E]|[-> ->]].
    + unfold A1 in E. apply nthN_snoc_inv in E as [[Hlt' E]|[-> ->]]; [|exact I].
      apply (Hn m x); [cbn; lia|exact E].
    + cbn [nd_ok]. specialize (Hid id (or_introl eq_refl)). cbn in Hid.
      intros c [<-|[<-|[]]]; rewrite Hl1; lia.
  - intros p inp E. destruct (Hc p inp) as [i [m [Hi [Hr Hm]]]]; [cbn; lia|exact E|].
    destruct Hi as [<-|[]]. exists m.
    assert (HP : prefix (b_nodes s0) (A1 ++ [NCat [id; lenN (b_nodes s0)]])).
    { eapply prefix_trans; [apply prefix_snoc|apply prefix_snoc]. }
    split; [|eapply prefix_nthN; eauto].
    eapply rc_cat; [apply nthN_app_mid|now left|]. eapply reach_mono; eauto.
Qed.

Definition inv (e : expr) : Prop :=
  forall s pl id t s' pl', do_from_expr e s pl = Ok (id, t, s', pl') ->
    built s pl s' pl' [id] (subword_free e) (flat_subwords e).

Lemma children_inv cs : Forall inv cs ->
  forall s pl ids ts s' pl', do_children do_from_expr cs s pl = Ok (ids, ts, s', pl') ->
    built s pl s' pl' ids (forallb subword_free cs) (forallb flat_subwords cs).
Proof.
  revert cs. apply do_children_ind.
  - intros s pl. apply built_nil.
  - intros c cs s pl id t s1 pl1 ids ts s2 pl2 Hc E1 _ IH.
    exact (built_app _ _ _ _ _ _ [id] ids _ _ _ _ (Hc _ _ _ _ _ _ E1) IH).
Qed.

Theorem do_from_expr_inv : forall e, inv e.
Proof.
  induction e as [e IH] using expr_form_ind. intros s pl id t s' pl' E.
  rewrite do_from_expr_form in E. rewrite subword_free_form, flat_subwords_form.
  pose proof (leaf_not_sub e) as Hleaf.
  destruct (form_of e) as [i|cat cs|many c|c l sp|c].
  - injection E as <- <- <- <-. specialize (Hleaf i eq_refl).
    assert (Hn : forall P, nd_ok (b_inputs s ++ [i]) P (lenN (b_nodes s)) (leaf_of i (lenN (b_inputs s)))).
    { intro P. apply leaf_nd_ok. destruct i; [exact I..|destruct Hleaf]. }
    apply (built_leaf s pl pl i); auto using prefix_refl.
  - destruct (do_children do_from_expr cs s pl) as [[[[ids ts] s1] pl1]| | |] eqn:E1; cbn [obind] in E; try discriminate.
    injection E as <- <- <- <-. apply built_parent. exact (children_inv cs IH _ _ _ _ _ _ E1).
  - destruct (do_from_expr c s pl) as [[[[cid ct] s1] pl1]| | |] eqn:E1; cbn [obind] in E; try discriminate.
    injection E as <- <- <- <-.
    exact (built_parent _ _ _ _ _ _ _ many (built_aux _ _ _ _ _ _ _ many cid (IH _ _ _ _ _ _ E1))).
  - (* the regex of the word is interned before its leaf is allocated *)
    destruct (do_from_expr c empty_bst pl) as [[[[cid ct] cs0] pl1]| | |] eqn:E1; cbn [obind] in E; try discriminate.
    destruct (pool_intern (finish_regex cid ct cs0) pl1) as [rid pl2] eqn:Ei.
    injection E as <- <- <- <-.
    destruct (IH _ _ _ _ _ _ E1) as [[_ [_ D]] [I1 [_ [C1 [S1 P1]]]]].
    destruct (pool_intern_spec _ _ _ _ Ei) as [Hpp Hrid].
    apply (built_leaf s pl pl2 (RSub rid l sp)); [eapply prefix_trans; eauto|apply leaf_nd_ok; eauto|discriminate|].
    intros Hf Hp. specialize (P1 (subword_free_flat c Hf) Hp).
    unfold pool_intern in Ei. destruct (pool_find (finish_regex cid ct cs0) pl1 0); injection Ei as <- <-; [exact P1|].
    apply Forall_app. split; [exact P1|]. constructor; [|constructor].
    apply finish_rgood; auto.
  - discriminate.
Qed.

Lemma do_children_ext cs s pl ids ts s' pl' :
  do_children do_from_expr cs s pl = Ok (ids, ts, s', pl') -> ext s s' pl pl'.
Proof.
  intro E. apply (children_inv cs) in E; [apply E|]. apply Forall_forall. intros c _. apply do_from_expr_inv.
Qed.

Theorem from_expr_rgood e pl r pl' :
  flat_subwords e = true -> Forall sgood pl -> from_expr e pl = Ok (r, pl') ->
  rgood pl' r /\ Forall sgood pl'.
Proof.
  intros Hf Hp H. apply from_expr_Ok in H. destruct H as (id & t & s & E & ->). destruct (do_from_expr_inv e _ _ _ _ _ _ E) as [_ [I1 [N1 [C1 [_ P1]]]]].
  split; [|auto]. apply finish_rgood; auto.
Qed.
