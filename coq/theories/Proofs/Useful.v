(** "Every position is useful" ([useful_statement] of RxLang.v): in the tables of the root
    [with_end t e] of a builder tree whose alternatives are never empty, [firstpos] is not empty,
    and from every position of [t] a chain of [followpos] edges leads to a position that the end
    marker follows.  With [ors_nonempty] every tree has a word ([lang_nonempty]), so by
    [local_shape] a non-nullable tree has non-empty [firstpos] and [lastpos]; from every position
    of [t] a chain of [followpos t] edges leads into [lastpos t] ([reach_last], on the binary view
    of the n-ary constructors as in Glushkov.v); the root adds the edges [lastpos t * {e}]. *)
From CG Require Import Base.Prelude Proofs.ListFacts Model.Ast Model.Regex Proofs.RxLang Proofs.Glushkov.

Lemma chain_app (F : list (N * N)) p r a r' :
  chain F p r -> In (last r p, a) F -> chain F a r' -> chain F p (r ++ a :: r').
Proof.
  revert p. induction r as [|b r IH]; intros p C Hl C'.
  - simpl in *. auto.
  - rewrite last_cons in Hl. simpl in C. destruct C as [C1 C2].
    simpl. split; auto.
Qed.


Lemma lang_nonempty t : ors_nonempty t = true -> exists w, Lrx t w.
Proof.
  induction t as [|k p|cs IH|cs IH|c IH] using rx_ind'; intros Ho.
  - exists []. constructor.
  - exists [p]. constructor.
  - cbn [ors_nonempty] in Ho. induction IH as [|c cs Hc _ IHcs].
    + exists []. constructor.
    + cbn [forallb] in Ho. apply andb_true_iff in Ho. destruct Ho as [Ho1 Ho2].
      destruct (Hc Ho1) as [u Hu]. destruct (IHcs Ho2) as [v Hv].
      exists (u ++ v). constructor; auto.
  - cbn [ors_nonempty] in Ho. destruct cs as [|c cs]; [discriminate|].
    inversion IH as [|? ? Hc _]; subst.
    cbn [forallb] in Ho. apply andb_true_iff in Ho. destruct Ho as [Ho1 _].
    destruct (Hc Ho1) as [u Hu]. exists u. econstructor; [left; reflexivity|exact Hu].
  - exists []. constructor.
Qed.

Lemma ends_nonempty t :
  shape t -> ors_nonempty t = true -> nullable t = false ->
  (exists a, In a (firstpos t)) /\ (exists a, In a (lastpos t)).
Proof.
  intros Hs Ho Hn. destruct (lang_nonempty t Ho) as [w Hw].
  apply (local_shape t Hs) in Hw. unfold Local in Hw. destruct w as [|a r]; simpl in Hw; [congruence|].
  destruct Hw as [Ha (b & _ & Hb)]. eauto.
Qed.

Lemma lastpos_nonempty t :
  shape t -> ors_nonempty t = true -> nullable t = false -> exists a, In a (lastpos t).
Proof. intros Hs Ho Hn. exact (proj2 (ends_nonempty t Hs Ho Hn)). Qed.

Definition reaches (t : rx) (p : N) : Prop :=
  exists r, chain (followpos t) p r /\ In (last r p) (lastpos t).

Lemma reaches_part t t' p :
  (forall x y, In (x, y) (followpos t) -> In (x, y) (followpos t')) ->
  (forall x, In x (lastpos t) -> In x (lastpos t')) -> reaches t p -> reaches t' p.
Proof. intros HF HL (r & C & Hl). exists r. split; [eapply chain_mono; eauto | auto]. Qed.

Theorem reach_last t :
  shape t -> ors_nonempty t = true ->
  forall p, In p (positions t) ->
  exists r, chain (followpos t) p r /\ In (last r p) (lastpos t).
Proof.
  intros Hs.
  induction Hs as [|k q Hk| |c cs Sc Scs D Hc Hcs| |c cs Sc Scs D Hc Hcs|c Sc Hc] using shape_bin_ind;
    intros Ho p Hp; try (destruct Hp; fail).
  - destruct Hp as [<-|[]]. exists []. simpl. auto.
  - cbn [ors_nonempty forallb] in Ho. apply andb_true_iff in Ho. destruct Ho as [Ho1 Ho2].
    assert (Htail : forall q, In q (positions (XCat cs)) -> reaches (XCat (c :: cs)) q).
    { intros q Hq. apply (reaches_part (XCat cs)); [| |exact (Hcs Ho2 q Hq)].
      - intros x y H. apply followpos_cat_cons. auto.
      - intros x H. apply lastpos_cat_cons. auto. }
    rewrite positions_cat_cons in Hp. apply in_app_iff in Hp. destruct Hp as [Hp|Hp]; [|exact (Htail p Hp)].
    destruct (Hc Ho1 p Hp) as (r & C & Hl).
    assert (C' : chain (followpos (XCat (c :: cs))) p r).
    { eapply chain_mono; [|exact C]. intros x y H. apply followpos_cat_cons. auto. }
    destruct (nullable (XCat cs)) eqn:Hn.
    + exists r. split; [exact C'|]. apply lastpos_cat_cons. auto.
    + destruct (proj1 (ends_nonempty (XCat cs) Scs Ho2 Hn)) as [a Ha].
      destruct (Htail a (first_pos _ _ Ha)) as (r' & D' & Hl').
      exists (r ++ a :: r'). split.
      * apply chain_app; auto. apply followpos_cat_cons. right. right. apply in_pprod. auto.
      * rewrite last_app_cons. exact Hl'.
  - assert (Ho' : ors_nonempty c = true /\ (cs = [] \/ ors_nonempty (XOr cs) = true)).
    { cbn [ors_nonempty forallb] in Ho. apply andb_true_iff in Ho. destruct Ho as [Ho1 Ho2].
      split; [exact Ho1|]. destruct cs; [left; reflexivity | right; exact Ho2]. }
    destruct Ho' as [Ho1 Ho2].
    rewrite positions_or_cons in Hp. apply in_app_iff in Hp. destruct Hp as [Hp|Hp].
    + apply (reaches_part c); [| |exact (Hc Ho1 p Hp)].
      * intros x y H. apply followpos_or_cons. auto.
      * intros x H. apply lastpos_or_cons. auto.
    + destruct Ho2 as [->|Ho2]; [destruct Hp|].
      apply (reaches_part (XOr cs)); [| |exact (Hcs Ho2 p Hp)].
      * intros x y H. apply followpos_or_cons. auto.
      * intros x H. apply lastpos_or_cons. auto.
  - cbn [ors_nonempty forallb] in Ho. apply andb_true_iff in Ho.
    cbn [positions flat_map] in Hp. rewrite app_nil_r in Hp. apply in_app_iff in Hp.
    apply (reaches_part c); [| |apply Hc; tauto].
    + intros x y H. apply followpos_many. auto.
    + intros x H. apply lastpos_many. exact H.
Qed.

Theorem useful_positions : useful_statement.
Proof.
  intros t e Hs Ho He. split.
  - destruct (nullable t) eqn:Hn.
    + intros E. assert (H : In e (firstpos (with_end t e))).
      { apply firstpos_with_end. auto. }
      rewrite E in H. contradiction.
    + destruct (proj1 (ends_nonempty t Hs Ho Hn)) as [a Ha]. intros E.
      assert (H : In a (firstpos (with_end t e))).
      { apply firstpos_with_end. auto. }
      rewrite E in H. contradiction.
  - intros p Hp. destruct (reach_last t Hs Ho p Hp) as (r & C & Hl). exists r. split.
    + eapply chain_mono; [|exact C]. intros x y H. apply followpos_with_end. auto.
    + apply followpos_with_end. auto.
Qed.

Print Assumptions useful_positions.
