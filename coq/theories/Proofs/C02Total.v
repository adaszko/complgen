(** Totality and the minimised automata: for every tree the checker returns, the model pipeline
    [from_expr] -> [dfa_from_regex] -> [minimize] produces automata (no panic, no fuel
    exhaustion), the raw automaton satisfies the hypotheses of the C03 theorems, and the minimised
    automaton, with minimised within-word automata, accepts exactly what the tree denotes. *)
From CG Require Import Base.Prelude Base.Facts Model.Ast Model.Dfa Model.Regex Model.Subset Model.Check Model.Minimize Spec.Lang.
From CG Require Import Spec.DfaEquiv Spec.MinimizeSpec.
From CG Require Import Proofs.RxLang Proofs.Glushkov Proofs.Useful Proofs.SubsetStmt Proofs.SubsetConstr Proofs.SubsetFuel.
From CG Require Import Proofs.LangDen Proofs.LangJudge Proofs.FromExpr Proofs.C02Lang Proofs.RegexFuel.
From CG Require Import Proofs.TreeFacts Proofs.CheckTree Proofs.WfTrim Proofs.RegexNoPanic.
From CG Require Import Proofs.MinimizeCorrect Proofs.MinimizeTotal.

Lemma wf_trim_pool : forall pick fuel submap rr d states,
  regex_good rr -> dfa_from_regex pick fuel submap rr = Ok (d, states) -> wf d /\ trim d.
Proof.
  intros pick fuel submap rr d states Hg H. split.
  - eapply dfa_from_regex_wf; eauto.
  - eapply dfa_from_regex_trim; eauto.
Qed.

Theorem wf_trim_from_regex : forall pick fuel submap e pl0 r pl d states,
  alts_nonempty e = true -> Forall regex_good pl0 ->
  from_expr e pl0 = Ok (r, pl) ->
  dfa_from_regex pick fuel submap r = Ok (d, states) ->
  wf d /\ trim d.
Proof.
  intros pick fuel submap e pl0 r pl d states Ha Hp E H.
  exact (wf_trim_pool _ _ _ _ _ _ (proj1 (from_expr_good _ _ _ _ Ha E Hp)) H).
Qed.

Lemma minimize_inputs : forall d m, minimize d = Ok m -> d_inputs m = d_inputs d.
Proof.
  intros d m H. unfold minimize in H. apply do_minimize_inv in H.
  destruct H as [h [reps [_ [_ [_ [_ H]]]]]]. simpl in H.
  destruct H as [s' [ts' [accn [_ ->]]]]. reflexivity.
Qed.

Lemma waccepts_same : forall d m, d_inputs m = d_inputs d -> (forall w, accepts m w = accepts d w) ->
  forall v, waccepts m v <-> waccepts d v.
Proof.
  intros d m Hi Ha v. unfold waccepts. rewrite Hi.
  split; intros [ids [H1 H2]]; exists ids; split; auto; [rewrite <- Ha|rewrite Ha]; exact H1.
Qed.

(** the within-word automata handed to the main automaton are the minimised raw automata of the
    pool regexes the oracle names (each built with any pop order) *)
Definition subs_minimised (submap : list (N * N)) (pl : pool) (subs : list dfa) : Prop :=
  forall rid k, assocN rid submap = Some k ->
    exists rr pick fuel sm dk states,
      nthN pl rid = Some rr /\ dfa_from_regex pick fuel sm rr = Ok (dk, states) /\
      minimize dk = Ok (nth (N.to_nat k) subs dead_dfa).

Lemma subs_minimised_ok : forall submap pl subs d,
  Forall regex_good pl -> subs_minimised submap pl subs -> subs_ok submap pl (mkcdfa d subs).
Proof.
  intros submap pl subs d Hp Hs rid k Hk v.
  destruct (Hs rid k Hk) as [rr [pick [fuel [sm [dk [states [Hn [Hd Hm]]]]]]]].
  assert (Hg : regex_good rr).
  { rewrite Forall_forall in Hp. exact (Hp _ (nthN_In _ _ _ Hn)). }
  destruct (wf_trim_pool _ _ _ _ _ _ Hg Hd) as [W T].
  destruct (minimize_correct dk _ W T Hm) as [Hl _].
  unfold sub_dfa. simpl.
  rewrite (waccepts_same dk _ (minimize_inputs _ _ Hm) Hl v).
  rewrite (waccepts_regex_wlang _ _ _ _ _ _ Hd v). unfold pool_wlang. split.
  - intros Hv. eauto.
  - intros [rr' [Hn' Hv]]. congruence.
Qed.

(** C02 after minimisation, including the nested automata. *)
Theorem C02_minimised_model : forall pick fuel submap e r pl d states subs m,
  alts_nonempty e = true ->
  from_expr e [] = Ok (r, pl) ->
  dfa_from_regex pick fuel submap r = Ok (d, states) ->
  subs_minimised submap pl subs ->
  minimize d = Ok m ->
  forall w, accepts_items (mkcdfa m subs) w <-> denotes e w.
Proof.
  intros pick fuel submap e r pl d states subs m Ha E H Hs Hm w.
  destruct (from_expr_good _ _ _ _ Ha E (Forall_nil _)) as [Hg Hp].
  destruct (wf_trim_pool _ _ _ _ _ _ Hg H) as [W T].
  destruct (minimize_correct d m W T Hm) as [Hl _].
  eapply C02_language_transfer; eauto.
  - eapply subs_minimised_ok; eauto.
  - apply minimize_inputs. exact Hm.
Qed.

Lemma do_children_total : forall f (ok : expr -> bool) cs,
  Forall (fun c => forall s pl, ok c = true -> exists x, f c s pl = Ok x) cs ->
  forall s pl, forallb ok cs = true -> exists x, do_children f cs s pl = Ok x.
Proof.
  intros f ok cs HF. induction HF as [|c cs Hc _ IH]; intros s pl Hd; cbn [do_children]; [eauto|].
  cbn in Hd. apply andb_true_iff in Hd. destruct Hd as [H1 H2].
  destruct (Hc s pl H1) as [[[[id t] s1] pl1] ->]. cbn [obind].
  destruct (IH s1 pl1 H2) as [[[[ids ts] s2] pl2] ->]. cbn [obind]. eauto.
Qed.

Lemma do_from_expr_total : forall e s pl, dd_free e = true -> exists x, do_from_expr e s pl = Ok x.
Proof.
  induction e using expr_ind'; intros s pl Hd; simpl in Hd; simpl.
  - eauto.
  - eauto.
  - eauto.
  - destruct (do_children_total _ dd_free cs H s pl Hd) as [[[[ids ts] s1] pl1] ->]. cbn. eauto.
  - destruct (do_children_total _ dd_free cs H s pl Hd) as [[[[ids ts] s1] pl1] ->]. cbn. eauto.
  - destruct (IHe s pl Hd) as [[[[id t] s1] pl1] ->]. cbn. eauto.
  - destruct (IHe s pl Hd) as [[[[id t] s1] pl1] ->]. cbn. eauto.
  - discriminate.
  - destruct (do_children_total _ dd_free cs H s pl Hd) as [[[[ids ts] s1] pl1] ->]. cbn. eauto.
  - destruct (IHe empty_bst pl Hd) as [[[[id t] s1] pl1] ->]. cbn [obind].
    destruct (Regex.pool_intern (finish_regex id t s1) pl1). eauto.
Qed.

Lemma from_expr_total : forall e pl, dd_free e = true -> exists r pl', from_expr e pl = Ok (r, pl').
Proof.
  intros e pl Hd. destruct (do_from_expr_total e empty_bst pl Hd) as [[[[id t] s] pl1] E].
  do 2 eexists. apply from_expr_Ok. eauto.
Qed.

Lemma regex_good_bounded : forall r, regex_good r ->
  tables_bounded r (N.of_nat (List.length (r_inputs r))).
Proof.
  intros r [t [Hroot [Hsh [Hors [Hrg Hend]]]]].
  assert (Hpos : forall p, In p (positions (r_tree r)) -> p <= r_end r).
  { intros p Hp. rewrite Hroot in Hp. apply positions_with_end in Hp.
    destruct Hp as [Hp| ->]; [specialize (Hrg p Hp)|]; lia. }
  fold (lenN (r_inputs r)). rewrite <- Hend. split.
  - intros p Hp. apply Hpos, first_pos, Hp.
  - intros p s q Hin Hq. apply Hpos. apply (follow_pos _ p q), follow_table_tin.
    exists s. split; [|exact Hq]. apply tsorted_assoc; [|exact Hin]. apply (follow_table_gen _ [] I).
Qed.

Theorem dfa_from_regex_total : forall pick fuel submap r,
  regex_good r ->
  (forall rid l sp, In (RSub rid l sp) (r_inputs r) -> assocN rid submap <> None) ->
  (pow2 (S (List.length (r_inputs r))) < fuel)%nat ->
  exists d states, dfa_from_regex pick fuel submap r = Ok (d, states).
Proof.
  intros pick fuel submap r Hg Hsub Hf.
  destruct (omap_total (from_input submap) (r_inputs r)) as [labels Hl].
  { intros x Hx. destruct x; cbn; eauto. destruct (assocN rid submap) eqn:E; [eauto|].
    destruct (Hsub _ _ _ Hx E). }
  destruct (loop_total_init labels (intern_all labels) pick fuel r _ (regex_good_bounded r Hg) Hf)
    as [st El].
  destruct (find_set_complete (regex_first r) (s_ids st)) as [s0 Ef].
  { apply (in_map fst _ (regex_first r, first_state_id)).
    apply (loop_stored _ _ _ _ (fun ids _ => incl (s_ids (init_sst r)) ids)) in El.
    - apply El. left. reflexivity.
    - intros ids nx S x Hi _. apply incl_appl. exact Hi.
    - apply incl_refl. }
  do 2 eexists. apply dfa_from_regex_Ok. exists labels, st, s0. auto.
Qed.

Theorem C02_total_full : forall builtins g sh v,
  from_grammar builtins g sh = Ok v -> grammar_alts_nonempty g = true ->
  exists r pl,
    from_expr (v_expr v) [] = Ok (r, pl) /\
    (check_ambiguities r pl = Ok tt \/
     exists a b, check_ambiguities r pl = Err (UnboundedMatchable a b)) /\
    forall pick fuel submap,
      (forall rid l sp, In (RSub rid l sp) (r_inputs r) -> assocN rid submap <> None) ->
      (pow2 (S (List.length (r_inputs r))) < fuel)%nat ->
      exists d states m,
        dfa_from_regex pick fuel submap r = Ok (d, states) /\
        wf d /\ trim d /\
        minimize d = Ok m /\
        (forall ids, accepts m ids = accepts d ids) /\
        trim m /\ pairwise_distinguishable m /\ minimal_size m /\
        forall subs, subs_minimised submap pl subs ->
          forall w, accepts_items (mkcdfa m subs) w <-> denotes (v_expr v) w.
Proof.
  intros builtins g sh v Hv Hga.
  destruct (check_tree builtins g sh v Hv) as [Hdd [Hflat [_ Halts]]]. specialize (Halts Hga).
  destruct (from_expr_total (v_expr v) [] Hdd) as [r [pl E]].
  exists r, pl. split; [exact E|]. split; [exact (check_ambiguities_result _ _ _ Hflat E)|].
  intros pick fuel submap Hsub Hf.
  destruct (from_expr_good _ _ _ _ Halts E (Forall_nil _)) as [Hg Hp].
  destruct (dfa_from_regex_total pick fuel submap r Hg Hsub Hf) as [d [states H]].
  destruct (wf_trim_pool _ _ _ _ _ _ Hg H) as [W T].
  destruct (minimize_total d W T) as [m Hm].
  destruct (minimize_correct d m W T Hm) as [Hl [Tm [Pm Mm]]].
  exists d, states, m.
  split; [exact H|]. split; [exact W|]. split; [exact T|]. split; [exact Hm|].
  split; [exact Hl|]. split; [exact Tm|]. split; [exact Pm|]. split; [exact Mm|].
  intros subs Hs w. eapply C02_minimised_model; eauto.
Qed.
