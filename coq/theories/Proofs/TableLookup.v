(** How the script's lookups in the emitted tables ([BashSem.top_lit_loop], [assocN] on the
    command / star tables, [BashSem.level_row]) relate to the transitions of the automaton the
    tables were computed from.  Built on Proofs/TablesSound.v (C04) and Proofs/TablesKeys.v. *)
From CG Require Import Base.Prelude Model.Dfa Model.Tables Model.Glob Model.BashSem.
From CG Require Import Proofs.TablesSound Proofs.TablesKeys.

Lemma bt_insert_key {V} k (v : V) m k0 : (exists v0, In (k0, v0) (bt_insert k v m)) <-> k0 = k \/ exists v0, In (k0, v0) m.
Proof.
  split.
  - intros [v0 H]. apply bt_insert_in in H. destruct H as [E | H]; [inversion E; left; reflexivity | right; eauto].
  - intros [-> | [v0 H]].
    + exists v. apply bt_insert_same.
    + destruct (N.eq_dec k0 k) as [-> | Hne]; [exists v; apply bt_insert_same |].
      exists v0. apply bt_insert_other; [exact Hne | exact H].
Qed.

Lemma bt_of_list_key {V} (l : list (N * V)) k v : In (k, v) l -> exists v', In (k, v') (bt_of_list l).
Proof.
  unfold bt_of_list.
  assert (G : forall acc : list (N * V),
             (In (k, v) l \/ exists v0, In (k, v0) acc) ->
             exists v', In (k, v') (fold_left (fun acc kv => bt_insert (fst kv) (snd kv) acc) l acc)).
  { induction l as [| [k1 v1] l IH]; intros acc H; cbn [fold_left].
    - destruct H as [[] | H]. exact H.
    - apply IH. destruct H as [[E | H] | H].
      + inversion E; subst. right. apply bt_insert_key. left; reflexivity.
      + left; exact H.
      + right. apply bt_insert_key. right; exact H. }
  intro H. apply G. left; exact H.
Qed.

(** Weak completeness of a match table: a selected transition leaves *some* entry for its key
    (transitions of one state that share a key overwrite one another). *)
Lemma match_table_has d sel tbl s i x k to :
  match_table d (get_all_states d) sel = Ok tbl ->
  In (i, to) (transitions_from d s) -> nthN (d_inputs d) i = Some x -> sel x = Some (Ok k) ->
  exists to', tbl_has tbl s k to'.
Proof.
  intros H Hi Hn Hsel.
  assert (Hs : In s (get_all_states d)) by (eapply has_transition_state; eassumption).
  assert (Hrow : exists tr, rtrans_from d s = Ok tr).
  { unfold match_table in H. apply obind_ok in H. destruct H as [rows [Hrows _]].
    destruct (omap_ok_each _ _ _ Hrows s Hs) as [y [Hy _]].
    apply obind_ok in Hy. destruct Hy as [tr [Htr _]]. exists tr. exact Htr. }
  destruct Hrow as [tr Htr].
  assert (Hx : In (x, to) tr) by (apply (rtrans_from_in _ _ _ _ _ Htr); eauto).
  assert (Hk : In (k, to) (keys_of sel tr)) by (apply keys_of_in; eauto).
  destruct (bt_of_list_key _ _ _ Hk) as [to' Hto'].
  exists to', (bt_of_list (keys_of sel tr)). split; [| exact Hto'].
  apply (match_table_rows _ _ _ _ H). split; [exact Hs | split; [| eauto]].
  intro E. rewrite E in Hto'. destruct Hto'.
Qed.

Lemma top_lit_loop_sound lits st w to :
  top_lit_loop lits st w = Some to -> exists lid, In (lid, w) lits /\ assocN lid st = Some to.
Proof.
  induction lits as [| [lid lit] r IH]; cbn [top_lit_loop]; intro H; [discriminate |].
  destruct (String.eqb lit w) eqn:E.
  - apply String.eqb_eq in E. subst lit. destruct (assocN lid st) as [t0 |] eqn:Ea.
    + inversion H; subst. exists lid. split; [left; reflexivity | exact Ea].
    + destruct (IH H) as [l' [Hin Ha]]. exists l'. split; [right; exact Hin | exact Ha].
  - destruct (IH H) as [l' [Hin Ha]]. exists l'. split; [right; exact Hin | exact Ha].
Qed.

Lemma top_lit_loop_some lits st w lid to :
  In (lid, w) lits -> assocN lid st = Some to -> exists to', top_lit_loop lits st w = Some to'.
Proof.
  induction lits as [| [l0 lit] r IH]; intros Hin Ha; [destruct Hin |].
  cbn [top_lit_loop]. destruct Hin as [E | Hin].
  - inversion E; subst. rewrite String.eqb_refl, Ha. eauto.
  - destruct (String.eqb lit w); [| apply IH; assumption].
    destruct (assocN l0 st); [eauto | apply IH; assumption].
Qed.

Lemma indexed_from_in {A} (l : list A) : forall i k x, In (k, x) (indexed_from i l) <-> i <= k /\ nth_error l (N.to_nat (k - i)) = Some x.
Proof.
  induction l as [| y r IH]; intros i k x; cbn [indexed_from].
  - split; [intros [] | intros [_ H]]. destruct (N.to_nat (k - i)); discriminate.
  - cbn [In]. rewrite IH. split.
    + intros [H | [H1 H2]].
      * inversion H; subst. split; [lia |]. replace (k - k) with 0 by lia. reflexivity.
      * split; [lia |]. replace (N.to_nat (k - i)) with (S (N.to_nat (k - (i + 1)))) by lia. exact H2.
    + intros [H1 H2]. destruct (N.eq_dec k i) as [-> | Hne].
      * left. replace (i - i) with 0 in H2 by lia. cbn in H2. congruence.
      * right. split; [lia |]. replace (N.to_nat (k - i)) with (S (N.to_nat (k - (i + 1)))) in H2 by lia. exact H2.
Qed.

Lemma number_from_map {A B} (f : A -> B) (l : list A) : forall n, map (fun ip => f (snd ip)) (number_from n l) = map f l.
Proof. induction l as [| x r IH]; intro n; cbn; [reflexivity | rewrite IH; reflexivity]. Qed.

Section Lookup.
  Variables (d : dfa) (cmds : list string) (nc ncp ns : bool) (ord : list (string * string)) (T : tables).
  Hypothesis Hwf : dfa_wf d.
  Hypothesis Hord : NoDup ord.
  Hypothesis Hglt : get_lookup_tables d cmds 0 nc ncp ns ord = Ok T.

  Lemma literal_texts_ord : literal_texts T = map fst ord.
  Proof.
    destruct (glt_inv _ _ _ _ _ _ _ _ Hglt) as [rt F]. unfold literal_texts. rewrite (gf_lits _ _ _ _ _ _ _ _ _ F).
    unfold all_literals. rewrite map_map. cbn [fst snd]. apply (number_from_map fst).
  Qed.

  Lemma literal_at_lit l t ds : lit_at ord 0 l t ds -> literal_at T l = t.
  Proof.
    intros [_ H]. unfold literal_at, nthN. rewrite literal_texts_ord. replace (l - 0) with l in H by lia.
    rewrite (map_nth_error fst _ _ H). reflexivity.
  Qed.

  Lemma indexed_lit lid w : In (lid, w) (indexed_from 0 (literal_texts T)) <-> exists ds, lit_at ord 0 lid w ds.
  Proof.
    rewrite indexed_from_in, literal_texts_ord. unfold lit_at. split.
    - intros [_ H]. rewrite nth_error_map in H. destruct (nth_error ord (N.to_nat (lid - 0))) as [[t ds] |] eqn:E; [| discriminate].
      cbn in H. inversion H; subst. exists ds. split; [lia | reflexivity].
    - intros [ds [_ H]]. split; [lia |]. rewrite (map_nth_error fst _ _ H). reflexivity.
  Qed.

  Lemma lit_at_fun l t ds t' ds' : lit_at ord 0 l t ds -> lit_at ord 0 l t' ds' -> t = t' /\ ds = ds'.
  Proof. intros [_ H1] [_ H2]. rewrite H1 in H2. inversion H2; subst. split; reflexivity. Qed.

  Definition lit_lookup (s : N) (w : string) : option N :=
    match assocN s (t_mlit T) with
    | Some st => top_lit_loop (indexed_from 0 (literal_texts T)) st w
    | None => None
    end.

  Theorem lit_lookup_sound s w to :
    lit_lookup s w = Some to -> exists dso lvl, trans_on d s (ILit w dso lvl) to.
  Proof.
    unfold lit_lookup. destruct (assocN s (t_mlit T)) as [st |] eqn:Es; [| discriminate]. intro H.
    apply top_lit_loop_sound in H. destruct H as [lid [Hin Ha]].
    apply indexed_lit in Hin. destruct Hin as [ds Hl].
    assert (Hh : tbl_has (t_mlit T) s lid to) by (exists st; split; apply assocN_In; assumption).
    destruct (mlit_sound d cmds 0 nc ncp ns ord T Hwf Hord Hglt s lid to Hh) as [text [dso [lvl [Htr Hl']]]].
    destruct (lit_at_fun _ _ _ _ _ Hl Hl') as [-> _]. exists dso, lvl. exact Htr.
  Qed.

  Lemma mlit_keys : NoDup (map fst (t_mlit T)) /\ forall s row, In (s, row) (t_mlit T) -> NoDup (map fst row).
  Proof.
    destruct (glt_inv _ _ _ _ _ _ _ _ Hglt) as [rt F].
    apply (match_table_keys _ _ _ _ (get_all_states_NoDup d) (gf_mlit _ _ _ _ _ _ _ _ _ F)).
  Qed.

  Theorem lit_lookup_complete s w dso lvl to :
    valid_literal_order d ord = true -> trans_on d s (ILit w dso lvl) to -> exists to', lit_lookup s w = Some to'.
  Proof.
    intros Hv Htr. destruct (glt_inv _ _ _ _ _ _ _ _ Hglt) as [rt F].
    pose proof Htr as Htr0. destruct Htr as [i [Hs Hn]].
    destruct (valid_order_covers d ord 0 i w dso lvl Hv Hn) as [lid Hl].
    apply (step_in _ _ _ _ Hwf) in Hs.
    assert (Hsel : lit_sel (all_literals ord 0) (ILit w dso lvl) = Some (Ok lid)).
    { cbn. f_equal. apply (lit_id_at _ _ _ _ _ Hord). exact Hl. }
    destruct (match_table_has _ _ _ _ _ _ _ _ (gf_mlit _ _ _ _ _ _ _ _ _ F) Hs Hn Hsel) as [to' Hh].
    destruct mlit_keys as [K1 K2]. apply (tbl_has_assoc _ _ _ _ K1 K2) in Hh. destruct Hh as [row [Hr Hk]].
    unfold lit_lookup. rewrite Hr. eapply top_lit_loop_some; [| exact Hk]. apply indexed_lit. eauto.
  Qed.

  Lemma clit_keys : Forall (fun lv => NoDup (map fst lv)) (t_clit T).
  Proof.
    destruct (glt_inv _ _ _ _ _ _ _ _ Hglt) as [rt F]. eapply completion_table_keys. apply (gf_clit _ _ _ _ _ _ _ _ _ F).
  Qed.

  Theorem level_row_lit k s l :
    In l (level_row (t_clit T) (N.to_nat k) s) <->
    exists text dso to, trans_on d s (ILit text dso k) to /\ lit_at ord 0 l text (unwrap_descr dso).
  Proof.
    unfold level_row. rewrite <- (mem3_level_row _ _ _ _ clit_keys).
    apply (clit_exact d cmds 0 nc ncp ns ord T Hwf Hord Hglt).
  Qed.

  Lemma level_in_range k s text dso to :
    valid_literal_order d ord = true -> trans_on d s (ILit text dso k) to -> (N.to_nat k < S (N.to_nat (t_maxlevel T)))%nat.
  Proof.
    intros Hv Htr. pose proof Htr as Htr0. destruct Htr as [i [_ Hn]].
    destruct (valid_order_covers d ord 0 i text dso k Hv Hn) as [l Hl].
    assert (M : mem3 (t_clit T) k s l).
    { apply (clit_exact d cmds 0 nc ncp ns ord T Hwf Hord Hglt). eauto. }
    destruct M as [row [Hr _]]. pose proof (clit_levels d cmds 0 nc ncp ns ord T Hglt) as Hlen.
    assert (N.to_nat k < List.length (t_clit T))%nat by (apply nth_error_Some; rewrite Hr; discriminate). lia.
  Qed.

  Lemma mcmd_row_keys ct s row : t_mcmd T = Some ct -> assocN s ct = Some row -> NoDup (map fst row).
  Proof.
    intros Hct Hr. destruct (glt_inv _ _ _ _ _ _ _ _ Hglt) as [rt F].
    destruct (gf_mcmd _ _ _ _ _ _ _ _ _ F) as [[_ [m [Hm Em]]] | [_ Em]]; rewrite Em in Hct; [| discriminate].
    inversion Hct; subst m.
    destruct (match_table_keys _ _ _ _ (get_all_states_NoDup d) Hm) as [_ K2]. apply (K2 s row). apply assocN_In. exact Hr.
  Qed.

  Lemma mcmd_row_sound ct s row cid to : t_mcmd T = Some ct -> assocN s ct = Some row -> In (cid, to) row ->
    exists cm l, Tables.index_of cm cmds = Some cid /\ trans_on d s (ICmd cm l) to.
  Proof.
    intros Hct Hr Hin.
    assert (Hh : tbl_has ct s cid to) by (exists row; split; [apply assocN_In; exact Hr | exact Hin]).
    destruct (mcmd_sound d cmds 0 nc ncp ns ord T Hwf Hglt ct s cid to Hct Hh) as [cm [l [Htr Hid]]]. eauto.
  Qed.

  (** a transition on a command leaves an entry for that command in the row of its state (the
      entry of the last such transition) *)
  Lemma mcmd_row_has s cm l to : nc = true -> trans_on d s (ICmd cm l) to ->
    exists ct row cid to', t_mcmd T = Some ct /\ assocN s ct = Some row /\ Tables.index_of cm cmds = Some cid /\ In (cid, to') row.
  Proof.
    intros Hnc Htr. destruct (glt_inv _ _ _ _ _ _ _ _ Hglt) as [rt F].
    destruct (gf_mcmd _ _ _ _ _ _ _ _ _ F) as [[_ [ct [Hct Ect]]] | [Hf _]]; [| rewrite Hnc in Hf; discriminate].
    destruct Htr as [i [Hs Hn]]. apply (step_in _ _ _ _ Hwf) in Hs.
    assert (Hid : exists cid, Tables.index_of cm cmds = Some cid).
    { assert (Hs0 : In s (get_all_states d)) by (eapply has_transition_state; eassumption).
      unfold match_table in Hct. apply obind_ok in Hct. destruct Hct as [rows [Hrows _]].
      destruct (omap_ok_each _ _ _ Hrows s Hs0) as [y [Hy _]].
      apply obind_ok in Hy. destruct Hy as [tr [Htr' Hy]]. apply obind_ok in Hy. destruct Hy as [kvs [Hkvs _]].
      assert (Hx : In (ICmd cm l, to) tr) by (apply (rtrans_from_in _ _ _ _ _ Htr'); eauto).
      destruct (omap_ok_each _ _ _ Hkvs _ Hx) as [y' [Hy' _]]. cbn [fst cmd_sel] in Hy'.
      unfold cmd_id_or_panic in Hy'. destruct (Tables.index_of cm cmds) as [cid |]; [eauto | discriminate]. }
    destruct Hid as [cid Hid].
    assert (Hsel : cmd_sel cmds (ICmd cm l) = Some (Ok cid)) by (cbn [cmd_sel]; f_equal; apply cmd_id_at; exact Hid).
    destruct (match_table_has _ _ _ _ _ _ _ _ Hct Hs Hn Hsel) as [to' Hh].
    destruct (match_table_keys _ _ _ _ (get_all_states_NoDup d) Hct) as [K1 K2].
    apply (tbl_has_assoc _ _ _ _ K1 K2) in Hh. destruct Hh as [row [Hr Hk]].
    exists ct, row, cid, to'. split; [exact Ect | split; [exact Hr | split; [exact Hid | apply assocN_In; exact Hk]]].
  Qed.

  Lemma ccmd_shape cc : t_ccmd T = Some cc ->
    Forall (fun lv : list (N * list N) => NoDup (map fst lv)) cc /\ List.length cc = (N.to_nat (t_maxlevel T) + 1)%nat.
  Proof.
    intro Hcc. destruct (glt_inv _ _ _ _ _ _ _ _ Hglt) as [rt F].
    destruct (gf_ccmd _ _ _ _ _ _ _ _ _ F) as [[_ [m [Hm Em]]] | [_ Em]]; rewrite Em in Hcc; [| discriminate].
    inversion Hcc; subst m. split; [eapply completion_table_keys; exact Hm |].
    apply (completion_table_spec _ _ _ _ _ insertN_in Hm).
  Qed.

  Lemma ccmd_some : nc = true -> exists cc, t_ccmd T = Some cc.
  Proof.
    intro Hnc. destruct (glt_inv _ _ _ _ _ _ _ _ Hglt) as [rt F].
    destruct (gf_ccmd _ _ _ _ _ _ _ _ _ F) as [[_ [cc [_ Ecc]]] | [Hf _]]; [eauto | rewrite Hnc in Hf; discriminate].
  Qed.

  Lemma level_row_cmd cc L s cid : t_ccmd T = Some cc ->
    (In cid (level_row cc L s) <-> exists cm to, trans_on d s (ICmd cm (N.of_nat L)) to /\ Tables.index_of cm cmds = Some cid).
  Proof.
    intro Hcc. rewrite <- (ccmd_exact d cmds 0 nc ncp ns ord T Hwf Hglt cc (N.of_nat L) s cid Hcc).
    rewrite (mem3_level_row cc (N.of_nat L) s cid (proj1 (ccmd_shape cc Hcc))). rewrite Nat2N.id. unfold level_row. reflexivity.
  Qed.

  Lemma cmd_level_in_range cc l s cid : t_ccmd T = Some cc -> In cid (level_row cc (N.to_nat l) s) ->
    (N.to_nat l < S (N.to_nat (t_maxlevel T)))%nat.
  Proof.
    intros Hcc Hin. destruct (ccmd_shape cc Hcc) as [_ Hlen]. unfold level_row in Hin.
    destruct (nth_error cc (N.to_nat l)) as [rows |] eqn:En; [| destruct Hin].
    assert (N.to_nat l < List.length cc)%nat by (apply nth_error_Some; rewrite En; discriminate). lia.
  Qed.

  Definition star_target (s : N) : option N :=
    match t_mstar T with Some stars => assocN s stars | None => None end.

  Lemma star_target_sound s to : star_target s = Some to -> trans_on d s IStar to.
  Proof.
    unfold star_target. destruct (t_mstar T) as [stars |] eqn:Est; [| discriminate]. intro Ea.
    apply assocN_In in Ea. apply (mstar_exact d cmds 0 nc ncp ns ord T Hwf Hglt stars s to Est). exact Ea.
  Qed.

  Lemma star_target_complete s t : ns = true -> trans_on d s IStar t -> star_target s <> None.
  Proof.
    intros Hns Htr. destruct (glt_inv _ _ _ _ _ _ _ _ Hglt) as [rt F]. unfold star_target.
    pose proof (gf_mstar _ _ _ _ _ _ _ _ _ F) as Est. rewrite Hns in Est. rewrite Est.
    apply (mstar_exact d cmds 0 nc ncp ns ord T Hwf Hglt _ s t Est) in Htr. intro Ea.
    apply assocN_None in Ea. apply Ea. apply in_map_iff. exists (s, t). split; [reflexivity | exact Htr].
  Qed.
End Lookup.

Section Enabled.
  Variable Tw : tables.

  (** the literal row of a state as the script reads it: texts with their targets, in the order
      of the literal table *)
  Definition enabled (s : N) : list (string * N) :=
    match assocN s (t_mlit Tw) with
    | None => []
    | Some st => flat_map (fun il => match assocN (fst il) st with Some to => [(snd il, to)] | None => [] end)
                          (indexed_from 0 (literal_texts Tw))
    end.

  Lemma enabled_in s st lit to :
    assocN s (t_mlit Tw) = Some st ->
    (In (lit, to) (enabled s) <-> exists lid, In (lid, lit) (indexed_from 0 (literal_texts Tw)) /\ assocN lid st = Some to).
  Proof.
    intro Es. unfold enabled. rewrite Es, in_flat_map. split.
    - intros [[lid l0] [Hin H]]. cbn [fst snd] in H. destruct (assocN lid st) as [t0 |] eqn:Ea; [| destruct H].
      destruct H as [E | []]. inversion E; subst. exists lid. split; assumption.
    - intros [lid [Hin Ha]]. exists (lid, lit). split; [exact Hin |]. cbn [fst snd]. rewrite Ha. left; reflexivity.
  Qed.
End Enabled.
