(** The terminal lexer: the Rust loop (regular run, escape run, fewer-than-three dots run,
    [consumed == 0] exit) equals the character-at-a-time function [lex1]; a spelled literal
    followed by a token stopper lexes back to the literal. *)
From CG Require Import Base.Prelude Base.Facts Model.Ast Model.Lexer Model.Parser Spec.Printer Proofs.LexBase Proofs.LexBlanks.
From CGgen Require Import Consts.

Definition lres := option (string * (string * pos)).

Definition lcons (a : string) (o : lres) : lres :=
  match o with
  | Some (t, x) => Some (append a t, x)
  | None => None
  end.

Definition esc_pos (rb re : bool) (d : ascii) (p : pos) : pos :=
  let p1 := adv_char BACKSLASH p in
  let p1 := if rb then pos0 else p1 in
  let p2 := adv_char d p1 in
  if re then pos0 else p2.

Fixpoint lex1 (rb re : bool) (s : string) (p : pos) : lres :=
  match s with
  | EmptyString => Some (EmptyString, (EmptyString, p))
  | String c r =>
      if is_regular c then lcons (String c EmptyString) (lex1 rb re r (adv_char c p))
      else if Ascii.eqb c BACKSLASH then
        match r with
        | String d r2 =>
            if is_escapable d then lcons (String d EmptyString) (lex1 rb re r2 (esc_pos rb re d p))
            else None
        | EmptyString => None
        end
      else if Ascii.eqb c DOT then
        if starts_with "..." s then Some (EmptyString, (s, p))
        else lcons (String c EmptyString) (lex1 rb re r (adv_char c p))
      else Some (EmptyString, (s, p))
  end.

Lemma lcons_nil : forall o, lcons EmptyString o = o.
Proof. intros [[t x]|]; reflexivity. Qed.

Lemma lcons_app : forall a b o, lcons (append a b) o = lcons a (lcons b o).
Proof. intros a b [[t x]|]; cbn; auto. rewrite append_assoc. reflexivity. Qed.

Fixpoint ndots (s : string) : nat :=
  match s with
  | String c r => if is_dot c then S (ndots r) else O
  | EmptyString => O
  end.

Lemma is_dot_DOT : is_dot DOT = true. Proof. reflexivity. Qed.

Lemma starts3_ndots : forall s, starts_with "..." s = true -> (3 <= ndots s)%nat.
Proof.
  intros s H. unfold starts_with in H. destruct (strip_prefix "..." s) as [r|] eqn:E; [|discriminate].
  apply strip_prefix_app in E. subst s. change (3 <= S (S (S (ndots r))))%nat. lia.
Qed.

Lemma ndots_starts3 : forall s, (3 <= ndots s)%nat -> starts_with "..." s = true.
Proof.
  intros s H. destruct s as [|a [|b [|c r]]]; cbn in H; try lia.
  - destruct (is_dot a); cbn in H; lia.
  - destruct (is_dot a); try lia. destruct (is_dot b); lia.
  - destruct (is_dot a) eqn:A; try lia. destruct (is_dot b) eqn:B; try lia. destruct (is_dot c) eqn:C; try lia.
    apply Ascii.eqb_eq in A, B, C. subst. reflexivity.
Qed.

Lemma starts3_tail : forall r, starts_with "..." (String DOT r) = false -> starts_with "..." r = false.
Proof.
  intros r H. destruct (starts_with "..." r) eqn:E; [|reflexivity].
  apply starts3_ndots in E. rewrite ndots_starts3 in H; [discriminate|]. change (3 <= S (ndots r))%nat. lia.
Qed.

Lemma lex1_backslash : forall rb re r p,
    lex1 rb re (String BACKSLASH r) p =
    match r with
    | String d r2 => if is_escapable d then lcons (String d EmptyString) (lex1 rb re r2 (esc_pos rb re d p)) else None
    | EmptyString => None
    end.
Proof. intros. cbn [lex1]. rewrite regular_not_backslash, Ascii.eqb_refl. reflexivity. Qed.

Lemma lex1_dot : forall rb re r p,
    lex1 rb re (String DOT r) p =
    if starts_with "..." (String DOT r) then Some (EmptyString, (String DOT r, p))
    else lcons (String DOT EmptyString) (lex1 rb re r (adv_char DOT p)).
Proof. intros. cbn [lex1]. rewrite regular_not_dot, Ascii.eqb_refl. reflexivity. Qed.

Lemma lex1_regular_run : forall rb re s p a b, span_while is_regular s = (a, b) ->
    lex1 rb re s p = lcons a (lex1 rb re b (adv_str a p)).
Proof.
  induction s; cbn [span_while]; intros p a0 b H.
  - inversion H; subst. cbn. reflexivity.
  - destruct (is_regular a) eqn:R.
    + destruct (span_while is_regular s) as [x y] eqn:E. inversion H; subst.
      cbn [lex1 adv_str]. rewrite R. rewrite (IHs _ x b eq_refl).
      change (String a x) with (append (String a EmptyString) x). rewrite lcons_app. reflexivity.
    + inversion H; subst. cbn [adv_str]. rewrite lcons_nil. reflexivity.
Qed.

Lemma escape_run_spec : forall rb re fuel s p, (String.length s < fuel)%nat ->
    match escape_run rb re fuel (mkin s p) with
    | Ok (esc, i2) =>
        lex1 rb re s p = lcons esc (lex1 rb re (rest i2) (at_ i2))
        /\ hd_in (fun c => negb (Ascii.eqb c BACKSLASH)) (rest i2) = true
        /\ (String.length (rest i2) + String.length esc <= String.length s)%nat
        /\ (esc = EmptyString -> i2 = mkin s p)
    | Err _ => lex1 rb re s p = None
    | _ => False
    end.
Proof.
  induction fuel; intros s p H; [lia|]. cbn [escape_run rest at_].
  destruct s as [|b after].
  - cbn. auto.
  - destruct (Ascii.eqb b BACKSLASH) eqn:B.
    + apply Ascii.eqb_eq in B; subst b. rewrite lex1_backslash.
      assert (R1 : rest (if rb then respan (mkin after (adv_char BACKSLASH p)) else mkin after (adv_char BACKSLASH p)) = after)
        by (destruct rb; reflexivity).
      rewrite R1.
      destruct after as [|c after2]; [reflexivity|].
      destruct (is_escapable c) eqn:Ec; [|reflexivity].
      set (i2 := (if re then respan _ else _)).
      assert (Hi2 : i2 = mkin after2 (esc_pos rb re c p)).
      { subst i2. unfold esc_pos, respan. destruct rb, re; reflexivity. }
      rewrite Hi2.
      specialize (IHfuel after2 (esc_pos rb re c p)).
      assert (Hl : (String.length after2 < fuel)%nat) by (cbn in H; lia).
      specialize (IHfuel Hl).
      destruct (escape_run rb re fuel (mkin after2 (esc_pos rb re c p))) as [[more i3]| | |]; cbn [obind]; auto.
      * destruct IHfuel as (E1 & E2 & E3 & E4). repeat split; auto.
        -- rewrite E1. change (String c more) with (append (String c EmptyString) more).
           rewrite lcons_app. reflexivity.
        -- cbn [String.length] in *. lia.
        -- discriminate.
      * rewrite IHfuel. reflexivity.
    + repeat split; auto.
      * rewrite lcons_nil. reflexivity.
      * cbn. rewrite B. reflexivity.
      * cbn. lia.
Qed.

Lemma lex1_dots_run : forall rb re s p a b,
    starts_with "..." s = false ->
    span_while is_dot s = (a, b) ->
    lex1 rb re s p = lcons a (lex1 rb re b (adv_str a p)).
Proof.
  induction s as [|c s IH]; cbn [span_while]; intros p a b H3 H.
  - inversion H; subst. rewrite lcons_nil. reflexivity.
  - destruct (is_dot c) eqn:D.
    + apply Ascii.eqb_eq in D. subst c. destruct (span_while is_dot s) as [x y] eqn:E. inversion H; subst.
      rewrite lex1_dot, H3, (IH _ x b (starts3_tail _ H3) eq_refl).
      change (String DOT x) with (append (String DOT EmptyString) x). rewrite lcons_app. reflexivity.
    + inversion H; subst. rewrite lcons_nil. reflexivity.
Qed.

Lemma lex1_stop3 : forall rb re s p, starts_with "..." s = true -> lex1 rb re s p = Some (EmptyString, (s, p)).
Proof.
  intros rb re s p H. unfold starts_with in H. destruct (strip_prefix "..." s) as [r|] eqn:E; [|discriminate].
  apply strip_prefix_app in E. subst s. apply (lex1_dot rb re (String DOT (String DOT r)) p).
Qed.

Lemma lex1_stop : forall rb re s p,
    hd_in (fun c => negb (is_regular c)) s = true ->
    hd_in (fun c => negb (Ascii.eqb c BACKSLASH)) s = true ->
    hd_in (fun c => negb (is_dot c)) s = true ->
    lex1 rb re s p = Some (EmptyString, (s, p)).
Proof.
  intros rb re [|c r] p H1 H2 H3; [reflexivity|]. cbn [hd_in] in *. unfold is_dot in H3. cbn [lex1].
  destruct (is_regular c); [discriminate|]. destruct (Ascii.eqb c BACKSLASH); [discriminate|].
  destruct (Ascii.eqb c DOT); [discriminate|]. reflexivity.
Qed.

Lemma slen_zero : forall s, slen s = 0 -> s = EmptyString.
Proof. intros [|c r] H; auto. unfold slen in H. cbn in H. lia. Qed.

Definition lex_result (o : lres) : pres string :=
  match o with
  | Some (t, (r, q)) => Ok (t, mkin r q)
  | None => Err tt
  end.

Theorem terminal_loop_spec : forall rb re fuel s p, (String.length s < fuel)%nat ->
    terminal_loop rb re fuel (mkin s p) = lex_result (lex1 rb re s p).
Proof.
  induction fuel; intros s p H; [lia|]. cbn [terminal_loop]. unfold take_while. cbn [rest at_].
  destruct (span_while is_regular s) as [reg s1] eqn:E1.
  rewrite (lex1_regular_run rb re s p reg s1 E1).
  pose proof (span_while_len _ _ _ _ E1) as L1.
  pose proof (span_while_stop _ _ _ _ E1) as St1.
  cbn [rest].
  pose proof (escape_run_spec rb re (S (String.length s1)) s1 (adv_str reg p) (Nat.lt_succ_diag_r _)) as ES.
  destruct (escape_run rb re (S (String.length s1)) (mkin s1 (adv_str reg p))) as [[esc [s2 p2]]|[]| |];
    cbn [obind]; try contradiction.
  2:{ rewrite ES. reflexivity. }
  cbn [rest at_] in ES. destruct ES as (X1 & X2 & X3 & X4). rewrite X1. cbn [rest at_].
  destruct (starts_with "..." s2) eqn:T3.
  { rewrite (lex1_stop3 _ _ _ _ T3). cbn [lcons lex_result]. rewrite append_nil_r. reflexivity. }
  destruct (span_while is_dot s2) as [dots s3] eqn:E3.
  rewrite (lex1_dots_run rb re s2 p2 dots s3 T3 E3).
  pose proof (span_while_len _ _ _ _ E3) as L3.
  pose proof (span_while_stop _ _ _ _ E3) as St3.
  destruct (N.eqb (slen reg + slen esc + slen dots) 0) eqn:Z.
  - apply N.eqb_eq in Z.
    assert (slen reg = 0 /\ slen esc = 0 /\ slen dots = 0) as (Z1 & Z2 & Z3) by lia.
    apply slen_zero in Z1, Z2, Z3. subst reg esc dots.
    specialize (X4 eq_refl). inversion X4; subst s2 p2.
    apply span_while_app in E1, E3. cbn [append] in E1, E3. subst s1 s3.
    cbn [adv_str append lcons].
    rewrite lex1_stop; auto. 
  - apply N.eqb_neq in Z.
    assert (Hlen : (String.length s3 < fuel)%nat).
    { unfold slen in Z. lia. }
    rewrite (IHfuel s3 _ Hlen).
    destruct (lex1 rb re s3 (adv_str dots p2)) as [[t [r q]]|]; reflexivity.
Qed.

Theorem terminal_spec : forall rb re s p,
    terminal_with rb re (mkin s p) =
    match lex1 rb re s p with
    | Some (EmptyString, _) => Err tt
    | Some (t, (r, q)) => Ok (t, mkin r q)
    | None => Err tt
    end.
Proof.
  intros. unfold terminal_with. cbn [rest]. rewrite terminal_loop_spec by lia.
  destruct (lex1 rb re s p) as [[[|c t] [r q]]|]; reflexivity.
Qed.

Fixpoint adm (ps : list piece) (rest : string) : Prop :=
  match ps with
  | [] => True
  | PReg c :: r => is_regular c = true /\ adm r rest
  | PEsc c :: r => is_escapable c = true /\ adm r rest
  | PDot :: r => (ndots (append (pieces_text r) rest) <= 1)%nat /\ adm r rest
  end.

Fixpoint pieces_chars (ps : list piece) : string :=
  match ps with
  | [] => EmptyString
  | x :: r => String (piece_char x) (pieces_chars r)
  end.

(** what may follow a literal token *)
Definition lit_stop (rest : string) : Prop :=
  hd_in (fun c => negb (is_regular c)) rest = true
  /\ hd_in (fun c => negb (Ascii.eqb c BACKSLASH)) rest = true
  /\ (hd_in (fun c => negb (is_dot c)) rest = true \/ starts_with "..." rest = true).

Lemma lex1_pieces : forall rb re ps rest p,
    adm ps rest -> lit_stop rest ->
    lex1 rb re (append (pieces_text ps) rest) p
    = Some (pieces_chars ps, (rest, pieces_adv (mkcfg rb re) ps p)).
Proof.
  induction ps as [|x ps IH]; intros rest p A (S1 & S2 & S3).
  - cbn [pieces_text append pieces_chars pieces_adv].
    destruct S3 as [S3|S3]; [apply lex1_stop; auto | apply lex1_stop3; auto].
  - destruct x as [c|c|]; cbn [adm] in A; destruct A as [A1 A2];
      cbn [pieces_text piece_text pieces_chars piece_char pieces_adv piece_adv]; rewrite append_assoc; cbn [append].
    + cbn [lex1]. rewrite A1. rewrite IH by (auto; repeat split; auto). reflexivity.
    + rewrite lex1_backslash, A1. rewrite IH by (auto; repeat split; auto). reflexivity.
    + rewrite lex1_dot.
      destruct (starts_with "..." (String DOT (append (pieces_text ps) rest))) eqn:T.
      { apply starts3_ndots in T. cbn [ndots] in T. rewrite is_dot_DOT in T. lia. }
      rewrite IH by (auto; repeat split; auto). reflexivity.
Qed.

(** what may follow the spelling produced by [spell .. guard ..] *)
Definition lit_rest (guard : bool) (rest : string) : Prop :=
  hd_in (fun c => negb (is_regular c)) rest = true
  /\ hd_in (fun c => negb (Ascii.eqb c BACKSLASH)) rest = true
  /\ (ndots rest = 0%nat \/ (guard = true /\ (3 <= ndots rest)%nat)).

Lemma lit_rest_stop : forall g rest, lit_rest g rest -> lit_stop rest.
Proof.
  intros g rest (A & B & C). repeat split; auto. destruct C as [C|[_ C]].
  - left. destruct rest as [|c r]; cbn in *; auto. destruct (is_dot c); [discriminate|reflexivity].
  - right. apply ndots_starts3; auto.
Qed.

Lemma ndots_esc : forall c s, ndots (String BACKSLASH (String c s)) = 0%nat.
Proof. intros. cbn [ndots]. replace (is_dot BACKSLASH) with false by (reflexivity). reflexivity. Qed.

Lemma regular_not_is_dot : forall c, is_regular c = true -> is_dot c = false.
Proof.
  intros c H. destruct (is_dot c) eqn:D; auto. apply Ascii.eqb_eq in D. subst.
  rewrite regular_not_dot in H. discriminate.
Qed.

Section Spell.
  Variable pref : nat -> bool.
  Variable guard : bool.
  Variable rest : string.
  Hypothesis Hrest : lit_rest guard rest.

  Lemma dots_after : forall t k run, (1 <= run <= 2)%nat -> (t = EmptyString -> guard = false) ->
      (ndots (append (pieces_text (spell_from pref guard k run t)) rest) <= 2 - run)%nat.
  Proof.
    induction t as [|ch r IH]; intros k run Hrun Hg.
    - cbn [spell_from pieces_text append]. destruct Hrest as (_ & _ & [Z|[G _]]); [lia|].
      rewrite Hg in G by reflexivity. discriminate.
    - cbn [spell_from]. destruct (is_dot ch) eqn:D.
      + destruct (pref k || Nat.leb 2 run || (guard && is_empty r)) eqn:C.
        * cbn [pieces_text piece_text]. rewrite append_assoc. cbn [append]. rewrite ndots_esc. lia.
        * apply orb_false_iff in C as [C1 C3]. apply orb_false_iff in C1 as [C1 C2].
          apply Nat.leb_gt in C2. assert (run = 1)%nat by lia. subst run.
          cbn [pieces_text piece_text]. rewrite append_assoc. cbn [append ndots]. rewrite is_dot_DOT.
          assert (Hx : (ndots (append (pieces_text (spell_from pref guard (S k) 2 r)) rest) <= 2 - 2)%nat).
          { apply IH; [lia|]. intros ->. cbn in C3. destruct guard; [discriminate|reflexivity]. }
          lia.
      + destruct (is_regular ch) eqn:R.
        * cbn [pieces_text piece_text]. rewrite append_assoc. cbn [append ndots]. rewrite D. lia.
        * cbn [pieces_text piece_text]. rewrite append_assoc. cbn [append]. rewrite ndots_esc. lia.
  Qed.

  Lemma spell_adm : forall t k run, (run <= 2)%nat -> all_chars lit_char_ok t = true ->
      adm (spell_from pref guard k run t) rest.
  Proof.
    induction t as [|ch r IH]; intros k run Hrun Hc; [exact I|].
    cbn [all_chars] in Hc. apply andb_true_iff in Hc as [Hc1 Hc2]. unfold lit_char_ok in Hc1.
    cbn [spell_from]. destruct (is_dot ch) eqn:D.
    - destruct (pref k || Nat.leb 2 run || (guard && is_empty r)) eqn:C.
      + cbn [adm]. split; [|apply IH; auto; lia].
        apply Ascii.eqb_eq in D. subst. exact escapable_dot.
      + apply orb_false_iff in C as [C1 C3]. apply orb_false_iff in C1 as [C1 C2].
        apply Nat.leb_gt in C2. cbn [adm]. split; [|apply IH; auto; lia].
        pose proof (dots_after r (S k) (S run)) as DA.
        assert (ndots (append (pieces_text (spell_from pref guard (S k) (S run) r)) rest) <= 2 - S run)%nat.
        { apply DA; [lia|]. intros ->. cbn in C3. destruct guard; [discriminate|reflexivity]. }
        lia.
    - destruct (is_regular ch) eqn:R.
      + cbn [adm]. split; [assumption | apply IH; [lia|assumption]].
      + cbn [adm]. cbn [orb] in Hc1. split; [assumption | apply IH; [lia|assumption]].
  Qed.

  Lemma spell_chars : forall t k run, pieces_chars (spell_from pref guard k run t) = t.
  Proof.
    induction t as [|ch r IH]; intros; [reflexivity|]. cbn [spell_from].
    destruct (is_dot ch) eqn:D.
    - destruct (pref k || Nat.leb 2 run || (guard && is_empty r)); cbn [pieces_chars piece_char]; rewrite IH; auto.
      apply Ascii.eqb_eq in D. subst. reflexivity.
    - destruct (is_regular ch); cbn [pieces_chars piece_char]; rewrite IH; reflexivity.
  Qed.
End Spell.

Theorem terminal_spelled : forall c pref guard t rest p,
    wf_lit t = true -> lit_rest guard rest ->
    terminal c (mkin (append (pieces_text (spell pref guard t)) rest) p)
    = Ok (t, mkin rest (pieces_adv c (spell pref guard t) p)).
Proof.
  intros [rb re] pref guard t rest p W R. unfold terminal. cbn [reset_after_backslash reset_after_escaped].
  rewrite terminal_spec. unfold spell.
  assert (Hc : all_chars lit_char_ok t = true).
  { destruct t; [discriminate|]. unfold wf_lit in W. apply andb_true_iff in W as [_ W]. exact W. }
  rewrite lex1_pieces; [| apply spell_adm; auto | eapply lit_rest_stop; eauto].
  rewrite spell_chars. destruct t; [discriminate|]. reflexivity.
Qed.

Lemma spelled_nonempty : forall pref guard t, t <> EmptyString -> pieces_text (spell pref guard t) <> EmptyString.
Proof.
  intros pref guard [|ch r] H; [congruence|]. unfold spell. cbn [spell_from].
  destruct (is_dot ch); [destruct (_ || _)|destruct (is_regular ch)]; discriminate.
Qed.

Lemma spelled_first : forall pref guard t rest,
    wf_lit t = true -> lit_rest guard rest ->
    hd_is ustart (append (pieces_text (spell pref guard t)) rest) = true
    /\ hd_is tok_stop (append (pieces_text (spell pref guard t)) rest) = false
    /\ starts_with "..." (append (pieces_text (spell pref guard t)) rest) = false.
Proof.
  intros pref guard t rest W R. destruct t as [|ch r]; [discriminate|].
  unfold wf_lit in W. apply andb_true_iff in W as [W1 W2].
  pose proof (spell_adm pref guard rest R (String ch r) 0 0 (Nat.le_0_l _) W2) as A.
  unfold spell. cbn [spell_from] in *.
  cbn [all_chars] in W2. apply andb_true_iff in W2 as [W2 _]. unfold lit_char_ok in W2.
  destruct (is_dot ch) eqn:D.
  - assert (ch = DOT) by (apply Ascii.eqb_eq; exact D). subst ch.
    destruct (pref 0%nat || Nat.leb 2 0 || (guard && is_empty r)).
    + cbn [pieces_text piece_text]. rewrite append_assoc. cbn [append hd_is]. repeat split; reflexivity.
    + cbn [pieces_text piece_text]. rewrite append_assoc. cbn [append hd_is]. repeat split; try (reflexivity).
      cbn [adm] in A. destruct A as [A _].
      destruct (starts_with "..." (String DOT (append (pieces_text (spell_from pref guard 1 1 r)) rest))) eqn:T; auto.
      apply starts3_ndots in T. cbn [ndots] in T. rewrite is_dot_DOT in T. lia.
  - destruct (is_regular ch) eqn:Rg.
    + cbn [pieces_text piece_text]. rewrite append_assoc. cbn [append hd_is]. repeat split.
      * unfold ustart. rewrite Rg, W1. reflexivity.
      * unfold tok_stop. rewrite Rg. reflexivity.
      * unfold starts_with. cbn [strip_prefix]. change "."%char with DOT.
        unfold is_dot in D. rewrite Ascii.eqb_sym, D. reflexivity.
    + cbn [pieces_text piece_text]. rewrite append_assoc. cbn [append hd_is]. repeat split; reflexivity.
Qed.

(** the lexer consumes at least as many bytes as it returns characters, all of them permitted *)
Definition lex_ok (m : nat) (o : lres) : Prop :=
  forall t r q, o = Some (t, (r, q)) ->
                (String.length r + String.length t <= m)%nat /\ all_chars lit_char_ok t = true.

Lemma lcons_ok : forall c o m, lit_char_ok c = true -> lex_ok m o -> lex_ok (S m) (lcons (String c EmptyString) o).
Proof.
  intros c [[t1 [r1 q1]]|] m Hc IH t r q H; [|discriminate]. inversion H; subst.
  destruct (IH t1 r q eq_refl) as [L A]. cbn [append String.length all_chars]. rewrite Hc, A. split; [lia|reflexivity].
Qed.

Lemma lex1_ok : forall rb re n s p, (String.length s <= n)%nat -> lex_ok (String.length s) (lex1 rb re s p).
Proof.
  assert (Stop : forall s p, lex_ok (String.length s) (Some (EmptyString, (s, p)))).
  { intros s p t r q H. inversion H; subst. split; [cbn; lia|reflexivity]. }
  induction n; intros s p Hn; (destruct s as [|c s1]; [apply Stop|]); cbn [String.length] in Hn; [lia|].
  cbn [lex1 String.length].
  destruct (is_regular c) eqn:R.
  { apply lcons_ok; [unfold lit_char_ok; rewrite R; reflexivity|apply IHn; lia]. }
  destruct (Ascii.eqb c BACKSLASH).
  { destruct s1 as [|d s2]; [discriminate|]. destruct (is_escapable d) eqn:Ed; [|discriminate].
    cbn [String.length] in *. intros t r q H.
    destruct (lcons_ok d _ (String.length s2) ltac:(unfold lit_char_ok; rewrite Ed; apply orb_true_r) (IHn s2 _ ltac:(lia)) t r q H).
    split; [lia|assumption]. }
  destruct (Ascii.eqb c DOT) eqn:D; [|apply (Stop (String c s1))].
  destruct (starts_with "..." (String c s1)); [apply (Stop (String c s1))|].
  apply Ascii.eqb_eq in D. subst c. apply lcons_ok; [reflexivity|apply IHn; lia].
Qed.

Lemma terminal_ok : forall c i t i', terminal c i = Ok (t, i') ->
    t <> EmptyString /\ (String.length (rest i') < String.length (rest i))%nat /\ all_chars lit_char_ok t = true.
Proof.
  intros [rb re] [s p] t i' H. unfold terminal in H. cbn [reset_after_backslash reset_after_escaped] in H.
  rewrite terminal_spec in H. destruct (lex1 rb re s p) as [[t0 [r q]]|] eqn:E; [|discriminate].
  destruct (lex1_ok rb re _ s p (Nat.le_refl _) _ _ _ E) as [L A].
  destruct t0; [discriminate|]. inversion H; subst. cbn in *. split; [discriminate|]. split; [lia|exact A].
Qed.
