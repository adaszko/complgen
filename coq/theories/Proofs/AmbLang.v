(** C08, the description-conflict class at the level of the accepted language: on a well-formed trim
    automaton with interned inputs, [check_ambiguity_best_effort] fails iff the language has two
    words with a common prefix that continue with the same literal text under two different
    descriptions ("the same literal expected at one point with two different descriptions");
    the failure is always [ConflictingDescriptions] -- [AmbiguousDFA] cannot occur, because the
    unbounded item is one interned input and a state has at most one transition per input. *)
From CG Require Import Base.Prelude Model.Dfa Model.Ambiguity Spec.DfaEquiv.
From CG Require Import Proofs.DfaEquivProofs Proofs.TablesSound Proofs.AmbWalk Proofs.AmbTotal.

Local Open Scope list_scope.

Definition lang_conflict (d : dfa) : Prop :=
  exists u i j v1 v2 t d1 d2 l1 l2,
    accepts d (u ++ i :: v1) = true /\ accepts d (u ++ j :: v2) = true /\
    nthN (d_inputs d) i = Some (ILit t d1 l1) /\ nthN (d_inputs d) j = Some (ILit t d2 l2) /\ d1 <> d2.

Lemma lang_conflict_ext d d' :
  d_inputs d' = d_inputs d -> (forall w, accepts d' w = accepts d w) -> lang_conflict d -> lang_conflict d'.
Proof.
  intros Hi Ha (u & i & j & v1 & v2 & t & d1 & d2 & l1 & l2 & A1 & A2 & N1 & N2 & Hd).
  exists u, i, j, v1, v2, t, d1, d2, l1, l2. rewrite !Ha, Hi. auto.
Qed.

Section Trim.
  Variable m : dfa.
  Hypothesis Hwf : dfa_wf m.
  Hypothesis Hnd : NoDup (d_inputs m).
  Hypothesis Htrim : trim m.

  Lemma row_of s : transitions_from m s <> [] -> In (s, transitions_from m s) (d_trans m).
  Proof.
    unfold transitions_from. destruct (assocN s (d_trans m)) as [r|] eqn:E; [|congruence].
    intros _. apply assocN_In. exact E.
  Qed.

  Lemma edge_step s i t : In (i, t) (transitions_from m s) <-> step m s i = Some t.
  Proof.
    unfold step. split.
    - intro H. assert (Hne : transitions_from m s <> []) by (intro E; rewrite E in H; destruct H).
      pose proof (row_of s Hne) as Hr. unfold transitions_from in *.
      destruct (assocN s (d_trans m)) as [r|]; [|destruct H].
      apply in_assocN; [|exact H]. apply (proj2 Hwf s r Hr).
    - unfold transitions_from. destruct (assocN s (d_trans m)) as [r|]; [|discriminate].
      apply assocN_In.
  Qed.

  Lemma in_range : AmbTotal.inputs_in_range m.
  Proof.
    intros s i t H. assert (Hne : transitions_from m s <> []) by (intro E; rewrite E in H; destruct H).
    destruct (proj2 (proj2 Hwf s _ (row_of s Hne)) i t H) as [x Hx].
    unfold nthN, lenN in *. assert (Hl : (N.to_nat i < List.length (d_inputs m))%nat) by (apply nth_error_Some; congruence).
    lia.
  Qed.

  Lemma star_targets_le1 s : (List.length (star_targets m s) <= 1)%nat.
  Proof.
    unfold star_targets.
    assert (Hk : NoDup (map fst (transitions_from m s))).
    { destruct (transitions_from m s) as [|p r] eqn:E; [constructor|]. rewrite <- E.
      apply (proj2 Hwf s _). apply row_of. rewrite E. discriminate. }
    induction (transitions_from m s) as [|[i t] r IH]; [cbn; lia|].
    cbn [flat_map map fst] in *. inversion Hk as [|? ? Hni Hr]; subst. specialize (IH Hr).
    destruct (nthN (d_inputs m) i) as [[| | | |]|] eqn:Ei; cbn [app]; try (exact IH || lia).
    assert (Hz : flat_map (fun p : N * N => match nthN (d_inputs m) (fst p) with Some IStar => [snd p] | _ => [] end) r = []).
    { clear IH Hr Hk. induction r as [|[j t'] r IHr]; [reflexivity|]. cbn [flat_map fst snd].
      destruct (nthN (d_inputs m) j) as [[| | | |]|] eqn:Ej; cbn [app];
        try (apply IHr; intro H; apply Hni; right; exact H).
      exfalso. apply Hni. left. cbn. eapply nthN_NoDup_inj; eauto. }
    rewrite Hz. cbn. lia.
  Qed.

  Lemma no_star_ambiguity s : ~ star_ambiguous m s.
  Proof. intros [H _]. pose proof (star_targets_le1 s). lia. Qed.

  Lemma reachable_run u : AmbWalk.reachable m u -> exists w, run m (d_start m) w = Some u.
  Proof.
    induction 1 as [|s t Hs IH Hsucc]; [exists []; reflexivity|].
    destruct IH as [w Hw]. destruct Hsucc as [i Hi].
    exists (w ++ [i]). rewrite run_app, Hw. cbn [run]. apply edge_step in Hi. rewrite Hi. reflexivity.
  Qed.

  Lemma run_reachable w : forall s u, AmbWalk.reachable m s -> run m s w = Some u -> AmbWalk.reachable m u.
  Proof.
    induction w as [|i w IH]; intros s u Hs H; cbn [run] in H; [inversion H; subst; exact Hs|].
    destruct (step m s i) as [t|] eqn:E; [|discriminate].
    apply (IH t u); [|exact H]. eapply reach_step; [exact Hs|]. exists i. apply edge_step. exact E.
  Qed.

  Lemma target_state s i t : In (i, t) (transitions_from m s) -> In t (states m).
  Proof.
    intro H. unfold states. apply nodup_In. right. apply in_or_app. left.
    unfold trans_states. apply in_flat_map. exists (s, transitions_from m s). split.
    - apply row_of. intro E. rewrite E in H. destruct H.
    - right. cbn [snd]. apply in_map_iff. exists (i, t). split; [reflexivity|exact H].
  Qed.

  Lemma lit_label_edge s t de : In (t, de) (lit_labels m s) ->
    exists i to l, In (i, to) (transitions_from m s) /\ nthN (d_inputs m) i = Some (ILit t de l).
  Proof.
    unfold lit_labels. intro H. apply in_flat_map in H. destruct H as [[i to] [Hin H]]. cbn [fst] in H.
    destruct (nthN (d_inputs m) i) as [[t' de' l| | | |]|] eqn:E; cbn in H; try contradiction.
    destruct H as [H|[]]. inversion H; subst. eauto.
  Qed.

  Lemma edge_lit_label s i to t de l :
    In (i, to) (transitions_from m s) -> nthN (d_inputs m) i = Some (ILit t de l) -> In (t, de) (lit_labels m s).
  Proof.
    intros Hin Hn. unfold lit_labels. apply in_flat_map. exists (i, to). split; [exact Hin|].
    cbn [fst]. rewrite Hn. left. reflexivity.
  Qed.

  Theorem conflict_language :
    (exists e, check_ambiguity_best_effort m = Err e) <-> lang_conflict m.
  Proof.
    split.
    - intros [e He]. destruct (amb_rejects m e He) as (u & q & _ & Hu & [(ins & _ & Hs)|(t & l & r & _ & Hc)]).
      + exfalso. exact (no_star_ambiguity u Hs).
      + destruct Hc as ([t1 d1] & [t2 d2] & Ha & Hb & Ht & Hd). cbn in Ht, Hd. subst t2.
        destruct (lit_label_edge _ _ _ Ha) as (i & to1 & l1 & Hi & Ni).
        destruct (lit_label_edge _ _ _ Hb) as (j & to2 & l2 & Hj & Nj).
        destruct (reachable_run u Hu) as [w Hw].
        destruct (proj2 Htrim to1 (target_state _ _ _ Hi)) as [v1 Hv1].
        destruct (proj2 Htrim to2 (target_state _ _ _ Hj)) as [v2 Hv2].
        exists w, i, j, v1, v2, t1, d1, d2, l1, l2.
        apply edge_step in Hi. apply edge_step in Hj.
        unfold accepts, accepts_from in *. rewrite !run_app, Hw. cbn [run]. rewrite Hi, Hj. auto.
    - intros (u & i & j & v1 & v2 & t & d1 & d2 & l1 & l2 & A1 & A2 & N1 & N2 & Hd).
      destruct (check_ambiguity_total m in_range) as [Hok|He]; [|exact He]. exfalso.
      unfold accepts, accepts_from in A1, A2. rewrite run_app in A1, A2.
      destruct (run m (d_start m) u) as [s|] eqn:Hu; [|discriminate]. cbn [run] in A1, A2.
      destruct (step m s i) as [to1|] eqn:Ei; [|discriminate].
      destruct (step m s j) as [to2|] eqn:Ej; [|discriminate].
      apply edge_step in Ei. apply edge_step in Ej.
      assert (Hr : AmbWalk.reachable m s) by (eapply run_reachable; [apply reach_start|exact Hu]).
      destruct (amb_accepts m Hok s Hr) as (_ & _ & Hnc). apply Hnc.
      exists (t, d1), (t, d2). split; [exact (edge_lit_label s i to1 t d1 l1 Ei N1)|]. split; [exact (edge_lit_label s j to2 t d2 l2 Ej N2)|].
      split; [reflexivity|exact Hd].
  Qed.

  Theorem only_conflicts e :
    check_ambiguity_best_effort m = Err e -> exists q t l r, e = ConflictingDescriptions q t l r.
  Proof.
    intro He. destruct (amb_rejects m e He) as (u & q & _ & _ & [(ins & _ & Hs)|(t & l & r & -> & _)]).
    - exfalso. exact (no_star_ambiguity u Hs).
    - eauto.
  Qed.
End Trim.
