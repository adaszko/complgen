(** What the C01 proofs need to know about the automaton the model pipeline returns
    ([Driver.compile_valid]): it accepts exactly what the validated tree denotes (C02), it is trim
    (C03), its transition table is a map whose entries name inputs ([TablesSound.dfa_wf]), and its
    input pool has no duplicates. *)
From CG Require Import Base.Prelude Proofs.ListFacts Model.Ast Model.Dfa Model.Check Model.Regex Model.Subset Model.Minimize
     Model.Ambiguity Model.Driver Spec.Lang Spec.DfaEquiv Spec.MinimizeSpec.
From CG Require Import Proofs.DfaEquivProofs Proofs.TablesSound Proofs.SubsetConstr Proofs.TreeFacts Proofs.C02Total Proofs.WfTrim
     Proofs.MinimizeCorrect Proofs.AmbTotal Proofs.FromExpr Proofs.DriverFacts Proofs.DriverCorrect Proofs.MinimizePostGen.

Lemma inp_find_none x l : forall i, inp_find x l i = None -> ~ In x l.
Proof.
  induction l as [| y r IH]; intros i H Hin; [destruct Hin |].
  cbn [inp_find] in H. destruct (inp_eqb y x) eqn:E; [discriminate |].
  destruct Hin as [-> | Hin].
  - assert (inp_eqb x x = true) by (apply inp_eqb_eq; reflexivity). congruence.
  - apply (IH _ H Hin).
Qed.

Lemma intern_all_NoDup labels : NoDup (intern_all labels).
Proof.
  unfold intern_all.
  assert (G : forall acc, NoDup acc -> NoDup (fold_left (fun acc x => inp_intern x acc) labels acc)).
  { induction labels as [| x labels IH]; intros acc H; [exact H |]. cbn [fold_left]. apply IH.
    unfold inp_intern. destruct (inp_find x acc 0) eqn:E; [exact H |].
    apply NoDup_snoc; [exact H | eapply inp_find_none; eassumption]. }
  apply G. constructor.
Qed.

Lemma dfa_from_regex_inputs pick fuel submap r d states :
  dfa_from_regex pick fuel submap r = Ok (d, states) -> NoDup (d_inputs d).
Proof.
  unfold dfa_from_regex. intro H.
  destruct (omap (from_input submap) (r_inputs r)) as [labels | | |]; cbn [obind] in H; try discriminate.
  destruct (loop _ _ _ _ _ _ _) as [st | | |]; cbn [obind] in H; try discriminate.
  destruct (find_set _ _); [| discriminate]. inversion H; subst. cbn [d_inputs]. apply intern_all_NoDup.
Qed.

Lemma row_insert_keys i t row x : In x (map fst (row_insert i t row)) <-> x = i \/ In x (map fst row).
Proof.
  induction row as [| [i0 t0] r IH]; cbn [row_insert map fst In]; [intuition congruence |].
  destruct (N.eqb i0 i) eqn:E; cbn [map fst In].
  - apply N.eqb_eq in E. subst i0. intuition congruence.
  - rewrite IH. tauto.
Qed.

Lemma row_insert_NoDup i t row : NoDup (map fst row) -> NoDup (map fst (row_insert i t row)).
Proof.
  induction row as [| [i0 t0] r IH]; intro H; cbn [row_insert].
  - cbn. constructor; [intros [] | constructor].
  - cbn [map fst] in H. inversion H as [| x xs Hnot Hnd]; subst. destruct (N.eqb i0 i) eqn:E; cbn [map fst].
    + constructor; assumption.
    + constructor; [| apply IH; assumption]. intro Hin. apply row_insert_keys in Hin.
      apply N.eqb_neq in E. destruct Hin as [-> | Hin]; [apply E; reflexivity | apply Hnot; exact Hin].
Qed.

Lemma tbl_insert_keys f i t tbl x : In x (map fst (tbl_insert f i t tbl)) <-> x = f \/ In x (map fst tbl).
Proof.
  induction tbl as [| [f0 row] r IH]; cbn [tbl_insert map fst In]; [intuition congruence |].
  destruct (N.eqb f0 f) eqn:E; cbn [map fst In].
  - apply N.eqb_eq in E. subst f0. intuition congruence.
  - rewrite IH. tauto.
Qed.

Definition tbl_ok (tbl : list (N * list (N * N))) : Prop :=
  NoDup (map fst tbl) /\ forall f row, In (f, row) tbl -> NoDup (map fst row).

Lemma tbl_insert_ok f i t tbl : tbl_ok tbl -> tbl_ok (tbl_insert f i t tbl).
Proof.
  induction tbl as [| [f0 row] r IH]; intros [H1 H2]; cbn [tbl_insert].
  - split; [cbn; constructor; [intros [] | constructor] |].
    intros f' row' [E | []]. inversion E; subst. cbn. constructor; [intros [] | constructor].
  - cbn [map fst] in H1. inversion H1 as [| x xs Hnot Hnd]; subst.
    assert (IHr : tbl_ok (tbl_insert f i t r)).
    { apply IH. split; [exact Hnd | intros f' row' Hin; apply (H2 f' row'); right; exact Hin]. }
    destruct (N.eqb f0 f) eqn:E.
    + split; [cbn [map fst]; constructor; assumption |].
      intros f' row' [E' | Hin].
      * inversion E'; subst. apply row_insert_NoDup. apply (H2 f' row). left; reflexivity.
      * apply (H2 f' row'). right; exact Hin.
    + split.
      * cbn [map fst]. constructor; [| apply (proj1 IHr)]. intro Hin. apply tbl_insert_keys in Hin.
        apply N.eqb_neq in E. destruct Hin as [-> | Hin]; [apply E; reflexivity | apply Hnot; exact Hin].
      * intros f' row' [E' | Hin]; [inversion E'; subst; apply (H2 f' row'); left; reflexivity | apply (proj2 IHr f' row'); exact Hin].
Qed.

Lemma hashmap_ok ts : tbl_ok (hashmap_transitions_from_vec ts).
Proof.
  unfold hashmap_transitions_from_vec.
  assert (G : forall tbl, tbl_ok tbl -> tbl_ok (fold_left (fun tbl t => tbl_insert (tr_from t) (tr_input t) (tr_to t) tbl) ts tbl)).
  { induction ts as [| t ts IH]; intros tbl H; [exact H |]. cbn [fold_left]. apply IH. apply tbl_insert_ok. exact H. }
  apply G. split; [constructor | intros f row []].
Qed.

Lemma minimize_dfa_wf d m : wf d -> trim d -> minimize d = Ok m -> dfa_wf m.
Proof.
  intros W TR H.
  pose proof (minimize_inputs_in_range d m W TR H) as Hr.
  unfold minimize in H. destruct (do_minimize_inv d _ m H) as [h [reps [_ [_ [_ [_ Hrest]]]]]].
  cbn zeta in Hrest. destruct Hrest as [s' [ts' [accn [_ ->]]]].
  destruct (hashmap_ok ts') as [K1 K2]. split; [exact K1 |].
  intros s tos Hin. cbn [d_trans] in Hin. split; [apply (K2 s tos Hin) |].
  intros i t Hit.
  assert (Hlt : i < lenN (d_inputs (mkdfa s' (hashmap_transitions_from_vec ts') accn (d_inputs d)))).
  { apply (Hr s i t). unfold transitions_from. cbn [d_trans].
    rewrite (in_assocN s _ tos K1 Hin). exact Hit. }
  cbn [d_inputs] in *. unfold nthN, lenN in *.
  destruct (nth_error (d_inputs d) (N.to_nat i)) as [x |] eqn:E; [eauto |].
  apply nth_error_None in E. lia.
Qed.

Theorem compiled_facts pick fuel v c :
  alts_nonempty (v_expr v) = true ->
  compile_valid pick fuel v = Ok c ->
  (forall w, accepts_items c w <-> Lang.denotes (v_expr v) w)
  /\ dfa_wf (c_main c) /\ NoDup (d_inputs (c_main c)) /\ trim (c_main c).
Proof.
  intros Ha H. split; [apply (driver_correct pick fuel v c Ha H) |].
  apply compile_valid_Ok in H. destruct H as (r & pl & submap & raw & st & E & _ & Ed & Em & _).
  apply from_valid_expr_ok in E.
  destruct (wf_trim_from_regex pick fuel submap (v_expr v) [] r pl raw st Ha (Forall_nil _) E Ed) as [W TR].
  destruct (minimize_correct raw _ W TR Em) as [_ [TRm _]].
  split; [apply (minimize_dfa_wf raw _ W TR Em) | split; [| exact TRm]].
  rewrite (minimize_inputs raw _ Em). eapply dfa_from_regex_inputs. exact Ed.
Qed.
