(** Shared definitions for the C02 proofs: the language of a regex tree over positions, the shape
    of the trees [do_from_expr] builds, the "local" (Glushkov) description of a position word
    by the tables [firstpos] / [followpos], and the statements of the two theorems about those
    tables ([glushkov_statement], [useful_statement]) that Glushkov.v and Useful.v prove. *)
From CG Require Import Base.Prelude Model.Ast Model.Regex.

(** The language of a tree, over positions.  The end marker is an ordinary symbol here. *)
Inductive Lrx : rx -> list N -> Prop :=
| LX_eps : Lrx XEps []
| LX_pos k p : Lrx (XPos k p) [p]
| LX_cat_nil : Lrx (XCat []) []
| LX_cat_cons c cs u v : Lrx c u -> Lrx (XCat cs) v -> Lrx (XCat (c :: cs)) (u ++ v)
| LX_or c cs u : In c cs -> Lrx c u -> Lrx (XOr cs) u
| LX_star_nil c : Lrx (XStar c) []
| LX_star_cons c u v : Lrx c u -> Lrx (XStar c) v -> Lrx (XStar c) (u ++ v).

Fixpoint positions (r : rx) : list N :=
  match r with
  | XEps => []
  | XPos _ p => [p]
  | XCat cs | XOr cs => flat_map positions cs
  | XStar c => positions c
  end.

Definition disjoint (xs ys : list N) : Prop := forall x, In x xs -> In x ys -> False.

Fixpoint pairwise_disjoint (l : list (list N)) : Prop :=
  match l with
  | [] => True
  | x :: r => Forall (disjoint x) r /\ pairwise_disjoint r
  end.

(** The trees [do_from_expr] builds (below the root): no end marker, every leaf occurrence has its
    own position, except that [Many1 x] is [Cat [x; Star x]] with the *same* [x] twice. *)
Inductive shape : rx -> Prop :=
| Sh_eps : shape XEps
| Sh_pos k p : k <> KEnd -> shape (XPos k p)
| Sh_cat cs : Forall shape cs -> pairwise_disjoint (map positions cs) -> shape (XCat cs)
| Sh_or cs : Forall shape cs -> pairwise_disjoint (map positions cs) -> shape (XOr cs)
| Sh_many c : shape c -> shape (XCat [c; XStar c]).

(** [a :: w] is a chain of [F]-edges. *)
Fixpoint chain (F : list (N * N)) (a : N) (w : list N) : Prop :=
  match w with
  | [] => True
  | b :: r => In (a, b) F /\ chain F b r
  end.

(** [w] is in the local language of the tables of [root], whose end marker is [e]. *)
Definition glushkov_word (root : rx) (e : N) (w : list N) : Prop :=
  match w with
  | [] => In e (firstpos root)
  | a :: r => In a (firstpos root) /\ chain (followpos root) a r /\
              In (last r a, e) (followpos root)
  end.

(** The root [Regex::from_expr] builds around a tree. *)
Definition with_end (t : rx) (e : N) : rx := XCat [t; XPos KEnd e].

(** Statement of L-glushkov (proved in Proofs/Glushkov.v). *)
Definition glushkov_statement : Prop :=
  forall t e, shape t -> ~ In e (positions t) ->
  forall w, Lrx t w <-> glushkov_word (with_end t e) e w.

(** Every [Or] below has at least one alternative (what the parser guarantees: [|] and [||] are
    binary operators).  Then every sub-tree has a non-empty language and every position is useful. *)
Fixpoint ors_nonempty (t : rx) : bool :=
  match t with
  | XEps | XPos _ _ => true
  | XCat cs => forallb ors_nonempty cs
  | XOr cs => match cs with [] => false | _ => forallb ors_nonempty cs end
  | XStar c => ors_nonempty c
  end.

(** Statement of "every position is useful" (proved in Proofs/Useful.v). *)
Definition useful_statement : Prop :=
  forall t e, shape t -> ors_nonempty t = true -> ~ In e (positions t) ->
    firstpos (with_end t e) <> [] /\
    forall p, In p (positions t) ->
      exists r, chain (followpos (with_end t e)) p r /\
                In (last r p, e) (followpos (with_end t e)).
