(** C01_bash_meaning, layer by layer: the interpreter of the repaired /repo script ([BashSem.run_from
    Repaired]) on the tables of the model pipeline ([Tables.all_tables Bash] of what
    [Driver.compile_valid] returns) against [Spec.Meaning.complete] on the validated tree.

    One theorem ([bash_meaning_general]: [BashMeaningAll.run_meaning_all] with the facts about the
    compiled automaton discharged) and its instances: the side conditions about within-word automata
    are asked only of trees that have within-word expressions, the condition on the environment only
    of the within-word expressions of the tree. *)
From CG Require Import Base.Prelude Model.Ast Model.Check Model.Dfa Model.Tables Model.Glob Model.BashSem Model.Driver.
From CG Require Import Spec.Lang Spec.Rx Spec.Meaning Spec.Domain Spec.DfaEquiv Spec.Invocations Spec.KnownC01.
From CG Require Import Proofs.TreeFacts Proofs.TablesSound Proofs.GlobFacts Proofs.DomainFacts.
From CG Require Import Proofs.CompiledFacts Proofs.StripFacts Proofs.LangBridge Proofs.BashMeaningLit Proofs.SubCompiled
     Proofs.SubTreeFacts Proofs.BashMeaningSub Proofs.SubBridge Proofs.WordGen Proofs.BashMeaningMix
     Proofs.BashMeaningAll Proofs.CapstoneCommands.
From CG Require Proofs.C17Shapes.

Theorem bash_meaning_general :
  forall pick fuel v c om os nd a (benv : BashSem.env) (en : Meaning.env) ws p,
    sub_tree (v_expr v) = true -> alts_nonempty (v_expr v) = true ->
    compile_valid pick fuel v = Ok c ->
    all_tables Bash c om os = Ok (nd, a) -> NoDup om -> valid_literal_order (c_main c) om = true ->
    (subwords_of (tr (v_expr v)) <> [] -> sub_orders_ok c os) ->
    (subwords_of (tr (v_expr v)) <> [] -> subs_deterministic c) ->
    C01_domain (v_expr v) = true ->
    (forall x, In x (subwords_of (tr (v_expr v))) -> env_word_ok en x) ->
    BashSem.e_ignore_case benv = false -> BashSem.e_wordbreaks benv = Meaning.e_wordbreaks en ->
    breaks_ok (BashSem.e_wordbreaks benv) = true -> plain p = true -> printable_str p = true ->
    (forall cm cid, Tables.index_of cm (a_commands a) = Some cid ->
                    spec_candidates (cmd_output benv cid) = candidates en cm) ->
    ambiguous_run en (start (v_expr v)) ws = false ->
    match complete (v_expr v) en ws p with
    | None => exists log, run_from Repaired (d_start (c_main c)) a benv ws p = Ok (mkresult 1 [] log)
    | Some (req, al) =>
        exists reply log, run_from Repaired (d_start (c_main c)) a benv ws p = Ok (mkresult 0 reply log)
                          /\ (forall x, In x reply <-> In x req) /\ incl req al
    end.
Proof.
  intros pick fuel v c om os nd a benv en ws p Htree Hne Hc Hall Hord Hvalid Hsords Hdet Hdom Hwords Hic Hwb Hbok Hplain Hprint Henv Hamb.
  destruct (compiled_facts pick fuel v c Hne Hc) as [HL [Hwf [Hinp Htrim]]].
  assert (Hstrip : forall ms, (forall m, In m ms -> String.prefix p m = true) ->
                              strip_reply benv p ms = Ok (map (Meaning.strip (Meaning.e_wordbreaks en) p) ms)).
  { intros ms Hms. rewrite <- Hwb. apply strip_reply_plain; assumption. }
  apply (run_meaning_all c (v_expr v) om os nd a benv en p Htree Hne HL Hwf Hinp Htrim Hall Hord Hvalid Hdom Hwords
           (fun k l => sub_facts pick fuel v c k l Hne Hc) Hdet Hsords Hic Hprint Hstrip Henv ws Hamb).
Qed.

(** The whole decided domain: literals, commands, undefined nonterminals, and within-word
    expressions over the same kinds of pieces. *)
Theorem bash_meaning_all :
  forall pick fuel v c om os nd a (benv : BashSem.env) (en : Meaning.env) ws p,
    sub_tree (v_expr v) = true -> alts_nonempty (v_expr v) = true ->
    compile_valid pick fuel v = Ok c ->
    all_tables Bash c om os = Ok (nd, a) -> NoDup om -> valid_literal_order (c_main c) om = true ->
    sub_orders_ok c os -> subs_deterministic c ->
    C01_domain (v_expr v) = true -> C01_env_ok (v_expr v) en = true ->
    BashSem.e_ignore_case benv = false -> BashSem.e_wordbreaks benv = Meaning.e_wordbreaks en ->
    breaks_ok (BashSem.e_wordbreaks benv) = true -> plain p = true -> printable_str p = true ->
    (forall cm cid, Tables.index_of cm (a_commands a) = Some cid ->
                    spec_candidates (cmd_output benv cid) = candidates en cm) ->
    ambiguous_run en (start (v_expr v)) ws = false ->
    match complete (v_expr v) en ws p with
    | None => exists log, run_from Repaired (d_start (c_main c)) a benv ws p = Ok (mkresult 1 [] log)
    | Some (req, al) =>
        exists reply log, run_from Repaired (d_start (c_main c)) a benv ws p = Ok (mkresult 0 reply log)
                          /\ (forall x, In x reply <-> In x req) /\ incl req al
    end.
Proof.
  intros pick fuel v c om os nd a benv en ws p Htree Hne Hc Hall Hord Hvalid Hsords Hdet Hdom Henvok.
  apply (bash_meaning_general pick fuel v c om os nd a benv en ws p Htree Hne Hc Hall Hord Hvalid (fun _ => Hsords) (fun _ => Hdet) Hdom
           (env_ok_sound _ en Henvok)).
Qed.

(** Layers (b) and (c) together: the leaves are literals, external commands, undefined nonterminals
    and within-word expressions made of literals. *)
Theorem bash_meaning_mixed :
  forall pick fuel v c om os nd a (benv : BashSem.env) (en : Meaning.env) ws p,
    mix_tree (v_expr v) = true -> alts_nonempty (v_expr v) = true ->
    compile_valid pick fuel v = Ok c ->
    all_tables Bash c om os = Ok (nd, a) -> NoDup om -> valid_literal_order (c_main c) om = true ->
    sub_orders_ok c os -> subs_deterministic c ->
    C01_domain (v_expr v) = true ->
    BashSem.e_ignore_case benv = false -> BashSem.e_wordbreaks benv = Meaning.e_wordbreaks en ->
    breaks_ok (BashSem.e_wordbreaks benv) = true -> plain p = true -> printable_str p = true ->
    (forall cm cid, Tables.index_of cm (a_commands a) = Some cid ->
                    spec_candidates (cmd_output benv cid) = candidates en cm) ->
    ambiguous_run en (start (v_expr v)) ws = false ->
    match complete (v_expr v) en ws p with
    | None => exists log, run_from Repaired (d_start (c_main c)) a benv ws p = Ok (mkresult 1 [] log)
    | Some (req, al) =>
        exists reply log, run_from Repaired (d_start (c_main c)) a benv ws p = Ok (mkresult 0 reply log)
                          /\ (forall x, In x reply <-> In x req) /\ incl req al
    end.
Proof.
  intros pick fuel v c om os nd a benv en ws p Hmix Hne Hc Hall Hord Hvalid Hsords Hdet Hdom.
  apply (bash_meaning_general pick fuel v c om os nd a benv en ws p (mix_sub_tree _ Hmix) Hne Hc Hall Hord Hvalid (fun _ => Hsords)
           (fun _ => Hdet) Hdom (mix_words_ok _ en Hmix Hdom)).
Qed.

(** Trees without commands: the command table is empty ([CapstoneCommands.compiled_commands]), so
    nothing is asked about the commands of the environment and nothing is logged. *)
Lemma subw_no_cmds e : subw_tree e = true -> forall cm, ~ In cm (cmd_texts e).
Proof.
  induction e using expr_ind'; cbn [subw_tree cmd_texts]; intros Ht cm Hcm; try discriminate; try contradiction;
    try (apply (IHe Ht cm Hcm)); try (apply (IHe (lit_subw_tree _ Ht) cm Hcm));
    (rewrite forallb_forall in Ht; rewrite Forall_forall in H; apply in_flat_map in Hcm; destruct Hcm as [x [Hx Hcm]];
     apply (H x Hx (Ht x Hx) cm Hcm)).
Qed.

Lemma no_commands pick fuel v c om os nd a :
  compile_valid pick fuel v = Ok c -> all_tables Bash c om os = Ok (nd, a) ->
  (forall cm, ~ In cm (cmd_texts (v_expr v))) -> a_commands a = [].
Proof.
  intros Hc Hall Hno. destruct (all_tables_inv _ _ _ _ _ _ Hall) as [rt F].
  destruct (a_commands a) as [| cm l] eqn:E; [reflexivity | exfalso].
  apply (Hno cm). apply (compiled_commands pick fuel v c _ Hc (af_cmds _ _ _ _ _ _ _ F)). rewrite E. left; reflexivity.
Qed.

(** Layer (c): the leaves are literals and within-word expressions made of literals.
    [sub_orders_ok]: the literal orders of the within-word tables are
    valid, as [NoDup om] and [valid_literal_order] say of the main table; [subs_deterministic]:
    at no state of the compiled automaton are two within-word automata with the same language
    (under the same level) alternatives with different targets. *)
Theorem bash_meaning_subword :
  forall pick fuel v c om os nd a (benv : BashSem.env) (en : Meaning.env) ws p,
    subw_tree (v_expr v) = true -> alts_nonempty (v_expr v) = true ->
    compile_valid pick fuel v = Ok c ->
    all_tables Bash c om os = Ok (nd, a) -> NoDup om -> valid_literal_order (c_main c) om = true ->
    sub_orders_ok c os -> subs_deterministic c ->
    C01_domain (v_expr v) = true ->
    BashSem.e_ignore_case benv = false -> BashSem.e_wordbreaks benv = Meaning.e_wordbreaks en ->
    breaks_ok (BashSem.e_wordbreaks benv) = true -> plain p = true -> printable_str p = true ->
    ambiguous_run en (start (v_expr v)) ws = false ->
    match complete (v_expr v) en ws p with
    | None => run_from Repaired (d_start (c_main c)) a benv ws p = Ok (mkresult 1 [] [])
    | Some (req, al) =>
        exists reply, run_from Repaired (d_start (c_main c)) a benv ws p = Ok (mkresult 0 reply [])
                      /\ (forall x, In x reply <-> In x req) /\ incl req al
    end.
Proof.
  intros pick fuel v c om os nd a benv en ws p Hsub Hne Hc Hall Hord Hvalid Hsords Hdet Hdom Hic Hwb Hbok Hplain Hprint Hamb.
  pose proof (no_commands pick fuel v c om os nd a Hc Hall (subw_no_cmds _ Hsub)) as Hcm.
  assert (Henv : forall cm cid, Tables.index_of cm (a_commands a) = Some cid -> spec_candidates (cmd_output benv cid) = candidates en cm)
    by (intros cm cid H; rewrite Hcm in H; discriminate).
  pose proof (bash_meaning_mixed pick fuel v c om os nd a benv en ws p (subw_mix_tree _ Hsub) Hne Hc Hall Hord Hvalid Hsords Hdet Hdom
                Hic Hwb Hbok Hplain Hprint Henv Hamb) as H.
  destruct (complete (v_expr v) en ws p) as [[req al] |].
  - destruct H as [reply [log [Hr Hs]]]. exists reply. split; [| exact Hs].
    rewrite <- (C17Shapes.run_from_no_commands _ _ _ _ _ _ _ Hcm Hr). exact Hr.
  - destruct H as [log Hr]. rewrite <- (C17Shapes.run_from_no_commands _ _ _ _ _ _ _ Hcm Hr). exact Hr.
Qed.

Lemma toplevel_no_subwords e : toplevel_tree e = true -> subwords_of (tr e) = [].
Proof.
  intro Ht. destruct (subwords_of (tr e)) as [| x l] eqn:E; [reflexivity | exfalso].
  assert (Hin : In x (subwords_of (tr e))) by (rewrite E; left; reflexivity).
  apply in_flat_map in Hin. destruct Hin as [a [Ha Hx]]. pose proof (toplevel_leaves_plain e Ht a Ha) as Hp.
  destruct a; try contradiction. discriminate.
Qed.

(** Layer (b): the leaves are literals, external commands and undefined nonterminals (no
    within-word expressions).  The hypothesis on [cmd_output]: the two environments describe the
    same commands. *)
Theorem bash_meaning_toplevel :
  forall pick fuel v c om os nd a (benv : BashSem.env) (en : Meaning.env) ws p,
    toplevel_tree (v_expr v) = true -> alts_nonempty (v_expr v) = true ->
    compile_valid pick fuel v = Ok c ->
    all_tables Bash c om os = Ok (nd, a) -> NoDup om -> valid_literal_order (c_main c) om = true ->
    C01_domain (v_expr v) = true ->
    BashSem.e_ignore_case benv = false -> BashSem.e_wordbreaks benv = Meaning.e_wordbreaks en ->
    breaks_ok (BashSem.e_wordbreaks benv) = true -> plain p = true -> printable_str p = true ->
    (forall cm cid, Tables.index_of cm (a_commands a) = Some cid ->
                    spec_candidates (cmd_output benv cid) = candidates en cm) ->
    ambiguous_run en (start (v_expr v)) ws = false ->
    match complete (v_expr v) en ws p with
    | None => exists log, run_from Repaired (d_start (c_main c)) a benv ws p = Ok (mkresult 1 [] log)
    | Some (req, al) =>
        exists reply log, run_from Repaired (d_start (c_main c)) a benv ws p = Ok (mkresult 0 reply log)
                          /\ (forall x, In x reply <-> In x req) /\ (forall x, In x al <-> In x req)
    end.
Proof.
  intros pick fuel v c om os nd a benv en ws p Htop Hne Hc Hall Hord Hvalid Hdom Hic Hwb Hbok Hplain Hprint Henv Hamb.
  pose proof (toplevel_no_subwords _ Htop) as Hno.
  pose proof (bash_meaning_general pick fuel v c om os nd a benv en ws p (toplevel_sub_tree _ Htop) Hne Hc Hall Hord Hvalid
                (fun H => match H Hno with end) (fun H => match H Hno with end) Hdom) as H.
  rewrite Hno in H. specialize (H (fun x Hx => match Hx with end) Hic Hwb Hbok Hplain Hprint Henv Hamb).
  destruct (complete (v_expr v) en ws p) as [[req al] |] eqn:Ec; [| exact H].
  destruct H as [reply [log [Hr [Hreq _]]]]. exists reply, log. split; [exact Hr | split; [exact Hreq |]].
  rewrite (complete_plain _ _ _ _ _ _ Hno Ec). intro x. reflexivity.
Qed.

(** Layer (a): every leaf of the grammar is a literal (no command, no log, required = allowed). *)
Theorem bash_meaning_literal :
  forall pick fuel v c om os nd a (benv : BashSem.env) (en : Meaning.env) ws p,
    lit_tree (v_expr v) = true -> alts_nonempty (v_expr v) = true ->
    compile_valid pick fuel v = Ok c ->
    all_tables Bash c om os = Ok (nd, a) -> NoDup om -> valid_literal_order (c_main c) om = true ->
    C01_domain (v_expr v) = true ->
    BashSem.e_ignore_case benv = false -> BashSem.e_wordbreaks benv = Meaning.e_wordbreaks en ->
    breaks_ok (BashSem.e_wordbreaks benv) = true -> plain p = true -> printable_str p = true ->
    match complete (v_expr v) en ws p with
    | None => run_from Repaired (d_start (c_main c)) a benv ws p = Ok (mkresult 1 [] [])
    | Some (req, al) =>
        exists reply, run_from Repaired (d_start (c_main c)) a benv ws p = Ok (mkresult 0 reply [])
                      /\ (forall x, In x reply <-> In x req) /\ (forall x, In x al <-> In x req)
    end.
Proof.
  intros pick fuel v c om os nd a benv en ws p Hlit Hne Hc Hall Hord Hvalid Hdom Hic Hwb Hbok Hplain Hprint.
  pose proof (no_commands pick fuel v c om os nd a Hc Hall (subw_no_cmds _ (lit_subw_tree _ Hlit))) as Hcm.
  assert (Henv : forall cm cid, Tables.index_of cm (a_commands a) = Some cid -> spec_candidates (cmd_output benv cid) = candidates en cm)
    by (intros cm cid H; rewrite Hcm in H; discriminate).
  assert (Hamb : ambiguous_run en (start (v_expr v)) ws = false).
  { apply ambiguous_run_lit. intros k [<- | []]. apply lit_tree_leaves. exact Hlit. }
  pose proof (bash_meaning_toplevel pick fuel v c om os nd a benv en ws p (lit_tree_toplevel _ Hlit) Hne Hc Hall Hord Hvalid Hdom
                Hic Hwb Hbok Hplain Hprint Henv Hamb) as H.
  destruct (complete (v_expr v) en ws p) as [[req al] |].
  - destruct H as [reply [log [Hr Hs]]]. exists reply. split; [| exact Hs].
    rewrite <- (C17Shapes.run_from_no_commands _ _ _ _ _ _ _ Hcm Hr). exact Hr.
  - destruct H as [log Hr]. rewrite <- (C17Shapes.run_from_no_commands _ _ _ _ _ _ _ Hcm Hr). exact Hr.
Qed.
