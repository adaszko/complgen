(** Shape conditions on validated trees, as executable predicates: no [DistDescr] node, no composite
    word inside a composite word, no [|] or [||] without operands.  [check_tree_statement] is what
    [Check.from_grammar] guarantees of its tree: the first two, [Lang.levels_ok], and the third for a
    grammar that has it; it is proved in Proofs/CheckTree.v ([check_tree]). *)
From CG Require Import Base.Prelude Model.Ast Model.Check Spec.Lang.

(** no [DistributiveDescription] node is left *)
Fixpoint dd_free (e : expr) : bool :=
  match e with
  | Terminal _ _ _ _ | NontermRef _ _ _ | Command _ _ _ _ => true
  | Sequence cs _ | Alternative cs _ | Fallback cs _ => forallb dd_free cs
  | Optional c _ | Many1 c _ | Subword c _ _ => dd_free c
  | DistDescr _ _ _ => false
  end.

Fixpoint subword_free (e : expr) : bool :=
  match e with
  | Terminal _ _ _ _ | NontermRef _ _ _ | Command _ _ _ _ => true
  | Sequence cs _ | Alternative cs _ | Fallback cs _ => forallb subword_free cs
  | Optional c _ | Many1 c _ | DistDescr c _ _ => subword_free c
  | Subword _ _ _ => false
  end.

Fixpoint flat_subwords (e : expr) : bool :=
  match e with
  | Terminal _ _ _ _ | NontermRef _ _ _ | Command _ _ _ _ => true
  | Sequence cs _ | Alternative cs _ | Fallback cs _ => forallb flat_subwords cs
  | Optional c _ | Many1 c _ | DistDescr c _ _ => flat_subwords c
  | Subword c _ _ => subword_free c
  end.

(** every [|] and [||] has at least one operand (the parser only builds them with two or more) *)
Fixpoint alts_nonempty (e : expr) : bool :=
  match e with
  | Terminal _ _ _ _ | NontermRef _ _ _ | Command _ _ _ _ => true
  | Sequence cs _ => forallb alts_nonempty cs
  | Alternative cs _ | Fallback cs _ =>
      match cs with [] => false | _ => forallb alts_nonempty cs end
  | Optional c _ | Many1 c _ | DistDescr c _ _ | Subword c _ _ => alts_nonempty c
  end.

Definition grammar_alts_nonempty (g : grammar) : bool :=
  forallb (fun s => match s with
                    | CallVariant _ _ e => alts_nonempty e
                    | NontermDef _ _ _ rhs => alts_nonempty rhs
                    end) g.

Definition check_tree_statement : Prop :=
  forall builtins g sh v, from_grammar builtins g sh = Ok v ->
    dd_free (v_expr v) = true /\
    flat_subwords (v_expr v) = true /\
    levels_ok 0 (v_expr v) = true /\
    (grammar_alts_nonempty g = true -> alts_nonempty (v_expr v) = true).
