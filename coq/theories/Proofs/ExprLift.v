(** Expression round trip: no unary expression starts on a stopper, loops as chains of steps
    ([steps]), and the lifting lemmas between precedence levels ([lift]: a parse at a tighter
    level is a parse at a looser level when the loops in between stop). *)
From CG Require Import Base.Prelude Base.Facts Model.Ast Model.Lexer Model.Parser Spec.Printer
  Proofs.LexBase Proofs.LexBlanks Proofs.LexTerminal Proofs.LexTokens Proofs.LexCommand Proofs.ExprDefs.
From CGgen Require Import Consts.

Lemma rest_skip_i : forall i, rest (skip i) = skips (rest i).
Proof. intros [s p]. apply rest_skip. Qed.

Lemma no_unary_facts : forall c, no_unary c = true ->
    is_regular c = false /\ Ascii.eqb c BACKSLASH = false /\ Ascii.eqb c DOT = false /\ Ascii.eqb c LT = false
    /\ Ascii.eqb c LBRACK = false /\ Ascii.eqb c LPAREN = false /\ Ascii.eqb c LBRACE = false.
Proof.
  intros c H. unfold no_unary in H. apply negb_true_iff in H.
  do 6 (apply orb_false_iff in H; destruct H as [H ?]). repeat split; auto.
Qed.

Lemma nonterm_expr_miss : forall ch s p, Ascii.eqb ch LT = false -> nonterm_expr (mkin (String ch s) p) = Err tt.
Proof. intros. unfold nonterm_expr, nonterm. rewrite char_p_miss by assumption. reflexivity. Qed.

Lemma optional_expr_miss : forall ex ch s p, Ascii.eqb ch LBRACK = false -> optional_expr ex (mkin (String ch s) p) = Err tt.
Proof. intros. unfold optional_expr. rewrite char_p_miss by assumption. reflexivity. Qed.

Lemma parenthesized_expr_miss : forall ex ch s p,
    Ascii.eqb ch LPAREN = false -> parenthesized_expr ex (mkin (String ch s) p) = Err tt.
Proof. intros. unfold parenthesized_expr. rewrite char_p_miss by assumption. reflexivity. Qed.

Lemma command_expr_miss : forall ch s p, Ascii.eqb ch LBRACE = false -> command_expr (mkin (String ch s) p) = Err tt.
Proof.
  intros ch s p H. unfold command_expr, triple_bracket_command, tag_p. cbn [rest strip_prefix].
  change "{"%char with LBRACE. rewrite Ascii.eqb_sym, H. reflexivity.
Qed.

Section Lift.
  Variable c : cfg.

  Lemma atom_not_bracket : forall n s p,
      hd_in (fun ch => negb (bstart ch)) s = true ->
      Atom c n (mkin s p) = terminal_opt_description_expr c (mkin s p).
  Proof.
    intros n [|ch s] p H; [reflexivity|]. cbn [hd_in] in H. apply negb_true_iff in H. unfold bstart in H.
    apply orb_false_iff in H as [H H4]. apply orb_false_iff in H as [H H3]. apply orb_false_iff in H as [H1 H2].
    unfold Atom. rewrite nonterm_expr_miss, optional_expr_miss, parenthesized_expr_miss, command_expr_miss by assumption.
    reflexivity.
  Qed.

  Lemma atom_fails : forall n i, hd_in no_unary (rest i) = true -> Atom c n i = Err tt.
  Proof.
    intros n [s p] H. cbn [rest] in H.
    assert (F : hd_in (fun ch => negb (is_regular ch)) s = true /\ hd_in (fun ch => negb (Ascii.eqb ch BACKSLASH)) s = true
                /\ hd_in (fun ch => negb (is_dot ch)) s = true /\ hd_in (fun ch => negb (bstart ch)) s = true).
    { destruct s as [|ch r]; cbn [hd_in] in *; auto. apply no_unary_facts in H.
      destruct H as (R & B & D & L1 & L2 & L3 & L4). unfold is_dot, bstart. rewrite R, B, D, L1, L2, L3, L4. auto. }
    destruct F as (R & B & D & Br). rewrite atom_not_bracket by exact Br.
    unfold terminal_opt_description_expr, terminal. rewrite terminal_spec, lex1_stop by assumption. reflexivity.
  Qed.

  Lemma unary_fails : forall n i, hd_in no_unary (rest i) = true -> U c n i = Err tt.
  Proof. intros. rewrite U_Atom, atom_fails by assumption. reflexivity. Qed.

  Lemma sw_fails : forall n i, hd_in no_unary (rest i) = true -> SW c n i = Err tt.
  Proof. intros. unfold SW, subword_sequence_expr. fold (U c n). rewrite unary_fails by assumption. reflexivity. Qed.

  Lemma item_fails : forall n i, hd_in no_unary (rest i) = true -> I c n i = Err tt.
  Proof.
    intros. unfold I, subword_sequence_expr_opt_description. fold (SW c n).
    rewrite sw_fails by assumption. reflexivity.
  Qed.

  Lemma seq_fails : forall n i, hd_in no_unary (rest i) = true -> Sq c n i = Err tt.
  Proof. intros. unfold Sq, sequence_expr. fold (I c n). rewrite item_fails by assumption. reflexivity. Qed.

  Inductive steps {X} (step : input -> pres X) : input -> list X -> input -> Prop :=
  | steps_nil : forall i, steps step i [] i
  | steps_cons : forall i a i1 l i2,
      step i = Ok (a, i1) -> (String.length (rest i1) < String.length (rest i))%nat ->
      steps step i1 l i2 -> steps step i (a :: l) i2.

  Lemma loop_p_steps : forall X (step : input -> pres X) i l i',
      steps step i l i' -> step i' = Err tt ->
      forall k, (String.length (rest i) < k)%nat -> loop_p k step i = Ok (l, i').
  Proof.
    induction 1; intros E k Hk.
    - destruct k; [lia|]. cbn [loop_p]. rewrite E. reflexivity.
    - destruct k; [lia|]. cbn [loop_p]. rewrite H. rewrite IHsteps by (auto; lia). reflexivity.
  Qed.

  Lemma many1_tag_fails : forall i, c5 (rest i) -> many1_tag i = Err tt.
  Proof.
    intros i H. unfold many1_tag. rewrite multiblanks0_spec. cbn [obind]. unfold tag_p.
    rewrite rest_skip_i. unfold c5, starts_with in H.
    destruct (strip_prefix "..." (skips (rest i))); [discriminate|reflexivity].
  Qed.

  Lemma lift65 : forall n i e i', Atom c n i = Ok (e, i') -> c5 (rest i') -> U c n i = Ok (e, i').
  Proof. intros. rewrite U_Atom, H. cbn [obind]. rewrite many1_tag_fails by assumption. reflexivity. Qed.

  Lemma lift54 : forall n i e i', U c n i = Ok (e, i') -> c4 (rest i') ->
      (String.length (rest i') < n)%nat -> SW c n i = Ok (e, i').
  Proof.
    intros. unfold SW, subword_sequence_expr. fold (U c n). rewrite H. cbn [obind].
    rewrite (loop_p_steps _ (U c n) i' [] i' (steps_nil _ _)); auto.
    apply unary_fails; assumption.
  Qed.

  Lemma lift43 : forall n i e i', SW c n i = Ok (e, i') -> c3 (rest i') -> I c n i = Ok (e, i').
  Proof.
    intros. unfold I, subword_sequence_expr_opt_description. fold (SW c n). rewrite H. cbn [obind].
    rewrite opt_description_none; [reflexivity|]. rewrite rest_skip_i. exact H0.
  Qed.

  Lemma hd_BAR_no_unary : no_unary BAR = true. Proof. reflexivity. Qed.

  Lemma step_fails : forall o n i, st (pred (lv_op o)) (rest i) -> step_op o c n i = Err tt.
  Proof.
    intros o n i (_ & S4 & _ & S2 & S1 & S0). destruct o; cbn [lv_op pred step_op] in *.
    - rewrite multiblanks1_spec. destruct (hd_is blank_start (rest i)); [|reflexivity]. cbn [obind].
      apply item_fails. rewrite rest_skip_i. apply S2. lia.
    - specialize (S1 (Nat.le_refl _)). unfold do_alternative_expr. rewrite multiblanks0_spec. cbn [obind].
      unfold char_p. pose proof (rest_skip_i i) as R. destruct (skip i) as [s q]. cbn [rest at_] in *.
      rewrite R. unfold c1, nobar in S1.
      destruct (skips (rest i)) as [|ch r]; [reflexivity|].
      destruct (Ascii.eqb ch BAR) eqn:B; [|reflexivity]. cbn [obind].
      destruct S1 as [S1|S1]; [cbn [hd_in] in S1; rewrite B in S1; discriminate|].
      (* the next character is a bar too *)
      unfold starts_with in S1. destruct (strip_prefix "||" (String ch r)) as [r'|] eqn:E; [|discriminate].
      apply strip_prefix_app in E. injection E as _ ->.
      rewrite multiblanks0_nonblank by reflexivity. cbn [obind].
      apply seq_fails. exact hd_BAR_no_unary.
    - specialize (S0 (Nat.le_refl _)). unfold do_fallback_expr. rewrite multiblanks0_spec. cbn [obind].
      unfold tag_p. rewrite rest_skip_i. unfold c0, nobar in S0.
      destruct (skips (rest i)) as [|ch r]; [reflexivity|]. cbn [hd_in] in S0.
      cbn [strip_prefix]. change "|"%char with BAR. rewrite Ascii.eqb_sym.
      apply negb_true_iff in S0. rewrite S0. reflexivity.
  Qed.

  Lemma lift_list : forall o n i e i', P c n (lv_op o) i = Ok (e, i') -> st (pred (lv_op o)) (rest i') ->
      (String.length (rest i') < n)%nat -> P c n (pred (lv_op o)) i = Ok (e, i').
  Proof.
    intros o n i e i' H S Hn. rewrite P_list, H. cbn [obind].
    rewrite (loop_p_steps _ _ i' [] i' (steps_nil _ _)); auto. apply step_fails. exact S.
  Qed.

  Lemma c0_c1 : forall r, c0 r -> c1 r.
  Proof. intros r H. left. exact H. Qed.

  Lemma lift1 : forall n b i e i', (b <= 5)%nat -> P c n (S b) i = Ok (e, i') -> st b (rest i') ->
      (String.length (rest i') < n)%nat -> P c n b i = Ok (e, i').
  Proof.
    intros n b i e i' Hb H (S5 & S4 & S3 & S2 & S1 & S0) Hn.
    destruct b as [|[|[|[|[|[|b]]]]]]; try lia; cbn [P] in *.
    - apply (lift_list OFb); auto. repeat split; auto.
    - apply (lift_list OAlt); auto. repeat split; auto.
    - apply (lift_list OSeq); auto. repeat split; auto.
    - apply lift43; auto; try (apply S3; lia).
    - apply lift54; auto; try (apply S4; lia).
    - apply lift65; auto; try (apply S5; lia).
  Qed.

  Lemma lift : forall n a b i e i', (b <= a)%nat -> (a <= 6)%nat ->
      P c n a i = Ok (e, i') -> st b (rest i') -> (String.length (rest i') < n)%nat ->
      P c n b i = Ok (e, i').
  Proof.
    intros n a b i e i' Hba. induction Hba; intros Ha H S Hn; auto.
    apply IHHba; try lia; auto.
    apply lift1; auto; try lia. eapply st_mono; [|exact S]. lia.
  Qed.
End Lift.
