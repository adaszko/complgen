(** The switches of [Tables.get_needs] are on whenever they are needed: [n_top_cmd], [n_top_star] when
    the main automaton has a command or a catch-all transition; [n_sub_cmd], [n_sub_star] when a
    within-word automaton met on a transition of the main automaton has one. *)
From CG Require Import Base.Prelude Model.Ast Model.Dfa Model.Tables.
From CG Require Import Proofs.TablesSound.

Section SubNeeds.
  Variables (c : cdfa) (om : list (string * string)) (os : list (N * list (string * string)))
            (nd : needs) (a : alltables).
  Hypothesis Hwf : dfa_wf (c_main c).
  Hypothesis Hall : all_tables Bash c om os = Ok (nd, a).

  Lemma top_needs : exists rt, rtrans (c_main c) = Ok rt /\ n_top_cmd nd = has_cmd rt /\ n_top_star nd = has_star rt.
  Proof.
    destruct (all_tables_inv _ _ _ _ _ _ Hall) as [rt F]. exists rt. split; [exact (af_rt _ _ _ _ _ _ _ F) |].
    pose proof (af_needs _ _ _ _ _ _ _ F) as H. unfold get_needs in H.
    rewrite (af_rt _ _ _ _ _ _ _ F) in H. cbn [obind] in H.
    apply obind_ok in H. destruct H as [subs [_ H]]. apply obind_ok in H. destruct H as [srts [_ H]].
    inversion H; subst. split; reflexivity.
  Qed.

  Lemma top_needs_cmd s cm l t : trans_on (c_main c) s (ICmd cm l) t -> n_top_cmd nd = true.
  Proof.
    intro Htr. destruct top_needs as [rt [Hrt [-> _]]]. unfold has_cmd. apply existsb_exists.
    exists (s, ICmd cm l, t). split; [apply (trans_on_rt _ _ _ _ _ Hwf Hrt); exact Htr | reflexivity].
  Qed.

  Lemma top_needs_star s t : trans_on (c_main c) s IStar t -> n_top_star nd = true.
  Proof.
    intro Htr. destruct top_needs as [rt [Hrt [_ ->]]]. unfold has_star. apply existsb_exists.
    exists (s, IStar, t). split; [apply (trans_on_rt _ _ _ _ _ Hwf Hrt); exact Htr | reflexivity].
  Qed.

  Lemma sub_in_needs s pi lvl to sd :
    trans_on (c_main c) s (ISub pi lvl) to -> nthN (c_subs c) pi = Some sd ->
    exists srts srt, In srt srts /\ rtrans sd = Ok srt
                     /\ n_sub_cmd nd = existsb has_cmd srts /\ n_sub_star nd = existsb has_star srts.
  Proof.
    intros Htr Hsd. destruct (all_tables_inv _ _ _ _ _ _ Hall) as [rt F].
    pose proof (af_needs _ _ _ _ _ _ _ F) as H. unfold get_needs in H.
    rewrite (af_rt _ _ _ _ _ _ _ F) in H. cbn [obind] in H.
    apply obind_ok in H. destruct H as [subs [Hsubs H]]. apply obind_ok in H. destruct H as [srts [Hsrts H]].
    inversion H; subst nd. cbn [n_sub_cmd n_sub_star].
    assert (Hin : In (s, ISub pi lvl, to) rt) by (apply (trans_on_rt _ _ _ _ _ Hwf (af_rt _ _ _ _ _ _ _ F)); exact Htr).
    unfold iter_subwords in Hsubs. apply obind_ok in Hsubs. destruct Hsubs as [l [Hl Hsubs]]. inversion Hsubs; subst subs.
    assert (Hsd' : In sd (List.concat l)).
    { apply in_concat. exists [sd]. split; [| left; reflexivity].
      apply (omap_ok_in _ _ _ Hl). exists (s, ISub pi lvl, to). split; [exact Hin |]. cbn [fst snd].
      unfold lookup_sub. rewrite Hsd. reflexivity. }
    destruct (omap_ok_each _ _ _ Hsrts sd Hsd') as [srt [Hsrt Hin']].
    exists srts, srt. split; [exact Hin' | split; [exact Hsrt | split; reflexivity]].
  Qed.

  Lemma sub_needs_cmd s pi lvl to sd s' cm l t' :
    dfa_wf sd -> trans_on (c_main c) s (ISub pi lvl) to -> nthN (c_subs c) pi = Some sd ->
    trans_on sd s' (ICmd cm l) t' -> n_sub_cmd nd = true.
  Proof.
    intros Hwfs Htr Hsd Htr'. destruct (sub_in_needs s pi lvl to sd Htr Hsd) as [srts [srt [Hin [Hsrt [E _]]]]].
    rewrite E. apply existsb_exists. exists srt. split; [exact Hin |]. unfold has_cmd. apply existsb_exists.
    exists (s', ICmd cm l, t'). split; [apply (trans_on_rt _ _ _ _ _ Hwfs Hsrt); exact Htr' | reflexivity].
  Qed.

  Lemma sub_needs_star s pi lvl to sd s' t' :
    dfa_wf sd -> trans_on (c_main c) s (ISub pi lvl) to -> nthN (c_subs c) pi = Some sd ->
    trans_on sd s' IStar t' -> n_sub_star nd = true.
  Proof.
    intros Hwfs Htr Hsd Htr'. destruct (sub_in_needs s pi lvl to sd Htr Hsd) as [srts [srt [Hin [Hsrt [_ E]]]]].
    rewrite E. apply existsb_exists. exists srt. split; [exact Hin |]. unfold has_star. apply existsb_exists.
    exists (s', IStar, t'). split; [apply (trans_on_rt _ _ _ _ _ Hwfs Hsrt); exact Htr' | reflexivity].
  Qed.
End SubNeeds.
