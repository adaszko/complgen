(** The parse derivation: [Parsed c i e i'] says how the expression parser, started on [i], produced
    the tree [e] and stopped on [i'] -- which token parsers ran between the sub-expressions, and
    what the leaves returned.  It forgets the precedence level at which a sub-expression was read
    and everything about failed attempts and fuel; whatever [expr_p] returns has a derivation
    ([expr_p_parsed]), so a property of all parsed trees is an induction on it. *)
From CG Require Import Base.Prelude Base.Facts Model.Ast Model.Lexer Model.Parser Proofs.LexBase Proofs.ExprDefs.

Fixpoint toks (ps : list (input -> pres unit)) (i j : input) : Prop :=
  match ps with
  | [] => i = j
  | p :: r => exists i1, p i = Ok (tt, i1) /\ toks r i1 j
  end.

(** what stands between two operands: nothing inside a word, else the separator of the list node *)
Definition sep_op (o : option op) : list (input -> pres unit) :=
  match o with
  | None => []
  | Some OSeq => [multiblanks1]
  | Some OAlt => [multiblanks0; char_p BAR; multiblanks0]
  | Some OFb => [multiblanks0; tag_p "||"; multiblanks0]
  end.

Definition open_p (ch : ascii) := [char_p ch; multiblanks0].
Definition close_p (ch : ascii) := [multiblanks0; char_p ch].

Inductive Parsed (c : cfg) : input -> expr -> input -> Prop :=
| P_terminal i t i1 d i2 :
    terminal c i = Ok (t, i1) -> opt_description i1 = Ok (d, i2) ->
    Parsed c i (Terminal t d 0 (from_range i i2)) i2
| P_nonterm i nm sp i1 :
    nonterm i = Ok ((nm, sp), i1) -> Parsed c i (NontermRef nm 0 (from_range i i1)) i1
| P_command i x i1 :
    triple_bracket_command i = Ok (x, i1) -> Parsed c i (Command x false 0 (from_range i i1)) i1
| P_optional i i1 e i2 i3 :
    toks (open_p LBRACK) i i1 -> Parsed c i1 e i2 -> toks (close_p RBRACK) i2 i3 ->
    Parsed c i (Optional e (from_range i i3)) i3
| P_paren i i1 e i2 i3 :
    toks (open_p LPAREN) i i1 -> Parsed c i1 e i2 -> toks (close_p RPAREN) i2 i3 -> Parsed c i e i3
| P_many1 i e i1 i2 :
    Parsed c i e i1 -> many1_tag i1 = Ok (tt, i2) -> Parsed c i (Many1 e (from_range i i2)) i2
| P_word i e i1 es i2 :
    Parsed c i e i1 -> Items c None i1 es i2 -> es <> [] ->
    Parsed c i (Subword (Sequence (map flatten_expr (e :: es)) (from_range i i2)) 0 (from_range i i2)) i2
| P_descr i e i1 d i2 :
    Parsed c i e i1 -> opt_description i1 = Ok (Some d, i2) -> Parsed c i (DistDescr e d (from_range i i2)) i2
| P_list o i e i1 es i2 :
    Parsed c i e i1 -> Items c (Some o) i1 es i2 -> es <> [] ->
    Parsed c i (mk_op o (e :: es) (from_range i i2)) i2
with Items (c : cfg) : option op -> input -> list expr -> input -> Prop :=
| Items_nil o i : Items c o i [] i
| Items_cons o i j e i1 es i2 :
    toks (sep_op o) i j -> Parsed c j e i1 -> Items c o i1 es i2 -> Items c o i (e :: es) i2.

Scheme Parsed_mut := Induction for Parsed Sort Prop
  with Items_mut := Induction for Items Sort Prop.
Combined Scheme Parsed_Items_ind from Parsed_mut, Items_mut.

Inductive ParsedStmt (c : cfg) : input -> statement -> input -> Prop :=
| PS_call i name i1 i2 e i3 i4 :
    terminal c i = Ok (name, i1) -> multiblanks1 i1 = Ok (tt, i2) -> Parsed c i2 e i3 ->
    toks [multiblanks0; end_of_statement; multiblanks0] i3 i4 ->
    ParsedStmt c i (CallVariant name (from_range i i1) e) i4
| PS_def i name nsp sh i1 i2 e i3 i4 :
    nonterm_def i = Ok ((name, nsp, sh), i1) ->
    toks [multiblanks0; (fun j => tag_p "::=" j <|> tag_p "=" j); multiblanks0] i1 i2 -> Parsed c i2 e i3 ->
    toks [multiblanks0; end_of_statement; multiblanks0] i3 i4 ->
    ParsedStmt c i (NontermDef name nsp sh e) i4.

Ltac units := repeat match goal with u : unit |- _ => destruct u end.

Section Deriv.
  Variable c : cfg.

  Definition Der (p : input -> pres expr) : Prop := forall i e i', p i = Ok (e, i') -> Parsed c i e i'.

  Lemma der_terminal : Der (terminal_opt_description_expr c).
  Proof.
    intros i e i' H. unfold terminal_opt_description_expr in H. dobind H. dobind H. inversion H; subst.
    eapply P_terminal; eauto.
  Qed.

  Lemma der_nonterm : Der nonterm_expr.
  Proof.
    intros i e i' H. unfold nonterm_expr in H. dobind H. destruct p as [nm sp]. inversion H; subst.
    eapply P_nonterm; eauto.
  Qed.

  Lemma der_command : Der command_expr.
  Proof. intros i e i' H. unfold command_expr in H. dobind H. inversion H; subst. eapply P_command; eauto. Qed.

  Lemma der_optional : forall ex, Der ex -> Der (optional_expr ex).
  Proof.
    intros ex G i e i' H. unfold optional_expr in H. do 5 dobind H. units. inversion H; subst.
    eapply P_optional; [cbn; eauto|eapply G; eauto|cbn; eauto].
  Qed.

  Lemma der_paren : forall ex, Der ex -> Der (parenthesized_expr ex).
  Proof.
    intros ex G i e i' H. unfold parenthesized_expr in H. do 5 dobind H. units. inversion H; subst.
    eapply P_paren; [cbn; eauto|eapply G; eauto|cbn; eauto].
  Qed.

  Lemma der_unary : forall ex, Der ex -> Der (unary_expr c ex).
  Proof.
    intros ex G i e i' H. unfold unary_expr in H. dobind H.
    assert (X : Parsed c i e0 i0).
    { apply alt_ok in E as [E|E]; [exact (der_nonterm _ _ _ E)|].
      apply alt_ok in E as [E|E]; [exact (der_optional ex G _ _ _ E)|].
      apply alt_ok in E as [E|E]; [exact (der_paren ex G _ _ _ E)|].
      apply alt_ok in E as [E|E]; [exact (der_command _ _ _ E)|exact (der_terminal _ _ _ E)]. }
    destruct (many1_tag i0) as [[[] j]| | |] eqn:T; try discriminate H; inversion H; subst.
    - eapply P_many1; eauto.
    - exact X.
  Qed.

  Definition rounds (o : option op) (ex step : input -> pres expr) : Prop :=
    forall i e i', step i = Ok (e, i') -> exists j, toks (sep_op o) i j /\ ex j = Ok (e, i').

  Lemma der_loop : forall o ex step, Der ex -> rounds o ex step ->
      forall k i l i', loop_p k step i = Ok (l, i') -> Items c o i l i'.
  Proof.
    intros o ex step G R. induction k; intros i l i' H; [discriminate|]. cbn [loop_p] in H.
    destruct (step i) as [[a i1]| | |] eqn:E; try discriminate H.
    - dobind H. inversion H; subst. destruct (R _ _ _ E) as (j & Sj & Ej).
      eapply Items_cons; [exact Sj|exact (G _ _ _ Ej)|eapply IHk; eauto].
    - inversion H; subst. constructor.
  Qed.

  Lemma der_subword : forall k u, Der u -> Der (subword_sequence_expr k u).
  Proof.
    intros k u G i e i' H. unfold subword_sequence_expr in H. dobind H. dobind H.
    assert (R : rounds None u u) by (intros j x j' Hj; exists j; split; [reflexivity|exact Hj]).
    pose proof (der_loop None u u G R _ _ _ _ E0) as L.
    destruct l as [|m more]; inversion H; subst; [inversion L; subst; exact (G _ _ _ E)|].
    refine (P_word c i _ _ (m :: more) _ (G _ _ _ E) L _). discriminate.
  Qed.

  Lemma der_item : forall k u, Der u -> Der (subword_sequence_expr_opt_description k u).
  Proof.
    intros k u G i e i' H. unfold subword_sequence_expr_opt_description in H. dobind H. dobind H.
    apply (der_subword k u G) in E. destruct o; inversion H; subst; [eapply P_descr; eauto|exact E].
  Qed.

  Lemma der_list : forall o k (first step : input -> pres expr), Der first -> rounds (Some o) first step ->
      Der (fun i => do (lft, after) <- first i;
                    do (more, after) <- loop_p k step after;
                    match more with
                    | [] => Ok (lft, after)
                    | _ => Ok (mk_op o (lft :: more) (from_range i after), after)
                    end).
  Proof.
    intros o k first step G R i e i' H. cbv beta in H. dobind H. dobind H.
    pose proof (der_loop (Some o) first step G R _ _ _ _ E0) as L.
    destruct l as [|m more]; inversion H; subst; [inversion L; subst; exact (G _ _ _ E)|].
    refine (P_list c o i _ _ (m :: more) _ (G _ _ _ E) L _). discriminate.
  Qed.

  Lemma der_sequence : forall k item, Der item -> Der (sequence_expr k item).
  Proof.
    intros k item G. apply (der_list OSeq k item _ G). intros i e i' H. dobind H. units.
    eexists. split; [cbn; eauto|exact H].
  Qed.

  Lemma der_alternative : forall k sq, Der sq -> Der (alternative_expr k sq).
  Proof.
    intros k sq G. apply (der_list OAlt k sq _ G). intros i e i' H. unfold do_alternative_expr in H.
    do 3 dobind H. units. eexists. split; [cbn; eauto 7|exact H].
  Qed.

  Lemma der_fallback : forall k al, Der al -> Der (fallback_expr k al).
  Proof.
    intros k al G. apply (der_list OFb k al _ G). intros i e i' H. unfold do_fallback_expr in H.
    do 3 dobind H. units. eexists. split; [cbn; eauto 7|exact H].
  Qed.

  Theorem expr_p_parsed : forall n, Der (expr_p c n).
  Proof.
    induction n; [intros i e i' H; discriminate|]. cbn [expr_p].
    apply der_fallback, der_alternative, der_sequence, der_item, der_unary. exact IHn.
  Qed.

  Lemma statement_parsed : forall n i st i',
      statement_p c (expr_p c n) i = Ok (st, i') -> ParsedStmt c i st i'.
  Proof.
    intros n i st i' H. unfold statement_p in H. dobind H. dobind H. inversion H; subst.
    apply alt_ok in E as [E|E].
    - unfold call_variant in E. do 5 dobind E. units. inversion E; subst.
      eapply PS_call; try eassumption; [eapply expr_p_parsed; eassumption|cbn; eauto 7].
    - unfold nonterm_def_statement in E. do 7 dobind E. units. destruct p as [[name nsp] sh]. inversion E; subst.
      eapply PS_def; try eassumption; [cbn; eauto 7|eapply expr_p_parsed; eassumption|cbn; eauto 7].
  Qed.

  Definition StmtsParsed (g : grammar) : Prop := Forall (fun st => exists i i', ParsedStmt c i st i') g.

  Lemma many0_parsed : forall n k i g i', many0_p k (statement_p c (expr_p c n)) i = Ok (g, i') -> StmtsParsed g.
  Proof.
    induction k; intros i g i' H; [discriminate|]. cbn [many0_p] in H.
    destruct (statement_p c (expr_p c n) i) as [[st i1]| | |] eqn:E; try discriminate H.
    - destruct (Nat.eqb _ _); [discriminate|].
      destruct (many0_p k _ i1) as [[l i2]| | |] eqn:M; try discriminate H. inversion H; subst.
      constructor; [exists i, i1; exact (statement_parsed _ _ _ _ E)|exact (IHk _ _ _ M)].
    - inversion H; subst. constructor.
  Qed.

  Theorem parse_with_parsed : forall s g, parse_with c s = Ok g -> StmtsParsed g.
  Proof.
    intros s g H. unfold parse_with, grammar_p in H.
    destruct (multiblanks0 (start s)) as [[u i1]| | |]; try discriminate H.
    destruct (many0_p _ _ i1) as [[l i2]| | |] eqn:M; try discriminate H.
    destruct (multiblanks0 i2) as [[u2 i3]| | |]; try discriminate H.
    destruct (rest i3); [|discriminate]. inversion H; subst. eapply many0_parsed; eauto.
  Qed.
End Deriv.
