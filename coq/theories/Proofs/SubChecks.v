(** Decidable sufficient conditions for the two side conditions of layer (c):
    [sub_orders_okb] for [sub_orders_ok]; for [subs_deterministic], [subs_single] (the input pool
    of the main automaton names at most one within-word automaton per level) and the weaker
    [subs_local] (the same among the transitions that leave one state). *)
From CG Require Import Base.Prelude Model.Ast Model.Dfa Model.Tables Model.Glob Model.BashSem Spec.Lang.
From CG Require Import Proofs.TablesSound Proofs.TableLookup Proofs.DfaMeaning Proofs.BashMeaningSub.

Fixpoint nodup_pairs (l : list (string * string)) : bool :=
  match l with
  | [] => true
  | x :: r => negb (existsb (pair_eqb x) r) && nodup_pairs r
  end.

Lemma nodup_pairs_sound l : nodup_pairs l = true -> NoDup l.
Proof.
  induction l as [| x r IH]; cbn [nodup_pairs]; intro H; [constructor |].
  apply andb_true_iff in H. destruct H as [H1 H2]. constructor; [| apply IH; exact H2].
  intro Hin. apply negb_true_iff in H1. apply not_true_iff_false in H1. apply H1.
  apply existsb_exists. exists x. split; [exact Hin | apply pair_eqb_eq; reflexivity].
Qed.

Definition sub_order (os : list (N * list (string * string))) (pi : N) : list (string * string) :=
  match assocN pi os with Some o => o | None => [] end.

Definition sub_orders_okb (c : cdfa) (os : list (N * list (string * string))) : bool :=
  forallb (fun ip => nodup_pairs (sub_order os (fst ip)) && valid_literal_order (snd ip) (sub_order os (fst ip)))
          (indexed_from 0 (c_subs c)).

Lemma sub_orders_okb_sound c os : sub_orders_okb c os = true -> sub_orders_ok c os.
Proof.
  unfold sub_orders_okb, sub_orders_ok. intros H pi sd Hn. rewrite forallb_forall in H.
  assert (Hin : In (pi, sd) (indexed_from 0 (c_subs c))).
  { apply indexed_from_in. split; [lia |]. replace (pi - 0) with pi by lia. exact Hn. }
  specialize (H _ Hin). cbn [fst snd] in H. apply andb_true_iff in H. destruct H as [H1 H2].
  split; [apply nodup_pairs_sound; exact H1 | exact H2].
Qed.

Definition subs_single (c : cdfa) : bool :=
  forallb (fun x => forallb (fun y => match x, y with
                                       | ISub k l, ISub k' l' => negb (N.eqb l l') || N.eqb k k'
                                       | _, _ => true
                                       end) (d_inputs (c_main c))) (d_inputs (c_main c)).

Lemma subs_single_sound c : NoDup (d_inputs (c_main c)) -> subs_single c = true -> subs_deterministic c.
Proof.
  intros ND H s k k' l t t' [i [Hs Hi]] [j [Hs' Hj]] _.
  unfold subs_single in H. rewrite forallb_forall in H.
  assert (I1 : In (ISub k l) (d_inputs (c_main c))) by (unfold nthN in Hi; eapply nth_error_In; exact Hi).
  assert (I2 : In (ISub k' l) (d_inputs (c_main c))) by (unfold nthN in Hj; eapply nth_error_In; exact Hj).
  specialize (H _ I1). rewrite forallb_forall in H. specialize (H _ I2). cbn in H.
  rewrite N.eqb_refl in H. cbn in H. apply N.eqb_eq in H. subst k'.
  rewrite (nthN_inj (c_main c) ND i j _ Hi Hj) in Hs. rewrite Hs in Hs'. inversion Hs'. reflexivity.
Qed.

Definition subs_local (c : cdfa) : bool :=
  let inputs := d_inputs (c_main c) in
  forallb (fun srow : N * list (N * N) =>
             forallb (fun it : N * N =>
                        forallb (fun ju : N * N =>
                                   match nthN inputs (fst it), nthN inputs (fst ju) with
                                   | Some (ISub k l), Some (ISub k' l') => negb (N.eqb l l') || N.eqb k k'
                                   | _, _ => true
                                   end) (snd srow)) (snd srow)) (d_trans (c_main c)).

Lemma subs_local_sound c : NoDup (d_inputs (c_main c)) -> subs_local c = true -> subs_deterministic c.
Proof.
  intros ND H s k k' l t t' [i [Hs Hi]] [j [Hs' Hj]] _.
  pose proof Hs as Hs0. pose proof Hs' as Hs0'.
  unfold Dfa.step in Hs, Hs'. destruct (assocN s (d_trans (c_main c))) as [row |] eqn:Er; [| discriminate].
  apply assocN_In in Er. apply assocN_In in Hs. apply assocN_In in Hs'.
  unfold subs_local in H. rewrite forallb_forall in H. specialize (H _ Er). cbn [snd] in H.
  rewrite forallb_forall in H. specialize (H _ Hs). rewrite forallb_forall in H. specialize (H _ Hs'). cbn [fst] in H.
  rewrite Hi, Hj in H. rewrite N.eqb_refl in H. cbn in H. apply N.eqb_eq in H. subst k'.
  pose proof (nthN_inj (c_main c) ND i j _ Hi Hj) as E. subst j.
  rewrite Hs0 in Hs0'. inversion Hs0'. reflexivity.
Qed.
