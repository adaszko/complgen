(** Expression round trip: the parser model applied to the printed text of a printable tree
    returns the located tree -- at every precedence level, for every layout. One [core_*] lemma
    per constructor reads the node without its parentheses at its own level ([Core]);
    [core_to_M] adds the parentheses its context asks for and lifts to the level of the context
    ([M]). *)
From CG Require Import Base.Prelude Base.Facts Proofs.ListFacts Model.Ast Model.Lexer Model.Parser Spec.Printer
  Proofs.LexBase Proofs.LexBlanks Proofs.LexTerminal Proofs.LexTokens Proofs.LexCommand
  Proofs.ExprDefs Proofs.ExprLift Proofs.ExprFirst Proofs.ExprShape.
From CGgen Require Import Consts.

Lemma paren_text_app : forall g1 g2 B r,
    append (paren_text g1 g2 B) r
    = String LPAREN (append (gap_text g1) (append B (append (gap_text (post_gap g2)) (String RPAREN r)))).
Proof. intros. unfold paren_text. cbn [append]. rewrite !append_assoc. cbn [append]. reflexivity. Qed.

Lemma first_ok_hd : forall t r, first_ok t r -> nonblank (append t r).
Proof.
  intros t r (ch & s & E & U1 & _). subst. unfold nonblank. cbn [append hd_in]. rewrite (ustart_not_blank ch U1).
  reflexivity.
Qed.

Section Round.
  Variable c : cfg.

  Definition parses (n lv : nat) (t r : string) (p : pos) (res : expr * pos) : Prop :=
    P c n lv (mkin (append t r) p) = Ok (fst res, mkin r (snd res)).

  Definition Core (e : expr) : Prop :=
    forall lay ctx w p r n, (ctx <= 8)%nat -> wfb w e = true ->
      (String.length (append (body_txt lay ctx e) r) < n)%nat -> cstop ctx e r ->
      parses n (prec e) (body_txt lay ctx e) r p (body_loc c lay ctx e p).

  Definition M (e : expr) : Prop :=
    forall lay ctx w p r n, (ctx <= 8)%nat -> wfb w e = true ->
      (String.length (append (txt lay ctx e) r) < n)%nat -> mstop lay ctx e r ->
      parses n (lvl ctx) (txt lay ctx e) r p (loc c lay ctx e p).

  Lemma paren_parse : forall m g1 g2 B r p e' pe,
      nonblank (append B (append (gap_text (post_gap g2)) (String RPAREN r))) ->
      F c m (mkin (append B (append (gap_text (post_gap g2)) (String RPAREN r))) (paren_open g1 p))
      = Ok (e', mkin (append (gap_text (post_gap g2)) (String RPAREN r)) pe) ->
      Atom c (S m) (mkin (append (paren_text g1 g2 B) r) p) = Ok (e', mkin r (paren_close g2 pe)).
  Proof.
    intros m g1 g2 B r p e' pe Hh HF. rewrite paren_text_app.
    unfold Atom. rewrite nonterm_expr_miss, optional_expr_miss by reflexivity.
    unfold parenthesized_expr. rewrite char_p_hit. cbn [obind]. rewrite multiblanks0_gap by assumption. cbn [obind].
    rewrite expr_p_S. unfold paren_open in HF. rewrite HF. cbn [obind].
    rewrite multiblanks0_gap by reflexivity. cbn [obind]. rewrite char_p_hit. reflexivity.
  Qed.

  (** whatever closes a parenthesis stops every loop *)
  Lemma cstop_rparen : forall ctx e g r, cstop ctx e (append (gap_text (post_gap g)) (String RPAREN r)).
  Proof.
    intros. pose proof (st0_rparen g r) as S0.
    split; [|apply st3_extra]; (eapply st_mono; [|exact S0]); lia.
  Qed.

  (** a parenthesised text is read at every level once its inside is read at the loosest *)
  Lemma paren_lift : forall n lv g1 g2 B r p e' pe,
      let r' := append (gap_text (post_gap g2)) (String RPAREN r) in
      (String.length (append (paren_text g1 g2 B) r) < S n)%nat -> (lv <= 6)%nat -> st lv r -> first_ok B r' ->
      ((String.length (append B r') < n)%nat -> P c n 0 (mkin (append B r') (paren_open g1 p)) = Ok (e', mkin r' pe)) ->
      P c (S n) lv (mkin (append (paren_text g1 g2 B) r) p) = Ok (e', mkin r (paren_close g2 pe)).
  Proof.
    intros n lv g1 g2 B r p e' pe r' Hn Hlv Hst Fo HB.
    rewrite paren_text_app in Hn. cbn [String.length] in Hn. rewrite !length_append in Hn. cbn [String.length] in Hn.
    apply (lift c (S n) 6 lv); auto; [|cbn [rest]; lia].
    cbn [P]. apply paren_parse; [apply first_ok_hd; exact Fo|]. apply HB. subst r'.
    rewrite !length_append. cbn [String.length]. lia.
  Qed.

  Section Wrap.
    Variables (e : expr) (lay : layout) (ctx : nat) (w : bool).
    Hypothesis HC : Core e.
    Hypothesis Hctx : (ctx <= 8)%nat.
    Hypothesis HW : wfb w e = true.
    Let L := lay [].
    Let par := Nat.ltb (prec e) ctx.
    Let T0 := if par then paren_text (nl_gap L 2) (nl_gap L 3) (body_txt lay ctx e) else body_txt lay ctx e.
    Let R0 (p : pos) : expr * pos :=
      let pb := if par then paren_open (nl_gap L 2) p else p in
      let res := body_loc c lay ctx e pb in
      (fst res, if par then paren_close (nl_gap L 3) (snd res) else snd res).

    Lemma inner_first : forall j r,
        (j = 0%nat -> par = false -> cstop ctx e r) -> first_ok (wrap_text L j T0) r.
    Proof.
      intros [|j] r H; cbn [wrap_text]; [|apply first_paren].
      subst T0. destruct par eqn:Ep; [apply first_paren|].
      apply (first_body_any e lay ctx w r Hctx HW). apply H; reflexivity.
    Qed.

    Lemma prec_le : (prec e <= 6)%nat.
    Proof. destruct e; cbn; lia. Qed.

    Lemma inner_parse : forall p r n lv,
        (String.length (append T0 r) < n)%nat -> (lv <= 6)%nat -> (par = false -> (lv <= prec e)%nat) ->
        st lv r -> (par = false -> extra ctx e r) ->
        P c n lv (mkin (append T0 r) p) = Ok (fst (R0 p), mkin r (snd (R0 p))).
    Proof.
      intros p r n lv Hn Hlv Hlp Hst Hex. subst T0 R0. cbv zeta. destruct par eqn:Ep; cbn [fst snd].
      -
        destruct n as [|m]; [lia|].
        pose proof (cstop_rparen ctx e (nl_gap L 3) r) as Hcs.
        apply paren_lift; auto; [apply (first_body_any e lay ctx w _ Hctx HW); exact Hcs|]. intros Hlen.
        apply (lift c m (prec e) 0); [lia|apply prec_le| |apply st0_rparen|].
        + apply (HC lay ctx w _ _ m Hctx HW Hlen Hcs).
        + cbn [rest]. rewrite length_append in Hlen. lia.
      - specialize (Hlp eq_refl). specialize (Hex eq_refl).
        apply (lift c n (prec e) lv); [exact Hlp|apply prec_le| |exact Hst|].
        + apply (HC lay ctx w p r n Hctx HW Hn). split; auto. eapply st_mono; [|exact Hst]. lia.
        + cbn [rest]. rewrite length_append in Hn. lia.
    Qed.

    Lemma wrap_parse : forall j p r n lv,
        (String.length (append (wrap_text L j T0) r) < n)%nat -> (lv <= 6)%nat ->
        (j = 0%nat -> par = false -> (lv <= prec e)%nat) ->
        st lv r -> (j = 0%nat -> par = false -> extra ctx e r) ->
        P c n lv (mkin (append (wrap_text L j T0) r) p)
        = Ok (fst (R0 (wrap_open L j p)), mkin r (wrap_close L j (snd (R0 (wrap_open L j p))))).
    Proof.
      induction j as [|j IH]; intros p r n lv Hn Hlv Hlp Hst Hex; cbn [wrap_text wrap_open wrap_close] in *.
      - apply inner_parse; auto.
      - destruct n as [|m]; [lia|].
        pose proof (cstop_rparen ctx e (snd (nl_wrapgap L j)) r) as [_ Hx].
        apply paren_lift; auto; [apply inner_first; intros _ _; apply cstop_rparen|]. intros Hlen.
        apply IH; auto; [lia|lia|apply st0_rparen].
    Qed.
  End Wrap.

  Theorem core_to_M : forall e, Core e -> M e.
  Proof.
    intros e HC lay ctx w p r n Hc W Hn [Mst Mx]. unfold parses. rewrite txt_eq in *. rewrite loc_eq. cbv zeta.
    pose proof (wrap_parse e lay ctx w HC Hc W (wraps (lay []) ctx) p r n (lvl ctx) Hn) as X.
    destruct (lvl_le ctx Hc) as [L1 L2].
    assert (Hb : wraps (lay []) ctx = 0%nat -> Nat.ltb (prec e) ctx = false -> bare lay ctx e = true).
    { intros A B. unfold bare. rewrite A, B. reflexivity. }
    specialize (X L2).
    assert (X1 : wraps (lay []) ctx = 0%nat -> Nat.ltb (prec e) ctx = false -> (lvl ctx <= prec e)%nat).
    { intros _ B. apply Nat.ltb_ge in B. lia. }
    specialize (X X1 Mst (fun A B => Mx (Hb A B))).
    rewrite X. cbv zeta.
    destruct (body_loc c lay ctx e _) as [e' pe]. reflexivity.
  Qed.
End Round.

Lemma not_bracket_of_first : forall s, hd_is ustart s = true -> hd_is tok_stop s = false ->
    hd_in (fun ch => negb (bstart ch)) s = true.
Proof.
  intros [|ch s] H1 H2; cbn [hd_is hd_in] in *; [discriminate|].
  destruct (bstart ch) eqn:B; auto. rewrite (bstart_tok_stop ch B) in H2. discriminate.
Qed.

Lemma from_range_pspan : forall s1 p1 s2 p2, from_range (mkin s1 p1) (mkin s2 p2) = pspan p1 p2.
Proof. reflexivity. Qed.

Section Cores.
  Variable c : cfg.

  Lemma core_terminal : forall t d l sp, Core c (Terminal t d l sp).
  Proof.
    intros t d l sp lay ctx w p r n Hc W Hn [Hst [Ex1 Ex2]]. unfold parses. cbn [prec P body_txt body_loc].
    cbn [wfb] in W. apply andb_true_iff in W as [Wl Wz]. apply N.eqb_eq in Wz. subst l.
    destruct d as [dd|].
    - rewrite !append_assoc.
      assert (LR : lit_rest (Nat.leb 6 ctx)
                 (append (gap_text (post_gap (nl_gap (lay []) 0))) (append (descr_text dd) r)))
        by apply lit_rest_descr.
      destruct (spelled_first (nl_esc (lay [])) (Nat.leb 6 ctx) t _ Wl LR) as (S1 & S2 & S3).
      rewrite atom_not_bracket by (apply not_bracket_of_first; assumption).
      unfold terminal_opt_description_expr. rewrite terminal_spelled by assumption. cbn [obind].
      rewrite opt_description_printed. cbn [obind fst snd]. rewrite from_range_pspan. reflexivity.
    - rewrite append_nil_r. specialize (Ex1 eq_refl). specialize (Ex2 eq_refl).
      destruct (spelled_first (nl_esc (lay [])) (Nat.leb 6 ctx) t _ Wl Ex2) as (S1 & S2 & S3).
      rewrite atom_not_bracket by (apply not_bracket_of_first; assumption).
      unfold terminal_opt_description_expr. rewrite terminal_spelled by assumption. cbn [obind].
      rewrite opt_description_none by (rewrite rest_skip_i; exact Ex1).
      cbn [obind fst snd]. rewrite from_range_pspan. reflexivity.
  Qed.

  Lemma core_nonterm : forall nm l sp, Core c (NontermRef nm l sp).
  Proof.
    intros nm l sp lay ctx w p r n Hc W Hn _. unfold parses. cbn [prec P body_txt body_loc].
    cbn [wfb] in W. apply andb_true_iff in W as [Wn Wz]. apply N.eqb_eq in Wz. subst l.
    cbn [append]. rewrite append_assoc. cbn [append].
    unfold Atom, nonterm_expr. rewrite nonterm_printed by assumption. cbn [obind fst snd].
    rewrite from_range_pspan. reflexivity.
  Qed.

  Lemma atom_lbrace : forall n s p,
      Atom c n (mkin (String LBRACE s) p)
      = (command_expr (mkin (String LBRACE s) p) <|> terminal_opt_description_expr c (mkin (String LBRACE s) p)).
  Proof.
    intros. unfold Atom. rewrite nonterm_expr_miss, optional_expr_miss, parenthesized_expr_miss by reflexivity.
    reflexivity.
  Qed.

  Lemma core_command : forall cm z l sp, Core c (Command cm z l sp).
  Proof.
    intros cm z l sp lay ctx w p r n Hc W Hn _. unfold parses. cbn [prec P body_txt body_loc].
    cbn [wfb] in W. apply andb_true_iff in W as [W Wz]. apply andb_true_iff in W as [Wc Wb].
    apply N.eqb_eq in Wz. subst l. apply negb_true_iff in Wb. subst z.
    rewrite !append_assoc.
    change (append LBRACE3 ?x) with (String LBRACE (String LBRACE (String LBRACE x))) at 1.
    rewrite atom_lbrace.
    change (String LBRACE (String LBRACE (String LBRACE ?x))) with (append LBRACE3 x).
    unfold command_expr. rewrite command_printed by assumption. cbn [obind fst snd].
    rewrite from_range_pspan. reflexivity.
  Qed.

  Lemma mstop_st0 : forall lay e r, st 0 r -> mstop lay 0 e r.
  Proof. intros. apply mstop_low; auto. Qed.

  Lemma core_optional : forall ch sp, M c ch -> Core c (Optional ch sp).
  Proof.
    intros ch sp HM lay ctx w p r n Hc W Hn _. unfold parses. cbn [prec P body_txt body_loc].
    cbn [wfb] in W.
    set (g0 := gap_text (nl_gap (lay []) 0)). set (g1 := gap_text (post_gap (nl_gap (lay []) 1))).
    cbn [append]. rewrite !append_assoc. cbn [append].
    set (rest1 := append g1 (String RBRACK r)).
    assert (S0 : st 0 rest1) by apply st0_rbrack.
    assert (Fo : first_ok (txt (sub lay 0) 0 ch) rest1)
      by (apply (first_ok_any ch (sub lay 0) 0%nat w); auto; [lia|apply mstop_st0; auto]).
    cbn [body_txt append] in Hn. rewrite !append_assoc in Hn. cbn [append String.length] in Hn.
    fold g0 g1 in Hn. rewrite length_append in Hn. fold rest1 in Hn.
    destruct n as [|m]; [lia|].
    unfold Atom. rewrite nonterm_expr_miss by reflexivity.
    unfold optional_expr. rewrite char_p_hit. cbn [obind].
    unfold g0. rewrite multiblanks0_gap by (apply first_ok_hd; exact Fo). fold g0. cbn [obind].
    rewrite expr_p_S.
    pose proof (HM (sub lay 0) 0%nat w (adv_str g0 (adv_char LBRACK p)) rest1 m (Nat.le_0_l _) W) as X.
    unfold parses in X. cbn [lvl Nat.eqb P] in X. rewrite X; [|lia|apply mstop_st0; auto].
    destruct (loc c (sub lay 0) 0 ch (adv_str g0 (adv_char LBRACK p))) as [ch' p2]. cbn [obind fst snd].
    unfold rest1, g1. rewrite multiblanks0_gap by reflexivity. cbn [obind]. rewrite char_p_hit. cbn [obind].
    rewrite from_range_pspan. reflexivity.
  Qed.

  Lemma core_many1 : forall ch sp, M c ch -> Core c (Many1 ch sp).
  Proof.
    intros ch sp HM lay ctx w p r n Hc W Hn _. unfold parses. cbn [prec P body_txt body_loc].
    cbn [wfb] in W. rewrite !append_assoc.
    set (g0 := post_gap (nl_gap (lay []) 0)).
    cbn [body_txt] in Hn. rewrite !append_assoc in Hn. fold g0 in Hn.
    assert (MS : mstop (sub lay 0) 6 ch (append (gap_text g0) (append DOTS3 r))).
    { split; [repeat split; intros; cbn [lvl Nat.eqb] in *; lia|].
      intros _. destruct (many_rest (nl_gap (lay []) 0) r) as [Q1 Q2]. split; intros _; auto. }
    rewrite U_Atom.
    pose proof (HM (sub lay 0) 6%nat w p _ n ltac:(lia) W Hn MS) as X. unfold parses in X.
    cbn [lvl Nat.eqb P] in X. rewrite X.
    destruct (loc c (sub lay 0) 6 ch p) as [ch' p1]. cbn [obind fst snd].
    unfold many1_tag, g0. rewrite multiblanks0_gap by reflexivity. cbn [obind]. rewrite (tag_p_hit "..."). cbn [obind].
    rewrite from_range_pspan. reflexivity.
  Qed.

  Lemma core_dd : forall ch d sp, M c ch -> Core c (DistDescr ch d sp).
  Proof.
    intros ch d sp HM lay ctx w p r n Hc W Hn _. unfold parses. cbn [prec P body_txt body_loc].
    cbn [wfb] in W. rewrite !append_assoc.
    cbn [body_txt] in Hn. rewrite !append_assoc in Hn.
    set (cx := if open_end ch then 7%nat else 4%nat) in *.
    assert (Lv : lvl cx = 4%nat) by (subst cx; destruct (open_end ch); reflexivity).
    assert (Cx : (cx <= 8)%nat) by (subst cx; destruct (open_end ch); lia).
    assert (MS : mstop (sub lay 0) cx ch
                   (append (gap_text (post_gap (nl_gap (lay []) 0))) (append (descr_text d) r))).
    { split; [rewrite Lv; apply st4_descr|]. intros B. subst cx. destruct (open_end ch) eqn:O.
      - unfold bare in B. apply andb_true_iff in B as [B _]. apply negb_true_iff in B. apply Nat.ltb_ge in B.
        destruct ch; cbn [prec] in B; lia.
      - split; intros X; [rewrite O in X; discriminate|]. destruct ch; try discriminate. destruct descr; discriminate. }
    unfold I, subword_sequence_expr_opt_description. fold (SW c n).
    pose proof (HM (sub lay 0) cx w p _ n Cx W Hn MS) as X. unfold parses in X. rewrite Lv in X. cbn [P] in X.
    rewrite X. destruct (loc c (sub lay 0) cx ch p) as [ch' p1]. cbn [obind fst snd].
    rewrite opt_description_printed. cbn [obind]. rewrite from_range_pspan. reflexivity.
  Qed.
End Cores.

Lemma loc_list_nonempty : forall g sepadv k x xs q, fst (loc_list g sepadv k (x :: xs) q) <> [].
Proof.
  intros. cbn [loc_list]. destruct (g k x _) as [x' q1]. destruct (loc_list g sepadv (S k) xs q1) as [rs q2].
  cbn. discriminate.
Qed.

Section Nary.
  Variable c : cfg.

  Definition GoodM (w : bool) (x : expr) : Prop := wfb w x = true /\ M c x.

  Lemma goodM_of : forall w cs, Forall (M c) cs -> forallb (wfb w) cs = true -> Forall (GoodM w) cs.
  Proof. intros. apply Forall_and; auto. apply forallb_Forall. exact H0. Qed.

  Lemma blanks_bar : forall g1 x q,
      multiblanks0 (mkin (append (gap_text (post_gap g1)) (String BAR x)) q)
      = Ok (tt, mkin (String BAR x) (adv_str (gap_text (post_gap g1)) q)).
  Proof. intros. apply multiblanks0_gap. reflexivity. Qed.

  (** one round of the loop of a list node: the separator, then the next operand *)
  Lemma step_ok : forall o lay w n k x rr q,
      GoodM w x -> st (lv_op o) rr ->
      let T := append (sep_txt o (lay []) (S k)) (append (txt (sub lay (S k)) (lv_op o) x) rr) in
      (String.length T < n)%nat ->
      step_op o c n (mkin T q)
      = Ok (fst (loc c (sub lay (S k)) (lv_op o) x (adv_str (sep_txt o (lay []) (S k)) q)),
            mkin rr (snd (loc c (sub lay (S k)) (lv_op o) x (adv_str (sep_txt o (lay []) (S k)) q))))
      /\ (String.length rr < String.length T)%nat.
  Proof.
    intros o lay w n k x rr q [Wx Mx] Sr T Hn. subst T.
    assert (Lo : (1 <= lv_op o <= 3)%nat) by (destruct o; cbn; lia).
    assert (MS : mstop (sub lay (S k)) (lv_op o) x rr) by (apply mstop_low; [lia|exact Sr]).
    assert (Fo : first_ok (txt (sub lay (S k)) (lv_op o) x) rr) by (apply (first_ok_any x _ (lv_op o) w); auto; lia).
    pose proof (first_ok_hd _ _ Fo) as Nb. pose proof (first_ok_len _ _ Fo) as Len.
    pose proof (fun p => Mx (sub lay (S k)) (lv_op o) w p rr n ltac:(lia) Wx) as X. unfold parses in X.
    rewrite (lvl_low (lv_op o)) in X by lia. rewrite length_append in Hn.
    split; [|rewrite length_append; lia].
    destruct o; cbn [lv_op sep_txt step_op P] in *.
    - unfold seq_sep. rewrite multiblanks1_gap1 by exact Nb. cbn [obind]. apply X; [lia|exact MS].
    - unfold do_alternative_expr, alt_sep in *. rewrite !append_assoc. cbn [append]. rewrite blanks_bar. cbn [obind].
      rewrite char_p_hit. cbn [obind]. rewrite multiblanks0_gap by exact Nb. cbn [obind].
      rewrite !adv_str_app. cbn [adv_str]. apply X; [lia|exact MS].
    - unfold do_fallback_expr, fb_sep in *. rewrite !append_assoc. cbn [append]. rewrite blanks_bar. cbn [obind].
      change (String BAR (String BAR ?y)) with (append "||" y). rewrite tag_p_hit. cbn [obind adv_str].
      rewrite multiblanks0_gap by exact Nb. cbn [obind].
      rewrite !adv_str_app. cbn [adv_str]. apply X; [lia|exact MS].
  Qed.

  (** the operands after the first, as rounds of the loop *)
  Lemma steps_list : forall o lay w n r xs k q,
      Forall (GoodM w) xs -> st (lv_op o) r ->
      let f := fun k x => txt (sub lay k) (lv_op o) x in
      let g := fun k x q => loc c (sub lay k) (lv_op o) x q in
      let sa := fun k q => adv_str (sep_txt o (lay []) k) q in
      (String.length (append (txt_list f (sep_txt o (lay [])) (S k) xs) r) < n)%nat ->
      steps (step_op o c n) (mkin (append (txt_list f (sep_txt o (lay [])) (S k) xs) r) q)
            (fst (loc_list g sa (S k) xs q)) (mkin r (snd (loc_list g sa (S k) xs q))).
  Proof.
    intros o lay w n r xs. induction xs as [|x xs IH]; intros k q G Sr f g sa Hn; subst f g sa; cbv beta in *.
    - cbn. constructor.
    - inversion G as [|? ? Gx Gxs]; subst. cbn [txt_list loc_list]. cbn [txt_list] in Hn. rewrite !append_assoc in *.
      assert (Rt : st (lv_op o) (append (txt_list (fun k x => txt (sub lay k) (lv_op o) x) (sep_txt o (lay [])) (S (S k)) xs) r)).
      { apply (list_rest o lay w); [|exact Sr]. apply forallb_forall. rewrite Forall_forall in Gxs.
        intros y Hy. apply Gxs. exact Hy. }
      destruct (step_ok o lay w n k x _ q Gx Rt Hn) as [E Len].
      destruct (loc c (sub lay (S k)) (lv_op o) x _) as [x' q1].
      specialize (IH (S k) q1 Gxs Sr). cbv zeta in IH.
      destruct (loc_list _ _ (S (S k)) xs q1) as [rs q2].
      cbn [fst snd] in *. econstructor; [exact E|exact Len|]. apply IH.
      rewrite !length_append in Hn. rewrite length_append. lia.
  Qed.
End Nary.

Section NaryCores.
  Variable c : cfg.

  Lemma goodM_first : forall w x, GoodM c w x -> wfb w x = true /\ FirstOk x.
  Proof. intros w x [W _]. split; auto. apply first_ok_any. Qed.

  Lemma core_list : forall o cs sp, Forall (M c) cs -> Core c (mk_op o cs sp).
  Proof.
    intros o cs sp HM lay ctx w p r n Hc W Hn [Hst _]. unfold parses.
    rewrite prec_list in *. rewrite body_txt_list in *. rewrite body_loc_list. rewrite wfb_list in W.
    apply andb_true_iff in W as [W1 W2]. apply Nat.leb_le in W1.
    assert (Lo : (1 <= lv_op o <= 3)%nat) by (destruct o; cbn; lia).
    pose proof (goodM_of c w cs HM W2) as G.
    destruct cs as [|x [|y ys]]; cbn [List.length] in W1; try lia.
    inversion G as [|? ? Gx Gxs]; subst. destruct Gx as [Wx Mx].
    cbn [forallb] in W2. apply andb_true_iff in W2 as [_ W2].
    set (f := fun k x => txt (sub lay k) (lv_op o) x) in *.
    set (g := fun k x q => loc c (sub lay k) (lv_op o) x q).
    set (xs := y :: ys) in *.
    cbn [txt_list append] in Hn |- *. rewrite append_assoc in Hn |- *.
    change (f 0%nat x) with (txt (sub lay 0) (lv_op o) x) in *.
    assert (Sr : st (lv_op o) r) by (eapply st_mono; [|exact Hst]; lia).
    assert (R1 : st (lv_op o) (append (txt_list f (sep_txt o (lay [])) 1 xs) r)) by (apply (list_rest o lay w); auto).
    rewrite P_list.
    pose proof (Mx (sub lay 0) (lv_op o) w p _ n ltac:(lia) Wx Hn (mstop_low _ (lv_op o) x _ ltac:(lia) R1)) as X.
    unfold parses in X. rewrite (lvl_low (lv_op o)) in X by lia. rewrite X. clear X.
    cbn [loc_list]. fold g. change (g 0%nat x p) with (loc c (sub lay 0) (lv_op o) x p).
    destruct (loc c (sub lay 0) (lv_op o) x p) as [x' q1] eqn:E1. cbn [obind fst snd].
    assert (Hn1 : (String.length (append (txt_list f (sep_txt o (lay [])) 1 xs) r) < n)%nat)
      by (rewrite length_append in Hn; lia).
    pose proof (steps_list c o lay w n r xs 0%nat q1 Gxs Sr Hn1) as St. cbv zeta in St. fold f g in St.
    rewrite (loop_p_steps _ _ _ _ _ St); [|apply step_fails; exact Hst|exact Hn1].
    pose proof (loc_list_nonempty g (fun k q => adv_str (sep_txt o (lay []) k) q) 1 y ys q1) as Ne.
    fold xs in Ne.
    destruct (loc_list g (fun k q => adv_str (sep_txt o (lay []) k) q) 1 xs q1) as [more q2].
    cbn [obind fst snd] in *. destruct more as [|m0 more]; [congruence|].
    rewrite from_range_pspan. reflexivity.
  Qed.

  Lemma flatten_loc_sub : forall (layk : nat -> layout) xs k prev q,
      forallb (wfb true) xs = true ->
      map flatten_expr (fst (loc_sub (fun k cx f q => loc c (layk k) cx f q) k prev xs q))
      = fst (loc_sub (fun k cx f q => loc c (layk k) cx f q) k prev xs q).
  Proof.
    induction xs as [|x xs IH]; intros k prev q W; [reflexivity|].
    cbn [forallb] in W. apply andb_true_iff in W as [Wx Wxs]. cbn [loc_sub].
    pose proof (flatten_loc c (layk k) (factor_ctx prev x) x q Wx) as Fx.
    destruct (loc c (layk k) (factor_ctx prev x) x q) as [x' q1].
    specialize (IH (S k) (factor_open (factor_ctx prev x) x) q1 Wxs).
    destruct (loc_sub _ (S k) (factor_open (factor_ctx prev x) x) xs q1) as [rs q2].
    cbn [fst map] in *. rewrite Fx, IH. reflexivity.
  Qed.

  Lemma loc_sub_length : forall (g : nat -> nat -> expr -> pos -> expr * pos) xs k prev q,
      List.length (fst (loc_sub g k prev xs q)) = List.length xs.
  Proof.
    induction xs as [|x xs IH]; intros; [reflexivity|]. cbn [loc_sub].
    destruct (g k (factor_ctx prev x) x q) as [x' q1].
    specialize (IH (S k) (factor_open (factor_ctx prev x) x) q1).
    destruct (loc_sub g (S k) (factor_open (factor_ctx prev x) x) xs q1) as [rs q2].
    cbn [fst List.length] in *. rewrite IH. reflexivity.
  Qed.

  Lemma steps_cons_inv : forall X (step : input -> pres X) i a l i2,
      steps step i (a :: l) i2 ->
      exists i1, step i = Ok (a, i1) /\ (String.length (rest i1) < String.length (rest i))%nat /\ steps step i1 l i2.
  Proof. intros X step i a l i2 H. inversion H; subst. eauto. Qed.

  Lemma steps_sub : forall (layk : nat -> layout) r n,
      c4 r -> c5 r ->
      forall xs k prev q,
        Forall (GoodM c true) xs ->
        (sub_last_open prev xs = true -> noq (skips r) = true) ->
        (String.length (append (txt_sub (fun k cx f => txt (layk k) cx f) k prev xs) r) < n)%nat ->
        steps (U c n) (mkin (append (txt_sub (fun k cx f => txt (layk k) cx f) k prev xs) r) q)
              (fst (loc_sub (fun k cx f q => loc c (layk k) cx f q) k prev xs q))
              (mkin r (snd (loc_sub (fun k cx f q => loc c (layk k) cx f q) k prev xs q))).
  Proof.
    intros layk r n R4 R5. induction xs as [|x xs IH]; intros k prev q G E Hn.
    - cbn. constructor.
    - inversion G as [|? ? [Wx Mx] Gxs]; subst. cbn [txt_sub loc_sub sub_last_open] in *.
      set (cx := factor_ctx prev x) in *. set (prev' := factor_open cx x) in *.
      rewrite append_assoc in *.
      assert (Gf : Forall (fun y => wfb true y = true /\ FirstOk y) xs).
      { eapply Forall_impl; [|exact Gxs]. intros y [Wy _]. split; auto. apply first_ok_any. }
      destruct (sub_rest layk r R4 R5 xs (S k) prev' Gf E) as (S5 & Lk & _). cbv zeta in *.
      set (T' := append (txt_sub (fun k0 cx0 f => txt (layk k0) cx0 f) (S k) prev' xs) r) in *.
      assert (MS : mstop (layk k) cx x T') by (apply factor_mstop; auto).
      assert (Cx : (cx <= 8)%nat) by (destruct (factor_ctx_cases prev x); subst cx; lia).
      assert (Lv : lvl cx = 5%nat) by (destruct (factor_ctx_cases prev x) as [X|X]; subst cx; rewrite X; reflexivity).
      assert (Fo : first_ok (txt (layk k) cx x) T') by (apply (first_ok_any x (layk k) cx true); auto).
      pose proof (Mx (layk k) cx true q T' n Cx Wx Hn MS) as X. unfold parses in X. rewrite Lv in X. cbn [P] in X.
      destruct (loc c (layk k) cx x q) as [x' q1] eqn:E1.
      specialize (IH (S k) prev' q1 Gxs E).
      destruct (loc_sub _ (S k) prev' xs q1) as [rs q2] eqn:E2.
      cbn [fst snd] in *. econstructor; [exact X| |].
      + cbn [rest]. pose proof (first_ok_len _ _ Fo). exact H.
      + apply IH. rewrite length_append in Hn. unfold T' in *. lia.
  Qed.

  Lemma core_sub : forall root l sp,
      match root with Sequence fs _ => Forall (M c) fs | _ => True end -> Core c (Subword root l sp).
  Proof.
    intros root l sp HM lay ctx w p r n Hc W Hn [Hst [Ex _]]. unfold parses. cbn [prec P].
    cbn [prec] in Hst. cbn [wfb] in W. apply andb_true_iff in W as [W W3]. apply andb_true_iff in W as [Ww Wl].
    apply N.eqb_eq in Wl. subst l.
    destruct root as [| | |fs s0| | | | | |]; try discriminate. cbn [body_txt body_loc] in *.
    apply andb_true_iff in W3 as [Wlen Wfs]. apply Nat.leb_le in Wlen.
    pose proof (goodM_of c true fs HM Wfs) as G.
    assert (R4 : c4 r) by (apply Hst; lia). assert (R5 : c5 r) by (apply Hst; lia).
    pose proof (steps_sub (fun k => sub (sub lay 0) k) r n R4 R5 fs 0%nat false p G
                  ltac:(intros O; apply Ex; cbn [open_end]; exact O) Hn) as St.
    cbv beta in St.
    pose proof (flatten_loc_sub (fun k => sub (sub lay 0) k) fs 0 false p Wfs) as Fl. cbv beta in Fl.
    destruct (loc_sub (fun k cx f q => loc c (sub (sub lay 0) k) cx f q) 0 false fs p) as [fs' q2] eqn:E.
    cbn [fst snd] in *.
    unfold SW, subword_sequence_expr. fold (U c n).
    pose proof (loc_sub_length (fun k cx f q => loc c (sub (sub lay 0) k) cx f q) fs 0 false p) as Len.
    rewrite E in Len. cbn [fst] in Len.
    destruct fs' as [|x' [|m0 more]]; cbn [List.length] in Len; try lia.
    destruct (steps_cons_inv _ _ _ _ _ _ St) as (i1 & Hx & Hlen & Hrest).
    rewrite Hx. cbn [obind].
    rewrite (loop_p_steps _ _ _ _ _ Hrest).
    2:{ apply unary_fails; cbn [rest]; exact R4. }
    2:{ cbn [rest] in *. lia. }
    cbn [obind].
    cbn [map] in Fl |- *. rewrite Fl. rewrite from_range_pspan. reflexivity.
  Qed.

  Theorem all_M : forall e, M c e.
  Proof.
    induction e using expr_ind_op; apply core_to_M.
    - apply core_terminal.
    - apply core_nonterm.
    - apply core_command.
    - apply core_list. exact H.
    - apply core_optional. exact IHe.
    - apply core_many1. exact IHe.
    - apply core_dd. exact IHe.
    - apply core_sub. exact H.
  Qed.

  (** The round trip for expressions: parsing the printed text at the level of its context gives
      the located tree and stops exactly at the end of the text. *)
  Theorem expr_roundtrip : forall e lay ctx w p r n,
      (ctx <= 8)%nat -> wfb w e = true ->
      (String.length (append (txt lay ctx e) r) < n)%nat -> mstop lay ctx e r ->
      P c n (lvl ctx) (mkin (append (txt lay ctx e) r) p)
      = Ok (fst (loc c lay ctx e p), mkin r (snd (loc c lay ctx e p))).
  Proof. intros e. apply (all_M e). Qed.
End NaryCores.
