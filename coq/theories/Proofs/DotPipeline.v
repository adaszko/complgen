(** C16 on what the pipeline produces (the theorems of Props/C16b.v): [dfa_dot_current_min] and
    [regex_dot_current_total], which Props/C16.v exports as [C16_dfa_dot] and [C16_regex_dot],
    applied to every automaton [Driver.compile] returns and to every regex [Regex.from_expr] builds
    from a validated tree. *)
From CG Require Import Base.Prelude Model.Dfa Model.Dot Spec.DotRead Spec.DotSpec.
From CG Require Import Proofs.DotDfaMain Proofs.DotRegex Proofs.DotRegexTotal Proofs.DotPipelineRegex.
From CG Require Model.Ast Model.Parser Model.Check Model.Regex Model.Driver Model.DotOfRegex.
From CG Require Proofs.TreeFacts Proofs.CheckTree Proofs.FromExpr Proofs.DriverFacts Proofs.DotPipelineDfa Proofs.DotFromExpr.
From CG Require Props.C05b.

Theorem compile_valid_dfa_dot pick fuel v c base :
  TreeFacts.alts_nonempty (Check.v_expr v) = true ->
  Driver.compile_valid pick fuel v = Ok c ->
  exists text g, of_dfa base c = Ok text /\ read text = Some g /\ gview_equiv (view g) (graph_of_dfa base c).
Proof.
  intros Ha H. destruct (DotPipelineDfa.compile_valid_dot_wf pick fuel v c Ha H) as [A B].
  exact (dfa_dot_current_min base c A B).
Qed.

Theorem pipeline_dfa_dot pick fuel builtins text sh v c base :
  Driver.compile pick fuel builtins text sh = Ok (v, c) ->
  exists out g, of_dfa base c = Ok out /\ read out = Some g /\ gview_equiv (view g) (graph_of_dfa base c).
Proof.
  intro H. apply DriverFacts.compile_Ok in H. destruct H as (g & Hg & Hv & Hc).
  apply (compile_valid_dfa_dot pick fuel v c base); [|exact Hc].
  apply (CheckTree.check_tree builtins g sh v Hv), (Props.C05b.parse_alts_nonempty text g Hg).
Qed.

Theorem validated_regex_dot builtins g sh v r pl :
  Check.from_grammar builtins g sh = Ok v ->
  Regex.from_expr (Check.v_expr v) [] = Ok (r, pl) ->
  exists out gr, DotOfRegex.regex_to_dot pl r = Ok out /\ read out = Some gr
                 /\ regex_ok gr (spec_pool (DotOfRegex.conv_pool pl)) (spec_items (DotOfRegex.conv_regex r)).
Proof.
  intros Hv Hr. destruct (CheckTree.check_tree builtins g sh v Hv) as [_ [Hflat _]].
  destruct (from_expr_rx_hyps (Check.v_expr v) [] r pl Hflat (Forall_nil _) Hr) as [A B].
  exact (regex_dot_current_total _ _ A B).
Qed.

Theorem pipeline_regex_dot pick fuel builtins text sh v c :
  Driver.compile pick fuel builtins text sh = Ok (v, c) ->
  exists r pl out gr, Regex.from_valid_expr (Check.v_expr v) = Ok (r, pl)
                      /\ DotOfRegex.regex_to_dot pl r = Ok out /\ read out = Some gr
                      /\ regex_ok gr (spec_pool (DotOfRegex.conv_pool pl)) (spec_items (DotOfRegex.conv_regex r)).
Proof.
  intro H. apply DriverFacts.compile_Ok in H. destruct H as (g & Hg & Hv & Hc).
  apply DriverFacts.compile_valid_Ok in Hc. destruct Hc as (r & pl & _ & _ & _ & E & _).
  exists r, pl. destruct (validated_regex_dot builtins g sh v r pl Hv (FromExpr.from_valid_expr_ok _ _ _ E)) as [out [gr K]].
  exists out, gr. split; [exact E|exact K].
Qed.
