(** C02 for the model pipeline: from a validated tree, through [from_expr] (L-glushkov) and
    [dfa_from_regex] (L-subset, every pop order), the automaton accepts exactly what the tree
    denotes -- inside a word ([C02_subwords_model]) and on the command line ([C02_language_model],
    under [subs_ok]: the within-word automata handed to the main automaton are right). *)
From CG Require Import Base.Prelude Base.Facts Model.Ast Model.Dfa Model.Regex Model.Subset Model.Check Spec.Lang.
From CG Require Import Proofs.DfaEquivProofs Proofs.RxLang Proofs.Glushkov Proofs.SubsetStmt Proofs.SubsetConstr.
From CG Require Import Proofs.LangDen Proofs.LangJudge Proofs.FromExpr.

(** the item an input stands for inside a word *)
Definition wlab_r (x : rinput) : option witem :=
  match x with
  | RLit t d l _ => Some (WLit t d l)
  | RNonterm _ _ _ => Some WStar
  | RCmd c z l _ => Some (cmd_witem c z l)
  | RSub _ _ _ => None
  end.

Definition wR (x : rinput) (a : witem) : Prop := wlab_r x = Some a.

Lemma one_letter : forall {A} (x : A) w, w = [x] <-> exists a, w = [a] /\ Some x = Some a.
Proof. intros A x w. split; [intros ->; eauto | intros [a [-> H]]; congruence]. Qed.

Lemma wleaf_input : forall e i, form_of e = FLeaf i ->
  forall w, wleaf e w <-> exists a, w = [a] /\ wR i a.
Proof. intros e i Hi. destruct e; inversion Hi; subst; intros w; apply one_letter. Qed.

Lemma wleaf_word : forall c l sp rid w,
  wleaf (Subword c l sp) w <-> exists a, w = [a] /\ wR (RSub rid l sp) a.
Proof. intros c l sp rid w. split; [intros [] | intros [a [_ H]]; discriminate]. Qed.

(** the item words a within-word regex stands for, read off its tables *)
Definition regex_wlang (r : regex) (v : list witem) : Prop :=
  pimg witem wR (r_inputs r) (glushkov_word (r_tree r) (r_end r)) v.

Lemma from_expr_wlang : forall c pl r pl1,
  from_expr c pl = Ok (r, pl1) -> forall v, wdenotes c v <-> regex_wlang r v.
Proof.
  intros c pl r pl1. apply (from_expr_den witem wleaf wR pl1 wleaf_input).
  intros c0 l sp rid _ _ _ _ _. apply wleaf_word.
Qed.

Lemma omap_nth : forall {E A B} (f : A -> outcome E B) l l', omap f l = Ok l' ->
  forall i y, nthN l' i = Some y <-> exists x, nthN l i = Some x /\ f x = Ok y.
Proof.
  intros E A B f. induction l as [|a l IH]; intros l' H i y; simpl in H.
  - inversion H; subst. unfold nthN. split.
    + destruct (N.to_nat i); discriminate.
    + intros [x [Hx _]]. destruct (N.to_nat i); discriminate.
  - destruct (f a) as [b| | |] eqn:Ea; simpl in H; try discriminate.
    destruct (omap f l) as [bs| | |] eqn:El; simpl in H; try discriminate.
    inversion H; subst. unfold nthN in *. destruct (N.to_nat i) as [|n] eqn:En; simpl.
    + split.
      * intros Hy. inversion Hy; subst. eauto.
      * intros [x [Hx Hf]]. inversion Hx; subst. congruence.
    + specialize (IH bs eq_refl (N.of_nat n) y). rewrite Nnat.Nat2N.id in IH. exact IH.
Qed.

Lemma inp_find_nth : forall x l i j, inp_find x l i = Some j ->
  exists k, j = i + N.of_nat k /\ nth_error l k = Some x.
Proof.
  intros x. induction l as [|y l IH]; intros i j H; simpl in H; [discriminate|].
  destruct (inp_eqb y x) eqn:E.
  - inversion H; subst. apply inp_eqb_eq in E. subst. exists O. split; [simpl; lia|reflexivity].
  - apply IH in H. destruct H as [k [-> Hk]]. exists (S k). split; [lia|exact Hk].
Qed.

Lemma intern_all_complete : forall labels y, In y labels -> In y (intern_all labels).
Proof.
  intros labels y. unfold intern_all.
  assert (G : forall l acc, In y acc \/ In y l ->
              In y (fold_left (fun acc x => inp_intern x acc) l acc)).
  { induction l as [|x l IH]; intros acc [H|H]; simpl; auto.
    - destruct H.
    - apply IH. left. unfold inp_intern. destruct (inp_find x acc 0); auto. apply in_app_iff. auto.
    - destruct H as [->|H].
      + apply IH. left. unfold inp_intern. destruct (inp_find y acc 0) as [j|] eqn:Ef.
        * apply inp_find_nth in Ef. destruct Ef as [k [_ Hk]]. eapply nth_error_In; eauto.
        * apply in_app_iff. right. left. reflexivity.
      + apply IH. right. exact H. }
  intros H. apply G. right. exact H.
Qed.

Section DfaItems.
  Variable A : Type.
  Variable Q : inp -> A -> Prop.
  Variable R : rinput -> A -> Prop.

  (** words over [A] that the automaton accepts when input [y] is read as any [a] with [Q y a] *)
  Definition accepts_via (d : dfa) (w : list A) : Prop :=
    exists ids, accepts d ids = true /\
      Forall2 (fun i a => exists y, nthN (d_inputs d) i = Some y /\ Q y a) ids w.

  (** L-subset on top of the tables: if the automaton's inputs are read as the regex's inputs
      are, the automaton accepts the words of the tables read through the regex's inputs. *)
  Theorem accepts_via_regex : forall pick fuel submap r d states,
    (forall x y, from_input submap x = Ok y -> forall a, Q y a <-> R x a) ->
    dfa_from_regex pick fuel submap r = Ok (d, states) ->
    forall w, accepts_via d w <-> pimg A R (r_inputs r) (glushkov_word (r_tree r) (r_end r)) w.
  Proof.
    intros pick fuel submap r d states HQR H w.
    destruct (dfa_from_regex_labels _ _ _ _ _ _ H) as [labels Hl].
    assert (HL : forall ids, accepts d ids = true <->
              limg (fun p i => exists x, nthN labels p = Some x /\ nthN (d_inputs d) i = Some x)
                   (glushkov_word (r_tree r) (r_end r)) ids).
    { intros ids. rewrite (subset_language pick fuel submap r d states labels H Hl ids).
      split; intros [ps [H1 H2]]; exists ps; split; assumption. }
    destruct (subset_run pick fuel submap r d states labels H Hl) as [Hin _].
    change (accepts_via d w) with
      (limg (fun i a => exists y, nthN (d_inputs d) i = Some y /\ Q y a)
            (fun ids => accepts d ids = true) w).
    rewrite (limg_ext _ _ _ _ (fun _ _ => iff_refl _) HL w), limg_limg.
    apply limg_ext; [|tauto]. intros p a. split.
    - intros [i [[y [Hy Hi]] [y' [Hi' Hq]]]]. assert (y' = y) by congruence. subst y'.
      apply (omap_nth _ _ _ Hl) in Hy. destruct Hy as [x [Hx Hf]].
      exists x. split; [exact Hx | apply (HQR x y Hf); exact Hq].
    - intros [x [Hx Hr]].
      destruct (omap_ok_each _ _ _ Hl x (nthN_In _ _ _ Hx)) as [y [Hf _]].
      assert (Hy : nthN labels p = Some y) by (apply (omap_nth _ _ _ Hl); eauto).
      destruct (In_nthN y (d_inputs d)) as [i Hi].
      { rewrite Hin. apply intern_all_complete. exact (nthN_In _ _ _ Hy). }
      exists i. split; [exists y; auto | exists y; split; [exact Hi | apply (HQR x y Hf); exact Hr]].
  Qed.
End DfaItems.

Lemma from_input_wlab : forall submap x y, from_input submap x = Ok y -> wlab y = wlab_r x.
Proof.
  intros submap x y H. destruct x; simpl in H.
  - inversion H; subst. reflexivity.
  - inversion H; subst. reflexivity.
  - inversion H; subst. destruct z; reflexivity.
  - destruct (assocN rid submap); inversion H; subst. reflexivity.
Qed.

(** [accepts_via_regex] inside a word: for every pop order and every oracle, the automaton the
    model builds for a within-word regex accepts exactly its table language. *)
Lemma waccepts_regex_wlang : forall pick fuel submap r d states,
  dfa_from_regex pick fuel submap r = Ok (d, states) ->
  forall v, waccepts d v <-> regex_wlang r v.
Proof.
  intros pick fuel submap r d states.
  apply (accepts_via_regex witem (fun y a => wlab y = Some a) wR).
  intros x y Hf a. unfold wR. rewrite (from_input_wlab _ _ _ Hf). tauto.
Qed.

(** C02 inside a word: the automaton the model compiles for a within-word expression, for every
    pop order, accepts exactly the within-word item sequences the expression denotes. *)
Theorem C02_subwords_model : forall pick fuel submap c pl r pl1 d states,
  from_expr c pl = Ok (r, pl1) ->
  dfa_from_regex pick fuel submap r = Ok (d, states) ->
  forall v, waccepts d v <-> wdenotes c v.
Proof.
  intros pick fuel submap c pl r pl1 d states E H v.
  rewrite (waccepts_regex_wlang _ _ _ _ _ _ H v). symmetry. exact (from_expr_wlang _ _ _ _ E v).
Qed.

(** what the within-word regex number [rid] of the pool stands for *)
Definition pool_wlang (pl : pool) (rid : N) (v : list witem) : Prop :=
  exists rr, nthN pl rid = Some rr /\ regex_wlang rr v.

Definition item_of_rinput (pl : pool) (x : rinput) : item :=
  match x with
  | RLit t d l _ => ILeaf (WLit t d l)
  | RNonterm _ _ _ => ILeaf WStar
  | RCmd c z l _ => ILeaf (cmd_witem c z l)
  | RSub rid l _ => IWord (pool_wlang pl rid) l
  end.

Definition tR (pl : pool) (x : rinput) (it : item) : Prop := item_equiv (item_of_rinput pl x) it.

Lemma one_item : forall X w, (exists it, w = [it] /\ item_equiv it X) <->
                             (exists a, w = [a] /\ item_equiv X a).
Proof. intros X w. split; intros [a [-> H]]; exists a; split; auto; apply item_equiv_sym; exact H. Qed.

Lemma tleaf_input : forall pl e i, form_of e = FLeaf i ->
  forall w, tleaf e w <-> exists a, w = [a] /\ tR pl i a.
Proof. intros pl e i Hi. destruct e; inversion Hi; subst; intros w; apply one_item. Qed.

Lemma tleaf_word : forall plF c l sp rid pl r pl1,
  from_expr c pl = Ok (r, pl1) -> nthN plF rid = Some r ->
  forall w, tleaf (Subword c l sp) w <-> exists a, w = [a] /\ tR plF (RSub rid l sp) a.
Proof.
  intros plF c l sp rid pl r pl1 E1 Hn w. unfold tleaf, tR. cbn [item_of_rinput].
  rewrite one_item.
  assert (Heq : item_equiv (IWord (wdenotes c) l) (IWord (pool_wlang plF rid) l)).
  { split; [reflexivity|]. intros v. rewrite (from_expr_wlang _ _ _ _ E1 v).
    unfold pool_wlang. split; [eauto | intros [rr [Hr H]]; congruence]. }
  split; intros [a [-> H]]; exists a; split; auto.
  - eapply item_equiv_trans; [apply item_equiv_sym; exact Heq | exact H].
  - eapply item_equiv_trans; [exact Heq | exact H].
Qed.

(** the within-word automata handed to the main automaton are the right ones: the oracle maps
    every within-word regex to an automaton that accepts its table language (for the pipeline this
    is [subs_minimised_ok] in C02Total.v: [waccepts_regex_wlang] followed by language preservation
    of minimisation, C03) *)
Definition subs_ok (submap : list (N * N)) (pl : pool) (cd : cdfa) : Prop :=
  forall rid k, assocN rid submap = Some k ->
    forall v, waccepts (sub_dfa cd k) v <-> pool_wlang pl rid v.

Lemma from_input_item : forall submap pl cd x y, subs_ok submap pl cd ->
  from_input submap x = Ok y -> item_equiv (item_of_inp cd y) (item_of_rinput pl x).
Proof.
  intros submap pl cd x y Hs H. destruct x; simpl in H.
  - inversion H; subst. reflexivity.
  - inversion H; subst. reflexivity.
  - inversion H; subst. destruct z; reflexivity.
  - destruct (assocN rid submap) as [k|] eqn:Ek; inversion H; subst. simpl.
    split; [reflexivity|]. apply Hs. exact Ek.
Qed.

(** C02 on the command line, for the model pipeline: for every pop order [pick] and every oracle
    [submap] whose within-word automata are right, the automaton compiled from a validated tree
    accepts exactly the item words the tree denotes. *)
Theorem C02_language_model : forall pick fuel submap e r pl d states subs,
  from_expr e [] = Ok (r, pl) ->
  dfa_from_regex pick fuel submap r = Ok (d, states) ->
  subs_ok submap pl (mkcdfa d subs) ->
  forall w, accepts_items (mkcdfa d subs) w <-> denotes e w.
Proof.
  intros pick fuel submap e r pl d states subs E H Hs w.
  unfold denotes. rewrite (from_expr_den item tleaf (tR pl) pl (tleaf_input pl) (tleaf_word pl) _ _ _ E w).
  apply (accepts_via_regex item (fun y it => item_equiv (item_of_inp (mkcdfa d subs) y) it) (tR pl))
    with (2 := H).
  intros x y Hf a. pose proof (from_input_item _ _ _ _ _ Hs Hf) as He. unfold tR. split; intros Ha.
  - exact (item_equiv_trans _ _ _ (item_equiv_sym _ _ He) Ha).
  - exact (item_equiv_trans _ _ _ He Ha).
Qed.

(** [C02_language_model] carried to any automaton with the same inputs and the same accepted
    input-id words (e.g. the minimised one, C03). *)
Corollary C02_language_transfer : forall pick fuel submap e r pl d states subs d',
  from_expr e [] = Ok (r, pl) ->
  dfa_from_regex pick fuel submap r = Ok (d, states) ->
  subs_ok submap pl (mkcdfa d subs) ->
  d_inputs d' = d_inputs d -> (forall ids, accepts d' ids = accepts d ids) ->
  forall w, accepts_items (mkcdfa d' subs) w <-> denotes e w.
Proof.
  intros pick fuel submap e r pl d states subs d' E H Hs Hi Ha w.
  rewrite <- (C02_language_model pick fuel submap e r pl d states subs E H Hs w).
  unfold accepts_items. simpl. split; intros [ids [H1 H2]]; exists ids.
  - rewrite <- Ha. split; auto. rewrite <- Hi. exact H2.
  - rewrite Ha. split; auto. rewrite Hi. exact H2.
Qed.

(** [C02_language_model] stated from the checker's output; the [from_grammar] hypothesis only says
    where the tree comes from, the proof does not use it. *)
Corollary C02_language_checked : forall builtins g sh v pick fuel submap r pl d states subs,
  from_grammar builtins g sh = Ok v ->
  from_valid_expr (v_expr v) = Ok (r, pl) ->
  dfa_from_regex pick fuel submap r = Ok (d, states) ->
  subs_ok submap pl (mkcdfa d subs) ->
  forall w, accepts_items (mkcdfa d subs) w <-> denotes (v_expr v) w.
Proof.
  intros builtins g sh v pick fuel submap r pl d states subs _ E H Hs w.
  apply from_valid_expr_ok in E. eapply C02_language_model; eauto.
Qed.

(** [subs_ok] for raw (unminimised) within-word automata, built with any pop order.  The pipeline
    minimises them and goes through [subs_minimised_ok] (C02Total.v) instead. *)
Lemma subs_ok_raw : forall submap pl cd,
  (forall rid k, assocN rid submap = Some k ->
     exists rr pick fuel sm states,
       nthN pl rid = Some rr /\ dfa_from_regex pick fuel sm rr = Ok (sub_dfa cd k, states)) ->
  subs_ok submap pl cd.
Proof.
  intros submap pl cd H rid k Hk v.
  destruct (H rid k Hk) as [rr [pick [fuel [sm [states [Hn Hd]]]]]].
  rewrite (waccepts_regex_wlang _ _ _ _ _ _ Hd v). unfold pool_wlang. split.
  - intros Hv. eauto.
  - intros [rr' [Hn' Hv]]. congruence.
Qed.

(** [subs_ok] is preserved when every within-word automaton is replaced by one that accepts the
    same within-word item sequences (what minimisation guarantees, C03). *)
Lemma subs_ok_equiv : forall submap pl d subs subs',
  subs_ok submap pl (mkcdfa d subs) ->
  (forall k v, waccepts (sub_dfa (mkcdfa d subs') k) v <-> waccepts (sub_dfa (mkcdfa d subs) k) v) ->
  forall d', subs_ok submap pl (mkcdfa d' subs').
Proof.
  intros submap pl d subs subs' H He d' rid k Hk v.
  change (sub_dfa (mkcdfa d' subs') k) with (sub_dfa (mkcdfa d subs') k).
  rewrite He. apply (H rid k Hk v).
Qed.
