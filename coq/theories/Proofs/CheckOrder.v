(** C14 (definition order) and C15 (harmlessness of unused definitions): the validated
    expression depends on the definition statements only through the lookups
    [shell_definition g sh x] / [plain_definition g x] for the names [x] that can be reached from
    the call variants.  Take two grammars with the same call variants whose lookups agree on a set
    of names that contains the roots, is closed under references and contains the dependencies
    of the second.  If the first is accepted and the passes in front of the cycle search succeed
    on the second ([front_ok]), the second is accepted with the same command and the same
    expression ([from_grammar_lookup_ext]). *)
From CG Require Import Base.Prelude Base.Facts Proofs.ListFacts Model.Ast Model.Check Spec.Choice Spec.Mistakes Spec.Warnings.
From CG Require Import Proofs.CheckChoice Proofs.CheckMistakes Proofs.CheckLemmas Proofs.CheckWarnings.
From CG Require Import Proofs.CheckCycle Proofs.CheckTotal Proofs.CheckFront Proofs.CheckCycleSpec.
From CG Require Import Proofs.CheckResolve.
From Coq Require Import Permutation.

Lemma specialize_ref_choose builtins g sh defs0 us fs :
  collect_plain_defs (all_defs g) [] = Ok defs0 -> get_specializations g sh = Ok (us, fs) ->
  forall n l sp, specialize_ref sh us (builtins sh) fs (map d_name (defs1_of defs0)) n l sp
                 = choose_ref builtins g sh n l sp.
Proof.
  intros Hc Hs n l sp. unfold defs1_of. rewrite map_map.
  apply (choose_ref_correct builtins g sh defs0 us fs Hc Hs).
Qed.

Lemma specialize_ext sh us bi fs plain us' fs' plain' e :
  (forall n l sp, In n (all_refs e) ->
                  specialize_ref sh us bi fs plain n l sp = specialize_ref sh us' bi fs' plain' n l sp) ->
  specialize sh us bi fs plain e = specialize sh us' bi fs' plain' e.
Proof.
  induction e using expr_ind'; intro Hr; cbn [specialize]; try reflexivity;
    try (f_equal; apply IHe; exact Hr);
    try (f_equal; apply map_ext_Forall; rewrite Forall_forall in *; intros c Hin; apply H; [exact Hin|];
         intros n l s Hn; apply Hr; cbn; apply in_flat_map; exists c; split; assumption).
  apply Hr. left. reflexivity.
Qed.

Section Agreement.
  Variable builtins : shell -> list (string * string).
  Variable sh : shell.
  Variable g g' : grammar.
  Variable defs0 defs0' : list defn.
  Variable us us' : list (string * user_spec).
  Variable fs fs' : list (string * (string * span)).
  Hypothesis Hcollect : collect_plain_defs (all_defs g) [] = Ok defs0.
  Hypothesis Hspecs : get_specializations g sh = Ok (us, fs).
  Hypothesis Hcollect' : collect_plain_defs (all_defs g') [] = Ok defs0'.
  Hypothesis Hspecs' : get_specializations g' sh = Ok (us', fs').

  Variable S : string -> Prop.
  Hypothesis Hcv : call_variants g = call_variants g'.
  Hypothesis Hsd : forall x, S x -> shell_definition g sh x = shell_definition g' sh x.
  Hypothesis Hpd : forall x, S x -> plain_definition g x = plain_definition g' x.
  Hypothesis Hclosed : forall x rhs, S x -> plain_definition g x = Some rhs ->
                                     forall c, In c (all_refs rhs) -> S c.
  Hypothesis Hroot : forall c, In c (all_refs (expr0_of g)) -> S c.
  Hypothesis Hdep' : forall x y, depends g' sh x y = true -> S x /\ S y.

  Let spec := spec_of builtins sh us fs (defs1_of defs0).
  Let spec' := spec_of builtins sh us' fs' (defs1_of defs0').
  Let defs2 := defs2_of spec (defs1_of defs0).
  Let defs2' := defs2_of spec' (defs1_of defs0').
  Let t0 := table0_of defs2.
  Let t0' := table0_of defs2'.

  Lemma expr0_same : expr0_of g' = expr0_of g.
  Proof. unfold expr0_of. rewrite Hcv. reflexivity. Qed.

  Lemma spec_same e : (forall c, In c (all_refs e) -> S c) -> spec e = spec' e.
  Proof.
    intro He. unfold spec, spec', spec_of. apply specialize_ext. intros n l sp Hn.
    rewrite (specialize_ref_choose builtins g sh defs0 us fs Hcollect Hspecs).
    rewrite (specialize_ref_choose builtins g' sh defs0' us' fs' Hcollect' Hspecs').
    unfold choose_ref. rewrite (Hsd n (He n Hn)), (Hpd n (He n Hn)). reflexivity.
  Qed.

  Lemma t0_agree x : S x -> assoc x t0 = assoc x t0'.
  Proof.
    intro Hx. unfold t0, t0', defs2, defs2'.
    rewrite (table0_assoc builtins g sh defs0 us fs Hcollect).
    rewrite (table0_assoc builtins g' sh defs0' us' fs' Hcollect').
    rewrite <- (Hpd x Hx). destruct (plain_definition g x) as [rhs|] eqn:E; [|reflexivity].
    cbn. f_equal. apply spec_same. intros c Hc. rewrite distribute_descriptions_all_refs in Hc.
    eapply Hclosed; eauto.
  Qed.

  Lemma t0_closed x rhs : S x -> assoc x t0 = Some rhs -> forall c, In c (all_refs rhs) -> S c.
  Proof.
    intros Hx Hr c Hc. unfold t0, defs2 in Hr.
    rewrite (table0_assoc builtins g sh defs0 us fs Hcollect) in Hr.
    destruct (plain_definition g x) as [rhs0|] eqn:E; [|discriminate]. cbn in Hr.
    inversion Hr; subst rhs. unfold spec_of in Hc. rewrite specialize_refs in Hc.
    apply filter_In in Hc. destruct Hc as [Hc _]. rewrite distribute_descriptions_all_refs in Hc.
    eapply Hclosed; eauto.
  Qed.

  Lemma depends_transfer x y : depends g' sh x y = true -> depends g sh x y = true.
  Proof.
    intro H. destruct (Hdep' x y H) as [Hx Hy]. unfold depends, plain_chosen in *.
    rewrite (Hpd x Hx), (Hsd y Hy), (Hpd y Hy). exact H.
  Qed.

  Lemma acyclic_transfer : acyclic (graph_of defs2) -> acyclic (graph_of defs2').
  Proof.
    intros [rank Hr]. exists rank. intros u c Hu. apply Hr.
    apply (model_graph_depends builtins g sh defs0 us fs Hcollect Hspecs).
    apply depends_transfer.
    apply (model_graph_depends builtins g' sh defs0' us' fs' Hcollect' Hspecs'). exact Hu.
  Qed.

  Lemma t0_dd_free : table_dd_free t0.
  Proof. apply table0_dd_free. Qed.
  Lemma t0'_dd_free : table_dd_free t0'.
  Proof. apply table0_dd_free. Qed.

  Lemma final_tables ord ord' :
    resolution_order defs2 = Ok ord -> resolution_order defs2' = Ok ord' ->
    exists K,
      (forall x, assoc x (resolve_in_order ord t0) = assoc x (sol t0 K)) /\
      (forall x, assoc x (resolve_in_order ord' t0') = assoc x (sol t0' K)).
  Proof.
    intros Ho Ho'.
    destruct (proj1 (resolved_table_sol defs2 ord t0_dd_free Ho)) as [B HB].
    destruct (proj1 (resolved_table_sol defs2' ord' t0'_dd_free Ho')) as [B' HB'].
    exists (Nat.max B B'). split; intro x; [apply HB|apply HB']; lia.
  Qed.

  Theorem back_end_agree command v :
    back_end builtins g sh command defs0 us fs = Ok v ->
    exists v', back_end builtins g' sh command defs0' us' fs' = Ok v'
               /\ v_command v' = v_command v /\ v_expr v' = v_expr v.
  Proof.
    unfold back_end. cbn zeta. rewrite expr0_same.
    fold spec spec' defs2 defs2' t0 t0'.
    set (e1 := distribute_descriptions (expr0_of g)).
    assert (He1 : forall c, In c (all_refs e1) -> S c).
    { intros c Hc. unfold e1 in Hc. rewrite distribute_descriptions_all_refs in Hc. auto. }
    rewrite <- (spec_same e1 He1).
    assert (He2 : forall c, In c (all_refs (spec e1)) -> S c).
    { intros c Hc. unfold spec, spec_of in Hc. rewrite specialize_refs in Hc. apply filter_In in Hc.
      apply He1. tauto. }
    destruct (resolution_order defs2) as [ord| | |] eqn:Ho; cbn [obind]; try discriminate.
    assert (Ho' : exists ord', resolution_order defs2' = Ok ord').
    { apply resolution_order_complete. apply acyclic_transfer.
      apply resolution_order_complete. eexists. exact Ho. }
    destruct Ho' as [ord' Ho']. rewrite Ho'. cbn [obind].
    destruct (final_tables ord ord' Ho Ho') as (K & HT & HT').
    set (T := resolve_in_order ord t0) in *. set (T' := resolve_in_order ord' t0') in *.
    assert (Hagree : forall x, S x -> assoc x T = assoc x T').
    { intros x Hx. rewrite HT, HT'. apply (sol_agree t0 t0' S t0_agree t0_closed). exact Hx. }
    assert (Hcl : forall x rhs, S x -> assoc x T = Some rhs -> forall c, In c (all_refs rhs) -> S c).
    { intros x rhs Hx Hr. rewrite HT in Hr. eapply (sol_refs_closed t0 S t0_closed); eauto. }
    pose proof (spaces_after_search_fine defs2 ord (spec e1) t0_dd_free
                  (specialize_dd_free _ _ _ _ _ _ (distribute_dd_free _ _)) Ho) as Hf.
    pose proof (spaces_after_search_fine defs2' ord' (spec e1) t0'_dd_free
                  (specialize_dd_free _ _ _ _ _ _ (distribute_dd_free _ _)) Ho') as Hf'.
    cbn zeta in Hf, Hf'. fold t0 T in Hf. fold t0' T' in Hf'.
    assert (Hsp : spaces T' (spaces_fuel T' (spec e1)) (spec e1) [] false false
                  = spaces T (spaces_fuel T (spec e1)) (spec e1) [] false false).
    { rewrite (spaces_ext T T' S Hagree Hcl _ (spec e1) [] false false He2).
      apply spaces_fine_agree; [exact Hf'|].
      rewrite <- (spaces_ext T T' S Hagree Hcl _ (spec e1) [] false false He2). exact Hf. }
    rewrite Hsp.
    destruct (spaces T _ (spec e1) [] false false) as [[]| | |]; cbn [obind]; try discriminate.
    intro H. inversion H; subst v. clear H. eexists. split; [reflexivity|].
    cbn [v_command v_expr]. split; [reflexivity|].
    rewrite (resolve_ext T' T (spec e1)); [reflexivity|].
    intros c Hc. symmetry. apply Hagree. apply He2. exact Hc.
  Qed.
End Agreement.

Definition front_ok (g : grammar) (sh : shell) : Prop :=
  NoDup (plain_names g) /\ unknown_shell g = false /\ non_command_for_shell g = false
  /\ NoDup (shell_names g sh)
  /\ forall n nsp rhs, In (NontermDef n nsp None rhs) g -> In n (shell_names g sh) ->
                       is_command rhs = true.

Lemma get_fallback_specs_commands sp ds : forall acc fs,
  get_fallback_specs sp ds acc = Ok fs ->
  forall n nsp rhs, In (n, nsp, None, rhs) ds -> mem_str n sp = true -> is_command rhs = true.
Proof.
  induction ds as [|[[[n nsp] sh] rhs] r IH]; intros acc fs H n' nsp' rhs' Hin Hm; [destruct Hin|].
  cbn [get_fallback_specs] in H. destruct sh as [s|].
  - destruct Hin as [Hin|Hin]; [discriminate|]. eapply IH; eauto.
  - destruct Hin as [Hin|Hin].
    + inversion Hin; subst. rewrite Hm in H. destruct rhs'; try discriminate. reflexivity.
    + destruct (mem_str n sp); [|eapply IH; eauto].
      destruct rhs; try discriminate. destruct (assoc n acc) as [[c p]|]; [discriminate|].
      eapply IH; eauto.
Qed.

Lemma front_ok_iff g sh :
  (exists defs0 us fs, collect_plain_defs (all_defs g) [] = Ok defs0
                       /\ get_specializations g sh = Ok (us, fs)) <-> front_ok g sh.
Proof.
  split.
  - intros (defs0 & us & fs & Hc & Hs). apply get_specializations_inv in Hs. destruct Hs as [Hus Hfs].
    destruct (proj1 (get_user_specs_ok_iff g sh)) as (H1 & H2 & H3); [eexists; exact Hus|].
    unfold front_ok. repeat split; auto.
    + apply has_dup_NoDup. apply duplicate_plain_iff. eauto.
    + apply has_dup_NoDup. exact H3.
    + intros n nsp rhs Hin Hn. apply in_all_defs in Hin.
      eapply get_fallback_specs_commands; [exact Hfs|exact Hin|].
      apply mem_str_In. rewrite (us_keys_shell_names _ _ _ Hus). exact Hn.
  - intros (Hp & H1 & H2 & Hsn & Hcmd).
    destruct (proj1 (duplicate_plain_iff g)) as [defs0 Hc]; [apply has_dup_NoDup; exact Hp|].
    destruct (proj2 (get_user_specs_ok_iff g sh)) as [us Hus].
    { repeat split; auto. apply has_dup_NoDup. exact Hsn. }
    destruct (get_fallback_specs_ok (map fst us) (all_defs g) []) as [fs Hfs].
    + rewrite <- plain_names_all_defs. apply has_dup_NoDup. exact Hp.
    + intros x _ [].
    + intros n nsp rhs Hin Hm. apply in_all_defs in Hin. apply mem_str_In in Hm.
      rewrite (us_keys_shell_names _ _ _ Hus) in Hm. eapply Hcmd; eauto.
    + exists defs0, us, fs. split; [exact Hc|]. apply get_specializations_inv. split; assumption.
Qed.

Lemma from_grammar_front_ok builtins g sh v : from_grammar builtins g sh = Ok v -> front_ok g sh.
Proof.
  intro H. apply from_grammar_ok_front in H.
  destruct H as (command & cspan & defs0 & us & fs & _ & _ & Hc & Hs & _). apply front_ok_iff. eauto.
Qed.

Theorem from_grammar_lookup_ext builtins sh g g' (S : string -> Prop) :
  call_variants g = call_variants g' -> front_ok g' sh ->
  (forall x, S x -> shell_definition g sh x = shell_definition g' sh x) ->
  (forall x, S x -> plain_definition g x = plain_definition g' x) ->
  (forall x rhs, S x -> plain_definition g x = Some rhs -> forall c, In c (all_refs rhs) -> S c) ->
  (forall c, In c (all_refs (expr0_of g)) -> S c) ->
  (forall x y, depends g' sh x y = true -> S x /\ S y) ->
  forall v, from_grammar builtins g sh = Ok v ->
            exists v', from_grammar builtins g' sh = Ok v' /\ v_command v' = v_command v
                       /\ v_expr v' = v_expr v.
Proof.
  intros Hcv Hfront Hsd Hpd Hcl Hroot Hdep v H. apply from_grammar_ok_front in H.
  destruct H as (command & cspan & defs0 & us & fs & Hd & Hs & Hc & Hsp & H).
  destruct (proj2 (front_ok_iff g' sh) Hfront) as (defs0' & us' & fs' & Hc' & Hsp').
  unfold cv_names in Hd. rewrite Hcv in Hd.
  rewrite (from_grammar_back_end builtins g' sh _ _ _ _ _ Hd Hs Hc' Hsp').
  apply (back_end_agree builtins sh g g' defs0 defs0' us us' fs fs' Hc Hsp Hc' Hsp' S); assumption.
Qed.

Lemma assoc_perm {V} k (l l' : list (string * V)) :
  NoDup (map fst l) -> Permutation l l' -> assoc k l = assoc k l'.
Proof.
  intros Hnd Hp. assert (Hnd' : NoDup (map fst l')) by (eapply Permutation_NoDup; [apply Permutation_map; exact Hp|exact Hnd]).
  destruct (assoc k l) as [v|] eqn:E.
  - symmetry. apply assoc_NoDup_In; [exact Hnd'|]. eapply Permutation_in; [exact Hp|apply assoc_In; exact E].
  - symmetry. apply assoc_None. intro H. apply assoc_None in E. apply E.
    eapply Permutation_in; [apply Permutation_sym, Permutation_map; exact Hp|exact H].
Qed.

Lemma assoc_flat_map_filter {A V} (f : A -> list (string * V)) (P : A -> bool) k l :
  (forall a, In a l -> In k (map fst (f a)) -> P a = true) ->
  assoc k (flat_map f (filter P l)) = assoc k (flat_map f l).
Proof.
  induction l as [|a l IH]; intro H; [reflexivity|]. cbn [filter flat_map].
  assert (IH' := IH (fun a' Ha => H a' (or_intror Ha))).
  destruct (P a) eqn:E; cbn [flat_map]; rewrite !assoc_app, ?IH'; [reflexivity|].
  destruct (assoc k (f a)) eqn:Ea; [|reflexivity]. apply assoc_Some_in in Ea.
  rewrite (H a (or_introl eq_refl) Ea) in E. discriminate.
Qed.

Lemma plain_definition_some_in g x rhs :
  plain_definition g x = Some rhs -> exists nsp, In (NontermDef x nsp None rhs) g.
Proof. rewrite plain_definition_assoc. intro H. apply in_plain_table, assoc_In. exact H. Qed.

Lemma shell_definition_some_in g sh x rhs :
  shell_definition g sh x = Some rhs ->
  exists nsp shn shsp, In (NontermDef x nsp (Some (shn, shsp)) rhs) g /\ is_shell shn sh = true.
Proof. rewrite shell_definition_assoc. intro H. apply in_shell_table, assoc_In. exact H. Qed.

Lemma shell_definition_in g sh x nsp shn shsp rhs :
  NoDup (shell_names g sh) -> In (NontermDef x nsp (Some (shn, shsp)) rhs) g ->
  is_shell shn sh = true -> shell_definition g sh x = Some rhs.
Proof.
  intros Hnd Hin Hs. rewrite shell_definition_assoc.
  apply assoc_NoDup_In; [rewrite shell_table_keys; exact Hnd|]. apply in_shell_table. eauto 6.
Qed.

Lemma shell_names_in g sh x :
  In x (shell_names g sh) <-> shell_definition g sh x <> None.
Proof.
  rewrite shell_definition_assoc, <- shell_table_keys. split.
  - intros H E. apply assoc_None in E. contradiction.
  - intro H. destruct (assoc x (shell_table g sh)) eqn:E; [eapply assoc_Some_in; exact E|congruence].
Qed.

Section Permuted.
  Variable builtins : shell -> list (string * string).
  Variable sh : shell.
  Variable g g' : grammar.
  Hypothesis Hperm : Permutation g g'.
  Hypothesis Hcv : call_variants g = call_variants g'.

  Lemma plain_names_perm : Permutation (plain_names g) (plain_names g').
  Proof. unfold plain_names. apply Permutation_flat_map. exact Hperm. Qed.

  Lemma shell_names_perm : Permutation (shell_names g sh) (shell_names g' sh).
  Proof. unfold shell_names. apply Permutation_flat_map. exact Hperm. Qed.

  Lemma existsb_perm (P : statement -> bool) : existsb P g = existsb P g'.
  Proof.
    destruct (existsb P g') eqn:E.
    - apply existsb_exists in E. destruct E as [x [Hx Hp]]. apply existsb_exists. exists x.
      split; [|exact Hp]. eapply Permutation_in; [apply Permutation_sym; exact Hperm|exact Hx].
    - destruct (existsb P g) eqn:E'; [|reflexivity]. apply existsb_exists in E'.
      destruct E' as [x [Hx Hp]]. rewrite <- E. symmetry. apply existsb_exists. exists x.
      split; [|exact Hp]. eapply Permutation_in; [exact Hperm|exact Hx].
  Qed.

  Lemma front_ok_perm : front_ok g sh -> front_ok g' sh.
  Proof.
    intros (Hp & H1 & H2 & Hsn & Hcmd). unfold front_ok. repeat split.
    - eapply Permutation_NoDup; [apply plain_names_perm|exact Hp].
    - unfold unknown_shell in *. rewrite <- existsb_perm. exact H1.
    - unfold non_command_for_shell in *. rewrite <- existsb_perm. exact H2.
    - eapply Permutation_NoDup; [apply shell_names_perm|exact Hsn].
    - intros n nsp rhs Hin Hn. apply (Hcmd n nsp rhs).
      + eapply Permutation_in; [apply Permutation_sym; exact Hperm|exact Hin].
      + eapply Permutation_in; [apply Permutation_sym; apply shell_names_perm|exact Hn].
  Qed.

  Lemma plain_definition_perm x : NoDup (plain_names g) -> plain_definition g x = plain_definition g' x.
  Proof.
    intro Hnd. rewrite !plain_definition_assoc.
    apply assoc_perm; [rewrite plain_table_keys; exact Hnd|apply Permutation_flat_map; exact Hperm].
  Qed.

  Lemma shell_definition_perm x :
    NoDup (shell_names g sh) -> shell_definition g sh x = shell_definition g' sh x.
  Proof.
    intro Hnd. rewrite !shell_definition_assoc.
    apply assoc_perm; [rewrite shell_table_keys; exact Hnd|apply Permutation_flat_map; exact Hperm].
  Qed.

  Theorem definition_order v :
    from_grammar builtins g sh = Ok v ->
    exists v', from_grammar builtins g' sh = Ok v' /\ v_command v' = v_command v
               /\ v_expr v' = v_expr v.
  Proof.
    intro H. destruct (from_grammar_front_ok _ _ _ _ H) as (Hp & H1 & H2 & Hsn & Hcmd).
    apply (from_grammar_lookup_ext builtins sh g g' (fun _ => True)) with (v := v); auto.
    - apply front_ok_perm. unfold front_ok. auto.
    - intros x _. apply shell_definition_perm. exact Hsn.
    - intros x _. apply plain_definition_perm. exact Hp.
  Qed.
End Permuted.

Definition remove_unused (g : grammar) : grammar :=
  filter (fun s => match s with
                   | NontermDef n _ _ _ => mem_str n (referred g)
                   | CallVariant _ _ _ => true
                   end) g.

Section Filtered.
  Variable P : statement -> bool.
  Variable g : grammar.
  Hypothesis Pcv : forall n sp e, P (CallVariant n sp e) = true.

  Lemma call_variants_filter : call_variants (filter P g) = call_variants g.
  Proof.
    unfold call_variants. induction g as [|s l IH]; cbn; [reflexivity|].
    destruct s as [n sp e|n sp sh rhs].
    - rewrite Pcv. cbn. rewrite IH. reflexivity.
    - destruct (P _); cbn; exact IH.
  Qed.

  Lemma NoDup_flat_map_filter {B} (h : statement -> list B) (l : list statement) :
    NoDup (flat_map h l) -> NoDup (flat_map h (filter P l)).
  Proof.
    induction l as [|s l IH]; cbn; [auto|]. intro H.
    apply NoDup_app in H. destruct H as (Ha & Hb & Hd).
    destruct (P s); [|auto]. cbn. apply NoDup_app. repeat split; auto.
    intros x Hx Hx'. apply (Hd x Hx). apply in_flat_map in Hx'. destruct Hx' as [y [Hy Hx']].
    apply filter_In in Hy. apply in_flat_map. exists y. tauto.
  Qed.

  Lemma existsb_filter_false (Q : statement -> bool) : existsb Q g = false -> existsb Q (filter P g) = false.
  Proof.
    intro H. destruct (existsb Q (filter P g)) eqn:E; [|reflexivity].
    apply existsb_exists in E. destruct E as [x [Hx Hq]]. apply filter_In in Hx.
    rewrite <- H. symmetry. apply existsb_exists. exists x. tauto.
  Qed.

  Lemma front_ok_filter sh : front_ok g sh -> front_ok (filter P g) sh.
  Proof.
    intros (Hp & H1 & H2 & Hsn & Hcmd). unfold front_ok. repeat split.
    - unfold plain_names. apply NoDup_flat_map_filter. exact Hp.
    - unfold unknown_shell. apply existsb_filter_false. exact H1.
    - unfold non_command_for_shell. apply existsb_filter_false. exact H2.
    - unfold shell_names. apply NoDup_flat_map_filter. exact Hsn.
    - intros n nsp rhs Hin Hn. apply filter_In in Hin. apply (Hcmd n nsp rhs); [tauto|].
      unfold shell_names in *. apply in_flat_map in Hn. destruct Hn as [y [Hy Hn]].
      apply filter_In in Hy. apply in_flat_map. exists y. tauto.
  Qed.

  Lemma plain_definition_filter x :
    (forall nsp sh rhs, P (NontermDef x nsp sh rhs) = true) ->
    plain_definition (filter P g) x = plain_definition g x.
  Proof.
    intro Hk. rewrite !plain_definition_assoc. apply assoc_flat_map_filter.
    intros [n sp e|n sp [[shn shsp]|] rhs] _ Hx; try (destruct Hx; fail). destruct Hx as [<-|[]]. apply Hk.
  Qed.

  Lemma shell_definition_filter sh x :
    (forall nsp s rhs, P (NontermDef x nsp s rhs) = true) ->
    shell_definition (filter P g) sh x = shell_definition g sh x.
  Proof.
    intro Hk. rewrite !shell_definition_assoc. apply assoc_flat_map_filter.
    intros [n sp e|n sp [[shn shsp]|] rhs] _ Hx; try (destruct Hx; fail).
    destruct (is_shell shn sh); [|destruct Hx]. destruct Hx as [<-|[]]. apply Hk.
  Qed.
End Filtered.

Lemma referred_def g n nsp sh rhs c :
  In (NontermDef n nsp sh rhs) g -> In c (all_refs rhs) -> In c (referred g).
Proof.
  intros Hin Hc. unfold referred. apply in_flat_map. eexists. split; [exact Hin|exact Hc].
Qed.

Theorem remove_unused_harmless builtins g sh v :
  from_grammar builtins g sh = Ok v ->
  exists v', from_grammar builtins (remove_unused g) sh = Ok v'
             /\ v_command v' = v_command v /\ v_expr v' = v_expr v.
Proof.
  intro H. pose proof (from_grammar_front_ok _ _ _ _ H) as Hf.
  set (P := fun s => match s with
                     | NontermDef n _ _ _ => mem_str n (referred g)
                     | CallVariant _ _ _ => true
                     end).
  assert (Pcv : forall n sp e, P (CallVariant n sp e) = true) by reflexivity.
  assert (Hkeep : forall x, In x (referred g) -> forall nsp s rhs, P (NontermDef x nsp s rhs) = true).
  { intros x Hx nsp s rhs. cbn. apply mem_str_In. exact Hx. }
  apply (from_grammar_lookup_ext builtins sh g (remove_unused g) (fun x => In x (referred g)))
    with (v := v); auto.
  - symmetry. apply (call_variants_filter P g Pcv).
  - apply (front_ok_filter P g sh Hf).
  - intros x Hx. symmetry. apply (shell_definition_filter P g sh x (Hkeep x Hx)).
  - intros x Hx. symmetry. apply (plain_definition_filter P g x (Hkeep x Hx)).
  - intros x rhs _ Hx c Hc0. apply plain_definition_some_in in Hx. destruct Hx as [nsp Hin].
    eapply referred_def; eauto.
  - intros c Hc0. rewrite expr0_refs in Hc0. unfold referred. apply in_flat_map in Hc0.
    destruct Hc0 as [e [He Hc0]]. unfold call_exprs in He. apply in_flat_map in He.
    destruct He as [s [Hs0 He]]. destruct s; [|destruct He]. destruct He as [He|[]]. subst e.
    apply in_flat_map. eexists. split; [exact Hs0|exact Hc0].
  - intros x y Hd. unfold depends in Hd.
    destruct (plain_definition (remove_unused g) x) as [rhs|] eqn:Ex; [|discriminate].
    apply andb_true_iff in Hd. destruct Hd as [Hy _]. apply mem_str_In in Hy.
    apply plain_definition_some_in in Ex. destruct Ex as [nsp Hin]. apply filter_In in Hin.
    destruct Hin as [Hin Hp]. cbn in Hp. apply mem_str_In in Hp. split; [exact Hp|].
    eapply referred_def; eauto.
Qed.
