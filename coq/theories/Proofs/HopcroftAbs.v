(** The Hopcroft refinement loop, abstractly: a partition is a list of blocks (increasing lists of
    states), each with a flag "is in the work-list".  Splitting a block, and taking one out of the
    work-list, preserve the partition structure [APart], the pair invariant [AInv]
    (completeness), the distinguishability invariant [ADist] (safety: only inequivalent states
    are ever separated) and the refinement of acceptance [ARef]; a stable partition with [ARef]
    identifies only states with the same language ([stable_nerode]).
    Proofs/HopcroftSim.v shows that the model of [do_minimize] takes exactly these steps. *)
From CG Require Import Base.Prelude Base.Facts Model.Dfa Model.Minimize Spec.DfaEquiv Spec.MinimizeSpec
  Proofs.ListFacts Proofs.MinimizeBasics.

Definition ablock := (list N * bool)%type.
Definition astate := list ablock.
Definition blocks (A : astate) : list (list N) := map fst A.
Definition sameb (A : astate) (x y : N) : Prop := exists b, In b (blocks A) /\ In x b /\ In y b.
Definition inW (A : astate) (x : N) : Prop := exists b, In (b, true) A /\ In x b.

Record APart (U : list N) (A : astate) : Prop := mkAPart {
  ap_nonempty : forall b, In b (blocks A) -> b <> [];
  ap_sorted : forall b, In b (blocks A) -> sortedN b;
  ap_nodup : NoDup (blocks A);
  ap_overlap : forall b b' x, In b (blocks A) -> In b' (blocks A) -> In x b -> In x b' -> b = b';
  ap_cover : forall x, In x U <-> exists b, In b (blocks A) /\ In x b
}.

Definition aremove (B : list N) (A : astate) : astate := filter (fun p => negb (bm_eqb (fst p) B)) A.
Definition aflag (B : list N) (A : astate) : bool := existsb (fun p => bm_eqb (fst p) B && snd p) A.
Definition aclear (B : list N) (A : astate) : astate :=
  map (fun p => if bm_eqb (fst p) B then (fst p, false) else p) A.

Definition areplace (A : astate) (B B1 B2 : list N) (f1 f2 : bool) : astate :=
  aremove B A ++ [(B1, f1); (B2, f2)].

Definition asplit (A : astate) (X B : list N) : astate :=
  let B1 := bm_inter B X in
  let B2 := bm_diff B B1 in
  match B2 with
  | [] => A
  | _ :: _ =>
      let w := aflag B A in
      let pick := Nat.leb (List.length B1) (List.length B2) in
      areplace A B B1 B2 (w || pick) (w || negb pick)
  end.

Definition aov (A : astate) (X : list N) : list (list N) :=
  filter (fun b => negb (bm_is_disjoint b X)) (blocks A).

Definition arefine (A : astate) (X : list N) : astate :=
  fold_left (fun A B => asplit A X B) (aov A X) A.

Definition refines (A' A : astate) : Prop := forall x y, sameb A' x y -> sameb A x y.

Definition homog (A : astate) (X : list N) : Prop :=
  forall x y, sameb A x y -> (In x X <-> In y X).

Lemma sameb_sym A x y : sameb A x y -> sameb A y x.
Proof. intros [b [H [Hx Hy]]]. exists b. auto. Qed.

Lemma sameb_refl U A x : APart U A -> In x U -> sameb A x x.
Proof. intros P H. apply (ap_cover _ _ P) in H. destruct H as [b [Hb Hx]]. exists b. auto. Qed.

Lemma sameb_in_U U A x y : APart U A -> sameb A x y -> In x U /\ In y U.
Proof.
  intros P [b [Hb [Hx Hy]]]. split; apply (ap_cover _ _ P); exists b; auto.
Qed.

Lemma sameb_trans U A x y z : APart U A -> sameb A x y -> sameb A y z -> sameb A x z.
Proof.
  intros P [b [Hb [Hx Hy]]] [b' [Hb' [Hy' Hz]]].
  assert (b = b') by (eapply (ap_overlap _ _ P); eauto). subst. exists b'. auto.
Qed.

Lemma sameb_block U A b x y : APart U A -> In b (blocks A) -> In x b -> sameb A x y -> In y b.
Proof.
  intros P Hb Hx [b' [Hb' [Hx' Hy]]].
  assert (b = b') by (eapply (ap_overlap _ _ P); eauto). subst. exact Hy.
Qed.

Lemma sameb_dec A x y : {sameb A x y} + {~ sameb A x y}.
Proof.
  destruct (existsb (fun b => memN x b && memN y b) (blocks A)) eqn:E.
  - left. apply existsb_exists in E. destruct E as [b [Hb E]]. apply andb_true_iff in E.
    exists b. rewrite <- !memN_In. tauto.
  - right. intros [b [Hb [Hx Hy]]].
    assert (existsb (fun b => memN x b && memN y b) (blocks A) = true); [|congruence].
    apply existsb_exists. exists b. split; [exact Hb|]. apply andb_true_iff. rewrite !memN_In. auto.
Qed.

Lemma refines_refl A : refines A A.
Proof. intros x y H. exact H. Qed.

Lemma refines_trans A B C : refines A B -> refines B C -> refines A C.
Proof. intros H1 H2 x y H. apply H2, H1, H. Qed.

Lemma homog_refines A A' X : refines A' A -> homog A X -> homog A' X.
Proof. intros R H x y S. apply H, R, S. Qed.

Lemma in_blocks A b : In b (blocks A) <-> exists f, In (b, f) A.
Proof.
  unfold blocks. rewrite in_map_iff. split.
  - intros [[b' f] [E H]]. cbn in E. subst. exists f. exact H.
  - intros [f H]. exists (b, f). auto.
Qed.

Lemma flag_unique A b f f' : NoDup (blocks A) -> In (b, f) A -> In (b, f') A -> f = f'.
Proof.
  unfold blocks. induction A as [|[b0 f0] r IH]; cbn [map In fst]; intros ND H H'; [contradiction|].
  inversion ND as [|? ? Hn Hr]; subst.
  destruct H as [H|H], H' as [H'|H'].
  - congruence.
  - inversion H; subst. exfalso. apply Hn. apply in_map_iff. exists (b, f'). auto.
  - inversion H'; subst. exfalso. apply Hn. apply in_map_iff. exists (b, f). auto.
  - apply IH; assumption.
Qed.

Lemma aflag_true A B : aflag B A = true <-> In (B, true) A.
Proof.
  unfold aflag. rewrite existsb_exists. split.
  - intros [[b f] [H E]]. cbn in E. apply andb_true_iff in E. destruct E as [E1 E2].
    apply bm_eqb_iff in E1. subst. exact H.
  - intro H. exists (B, true). split; [exact H|]. cbn. rewrite bm_eqb_refl. reflexivity.
Qed.

Lemma inW_flag U A b x : APart U A -> In b (blocks A) -> In x b -> (inW A x <-> aflag b A = true).
Proof.
  intros P Hb Hx. rewrite aflag_true. split.
  - intros [b' [Hb' Hx']]. assert (b = b'); [|subst; exact Hb'].
    eapply (ap_overlap _ _ P); eauto. apply in_blocks. eauto.
  - intro H. exists b. auto.
Qed.

Lemma aremove_In B A p : In p (aremove B A) <-> In p A /\ fst p <> B.
Proof. unfold aremove. rewrite filter_In, negb_true_iff, bm_eqb_false. reflexivity. Qed.

Lemma blocks_aremove B A : blocks (aremove B A) = filter (fun b => negb (bm_eqb b B)) (blocks A).
Proof. unfold blocks, aremove. apply map_filter_commute. reflexivity. Qed.

Lemma blocks_areplace A B B1 B2 f1 f2 b :
  In b (blocks (areplace A B B1 B2 f1 f2)) <-> (In b (blocks A) /\ b <> B) \/ b = B1 \/ b = B2.
Proof.
  unfold areplace, blocks. rewrite map_app, in_app_iff. fold (blocks (aremove B A)).
  rewrite blocks_aremove, filter_In, negb_true_iff, bm_eqb_false. cbn [map In fst]. intuition.
Qed.

Lemma aov_In A X B : In B (aov A X) <-> In B (blocks A) /\ exists z, In z B /\ In z X.
Proof.
  unfold aov. rewrite filter_In, negb_true_iff, bm_is_disjoint_false. tauto.
Qed.

Record Halves (B B1 B2 : list N) : Prop := mkHalves {
  hv_ne1 : B1 <> [];
  hv_ne2 : B2 <> [];
  hv_sorted1 : sortedN B1;
  hv_sorted2 : sortedN B2;
  hv_union : forall x, In x B <-> In x B1 \/ In x B2;
  hv_disj : forall x, In x B1 -> In x B2 -> False
}.

Lemma halves_neq B B1 B2 : Halves B B1 B2 -> B1 <> B /\ B2 <> B /\ B1 <> B2.
Proof.
  intros [N1 N2 _ _ Hu Hd].
  destruct B1 as [|z1 r1]; [congruence|]. destruct B2 as [|z2 r2]; [congruence|].
  assert (I1 : In z1 (z1 :: r1)) by (left; reflexivity).
  assert (I2 : In z2 (z2 :: r2)) by (left; reflexivity).
  split; [|split]; intro E.
  - apply (Hd z2); [|exact I2]. rewrite E. apply Hu. right. exact I2.
  - apply (Hd z1); [exact I1|]. rewrite E. apply Hu. left. exact I1.
  - apply (Hd z1); [exact I1|]. rewrite <- E. exact I1.
Qed.

Section Replace.
  Variable U : list N.
  Variables (A : astate) (B B1 B2 : list N) (f1 f2 : bool).
  Hypothesis P : APart U A.
  Hypothesis HB : In B (blocks A).
  Hypothesis Hv : Halves B B1 B2.

  Let Hunion := hv_union _ _ _ Hv.
  Let Hdisj := hv_disj _ _ _ Hv.
  Let A' := areplace A B B1 B2 f1 f2.

  Lemma half_not_block b : In b (blocks A) -> b <> B1 /\ b <> B2.
  Proof.
    intro Hb. destruct (halves_neq _ _ _ Hv) as [N1 [N2 _]].
    assert (H : forall Bi, Bi <> [] -> Bi <> B -> (forall x, In x Bi -> In x B) -> b <> Bi).
    { intros Bi Hne HnB Hin E. subst b. destruct Bi as [|z r]; [congruence|]. apply HnB.
      apply (ap_overlap _ _ P _ _ z); auto; [left; reflexivity|]. apply Hin. left. reflexivity. }
    split; apply H; try assumption; try apply Hv; intros x Hx; apply Hunion; auto.
  Qed.

  Lemma areplace_APart : APart U A'.
  Proof.
    constructor.
    - intros b Hb. apply blocks_areplace in Hb. destruct Hb as [[Hb _]|[->| ->]]; try apply Hv.
      apply (ap_nonempty _ _ P). exact Hb.
    - intros b Hb. apply blocks_areplace in Hb. destruct Hb as [[Hb _]|[->| ->]]; try apply Hv.
      apply (ap_sorted _ _ P). exact Hb.
    - unfold A', areplace, blocks. rewrite map_app. fold (blocks (aremove B A)). rewrite blocks_aremove.
      cbn [map fst]. change [B1; B2] with ([B1] ++ [B2]). rewrite app_assoc.
      assert (Hf : forall b, In b (filter (fun b => negb (bm_eqb b B)) (blocks A)) -> b <> B1 /\ b <> B2).
      { intros b Hb. apply filter_In in Hb. apply half_not_block, Hb. }
      apply NoDup_snoc; [apply NoDup_snoc|].
      + apply NoDup_filter, (ap_nodup _ _ P).
      + intro F. exact (proj1 (Hf _ F) eq_refl).
      + rewrite in_app_iff. cbn [In]. intros [F|[F|[]]]; [exact (proj2 (Hf _ F) eq_refl)|].
        apply (halves_neq _ _ _ Hv). exact F.
    - intros b b' x Hb Hb' Hx Hx'.
      apply blocks_areplace in Hb. apply blocks_areplace in Hb'.
      assert (Hin1 : forall z, In z B1 -> In z B) by (intros z Hz; apply Hunion; auto).
      assert (Hin2 : forall z, In z B2 -> In z B) by (intros z Hz; apply Hunion; auto).
      destruct Hb as [[Hb Hn]|[->| ->]], Hb' as [[Hb' Hn']|[->| ->]]; auto.
      + eapply (ap_overlap _ _ P); eauto.
      + exfalso. apply Hn. eapply (ap_overlap _ _ P); eauto.
      + exfalso. apply Hn. eapply (ap_overlap _ _ P); eauto.
      + exfalso. apply Hn'. eapply (ap_overlap _ _ P); eauto.
      + exfalso. eapply Hdisj; eauto.
      + exfalso. apply Hn'. eapply (ap_overlap _ _ P); eauto.
      + exfalso. eapply Hdisj; eauto.
    - intro x. rewrite (ap_cover _ _ P). split.
      + intros [b [Hb Hx]]. destruct (list_eq_dec N.eq_dec b B) as [->|Hn].
        * apply Hunion in Hx. destruct Hx as [Hx|Hx].
          -- exists B1. split; [apply blocks_areplace; auto|exact Hx].
          -- exists B2. split; [apply blocks_areplace; auto|exact Hx].
        * exists b. split; [apply blocks_areplace; auto|exact Hx].
      + intros [b [Hb Hx]]. apply blocks_areplace in Hb. destruct Hb as [[Hb _]|[->| ->]].
        * exists b. auto.
        * exists B. split; [exact HB|apply Hunion; auto].
        * exists B. split; [exact HB|apply Hunion; auto].
  Qed.

  Lemma areplace_sameb x y :
    sameb A' x y <-> sameb A x y /\ (In x B -> (In x B1 <-> In y B1)).
  Proof.
    split.
    - intros [b [Hb [Hx Hy]]]. apply blocks_areplace in Hb. destruct Hb as [[Hb Hn]|[->| ->]].
      + split; [exists b; auto|]. intro HxB. exfalso. apply Hn. apply (ap_overlap _ _ P b B x); auto.
      + split; [exists B; split; [exact HB|split; apply Hunion; auto]|]. tauto.
      + split; [exists B; split; [exact HB|split; apply Hunion; auto]|].
        intros _. split; intro F; exfalso; eapply Hdisj; eauto.
    - intros [[b [Hb [Hx Hy]]] Hh]. destruct (list_eq_dec N.eq_dec b B) as [->|Hn].
      + specialize (Hh Hx). destruct (in_dec N.eq_dec x B1) as [I|I].
        * exists B1. split; [apply blocks_areplace; auto|]. split; [exact I|apply Hh; exact I].
        * exists B2. split; [apply blocks_areplace; auto|].
          apply Hunion in Hx. apply Hunion in Hy. split; [tauto|].
          destruct Hy as [Hy|Hy]; [|exact Hy]. exfalso. apply I, Hh, Hy.
      + exists b. split; [apply blocks_areplace; auto|auto].
  Qed.

  Lemma areplace_refines : refines A' A.
  Proof. intros x y H. apply areplace_sameb in H. tauto. Qed.

  Lemma areplace_In_flag b f :
    In (b, f) A' <-> (In (b, f) A /\ b <> B) \/ (b, f) = (B1, f1) \/ (b, f) = (B2, f2).
  Proof.
    unfold A', areplace. rewrite in_app_iff, aremove_In. cbn [In fst]. intuition.
  Qed.

  Lemma areplace_inW x :
    inW A' x <-> (~ In x B /\ inW A x) \/ (In x B1 /\ f1 = true) \/ (In x B2 /\ f2 = true).
  Proof.
    split.
    - intros [b [Hb Hx]]. apply areplace_In_flag in Hb. destruct Hb as [[Hb Hn]|[E|E]].
      + left. split; [|exists b; auto]. intro HxB. apply Hn. eapply (ap_overlap _ _ P); eauto.
        apply in_blocks. eauto.
      + inversion E; subst. auto.
      + inversion E; subst. auto.
    - intros [[Hn [b [Hb Hx]]]|[[Hx E]|[Hx E]]].
      + exists b. split; [|exact Hx]. apply areplace_In_flag. left. split; [exact Hb|].
        intro E. subst. contradiction.
      + exists B1. split; [|exact Hx]. apply areplace_In_flag. subst. auto.
      + exists B2. split; [|exact Hx]. apply areplace_In_flag. subst. auto.
  Qed.

  Lemma areplace_separates x y :
    sameb A x y -> ~ sameb A' x y -> (In x B1 /\ In y B2) \/ (In x B2 /\ In y B1).
  Proof.
    intros S Hn. rewrite areplace_sameb in Hn.
    destruct (in_dec N.eq_dec x B) as [Ix|Ix]; [|tauto].
    assert (Iy : In y B) by (eapply sameb_block; eauto).
    apply Hunion in Ix, Iy. pose proof (Hdisj x). pose proof (Hdisj y). tauto.
  Qed.

  Lemma areplace_separated_inW x y :
    sameb A x y -> ~ sameb A' x y -> f1 = true \/ f2 = true -> inW A' x \/ inW A' y.
  Proof.
    intros S Hn Hone. rewrite !areplace_inW. destruct (areplace_separates x y S Hn); tauto.
  Qed.

  Lemma inW_areplace x : (aflag B A = true -> f1 = true /\ f2 = true) -> inW A x -> inW A' x.
  Proof.
    intros Hboth W. apply areplace_inW. destruct (in_dec N.eq_dec x B) as [I|I]; [|left; auto].
    destruct (Hboth (proj1 (inW_flag U A B x P HB I) W)) as [-> ->]. apply Hunion in I. tauto.
  Qed.
End Replace.

Lemma asplit_cases A X B :
  sortedN B -> (exists z, In z B /\ In z X) ->
  let B1 := bm_inter B X in
  let B2 := bm_diff B B1 in
  let pick := Nat.leb (List.length B1) (List.length B2) in
  (B2 = [] /\ asplit A X B = A /\ forall z, In z B -> In z X)
  \/ (Halves B B1 B2
      /\ (forall x, In x B1 <-> In x B /\ In x X) /\ (forall x, In x B2 <-> In x B /\ ~ In x X)
      /\ asplit A X B = areplace A B B1 B2 (aflag B A || pick) (aflag B A || negb pick)).
Proof.
  intros SB [z [Hz HzX]] B1 B2 pick.
  assert (E1 : forall x, In x B1 <-> In x B /\ In x X) by (intro x; apply bm_inter_In).
  assert (E2 : forall x, In x B2 <-> In x B /\ ~ In x X).
  { intro x. unfold B2, B1. rewrite bm_diff_inter. apply bm_diff_In. }
  unfold asplit. fold B1 B2 pick. destruct B2 as [|y r] eqn:E.
  - left. split; [reflexivity|]. split; [reflexivity|]. intros x Hx.
    destruct (in_dec N.eq_dec x X) as [I|I]; [exact I|]. destruct (proj2 (E2 x) (conj Hx I)).
  - right. rewrite <- E in *. split; [|auto]. constructor.
    + intro F. assert (Iz : In z B1) by (apply E1; auto). rewrite F in Iz. exact Iz.
    + rewrite E. discriminate.
    + apply sortedN_filter, SB.
    + unfold B2. apply sortedN_filter, SB.
    + intro x. rewrite E1, E2. destruct (in_dec N.eq_dec x X); tauto.
    + intros x H H'. apply E1 in H. apply E2 in H'. tauto.
Qed.

Section Split.
  Variable U : list N.

  Lemma asplit_refines A X B :
    APart U A -> In B (blocks A) -> (exists z, In z B /\ In z X) -> refines (asplit A X B) A.
  Proof.
    intros P HB Hov.
    destruct (asplit_cases A X B (ap_sorted _ _ P _ HB) Hov) as [[_ [-> _]]|[Hv [_ [_ ->]]]].
    - apply refines_refl.
    - apply (areplace_refines U); assumption.
  Qed.

  Lemma asplit_blocks A X B b :
    APart U A -> In B (blocks A) -> (exists z, In z B /\ In z X) ->
    In b (blocks (asplit A X B)) ->
    (In b (blocks A) /\ b <> B) \/ (forall z, In z b -> In z X) \/ (forall z, In z b -> ~ In z X).
  Proof.
    intros P HB Hov.
    destruct (asplit_cases A X B (ap_sorted _ _ P _ HB) Hov) as [[_ [-> HX]]|[_ [E1 [E2 ->]]]]; intro Hb.
    - destruct (list_eq_dec N.eq_dec b B) as [->|Hn]; auto.
    - apply blocks_areplace in Hb. destruct Hb as [Hb|[->| ->]]; [auto| |].
      + right. left. intros z Hz. apply E1 in Hz. tauto.
      + right. right. intros z Hz. apply E2 in Hz. tauto.
  Qed.

  Lemma asplit_keeps A X B b :
    In b (blocks A) -> b <> B -> In b (blocks (asplit A X B)).
  Proof.
    intros Hb Hn. unfold asplit. destruct (bm_diff B (bm_inter B X)); [exact Hb|].
    apply blocks_areplace. auto.
  Qed.

  Lemma blocks_aclear G A : blocks (aclear G A) = blocks A.
  Proof.
    unfold blocks, aclear. rewrite map_map. apply map_ext. intros [b f]. cbn [fst].
    destruct (bm_eqb b G); reflexivity.
  Qed.

  Lemma sameb_aclear G A x y : sameb (aclear G A) x y <-> sameb A x y.
  Proof. unfold sameb. rewrite blocks_aclear. tauto. Qed.

  Lemma aclear_APart G A : APart U A -> APart U (aclear G A).
  Proof.
    intros [P1 P2 P3 P4 P5]. constructor; rewrite blocks_aclear; assumption.
  Qed.

  Lemma aclear_In_true G A b : In (b, true) (aclear G A) <-> In (b, true) A /\ b <> G.
  Proof.
    unfold aclear. rewrite in_map_iff. split.
    - intros [[b' f] [E H]]. cbn [fst] in E. destruct (bm_eqb b' G) eqn:EG; [discriminate|].
      inversion E; subst. split; [exact H|]. apply bm_eqb_false, EG.
    - intros [H Hn]. exists (b, true). split; [|exact H]. cbn [fst].
      rewrite (proj2 (bm_eqb_false b G) Hn). reflexivity.
  Qed.

  Lemma inW_aclear G A x :
    APart U A -> In G (blocks A) -> (inW (aclear G A) x <-> inW A x /\ ~ In x G).
  Proof.
    intros P HG. split.
    - intros [b [Hb Hx]]. apply aclear_In_true in Hb. destruct Hb as [Hb Hn]. split; [exists b; auto|].
      intro F. apply Hn. apply (ap_overlap _ _ P b G x); auto. apply in_blocks. eauto.
    - intros [[b [Hb Hx]] Hn]. exists b. split; [|exact Hx]. apply aclear_In_true. split; [exact Hb|].
      intro E. subst. contradiction.
  Qed.

  Lemma inW_aclear_or G A u v :
    APart U A -> In G (blocks A) -> ~ sameb A u v -> inW A u \/ inW A v ->
    inW (aclear G A) u \/ inW (aclear G A) v \/ (In u G /\ ~ In v G) \/ (~ In u G /\ In v G).
  Proof.
    intros P HG Hn W. rewrite !(inW_aclear G A _ P HG).
    assert (In u G -> In v G -> False) by (intros; apply Hn; exists G; auto).
    destruct (in_dec N.eq_dec u G), (in_dec N.eq_dec v G); tauto.
  Qed.
End Split.

Section Sem.
  Variable dl : N -> N -> N.
  Variable isacc : N -> bool.
  Variable letters : list N.
  Variable U : list N.

  Definition af (x : N) (w : list N) : bool := isacc (fold_left dl w x).
  Definition dist (x y : N) : Prop := exists w, af x w <> af y w.

  Lemma dist_sym x y : dist x y -> dist y x.
  Proof. intros [w H]. exists w. congruence. Qed.

  Lemma dist_step x y a : dist (dl x a) (dl y a) -> dist x y.
  Proof. intros [w H]. exists (a :: w). exact H. Qed.

  Definition xorP (P Q : Prop) : Prop := (P /\ ~ Q) \/ (~ P /\ Q).

  (** whenever two states of one block go, on a letter, to two different blocks, one of the two
      target blocks is in the work-list, or the pending splitter [S] tells the targets apart *)
  Definition AInv (A : astate) (S : list N) (pend : bool) : Prop :=
    forall a x y, In a letters -> sameb A x y -> ~ sameb A (dl x a) (dl y a) ->
      inW A (dl x a) \/ inW A (dl y a)
      \/ (pend = true /\ xorP (In (dl x a) S) (In (dl y a) S)).

  Definition ADist (A : astate) : Prop :=
    forall x y, In x U -> In y U -> ~ sameb A x y -> dist x y.

  (** blocks do not mix accepting and non-accepting states, and the dead state is alone *)
  Definition ARef (A : astate) : Prop :=
    forall x y, sameb A x y -> isacc x = isacc y /\ (x = 0 -> y = 0).

  Lemma ARef_refines A A' : refines A' A -> ARef A -> ARef A'.
  Proof. intros R H x y S. apply H, R, S. Qed.

  (** the work-list rule: both halves if the block was in the work-list, else at least one *)
  Lemma areplace_AInv A B B1 B2 f1 f2 S p :
    APart U A -> In B (blocks A) -> Halves B B1 B2 ->
    (aflag B A = true -> f1 = true /\ f2 = true) -> f1 = true \/ f2 = true ->
    AInv A S p -> AInv (areplace A B B1 B2 f1 f2) S p.
  Proof.
    intros P HB Hv Hboth Hone I a x y Ha Hxy Hn.
    apply (areplace_refines U A B B1 B2 f1 f2 P HB Hv) in Hxy.
    destruct (sameb_dec A (dl x a) (dl y a)) as [Suv|Nuv].
    - (* the targets were together and have just been separated: they lie in the two halves,
         and one of the halves is in the work-list *)
      destruct (areplace_separated_inW U A B B1 B2 f1 f2 P HB Hv _ _ Suv Hn Hone); auto.
    - destruct (I a x y Ha Hxy Nuv) as [W|[W|Pd]].
      + left. apply (inW_areplace U); assumption.
      + right. left. apply (inW_areplace U); assumption.
      + right. right. exact Pd.
  Qed.

  Lemma areplace_ADist A B B1 B2 f1 f2 :
    APart U A -> In B (blocks A) -> Halves B B1 B2 ->
    (forall x y, In x B1 -> In y B2 -> dist x y) -> ADist A -> ADist (areplace A B B1 B2 f1 f2).
  Proof.
    intros P HB Hv Hsep D x y Ux Uy Hn.
    destruct (sameb_dec A x y) as [Sxy|Nxy]; [|apply D; assumption].
    destruct (areplace_separates U A B B1 B2 f1 f2 P HB Hv x y Sxy Hn) as [[Hx Hy]|[Hx Hy]].
    - apply Hsep; assumption.
    - apply dist_sym, Hsep; assumption.
  Qed.

  Definition SplitPres (X : list N) (Q : astate -> Prop) : Prop :=
    forall A B, APart U A -> In B (blocks A) -> (exists z, In z B /\ In z X) -> Q A -> Q (asplit A X B).

  (** whatever [areplace] preserves under the hypotheses of the work-list rule, [asplit]
      preserves *)
  Lemma asplit_pres (X : list N) (Q : astate -> Prop) :
    (forall A B B1 B2 f1 f2,
        APart U A -> In B (blocks A) -> Halves B B1 B2 ->
        (forall x, In x B1 <-> In x B /\ In x X) -> (forall x, In x B2 <-> In x B /\ ~ In x X) ->
        (aflag B A = true -> f1 = true /\ f2 = true) -> (f1 = true \/ f2 = true) ->
        Q A -> Q (areplace A B B1 B2 f1 f2)) ->
    SplitPres X Q.
  Proof.
    intros H A B P HB Hov HQ.
    destruct (asplit_cases A X B (ap_sorted _ _ P _ HB) Hov) as [[_ [-> _]]|[Hv [E1 [E2 ->]]]]; [exact HQ|].
    apply H; auto.
    - intro W. rewrite W. auto.
    - destruct (aflag B A); [auto|]. destruct (Nat.leb _ _); auto.
  Qed.

  Lemma asplit_APart X : SplitPres X (APart U).
  Proof. apply asplit_pres. intros. apply areplace_APart; assumption. Qed.

  Lemma asplit_AInv X S p : SplitPres X (fun A => AInv A S p).
  Proof. apply asplit_pres. intros. apply areplace_AInv; assumption. Qed.

  Lemma asplit_ARef X : SplitPres X ARef.
  Proof.
    apply asplit_pres. intros. eapply ARef_refines; [|eassumption].
    apply (areplace_refines U); assumption.
  Qed.

  Definition SepX (X : list N) : Prop :=
    forall x y, In x U -> In y U -> x <> 0 -> y <> 0 -> In x X -> ~ In y X -> dist x y.

  Lemma asplit_ADist X : SepX X -> SplitPres X (fun A => ARef A /\ ADist A).
  Proof.
    intro Sep. apply asplit_pres. intros A B B1 B2 f1 f2 P HB Hv E1 E2 Fb Fo [R D].
    split.
    - eapply ARef_refines; [|eassumption]. apply (areplace_refines U); assumption.
    - apply areplace_ADist; try assumption.
      intros x y Hx Hy. apply E1 in Hx. apply E2 in Hy. destruct Hx as [HxB HxX], Hy as [HyB HyX].
      assert (Sxy : sameb A x y) by (exists B; auto).
      destruct (sameb_in_U U A x y P Sxy) as [Ux Uy].
      apply Sep; auto.
      + intro Z. destruct (R x y Sxy) as [_ Rz]. specialize (Rz Z). subst. contradiction.
      + intro Z. destruct (R y x (sameb_sym _ _ _ Sxy)) as [_ Rz]. specialize (Rz Z). subst. contradiction.
  Qed.

  Lemma SplitPres_and X (Q1 Q2 : astate -> Prop) :
    SplitPres X Q1 -> SplitPres X Q2 -> SplitPres X (fun A => Q1 A /\ Q2 A).
  Proof. intros H1 H2 A B P HB Hov [A1 A2]. split; [apply H1|apply H2]; assumption. Qed.

  Lemma arefine_gen X (Q : astate -> Prop) :
    SplitPres X Q ->
    forall l A,
      APart U A -> NoDup l ->
      (forall B, In B l -> In B (blocks A) /\ exists z, In z B /\ In z X) ->
      Q A ->
      let A' := fold_left (fun A B => asplit A X B) l A in
      APart U A' /\ Q A' /\ refines A' A
      /\ (forall b, In b (blocks A') ->
            (In b (blocks A) /\ ~ In b l) \/ (forall z, In z b -> In z X) \/ (forall z, In z b -> ~ In z X)).
  Proof.
    intros HQ l. induction l as [|B r IH]; intros A P ND Hl Q0; cbn [fold_left].
    - split; [exact P|]. split; [exact Q0|]. split; [apply refines_refl|]. intros b Hb. left. auto.
    - inversion ND as [|? ? Hn Hr]; subst.
      destruct (Hl B (or_introl eq_refl)) as [HB Hov].
      assert (P1 : APart U (asplit A X B)) by (apply asplit_APart; assumption).
      assert (Q1 : Q (asplit A X B)) by (apply HQ; assumption).
      assert (Hl1 : forall B', In B' r -> In B' (blocks (asplit A X B)) /\ exists z, In z B' /\ In z X).
      { intros B' HB'. destruct (Hl B' (or_intror HB')) as [I1 I2]. split; [|exact I2].
        apply asplit_keeps; [exact I1|]. intro E. subst. contradiction. }
      destruct (IH _ P1 Hr Hl1 Q1) as [P' [Q' [R' Hb']]].
      split; [exact P'|]. split; [exact Q'|]. split.
      + eapply refines_trans; [exact R'|]. apply (asplit_refines U); assumption.
      + intros b Hb. destruct (Hb' b Hb) as [[I1 I2]|I]; [|auto].
        destruct (asplit_blocks U A X B b P HB Hov I1) as [[J1 J2]|J]; [|auto].
        left. split; [exact J1|]. intros [F|F]; [congruence|contradiction].
  Qed.

  Lemma pop_AInv A G S :
    APart U A -> In G (blocks A) -> AInv A S false -> AInv (aclear G A) G true.
  Proof.
    intros P HG I a x y Ha Hxy Hn.
    rewrite sameb_aclear in Hxy. rewrite sameb_aclear in Hn.
    assert (W : inW A (dl x a) \/ inW A (dl y a)).
    { destruct (I a x y Ha Hxy Hn) as [W|[W|[F _]]]; [auto|auto|discriminate]. }
    destruct (inW_aclear_or U G A _ _ P HG Hn W) as [W'|[W'|X]]; auto.
  Qed.

  Lemma AInv_drop A G :
    AInv A G true ->
    (forall a x y, In a letters -> sameb A x y -> (In (dl x a) G <-> In (dl y a) G)) ->
    AInv A G false.
  Proof.
    intros I H a x y Ha Hxy Hn. destruct (I a x y Ha Hxy Hn) as [W|[W|[_ X]]]; auto.
    exfalso. specialize (H a x y Ha Hxy). destruct X as [[X1 X2]|[X1 X2]]; [apply X2, H, X1|apply X1, H, X2].
  Qed.

  Lemma SepX_of_block A G :
    APart U A -> ADist A -> In G (blocks A) ->
    forall u v, In u U -> In v U -> In u G -> ~ In v G -> dist u v.
  Proof.
    intros P D HG u v Uu Uv Iu Iv. apply D; auto. intro S. apply Iv. eapply sameb_block; eauto.
  Qed.

  Lemma done_stable A S :
    APart U A -> AInv A S false -> (forall b, ~ In (b, true) A) ->
    forall a x y, In a letters -> sameb A x y -> sameb A (dl x a) (dl y a).
  Proof.
    intros P I NW a x y Ha Hxy.
    destruct (sameb_dec A (dl x a) (dl y a)) as [E|Nn]; [exact E|].
    destruct (I a x y Ha Hxy Nn) as [[b [F _]]|[[b [F _]]|[F _]]]; [| |discriminate]; exfalso; eapply NW; eauto.
  Qed.

  Hypothesis dl_nonletter : forall x a, ~ In a letters -> dl x a = 0.

  Lemma stable_nerode A :
    APart U A -> ARef A ->
    (forall a x y, In a letters -> sameb A x y -> sameb A (dl x a) (dl y a)) ->
    forall w x y, sameb A x y -> af x w = af y w.
  Proof.
    intros P R St. induction w as [|a w IH]; intros x y Hxy.
    - unfold af. cbn [fold_left]. apply R. exact Hxy.
    - change (af (dl x a) w = af (dl y a) w).
      destruct (in_dec N.eq_dec a letters) as [Ha|Ha].
      + apply IH. apply St; assumption.
      + rewrite !(dl_nonletter _ _ Ha). reflexivity.
  Qed.
End Sem.
