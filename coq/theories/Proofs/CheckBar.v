(** Replacing every [||] by [|] in the *source* grammar commutes with the passes of the model of
    check.rs ([Model.Check]) up to what matching cannot see: || levels, descriptions, and the
    [Fallback]/[Alternative] distinction itself.

    [norm] forgets exactly that (levels := 0, descriptions := none, [Fallback] := [Alternative]).
    Every pass of [Check.from_grammar] that rewrites trees -- [distribute_descriptions],
    [specialize], [resolve] (+ [resolve_in_order]), [collapse], [propagate] -- commutes with
    [norm]; [bar_of_barbar] is invisible to [norm]; and [Spec.Meaning.tr] of a normalised tree is
    the erased translation of the tree ([tr_norm]).  Hence the validated tree computed for the
    [|] grammar and the one computed for the [||] grammar are matched by the same command lines
    ([expand_bar_matched]). *)
From CG Require Import Base.Prelude Base.Facts Proofs.ListFacts Model.Ast Model.Check Spec.Rx Spec.Meaning
     Proofs.RxFacts Proofs.MeaningFacts Proofs.MeaningLevels Proofs.CheckLemmas.

Fixpoint norm (e : expr) : expr :=
  match e with
  | Terminal t _ _ sp => Terminal t None 0 sp
  | NontermRef n _ sp => NontermRef n 0 sp
  | Command c z _ sp => Command c z 0 sp
  | Sequence cs sp => Sequence (map norm cs) sp
  | Alternative cs sp => Alternative (map norm cs) sp
  | Fallback cs sp => Alternative (map norm cs) sp
  | Optional c sp => Optional (norm c) sp
  | Many1 c sp => Many1 (norm c) sp
  | DistDescr c d sp => DistDescr (norm c) d sp
  | Subword c _ sp => Subword (norm c) 0 sp
  end.

(** Removal of the [DistributiveDescription] nodes. *)
Fixpoint undd (e : expr) : expr :=
  match e with
  | Terminal _ _ _ _ | NontermRef _ _ _ | Command _ _ _ _ => e
  | Sequence cs sp => Sequence (map undd cs) sp
  | Alternative cs sp => Alternative (map undd cs) sp
  | Fallback cs sp => Fallback (map undd cs) sp
  | Optional c sp => Optional (undd c) sp
  | Many1 c sp => Many1 (undd c) sp
  | DistDescr c _ _ => undd c
  | Subword c l sp => Subword (undd c) l sp
  end.

Lemma norm_bar e : norm (bar_of_barbar e) = norm e.
Proof.
  induction e using expr_ind'; cbn [bar_of_barbar norm]; try reflexivity;
    try (rewrite map_map; f_equal; apply map_ext_Forall; assumption);
    try (rewrite IHe; reflexivity).
Qed.

Lemma distribute_list_norm cs :
  Forall (fun e => forall d, norm (fst (distribute e d)) = undd (norm e)) cs ->
  forall d, map norm (fst (distribute_list cs d)) = map (fun c => undd (norm c)) cs.
Proof.
  induction 1 as [| c r Hc Hr IH]; intro d; [reflexivity |].
  cbn [distribute_list]. specialize (Hc d). destruct (distribute c d) as [c' d1].
  specialize (IH d1). destruct (distribute_list r d1) as [r' d2].
  cbn [fst map] in *. rewrite Hc, IH. reflexivity.
Qed.

Lemma norm_distribute e : forall d, norm (fst (distribute e d)) = undd (norm e).
Proof.
  induction e using expr_ind'; intro d0.
  - cbn [distribute]. destruct d as [x |]; [reflexivity |]. destruct d0; reflexivity.
  - reflexivity.
  - reflexivity.
  - rewrite distribute_seq.
    pose proof (distribute_list_norm cs H d0) as E. destruct (distribute_list cs d0) as [cs' d'].
    cbn [fst norm undd] in *. rewrite E, map_map. reflexivity.
  - cbn [distribute fst norm undd]. rewrite !map_map. f_equal. apply map_ext_Forall.
    eapply Forall_impl; [| eassumption]. cbn. intros a Ha. apply Ha.
  - cbn [distribute]. specialize (IHe d0). destruct (distribute e d0) as [c' d'].
    cbn [fst norm undd] in *. rewrite IHe. reflexivity.
  - cbn [distribute]. specialize (IHe d0). destruct (distribute e d0) as [c' d'].
    cbn [fst norm undd] in *. rewrite IHe. reflexivity.
  - cbn [distribute fst norm undd]. apply IHe.
  - rewrite distribute_fb.
    pose proof (distribute_list_norm cs H d0) as E. destruct (distribute_list cs d0) as [cs' d'].
    cbn [fst norm undd] in *. rewrite E, map_map. reflexivity.
  - cbn [distribute]. specialize (IHe d0). destruct (distribute e d0) as [c' d'].
    cbn [fst norm undd] in *. rewrite IHe. reflexivity.
Qed.

Corollary norm_distribute_descriptions e : norm (distribute_descriptions e) = undd (norm e).
Proof. apply norm_distribute. Qed.

Section Spec.
  Variable target : shell.
  Variable user_specs : list (string * user_spec).
  Variable builtins : list (string * string).
  Variable fallbacks : list (string * (string * span)).
  Variable plain : list string.

  Notation spec := (specialize target user_specs builtins fallbacks plain).

  Lemma norm_specialize_ref n l sp :
    norm (specialize_ref target user_specs builtins fallbacks plain n l sp)
    = specialize_ref target user_specs builtins fallbacks plain n 0 sp.
  Proof.
    unfold specialize_ref.
    destruct (assoc n user_specs); [reflexivity |].
    destruct (assoc n fallbacks) as [[c s] |]; [reflexivity |].
    destruct (mem_str n plain); [reflexivity |].
    destruct (assoc n builtins); reflexivity.
  Qed.

  Lemma norm_specialize e : norm (spec e) = spec (norm e).
  Proof.
    induction e using expr_ind'; cbn [specialize norm]; try reflexivity;
      try (rewrite !map_map; f_equal; apply map_ext_Forall; assumption);
      try (rewrite IHe; reflexivity).
    apply norm_specialize_ref.
  Qed.
End Spec.

Definition norm_defs (defs : list (string * expr)) : list (string * expr) :=
  map (fun p => (fst p, norm (snd p))) defs.

Lemma assoc_norm_defs n defs :
  assoc n (norm_defs defs) = option_map norm (assoc n defs).
Proof. apply assoc_map_snd. Qed.

Lemma norm_resolve defs e : norm (resolve defs e) = resolve (norm_defs defs) (norm e).
Proof.
  induction e using expr_ind'; cbn [resolve norm]; try reflexivity;
    try (rewrite !map_map; f_equal; apply map_ext_Forall; assumption);
    try (rewrite IHe; reflexivity).
  rewrite assoc_norm_defs. destruct (assoc n defs); reflexivity.
Qed.

Lemma norm_update_def n rhs defs :
  norm_defs (update_def n rhs defs) = update_def n (norm rhs) (norm_defs defs).
Proof.
  unfold update_def, norm_defs. rewrite !map_map. apply map_ext. intros [k v]. cbn [fst snd].
  destruct (String.eqb k n); reflexivity.
Qed.

Lemma norm_resolve_in_order ord : forall defs,
    norm_defs (resolve_in_order ord defs) = resolve_in_order ord (norm_defs defs).
Proof.
  induction ord as [| n r IH]; intro defs; [reflexivity |].
  cbn [resolve_in_order]. rewrite assoc_norm_defs. destruct (assoc n defs) as [rhs |]; cbn [option_map].
  - rewrite IH, norm_update_def, norm_resolve. reflexivity.
  - apply IH.
Qed.

Lemma norm_flatten e : norm (flatten e) = flatten (norm e).
Proof.
  induction e using expr_ind'; cbn [flatten norm]; try reflexivity;
    try (rewrite !map_map; f_equal; apply map_ext_Forall; assumption);
    try (rewrite IHe; reflexivity).
Qed.

Lemma norm_collapse e : norm (collapse e) = collapse (norm e).
Proof.
  induction e using expr_ind'; cbn [collapse norm]; try reflexivity;
    try (rewrite !map_map; f_equal; apply map_ext_Forall; assumption);
    try (rewrite IHe; reflexivity).
  rewrite norm_flatten. reflexivity.
Qed.

Lemma norm_propagate e : forall l, norm (propagate e l) = norm e.
Proof.
  induction e using expr_ind'; intro l0; try reflexivity;
    try (cbn [propagate norm]; rewrite IHe; reflexivity);
    try (cbn [propagate norm]; rewrite map_map; f_equal; apply map_ext_Forall;
         eapply Forall_impl; [| eassumption]; cbn; intros a Ha; apply Ha).
  rewrite propagate_fb. cbn [norm]. f_equal. generalize 0 as i.
  induction H as [| c r Hc Hr IH]; intro i; [reflexivity |].
  cbn [propagate_list map]. rewrite Hc, IH. reflexivity.
Qed.

Lemma tr_norm e : tr (norm e) = erase (tr e) /\ trw (norm e) = erase_ww (trw e).
Proof.
  induction e using expr_ind'; cbn [norm].
  - split; reflexivity.
  - split; reflexivity.
  - split; reflexivity.
  - rewrite !tr_seq, !trw_seq, erase_fold_cat, erase_ww_fold_cat, !map_map. split; f_equal; apply map_ext_Forall;
      (eapply Forall_impl; [| eassumption]); cbn; intros a [H1 H2]; assumption.
  - rewrite !tr_alt, !trw_alt, erase_fold_alt, erase_ww_fold_alt, !map_map. split; f_equal; apply map_ext_Forall;
      (eapply Forall_impl; [| eassumption]); cbn; intros a [H1 H2]; assumption.
  - destruct IHe as [H1 H2]. cbn [tr trw erase erase_ww rmap]. rewrite H1, H2. split; reflexivity.
  - destruct IHe as [H1 H2]. cbn [tr trw erase erase_ww rmap]. rewrite H1, H2. split; reflexivity.
  - destruct IHe as [H1 H2]. cbn [tr trw]. split; assumption.
  - rewrite tr_alt, trw_alt, tr_fb, trw_fb, erase_fold_alt, erase_ww_fold_alt, !map_map. split; f_equal; apply map_ext_Forall;
      (eapply Forall_impl; [| eassumption]); cbn; intros a [H1 H2]; assumption.
  - destruct IHe as [H1 H2]. cbn [tr trw erase rmap erase_l]. rewrite H2. split; reflexivity.
Qed.

Theorem matched_norm en e ws : matched en (norm e) ws = matched en e ws.
Proof.
  rewrite !matched_as_rx. destruct (tr_norm e) as [H _]. rewrite H. apply matched_rx_erase.
Qed.

Corollary matched_of_norm_eq en e e' ws : norm e = norm e' -> matched en e ws = matched en e' ws.
Proof. intro H. rewrite <- (matched_norm en e), <- (matched_norm en e'), H. reflexivity. Qed.

(** The tree-rewriting part of [Check.from_grammar], as one function of the call-variant
    expression [e], the plain definitions [defs] and the resolution order [ord]. *)
Section Expand.
  Variable target : shell.
  Variable user_specs : list (string * user_spec).
  Variable builtins : list (string * string).
  Variable fallbacks : list (string * (string * span)).
  Variable plain : list string.

  Notation spec := (specialize target user_specs builtins fallbacks plain).

  Definition prepared_defs (defs : list (string * expr)) : list (string * expr) :=
    map (fun p => (fst p, spec (distribute_descriptions (snd p)))) defs.

  Definition expand (defs : list (string * expr)) (ord : list string) (e : expr) : expr :=
    let table := resolve_in_order ord (prepared_defs defs) in
    propagate (collapse (resolve table (spec (distribute_descriptions e)))) 0.

  Definition bar_defs (defs : list (string * expr)) : list (string * expr) :=
    map (fun p => (fst p, bar_of_barbar (snd p))) defs.

  Lemma norm_prepared_bar defs :
    norm_defs (prepared_defs (bar_defs defs)) = norm_defs (prepared_defs defs).
  Proof.
    unfold norm_defs, prepared_defs, bar_defs. rewrite !map_map. apply map_ext. intros [n rhs].
    cbn [fst snd]. f_equal.
    rewrite !norm_specialize, !norm_distribute_descriptions, norm_bar. reflexivity.
  Qed.

  Lemma norm_expand defs ord e :
    norm (expand defs ord e)
    = collapse (resolve (resolve_in_order ord (norm_defs (prepared_defs defs)))
                        (spec (undd (norm e)))).
  Proof.
    unfold expand. rewrite norm_propagate, norm_collapse, norm_resolve, norm_resolve_in_order,
      norm_specialize, norm_distribute_descriptions. reflexivity.
  Qed.

  (** The validated tree of the [|] grammar and the one of the [||] grammar have the same normal form ... *)
  Theorem expand_bar defs ord e :
    norm (expand (bar_defs defs) ord (bar_of_barbar e)) = norm (expand defs ord e).
  Proof. rewrite !norm_expand, norm_prepared_bar, norm_bar. reflexivity. Qed.

  (** ... hence are matched by the same command lines. *)
  Theorem expand_bar_matched en defs ord e ws :
    matched en (expand (bar_defs defs) ord (bar_of_barbar e)) ws = matched en (expand defs ord e) ws.
  Proof. apply matched_of_norm_eq. apply expand_bar. Qed.
End Expand.

Lemma nonterm_refs_norm e : nonterm_refs (norm e) = nonterm_refs e.
Proof.
  induction e using expr_ind'; cbn [norm nonterm_refs]; try reflexivity; try assumption;
    rewrite flat_map_map; apply flat_map_ext_Forall; exact H.
Qed.

Lemma nonterm_refs_of_norm_eq e e' : norm e = norm e' -> nonterm_refs e = nonterm_refs e'.
Proof. intro H. rewrite <- (nonterm_refs_norm e), <- (nonterm_refs_norm e'), H. reflexivity. Qed.

Definition call_expr (g : grammar) : expr :=
  match map snd (call_variants g) with
  | [e] => e
  | es => Alternative es (match es with e :: _ => expr_span e | [] => mkspan 0 0 0 end)
  end.

Definition plain_of (defs0 : list defn) : list (string * expr) :=
  map (fun d => (d_name d, d_rhs d)) defs0.

Definition prepared_defns sh us bs fs (defs0 : list defn) : list defn :=
  map (fun d => mkdefn (d_name d) (d_span d)
                       (specialize sh us bs fs (map d_name defs0) (distribute_descriptions (d_rhs d)))) defs0.

Theorem from_grammar_expand builtins g sh v :
  from_grammar builtins g sh = Ok v ->
  exists defs0 us fs ord,
    collect_plain_defs (all_defs g) [] = Ok defs0
    /\ get_specializations g sh = Ok (us, fs)
    /\ resolution_order (prepared_defns sh us (builtins sh) fs defs0) = Ok ord
    /\ v_expr v = expand sh us (builtins sh) fs (map d_name defs0) (plain_of defs0) ord (call_expr g).
Proof.
  intro H. apply from_grammar_ok in H. rename H into A.
  exists (a_defs0 _ _ _ _ A), (a_us _ _ _ _ A), (a_fs _ _ _ _ A), (a_ord _ _ _ _ A).
  split; [exact (a_collect _ _ _ _ A)|]. split; [exact (a_specs _ _ _ _ A)|]. split.
  - rewrite <- (a_order _ _ _ _ A). unfold prepared_defns, a_defs2, a_spec, a_defs1, defs2_of, defs1_of, spec_of.
    rewrite !map_map. reflexivity.
  - transitivity (a_expr5 _ _ _ _ A); [exact (f_equal v_expr (a_v _ _ _ _ A))|].
    unfold expand, prepared_defs, plain_of, a_expr5, a_table, a_expr2, a_expr1, a_defs2, a_spec, a_defs1,
      table0_of, defs2_of, defs1_of, spec_of. rewrite !map_map. reflexivity.
Qed.

Definition bar_stmt (s : statement) : statement :=
  match s with
  | CallVariant n sp e => CallVariant n sp (bar_of_barbar e)
  | NontermDef n sp sh rhs => NontermDef n sp sh (bar_of_barbar rhs)
  end.

Definition bar_grammar (g : grammar) : grammar := map bar_stmt g.

Lemma expr_span_bar e : expr_span (bar_of_barbar e) = expr_span e.
Proof. destruct e; reflexivity. Qed.

Lemma call_variants_bar g :
  call_variants (bar_grammar g) = map (fun x => (fst x, bar_of_barbar (snd x))) (call_variants g).
Proof.
  induction g as [| s g IH]; [reflexivity |].
  destruct s; cbn [bar_grammar map bar_stmt call_variants flat_map app] in *; [f_equal |]; apply IH.
Qed.

Lemma all_defs_bar g :
  all_defs (bar_grammar g)
  = map (fun x => (fst x, bar_of_barbar (snd x))) (all_defs g).
Proof.
  induction g as [| s g IH]; [reflexivity |].
  destruct s; cbn [bar_grammar map bar_stmt all_defs flat_map app] in *; [| f_equal]; apply IH.
Qed.

Lemma call_expr_bar g : call_expr (bar_grammar g) = bar_of_barbar (call_expr g).
Proof.
  unfold call_expr. rewrite call_variants_bar, map_map. cbn [snd].
  rewrite <- (map_map snd bar_of_barbar).
  destruct (map snd (call_variants g)) as [| e1 [| e2 r]]; cbn [map bar_of_barbar]; try reflexivity.
  rewrite expr_span_bar. reflexivity.
Qed.

Definition bar_defn (d : defn) : defn := mkdefn (d_name d) (d_span d) (bar_of_barbar (d_rhs d)).

Lemma collect_plain_defs_bar ds : forall acc,
    collect_plain_defs (map (fun x => (fst x, bar_of_barbar (snd x))) ds) (map bar_defn acc)
    = match collect_plain_defs ds acc with
      | Ok r => Ok (map bar_defn r)
      | Err e => Err e
      | Panic s => Panic s
      | OutOfFuel => OutOfFuel
      end.
Proof.
  induction ds as [| [[[n nsp] sh] rhs] r IH]; intro acc; [reflexivity |].
  cbn [map fst snd collect_plain_defs]. destruct sh as [s |]; [apply IH |].
  rewrite find_name_map by reflexivity. destruct (find (fun d => String.eqb (d_name d) n) acc) as [dup |]; cbn [option_map].
  - reflexivity.
  - change (map bar_defn acc ++ [mkdefn n nsp (bar_of_barbar rhs)]) with (map bar_defn acc ++ map bar_defn [mkdefn n nsp rhs]).
    rewrite <- map_app. apply IH.
Qed.

Lemma get_user_specs_bar target ds : forall acc,
    get_user_specs target (map (fun x => (fst x, bar_of_barbar (snd x))) ds) acc = get_user_specs target ds acc.
Proof.
  induction ds as [| [[[n nsp] sh] rhs] r IH]; intro acc; [reflexivity |].
  cbn [map fst snd get_user_specs]. destruct sh as [[shn shsp] |]; [| apply IH].
  destruct rhs; cbn [bar_of_barbar expr_span]; try reflexivity.
  destruct (shell_of_string shn); [| reflexivity].
  destruct (shell_eqb s target); [| apply IH].
  destruct (assoc n acc); [reflexivity | apply IH].
Qed.

Lemma get_fallback_specs_bar specialized ds : forall acc,
    get_fallback_specs specialized (map (fun x => (fst x, bar_of_barbar (snd x))) ds) acc
    = get_fallback_specs specialized ds acc.
Proof.
  induction ds as [| [[[n nsp] sh] rhs] r IH]; intro acc; [reflexivity |].
  cbn [map fst snd get_fallback_specs]. destruct sh as [s |]; [apply IH |].
  destruct (mem_str n specialized); [| apply IH].
  destruct rhs; cbn [bar_of_barbar expr_span]; try reflexivity.
  destruct (assoc n acc) as [[c p] |]; [reflexivity | apply IH].
Qed.

Lemma get_specializations_bar g sh : get_specializations (bar_grammar g) sh = get_specializations g sh.
Proof.
  unfold get_specializations. rewrite all_defs_bar, get_user_specs_bar.
  destruct (get_user_specs sh (all_defs g) []); cbn [obind]; try reflexivity.
  rewrite get_fallback_specs_bar. reflexivity.
Qed.

Lemma map_pair_ext {A B C} (f : A -> B) (g : A -> C) : forall l l',
    map f l' = map f l -> map g l' = map g l -> map (fun x => (f x, g x)) l' = map (fun x => (f x, g x)) l.
Proof.
  induction l as [| a l IH]; intros [| a' l'] Hf Hg; cbn [map] in *; try discriminate.
  - reflexivity.
  - inversion Hf. inversion Hg. rewrite (IH l') by assumption. congruence.
Qed.

(** [resolution_order] only looks at names, spans and references. *)
Lemma resolution_order_ext (defs defs' : list defn) :
  map d_name defs' = map d_name defs -> map d_span defs' = map d_span defs ->
  map (fun d => get_nonterm_refs (d_rhs d)) defs' = map (fun d => get_nonterm_refs (d_rhs d)) defs ->
  resolution_order defs' = resolution_order defs.
Proof.
  intros Hn Hs Hr. unfold resolution_order.
  assert (Hlen : List.length defs' = List.length defs).
  { rewrite <- (map_length d_name defs'), Hn. apply map_length. }
  rewrite Hn, Hlen.
  set (names := map d_name defs).
  assert (Hg : map (fun d => (d_name d, filter (fun p => mem_str (fst p) names) (get_nonterm_refs (d_rhs d)))) defs'
               = map (fun d => (d_name d, filter (fun p => mem_str (fst p) names) (get_nonterm_refs (d_rhs d)))) defs).
  { apply (map_pair_ext d_name (fun d => filter (fun p => mem_str (fst p) names) (get_nonterm_refs (d_rhs d)))); [assumption |].
    rewrite <- (map_map (fun d => get_nonterm_refs (d_rhs d)) (filter (fun p => mem_str (fst p) names))).
    rewrite <- (map_map (fun d => get_nonterm_refs (d_rhs d)) (filter (fun p => mem_str (fst p) names)) defs).
    rewrite Hr. reflexivity. }
  assert (Hv : map (fun d => (d_name d, d_span d)) defs' = map (fun d => (d_name d, d_span d)) defs).
  { apply (map_pair_ext d_name d_span); assumption. }
  rewrite Hg, Hv. reflexivity.
Qed.

Lemma get_nonterm_refs_of_norm_eq e e' : norm e = norm e' -> get_nonterm_refs e = get_nonterm_refs e'.
Proof. intro H. unfold get_nonterm_refs. rewrite (nonterm_refs_of_norm_eq _ _ H). reflexivity. Qed.

(** Replacing every [||] by [|] in the source never changes which command lines the validated
    grammar (as the model of check.rs computes it) matches.  The resolution order does not depend
    on [||] vs [|] either: it is computed from the references of the prepared definitions, which
    the normal form determines ([resolution_order_ext], [nonterm_refs_norm]); so both validated
    trees are [expand] with the same order, and [expand_bar_matched] applies. *)
Theorem from_grammar_bar_matched builtins g sh v v' en ws :
  from_grammar builtins g sh = Ok v ->
  from_grammar builtins (bar_grammar g) sh = Ok v' ->
  matched en (v_expr v') ws = matched en (v_expr v) ws.
Proof.
  intros H H'.
  apply from_grammar_expand in H. destruct H as [defs0 [us [fs [ord [Ed [Es [Eo Ev]]]]]]].
  apply from_grammar_expand in H'. destruct H' as [defs0' [us' [fs' [ord' [Ed' [Es' [Eo' Ev']]]]]]].
  rewrite get_specializations_bar, Es in Es'. inversion Es'; subst us' fs'.
  rewrite all_defs_bar in Ed'. pose proof (collect_plain_defs_bar (all_defs g) []) as C.
  cbn [map] in C. rewrite Ed, Ed' in C. inversion C; subst defs0'. clear C.
  assert (Hnames : map d_name (map bar_defn defs0) = map d_name defs0).
  { rewrite map_map. reflexivity. }
  assert (Hplain : plain_of (map bar_defn defs0) = bar_defs (plain_of defs0)).
  { unfold plain_of, bar_defs. rewrite !map_map. reflexivity. }
  (* the two resolution orders coincide *)
  assert (Eord : ord' = ord).
  { assert (R : resolution_order (prepared_defns sh us (builtins sh) fs (map bar_defn defs0))
                = resolution_order (prepared_defns sh us (builtins sh) fs defs0)).
    { apply resolution_order_ext; unfold prepared_defns; rewrite Hnames, !map_map; cbn [d_name d_span d_rhs bar_defn];
        try reflexivity.
      apply map_ext. intro d. apply get_nonterm_refs_of_norm_eq.
      rewrite !norm_specialize, !norm_distribute_descriptions, norm_bar. reflexivity. }
    rewrite R, Eo in Eo'. inversion Eo'. reflexivity. }
  subst ord'. rewrite Ev, Ev', Hnames, Hplain, call_expr_bar.
  apply expand_bar_matched.
Qed.
