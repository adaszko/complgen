(** C07: what [make_string_constant] writes is read back verbatim by the target shell.

    1. a replace chain whose patterns are single characters acts characterwise, whatever the
       replacements are ([chain_charwise]) -- so the image of a string is determined by the
       images [img c] of the 256 bytes;
    2. generic induction ([body_rt]): if every byte followed by its successor (or by the end of
       the string) reads back -- [pair_ok], a decidable condition on (byte, next byte) -- then the
       whole constant reads back;
    3. per shell, [table_ok sh = true] -- a closed condition over 256 x 257 pairs -- says that
       [pair_ok] holds outside the hazard class of ShellDQ.v; it is established by one pass over
       the 256 bytes ([rows_sound]). *)
From CG Require Import Base.Prelude Base.Facts Model.Ast Model.Quote Spec.ShellDQ.
From CGgen Require Import Consts.

Fixpoint cmap (f : ascii -> string) (s : string) : string :=
  match s with
  | EmptyString => EmptyString
  | String c t => append (f c) (cmap f t)
  end.

Lemma cmap_app f a b : cmap f (append a b) = append (cmap f a) (cmap f b).
Proof. induction a; cbn; [reflexivity|]. rewrite IHa, append_assoc. reflexivity. Qed.

Lemma cmap_cmap f g s : cmap f (cmap g s) = cmap (fun c => cmap f (g c)) s.
Proof. induction s; cbn; [reflexivity|]. rewrite cmap_app, IHs. reflexivity. Qed.

Lemma cmap_ext f g s : (forall c, f c = g c) -> cmap f s = cmap g s.
Proof. intros H. induction s; cbn; [reflexivity|]. rewrite H, IHs. reflexivity. Qed.

Lemma cmap_id s : cmap (fun c => String c EmptyString) s = s.
Proof. induction s; cbn; congruence. Qed.

Definition rep1 (p : ascii) (r : string) (c : ascii) : string :=
  if Ascii.eqb p c then r else String c EmptyString.

Lemma replace_single p r s : replace_all (String p EmptyString) r s = cmap (rep1 p r) s.
Proof.
  unfold replace_all. induction s as [|c t IH]; [reflexivity|].
  cbn [replace_go is_prefix cmap String.length]. unfold rep1 at 1.
  destruct (Ascii.eqb p c).
  - rewrite IH. reflexivity.
  - rewrite IH. reflexivity.
Qed.

Definition single_patterns (chn : list (string * string)) : bool :=
  forallb (fun pr => match fst pr with String _ EmptyString => true | _ => false end) chn.

Definition img (chn : list (string * string)) (c : ascii) : string :=
  apply_chain chn (String c EmptyString).

Lemma apply_chain_cons p r chn s :
  apply_chain ((p, r) :: chn) s = apply_chain chn (replace_all p r s).
Proof. reflexivity. Qed.

Lemma chain_charwise chn :
  single_patterns chn = true -> forall s, apply_chain chn s = cmap (img chn) s.
Proof.
  induction chn as [|[p r] chn IH]; intros Hs s.
  - unfold img. cbn. symmetry. apply cmap_id.
  - cbn [single_patterns forallb fst] in Hs. apply andb_prop in Hs. destruct Hs as [Hp Hs].
    destruct p as [|a [|? ?]]; try discriminate.
    rewrite apply_chain_cons, replace_single, (IH Hs), cmap_cmap.
    apply cmap_ext. intros c. unfold img at 2.
    rewrite apply_chain_cons, replace_single, (IH Hs). cbn [cmap].
    rewrite append_nil_r. reflexivity.
Qed.

Definition imgc (sh : shell) (c : ascii) : string := img (chain sh) c.

Definition action_eqb (a b : action) : bool :=
  match a, b with
  | Emit1 x, Emit1 y | Emit2 x, Emit2 y => Ascii.eqb x y
  | Skip2, Skip2 | Close1, Close1 | Close3, Close3 | Expands, Expands | Unsupported, Unsupported => true
  | _, _ => false
  end.

Lemma action_eqb_eq a b : action_eqb a b = true -> a = b.
Proof.
  destruct a, b; cbn; intros H; try discriminate; try reflexivity;
    apply Ascii.eqb_eq in H; congruence.
Qed.

(** the first byte written after byte [c] when [o] follows it in the original string *)
Definition follower (sh : shell) (o : option ascii) : option ascii :=
  match o with Some c' => shd (imgc sh c') | None => Some c_dq end.

(** the only place where the reader looks two bytes ahead *)
Definition needs3 (sh : shell) (a : ascii) (n1 : option ascii) : bool :=
  match sh with
  | Pwsh => Ascii.eqb a (ch 226) && match n1 with Some d => Ascii.eqb d (ch 128) | None => false end
  | _ => false
  end.

Definition pair_ok (sh : shell) (c : ascii) (o : option ascii) : bool :=
  match follower sh o with
  | None => false
  | Some nx =>
      match imgc sh c with
      | String a EmptyString =>
          action_eqb (classify sh a (Some nx) None) (Emit1 c) && negb (needs3 sh a (Some nx))
      | String a (String b EmptyString) =>
          action_eqb (classify sh a (Some b) None) (Emit2 c) && negb (needs3 sh a (Some b))
      | _ => false
      end
  end.

Lemma classify_indep sh a n1 n2 n2' :
  needs3 sh a n1 = false -> classify sh a n1 n2 = classify sh a n1 n2'.
Proof.
  destruct sh; try reflexivity. cbn [needs3 classify]. unfold classify_pwsh. intros H.
  destruct (Ascii.eqb a (ch 226)); [|reflexivity]. cbn [andb] in H.
  unfold is_smart_quote_tail. destruct n1 as [d|]; [|reflexivity]. rewrite H.
  destruct n2, n2'; reflexivity.
Qed.

Lemma close_ok sh rest :
  safe sh rest = true -> classify sh c_dq (shd rest) (shd (stl rest)) = Close1.
Proof.
  destruct sh; try reflexivity. cbn [safe classify]. unfold classify_pwsh.
  change (Ascii.eqb c_dq (ch 226)) with false. change (Ascii.eqb c_dq c_dq) with true. cbn iota.
  destruct (shd rest) as [d|]; [|reflexivity]. intros H. apply negb_true_iff in H. rewrite H. reflexivity.
Qed.

Lemma shd_append_ne a b x : shd a = Some x -> shd (append a b) = Some x.
Proof. destruct a; cbn; congruence. Qed.

Lemma emit_some c s rest : emit c (Some (s, rest)) = Some (String c s, rest).
Proof. reflexivity. Qed.

(** one step of the round trip: a byte whose pair with its successor is fine, in front of any
    text [K] whose first byte is the expected follower *)
Lemma body_step_gen sh c o K t rest :
  pair_ok sh c o = true -> shd K = follower sh o ->
  read_body sh K = Some (t, rest) ->
  read_body sh (append (imgc sh c) K) = Some (String c t, rest).
Proof.
  intros Hp HK IH. unfold pair_ok in Hp.
  destruct (follower sh o) as [nx|] eqn:Hf; [|discriminate].
  destruct (imgc sh c) as [|a [|b [|? ?]]]; try discriminate;
    apply andb_prop in Hp; destruct Hp as [Ha Hn]; apply negb_true_iff in Hn;
    apply action_eqb_eq in Ha.
  + cbn [append read_body]. rewrite HK.
    rewrite (classify_indep sh a (Some nx) _ None Hn), Ha, IH. reflexivity.
  + cbn [append read_body shd stl].
    rewrite (classify_indep sh a (Some b) _ None Hn), Ha, IH. reflexivity.
Qed.

Lemma shd_body sh t rest :
  shd (append (cmap (imgc sh) t) (String c_dq rest)) = follower sh (shd t) \/ follower sh (shd t) = None.
Proof.
  destruct t as [|c' t']; [left; reflexivity|]. cbn [shd follower cmap]. rewrite append_assoc.
  destruct (imgc sh c'); [right|left]; reflexivity.
Qed.

Lemma body_step sh c t rest :
  pair_ok sh c (shd t) = true ->
  read_body sh (append (cmap (imgc sh) t) (String c_dq rest)) = Some (t, rest) ->
  read_body sh (append (cmap (imgc sh) (String c t)) (String c_dq rest)) = Some (String c t, rest).
Proof.
  intros Hp IH. cbn [cmap]. rewrite append_assoc.
  destruct (shd_body sh t rest) as [HK|HK].
  - exact (body_step_gen sh c _ _ t rest Hp HK IH).
  - unfold pair_ok in Hp. rewrite HK in Hp. discriminate.
Qed.

Lemma body_rt sh :
  (forall c o, hazard sh c o = false -> pair_ok sh c o = true) ->
  forall s rest, admissibleb sh s = true -> safe sh rest = true ->
    read_body sh (append (cmap (imgc sh) s) (String c_dq rest)) = Some (s, rest).
Proof.
  intros Hpairs s rest. induction s as [|c t IH]; intros Hadm Hsafe.
  - cbn [cmap append read_body]. rewrite (close_ok sh rest Hsafe). reflexivity.
  - cbn [admissibleb] in Hadm. apply andb_prop in Hadm. destruct Hadm as [Hh Hadm].
    apply negb_true_iff in Hh. apply body_step; [apply Hpairs; exact Hh | apply IH; assumption].
Qed.

Definition all_bytes : list ascii := map ascii_of_nat (seq 0 256).
Definition all_followers : list (option ascii) := None :: map Some all_bytes.

Lemma all_bytes_complete c : In c all_bytes.
Proof.
  unfold all_bytes. rewrite <- (ascii_nat_embedding c). apply in_map. apply in_seq.
  pose proof (nat_ascii_bounded c). lia.
Qed.

Lemma all_bytes_forall (P : ascii -> bool) : forallb P all_bytes = true -> forall c, P c = true.
Proof. intros H c. exact (proj1 (forallb_forall P all_bytes) H c (all_bytes_complete c)). Qed.

Lemma all_followers_complete o : In o all_followers.
Proof.
  destruct o as [c|]; [right; apply in_map; apply all_bytes_complete | left; reflexivity].
Qed.

Definition dq_string : string := String c_dq EmptyString.

Definition shape_ok (sh : shell) : bool :=
  single_patterns (chain sh) && String.eqb (quote_open sh) dq_string && String.eqb (quote_close sh) dq_string.

Definition pairs_table_ok (sh : shell) : bool :=
  forallb (fun c => forallb (fun o => implb (negb (hazard sh c o)) (pair_ok sh c o)) all_followers) all_bytes.

Definition table_ok (sh : shell) : bool := shape_ok sh && pairs_table_ok sh.

Lemma pairs_table_sound sh :
  pairs_table_ok sh = true -> forall c o, hazard sh c o = false -> pair_ok sh c o = true.
Proof.
  intros H c o Hh. unfold pairs_table_ok in H. rewrite forallb_forall in H.
  specialize (H c (all_bytes_complete c)). rewrite forallb_forall in H.
  specialize (H o (all_followers_complete o)). rewrite Hh in H. exact H.
Qed.

(** from the body to the whole constant, for any shell whose chain and delimiters pass [shape_ok] *)
Lemma roundtrip_from_body sh (P : string -> Prop) :
  shape_ok sh = true ->
  (forall s rest, P s -> safe sh rest = true ->
     read_body sh (append (cmap (imgc sh) s) (String c_dq rest)) = Some (s, rest)) ->
  forall s rest, P s -> safe sh rest = true ->
    read sh (append (make_string_constant sh s) rest) = Some (s, rest).
Proof.
  intros Hshape Hbody s rest Hp Hsafe.
  unfold shape_ok in Hshape. apply andb_prop in Hshape. destruct Hshape as [Hshape Hc].
  apply andb_prop in Hshape. destruct Hshape as [Hsingle Ho].
  apply String.eqb_eq in Ho. apply String.eqb_eq in Hc.
  unfold make_string_constant. rewrite Ho, Hc, (chain_charwise _ Hsingle).
  unfold dq_string. cbn [append read]. change (Ascii.eqb c_dq c_dq) with true. cbn iota.
  rewrite append_assoc. cbn [append]. apply Hbody; assumption.
Qed.

Theorem quote_roundtrip_generic sh :
  table_ok sh = true ->
  forall s rest, admissible sh s -> safe sh rest = true ->
    read sh (append (make_string_constant sh s) rest) = Some (s, rest).
Proof.
  intros Ht. apply andb_prop in Ht. destruct Ht as [Hshape Hpairs].
  apply (roundtrip_from_body sh (admissible sh) Hshape).
  exact (body_rt sh (pairs_table_sound sh Hpairs)).
Qed.

(** The sweep over 256 x 257 pairs comes down to one pass over the 256 bytes: the reader looks
    past the byte [a] it stands on only when [a] can start an escape or close the string, so a byte
    whose image starts otherwise is fine before every follower as soon as it is fine at the end of
    the string.  The other bytes (one, for PowerShell) are dealt with apart.  Evaluating
    [pairs_table_ok] itself is dear: every pair recomputes [ch 226] from a unary number. *)
Definition looks_ahead (sh : shell) (a : ascii) : bool :=
  match sh with
  | Pwsh => Ascii.eqb a "226"%char || Ascii.eqb a c_dq || Ascii.eqb a c_bt
  | _ => Ascii.eqb a c_dq || Ascii.eqb a c_bs
  end.

Lemma classify_blind sh a n1 n2 :
  looks_ahead sh a = false -> classify sh a n1 n2 = classify sh a None None /\ needs3 sh a n1 = false.
Proof.
  intros H.
  destruct sh; cbn [looks_ahead classify needs3] in *; unfold classify_bs, classify_pwsh;
    change (ch 226) with "226"%char;
    repeat (apply orb_false_elim in H; destruct H as [H ?]);
    repeat match goal with E : _ = false |- _ => rewrite E; clear E end; split; reflexivity.
Qed.

Definition blind_row (sh : shell) (c : ascii) : bool :=
  match imgc sh c with
  | String a EmptyString => negb (looks_ahead sh a)
  | String _ (String _ EmptyString) => true
  | _ => false
  end.

Lemma pair_ok_blind sh c o nx :
  blind_row sh c = true -> follower sh o = Some nx -> pair_ok sh c o = pair_ok sh c None.
Proof.
  unfold blind_row, pair_ok. intros Hb Hf. rewrite Hf. cbn [follower].
  destruct (imgc sh c) as [|a [|b [|? ?]]]; try reflexivity.
  apply negb_true_iff in Hb.
  destruct (classify_blind sh a (Some nx) None Hb) as [-> ->].
  destruct (classify_blind sh a (Some c_dq) None Hb) as [-> ->]. reflexivity.
Qed.

Definition row_ok (sh : shell) (full : ascii -> bool) (c : ascii) : bool :=
  full c || (blind_row sh c && pair_ok sh c None).

Lemma rows_sound sh full :
  (forall c o, full c = true -> hazard sh c o = false -> pair_ok sh c o = true) ->
  forallb (row_ok sh full) all_bytes = true -> pairs_table_ok sh = true.
Proof.
  intros Hfull H. pose proof (all_bytes_forall _ H) as Hrow. clear H.
  assert (Hend : forall c, pair_ok sh c None = true).
  { intros c. specialize (Hrow c). unfold row_ok in Hrow. destruct (full c) eqn:Hf.
    - apply (Hfull c None Hf). destruct sh; cbn [hazard]; rewrite ?andb_false_r; reflexivity.
    - apply andb_prop in Hrow. apply Hrow. }
  assert (Hne : forall o, follower sh o <> None).
  { intros [c'|]; [|discriminate]. specialize (Hend c'). unfold pair_ok in Hend. cbn [follower].
    destruct (imgc sh c'); discriminate. }
  apply forallb_forall. intros c _. apply forallb_forall. intros o _.
  destruct (hazard sh c o) eqn:Hz; [reflexivity|]. cbn [negb implb].
  specialize (Hrow c). unfold row_ok in Hrow. destruct (full c) eqn:Hf; [exact (Hfull c o Hf Hz)|].
  apply andb_prop in Hrow. destruct Hrow as [Hb _]. specialize (Hne o).
  destruct (follower sh o) as [nx|] eqn:Hfo; [|congruence].
  rewrite (pair_ok_blind sh c o nx Hb Hfo). apply Hend.
Qed.

(** PowerShell's one byte that is not blind: E2 stands for itself unless 80 follows (the hazard), and
    what is written for a byte starts with 80 only if the byte is 80 *)
Definition head80_ok (c : ascii) : bool :=
  match shd (imgc Pwsh c) with
  | Some h => implb (Ascii.eqb h "128"%char) (Ascii.eqb c "128"%char)
  | None => false
  end.

Lemma pwsh_E2_row o : hazard Pwsh "226"%char o = false -> pair_ok Pwsh "226"%char o = true.
Proof.
  assert (T : forallb head80_ok all_bytes = true) by (vm_compute; reflexivity).
  intros Hz. destruct o as [c'|]; [|reflexivity].
  pose proof (all_bytes_forall head80_ok T c') as Hc. unfold head80_ok in Hc.
  unfold pair_ok. cbn [follower]. destruct (shd (imgc Pwsh c')) as [nx|]; [|discriminate Hc].
  change (imgc Pwsh "226"%char) with (String "226"%char EmptyString). cbn [classify needs3 hazard] in *.
  unfold classify_pwsh. change (ch 226) with "226"%char in *. change (ch 128) with "128"%char in *.
  rewrite Ascii.eqb_refl in *. cbn [andb is_smart_quote_tail action_eqb] in *. rewrite Ascii.eqb_refl, Hz in *.
  destruct (Ascii.eqb nx "128"%char); [discriminate Hc | reflexivity].
Qed.

Lemma pairs_ok sh : pairs_table_ok sh = true.
Proof.
  destruct sh.
  1-3: apply (rows_sound _ (fun _ => false)); [discriminate | vm_compute; reflexivity].
  apply (rows_sound Pwsh (fun c => Ascii.eqb c "226"%char)); [|vm_compute; reflexivity].
  intros c o Hc. apply Ascii.eqb_eq in Hc. subst c. apply pwsh_E2_row.
Qed.

Lemma table_ok_all sh : table_ok sh = true.
Proof. unfold table_ok. rewrite pairs_ok. destruct sh; reflexivity. Qed.

Theorem quote_roundtrip :
  forall sh s rest, admissible sh s -> safe sh rest = true ->
    read sh (append (make_string_constant sh s) rest) = Some (s, rest).
Proof. intros sh. apply quote_roundtrip_generic, table_ok_all. Qed.

(** Every string is admissible for bash (since 90236c3), fish and zsh. *)
Lemma admissible_all sh s : sh <> Pwsh -> admissible sh s.
Proof. intros H. unfold admissible. destruct sh; [| | | congruence]; induction s; cbn; auto. Qed.

Lemma read_body_unfold sh c t :
  read_body sh (String c t) =
  match classify sh c (shd t) (shd (stl t)) with
  | Emit1 x => emit x (read_body sh t)
  | Emit2 x => match t with String _ t' => emit x (read_body sh t') | EmptyString => None end
  | Skip2 => match t with String _ t' => read_body sh t' | EmptyString => None end
  | Close1 => Some (EmptyString, t)
  | Close3 => match t with String _ (String _ t'') => Some (EmptyString, t'') | _ => None end
  | Expands => None
  | Unsupported => None
  end.
Proof. reflexivity. Qed.
