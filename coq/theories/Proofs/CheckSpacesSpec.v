(** C08, spaces inside a word: a grammar in which some word of the expansion contains two
    space-separated literals ([Mistakes.subword_spaces]) is rejected with [SubwordSpaces] by the
    model of [from_grammar] (completeness of [check_subword_spaces] with respect to the
    specification).

    The specification's verdict on the fuel-bounded expansion gives an inductive judgement [top]
    that follows references through chosen plain definitions. The model's walk is presented
    without fuel ([spacesR], [endR], [adjR], with their recursive equations); that it errs is a
    judgement [errs] on expressions, sound for [spacesR] and kept when the table is substituted
    into the expression; [top] implies [errs]. *)
From CG Require Import Base.Prelude Base.Facts Model.Ast Model.Check Spec.Choice Spec.Mistakes.
From CG Require Import Proofs.CheckChoice Proofs.CheckMistakes Proofs.CheckLemmas Proofs.CheckWarnings.
From CG Require Import Proofs.CheckCycle Proofs.CheckTotal Proofs.CheckFront Proofs.CheckCycleSpec.
From CG Require Import Proofs.CheckProvenance Proofs.CheckResolve Proofs.CheckOrder.
From CG Require Import Proofs.CheckUndefined.

Lemma last_opt_cons x l :
  last_opt (x :: l) = match last_opt l with Some c => Some c | None => Some x end.
Proof. unfold last_opt. cbn [rev]. destruct (rev l); reflexivity. Qed.

Section SpecSide.
  Variable g : grammar.
  Variable sh : shell.

  (** [lit_end true e] / [lit_end false e]: [e] begins / ends with a literal *)
  Inductive lit_end (hd : bool) : expr -> Prop :=
  | le_term t d l s : lit_end hd (Terminal t d l s)
  | le_seq cs c s : pick hd cs = Some c -> lit_end hd c -> lit_end hd (Sequence cs s)
  | le_sub c l s : lit_end hd c -> lit_end hd (Subword c l s)
  | le_dd c d s : lit_end hd c -> lit_end hd (DistDescr c d s)
  | le_ref n l s rhs : plain_chosen g sh n = Some rhs -> lit_end hd rhs -> lit_end hd (NontermRef n l s).

  Inductive adj : list expr -> Prop :=
  | adj_here a b r : lit_end false a -> lit_end true b -> adj (a :: b :: r)
  | adj_next a r : adj r -> adj (a :: r).

  (** [sp e j]: inside a word, [e] contains a space-separated sequence with two adjacent
      literals ([j]: [e] is the juxtaposition at the root of the word) *)
  Inductive sp : expr -> bool -> Prop :=
  | sp_seq_child cs s j c : In c cs -> sp c false -> sp (Sequence cs s) j
  | sp_seq_adj cs s : adj cs -> sp (Sequence cs s) false
  | sp_alt cs s j c : In c cs -> sp c false -> sp (Alternative cs s) j
  | sp_fb cs s j c : In c cs -> sp c false -> sp (Fallback cs s) j
  | sp_opt c s j : sp c false -> sp (Optional c s) j
  | sp_many c s j : sp c false -> sp (Many1 c s) j
  | sp_dd c d s j : sp c false -> sp (DistDescr c d s) j
  | sp_sub c l s j : sp c true -> sp (Subword c l s) j
  | sp_ref n l s j rhs : plain_chosen g sh n = Some rhs -> sp rhs j -> sp (NontermRef n l s) j.

  (** [top e]: some word of the expansion of [e] contains such a sequence *)
  Inductive top : expr -> Prop :=
  | top_sub c l s : sp c true -> top (Subword c l s)
  | top_opt c s : top c -> top (Optional c s)
  | top_many c s : top c -> top (Many1 c s)
  | top_dd c d s : top c -> top (DistDescr c d s)
  | top_seq cs s c : In c cs -> top c -> top (Sequence cs s)
  | top_alt cs s c : In c cs -> top c -> top (Alternative cs s)
  | top_fb cs s c : In c cs -> top c -> top (Fallback cs s)
  | top_ref n l s rhs : plain_chosen g sh n = Some rhs -> top rhs -> top (NontermRef n l s).

  Lemma expand_leaf k e :
    match e with Terminal _ _ _ _ | Command _ _ _ _ => True | _ => False end ->
    expand g sh k e = e.
  Proof. destruct k; [reflexivity|]. destruct e; intro H; try destruct H; reflexivity. Qed.

  Lemma expand_ref k n l s :
    expand g sh k (NontermRef n l s) =
    match k with
    | O => NontermRef n l s
    | S k' => match plain_chosen g sh n with
              | Some rhs => expand g sh k' rhs
              | None => NontermRef n l s
              end
    end.
  Proof. destruct k; reflexivity. Qed.

  Lemma expand_seq k cs s : expand g sh k (Sequence cs s) = Sequence (map (expand g sh k) cs) s.
  Proof.
    destruct k; [|reflexivity]. change (expand g sh 0) with (fun e : expr => e).
    rewrite map_id. reflexivity.
  Qed.
  Lemma expand_alt k cs s : expand g sh k (Alternative cs s) = Alternative (map (expand g sh k) cs) s.
  Proof.
    destruct k; [|reflexivity]. change (expand g sh 0) with (fun e : expr => e).
    rewrite map_id. reflexivity.
  Qed.
  Lemma expand_fb k cs s : expand g sh k (Fallback cs s) = Fallback (map (expand g sh k) cs) s.
  Proof.
    destruct k; [|reflexivity]. change (expand g sh 0) with (fun e : expr => e).
    rewrite map_id. reflexivity.
  Qed.
  Lemma expand_opt k c s : expand g sh k (Optional c s) = Optional (expand g sh k c) s.
  Proof. destruct k; reflexivity. Qed.
  Lemma expand_many k c s : expand g sh k (Many1 c s) = Many1 (expand g sh k c) s.
  Proof. destruct k; reflexivity. Qed.
  Lemma expand_dd k c d s : expand g sh k (DistDescr c d s) = DistDescr (expand g sh k c) d s.
  Proof. destruct k; reflexivity. Qed.
  Lemma expand_sub k c l s : expand g sh k (Subword c l s) = Subword (expand g sh k c) l s.
  Proof. destruct k; reflexivity. Qed.

  Definition end_leaf (hd : bool) (e : expr) : expr := if hd then head_leaf e else tail_leaf e.

  Lemma end_leaf_eq hd e :
    end_leaf hd e =
    match e with
    | Sequence cs _ => match pick hd cs with Some c => end_leaf hd c | None => e end
    | Subword c _ _ | DistDescr c _ _ => end_leaf hd c
    | _ => e
    end.
  Proof.
    destruct hd; destruct e as [| | |cs s| | | | | |]; try reflexivity; [destruct cs; reflexivity|].
    cbn [end_leaf tail_leaf pick]. generalize (Sequence cs s) as e0.
    induction cs as [|x l IH]; intro e0; [reflexivity|].
    destruct l as [|y l']; [reflexivity|].
    rewrite last_opt_cons. specialize (IH e0). rewrite last_opt_cons in *.
    destruct (last_opt l'); exact IH.
  Qed.

  (** [IHk] is the hypothesis of an outer induction on the fuel, needed at a reference only; with
      the induction on [e] inside, this is a lexicographic induction on (fuel, expression).
      [spec_sp_gen] and [spec_top_gen] have the same shape. *)
  Lemma spec_end_gen hd k
        (IHk : forall k', k = S k' -> forall e, is_literal (end_leaf hd (expand g sh k' e)) = true -> lit_end hd e) :
    forall e, is_literal (end_leaf hd (expand g sh k e)) = true -> lit_end hd e.
  Proof.
    induction e using expr_ind'; intro Hh.
    - constructor.
    - rewrite expand_ref in Hh. destruct k as [|k']; [destruct hd; discriminate|].
      destruct (plain_chosen g sh n) as [rhs|] eqn:E; [|destruct hd; discriminate].
      eapply le_ref; [exact E|]. eapply IHk; [reflexivity|exact Hh].
    - rewrite expand_leaf in Hh by exact I. destruct hd; discriminate.
    - rewrite expand_seq, end_leaf_eq, pick_map in Hh.
      destruct (pick hd cs) as [c|] eqn:El; cbn [option_map] in Hh; [|discriminate].
      eapply le_seq; [exact El|]. apply pick_In in El. rewrite Forall_forall in H.
      apply (H c El). exact Hh.
    - rewrite expand_alt in Hh. destruct hd; discriminate.
    - rewrite expand_opt in Hh. destruct hd; discriminate.
    - rewrite expand_many in Hh. destruct hd; discriminate.
    - rewrite expand_dd, end_leaf_eq in Hh. constructor. apply IHe. exact Hh.
    - rewrite expand_fb in Hh. destruct hd; discriminate.
    - rewrite expand_sub, end_leaf_eq in Hh. constructor. apply IHe. exact Hh.
  Qed.

  Lemma spec_end hd k : forall e, is_literal (end_leaf hd (expand g sh k e)) = true -> lit_end hd e.
  Proof.
    induction k as [|k IH]; apply spec_end_gen; intros k' Hk; [discriminate|].
    inversion Hk; subst. exact IH.
  Qed.

  Lemma spec_adj k cs : adjacent_literals (map (expand g sh k) cs) = true -> adj cs.
  Proof.
    induction cs as [|a r IH]; [discriminate|]. destruct r as [|b r']; [discriminate|].
    cbn [map adjacent_literals]. intro H. apply orb_true_iff in H. destruct H as [H|H].
    - apply andb_true_iff in H. destruct H as [Ha Hb]. apply adj_here.
      + eapply (spec_end false); exact Ha.
      + eapply (spec_end true); exact Hb.
    - apply adj_next. apply IH. exact H.
  Qed.

  Lemma existsb_map_In {A} (P : expr -> bool) (h : A -> expr) l :
    existsb P (map h l) = true -> exists c, In c l /\ P (h c) = true.
  Proof.
    intro H. apply existsb_exists in H. destruct H as [x [Hx Hp]]. apply in_map_iff in Hx.
    destruct Hx as [c [Hc Hin]]. subst x. eauto.
  Qed.

  Lemma spec_sp_gen k
        (IHk : forall k', k = S k' -> forall e j, spaced (expand g sh k' e) j = true -> sp e j) :
    forall e j, spaced (expand g sh k e) j = true -> sp e j.
  Proof.
    induction e using expr_ind'; intros j Hh.
    - rewrite expand_leaf in Hh by exact I. discriminate.
    - rewrite expand_ref in Hh. destruct k as [|k']; [discriminate|].
      destruct (plain_chosen g sh n) as [rhs|] eqn:E; [|discriminate].
      eapply sp_ref; [exact E|]. eapply IHk; [reflexivity|exact Hh].
    - rewrite expand_leaf in Hh by exact I. discriminate.
    - rewrite expand_seq in Hh. cbn [spaced] in Hh. apply orb_true_iff in Hh. destruct Hh as [Hh|Hh].
      + apply existsb_map_In in Hh. destruct Hh as [c [Hc Hs]]. rewrite Forall_forall in H.
        eapply sp_seq_child; [exact Hc|]. apply (H c Hc). exact Hs.
      + apply andb_true_iff in Hh. destruct Hh as [Hj Ha]. destruct j; [discriminate|].
        apply sp_seq_adj. eapply spec_adj. exact Ha.
    - rewrite expand_alt in Hh. cbn [spaced] in Hh. apply existsb_map_In in Hh.
      destruct Hh as [c [Hc Hs]]. rewrite Forall_forall in H.
      eapply sp_alt; [exact Hc|]. apply (H c Hc). exact Hs.
    - rewrite expand_opt in Hh. apply sp_opt. apply IHe. exact Hh.
    - rewrite expand_many in Hh. apply sp_many. apply IHe. exact Hh.
    - rewrite expand_dd in Hh. apply sp_dd. apply IHe. exact Hh.
    - rewrite expand_fb in Hh. cbn [spaced] in Hh. apply existsb_map_In in Hh.
      destruct Hh as [c [Hc Hs]]. rewrite Forall_forall in H.
      eapply sp_fb; [exact Hc|]. apply (H c Hc). exact Hs.
    - rewrite expand_sub in Hh. apply sp_sub. apply IHe. exact Hh.
  Qed.

  Lemma spec_sp k : forall e j, spaced (expand g sh k e) j = true -> sp e j.
  Proof.
    induction k as [|k IH]; apply spec_sp_gen; intros k' Hk; [discriminate|].
    inversion Hk; subst. exact IH.
  Qed.

  Lemma in_words_map k (P : expr -> Prop) cs w :
    Forall (fun c => In w (words_of (expand g sh k c)) -> P c) cs ->
    In w (flat_map words_of (map (expand g sh k) cs)) -> exists c, In c cs /\ P c.
  Proof.
    intros HF H. apply in_flat_map in H. destruct H as [x [Hx Hw]]. apply in_map_iff in Hx.
    destruct Hx as [c [Hc Hin]]. subst x. rewrite Forall_forall in HF. eauto.
  Qed.

  Lemma spec_top_gen k w (Hw : spaced w true = true)
        (IHk : forall k', k = S k' -> forall e, In w (words_of (expand g sh k' e)) -> top e) :
    forall e, In w (words_of (expand g sh k e)) -> top e.
  Proof.
    induction e using expr_ind'; intro Hh.
    - rewrite expand_leaf in Hh by exact I. destruct Hh.
    - rewrite expand_ref in Hh. destruct k as [|k']; [destruct Hh|].
      destruct (plain_chosen g sh n) as [rhs|] eqn:E; [|destruct Hh].
      eapply top_ref; [exact E|]. eapply IHk; [reflexivity|exact Hh].
    - rewrite expand_leaf in Hh by exact I. destruct Hh.
    - rewrite expand_seq in Hh. cbn [words_of] in Hh.
      destruct (in_words_map k top cs w H Hh) as [c [Hc Ht]]. eapply top_seq; eauto.
    - rewrite expand_alt in Hh. cbn [words_of] in Hh.
      destruct (in_words_map k top cs w H Hh) as [c [Hc Ht]]. eapply top_alt; eauto.
    - rewrite expand_opt in Hh. apply top_opt. apply IHe. exact Hh.
    - rewrite expand_many in Hh. apply top_many. apply IHe. exact Hh.
    - rewrite expand_dd in Hh. apply top_dd. apply IHe. exact Hh.
    - rewrite expand_fb in Hh. cbn [words_of] in Hh.
      destruct (in_words_map k top cs w H Hh) as [c [Hc Ht]]. eapply top_fb; eauto.
    - rewrite expand_sub in Hh. cbn [words_of] in Hh. destruct Hh as [Hh|[]]. subst w.
      apply top_sub. eapply spec_sp. exact Hw.
  Qed.

  Lemma spec_top k w : spaced w true = true -> forall e, In w (words_of (expand g sh k e)) -> top e.
  Proof.
    intro Hw. induction k as [|k IH]; apply spec_top_gen; try exact Hw; intros k' Hk; [discriminate|].
    inversion Hk; subst. exact IH.
  Qed.

  Theorem subword_spaces_top :
    subword_spaces g sh = true -> exists e, In e (call_exprs g) /\ top e.
  Proof.
    unfold subword_spaces. intro H. apply existsb_exists in H. destruct H as [e [He H]].
    apply existsb_exists in H. destruct H as [w [Hw Hs]]. exists e. split; [exact He|].
    eapply spec_top; eauto.
  Qed.
End SpecSide.

(** every [Subword] of the source has a [Sequence] at its root, as the parser builds it; only the
    constructor is tested, not the number of factors *)
Fixpoint word_roots_ok (e : expr) : bool :=
  match e with
  | Terminal _ _ _ _ | NontermRef _ _ _ | Command _ _ _ _ => true
  | Subword c _ _ => match c with Sequence _ _ => true | _ => false end && word_roots_ok c
  | Optional c _ | Many1 c _ | DistDescr c _ _ => word_roots_ok c
  | Sequence cs _ | Alternative cs _ | Fallback cs _ => forallb word_roots_ok cs
  end.

Definition grammar_word_roots_ok (g : grammar) : bool :=
  forallb (fun st => word_roots_ok (stmt_expr st)) g.

Definition is_seq (e : expr) : Prop := match e with Sequence _ _ => True | _ => False end.

Definition is_lit (x : res expr) : Prop := exists t d l s, x = Ok (Terminal t d l s).
Definition isErr {A} (x : res A) : Prop := exists e, x = Err e.

Lemma sp_all_isErr rec cs :
  Forall (fun c => fine (rec c)) cs -> (exists c, In c cs /\ isErr (rec c)) -> isErr (sp_all rec cs).
Proof.
  induction 1 as [|x l Hx Hl IH]; intros [c [Hc He]]; [destruct Hc|]. cbn [sp_all].
  destruct (rec x) as [[]|e|s|] eqn:E; cbn [obind]; try (destruct Hx; fail).
  - apply IH. destruct Hc as [Hc|Hc]; [|eauto]. subst c. destruct He as [e He]. congruence.
  - eexists; reflexivity.
Qed.

Lemma sp_all_fine_cases rec cs :
  Forall (fun c => fine (rec c)) cs -> sp_all rec cs = Ok tt \/ isErr (sp_all rec cs).
Proof.
  intro H. pose proof (sp_all_fine rec cs H) as Hf.
  destruct (sp_all rec cs) as [[]|e|s|]; try destruct Hf; [left; reflexivity|right; eexists; reflexivity].
Qed.

Section Fuelless.
  Variable T : list (string * expr).
  Variable bound : nat.
  Hypothesis t_dd : table_dd_free T.
  Hypothesis t_closed : forall n rhs, assoc n T = Some rhs -> closed (map fst T) rhs.
  Hypothesis t_size : forall n rhs, assoc n T = Some rhs -> (expr_size rhs <= bound)%nat.

  Definition okfol (fol : option (list (string * expr))) : Prop := fol = None \/ fol = Some T.

  Definition fuelR (e : expr) : nat := (expr_size e + bound)%nat.
  Definition endR hd fol e := expr_end hd fol (fuelR e) e.
  Definition spacesR e tr w j := spaces T (fuelR e) e tr w j.

  Fixpoint adjR fol (cs : list expr) : res (option (span * span)) :=
    match cs with
    | a :: ((b :: _) as r) =>
        do ta <- endR false fol a;
        do hb <- endR true fol b;
        match ta, hb with
        | Terminal _ _ _ lsp, Terminal _ _ _ rsp => Ok (Some (lsp, rsp))
        | _, _ => adjR fol r
        end
    | _ => Ok None
    end.

  Lemma end_ok hd fol e f : okfol fol -> (f >= fuelR e)%nat -> is_okr (expr_end hd fol f e).
  Proof.
    intros [Hf|Hf] Hle; subst fol.
    - apply (expr_end_ok None O (fun _ => True)); [intros hd' n rhs f0 _ Hn; discriminate|auto|].
      unfold fuelR in Hle. lia.
    - apply (expr_end_ok (Some T) bound (fun _ => True)); [|auto|exact Hle].
      intros hd' n rhs f0 _ Hn Hf0. cbn in Hn. apply (end_ok_closed T); [eapply t_closed; eauto|].
      pose proof (t_size _ _ Hn). lia.
  Qed.

  Lemma okr_not_oof {A} (x : res A) : is_okr x -> x <> OutOfFuel.
  Proof. intros [a H]. congruence. Qed.

  Lemma end_agree hd fol f1 f2 e :
    is_okr (expr_end hd fol f1 e) -> is_okr (expr_end hd fol f2 e) ->
    expr_end hd fol f1 e = expr_end hd fol f2 e.
  Proof.
    intros H1 H2. destruct (Nat.le_ge_cases f1 f2) as [Hle|Hle].
    - symmetry. eapply expr_end_mono; [reflexivity|apply okr_not_oof; exact H1|exact Hle].
    - eapply expr_end_mono; [reflexivity|apply okr_not_oof; exact H2|exact Hle].
  Qed.

  Lemma end_stable hd fol e f : okfol fol -> (f >= fuelR e)%nat -> expr_end hd fol f e = endR hd fol e.
  Proof.
    intros Ho Hle. apply end_agree; apply end_ok; try exact Ho; [exact Hle|apply Nat.le_refl].
  Qed.

  Lemma end_stable_closed hd e f :
    closed (map fst T) e -> (f >= expr_size e)%nat -> expr_end hd (Some T) f e = endR hd (Some T) e.
  Proof.
    intros Hc Hle. apply end_agree; [apply end_ok_closed; assumption|].
    apply end_ok; [right; reflexivity|apply Nat.le_refl].
  Qed.

  Lemma endR_okr hd fol e : okfol fol -> is_okr (endR hd fol e).
  Proof. intro H. apply end_ok; [exact H|apply Nat.le_refl]. Qed.

  Lemma followed_closed fol n rhs : okfol fol -> followed fol n = Some rhs ->
    closed (map fst T) rhs /\ (expr_size rhs <= bound)%nat /\ fol = Some T.
  Proof.
    intros [H|H] Hn; subst fol; [discriminate|]. cbn in Hn.
    split; [eapply t_closed; eauto|]. split; [eapply t_size; eauto|reflexivity].
  Qed.

  Lemma endR_eqn hd fol e : okfol fol ->
    endR hd fol e =
    match e with
    | NontermRef n _ _ => match followed fol n with Some rhs => endR hd fol rhs | None => Ok e end
    | Sequence cs _ => match pick hd cs with Some c => endR hd fol c | None => Ok e end
    | Subword c _ _ => endR hd fol c
    | _ => Ok e
    end.
  Proof.
    intro Ho. unfold endR at 1. unfold fuelR.
    destruct e; cbn [expr_size Nat.add]; rewrite expr_end_S; try reflexivity.
    - destruct (followed fol name) as [rhs|] eqn:E; [|reflexivity].
      destruct (followed_closed _ _ _ Ho E) as (Hc & Hs & Hf). subst fol.
      apply end_stable_closed; [exact Hc|exact Hs].
    - destruct (pick hd children) as [c|] eqn:El; [|reflexivity]. apply end_stable; [exact Ho|].
      apply pick_In in El. pose proof (list_size_In c children El). unfold fuelR, list_size in *. lia.
  Qed.

  Lemma adj_stable fol cs f : okfol fol -> (f >= list_size cs + bound)%nat ->
    adjacent_terminals fol f cs = adjR fol cs.
  Proof.
    intros Ho. induction cs as [|a r IH]; intro Hf; [reflexivity|].
    destruct r as [|b r']; [reflexivity|]. rewrite adjacent_terminals_eq. cbn [adjR].
    assert (Hr : adjacent_terminals fol f (b :: r') = adjR fol (b :: r')).
    { apply IH. unfold list_size in *. cbn in Hf |- *. lia. }
    rewrite (end_stable false fol a f Ho), (end_stable true fol b f Ho).
    - destruct (endR false fol a) as [ta| | |]; cbn [obind]; try reflexivity.
      destruct (endR true fol b) as [hb| | |]; cbn [obind]; try reflexivity.
      destruct ta; try exact Hr. destruct hb; try exact Hr. reflexivity.
    - unfold fuelR, list_size in *. cbn in Hf. lia.
    - unfold fuelR, list_size in *. cbn in Hf. lia.
  Qed.

  Lemma spacesR_fine e tr w j : dd_free e -> fine (spacesR e tr w j).
  Proof. intro Hd. apply (spaces_fine T bound t_dd t_closed t_size); [exact Hd|apply Nat.le_refl]. Qed.

  Lemma spaces_stable e f tr w j :
    dd_free e -> (f >= fuelR e)%nat -> spaces T f e tr w j = spacesR e tr w j.
  Proof.
    intros Hd Hle. apply spaces_fine_agree; [|apply spacesR_fine; exact Hd].
    apply (spaces_fine T bound t_dd t_closed t_size); assumption.
  Qed.

  Lemma spaces_stable_closed e f tr w j :
    dd_free e -> closed (map fst T) e -> (f >= expr_size e)%nat ->
    spaces T f e tr w j = spacesR e tr w j.
  Proof.
    intros Hd Hc Hle. apply spaces_fine_agree; [|apply spacesR_fine; exact Hd].
    apply (spaces_fine_closed T); assumption.
  Qed.

  Lemma follow_of_okfol j : okfol (follow_of T j).
  Proof. destruct j; [left|right]; reflexivity. Qed.

  Lemma sp_all_stable cs f tr w :
    dd_free_list cs -> (f >= list_size cs + bound)%nat ->
    sp_all (fun c => spaces T f c tr w false) cs = sp_all (fun c => spacesR c tr w false) cs.
  Proof.
    intros Hd Hf. apply sp_all_ext. apply dd_free_list_Forall in Hd.
    rewrite Forall_forall in *. intros c Hc. apply spaces_stable; [apply Hd; exact Hc|].
    pose proof (list_size_In c cs Hc). unfold fuelR. lia.
  Qed.

  Lemma spacesR_eqn e tr w j : dd_free e ->
    spacesR e tr w j =
    match e with
    | Sequence cs _ =>
        do _ <- sp_all (fun c => spacesR c tr w false) cs;
        if w then
          do a <- adjR (follow_of T j) cs;
          match a with
          | Some (l, r) => Err (SubwordSpaces l r tr)
          | None => Ok tt
          end
        else Ok tt
    | Terminal _ _ _ _ | Command _ _ _ _ => Ok tt
    | NontermRef n _ s =>
        match assoc n T with
        | None => Ok tt
        | Some rhs => spacesR rhs (tr ++ [s]) w false
        end
    | Subword c _ _ => spacesR c tr true true
    | Alternative cs _ | Fallback cs _ => sp_all (fun c => spacesR c tr w false) cs
    | Optional c _ | Many1 c _ => spacesR c tr w false
    | DistDescr _ _ _ => Panic "check_subword_spaces: DistributiveDescription"
    end.
  Proof.
    intro Hd. unfold spacesR at 1. unfold fuelR.
    destruct e; cbn [expr_size Nat.add]; rewrite spaces_S; try reflexivity.
    - destruct (assoc name T) as [rhs|] eqn:E; [|reflexivity].
      apply spaces_stable_closed; [eapply t_dd; eauto|eapply t_closed; eauto|].
      pose proof (t_size _ _ E). lia.
    - rewrite dd_free_seq in Hd. rewrite sp_all_stable; [|exact Hd|unfold list_size; lia].
      destruct (sp_all _ children) as [[]| | |]; cbn [obind]; try reflexivity.
      destruct w; [|reflexivity]. rewrite adj_stable; [reflexivity|apply follow_of_okfol|].
      unfold list_size. lia.
    - rewrite dd_free_alt in Hd. apply sp_all_stable; [exact Hd|unfold list_size; lia].
    - rewrite dd_free_fb in Hd. apply sp_all_stable; [exact Hd|unfold list_size; lia].
  Qed.

  Lemma children_fine cs tr w :
    dd_free_list cs -> Forall (fun c => fine (spacesR c tr w false)) cs.
  Proof.
    intro Hd. apply dd_free_list_Forall in Hd. rewrite Forall_forall in *. intros c Hc.
    apply spacesR_fine. apply Hd. exact Hc.
  Qed.

  Fixpoint has_adj fol (cs : list expr) : Prop :=
    match cs with
    | a :: ((b :: _) as r) => (is_lit (endR false fol a) /\ is_lit (endR true fol b)) \/ has_adj fol r
    | _ => False
    end.

  Lemma has_adj_cons fol x l : has_adj fol l -> has_adj fol (x :: l).
  Proof. destruct l as [|y l']; [intros []|]. intro H. right. exact H. Qed.

  Lemma adjR_some fol cs : okfol fol -> has_adj fol cs -> exists p, adjR fol cs = Ok (Some p).
  Proof.
    intro Ho. induction cs as [|a r IH]; [intros []|]. destruct r as [|b r']; [intros []|].
    intro H. cbn [adjR].
    destruct (endR_okr false fol a Ho) as [ta Ha]. destruct (endR_okr true fol b Ho) as [hb Hb].
    rewrite Ha, Hb. cbn [obind].
    assert (Hrest : (~ (is_lit (endR false fol a) /\ is_lit (endR true fol b))) ->
                    exists p, adjR fol (b :: r') = Ok (Some p)).
    { intro Hn. apply IH. destruct H as [H|H]; [contradiction|exact H]. }
    destruct ta; try (apply Hrest; rewrite Ha; intros [[t [d [l [s Hx]]]] _]; discriminate).
    destruct hb; try (apply Hrest; rewrite Hb; intros [_ [t [d [l [s Hx]]]]]; discriminate).
    eexists; reflexivity.
  Qed.

  Lemma closed_seq_child cs s c : closed (map fst T) (Sequence cs s) -> In c cs -> closed (map fst T) c.
  Proof. intros H Hc x Hx. apply H. cbn. apply in_flat_map. exists c. split; assumption. Qed.

  Lemma end_closed_nofollow hd e : closed (map fst T) e -> endR hd (Some T) e = endR hd None e.
  Proof.
    induction e using expr_ind'; intro Hc;
      rewrite (endR_eqn hd (Some T)) by (right; reflexivity);
      rewrite (endR_eqn hd None) by (left; reflexivity); try reflexivity.
    - cbn [followed]. assert (Hn : assoc n T = None).
      { apply assoc_None. apply Hc. left. reflexivity. }
      rewrite Hn. reflexivity.
    - destruct (pick hd cs) as [c|] eqn:El; [|reflexivity]. apply pick_In in El.
      rewrite Forall_forall in H. apply (H c El). eapply closed_seq_child; eauto.
    - apply IHe. exact Hc.
  Qed.

  Lemma endR_closed_any hd fol fol' e :
    okfol fol -> okfol fol' -> closed (map fst T) e -> endR hd fol e = endR hd fol' e.
  Proof.
    intros [H|H] [H'|H'] Hc; subst; try reflexivity;
      [symmetry|]; apply end_closed_nofollow; exact Hc.
  Qed.

  Lemma end_subst hd fol fol' e :
    okfol fol -> okfol fol' -> is_lit (endR hd fol e) -> is_lit (endR hd fol' (resolve T e)).
  Proof.
    intros Ho Ho'. induction e using expr_ind'; intro Hl;
      rewrite (endR_eqn hd fol) in Hl by exact Ho; cbn [resolve];
      try (destruct Hl as (t' & d' & l' & s & Hl); discriminate).
    - rewrite endR_eqn by exact Ho'. exact Hl.
    - destruct (followed fol n) as [rhs|] eqn:E.
      + destruct (followed_closed _ _ _ Ho E) as (Hc & _ & Hf). subst fol. cbn in E. rewrite E.
        rewrite (endR_closed_any hd fol' (Some T)); [exact Hl|exact Ho'|right; reflexivity|exact Hc].
      + destruct Hl as (t & d & l' & s & Hl). discriminate.
    - rewrite endR_eqn by exact Ho'. rewrite pick_map.
      destruct (pick hd cs) as [c|] eqn:El; cbn [option_map];
        [|destruct Hl as (t & d & l' & s & Hl); discriminate].
      apply pick_In in El. rewrite Forall_forall in H. apply (H c El). exact Hl.
    - rewrite endR_eqn by exact Ho'. apply IHe. exact Hl.
  Qed.

  Lemma has_adj_subst fol fol' cs :
    okfol fol -> okfol fol' -> has_adj fol cs -> has_adj fol' (map (resolve T) cs).
  Proof.
    intros Ho Ho'. induction cs as [|a r IH]; [intros []|]. destruct r as [|b r']; [intros []|].
    cbn [map has_adj] in *. intros [[Ha Hb]|H].
    - left. split; apply (end_subst _ fol); assumption.
    - right. apply IH. exact H.
  Qed.

  Lemma has_adj_closed fol fol' cs :
    okfol fol -> okfol fol' -> (forall c, In c cs -> closed (map fst T) c) ->
    has_adj fol cs -> has_adj fol' cs.
  Proof.
    intros Ho Ho'. induction cs as [|a r IH]; [intros _ []|]. destruct r as [|b r']; [intros _ []|].
    intros Hc. cbn [has_adj]. intros [[Ha Hb]|H].
    - left. rewrite (endR_closed_any false fol' fol), (endR_closed_any true fol' fol); auto.
      + apply Hc. right. left. reflexivity.
      + apply Hc. left. reflexivity.
    - right. apply IH; [|exact H]. intros c Hin. apply Hc. right. exact Hin.
  Qed.

  Lemma all_isErr (mk : list expr -> span -> expr) cs s tr w j c
        (Heq : forall cs, dd_free_list cs ->
                          spacesR (mk cs s) tr w j = sp_all (fun c => spacesR c tr w false) cs) :
    dd_free_list cs -> In c cs -> isErr (spacesR c tr w false) -> isErr (spacesR (mk cs s) tr w j).
  Proof.
    intros Hd Hc He. rewrite Heq by exact Hd.
    apply sp_all_isErr; [apply children_fine; exact Hd|eauto].
  Qed.

  (** [errs e w j]: the walk of [e] ends with an error -- a judgement that mentions neither fuel nor
      trace ([w]: inside a word; [j]: [e] is the juxtaposition at the root of the word) *)
  Inductive errs : expr -> bool -> bool -> Prop :=
  | errs_seq_child cs s w j c : In c cs -> errs c w false -> errs (Sequence cs s) w j
  | errs_seq_adj cs s j : has_adj (follow_of T j) cs -> errs (Sequence cs s) true j
  | errs_alt cs s w j c : In c cs -> errs c w false -> errs (Alternative cs s) w j
  | errs_fb cs s w j c : In c cs -> errs c w false -> errs (Fallback cs s) w j
  | errs_opt c s w j : errs c w false -> errs (Optional c s) w j
  | errs_many c s w j : errs c w false -> errs (Many1 c s) w j
  | errs_sub c l s w j : errs c true true -> errs (Subword c l s) w j
  | errs_ref n l s w j rhs : assoc n T = Some rhs -> errs rhs w false -> errs (NontermRef n l s) w j.

  Lemma errs_sound : forall e w j, errs e w j -> dd_free e -> forall tr, isErr (spacesR e tr w j).
  Proof.
    assert (Hall : forall cs c w tr, dd_free_list cs -> In c cs ->
                     (dd_free c -> forall tr, isErr (spacesR c tr w false)) ->
                     isErr (sp_all (fun c => spacesR c tr w false) cs)).
    { intros cs c w tr Hd Hc IH. apply sp_all_isErr; [apply children_fine; exact Hd|].
      exists c. split; [exact Hc|]. apply IH. apply dd_free_list_Forall in Hd.
      rewrite Forall_forall in Hd. apply Hd. exact Hc. }
    induction 1 as [cs s w j c Hc _ IH|cs s j Ha|cs s w j c Hc _ IH|cs s w j c Hc _ IH|c s w j _ IH
                    |c s w j _ IH|c l s w j _ IH|n l s w j rhs Hn _ IH]; intros Hd tr;
      rewrite spacesR_eqn by exact Hd; try (apply IH; exact Hd); try (eapply Hall; eassumption).
    - destruct (Hall cs c w tr Hd Hc IH) as [e Hs]. rewrite Hs. eexists; reflexivity.
    - destruct (sp_all_fine_cases (fun c => spacesR c tr true false) cs (children_fine cs tr true Hd))
        as [Hs|[e Hs]]; rewrite Hs; cbn [obind]; [|eexists; reflexivity].
      destruct (adjR_some _ _ (follow_of_okfol j) Ha) as [[l r] Hp]. rewrite Hp. cbn [obind].
      eexists; reflexivity.
    - rewrite Hn. apply IH. eapply t_dd; eauto.
  Qed.

  Lemma errs_closed e w j j' : errs e w j -> closed (map fst T) e -> errs e w j'.
  Proof.
    intros H Hc. destruct H; try (econstructor; eassumption).
    apply errs_seq_adj. eapply has_adj_closed; [apply follow_of_okfol|apply follow_of_okfol| |eassumption].
    intros c Hin. eapply closed_seq_child; eauto.
  Qed.

  Lemma errs_resolve : forall e w j, errs e w j -> forall j', errs (resolve T e) w j'.
  Proof.
    induction 1 as [cs s w j c Hc _ IH|cs s j Ha|cs s w j c Hc _ IH|cs s w j c Hc _ IH|c s w j _ IH
                    |c s w j _ IH|c l s w j _ IH|n l s w j rhs Hn Hr _]; intro j'; cbn [resolve].
    - eapply errs_seq_child; [apply in_map; exact Hc|apply IH].
    - apply errs_seq_adj. eapply has_adj_subst; [apply follow_of_okfol|apply follow_of_okfol|exact Ha].
    - eapply errs_alt; [apply in_map; exact Hc|apply IH].
    - eapply errs_fb; [apply in_map; exact Hc|apply IH].
    - apply errs_opt, IH.
    - apply errs_many, IH.
    - apply errs_sub, IH.
    - rewrite Hn. eapply errs_closed; [exact Hr|eapply t_closed; eauto].
  Qed.

  Variable builtins : shell -> list (string * string).
  Variable g : grammar.
  Variable sh : shell.
  Variable us : list (string * user_spec).
  Variable fs : list (string * (string * span)).
  Variable plain : list string.

  Definition mt (d : option string) (e : expr) : expr :=
    specialize sh us (builtins sh) fs plain (fst (distribute e d)).
  Definition mts (d : option string) (cs : list expr) : list expr :=
    map (specialize sh us (builtins sh) fs plain) (fst (distribute_list cs d)).

  Hypothesis mt_ref : forall d n l s rhs,
      plain_chosen g sh n = Some rhs -> mt d (NontermRef n l s) = NontermRef n l s.
  Hypothesis T_eqn : forall n rhs,
      plain_chosen g sh n = Some rhs -> assoc n T = Some (resolve T (mt None rhs)).
  Hypothesis wf_chosen : forall n rhs, plain_chosen g sh n = Some rhs -> word_roots_ok rhs = true.

  Lemma mt_seq d cs s : mt d (Sequence cs s) = Sequence (mts d cs) s.
  Proof. unfold mt, mts. rewrite distribute_seq. destruct (distribute_list cs d). reflexivity. Qed.
  Lemma mt_fb d cs s : mt d (Fallback cs s) = Fallback (mts d cs) s.
  Proof. unfold mt, mts. rewrite distribute_fb. destruct (distribute_list cs d). reflexivity. Qed.
  Lemma mt_alt d cs s : mt d (Alternative cs s) = Alternative (map (mt d) cs) s.
  Proof. unfold mt. cbn [distribute fst specialize]. rewrite map_map. reflexivity. Qed.
  Lemma mt_opt d c s : mt d (Optional c s) = Optional (mt d c) s.
  Proof. unfold mt. cbn [distribute]. destruct (distribute c d). reflexivity. Qed.
  Lemma mt_many d c s : mt d (Many1 c s) = Many1 (mt d c) s.
  Proof. unfold mt. cbn [distribute]. destruct (distribute c d). reflexivity. Qed.
  Lemma mt_sub d c l s : mt d (Subword c l s) = Subword (mt d c) l s.
  Proof. unfold mt. cbn [distribute]. destruct (distribute c d). reflexivity. Qed.
  Lemma mt_dd d c ds s : mt d (DistDescr c ds s) = mt (Some ds) c.
  Proof. reflexivity. Qed.
  Lemma mt_term d t ds l s : exists d', mt d (Terminal t ds l s) = Terminal t d' l s.
  Proof. unfold mt. cbn. destruct ds; [eexists; reflexivity|]. destruct d; eexists; reflexivity. Qed.

  Lemma mts_cons d c r : mts d (c :: r) = mt d c :: mts (snd (distribute c d)) r.
  Proof.
    unfold mts, mt. cbn [distribute_list]. destruct (distribute c d) as [c' d1]. cbn [fst snd].
    destruct (distribute_list r d1). reflexivity.
  Qed.

  Lemma mts_In cs c : In c cs -> forall d, exists d', In (mt d' c) (mts d cs).
  Proof.
    induction cs as [|x r IH]; intros Hc d; [destruct Hc|]. rewrite mts_cons.
    destruct Hc as [Hc|Hc].
    - subst x. exists d. left. reflexivity.
    - destruct (IH Hc (snd (distribute x d))) as [d' Hd']. exists d'. right. exact Hd'.
  Qed.

  Lemma last_opt_mts cs c : last_opt cs = Some c -> forall d, exists d', last_opt (mts d cs) = Some (mt d' c).
  Proof.
    induction cs as [|x r IH]; intros H d; [discriminate|]. rewrite mts_cons, last_opt_cons.
    rewrite last_opt_cons in H. destruct (last_opt r) as [y|] eqn:El.
    - inversion H; subst y. destruct (IH eq_refl (snd (distribute x d))) as [d' Hd']. rewrite Hd'.
      exists d'. reflexivity.
    - inversion H; subst x. assert (Hr : r = []).
      { destruct r as [|z r']; [reflexivity|]. rewrite last_opt_cons in El.
        destruct (last_opt r'); discriminate. }
      subst r. exists d. reflexivity.
  Qed.

  Lemma pick_mts hd cs c : pick hd cs = Some c -> forall d, exists d', pick hd (mts d cs) = Some (mt d' c).
  Proof.
    destruct hd; [|apply last_opt_mts]. destruct cs as [|x r]; [discriminate|]. intros H d.
    inversion H; subst. rewrite mts_cons. exists d. reflexivity.
  Qed.

  Lemma lit_end_model hd e : lit_end g sh hd e -> forall d, is_lit (endR hd (Some T) (mt d e)).
  Proof.
    assert (Ho : okfol (Some T)) by (right; reflexivity).
    induction 1 as [t ds l s|cs c s Hl Hc IH|c l s Hc IH|c ds s Hc IH|n l s rhs Hn Hr IH]; intro d.
    - destruct (mt_term d t ds l s) as [d' Hd]. rewrite Hd, endR_eqn by exact Ho. repeat eexists.
    - rewrite mt_seq, endR_eqn by exact Ho. destruct (pick_mts hd cs c Hl d) as [d' Hd'].
      rewrite Hd'. apply IH.
    - rewrite mt_sub, endR_eqn by exact Ho. apply IH.
    - rewrite mt_dd. apply IH.
    - rewrite (mt_ref d n l s rhs Hn), endR_eqn by exact Ho. cbn [followed].
      rewrite (T_eqn n rhs Hn). apply (end_subst hd (Some T)); [exact Ho|exact Ho|apply IH].
  Qed.

  Lemma adj_model cs : adj g sh cs -> forall d, has_adj (Some T) (mts d cs).
  Proof.
    induction 1 as [a b r Ha Hb|a r Hr IH]; intro d.
    - rewrite !mts_cons. cbn [has_adj]. left. split; apply lit_end_model; assumption.
    - rewrite mts_cons. apply has_adj_cons. apply IH.
  Qed.

  Lemma word_roots_child cs c : forallb word_roots_ok cs = true -> In c cs -> word_roots_ok c = true.
  Proof. intros H Hc. rewrite forallb_forall in H. apply H. exact Hc. Qed.

  Lemma sp_model e j : sp g sh e j -> word_roots_ok e = true ->
    forall d jm, (jm = true -> j = true /\ is_seq e) -> errs (mt d e) true jm.
  Proof.
    induction 1 as [cs s j c Hc Hs IH|cs s Ha|cs s j c Hc Hs IH|cs s j c Hc Hs IH|c s j Hs IH|c s j Hs IH
                    |c ds s j Hs IH|c l s j Hs IH|n l s j rhs Hn Hs IH]; intros Hwf d jm Hj.
    - rewrite mt_seq. destruct (mts_In cs c Hc d) as [d' Hd']. eapply errs_seq_child; [exact Hd'|].
      apply IH; [eapply word_roots_child; eauto|]. intro H; discriminate.
    - rewrite mt_seq. assert (Hjm : jm = false).
      { destruct jm; [|reflexivity]. destruct (Hj eq_refl) as [H _]. discriminate. }
      subst jm. apply errs_seq_adj. cbn [follow_of]. apply adj_model. exact Ha.
    - rewrite mt_alt. eapply errs_alt; [apply in_map; exact Hc|].
      apply IH; [eapply word_roots_child; eauto|]. intro H; discriminate.
    - rewrite mt_fb. destruct (mts_In cs c Hc d) as [d' Hd']. eapply errs_fb; [exact Hd'|].
      apply IH; [eapply word_roots_child; eauto|]. intro H; discriminate.
    - rewrite mt_opt. apply errs_opt, IH; [exact Hwf|]. intro H; discriminate.
    - rewrite mt_many. apply errs_many, IH; [exact Hwf|]. intro H; discriminate.
    - rewrite mt_dd. assert (Hjm : jm = false).
      { destruct jm; [|reflexivity]. destruct (Hj eq_refl) as [_ H]. destruct H. }
      subst jm. apply IH; [exact Hwf|]. intro H; discriminate.
    - rewrite mt_sub. cbn [word_roots_ok] in Hwf. apply andb_true_iff in Hwf. destruct Hwf as [Hseq Hwf].
      apply errs_sub, IH; [exact Hwf|]. intros _. split; [reflexivity|]. destruct c; try discriminate. exact I.
    - rewrite (mt_ref d n l s rhs Hn). eapply errs_ref; [exact (T_eqn n rhs Hn)|].
      apply errs_resolve with (j := false). apply (IH (wf_chosen n rhs Hn) None false). intro H; discriminate.
  Qed.

  Lemma top_model e : top g sh e -> word_roots_ok e = true -> forall d w jm, errs (mt d e) w jm.
  Proof.
    induction 1 as [c l s Hs|c s Ht IH|c s Ht IH|c ds s Ht IH|cs s c Hc Ht IH|cs s c Hc Ht IH
                    |cs s c Hc Ht IH|n l s rhs Hn Ht IH]; intros Hwf d w jm.
    - rewrite mt_sub. cbn [word_roots_ok] in Hwf. apply andb_true_iff in Hwf. destruct Hwf as [Hseq Hwf].
      apply errs_sub. eapply sp_model; [exact Hs|exact Hwf|]. intros _. split; [reflexivity|].
      destruct c; try discriminate. exact I.
    - rewrite mt_opt. apply errs_opt, IH. exact Hwf.
    - rewrite mt_many. apply errs_many, IH. exact Hwf.
    - rewrite mt_dd. apply IH. exact Hwf.
    - rewrite mt_seq. destruct (mts_In cs c Hc d) as [d' Hd']. eapply errs_seq_child; [exact Hd'|].
      apply IH. eapply word_roots_child; eauto.
    - rewrite mt_alt. eapply errs_alt; [apply in_map; exact Hc|]. apply IH. eapply word_roots_child; eauto.
    - rewrite mt_fb. destruct (mts_In cs c Hc d) as [d' Hd']. eapply errs_fb; [exact Hd'|].
      apply IH. eapply word_roots_child; eauto.
    - rewrite (mt_ref d n l s rhs Hn). eapply errs_ref; [exact (T_eqn n rhs Hn)|].
      apply errs_resolve with (j := false). apply (IH (wf_chosen n rhs Hn) None w false).
  Qed.
End Fuelless.

Section Complete.
  Variable builtins : shell -> list (string * string).
  Variable g : grammar.
  Variable sh : shell.
  Variable defs0 : list defn.
  Variable us : list (string * user_spec).
  Variable fs : list (string * (string * span)).
  Hypothesis Hcollect : collect_plain_defs (all_defs g) [] = Ok defs0.
  Hypothesis Hspecs : get_specializations g sh = Ok (us, fs).
  Variable ord : list string.

  Let defs1 := defs1_of defs0.
  Let spec := spec_of builtins sh us fs defs1.
  Let defs2 := defs2_of spec defs1.
  Let t0 := table0_of defs2.
  Hypothesis Hord : resolution_order defs2 = Ok ord.
  Hypothesis Hwf : grammar_word_roots_ok g = true.
  Let T := resolve_in_order ord t0.
  Let bound := fold_right (fun p n => expr_size (snd p) + n)%nat O T.
  Let plain := map d_name defs1.

  Lemma cT_dd : table_dd_free T.
  Proof.
    apply resolve_in_order_dd_free. apply table0_dd_free.
  Qed.

  Lemma cT_closed n rhs : assoc n T = Some rhs -> closed (map fst T) rhs.
  Proof.
    apply (resolved_table_closed defs2 ord); [|exact Hord].
    apply table0_dd_free.
  Qed.

  Lemma cT_size n rhs : assoc n T = Some rhs -> (expr_size rhs <= bound)%nat.
  Proof. apply table_sum_bound. Qed.

  Lemma c_mt_ref d n l s rhs :
    plain_chosen g sh n = Some rhs -> mt builtins sh us fs plain d (NontermRef n l s) = NontermRef n l s.
  Proof.
    intro H. unfold mt. cbn [distribute fst specialize]. unfold plain, defs1.
    rewrite (specialize_ref_choose builtins g sh defs0 us fs Hcollect Hspecs). unfold choose_ref.
    unfold plain_chosen in H. destruct (shell_definition g sh n); [discriminate|]. rewrite H. reflexivity.
  Qed.

  Lemma c_T_eqn n rhs :
    plain_chosen g sh n = Some rhs ->
    assoc n T = Some (resolve T (mt builtins sh us fs plain None rhs)).
  Proof.
    intro H.
    destruct (T_sol builtins sh defs0 us fs ord Hord) as [B HB].
    fold defs1 spec defs2 t0 T in HB.
    rewrite (HB (S B) ltac:(lia)), assoc_sol_S. unfold t0 at 2, defs2, spec, defs1.
    rewrite (t0_assoc builtins g sh defs0 us fs Hcollect n). fold defs1 spec defs2 t0.
    rewrite (plain_chosen_plain g sh n rhs H). cbn [option_map]. f_equal.
    apply resolve_ext. intros c _. symmetry. apply HB. apply Nat.le_refl.
  Qed.

  Lemma c_wf_chosen n rhs : plain_chosen g sh n = Some rhs -> word_roots_ok rhs = true.
  Proof.
    intro H. apply plain_chosen_plain in H. apply plain_definition_some_in in H.
    destruct H as [nsp Hin]. unfold grammar_word_roots_ok in Hwf. rewrite forallb_forall in Hwf.
    apply (Hwf _ Hin).
  Qed.

  Lemma expr0_wf : word_roots_ok (expr0_of g) = true.
  Proof.
    assert (Hall : forallb word_roots_ok (map snd (call_variants g)) = true).
    { apply forallb_forall. intros e He. apply in_map_iff in He. destruct He as [[[n s] e'] [Heq Hin]].
      cbn in Heq. subst e'. apply in_call_variants in Hin.
      unfold grammar_word_roots_ok in Hwf. rewrite forallb_forall in Hwf. apply (Hwf _ Hin). }
    unfold expr0_of. destruct (map snd (call_variants g)) as [|e [|e' r]] eqn:E.
    - reflexivity.
    - cbn in Hall. rewrite andb_true_r in Hall. exact Hall.
    - exact Hall.
  Qed.

  Lemma expr0_top : subword_spaces g sh = true -> top g sh (expr0_of g).
  Proof.
    intro H. apply subword_spaces_top in H. destruct H as [e [He Ht]].
    rewrite call_exprs_variants in He. unfold expr0_of.
    destruct (map snd (call_variants g)) as [|e1 [|e2 r]] eqn:E.
    - destruct He.
    - destruct He as [He|[]]. subst. exact Ht.
    - eapply top_alt; eauto.
  Qed.

  Theorem walk_errs :
    subword_spaces g sh = true ->
    let e2 := spec (distribute_descriptions (expr0_of g)) in
    isErr (spaces T (spaces_fuel T e2) e2 [] false false).
  Proof.
    intros H e2.
    assert (He2 : e2 = mt builtins sh us fs plain None (expr0_of g)) by reflexivity.
    rewrite (spaces_stable T bound cT_dd cT_closed cT_size).
    - rewrite He2.
      apply (errs_sound T bound cT_dd cT_closed cT_size); [|apply specialize_dd_free; apply distribute_dd_free].
      apply (top_model T bound cT_closed cT_size builtins g sh us fs plain c_mt_ref c_T_eqn c_wf_chosen);
        [apply expr0_top; exact H|apply expr0_wf].
    - apply specialize_dd_free. apply distribute_dd_free.
    - unfold fuelR. apply spaces_fuel_enough.
  Qed.
End Complete.

Theorem subword_spaces_rejected builtins g sh :
  no_call_variant g = false -> varying_names g = false -> slash_in_name g = false ->
  duplicate_plain g = false ->
  unknown_shell g = false -> non_command_for_shell g = false -> duplicate_for_shell g sh = false ->
  specs_have_command_plain g = true -> cyclic g sh = false ->
  grammar_word_roots_ok g = true ->
  subword_spaces g sh = true ->
  exists l r trace, from_grammar builtins g sh = Err (SubwordSpaces l r trace).
Proof.
  intros Hn Hv Hsl Hdp H1 H2 H3 Hsp Hcyc Hwf Hss.
  destruct (clean_verdict builtins g sh Hn Hv Hsl Hdp H1 H2 H3 Hsp Hcyc) as [[v Hv']|H]; [|exact H].
  exfalso. apply from_grammar_ok in Hv'. rename Hv' into A.
  pose proof (walk_errs builtins g sh _ _ _ (a_collect _ _ _ _ A) (a_specs _ _ _ _ A) _
                        (a_order _ _ _ _ A) Hwf Hss) as He.
  cbn zeta in He. destruct He as [e He].
  pose proof (a_spaces _ _ _ _ A) as Hok.
  pose proof (eq_trans (eq_sym Hok) He) as Habs. discriminate.
Qed.
