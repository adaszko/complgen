(** The stages a successful run of [Driver.compile_valid] and [Driver.compile] went through. *)
From CG Require Import Base.Prelude Model.Ast Model.Parser Model.Check Model.Regex.
From CG Require Import Model.Dfa Model.Subset Model.Minimize Model.Ambiguity Model.Driver.

Theorem compile_valid_Ok pick fuel v c :
  compile_valid pick fuel v = Ok c <->
  exists r pl submap raw st,
    from_valid_expr (v_expr v) = Ok (r, pl) /\
    compile_subs pick fuel (r_inputs r) pl [] [] = Ok (submap, c_subs c) /\
    dfa_from_regex pick fuel submap r = Ok (raw, st) /\
    minimize raw = Ok (c_main c) /\
    check_ambiguity_best_effort (c_main c) = Ok tt.
Proof.
  unfold compile_valid. split.
  - intro H.
    destruct (from_valid_expr (v_expr v)) as [[r pl]| | |] eqn:E; simpl in H; try discriminate.
    destruct (compile_subs pick fuel (r_inputs r) pl [] []) as [[submap subs]| | |] eqn:Es; simpl in H; try discriminate.
    destruct (dfa_from_regex pick fuel submap r) as [[raw st]| | |] eqn:Ed; simpl in H; try discriminate.
    destruct (minimize raw) as [m| | |] eqn:Em; simpl in H; try discriminate.
    destruct (check_ambiguity_best_effort m) as [[]| | |] eqn:Ea; simpl in H; try discriminate.
    injection H as <-. exists r, pl, submap, raw, st. auto 6.
  - intros (r & pl & submap & raw & st & -> & Es & Ed & Em & Ea). simpl.
    rewrite Es. simpl. rewrite Ed. simpl. rewrite Em. simpl. rewrite Ea. destruct c; reflexivity.
Qed.

Theorem compile_Ok pick fuel builtins text sh v c :
  compile pick fuel builtins text sh = Ok (v, c) <->
  exists g, parse text = Ok g /\ from_grammar builtins g sh = Ok v /\ compile_valid pick fuel v = Ok c.
Proof.
  unfold compile. split.
  - intro H.
    destruct (parse text) as [g| | |] eqn:Eg; simpl in H; try discriminate.
    destruct (from_grammar builtins g sh) as [v'| | |] eqn:Ev; simpl in H; try discriminate.
    destruct (compile_valid pick fuel v') as [c'| | |] eqn:Ec; simpl in H; try discriminate.
    injection H as -> ->. exists g. auto.
  - intros (g & -> & Ev & Ec). simpl. rewrite Ev. simpl. rewrite Ec. reflexivity.
Qed.
