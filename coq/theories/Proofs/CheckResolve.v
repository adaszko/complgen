(** The table [sol] that [resolve_in_order] computes (Proofs/CheckTotal.v) depends on the
    definitions only through the lookups of the names that are reached; [spaces] depends on the
    table only through lookups and, once it has enough fuel, not on the fuel.  Used for C14
    (definition order) and C15 (removing unused definitions) in Proofs/CheckOrder.v, and for the
    fuel-free walk of C08 in Proofs/CheckSpacesSpec.v. *)
From CG Require Import Base.Prelude Model.Ast Model.Check Spec.Choice Spec.Mistakes.
From CG Require Import Proofs.CheckChoice Proofs.CheckMistakes Proofs.CheckLemmas Proofs.CheckWarnings.
From CG Require Import Proofs.CheckCycle Proofs.CheckTotal.

Section Agree.
  Variable t t' : list (string * expr).
  Variable S : string -> Prop.
  Hypothesis HS : forall x, S x -> assoc x t = assoc x t'.
  Hypothesis Hcl : forall x rhs, S x -> assoc x t = Some rhs -> forall c, In c (all_refs rhs) -> S c.

  Lemma sol_agree k : forall x, S x -> assoc x (sol t k) = assoc x (sol t' k).
  Proof.
    induction k as [|k IH]; intros x Hx; [apply HS; exact Hx|].
    rewrite !assoc_sol_S, <- (HS x Hx). destruct (assoc x t) as [rhs|] eqn:E; [|reflexivity].
    cbn. f_equal. apply resolve_ext. intros c Hc. apply IH. eapply Hcl; eauto.
  Qed.

  Lemma sol_refs_closed k : forall x rhs, S x -> assoc x (sol t k) = Some rhs ->
                                          forall c, In c (all_refs rhs) -> S c.
  Proof.
    induction k as [|k IH]; intros x rhs Hx Hr c Hc; [eapply Hcl; eauto|].
    rewrite assoc_sol_S in Hr. destruct (assoc x t) as [rhs0|] eqn:E; [|discriminate].
    cbn in Hr. inversion Hr; subst rhs. rewrite resolve_refs in Hc. apply in_flat_map in Hc.
    destruct Hc as [c0 [Hc0 Hc]]. assert (Hs0 : S c0) by (eapply Hcl; eauto).
    destruct (assoc c0 (sol t k)) as [r0|] eqn:E0.
    - eapply IH; eauto.
    - destruct Hc as [Hc|[]]. subst. exact Hs0.
  Qed.
End Agree.

Lemma sp_all_ext (rec rec' : expr -> res unit) cs :
  Forall (fun c => rec c = rec' c) cs -> sp_all rec cs = sp_all rec' cs.
Proof. induction 1; cbn; [reflexivity|]. rewrite H, IHForall. reflexivity. Qed.

Section SpacesExt.
  Variable t t' : list (string * expr).
  Variable S : string -> Prop.
  Hypothesis HS : forall x, S x -> assoc x t = assoc x t'.
  Hypothesis Hcl : forall x rhs, S x -> assoc x t = Some rhs -> forall c, In c (all_refs rhs) -> S c.

  Lemma expr_end_ext hd f : forall e,
    (forall c, In c (all_refs e) -> S c) ->
    expr_end hd (Some t) f e = expr_end hd (Some t') f e.
  Proof.
    induction f as [|f IH]; intros e He; [destruct hd; reflexivity|]. rewrite !expr_end_S.
    destruct e; try reflexivity; try (apply IH; exact He).
    - cbn [followed]. assert (Hn : S name) by (apply He; left; reflexivity).
      rewrite <- (HS name Hn). destruct (assoc name t) as [rhs|] eqn:E; [|reflexivity].
      apply IH. eapply Hcl; eauto.
    - destruct (pick hd children) as [c|] eqn:El; [|reflexivity]. apply pick_In in El.
      apply IH. intros x Hx. apply He. cbn. apply in_flat_map. exists c. split; assumption.
  Qed.

  Lemma adjacent_terminals_ext f cs :
    (forall c, In c (flat_map all_refs cs) -> S c) ->
    adjacent_terminals (Some t) f cs = adjacent_terminals (Some t') f cs.
  Proof.
    induction cs as [|a r IH]; intro Hc; [reflexivity|]. destruct r as [|b r']; [reflexivity|].
    rewrite !(adjacent_terminals_eq _ _ (_ :: _ :: _)).
    assert (Hr : adjacent_terminals (Some t) f (b :: r') = adjacent_terminals (Some t') f (b :: r')).
    { apply IH. intros x Hx. apply Hc. cbn [flat_map]. apply in_or_app. right. exact Hx. }
    rewrite (expr_end_ext false f a), (expr_end_ext true f b).
    - destruct (expr_end false (Some t') f a) as [ta| | |]; cbn [obind]; try reflexivity.
      destruct (expr_end true (Some t') f b) as [hb| | |]; cbn [obind]; try reflexivity.
      destruct ta; try exact Hr. destruct hb; try exact Hr. reflexivity.
    - intros x Hx. apply Hc. cbn [flat_map]. apply in_or_app. right. apply in_or_app. left. exact Hx.
    - intros x Hx. apply Hc. cbn [flat_map]. apply in_or_app. left. exact Hx.
  Qed.

  Lemma spaces_ext f : forall e tr w j,
    (forall c, In c (all_refs e) -> S c) ->
    spaces t f e tr w j = spaces t' f e tr w j.
  Proof.
    induction f as [|f IH]; intros e tr w j He; [reflexivity|].
    rewrite !spaces_S.
    assert (Hall : forall cs, (forall c, In c (flat_map all_refs cs) -> S c) ->
                              sp_all (fun c => spaces t f c tr w false) cs
                              = sp_all (fun c => spaces t' f c tr w false) cs).
    { intros cs Hcs. apply sp_all_ext. apply Forall_forall. intros c Hc. apply IH.
      intros x Hx. apply Hcs. apply in_flat_map. exists c. split; assumption. }
    destruct e; try reflexivity; try (apply IH; exact He); try (apply Hall; exact He).
    - assert (Hn : S name) by (apply He; left; reflexivity).
      rewrite <- (HS name Hn). destruct (assoc name t) as [rhs|] eqn:E; [|reflexivity].
      apply IH. eapply Hcl; eauto.
    - rewrite (Hall children He). destruct j; cbn [follow_of]; [reflexivity|].
      rewrite (adjacent_terminals_ext f children He). reflexivity.
  Qed.
End SpacesExt.

Lemma sp_all_mono (rec rec' : expr -> res unit) cs r :
  Forall (fun c => rec c <> OutOfFuel -> rec' c = rec c) cs ->
  sp_all rec cs = r -> r <> OutOfFuel -> sp_all rec' cs = r.
Proof.
  induction 1 as [|x l Hx Hl IH]; cbn; [auto|].
  intros Hr Hne. destruct (rec x) as [[]|e|s|] eqn:E; cbn [obind] in Hr.
  - rewrite Hx by discriminate. cbn. apply IH; assumption.
  - rewrite Hx by discriminate. exact Hr.
  - rewrite Hx by discriminate. exact Hr.
  - congruence.
Qed.

Lemma expr_end_mono hd follow f : forall e r f',
  expr_end hd follow f e = r -> r <> OutOfFuel -> (f <= f')%nat -> expr_end hd follow f' e = r.
Proof.
  induction f as [|f IH]; intros e r f' Hr Hne Hle; [destruct hd; cbn in Hr; congruence|].
  destruct f' as [|f']; [lia|]. assert (Hle' : (f <= f')%nat) by lia.
  rewrite expr_end_S in *.
  destruct e; try exact Hr; try (eapply IH; eauto; fail).
  - destruct (followed follow name); [eapply IH; eauto|exact Hr].
  - destruct (pick hd children); [eapply IH; eauto|exact Hr].
Qed.

Lemma adjacent_terminals_mono follow f f' cs : forall r,
  adjacent_terminals follow f cs = r -> r <> OutOfFuel -> (f <= f')%nat ->
  adjacent_terminals follow f' cs = r.
Proof.
  induction cs as [|a rest IH]; intros r Hr Hne Hle; [exact Hr|].
  destruct rest as [|b rest']; [exact Hr|]. rewrite !(adjacent_terminals_eq _ _ (_ :: _ :: _)) in *.
  destruct (expr_end false follow f a) as [ta|e1|s1|] eqn:Ea; cbn [obind] in Hr; [| | |congruence];
    rewrite (expr_end_mono _ _ _ _ _ _ Ea) by (try discriminate; exact Hle); cbn [obind]; try exact Hr.
  destruct (expr_end true follow f b) as [hb|e2|s2|] eqn:Eb; cbn [obind] in Hr; [| | |congruence];
    rewrite (expr_end_mono _ _ _ _ _ _ Eb) by (try discriminate; exact Hle); cbn [obind]; try exact Hr.
  destruct ta; try (apply IH; assumption). destruct hb; try (apply IH; assumption). exact Hr.
Qed.

Lemma spaces_mono t f : forall e tr w j r f',
  spaces t f e tr w j = r -> r <> OutOfFuel -> (f <= f')%nat -> spaces t f' e tr w j = r.
Proof.
  induction f as [|f IH]; intros e tr w j r f' Hr Hne Hle; [cbn in Hr; congruence|].
  destruct f' as [|f']; [lia|]. assert (Hle' : (f <= f')%nat) by lia.
  rewrite spaces_S in *.
  assert (Hall : forall cs r, sp_all (fun c => spaces t f c tr w false) cs = r -> r <> OutOfFuel ->
                              sp_all (fun c => spaces t f' c tr w false) cs = r).
  { intros cs r0 H0 Hne0. eapply sp_all_mono; [|exact H0|exact Hne0].
    apply Forall_forall. intros c _ Hc. eapply IH; eauto. }
  destruct e; try exact Hr; try (eapply IH; eauto; fail); try (eapply Hall; eauto; fail).
  - destruct (assoc name t); [eapply IH; eauto|exact Hr].
  - destruct (sp_all (fun c => spaces t f c tr w false) children) as [[]|e|s|] eqn:E; cbn [obind] in Hr;
      [| | |congruence]; rewrite (Hall _ _ E) by discriminate; try exact Hr.
    cbn [obind]. destruct w; [|exact Hr].
    destruct (adjacent_terminals (follow_of t j) f children) as [adj|e|s|] eqn:Ea; cbn [obind] in Hr;
      [| | |congruence]; rewrite (adjacent_terminals_mono _ _ f' _ _ Ea) by (try discriminate; exact Hle');
      exact Hr.
Qed.

Lemma spaces_fine_agree t f1 f2 e tr w j :
  fine (spaces t f1 e tr w j) -> fine (spaces t f2 e tr w j) ->
  spaces t f1 e tr w j = spaces t f2 e tr w j.
Proof.
  intros H1 H2. destruct (Nat.le_ge_cases f1 f2) as [Hle|Hle].
  - symmetry. eapply spaces_mono; [reflexivity| |exact Hle].
    intro H. rewrite H in H1. exact H1.
  - eapply spaces_mono; [reflexivity| |exact Hle].
    intro H. rewrite H in H2. exact H2.
Qed.
