(** C04, fish: every printer of a data statement in [Model/EmitData.F] is read back by the statement
    reader of [Spec/ScriptRead.v].  All data statements of the fish script are [set] lists:
    [    set [--global ]VAR[[K]] item item ...] with bare numbers and C07 string constants as items. *)
From CG Require Import Base.Prelude Base.Facts Model.Ast Model.Dfa Model.Tpl Model.Quote Model.Tables Model.EmitBash Model.EmitData
     Spec.ShellDQ Spec.ScriptRead Proofs.QuoteRT Proofs.BashCodec.
From CGgen Require Import Consts TplFish.
Open Scope N_scope.
Open Scope list_scope.

Definition enc_item (i : item) : string :=
  match i with INum n => sN n | IStr s => make_string_constant Fish s end.

Definition idx_text (idx : option N) : string :=
  match idx with Some k => append "[" (append (sN k) "]") | None => EmptyString end.

Definition set_line (g : bool) (var : string) (idx : option N) (items : list item) : string :=
  append "    set " (append (if g then "--global " else EmptyString)
    (append var (append (idx_text idx) (append " " (append (join " " (map enc_item items)) nl))))).

Definition fvar (var : string) : Prop := vname var /\ no_dash var = true.

Lemma msc_fish_head s : exists r, make_string_constant Fish s = String c_dq r.
Proof. unfold make_string_constant. eexists. reflexivity. Qed.

Lemma fish_item_enc i r : no_digit_head r -> fish_item (append (enc_item i) r) = Some (i, r).
Proof.
  intros Hr. unfold fish_item. destruct i as [n|s]; cbn [enc_item].
  - apply alt_take. unfold pbind, pret. rewrite nat10_sN by exact Hr. reflexivity.
  - rewrite alt_skip.
    + unfold pbind, pret, dq. rewrite quote_roundtrip; [reflexivity | apply admissible_all; discriminate | reflexivity].
    + destruct (msc_fish_head s) as [r' E]. rewrite E. reflexivity.
Qed.

Lemma item_list l r :
  starts_with nl_char r -> sep_by fish_item " " (append (join " " (map enc_item l)) r) = Some (l, r).
Proof.
  apply (sep_by_join fish_item enc_item " " no_digit_head nl_char);
    [intros a r0; apply fish_item_enc | reflexivity | reflexivity | reflexivity | reflexivity | discriminate].
Qed.

(** the head of an item list is a digit or a double quote *)
Lemma enc_head i : exists c r, enc_item i = String c r /\ Ascii.eqb nl_char c = false.
Proof.
  destruct i as [n|s]; cbn [enc_item].
  - destruct (sN_digit n) as [c [r [E Hc]]]. exists c, r. split; [exact E|].
    destruct (Ascii.eqb_spec nl_char c) as [<-|]; [discriminate Hc | reflexivity].
  - destruct (msc_fish_head s) as [r E]. exists c_dq, r. split; [exact E | reflexivity].
Qed.

Theorem freads_set g var idx items : fvar var -> reads_as Fish (set_line g var idx items) (SSet var idx items).
Proof.
  intros [Hv Hd]. apply reads_as_of; [exact I|]. intros rest. unfold set_line. rewrite !append_assoc. unfold stmt_of, fish_stmt.
  apply alt_take. rewrite pbind_lit.
  (* the scope *)
  assert (G : forall (A : Type) (f : unit -> parser A) x,
             pbind (alt (lit "--global ") (pret tt)) f (append (if g then "--global " else EmptyString) (append var x)) = f tt (append var x)).
  { intros A f x. unfold pbind. destruct g.
    - rewrite (alt_take _ _ _ (tt, append var x)); [reflexivity | apply lit_app].
    - cbn [append]. rewrite alt_skip by (apply lit_dash_none; exact Hd). reflexivity. }
  rewrite G. clear G.
  (* the name and the index *)
  assert (Hidx : exists c r, (idx_text idx ++ " " ++ join " " (map enc_item items) ++ nl ++ rest)%string = String c r
                             /\ is_name_char c = false).
  { destruct idx; cbn [idx_text append]; eexists; eexists; split; reflexivity. }
  destruct Hidx as [c [r [E Hc]]]. rewrite E.
  erewrite pbind_some by exact (name_app var c "" r Hv Hc). change (String c "" ++ r)%string with (String c r). rewrite <- E. clear E Hc c r.
  assert (I : forall (A : Type) (f : option N -> parser A) x,
             pbind (alt (let* _ := lit "[" in let* k := nat10 in let* _ := lit "]" in pret (Some k)) (pret None)) f
                   (append (idx_text idx) (String " " x)) = f idx (String " " x)).
  { intros A f x. unfold pbind at 1. destruct idx as [k|]; cbn [idx_text].
    - rewrite (alt_take _ _ _ (Some k, String " " x)); [reflexivity|].
      rewrite !append_assoc. rewrite pbind_lit. erewrite pbind_some by (apply nat10_sN; reflexivity).
      erewrite pbind_lit' by reflexivity. reflexivity.
    - cbn [append]. rewrite alt_skip by reflexivity. reflexivity. }
  change (" " ++ join " " (map enc_item items) ++ nl ++ rest)%string
    with (String " " (join " " (map enc_item items) ++ nl ++ rest))%string.
  rewrite I. clear I.
  rewrite alt_skip by reflexivity.
  destruct items as [|i items]; [apply alt_take; reflexivity|].
  rewrite alt_skip.
  2:{ erewrite pbind_lit' by reflexivity. apply pbind_none. cbn [map].
      destruct (join_head " " (enc_item i) (map enc_item items) (nl ++ rest)) as [r ->].
      destruct (enc_head i) as [c [r' [-> Hc]]]. unfold eol, lit, nl. cbn [append strip]. rewrite Hc. reflexivity. }
  erewrite pbind_lit' by reflexivity.
  erewrite pbind_some by (apply item_list; eexists; reflexivity).
  rewrite (pbind_some _ _ _ _ _ (eol_nl rest)). reflexivity.
Qed.

(** ** number lists written between double quotes by a plain format string ("{}") are C07 constants *)
Definition plainb (c : ascii) : bool := String.eqb (imgc Fish c) (String c EmptyString).

Lemma cmap_plain s : forallb plainb (list_ascii_of_string s) = true -> cmap (imgc Fish) s = s.
Proof.
  induction s as [|c s IH]; cbn [forallb list_ascii_of_string cmap]; intros H; [reflexivity|].
  apply andb_prop in H. destruct H as [Hc Hs].
  apply String.eqb_eq in Hc. rewrite Hc, (IH Hs). reflexivity.
Qed.

Lemma plain_msc s :
  forallb plainb (list_ascii_of_string s) = true -> make_string_constant Fish s = append """" (append s """").
Proof.
  intros H. unfold make_string_constant. rewrite (chain_charwise (chain Fish) eq_refl). fold (imgc Fish).
  change (img (chain Fish)) with (imgc Fish). rewrite (cmap_plain s H). reflexivity.
Qed.

Definition plain_digit_ok (c : ascii) : bool := implb (is_digit c || Ascii.eqb c " " || Ascii.eqb c ",") (plainb c).

Lemma plain_digit_table_ok : forallb plain_digit_ok all_bytes = true.
Proof. vm_compute. reflexivity. Qed.

Lemma plain_of_digit c : (is_digit c || Ascii.eqb c " " || Ascii.eqb c ",")%bool = true -> plainb c = true.
Proof. intros H. pose proof (all_bytes_forall plain_digit_ok plain_digit_table_ok c) as T. unfold plain_digit_ok in T. rewrite H in T. exact T. Qed.

Definition numeric (s : string) : bool :=
  forallb (fun c => is_digit c || Ascii.eqb c " " || Ascii.eqb c ",")%bool (list_ascii_of_string s).

Lemma numeric_plain s : numeric s = true -> forallb plainb (list_ascii_of_string s) = true.
Proof.
  unfold numeric. induction s as [|c s IH]; cbn [forallb list_ascii_of_string]; intros H; [reflexivity|].
  apply andb_prop in H. destruct H as [Hc Hs].
  rewrite (plain_of_digit c Hc), (IH Hs). reflexivity.
Qed.

Lemma numeric_app a b : numeric (append a b) = numeric a && numeric b.
Proof. unfold numeric. induction a; cbn; [reflexivity | rewrite IHa, andb_assoc; reflexivity]. Qed.

Lemma numeric_sN n : numeric (sN n) = true.
Proof. apply sN_chars. reflexivity. Qed.

Lemma numeric_join (sep : string) l : numeric sep = true -> Forall (fun x => numeric x = true) l -> numeric (join sep l) = true.
Proof.
  intros Hs H. induction H as [|x l Hx _ IH]; [reflexivity|]. destruct l as [|y l]; [exact Hx|].
  rewrite join_cons_cons, !numeric_app, Hx, Hs, IH. reflexivity.
Qed.

Lemma numeric_nums l : numeric (join " " (map sN l)) = true.
Proof. apply numeric_join; [reflexivity|]. induction l; constructor; [apply numeric_sN | assumption]. Qed.

Lemma quoted_nums l : append """" (append (join " " (map sN l)) """") = enc_item (IStr (join " " (map sN l))).
Proof. cbn [enc_item]. symmetry. apply plain_msc, numeric_plain, numeric_nums. Qed.

Definition pv (sub : bool) (base : string) : string := if sub then append "subword_" base else base.

Lemma scope_set sub base x :
  (("    set " ++ F.scope sub ++ base ++ x) = ("    set " ++ (if sub then "--global " else "") ++ pv sub base ++ x))%string.
Proof. destruct sub; reflexivity. Qed.

(** [fv]: a variable name written out is a name that does not start with a dash *)
Ltac fv := split; [split; [discriminate | reflexivity] | reflexivity].

Lemma fvar_level base k : fvar base -> fvar (append base (sN k)).
Proof.
  intros [Hv Hd]. split; [apply vname_app_sN; exact Hv|]. destruct base; [discriminate Hd | exact Hd].
Qed.

Lemma fvar_pv sub base : fvar base -> fvar (pv sub base).
Proof.
  intros [[Hne Hv] Hd]. destruct sub; cbn [pv]; [|split; [split|]; assumption].
  split; [split; [discriminate | apply (name_chars_append "subword_"); [reflexivity | exact Hv]] | reflexivity].
Qed.

(** a template line [    set {scope_patch}BASE[IDX] ITEMS] is read as the [set] of its items *)
Lemma freads_tpl tpl env sub base idx items :
  fvar base ->
  renderln env tpl = ("    set " ++ F.scope sub ++ base ++ idx_text idx ++ " " ++ join " " (map enc_item items) ++ nl)%string ->
  reads_as Fish (fmtln tpl env) (SSet (pv sub base) idx items).
Proof.
  intros Hv H. apply (reads_tpl Fish _ _ _ _ (freads_set sub (pv sub base) idx items (fvar_pv sub base Hv))).
  rewrite H. unfold set_line, pv. destruct sub; cbn [F.scope append]; rewrite ?append_assoc; reflexivity.
Qed.

Lemma map_istr {A} (f : A -> string) l : map (fun x => F.msc (f x)) l = map enc_item (map (fun x => IStr (f x)) l).
Proof. rewrite map_map. reflexivity. Qed.
Lemma map_inum {A} (f : A -> N) l : map (fun x => sN (f x)) l = map enc_item (map (fun x => INum (f x)) l).
Proof. rewrite map_map. reflexivity. Qed.

Definition fdescr_pairs (lits : list (N * string * string)) : list (N * N) :=
  let ds := descr_set lits in
  flat_map (fun l => match snd l with
                     | EmptyString => []
                     | d => match index_of d ds with Some k => [(fst (fst l), k + 1)] | None => [] end
                     end) lits.

Definition flits_stmts (sub : bool) (lits : list (N * string * string)) : list stmt :=
  SSet (pv sub "literals") None (map (fun l => IStr (snd (fst l))) lits)
  :: map (fun id : N * string => SSet (pv sub "descrs") (Some (fst id + 1)) [IStr (snd id)]) (number_from 0 (descr_set lits))
  ++ match fdescr_pairs lits with
     | [] => []
     | pairs => [SSet (pv sub "descr_literal_ids") None (map (fun p => INum (fst p)) pairs);
                 SSet (pv sub "descr_ids") None (map (fun p => INum (snd p)) pairs)]
     end.

Lemma freads_lits sub lits : reads_lines Fish (F.write_literals sub lits) (flits_stmts sub lits).
Proof.
  unfold F.write_literals, flits_stmts. cbv zeta. fold (fdescr_pairs lits). cbn [sconcat]. rewrite append_nil_r.
  constructor.
  { rewrite (map_istr (fun l : N * string * string => snd (fst l))). apply (freads_tpl _ _ sub "literals" None); [fv | reflexivity]. }
  apply reads_app.
  - apply reads_map. intros [k d] _. apply (freads_tpl _ _ sub "descrs" (Some (k + 1)) [IStr d]); [fv|].
    cbn [map idx_text]. rewrite join_one, !append_assoc. reflexivity.
  - destruct (fdescr_pairs lits) as [|q qs]; [constructor|]. constructor; [|apply reads_one].
    + rewrite (map_inum (fun p : N * N => fst p)). apply (freads_tpl _ _ sub "descr_literal_ids" None); [fv | reflexivity].
    + rewrite (map_inum (fun p : N * N => snd p)). apply (freads_tpl _ _ sub "descr_ids" None); [fv | reflexivity].
Qed.

Definition fcell_strs (m : list (N * list (N * N))) (f : N * N -> string) (mx : N) : list item :=
  map (fun s => IStr (match assocN s m with Some row => join " " (map f row) | None => EmptyString end)) (F.upto (N.to_nat mx)).

Definition fcmd_cell (row : list (N * N)) : string :=
  join " " (map (fun p : N * N => append (sN (fst p)) (append "," (sN (snd p + F.st)))) row).

Definition fmatch_stmts (sub : bool) (t : tables) : list stmt :=
  (match F.max_key (t_mlit t) with
   | None => []
   | Some mx => [SSet (pv sub "literal_transitions_inputs") None (fcell_strs (t_mlit t) (fun p => sN (fst p)) mx);
                 SSet (pv sub "literal_transitions_tos") None (fcell_strs (t_mlit t) (fun p => sN (snd p + F.st)) mx)]
   end)
  ++ (match t_mcmd t with
      | Some m => map (fun row : N * list (N * N) => SSet (pv sub "command_transitions") (Some (fst row + F.st)) [IStr (fcmd_cell (snd row))]) m
      | None => []
      end)
  ++ (match t_mstar t with
      | Some (q :: l) => [SSet (pv sub "star_transitions_from") None (map (fun x : N * N => INum (fst x + F.st)) (q :: l));
                          SSet (pv sub "star_transitions_to") None (map (fun x : N * N => INum (snd x + F.st)) (q :: l))]
      | _ => []
      end).

Lemma fcells_eq m f mx :
  map (fun s => match assocN s m with Some row => F.msc (join " " (map f row)) | None => F.msc EmptyString end) (F.upto (N.to_nat mx))
  = map enc_item (fcell_strs m f mx).
Proof. unfold fcell_strs. rewrite map_map. apply map_ext. intros s. destruct (assocN s m); reflexivity. Qed.

Lemma freads_match sub t : reads_lines Fish (F.write_matching_tables sub t) (fmatch_stmts sub t).
Proof.
  unfold F.write_matching_tables, fmatch_stmts. cbv zeta. cbn [sconcat]. rewrite append_nil_r.
  apply reads_app; [|apply reads_app].
  - destruct (F.max_key (t_mlit t)) as [mx|]; [|constructor]. rewrite !fcells_eq. constructor; [|apply reads_one].
    + apply (freads_tpl _ _ sub "literal_transitions_inputs" None); [fv | reflexivity].
    + apply (freads_tpl _ _ sub "literal_transitions_tos" None); [fv | reflexivity].
  - destruct (t_mcmd t) as [m|]; [|constructor]. apply reads_map. intros [s row] _.
    apply (freads_tpl _ _ sub "command_transitions" (Some (s + F.st)) [IStr (fcmd_cell row)]); [fv|].
    cbn [map idx_text]. rewrite join_one, !append_assoc. reflexivity.
  - destruct (t_mstar t) as [[|q l]|]; try constructor; [|apply reads_one].
    + rewrite (map_inum (fun x : N * N => fst x + F.st)). apply (freads_tpl _ _ sub "star_transitions_from" None); [fv | reflexivity].
    + rewrite (map_inum (fun x : N * N => snd x + F.st)). apply (freads_tpl _ _ sub "star_transitions_to" None); [fv | reflexivity].
Qed.

Definition ffroms (rows : list (N * list N)) : list item := map (fun r : N * list N => INum (fst r + F.st)) rows.
Definition fcells (rows : list (N * list N)) : list item := map (fun r : N * list N => IStr (join " " (map sN (snd r)))) rows.

Definition flevel_stmts (sub : bool) (froms cells : string) (ls : list (list (N * list N))) : list stmt :=
  flat_map (fun kl : N * list (N * list N) =>
              [SSet (pv sub (append froms (sN (fst kl)))) None (ffroms (snd kl));
               SSet (pv sub (append cells (sN (fst kl)))) None (fcells (snd kl))]) (number_from 0 ls).

(** the two lines of a level: the states, and for each of them its candidates between double quotes
    ([cell] writes them: a C07 constant, or a plain format string) *)
Lemma freads_level sub t1 env1 t2 env2 froms cells k rows (cell : N * list N -> string) :
  fvar froms -> fvar cells ->
  (forall r, cell r = enc_item (IStr (join " " (map sN (snd r))))) ->
  renderln env1 t1 = ("    set " ++ F.scope sub ++ froms ++ sN k ++ " " ++ join " " (map (fun r : N * list N => sN (fst r + F.st)) rows) ++ nl)%string ->
  renderln env2 t2 = ("    set " ++ F.scope sub ++ cells ++ sN k ++ " " ++ join " " (map cell rows) ++ nl)%string ->
  reads_lines Fish (append (fmtln t1 env1) (fmtln t2 env2))
    [SSet (pv sub (append froms (sN k))) None (ffroms rows); SSet (pv sub (append cells (sN k))) None (fcells rows)].
Proof.
  intros Hf Hc Hcell H1 H2. constructor; [|apply reads_one].
  - apply (freads_tpl _ _ sub _ None); [apply fvar_level, Hf|]. rewrite H1. unfold ffroms. rewrite map_map, append_assoc. reflexivity.
  - apply (freads_tpl _ _ sub _ None); [apply fvar_level, Hc|]. rewrite H2. unfold fcells.
    rewrite map_map, (map_ext _ _ Hcell), append_assoc. reflexivity.
Qed.

Definition fmax_stmt (t : tables) : stmt := SSet "subword_max_fallback_level" None [INum (t_maxlevel t)].

Definition fcompletion_stmts (sub : bool) (t : tables) : list stmt :=
  flevel_stmts sub "literal_froms_level_" "literal_inputs_level_" (t_clit t)
  ++ (match t_ccmd t with Some m => flevel_stmts sub "command_froms_level_" "commands_level_" m | None => [] end)
  ++ [fmax_stmt t].

Lemma freads_completion sub t : reads_lines Fish (F.write_completion_tables sub t) (fcompletion_stmts sub t).
Proof.
  unfold F.write_completion_tables, fcompletion_stmts. cbv zeta. cbn [sconcat]. rewrite append_nil_r.
  apply reads_app; [|apply reads_app].
  - apply reads_flat_map. intros [k rows]. cbn [fst snd].
    apply (freads_level sub _ _ _ _ _ _ k rows (fun r => F.msc (join " " (map sN (snd r))))); [fv | fv | reflexivity | reflexivity | reflexivity].
  - destruct (t_ccmd t) as [m|]; [|constructor]. apply reads_flat_map. intros [k rows]. cbn [fst snd].
    apply (freads_level sub _ _ _ _ _ _ k rows (fun r => fmt TplFish.write_completion_tables_3 [("0", join " " (map sN (snd r)))]));
      [fv | fv | intros r; apply quoted_nums | reflexivity | reflexivity].
  - apply reads_one. apply (reads_tpl Fish _ _ _ _ (freads_set true "subword_max_fallback_level" None [INum (t_maxlevel t)] ltac:(fv))). reflexivity.
Qed.

Definition fsubrow_stmts (rows : list (N * list (N * N))) : list stmt :=
  flat_map (fun row : N * list (N * N) =>
              [SSet "subword_transitions_ids" (Some (fst row + F.st)) [IStr (join " " (map (fun p : N * N => sN (fst p)) (snd row)))];
               SSet "subword_transitions_tos" (Some (fst row + F.st)) [IStr (join " " (map (fun p : N * N => sN (snd p + F.st)) (snd row)))]])
           rows.

Lemma freads_subrows rows :
  reads_lines Fish
    (sconcat (map (fun row : N * list (N * N) =>
                     append (fmtln TplFish.write_completion_script_10
                               [("0", sN (fst row + F.st)); ("1", F.msc (join " " (map (fun p : N * N => sN (fst p)) (snd row))))])
                            (fmtln TplFish.write_completion_script_11
                               [("0", sN (fst row + F.st)); ("1", F.msc (join " " (map (fun p : N * N => sN (snd p + F.st)) (snd row))))]))
                  rows))
    (fsubrow_stmts rows).
Proof.
  apply reads_flat_map. intros [s row]. cbn [fst snd]. constructor; [|apply reads_one].
  - apply (freads_tpl _ _ false "subword_transitions_ids" (Some (s + F.st)) [IStr _]); [fv|].
    cbn [map idx_text]. rewrite join_one, !append_assoc. reflexivity.
  - apply (freads_tpl _ _ false "subword_transitions_tos" (Some (s + F.st)) [IStr _]); [fv|].
    cbn [map idx_text]. rewrite join_one, !append_assoc. reflexivity.
Qed.

Lemma freads_sublevels (ls : list (list (N * list N))) :
  reads_lines Fish
    (sconcat (map (fun kl : N * list (N * list N) =>
                     append (fmtln TplFish.write_completion_script_17
                               [("level", sN (fst kl)); ("froms_initializer", join " " (map (fun r : N * list N => sN (fst r + F.st)) (snd kl)))])
                            (fmtln TplFish.write_completion_script_19
                               [("level", sN (fst kl));
                                ("subwords_initializer",
                                 join " " (map (fun r : N * list N => fmt TplFish.write_completion_script_18 [("0", join " " (map sN (snd r)))]) (snd kl)))]))
                  (number_from 0 ls)))
    (flevel_stmts false "subword_froms_level_" "subwords_level_" ls).
Proof.
  apply reads_flat_map. intros [k rows]. cbn [fst snd].
  apply (freads_level false _ _ _ _ _ _ k rows (fun r => fmt TplFish.write_completion_script_18 [("0", join " " (map sN (snd r)))]));
    [fv | fv | intros r; apply quoted_nums | reflexivity | reflexivity].
Qed.
