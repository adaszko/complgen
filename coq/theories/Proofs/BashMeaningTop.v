(** Two loops of [Invocations.spec_run] over the commands of a state ([spec_cmd_loop],
    [spec_cmds_level]) and bash's associative arrays as the script enumerates them ([assoc_of]: the
    same entries in another order when the keys are distinct, [assoc_of_in]). *)
From CG Require Import Base.Prelude Model.Dfa Model.Tables Model.BashSem.
From CG Require Import Spec.Invocations.
From CG Require Import Proofs.TablesSound Proofs.TablesKeys Proofs.DfaMeaning.

Lemma bucket_insert_in {V} k (v : V) l x : In x (bucket_insert k v l) <-> x = (k, v) \/ In x l.
Proof.
  induction l as [| [k' v'] r IH]; cbn [bucket_insert In]; [intuition congruence |].
  destruct (N.ltb (bucket k') (bucket k)); cbn [In]; [rewrite IH; tauto | intuition congruence].
Qed.

Lemma assoc_of_in {V} (l : list (N * V)) : NoDup (map fst l) -> forall x, In x (assoc_of l) <-> In x l.
Proof.
  unfold assoc_of. intro ND.
  assert (G : forall acc : list (N * V),
             (forall k, In k (map fst acc) -> ~ In k (map fst l)) ->
             forall x, In x (fold_left (fun acc kv => match assocN (fst kv) acc with
                                                      | Some _ => replace_val (fst kv) (snd kv) acc
                                                      | None => bucket_insert (fst kv) (snd kv) acc
                                                      end) l acc) <-> In x acc \/ In x l).
  { induction l as [| [k v] l IH]; intros acc Hd x; cbn [fold_left].
    - split; [intro H; left; exact H | intros [H | []]; exact H].
    - cbn [map fst] in ND. inversion ND as [| k0 ks Hnot ND']; subst. cbn [fst snd].
      assert (En : assocN k acc = None).
      { apply assocN_None. intro Hin. apply (Hd k Hin). left; reflexivity. }
      rewrite En. rewrite (IH ND').
      + rewrite bucket_insert_in. cbn [In]. intuition congruence.
      + intros k1 Hk1 Hin. apply in_map_iff in Hk1. destruct Hk1 as [[k2 v2] [E Hk2]]. cbn [fst] in E. subst k2.
        apply bucket_insert_in in Hk2. destruct Hk2 as [E | Hk2].
        * inversion E; subst. apply Hnot. exact Hin.
        * apply (Hd k1); [apply in_map_iff; exists (k1, v2); split; [reflexivity | exact Hk2] | right; exact Hin]. }
  intro x. rewrite G; [split; [intros [[] | H]; exact H | intro H; right; exact H] | intros k []].
Qed.

Lemma index_of_nth c l : forall k, Tables.index_of c l = Some k -> nthN l k = Some c.
Proof.
  induction l as [| x r IH]; cbn [Tables.index_of]; intros k H; [discriminate |].
  destruct (String.eqb c x) eqn:E.
  - inversion H; subst. apply String.eqb_eq in E. subst. reflexivity.
  - destruct (Tables.index_of c r) as [j |] eqn:Ej; [| discriminate]. cbn in H. inversion H; subst.
    specialize (IH j eq_refl). unfold nthN in *. rewrite N2Nat.inj_succ. cbn. exact IH.
Qed.

Lemma index_of_inj c c' l k : Tables.index_of c l = Some k -> Tables.index_of c' l = Some k -> c = c'.
Proof. intros H1 H2. apply index_of_nth in H1. apply index_of_nth in H2. rewrite H1 in H2. inversion H2. reflexivity. Qed.

Section CmdLoop.
  Variables (a : alltables) (benv : BashSem.env) (w : string).
  Definition accepts_cid (cid : N) : bool := existsb (String.eqb w) (spec_candidates (cmd_output benv cid)).

  Lemma spec_cmd_loop_spec : forall entries last log,
      (forall cid to, In (cid, to) entries -> nthN (a_commands a) cid <> None) ->
      exists log' esc,
        spec_cmd_loop a benv entries w last log
        = Ok (match find (fun ct => accepts_cid (fst ct)) entries with Some ct => Some (snd ct) | None => None end, log', esc).
  Proof.
    induction entries as [| [cid to] r IH]; intros last log Hc; cbn [spec_cmd_loop find].
    - eauto.
    - unfold spec_call. destruct (nthN (a_commands a) cid) eqn:En; [| exfalso; apply (Hc cid to (or_introl eq_refl)); exact En].
      cbn [obind fst]. fold (accepts_cid cid). destruct (accepts_cid cid); [eauto |].
      destruct (IH last ((cid, EmptyString, EmptyString) :: log)) as [log' [esc E]].
      { intros c' t' Hin. apply (Hc c' t'). right; exact Hin. }
      rewrite E. cbn [obind]. eauto.
  Qed.
End CmdLoop.

(** the candidates the commands of a level contribute *)
Definition cmd_offered (benv : BashSem.env) (p : string) (cids : list N) : list string :=
  flat_map (fun cid => filter (String.prefix p) (spec_candidates (cmd_output benv cid))) cids.

Lemma spec_cmds_level_spec (a : alltables) benv p : forall cids m log,
    (forall cid, In cid cids -> nthN (a_commands a) cid <> None) ->
    exists log', spec_cmds_level a benv cids p m log = Ok (m ++ cmd_offered benv p cids, log').
Proof.
  induction cids as [| cid r IH]; intros m log Hc; cbn [spec_cmds_level cmd_offered flat_map].
  - rewrite app_nil_r. eauto.
  - unfold spec_call. destruct (nthN (a_commands a) cid) eqn:En; [| exfalso; apply (Hc cid (or_introl eq_refl)); exact En].
    cbn [obind]. destruct (IH (m ++ filter (String.prefix p) (spec_candidates (cmd_output benv cid))) ((cid, p, EmptyString) :: log)) as [log' E].
    { intros c' Hin. apply Hc. right; exact Hin. }
    rewrite E. rewrite <- app_assoc. eauto.
Qed.

Section Top.
  Variable c : cdfa.
  Hypothesis Hinp : NoDup (d_inputs (c_main c)).

  Notation d := (c_main c).

  Lemma trans_fun s x t t' : trans_on d s x t -> trans_on d s x t' -> t = t'.
  Proof. apply (trans_on_fun d Hinp). Qed.
End Top.
