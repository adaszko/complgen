(** Locating a tree only changes its spans; trees without sub-words are fixed by [flatten_expr]. *)
From CG Require Import Base.Prelude Proofs.ListFacts Model.Ast Model.Lexer Model.Parser Spec.Printer
  Proofs.LexBase Proofs.ExprDefs.
From CGgen Require Import Consts.

Definition EraseOk (e : expr) : Prop := forall c lay ctx p, erase (fst (loc c lay ctx e p)) = erase e.

(** it is enough to look at the node without its parentheses *)
Lemma erase_of_body : forall e,
    (forall c lay ctx pb, erase (fst (body_loc c lay ctx e pb)) = erase e) -> EraseOk e.
Proof.
  intros e H c lay ctx p. rewrite loc_eq. cbv zeta.
  match goal with |- context [body_loc c lay ctx e ?q] => rewrite <- (H c lay ctx q); destruct (body_loc c lay ctx e q) end.
  reflexivity.
Qed.

Lemma erase_loc_list : forall c (layk : nat -> layout) cc sepadv xs, Forall EraseOk xs ->
    forall k q, map erase (fst (loc_list (fun k x q => loc c (layk k) cc x q) sepadv k xs q)) = map erase xs.
Proof.
  induction 1 as [|x l H _ IH]; intros k q; cbn [loc_list map]; auto.
  specialize (H c (layk k) cc (match k with O => q | S _ => sepadv k q end)).
  destruct (loc c (layk k) cc x _) as [x' q1]. specialize (IH (S k) q1).
  destruct (loc_list _ sepadv (S k) l q1) as [rs q2]. cbn [fst map] in *. rewrite H, IH. reflexivity.
Qed.

Lemma erase_loc_sub : forall c (layk : nat -> layout) xs, Forall EraseOk xs ->
    forall k prev q, map erase (fst (loc_sub (fun k cx x q => loc c (layk k) cx x q) k prev xs q)) = map erase xs.
Proof.
  induction 1 as [|x l H _ IH]; intros k prev q; cbn [loc_sub map]; auto.
  specialize (H c (layk k) (factor_ctx prev x) q).
  destruct (loc c (layk k) (factor_ctx prev x) x q) as [x' q1].
  specialize (IH (S k) (factor_open (factor_ctx prev x) x) q1).
  destruct (loc_sub _ (S k) (factor_open (factor_ctx prev x) x) l q1) as [rs q2].
  cbn [fst map] in *. rewrite H, IH. reflexivity.
Qed.

Theorem erase_loc : forall c lay ctx e p, erase (fst (loc c lay ctx e p)) = erase e.
Proof.
  intros c lay ctx e. revert c lay ctx. change (EraseOk e).
  induction e using expr_ind_op; apply erase_of_body; intros cf lay ctx pb.
  - destruct d; reflexivity.
  - reflexivity.
  - reflexivity.
  - rewrite body_loc_list. pose proof (erase_loc_list cf (fun k => sub lay k) (lv_op o) (fun k q => adv_str (sep_txt o (lay []) k) q) cs H 0%nat pb) as X.
    destruct (loc_list _ _ 0 cs pb) as [cs' p1]. cbn [fst] in *. destruct o; cbn [mk_op erase]; rewrite X; reflexivity.
  - cbn [body_loc]. specialize (IHe cf (sub lay 0) 0%nat (adv_str (gap_text (nl_gap (lay []) 0)) (adv_char LBRACK pb))).
    destruct (loc cf (sub lay 0) 0 e _) as [ch' p2]. cbn [fst erase] in *. rewrite IHe. reflexivity.
  - cbn [body_loc]. specialize (IHe cf (sub lay 0) 6%nat pb).
    destruct (loc cf (sub lay 0) 6 e pb) as [ch' p2]. cbn [fst erase] in *. rewrite IHe. reflexivity.
  - cbn [body_loc]. specialize (IHe cf (sub lay 0) (if open_end e then 7 else 4)%nat pb).
    destruct (loc cf (sub lay 0) _ e pb) as [ch' p2]. cbn [fst erase] in *. rewrite IHe. reflexivity.
  - destruct e; cbn [body_loc].
    all: try (specialize (IHe cf (sub lay 0) 5%nat pb);
              match goal with |- context [loc ?a ?b 5 ?x ?d] => destruct (loc a b 5 x d) as [r' p1] end;
              cbn [fst erase] in *; rewrite IHe; reflexivity).
    pose proof (erase_loc_sub cf (fun k => sub (sub lay 0) k) children H 0%nat false pb) as X.
    destruct (loc_sub _ 0 false children pb) as [cs' p1]. cbn [fst erase] in *. rewrite X. reflexivity.
Qed.

Fixpoint nosub (e : expr) : bool :=
  match e with
  | Terminal _ _ _ _ | NontermRef _ _ _ | Command _ _ _ _ => true
  | Sequence cs _ | Alternative cs _ | Fallback cs _ => forallb nosub cs
  | Optional c _ | Many1 c _ | DistDescr c _ _ => nosub c
  | Subword _ _ _ => false
  end.

Lemma nosub_erase : forall e, nosub (erase e) = nosub e.
Proof.
  induction e using expr_ind'; cbn [erase nosub]; auto; rewrite forallb_map; apply forallb_ext_Forall; auto.
Qed.

Lemma map_id_ext : forall (g : expr -> expr) cs, Forall (fun x => g x = x) cs -> map g cs = cs.
Proof. induction 1; cbn; auto. rewrite H, IHForall. reflexivity. Qed.

Lemma flatten_nosub : forall e, nosub e = true -> flatten_expr e = e.
Proof.
  induction e using expr_ind'; cbn [nosub flatten_expr]; intros N; auto; try discriminate;
    try (rewrite IHe by assumption; reflexivity).
  all: f_equal; apply map_id_ext; rewrite forallb_forall in N; rewrite Forall_forall in *; intros x Hx; apply H; auto.
Qed.

Lemma wfb_nosub : forall e, wfb true e = true -> nosub e = true.
Proof.
  induction e using expr_ind'; cbn [nosub wfb]; intros W; auto; try discriminate.
  all: apply andb_true_iff in W as [_ W]; rewrite forallb_forall in *; rewrite Forall_forall in *; intros x Hx; apply H; auto.
Qed.

Lemma nosub_loc : forall c lay ctx e p, wfb true e = true -> nosub (fst (loc c lay ctx e p)) = true.
Proof.
  intros. rewrite <- nosub_erase, erase_loc, nosub_erase. apply wfb_nosub; assumption.
Qed.

Lemma flatten_loc : forall c lay ctx e p, wfb true e = true ->
    flatten_expr (fst (loc c lay ctx e p)) = fst (loc c lay ctx e p).
Proof. intros. apply flatten_nosub, nosub_loc; assumption. Qed.
