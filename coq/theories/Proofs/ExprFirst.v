(** Expression round trip: how a printed expression starts ([FirstOk], [first_ok_any]) and what
    its children are followed by ([list_rest], [sub_rest]). *)
From CG Require Import Base.Prelude Base.Facts Proofs.ListFacts Model.Ast Model.Lexer Model.Parser Spec.Printer
  Proofs.LexBase Proofs.LexBlanks Proofs.LexTerminal Proofs.LexTokens Proofs.LexCommand
  Proofs.ExprDefs Proofs.ExprLift.
From CGgen Require Import Consts.

(** [t] starts with a character an expression can start with, and [t ++ r] not with [...] *)
Definition first_ok (t r : string) : Prop :=
  exists ch s, t = String ch s /\ ustart ch = true /\ starts_with "..." (append t r) = false.

Lemma first_ok_app : forall t x r, first_ok t (append x r) -> first_ok (append t x) r.
Proof.
  intros t x r (ch & s & E & U1 & D). subst t. exists ch, (append s x). cbn [append].
  repeat split; auto. rewrite append_assoc. exact D.
Qed.

Lemma first_ok_skips : forall t r, first_ok t r -> skips (append t r) = append t r.
Proof.
  intros t r (ch & s & E & U1 & D). subst t. apply skips_no_blank. cbn [append hd_in].
  rewrite (ustart_not_blank ch U1). reflexivity.
Qed.

Lemma first_ok_noq : forall t r, first_ok t r -> noq (append t r) = true.
Proof.
  intros t r (ch & s & E & U1 & D). subst t. unfold noq. cbn [append hd_in].
  rewrite (ustart_not_quote ch U1). reflexivity.
Qed.

Lemma first_ok_len : forall t r, first_ok t r -> (String.length r < String.length (append t r))%nat.
Proof. intros t r (ch & s & E & _). subst t. cbn [append String.length]. rewrite length_append. lia. Qed.

Lemma no_unary_ndots : forall r, hd_in no_unary r = true ->
    hd_in (fun c => negb (is_regular c)) r = true /\ hd_in (fun c => negb (Ascii.eqb c BACKSLASH)) r = true
    /\ ndots r = 0%nat.
Proof.
  intros [|ch r] H; cbn [hd_in ndots] in *; auto.
  apply no_unary_facts in H. destruct H as (R & B & D & _). unfold is_dot. rewrite R, B, D. auto.
Qed.

Lemma c4_lit_rest : forall g r, c4 r -> lit_rest g r.
Proof. intros g r H. destruct (no_unary_ndots r H) as (A & B & C). repeat split; auto. Qed.

(** at the levels that demand a stopper character, the extra conditions are implied *)
Lemma st_extra : forall ctx e r, c4 r -> c3 r -> extra ctx e r.
Proof. intros ctx e r H4 H3. split; intros _; [exact H3 | apply c4_lit_rest; exact H4]. Qed.

Lemma st3_extra : forall ctx e r, st 3 r -> extra ctx e r.
Proof. intros ctx e r (_ & S4 & S3 & _). apply st_extra; [apply S4|apply S3]; lia. Qed.

Lemma post_gap_c4 : forall g ch r, no_unary ch = true -> c4 (append (gap_text (post_gap g)) (String ch r)).
Proof. intros. unfold c4. apply post_gap_hd. cbn [hd_in]. assumption. Qed.

Lemma skips_post_gap_char : forall g ch r, blank_start ch = false ->
    skips (append (gap_text (post_gap g)) (String ch r)) = String ch r.
Proof. intros. rewrite skips_gap. apply skips_no_blank. cbn [hd_in]. rewrite H. reflexivity. Qed.

Lemma st0_closer : forall g ch r,
    no_unary ch = true -> blank_start ch = false -> Ascii.eqb ch DQUOTE = false -> Ascii.eqb ch BAR = false ->
    st 0 (append (gap_text (post_gap g)) (String ch r)).
Proof.
  intros g ch r N B Q Br. unfold st, c5, c3, c2, c1, c0, noq, nobar.
  rewrite skips_post_gap_char by assumption. cbn [hd_in]. rewrite Q, Br, N.
  repeat split; intros; auto; try (apply post_gap_c4; assumption).
  apply no_unary_facts in N. destruct N as (_ & _ & D & _).
  unfold starts_with. cbn [strip_prefix]. change "."%char with DOT. rewrite Ascii.eqb_sym, D. reflexivity.
Qed.

Lemma st0_rbrack : forall g r, st 0 (append (gap_text (post_gap g)) (String RBRACK r)).
Proof. intros. apply st0_closer; reflexivity. Qed.

Lemma st0_rparen : forall g r, st 0 (append (gap_text (post_gap g)) (String RPAREN r)).
Proof. intros. apply st0_closer; reflexivity. Qed.

Lemma st0_semi : forall g r, st 0 (append (gap_text (post_gap g)) (String SEMI r)).
Proof. intros. apply st0_closer; reflexivity. Qed.

Lemma st0_end : forall g, st 0 (gap_text (post_gap g)).
Proof.
  intros. rewrite <- (append_nil_r (gap_text (post_gap g))).
  unfold st, c5, c4, c3, c2, c1, c0, noq, nobar. rewrite skips_gap.
  replace (skips EmptyString) with EmptyString by reflexivity. cbn [hd_in].
  repeat split; intros; auto. apply post_gap_hd. reflexivity.
Qed.

Lemma st4_descr : forall g d r, st 4 (append (gap_text (post_gap g)) (append (descr_text d) r)).
Proof.
  intros. unfold descr_text. cbn [append]. unfold st, c5, c4.
  rewrite skips_post_gap_char by (reflexivity).
  repeat split; intros; try lia; auto.
  apply post_gap_c4. reflexivity.
Qed.

Lemma lit_rest_descr : forall gd g d r, lit_rest gd (append (gap_text (post_gap g)) (append (descr_text d) r)).
Proof. intros. apply c4_lit_rest. unfold descr_text. cbn [append]. apply post_gap_c4. reflexivity. Qed.

(** before [...]: what an atom under [Many1] is followed by *)
Lemma many_rest : forall g r,
    noq (skips (append (gap_text (post_gap g)) (append DOTS3 r))) = true
    /\ lit_rest true (append (gap_text (post_gap g)) (append DOTS3 r)).
Proof.
  intros. split.
  - unfold DOTS3. cbn [append]. rewrite skips_post_gap_char by (reflexivity). reflexivity.
  - destruct (post_gap g) as [|b g'] eqn:E.
    + cbn [gap_text append]. unfold DOTS3. cbn [append]. repeat split; try (reflexivity).
      right. split; auto. cbn [ndots]. replace (is_dot ".") with true by (reflexivity). lia.
    + apply c4_lit_rest. rewrite <- E. unfold DOTS3. cbn [append].
      unfold c4. destruct g as [|b0 g0]; [discriminate|].
      destruct b0 as [w| |body]; cbn; auto. destruct w; reflexivity.
Qed.

Lemma bar_sep_st : forall g1 x r,
    let rest := append (gap_text (post_gap g1)) (String BAR x) in
    c5 (append rest r) /\ c4 (append rest r) /\ c3 (append rest r) /\ c2 (append rest r)
    /\ skips (append rest r) = String BAR (append x r).
Proof.
  intros. subst rest. rewrite append_assoc. cbn [append].
  assert (S1 : skips (append (gap_text (post_gap g1)) (String BAR (append x r))) = String BAR (append x r))
    by (apply skips_post_gap_char; reflexivity).
  unfold c5, c4, c3, c2, noq. rewrite S1. repeat split; try (reflexivity).
  apply post_gap_c4. reflexivity.
Qed.

Lemma sep_st : forall o L k t r, first_ok t r -> st (lv_op o) (append (sep_txt o L k) (append t r)).
Proof.
  intros [] L k t r Hf; cbn [lv_op sep_txt].
  - unfold seq_sep, st, c5, c4, c3. rewrite skips_gap, (first_ok_skips _ _ Hf).
    repeat split; intros; try lia.
    + destruct Hf as (ch & s & E & U1 & D). exact D.
    + apply gap1_no_unary.
    + apply first_ok_noq. exact Hf.
  - unfold alt_sep.
    destruct (bar_sep_st (fst (nl_sep L k)) (gap_text (snd (nl_sep L k))) (append t r)) as (A5 & A4 & A3 & A2 & _).
    unfold st. repeat split; intros; try lia; auto.
  - unfold fb_sep.
    destruct (bar_sep_st (fst (nl_sep L k)) (String BAR (gap_text (snd (nl_sep L k)))) (append t r)) as (A5 & A4 & A3 & A2 & S1).
    unfold st. repeat split; intros; try lia; auto.
    unfold c1. right. rewrite S1. reflexivity.
Qed.

Lemma wraps_hi : forall L ctx, (4 <= ctx)%nat -> wraps L ctx = 0%nat.
Proof. intros. unfold wraps. destruct (Nat.leb ctx 3) eqn:E; auto. apply Nat.leb_le in E. lia. Qed.

(** a factor that does not start with a literal, or is parenthesised, starts with an opening bracket *)
Lemma bracket_first : forall lay y w prev, wfb w y = true -> (prev = true \/ starts_lit y = false) ->
    exists ch s, txt lay (factor_ctx prev y) y = String ch s /\ bstart ch = true.
Proof.
  intros lay y w prev W H. unfold factor_ctx.
  destruct (prev && starts_lit y) eqn:E.
  -
    rewrite txt_eq. rewrite wraps_hi by lia. cbn [wrap_text].
    assert (Nat.ltb (prec y) 8 = true) as -> by (apply Nat.ltb_lt; destruct y; cbn; lia).
    unfold paren_text. eexists; eexists; split; [reflexivity|reflexivity].
  - assert (S : starts_lit y = false).
    { destruct H as [H|H]; auto. subst prev. exact E. }
    clear H E. rewrite txt_eq. rewrite wraps_hi by lia. cbn [wrap_text].
    destruct y; try discriminate; cbn [prec Nat.ltb Nat.leb body_txt paren_text];
      try (eexists; eexists; split; [reflexivity|reflexivity]).
    rewrite txt_eq. rewrite wraps_hi by lia. cbn [wrap_text].
    destruct y; try discriminate; cbn [prec Nat.ltb Nat.leb body_txt paren_text append];
      try (eexists; eexists; split; [reflexivity|reflexivity]).
Qed.

Lemma open_end_inword : forall x, wfb true x = true -> open_end x = true -> is_plain_lit x = true.
Proof. intros [] W O; try discriminate; auto. Qed.

Lemma lit_rest_bstart : forall ch s, bstart ch = true ->
    lit_rest false (String ch s) /\ noq (skips (String ch s)) = true.
Proof.
  intros ch s H. pose proof (bstart_ustart ch H) as U1. pose proof (bstart_tok_stop ch H) as T.
  pose proof (ustart_not_blank ch U1) as B. pose proof (ustart_not_quote ch U1) as Q.
  unfold tok_stop in T. apply negb_true_iff in T.
  apply orb_false_iff in T as [T D]. apply orb_false_iff in T as [R Bs].
  split.
  - repeat split; cbn [hd_in ndots]; unfold is_dot; rewrite ?R, ?Bs, ?D; auto.
  - rewrite skips_no_blank by (cbn [hd_in]; rewrite B; reflexivity). unfold noq. cbn [hd_in]. rewrite Q. reflexivity.
Qed.

Definition FirstOk (e : expr) : Prop :=
  forall lay ctx w r, (ctx <= 8)%nat -> wfb w e = true -> mstop lay ctx e r -> first_ok (txt lay ctx e) r.

Lemma first_paren : forall g1 g2 body r, first_ok (paren_text g1 g2 body) r.
Proof.
  intros. unfold paren_text. eexists; eexists; split; [reflexivity|]. split; [reflexivity|].
  cbn [append]. reflexivity.
Qed.

Lemma first_wrap : forall lay ctx e r,
    (bare lay ctx e = true -> first_ok (body_txt lay ctx e) r) -> first_ok (txt lay ctx e) r.
Proof.
  intros lay ctx e r H. rewrite txt_eq. unfold bare in H.
  destruct (wraps (lay []) ctx) as [|j] eqn:Wr.
  - cbn [wrap_text]. destruct (Nat.ltb (prec e) ctx).
    + apply first_paren.
    + apply H. reflexivity.
  - cbn [wrap_text]. apply first_paren.
Qed.

Lemma lvl_le : forall ctx, (ctx <= 8)%nat -> (lvl ctx <= ctx)%nat /\ (lvl ctx <= 6)%nat.
Proof.
  intros. unfold lvl. destruct (Nat.eqb ctx 7) eqn:E; [apply Nat.eqb_eq in E; lia|apply Nat.eqb_neq in E].
  destruct (Nat.eqb ctx 8) eqn:E8; [apply Nat.eqb_eq in E8|apply Nat.eqb_neq in E8]; lia.
Qed.

Lemma first_string : forall ch s r, ustart ch = true -> Ascii.eqb ch DOT = false -> first_ok (String ch s) r.
Proof.
  intros. exists ch, s. repeat split; auto. cbn [append]. unfold starts_with. cbn [strip_prefix].
  change "."%char with DOT. rewrite Ascii.eqb_sym, H0. reflexivity.
Qed.

Lemma first_list : forall f sep x xs r,
    first_ok (f 0%nat x) (append (txt_list f sep 1 xs) r) -> first_ok (txt_list f sep 0 (x :: xs)) r.
Proof. intros. cbn [txt_list append]. apply first_ok_app. exact H. Qed.

Lemma lvl_low : forall ctx, (ctx <= 6)%nat -> lvl ctx = ctx.
Proof.
  intros. unfold lvl. destruct (Nat.eqb ctx 7) eqn:X; [apply Nat.eqb_eq in X; lia|].
  destruct (Nat.eqb ctx 8) eqn:Y; [apply Nat.eqb_eq in Y; lia|]. reflexivity.
Qed.

Lemma mstop_low : forall lay ctx e r, (ctx <= 3)%nat -> st ctx r -> mstop lay ctx e r.
Proof.
  intros lay ctx e r H S. assert (lvl ctx = ctx) as E by (apply lvl_low; lia).
  split; [rewrite E; exact S|]. intros _. apply st3_extra. eapply st_mono; [|exact S]. lia.
Qed.

(** the operands of a list node after the first, each behind its separator *)
Lemma list_rest_gen : forall o lay w r xs k,
    Forall FirstOk xs -> forallb (wfb w) xs = true -> st (lv_op o) r ->
    st (lv_op o) (append (txt_list (fun k x => txt (sub lay k) (lv_op o) x) (sep_txt o (lay [])) (S k) xs) r).
Proof.
  induction xs as [|x xs IH]; intros k F W Sr; cbn [txt_list append]; [exact Sr|].
  inversion F as [|? ? Fx Fxs]; subst. cbn [forallb] in W. apply andb_true_iff in W as [Wx Wxs].
  rewrite !append_assoc. apply sep_st. apply (Fx _ (lv_op o) w); [destruct o; cbn; lia|exact Wx|].
  apply mstop_low; [destruct o; cbn; lia|]. apply IH; assumption.
Qed.

Lemma factor_ctx_cases : forall prev x, factor_ctx prev x = 5%nat \/ factor_ctx prev x = 8%nat.
Proof. intros. unfold factor_ctx. destruct (prev && starts_lit x); auto. Qed.

Lemma factor_mstop : forall lay prev x T,
    wfb true x = true -> st 5 T ->
    (factor_open (factor_ctx prev x) x = true -> lit_rest false T /\ noq (skips T) = true) ->
    mstop lay (factor_ctx prev x) x T.
Proof.
  intros lay prev x T Wx S5 Lk. set (cx := factor_ctx prev x) in *.
  assert (Lv : lvl cx = 5%nat).
  { unfold cx, factor_ctx. destruct (prev && starts_lit x); reflexivity. }
  split; [rewrite Lv; exact S5|]. intros B.
  unfold bare in B. apply andb_true_iff in B as [B _]. apply negb_true_iff in B. apply Nat.ltb_ge in B.
  assert (C5 : cx = 5%nat).
  { unfold cx, factor_ctx in *. destruct (prev && starts_lit x); auto. destruct x; cbn [prec] in B; lia. }
  split.
  - intros O. apply Lk. unfold factor_open. rewrite C5, (open_end_inword x Wx O). reflexivity.
  - intros Pl. rewrite C5. cbn [Nat.leb]. apply Lk. unfold factor_open. rewrite C5, Pl. reflexivity.
Qed.

Lemma st5_of_c5 : forall r, c5 r -> st 5 r.
Proof. intros r H. unfold st. repeat split; intros; try lia. exact H. Qed.

Lemma sub_rest : forall (layk : nat -> layout) r,
    c4 r -> c5 r ->
    forall xs k prev,
      Forall (fun x => wfb true x = true /\ FirstOk x) xs ->
      (sub_last_open prev xs = true -> noq (skips r) = true) ->
      let T := append (txt_sub (fun k cx f => txt (layk k) cx f) k prev xs) r in
      st 5 T /\ (prev = true -> lit_rest false T /\ noq (skips T) = true)
      /\ (xs <> [] -> first_ok (txt_sub (fun k cx f => txt (layk k) cx f) k prev xs) r).
Proof.
  intros layk r R4 R5. induction xs as [|x xs IH]; intros k prev G E; cbv zeta.
  - cbn [txt_sub append sub_last_open] in *.
    split; [apply st5_of_c5; exact R5|]. split; [|congruence].
    intros H. split; [exact (c4_lit_rest false r R4)|apply E; exact H].
  - inversion G as [|? ? [Wx Fx] Gxs]; subst. cbn [txt_sub sub_last_open] in *.
    set (cx := factor_ctx prev x) in *. set (prev' := factor_open cx x) in *.
    destruct (IH (S k) prev' Gxs E) as (S5 & Lk & _). cbv zeta in *.
    set (T' := append (txt_sub (fun k0 cx0 f => txt (layk k0) cx0 f) (S k) prev' xs) r) in *.
    rewrite append_assoc. fold T'.
    assert (Fo : first_ok (txt (layk k) cx x) T').
    { apply (Fx (layk k) cx true T'); [destruct (factor_ctx_cases prev x); subst cx; lia|exact Wx|].
      apply factor_mstop; assumption. }
    split; [apply st5_of_c5; unfold c5; rewrite (first_ok_skips _ _ Fo); destruct Fo as (ch & s & _ & _ & D); exact D|].
    split.
    + intros Hp. subst prev.
      destruct (bracket_first (layk k) x true true Wx (or_introl eq_refl)) as (ch & s & Et & Bs).
      fold cx in Et. rewrite Et. cbn [append]. apply lit_rest_bstart. exact Bs.
    + intros _. apply first_ok_app. exact Fo.
Qed.

Definition FirstBody (e : expr) : Prop :=
  forall lay ctx w r, (ctx <= 8)%nat -> wfb w e = true -> cstop ctx e r -> first_ok (body_txt lay ctx e) r.

Lemma first_of_body : forall e, FirstBody e -> FirstOk e.
Proof.
  intros e H lay ctx w r Hc W [M Mx]. apply first_wrap. intros B. apply (H lay ctx w r Hc W).
  split; [|apply Mx; exact B].
  unfold bare in B. apply andb_true_iff in B as [B1 _]. apply negb_true_iff in B1. apply Nat.ltb_ge in B1.
  destruct (lvl_le ctx Hc). eapply st_mono; [|exact M]. lia.
Qed.

Lemma first_spelled : forall pref guard t x r,
    wf_lit t = true -> lit_rest guard (append x r) -> first_ok (append (pieces_text (spell pref guard t)) x) r.
Proof.
  intros pref guard t x r W LR. destruct (spelled_first pref guard t (append x r) W LR) as (S1 & _ & S3).
  pose proof (spelled_nonempty pref guard t ltac:(destruct t; discriminate)) as N.
  destruct (pieces_text (spell pref guard t)) as [|ch s]; [congruence|].
  exists ch, (append s x). rewrite append_assoc. auto.
Qed.

Theorem first_body_any : forall e, FirstBody e.
Proof.
  induction e using expr_ind_op; intros lay ctx w r Hc W M.
  -
    cbn [body_txt]. cbn [wfb] in W. apply andb_true_iff in W as [W _]. apply first_spelled; [exact W|].
    destruct d as [dd|]; [rewrite append_assoc; apply lit_rest_descr|]. apply M. reflexivity.
  - cbn [body_txt]. apply first_string; reflexivity.
  - cbn [body_txt]. unfold LBRACE3. cbn [append]. apply first_string; reflexivity.
  -
    rewrite body_txt_list. rewrite wfb_list in W. apply andb_true_iff in W as [W1 W2]. apply Nat.leb_le in W1.
    destruct M as [M _]. rewrite prec_list in M.
    assert (Sr : st (lv_op o) r) by (eapply st_mono; [|exact M]; lia).
    assert (F : Forall FirstOk cs) by (eapply Forall_impl; [apply first_of_body|exact H]).
    destruct cs as [|x xs]; [cbn in W1; lia|].
    inversion F as [|? ? Fx Fxs]; subst. cbn [forallb] in W2. apply andb_true_iff in W2 as [Wx Wxs].
    apply first_list. apply (Fx _ (lv_op o) w); [destruct o; cbn; lia|exact Wx|].
    apply mstop_low; [destruct o; cbn; lia|]. apply (list_rest_gen o lay w); assumption.
  - cbn [body_txt]. apply first_string; reflexivity.
  -
    cbn [body_txt]. apply first_ok_app. rewrite append_assoc.
    apply first_of_body in IHe. cbn [wfb] in W. apply (IHe _ 6%nat w); [lia|exact W|].
    split; [repeat split; intros; cbn [lvl Nat.eqb] in *; lia|].
    intros _. destruct (many_rest (nl_gap (lay []) 0) r) as [Q1 Q2]. split; intros _; auto.
  -
    cbn [body_txt]. apply first_ok_app. rewrite append_assoc.
    apply first_of_body in IHe. cbn [wfb] in W.
    destruct (open_end e) eqn:O.
    + apply (IHe _ 7%nat w); [lia | exact W |]. split; [apply st4_descr|].
      intros B'. unfold bare in B'. apply andb_true_iff in B' as [B' _]. apply negb_true_iff in B'.
      apply Nat.ltb_ge in B'. destruct e; cbn [prec] in B'; lia.
    + apply (IHe _ 4%nat w); [lia | exact W |]. split; [apply st4_descr|].
      intros _. split; intros X; [rewrite O in X; discriminate|].
      destruct e; try discriminate. destruct descr; discriminate.
  -
    cbn [wfb] in W. apply andb_true_iff in W as [W W3]. apply andb_true_iff in W as [Ww Wl].
    destruct e; try discriminate. cbn [body_txt].
    apply andb_true_iff in W3 as [Wlen Wfs]. apply Nat.leb_le in Wlen.
    destruct M as [M [Mx _]]. cbn [prec] in M.
    destruct (sub_rest (fun k => sub (sub lay 0) k) r ltac:(apply M; lia) ltac:(apply M; lia) children 0%nat false)
      as (_ & _ & Fo).
    + apply Forall_and; [apply forallb_Forall; exact Wfs|]. eapply Forall_impl; [apply first_of_body|exact H].
    + intros O. apply Mx. cbn [open_end]. exact O.
    + apply Fo. destruct children; [cbn in Wlen; lia|discriminate].
Qed.

Theorem first_ok_any : forall e, FirstOk e.
Proof. intros. apply first_of_body. apply first_body_any. Qed.

Lemma list_rest : forall o lay w r xs k, forallb (wfb w) xs = true -> st (lv_op o) r ->
    st (lv_op o) (append (txt_list (fun k x => txt (sub lay k) (lv_op o) x) (sep_txt o (lay [])) (S k) xs) r).
Proof. intros. apply (list_rest_gen o lay w); auto. apply Forall_forall. intros x _. apply first_ok_any. Qed.
