(** A declarative counterpart of [Spec.Domain.C01_domain] and the soundness of the decision.

    Points are sets of residuals (lists up to mutual inclusion).  [istep] reads one *class of
    items* (literals with the same text; otherwise one item); [reach] is its reflexive-transitive
    closure from the grammar.  [in_domain e] says, declaratively, what C01's quantifier says:
    at every reachable point ([point_decl]) literals with the same text carry the same description
    and level and two different within-word items have no word in common; inside every within-word
    expression the literal texts are non-empty and prefix-free and, at every point reachable inside
    the word ([wpoint_decl]), literals with the same text carry the same description and level, a
    command is expected under one level only, and nothing follows an undefined nonterminal.

    [C01_domain_sound : C01_domain e = true -> in_domain e].  (The converse does not hold: the
    exploration has a fuel bound and [TokAut.disjoint] may give up.)  [run_reach]: the points
    [Spec.Meaning.run] visits along a line that is not ambiguous are reachable points, so the
    conditions hold there ([C01_domain_along_runs]).  [complete_plain]: in a tree without
    within-word expressions the allowed candidates are the required ones. *)
From CG Require Import Base.Prelude Model.Ast Spec.Rx Spec.Meaning Spec.TokAut Spec.Domain
     Proofs.RxFacts Proofs.MeaningFacts Proofs.TokAutFacts.

Section ExploreFacts.
  Context {A : Type}.
  Variable eqA : A -> A -> bool.
  Variable same_item : A -> A -> bool.
  Variable ok : list (A * rx A) -> bool.
  Hypothesis eqA_sound : forall a b, eqA a b = true -> a = b.
  Hypothesis eqA_refl : forall a, eqA a a = true.
  Hypothesis same_refl : forall a, same_item a a = true.
  Hypothesis same_sym : forall a b, same_item a b = true -> same_item b a = true.
  Hypothesis same_trans : forall a b c, same_item a b = true -> same_item b c = true -> same_item a c = true.

  Notation st := (list (rx A)).

  Definition seq_st (s t : st) : Prop := forall k, In k s <-> In k t.

  Lemma seq_refl s : seq_st s s.
  Proof. intro k. reflexivity. Qed.
  Lemma seq_sym s t : seq_st s t -> seq_st t s.
  Proof. intros H k. symmetry. apply H. Qed.
  Lemma seq_trans s t u : seq_st s t -> seq_st t u -> seq_st s u.
  Proof. intros H1 H2 k. rewrite (H1 k). apply H2. Qed.

  Lemma rx_eqb_refl (r : rx A) : rx_eqb eqA r r = true.
  Proof. induction r; cbn [rx_eqb]; try reflexivity; try apply eqA_refl; try (rewrite IHr1, IHr2; reflexivity); assumption. Qed.

  Lemma mem_rx_iff r l : mem_rx eqA r l = true <-> In r l.
  Proof.
    split; [apply (mem_rx_In eqA eqA_sound) |].
    intro H. unfold mem_rx. apply existsb_exists. exists r. split; [assumption | apply rx_eqb_refl].
  Qed.

  Lemma state_eqb_seq s t : state_eqb eqA s t = true <-> seq_st s t.
  Proof.
    unfold state_eqb, sub_state. rewrite andb_true_iff, !forallb_forall. split.
    - intros [H1 H2] k. split; intro H; apply mem_rx_iff; [apply H1 | apply H2]; assumption.
    - intro H. split; intros k Hk; apply mem_rx_iff; apply H; assumption.
  Qed.

  Definition mvs (s : st) : list (A * rx A) := flat_map lf s.

  Lemma mvs_seq s t : seq_st s t -> forall ak, In ak (mvs s) <-> In ak (mvs t).
  Proof.
    intros H ak. unfold mvs. rewrite !in_flat_map. split; intros [r [Hr Hl]]; exists r; split; try assumption; apply H; assumption.
  Qed.

  (** Reading one class of items. *)
  Definition istep (s : st) (a : A) (t : st) : Prop :=
    forall k, In k t <-> exists a', In (a', k) (mvs s) /\ same_item a a' = true.

  Inductive reach (s0 : st) : st -> Prop :=
  | reach_here s : seq_st s0 s -> reach s0 s
  | reach_next s a t : reach s0 s -> In a (map fst (mvs s)) -> istep s a t -> reach s0 t.

  Lemma dedup_items_rep l : forall a, In a l -> exists a0, In a0 (dedup_items same_item l) /\ same_item a a0 = true.
  Proof.
    induction l as [| x l IH]; intros a Hin; [destruct Hin |].
    cbn [dedup_items]. destruct (existsb (same_item x) (dedup_items same_item l)) eqn:E.
    - destruct Hin as [<- | Hin]; [| apply IH; assumption].
      apply existsb_exists in E. destruct E as [a0 [H0 Hs]]. exists a0. split; assumption.
    - destruct Hin as [<- | Hin].
      + exists x. split; [left; reflexivity | apply same_refl].
      + destruct (IH a Hin) as [a0 [H0 Hs]]. exists a0. split; [right; assumption | assumption].
  Qed.

  Lemma dedup_items_incl l a : In a (dedup_items same_item l) -> In a l.
  Proof.
    induction l as [| x l IH]; intro H; [destruct H |].
    cbn [dedup_items] in H. destruct (existsb (same_item x) (dedup_items same_item l)).
    - right. apply IH. assumption.
    - destruct H as [<- | H]; [left; reflexivity | right; apply IH; assumption].
  Qed.

  Lemma succs_istep s a : In a (map fst (mvs s)) ->
                          exists t, In t (succs eqA same_item s) /\ istep s a t.
  Proof.
    intro Ha. destruct (dedup_items_rep _ a Ha) as [a0 [H0 Hs]].
    exists (dedup_rx eqA (map snd (filter (fun ak => same_item a0 (fst ak)) (mvs s)))). split.
    - unfold succs. apply in_map_iff. exists a0. split; [reflexivity | assumption].
    - intro k. rewrite (dedup_rx_In eqA eqA_sound), in_map_iff. split.
      + intros [[a' k'] [E Hin]]. cbn [snd] in E. subst k'. apply filter_In in Hin. destruct Hin as [Hin Hc].
        cbn [fst] in Hc. exists a'. split; [assumption | eapply same_trans; eassumption].
      + intros [a' [Hin Hc]]. exists (a', k). split; [reflexivity |]. apply filter_In. split; [assumption |].
        cbn [fst]. eapply same_trans; [apply same_sym; eassumption | assumption].
  Qed.

  Lemma istep_seq s s' a t t' : seq_st s s' -> istep s a t -> istep s' a t' -> seq_st t t'.
  Proof.
    intros H I1 I2 k. rewrite (I1 k), (I2 k). split; intros [a' [Hin Hc]]; exists a'; split; try assumption;
      apply (mvs_seq _ _ H); assumption.
  Qed.

  Definition covered (t : st) (l : list st) : Prop := exists t', In t' l /\ seq_st t t'.

  Record einv (todo seen : list st) : Prop := {
    einv_ok : forall s, In s seen -> ok (mvs s) = true;
    einv_succ : forall s, In s seen -> forall t, In t (succs eqA same_item s) -> covered t seen \/ In t todo
  }.

  Definition closed_set (S : list st) : Prop :=
    (forall s, In s S -> ok (mvs s) = true)
    /\ (forall s, In s S -> forall t, In t (succs eqA same_item s) -> covered t S).

  Lemma covered_mono t l l' : (forall x, In x l -> In x l') -> covered t l -> covered t l'.
  Proof. intros H [t' [Hin Hs]]. exists t'. split; [apply H; assumption | assumption]. Qed.

  Lemma existsb_covered s seen : existsb (state_eqb eqA s) seen = true <-> covered s seen.
  Proof.
    rewrite existsb_exists. split; intros [t [Hin H]]; exists t; split; try assumption; apply state_eqb_seq; assumption.
  Qed.

  Theorem explore_sound : forall fuel todo seen,
      explore eqA same_item ok fuel todo seen = true -> einv todo seen ->
      exists S, closed_set S /\ (forall s, In s seen -> In s S) /\ (forall s, In s todo -> covered s S).
  Proof.
    induction fuel as [| f IH]; intros todo seen H I; cbn [explore] in H; [discriminate |].
    destruct todo as [| s rest].
    - exists seen. split; [| split; [intros; assumption | intros s []]].
      split; [apply (einv_ok _ _ I) |]. intros s Hs t Ht.
      destruct (einv_succ _ _ I s Hs t Ht) as [C | []]. assumption.
    - destruct (existsb (state_eqb eqA s) seen) eqn:E.
      + apply existsb_covered in E.
        destruct (IH rest seen H) as [S [HS [Hseen Htodo]]].
        { constructor; [apply (einv_ok _ _ I) |]. intros s1 Hs1 t Ht.
          destruct (einv_succ _ _ I s1 Hs1 t Ht) as [C | [<- | Hin]]; [left; assumption | left; assumption | right; assumption]. }
        exists S. split; [assumption | split; [assumption |]].
        intros s1 [<- | Hin]; [| apply Htodo; assumption].
        eapply covered_mono; [| exact E]. assumption.
      + apply andb_true_iff in H. destruct H as [Hok H].
        destruct (IH (rest ++ succs eqA same_item s) (s :: seen) H) as [S [HS [Hseen Htodo]]].
        { constructor.
          - intros s1 [<- | Hs1]; [assumption | apply (einv_ok _ _ I); assumption].
          - intros s1 [<- | Hs1] t Ht.
            + right. apply in_or_app. right; assumption.
            + destruct (einv_succ _ _ I s1 Hs1 t Ht) as [C | [<- | Hin]].
              * left. eapply covered_mono; [| exact C]. intros x Hx. right; assumption.
              * left. exists s. split; [left; reflexivity | apply seq_refl].
              * right. apply in_or_app. left; assumption. }
        exists S. split; [assumption | split].
        * intros s1 Hs1. apply Hseen. right; assumption.
        * intros s1 [<- | Hin].
          -- exists s. split; [apply Hseen; left; reflexivity | apply seq_refl].
          -- apply Htodo. apply in_or_app. left; assumption.
  Qed.

  (** A property of points that only depends on the set of moves and that [ok] guarantees. *)
  Variable P : list (A * rx A) -> Prop.
  Hypothesis P_ext : forall mv mv', (forall ak, In ak mv <-> In ak mv') -> P mv -> P mv'.
  Hypothesis ok_P : forall mv, ok mv = true -> P mv.

  Lemma closed_reach S s0 :
    closed_set S -> covered s0 S -> forall s, reach s0 s -> covered s S.
  Proof.
    intros [Hok Hcl] H0 s R. induction R as [s Hs | s a t R IH Ha Hi].
    - destruct H0 as [s' [Hin Hseq]]. exists s'. split; [assumption |].
      eapply seq_trans; [apply seq_sym; eassumption | assumption].
    - destruct IH as [s' [Hin Hseq]].
      assert (Ha' : In a (map fst (mvs s'))).
      { apply in_map_iff in Ha. destruct Ha as [[a1 k] [E Hk]]. cbn [fst] in E. subst a1.
        apply in_map_iff. exists (a, k). split; [reflexivity | apply (mvs_seq _ _ Hseq); assumption]. }
      destruct (succs_istep s' a Ha') as [t0 [Ht0 Hi0]].
      destruct (Hcl s' Hin t0 Ht0) as [t1 [Hin1 Hseq1]].
      exists t1. split; [assumption |].
      apply (seq_trans t t0 t1); [exact (istep_seq s s' a t t0 Hseq Hi Hi0) | exact Hseq1].
  Qed.

  Theorem explore_reach s0 :
    explore eqA same_item ok explore_fuel [s0] [] = true ->
    forall s, reach s0 s -> P (mvs s).
  Proof.
    intros H s R.
    destruct (explore_sound _ _ _ H) as [S [HS [_ Htodo]]].
    { constructor; intros s1 []. }
    assert (C : covered s S).
    { eapply closed_reach; [exact HS | apply Htodo; left; reflexivity | exact R]. }
    destruct C as [s' [Hin Hseq]]. destruct HS as [Hok _].
    apply (P_ext (mvs s')); [intro ak; symmetry; apply (mvs_seq _ _ Hseq) |].
    apply ok_P. apply Hok. assumption.
  Qed.
End ExploreFacts.

Lemma mvs_In {A} (S : list (rx A)) a k : In (a, k) (mvs S) <-> exists r, In r S /\ In (a, k) (lf r).
Proof. unfold mvs. rewrite in_flat_map. reflexivity. Qed.

Lemma all_pairs_spec {A} (p : A -> A -> bool) (l : list A) :
  all_pairs p l = true ->
  forall x y, In x l -> In y l -> x = y \/ p x y = true \/ p y x = true.
Proof.
  induction l as [| a l IH]; intros H x y Hx Hy; [destruct Hx |].
  cbn [all_pairs] in H. apply andb_true_iff in H. destruct H as [Ha Hl].
  rewrite forallb_forall in Ha.
  destruct Hx as [<- | Hx], Hy as [<- | Hy].
  - left; reflexivity.
  - right; left. apply Ha. assumption.
  - right; right. apply Ha. assumption.
  - apply IH; assumption.
Qed.

(** Inside a word: literals with the same text carry the same label, a command is expected under
    one level, nothing follows an undefined nonterminal. *)
Definition wpoint_decl (mv : list (wleaf * rx wleaf)) : Prop :=
  (forall t d l d' l' k k', In (WLit t d l, k) mv -> In (WLit t d' l', k') mv -> d = d' /\ l = l')
  /\ (forall c l l' k k', In (WCmd c l, k) mv -> In (WCmd c l', k') mv -> l = l')
  /\ (forall k, In (WAny, k) mv -> eps_only k = true).

Definition sub_lang (x : rx wleaf) (w : string) : Prop := tacc (rx wleaf) wnext nullable x w.

(** At a point of the grammar: the same for literals, and two different within-word items have
    no word in common. *)
Definition point_decl (mv : list (leaf * rx leaf)) : Prop :=
  (forall t d l d' l' k k', In (LLit t d l, k) mv -> In (LLit t d' l', k') mv -> d = d' /\ l = l')
  /\ (forall x l x' l' k k', In (LSub x l, k) mv -> In (LSub x' l', k') mv ->
                            LSub x l = LSub x' l' \/ forall w, ~ (sub_lang x w /\ sub_lang x' w)).

Lemma wpoint_ok_decl mv : wpoint_ok mv = true -> wpoint_decl mv.
Proof.
  intro H0. unfold wpoint_ok in H0. apply andb_true_iff in H0. destruct H0 as [H Hany]. split; [| split].
  - intros t d l d' l' k k' H1 H2.
    assert (I1 : In (WLit t d l) (map fst mv)) by (apply in_map_iff; exists (WLit t d l, k); split; [reflexivity | assumption]).
    assert (I2 : In (WLit t d' l') (map fst mv)) by (apply in_map_iff; exists (WLit t d' l', k'); split; [reflexivity | assumption]).
    destruct (all_pairs_spec _ _ H _ _ I1 I2) as [E | [E | E]].
    + inversion E; subst. split; reflexivity.
    + rewrite String.eqb_refl in E. cbn in E. apply andb_true_iff in E. destruct E as [Ed El].
      apply option_eqb_str_sound in Ed. apply N.eqb_eq in El. split; assumption.
    + rewrite String.eqb_refl in E. cbn in E. apply andb_true_iff in E. destruct E as [Ed El].
      apply option_eqb_str_sound in Ed. apply N.eqb_eq in El. split; symmetry; assumption.
  - intros c l l' k k' H1 H2.
    assert (I1 : In (WCmd c l) (map fst mv)) by (apply in_map_iff; exists (WCmd c l, k); split; [reflexivity | assumption]).
    assert (I2 : In (WCmd c l') (map fst mv)) by (apply in_map_iff; exists (WCmd c l', k'); split; [reflexivity | assumption]).
    destruct (all_pairs_spec _ _ H _ _ I1 I2) as [E | [E | E]].
    + inversion E; subst. reflexivity.
    + rewrite String.eqb_refl in E. cbn in E. apply N.eqb_eq in E. exact E.
    + rewrite String.eqb_refl in E. cbn in E. apply N.eqb_eq in E. symmetry. exact E.
  - intros k Hin. rewrite forallb_forall in Hany. apply (Hany (WAny, k) Hin).
Qed.

Lemma rx_wleaf_eqb_sound a b : rx_eqb wleaf_eqb a b = true -> a = b.
Proof. apply (rx_eqb_sound wleaf_eqb wleaf_eqb_sound). Qed.

Lemma wdisjoint_sound x x' : wdisjoint x x' = true -> forall w, ~ (sub_lang x w /\ sub_lang x' w).
Proof.
  unfold wdisjoint, sub_lang. intro H.
  apply (disjoint_sound (rx wleaf) (rx wleaf) wnext wnext nullable nullable
                        (rx_eqb wleaf_eqb) (rx_eqb wleaf_eqb) rx_wleaf_eqb_sound rx_wleaf_eqb_sound _ _ H).
Qed.

Lemma point_ok_decl mv : point_ok mv = true -> point_decl mv.
Proof.
  intro H. unfold point_ok in H. split.
  - intros t d l d' l' k k' H1 H2.
    assert (I1 : In (LLit t d l) (map fst mv)) by (apply in_map_iff; exists (LLit t d l, k); split; [reflexivity | assumption]).
    assert (I2 : In (LLit t d' l') (map fst mv)) by (apply in_map_iff; exists (LLit t d' l', k'); split; [reflexivity | assumption]).
    destruct (all_pairs_spec _ _ H _ _ I1 I2) as [E | [E | E]].
    + inversion E; subst. split; reflexivity.
    + rewrite String.eqb_refl in E. cbn in E. apply andb_true_iff in E. destruct E as [Ed El].
      apply option_eqb_str_sound in Ed. apply N.eqb_eq in El. split; assumption.
    + rewrite String.eqb_refl in E. cbn in E. apply andb_true_iff in E. destruct E as [Ed El].
      apply option_eqb_str_sound in Ed. apply N.eqb_eq in El. split; symmetry; assumption.
  - intros x l x' l' k k' H1 H2.
    assert (I1 : In (LSub x l) (map fst mv)) by (apply in_map_iff; exists (LSub x l, k); split; [reflexivity | assumption]).
    assert (I2 : In (LSub x' l') (map fst mv)) by (apply in_map_iff; exists (LSub x' l', k'); split; [reflexivity | assumption]).
    destruct (all_pairs_spec _ _ H _ _ I1 I2) as [E | [E | E]].
    + left; assumption.
    + apply orb_true_iff in E. destruct E as [E | E].
      * left. apply leaf_eqb_sound. assumption.
      * right. apply wdisjoint_sound. assumption.
    + apply orb_true_iff in E. destruct E as [E | E].
      * left. symmetry. apply leaf_eqb_sound. assumption.
      * right. intros w [W1 W2]. apply (wdisjoint_sound _ _ E w). split; assumption.
Qed.

Lemma option_eqb_str_refl (x : option string) : option_eqb String.eqb x x = true.
Proof. destruct x; cbn; [apply String.eqb_refl | reflexivity]. Qed.

Lemma wleaf_eqb_refl a : wleaf_eqb a a = true.
Proof.
  destruct a; cbn [wleaf_eqb]; try reflexivity.
  - rewrite String.eqb_refl, option_eqb_str_refl, N.eqb_refl. reflexivity.
  - rewrite String.eqb_refl, N.eqb_refl. reflexivity.
Qed.

Lemma leaf_eqb_refl a : leaf_eqb a a = true.
Proof.
  destruct a; cbn [leaf_eqb]; try reflexivity.
  - rewrite String.eqb_refl, option_eqb_str_refl, N.eqb_refl. reflexivity.
  - rewrite String.eqb_refl, N.eqb_refl. reflexivity.
  - rewrite (rx_eqb_refl wleaf_eqb wleaf_eqb_refl), N.eqb_refl. reflexivity.
Qed.

Lemma wsame_refl a : wsame_item a a = true.
Proof. destruct a; cbn [wsame_item]; [apply String.eqb_refl | apply wleaf_eqb_refl | reflexivity]. Qed.

Lemma wsame_sym a b : wsame_item a b = true -> wsame_item b a = true.
Proof.
  destruct a, b; cbn [wsame_item wleaf_eqb]; intro H; try discriminate; try reflexivity.
  - apply String.eqb_eq in H. subst. apply String.eqb_refl.
  - apply andb_true_iff in H. destruct H as [Hc Hl]. apply String.eqb_eq in Hc. apply N.eqb_eq in Hl. subst.
    rewrite String.eqb_refl, N.eqb_refl. reflexivity.
Qed.

Lemma wsame_trans a b c : wsame_item a b = true -> wsame_item b c = true -> wsame_item a c = true.
Proof.
  destruct a, b; cbn [wsame_item wleaf_eqb]; intro H; try discriminate; destruct c; cbn [wsame_item wleaf_eqb]; intro H'; try discriminate; try reflexivity.
  - apply String.eqb_eq in H. apply String.eqb_eq in H'. subst. apply String.eqb_refl.
  - apply andb_true_iff in H. destruct H as [Hc Hl]. apply String.eqb_eq in Hc. apply N.eqb_eq in Hl. subst. assumption.
Qed.

Lemma same_refl' a : same_item a a = true.
Proof. destruct a; cbn [same_item]; [apply String.eqb_refl | apply leaf_eqb_refl | reflexivity | apply leaf_eqb_refl]. Qed.

Lemma same_sym' a b : same_item a b = true -> same_item b a = true.
Proof.
  destruct a, b; cbn [same_item]; intro H; try discriminate; try reflexivity.
  - apply String.eqb_eq in H. subst. apply String.eqb_refl.
  - apply leaf_eqb_sound in H. inversion H; subst. apply leaf_eqb_refl.
  - apply leaf_eqb_sound in H. inversion H; subst. apply leaf_eqb_refl.
Qed.

Lemma same_trans' a b c : same_item a b = true -> same_item b c = true -> same_item a c = true.
Proof.
  destruct a, b; cbn [same_item]; intro H; try discriminate; destruct c; cbn [same_item]; intro H'; try discriminate; try reflexivity.
  - apply String.eqb_eq in H. apply String.eqb_eq in H'. subst. apply String.eqb_refl.
  - apply leaf_eqb_sound in H. inversion H; subst. assumption.
  - apply leaf_eqb_sound in H. inversion H; subst. assumption.
Qed.

Definition prefix_free (ts : list string) : Prop :=
  forall s t, In s ts -> In t ts -> s = t \/ (String.prefix s t = false /\ String.prefix t s = false).

Definition word_in_domain (x : rx wleaf) : Prop :=
  (forall t, In t (wlit_texts x) -> t <> EmptyString)
  /\ prefix_free (wlit_texts x)
  /\ forall s, reach wsame_item [x] s -> wpoint_decl (mvs s).

Definition in_domain (e : expr) : Prop :=
  (forall x, In x (subwords_of (tr e)) -> word_in_domain x)
  /\ forall s, reach same_item (start e) s -> point_decl (mvs s).

Lemma wpoint_decl_ext mv mv' : (forall ak, In ak mv <-> In ak mv') -> wpoint_decl mv -> wpoint_decl mv'.
Proof.
  intros H [P1 [P2 P3]]. split; [| split].
  - intros t d l d' l' k k' H1 H2. apply (P1 t d l d' l' k k'); apply H; assumption.
  - intros c l l' k k' H1 H2. apply (P2 c l l' k k'); apply H; assumption.
  - intros k H1. apply P3. apply H. exact H1.
Qed.

Lemma point_decl_ext mv mv' : (forall ak, In ak mv <-> In ak mv') -> point_decl mv -> point_decl mv'.
Proof.
  intros H [P1 P2]. split.
  - intros t d l d' l' k k' H1 H2. apply (P1 t d l d' l' k k'); apply H; assumption.
  - intros x l x' l' k k' H1 H2. apply (P2 x l x' l' k k'); apply H; assumption.
Qed.

Lemma word_ok_sound x : word_ok x = true -> word_in_domain x.
Proof.
  unfold word_ok. intro H. apply andb_true_iff in H. destruct H as [H He]. apply andb_true_iff in H. destruct H as [Hn Hp].
  split; [| split].
  - intros t Ht E. rewrite forallb_forall in Hn. specialize (Hn t Ht). subst t. discriminate.
  - intros s t Hs Ht. destruct (all_pairs_spec _ _ Hp _ _ Hs Ht) as [E | [E | E]]; [left; assumption | |];
      unfold prefix_free2 in E; apply orb_true_iff in E; destruct E as [E | E].
    + left. apply String.eqb_eq. assumption.
    + right. apply negb_true_iff in E. apply orb_false_iff in E. assumption.
    + left. symmetry. apply String.eqb_eq. assumption.
    + right. apply negb_true_iff in E. apply orb_false_iff in E. destruct E; split; assumption.
  - apply (explore_reach wleaf_eqb wsame_item wpoint_ok wleaf_eqb_sound wleaf_eqb_refl wsame_refl wsame_sym wsame_trans
                         wpoint_decl wpoint_decl_ext wpoint_ok_decl). assumption.
Qed.

Theorem C01_domain_sound e : C01_domain e = true -> in_domain e.
Proof.
  unfold C01_domain. intro H. apply andb_true_iff in H. destruct H as [Hw He]. split.
  - intros x Hx. rewrite forallb_forall in Hw. apply word_ok_sound. apply Hw. assumption.
  - apply (explore_reach leaf_eqb same_item point_ok leaf_eqb_sound leaf_eqb_refl same_refl' same_sym' same_trans'
                         point_decl point_decl_ext point_ok_decl). assumption.
Qed.

Lemma dedup_leaf_rep l : forall a, In a l -> exists a0, In a0 (dedup_leaf l) /\ a = a0.
Proof.
  induction l as [| x l IH]; intros a Hin; [destruct Hin |].
  cbn [dedup_leaf]. destruct (existsb (leaf_eqb x) (dedup_leaf l)) eqn:E.
  - destruct Hin as [<- | Hin]; [| apply IH; assumption].
    apply existsb_exists in E. destruct E as [a0 [H0 Hs]]. apply leaf_eqb_sound in Hs. exists a0. split; assumption.
  - destruct Hin as [<- | Hin].
    + exists x. split; [left; reflexivity | reflexivity].
    + destruct (IH a Hin) as [a0 [H0 Hs]]. exists a0. split; [right; assumption | assumption].
Qed.

Lemma run_nil en ws : run en [] ws = [].
Proof. induction ws as [| w ws IH]; [reflexivity |]. cbn [run fold_left]. exact IH. Qed.

Lemma same_item_lit w d l a : same_item (LLit w d l) a = true <-> exists d' l', a = LLit w d' l'.
Proof.
  destruct a; cbn [same_item leaf_eqb]; split; intro H; try discriminate; try (destruct H as [d' [l' H]]; discriminate).
  - apply String.eqb_eq in H. subst. eauto.
  - destruct H as [d' [l' H]]. inversion H; subst. apply String.eqb_refl.
Qed.

Lemma same_item_nonlit a a' : is_lit a = false -> (same_item a a' = true <-> a = a').
Proof.
  intro Hl. destruct a; try discriminate; cbn [same_item]; (split; [apply leaf_eqb_sound | intros <-; apply leaf_eqb_refl]).
Qed.

Lemma accepting_unique en s w a1 k1 a2 k2 :
  ~ lit_expected (moves s) w -> ambiguous_step en s w = false ->
  In (a1, k1) (moves s) -> mid_accepts en a1 w = true -> In (a2, k2) (moves s) -> mid_accepts en a2 w = true -> a1 = a2.
Proof.
  intros Hnl Hamb H1 A1 H2 A2. unfold ambiguous_step in Hamb.
  rewrite (proj2 (lit_next_nil w (moves s)) Hnl) in Hamb.
  set (l := map fst (filter (fun ak => mid_accepts en (fst ak) w) (moves s))) in Hamb.
  assert (I1 : In a1 l) by (apply in_map_iff; exists (a1, k1); split; [reflexivity | apply filter_In; split; assumption]).
  assert (I2 : In a2 l) by (apply in_map_iff; exists (a2, k2); split; [reflexivity | apply filter_In; split; assumption]).
  destruct (dedup_leaf_rep l a1 I1) as [b1 [J1 E1]]. destruct (dedup_leaf_rep l a2 I2) as [b2 [J2 E2]]. subst b1 b2.
  destruct (dedup_leaf l) as [| y [| z r]]; [destruct J1 | | discriminate].
  destruct J1 as [<- | []]. destruct J2 as [<- | []]. reflexivity.
Qed.

Lemma chosen_same en s w a1 k1 a2 k2 :
  ambiguous_step en s w = false ->
  In (a1, k1) (moves s) -> chosen en (moves s) w a1 -> In (a2, k2) (moves s) -> chosen en (moves s) w a2 ->
  (exists d1 l1 d2 l2, a1 = LLit w d1 l1 /\ a2 = LLit w d2 l2) \/ a1 = a2.
Proof.
  intros Hamb H1 C1 H2 C2.
  assert (Hmid : forall b kb b' kb', In (b, kb) (moves s) -> mid_accepts en b w = true -> ~ lit_expected (moves s) w ->
                                    In (b', kb') (moves s) -> mid_accepts en b' w = true -> b = b').
  { intros b kb b' kb' Hb Mb Hnl Hb' Mb'. apply (accepting_unique en s w b kb b' kb' Hnl Hamb Hb Mb Hb' Mb'). }
  destruct a1 as [t1 d1 l1 | c1 l1 | | x1 l1]; cbn [chosen] in C1.
  - subst t1. destruct a2 as [t2 d2 l2 | c2 l2 | | x2 l2]; cbn [chosen] in C2.
    + subst t2. left. exists d1, l1, d2, l2. split; reflexivity.
    + destruct C2 as [_ C2]. exfalso. apply C2. exists d1, l1, k1. exact H1.
    + destruct C2 as [C2 _]. exfalso. apply C2. exists d1, l1, k1. exact H1.
    + destruct C2 as [_ C2]. exfalso. apply C2. exists d1, l1, k1. exact H1.
  - right. destruct C1 as [M1 Nl]. destruct a2 as [t2 d2 l2 | c2 l2 | | x2 l2]; cbn [chosen] in C2.
    + subst t2. exfalso. apply Nl. exists d2, l2, k2. exact H2.
    + destruct C2 as [M2 _]. apply (Hmid _ k1 _ k2 H1 M1 Nl H2 M2).
    + destruct C2 as [_ C2]. exfalso. apply C2. exists (LCmd c1 l1), k1. split; assumption.
    + destruct C2 as [M2 _]. apply (Hmid _ k1 _ k2 H1 M1 Nl H2 M2).
  - right. destruct C1 as [Nl Nm]. destruct a2 as [t2 d2 l2 | c2 l2 | | x2 l2]; cbn [chosen] in C2.
    + subst t2. exfalso. apply Nl. exists d2, l2, k2. exact H2.
    + destruct C2 as [M2 _]. exfalso. apply Nm. exists (LCmd c2 l2), k2. split; assumption.
    + reflexivity.
    + destruct C2 as [M2 _]. exfalso. apply Nm. exists (LSub x2 l2), k2. split; assumption.
  - right. destruct C1 as [M1 Nl]. destruct a2 as [t2 d2 l2 | c2 l2 | | x2 l2]; cbn [chosen] in C2.
    + subst t2. exfalso. apply Nl. exists d2, l2, k2. exact H2.
    + destruct C2 as [M2 _]. apply (Hmid _ k1 _ k2 H1 M1 Nl H2 M2).
    + destruct C2 as [_ C2]. exfalso. apply C2. exists (LSub x1 l1), k1. split; assumption.
    + destruct C2 as [M2 _]. apply (Hmid _ k1 _ k2 H1 M1 Nl H2 M2).
Qed.

Lemma step_istep en s w :
  ambiguous_step en s w = false -> step en s w <> [] ->
  exists a, In a (map fst (moves s)) /\ istep same_item s a (step en s w).
Proof.
  intros Hamb Hne. destruct (step en s w) as [| k0 r0] eqn:Es; [contradiction |]. rewrite <- Es. clear Hne.
  assert (H0 : In k0 (step en s w)) by (rewrite Es; left; reflexivity).
  apply step_spec in H0. destruct H0 as [a [Hin Hc]]. exists a. split; [apply in_map_iff; exists (a, k0); split; [reflexivity | exact Hin] |].
  intro k. rewrite step_spec. split.
  - intros [a' [Hin' Hc']]. exists a'. split; [exact Hin' |].
    destruct (chosen_same en s w a k0 a' k Hamb Hin Hc Hin' Hc') as [[d1 [l1 [d2 [l2 [-> ->]]]]] | <-]; [apply same_item_lit; eauto | apply same_refl'].
  - intros [a' [Hin' Hs]]. exists a'. split; [exact Hin' |]. destruct (is_lit a) eqn:Hl.
    + destruct a; try discriminate. cbn [chosen] in Hc. subst t. apply same_item_lit in Hs. destruct Hs as [d' [l' ->]]. reflexivity.
    + apply (same_item_nonlit a a' Hl) in Hs. subst a'. exact Hc.
Qed.

Theorem run_reach en s0 : forall ws s,
    reach same_item s0 s -> ambiguous_run en s ws = false -> run en s ws <> [] ->
    reach same_item s0 (run en s ws).
Proof.
  induction ws as [| w ws IH]; intros s R Hamb Hne; [assumption |].
  cbn [ambiguous_run] in Hamb. apply orb_false_iff in Hamb. destruct Hamb as [Ha Hr].
  cbn [run fold_left] in *. change (fold_left (step en) ws (step en s w)) with (run en (step en s w) ws) in *.
  assert (Hs : step en s w <> []).
  { intro E. rewrite E, run_nil in Hne. apply Hne. reflexivity. }
  destruct (step_istep en s w Ha Hs) as [a [Hin Hi]].
  apply IH; [| assumption | assumption].
  eapply reach_next; eassumption.
Qed.

(** Inside the decided domain, at every point the specification reaches along an unambiguous
    line, literals with the same text carry the same label and two different within-word items
    have no word in common. *)
Theorem C01_domain_along_runs e en ws :
  C01_domain e = true -> ambiguous_run en (start e) ws = false -> matched en e ws = true ->
  point_decl (moves (run en (start e) ws)).
Proof.
  intros Hd Hamb Hm. destruct (C01_domain_sound e Hd) as [_ Hp].
  apply Hp. apply run_reach; [apply reach_here; apply seq_refl | assumption |].
  unfold matched in Hm. destruct (run en (start e) ws); [discriminate | discriminate].
Qed.

Lemma run_leaves en : forall ws s k, In k (run en s ws) -> forall a, In a (leaves k) -> exists r, In r s /\ In a (leaves r).
Proof.
  induction ws as [| w ws IH]; intros s k Hk a Ha; [exists k; split; assumption |].
  destruct (IH (step en s w) k Hk a Ha) as [k1 [Hk1 Ha1]].
  apply step_spec in Hk1. destruct Hk1 as [a1 [Hmv _]]. apply moves_In in Hmv. destruct Hmv as [r [Hr Hlf]].
  exists r. split; [exact Hr | apply (lf_leaves r a1 k1 Hlf); exact Ha1].
Qed.

Theorem complete_plain e en ws p req al :
  subwords_of (tr e) = [] -> complete e en ws p = Some (req, al) -> al = req.
Proof.
  intros Hno H. unfold complete in H. destruct (run en (start e) ws) as [| k0 s0] eqn:Er; [discriminate |].
  assert (Hid : state_identical en (k0 :: s0) p = false).
  { unfold state_identical. apply not_true_is_false. intro Hx. apply existsb_exists in Hx.
    destruct Hx as [[a k] [Hmv Hx]]. destruct a as [| | | x l]; try discriminate.
    apply moves_In in Hmv. destruct Hmv as [r [Hr Hlf]]. rewrite <- Er in Hr.
    destruct (run_leaves en ws (start e) r Hr (LSub x l) (proj1 (lf_leaves r _ k Hlf))) as [r0 [[<- | []] Ha]].
    assert (Hin : In x (subwords_of (tr e))) by (apply in_flat_map; exists (LSub x l); split; [exact Ha | left; reflexivity]).
    rewrite Hno in Hin. destruct Hin. }
  rewrite Hid, app_nil_r in H. inversion H; subst. reflexivity.
Qed.
