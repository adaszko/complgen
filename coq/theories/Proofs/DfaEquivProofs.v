(** C03, validator side: the executable deciders of [Spec.DfaEquiv] are sound (and complete)
    for the propositions they decide, and a trim automaton with pairwise distinguishable states
    has the minimal number of states among all automata of its language (Myhill-Nerode).
    Also the elementary facts about [states], [run] and the sink-completed [orun] that the proofs
    about [do_minimize] share, and the transfer of these properties along a map of states
    ([Section Morphism]). *)
From CG Require Import Base.Prelude Base.Facts Model.Dfa Spec.DfaEquiv Proofs.ListFacts.

Lemma inp_eqb_eq a b : inp_eqb a b = true <-> a = b.
Proof. destruct a, b; cbn; autorewrite with eqb; intuition congruence. Qed.
#[export] Hint Rewrite inp_eqb_eq : eqb.

Lemma step_inv d s i t : step d s i = Some t ->
  exists row, assocN s (d_trans d) = Some row /\ assocN i row = Some t.
Proof.
  unfold step. destruct (assocN s (d_trans d)) as [row|]; [|discriminate].
  intro H. exists row. split; [reflexivity|exact H].
Qed.

Lemma step_In_trans d s i t : step d s i = Some t -> In t (trans_states d).
Proof.
  intro H. apply step_inv in H. destruct H as [row [H1 H2]].
  apply assocN_In in H1. apply assocN_In in H2.
  unfold trans_states. apply in_flat_map. exists (s, row). split; [exact H1|].
  cbn [fst snd]. right. apply in_map_iff. exists (i, t). split; [reflexivity|exact H2].
Qed.

Lemma step_src_In_trans d s i t : step d s i = Some t -> In s (trans_states d).
Proof.
  intro H. apply step_inv in H. destruct H as [row [H1 H2]].
  apply assocN_In in H1.
  unfold trans_states. apply in_flat_map. exists (s, row). split; [exact H1|].
  cbn [fst snd]. left. reflexivity.
Qed.

Lemma step_In_alphabet d s i t : step d s i = Some t -> In i (alphabet d).
Proof.
  intro H. apply step_inv in H. destruct H as [row [H1 H2]].
  apply assocN_In in H1. apply assocN_In in H2.
  unfold alphabet. apply nodup_In. apply in_flat_map. exists (s, row). split; [exact H1|].
  cbn [fst snd]. apply in_map_iff. exists (i, t). split; [reflexivity|exact H2].
Qed.

Lemma In_states d s :
  In s (states d) <-> s = d_start d \/ In s (trans_states d) \/ In s (d_accepting d).
Proof.
  unfold states. rewrite nodup_In. cbn [In]. rewrite in_app_iff.
  split; intros [H|H]; auto.
Qed.

Lemma start_In_states d : In (d_start d) (states d).
Proof. apply In_states. left. reflexivity. Qed.

Lemma NoDup_states d : NoDup (states d).
Proof. apply NoDup_nodup. Qed.

Lemma step_In_states d s i t : step d s i = Some t -> In t (states d).
Proof. intro H. apply In_states. right. left. eapply step_In_trans, H. Qed.

Lemma step_src_In_states d s i t : step d s i = Some t -> In s (states d).
Proof. intro H. apply In_states. right. left. eapply step_src_In_trans, H. Qed.

Lemma is_accepting_In d s : is_accepting d s = true <-> In s (d_accepting d).
Proof. apply memN_In. Qed.

Lemma is_accepting_In_states d s : is_accepting d s = true -> In s (states d).
Proof. intro H. apply In_states. right. right. apply is_accepting_In, H. Qed.

Lemma orun_None d w : orun d None w = None.
Proof. induction w as [|i r IH]; cbn [orun ostep]; [reflexivity|exact IH]. Qed.

Lemma run_orun d s w : run d s w = orun d (Some s) w.
Proof.
  revert s. induction w as [|i r IH]; intro s; cbn [run orun ostep]; [reflexivity|].
  destruct (step d s i); [apply IH|symmetry; apply orun_None].
Qed.

Lemma accepts_from_oaccepts_from d x w : accepts_from d x w = oaccepts_from d (Some x) w.
Proof.
  unfold accepts_from, oaccepts_from. rewrite run_orun.
  destruct (orun d (Some x) w); reflexivity.
Qed.

Lemma oaccepts_from_None d w : oaccepts_from d None w = false.
Proof. unfold oaccepts_from. rewrite orun_None. reflexivity. Qed.

Lemma oaccepts_from_cons d s i w : oaccepts_from d s (i :: w) = oaccepts_from d (ostep d s i) w.
Proof. reflexivity. Qed.

Lemma orun_app d s w1 w2 : orun d s (w1 ++ w2) = orun d (orun d s w1) w2.
Proof.
  revert s. induction w1 as [|i r IH]; intro s; cbn [app orun]; [reflexivity|apply IH].
Qed.

Lemma run_app d s w1 w2 :
  run d s (w1 ++ w2) = match run d s w1 with Some t => run d t w2 | None => None end.
Proof.
  rewrite (run_orun d s (w1 ++ w2)), (run_orun d s w1), orun_app.
  destruct (orun d (Some s) w1); [symmetry; apply run_orun|apply orun_None].
Qed.

Lemma accepts_app d w v s :
  run d (d_start d) w = Some s -> accepts d (w ++ v) = accepts_from d s v.
Proof. intro H. unfold accepts, accepts_from. rewrite run_app, H. reflexivity. Qed.

Lemma accepts_app_None d w v : run d (d_start d) w = None -> accepts d (w ++ v) = false.
Proof. intro H. unfold accepts, accepts_from. rewrite run_app, H. reflexivity. Qed.

Lemma run_In_states d : forall w s t, In s (states d) -> run d s w = Some t -> In t (states d).
Proof.
  induction w as [|i r IH]; intros s t Hs; cbn [run].
  - intro H. injection H as <-. exact Hs.
  - destruct (step d s i) as [u|] eqn:E; [|discriminate].
    apply IH. eapply step_In_states, E.
Qed.

(** A map of states that commutes with start, steps and acceptance, and (from [Honto] on) is onto
    the states of [m], carries language, trimness and distinguishability from [d] to [m].
    MinimizeCorrect.v applies it to the map from a raw state to the renumbered representative of its
    block. *)
Section Morphism.
  Variables (d m : dfa) (phi : N -> N).
  Hypothesis Hstart : d_start m = phi (d_start d).
  Hypothesis Hstep : forall x i, In x (states d) -> step m (phi x) i = option_map phi (step d x i).
  Hypothesis Hacc : forall x, In x (states d) -> is_accepting m (phi x) = is_accepting d x.

  Lemma run_phi w : forall x, In x (states d) -> run m (phi x) w = option_map phi (run d x w).
  Proof.
    induction w as [|i w IH]; intros x Hx; cbn [run]; [reflexivity|]. rewrite (Hstep x i Hx).
    destruct (step d x i) as [y|] eqn:E; cbn [option_map]; [|reflexivity].
    apply IH. eapply step_In_states, E.
  Qed.

  Lemma accepts_from_phi w x : In x (states d) -> accepts_from m (phi x) w = accepts_from d x w.
  Proof.
    intro Hx. unfold accepts_from. rewrite (run_phi w x Hx).
    destruct (run d x w) as [y|] eqn:E; cbn [option_map]; [|reflexivity].
    apply Hacc. eapply run_In_states; eauto.
  Qed.

  Lemma morphism_lang : lang_eq m d.
  Proof. intro w. unfold accepts. rewrite Hstart. apply accepts_from_phi, start_In_states. Qed.

  Hypothesis Honto : forall q, In q (states m) -> exists x, In x (states d) /\ q = phi x.

  Lemma morphism_trim : trim d -> trim m.
  Proof.
    intros [Hr Hc]. split; intros q Hq; destruct (Honto q Hq) as [x [Hx ->]].
    - destruct (Hr x Hx) as [w Hw]. exists w.
      rewrite Hstart, (run_phi w _ (start_In_states d)), Hw. reflexivity.
    - destruct (Hc x Hx) as [w Hw]. exists w. rewrite accepts_from_phi; assumption.
  Qed.

  Lemma morphism_distinct :
    (forall x y, In x (states d) -> In y (states d) -> phi x <> phi y ->
                 exists w, accepts_from d x w <> accepts_from d y w) ->
    pairwise_distinguishable m.
  Proof.
    intros H q1 q2 H1 H2 Hne.
    destruct (Honto q1 H1) as [x1 [Hx1 ->]]. destruct (Honto q2 H2) as [x2 [Hx2 ->]].
    destruct (H x1 x2 Hx1 Hx2 Hne) as [w Hw]. exists w. rewrite !accepts_from_phi; assumption.
  Qed.
End Morphism.

Lemma ostate_eqb_eq a b : ostate_eqb a b = true <-> a = b.
Proof. apply option_eqb_eq, N.eqb_eq. Qed.

Lemma ostate_eqb_refl a : ostate_eqb a a = true.
Proof. apply ostate_eqb_eq. reflexivity. Qed.

Lemma pair_eqb_eq p q : pair_eqb p q = true <-> p = q.
Proof.
  destruct p as [a b], q as [a' b']. unfold pair_eqb. cbn [fst snd].
  rewrite andb_true_iff, !ostate_eqb_eq. split.
  - intros [-> ->]. reflexivity.
  - intro H. injection H as -> ->. split; reflexivity.
Qed.

Lemma pair_mem_In p l : pair_mem p l = true <-> In p l.
Proof.
  unfold pair_mem. rewrite existsb_exists. split.
  - intros [q [Hq He]]. apply pair_eqb_eq in He. subst. exact Hq.
  - intro H. exists p. split; [exact H|apply pair_eqb_eq; reflexivity].
Qed.

Lemma None_In_dom d : In None (dom d).
Proof. left. reflexivity. Qed.

Lemma Some_In_dom d x : In (Some x) (dom d) <-> In x (states d).
Proof.
  unfold dom. cbn [In]. rewrite in_map_iff. split.
  - intros [H|[y [E H]]]; [discriminate|]. injection E as ->. exact H.
  - intro H. right. exists x. auto.
Qed.

Lemma ostep_dom d s i : In (ostep d s i) (dom d).
Proof.
  destruct s as [x|]; cbn [ostep]; [|apply None_In_dom].
  destruct (step d x i) as [t|] eqn:E; [|apply None_In_dom].
  apply Some_In_dom. eapply step_In_states, E.
Qed.

Lemma ostep_not_alphabet d s i : ~ In i (alphabet d) -> ostep d s i = None.
Proof.
  intro H. destruct s as [x|]; cbn [ostep]; [|reflexivity].
  destruct (step d x i) as [t|] eqn:E; [|reflexivity].
  exfalso. apply H. eapply step_In_alphabet, E.
Qed.

Definition succ_pair (d1 d2 : dfa) (p : option N * option N) (i : N) : option N * option N :=
  (ostep d1 (fst p) i, ostep d2 (snd p) i).

Lemma succ_pair_In_prod d1 d2 p i : In (succ_pair d1 d2 p i) (list_prod (dom d1) (dom d2)).
Proof. unfold succ_pair. apply in_prod; apply ostep_dom. Qed.

(** what the exploration maintains: visited pairs agree on acceptance and their successors are
    visited or pending; the start pair is visited or pending; every pending pair is reached by the
    word it carries; and, for termination, the visited pairs are distinct pairs of the product *)
Record ex_inv (d1 d2 : dfa) (sigma : list N) (p0 : option N * option N)
       (V : list (option N * option N)) (T : list (list N * (option N * option N))) : Prop := {
  ei_acc : forall p, In p V -> oacc d1 (fst p) = oacc d2 (snd p);
  ei_succ : forall p i, In p V -> In i sigma ->
      In (succ_pair d1 d2 p i) V \/ In (succ_pair d1 d2 p i) (map snd T);
  ei_start : In p0 V \/ In p0 (map snd T);
  ei_word : forall w p, In (w, p) T ->
      orun d1 (Some (d_start d1)) (rev w) = fst p /\ orun d2 (Some (d_start d2)) (rev w) = snd p;
  ei_nodup : NoDup V;
  ei_visited : incl V (list_prod (dom d1) (dom d2));
  ei_todo : forall w p, In (w, p) T -> In p (list_prod (dom d1) (dom d2))
}.

Lemma ex_inv_skip d1 d2 sigma p0 V w p rest :
  ex_inv d1 d2 sigma p0 V ((w, p) :: rest) -> In p V -> ex_inv d1 d2 sigma p0 V rest.
Proof.
  intros [Hacc Hsucc Hstart Hword Hnd HV HT] Hp.
  assert (Hin : forall q, In q V \/ In q (map snd ((w, p) :: rest)) -> In q V \/ In q (map snd rest)).
  { cbn [map snd In]. intros q [H|[<-|H]]; auto. }
  constructor; try assumption.
  - intros q i Hq Hi. apply Hin, Hsucc; assumption.
  - apply Hin, Hstart.
  - intros w' p' H. apply Hword. right. exact H.
  - intros w' p' H. apply (HT w'). right. exact H.
Qed.

Lemma ex_inv_visit d1 d2 sigma p0 V w p rest :
  ex_inv d1 d2 sigma p0 V ((w, p) :: rest) -> ~ In p V -> oacc d1 (fst p) = oacc d2 (snd p) ->
  ex_inv d1 d2 sigma p0 (p :: V) (map (fun i => (i :: w, succ_pair d1 d2 p i)) sigma ++ rest).
Proof.
  intros [Hacc Hsucc Hstart Hword Hnd HV HT] Hp He.
  set (T' := map (fun i => (i :: w, succ_pair d1 d2 p i)) sigma ++ rest).
  assert (Hin : forall q, In q V \/ In q (map snd ((w, p) :: rest)) -> In q (p :: V) \/ In q (map snd T')).
  { unfold T'. rewrite map_app. cbn [map snd In]. intros q [H|[<-|H]]; auto.
    right. apply in_or_app. auto. }
  constructor.
  - intros q [<-|Hq]; [exact He|apply Hacc, Hq].
  - intros q i [<-|Hq] Hi; [|apply Hin, Hsucc; assumption].
    right. unfold T'. rewrite map_app, map_map. apply in_or_app. left.
    apply in_map_iff. exists i. auto.
  - apply Hin, Hstart.
  - intros w' p' H. apply in_app_or in H. destruct H as [H|H]; [|apply Hword; right; exact H].
    apply in_map_iff in H. destruct H as [i [Hi _]]. injection Hi as <- <-.
    destruct (Hword w p (or_introl eq_refl)) as [H1 H2].
    cbn [rev fst snd succ_pair]. rewrite !orun_app, H1, H2. split; reflexivity.
  - constructor; assumption.
  - intros q [<-|Hq]; [apply (HT w); left; reflexivity|apply HV, Hq].
  - intros w' p' H. apply in_app_or in H. destruct H as [H|H]; [|apply (HT w'); right; exact H].
    apply in_map_iff in H. destruct H as [i [Hi _]]. injection Hi as _ <-. apply succ_pair_In_prod.
Qed.

(** every step removes a pending pair, or visits a new pair of the product and adds one pending
    pair for each letter *)
Lemma explore_spec d1 d2 sigma p0 : forall fuel V T,
  ex_inv d1 d2 sigma p0 V T ->
  (List.length T +
   (List.length (list_prod (dom d1) (dom d2)) - List.length V) * S (List.length sigma) < fuel)%nat ->
  match explore fuel d1 d2 sigma V T with
  | EqYes => exists V', ex_inv d1 d2 sigma p0 V' []
  | EqNo w => accepts d1 w <> accepts d2 w
  | EqFuel => False
  end.
Proof.
  induction fuel as [|f IH]; intros V T Inv Hlt; [exact (Nat.nlt_0_r _ Hlt)|]. cbn [explore].
  destruct T as [|[w p] rest]; [exists V; exact Inv|]. cbn [List.length] in Hlt.
  destruct (pair_mem p V) eqn:Hm.
  - apply pair_mem_In in Hm. apply IH; [eapply ex_inv_skip; eassumption|lia].
  - assert (Hp : ~ In p V) by (intro H; apply pair_mem_In in H; congruence).
    destruct (Bool.eqb (oacc d1 (fst p)) (oacc d2 (snd p))) eqn:He.
    + apply Bool.eqb_prop in He. apply IH; [apply ex_inv_visit; assumption|].
      assert (Hle : (S (List.length V) <= List.length (list_prod (dom d1) (dom d2)))%nat).
      { apply (NoDup_incl_length (l := p :: V)); [constructor; [exact Hp|apply Inv]|].
        intros q [<-|Hq]; [apply (ei_todo _ _ _ _ _ _ Inv w); left; reflexivity|apply Inv, Hq]. }
      rewrite app_length, map_length. cbn [List.length].
      replace (List.length (list_prod (dom d1) (dom d2)) - List.length V)%nat
        with (S (List.length (list_prod (dom d1) (dom d2)) - S (List.length V)))%nat in Hlt by lia.
      cbn [Nat.mul] in Hlt. lia.
    + destruct (ei_word _ _ _ _ _ _ Inv w p (or_introl eq_refl)) as [H1 H2].
      apply Bool.eqb_false_iff in He. unfold accepts.
      rewrite !accepts_from_oaccepts_from. unfold oaccepts_from. rewrite H1, H2. exact He.
Qed.

Lemma equiv_dec_spec d1 d2 :
  match equiv_dec d1 d2 with
  | EqYes => lang_eq d1 d2
  | EqNo w => accepts d1 w <> accepts d2 w
  | EqFuel => False
  end.
Proof.
  unfold equiv_dec. set (sigma := nodup N.eq_dec (alphabet d1 ++ alphabet d2)).
  set (p0 := (Some (d_start d1), Some (d_start d2))).
  assert (Inv : ex_inv d1 d2 sigma p0 [] [([], p0)]).
  { constructor.
    - intros p [].
    - intros p i [].
    - right. left. reflexivity.
    - intros w p [H|[]]. injection H as <- <-. split; reflexivity.
    - constructor.
    - intros p [].
    - intros w p [H|[]]. injection H as _ <-. apply in_prod; apply Some_In_dom, start_In_states. }
  assert (Hlt : (1 + (List.length (list_prod (dom d1) (dom d2)) - 0) * S (List.length sigma)
                 < equiv_fuel d1 d2 sigma)%nat).
  { unfold equiv_fuel. rewrite prod_length. unfold dom. cbn [List.length]. rewrite !map_length. lia. }
  pose proof (explore_spec d1 d2 sigma p0 _ [] [([], p0)] Inv Hlt) as H.
  destruct (explore _ d1 d2 sigma [] [([], p0)]) as [|w|]; [|exact H|exact H].
  (* a closed set of pairs that agree on acceptance and contains the start pair *)
  destruct H as [V [Hacc Hsucc [Hp0|[]] _ _ _ _]].
  assert (Hw : forall w p, In p V -> oaccepts_from d1 (fst p) w = oaccepts_from d2 (snd p) w).
  { induction w as [|i r IHw]; intros p Hp; [apply Hacc, Hp|].
    rewrite !oaccepts_from_cons. destruct (in_dec N.eq_dec i sigma) as [Hi|Hi].
    - destruct (Hsucc p i Hp Hi) as [H|[]]. apply (IHw _ H).
    - rewrite (ostep_not_alphabet d1), (ostep_not_alphabet d2), !oaccepts_from_None; [reflexivity| |];
        intro H; apply Hi, nodup_In, in_app_iff; auto. }
  intro w. unfold accepts. rewrite !accepts_from_oaccepts_from. exact (Hw w p0 Hp0).
Qed.

Theorem equiv_dec_yes : forall d1 d2, equiv_dec d1 d2 = EqYes -> lang_eq d1 d2.
Proof. intros d1 d2 E. pose proof (equiv_dec_spec d1 d2) as H. rewrite E in H. exact H. Qed.

Theorem equiv_dec_no : forall d1 d2 w, equiv_dec d1 d2 = EqNo w -> accepts d1 w <> accepts d2 w.
Proof. intros d1 d2 w E. pose proof (equiv_dec_spec d1 d2) as H. rewrite E in H. exact H. Qed.

Theorem equiv_dec_total : forall d1 d2, equiv_dec d1 d2 <> EqFuel.
Proof. intros d1 d2 E. pose proof (equiv_dec_spec d1 d2) as H. rewrite E in H. exact H. Qed.

Lemma succs_step d s t : In t (succs d s) <-> exists i, step d s i = Some t.
Proof.
  unfold succs, step. destruct (assocN s (d_trans d)) as [row|].
  - rewrite in_flat_map. split.
    + intros [[i t'] [Hin H]]. cbn [fst] in H. exists i.
      destruct (assocN i row) as [u|]; [|destruct H].
      destruct H as [->|[]]. reflexivity.
    + intros [i H]. exists (i, t). split; [apply assocN_In, H|].
      cbn [fst]. rewrite H. left. reflexivity.
  - split; [intros []|intros [i H]; discriminate].
Qed.

Lemma reachable_start d : reachable d (d_start d).
Proof. exists []. reflexivity. Qed.

Lemma reachable_step d s i t : reachable d s -> step d s i = Some t -> reachable d t.
Proof.
  intros [w Hw] H. exists (w ++ [i]). rewrite run_app, Hw. cbn [run]. rewrite H. reflexivity.
Qed.

Lemma reachable_In_states d s : reachable d s -> In s (states d).
Proof. intros [w Hw]. eapply run_In_states; [apply start_In_states|exact Hw]. Qed.

Lemma coreachable_accepting d s : is_accepting d s = true -> coreachable d s.
Proof. intro H. exists []. exact H. Qed.

Lemma coreachable_step d s i t : step d s i = Some t -> coreachable d t -> coreachable d s.
Proof.
  intros H [w Hw]. exists (i :: w). unfold accepts_from in *. cbn [run]. rewrite H. exact Hw.
Qed.

(** Termination measure of [reach]: the rows of the keys not yet visited, each counted with one more
    than its length.  Visiting [x] pushes at most one successor per entry of its row, and the row
    of [x] leaves the measure ([succs_pot]). *)

Fixpoint pot (tr : list (N * list (N * N))) (V : list N) : nat :=
  match tr with
  | [] => 0%nat
  | (k, row) :: r => ((if memN k V then 0 else S (List.length row)) + pot r V)%nat
  end.

Lemma memN_cons k x V : memN k (x :: V) = N.eqb k x || memN k V.
Proof. reflexivity. Qed.

Lemma pot_mono tr V x : (pot tr (x :: V) <= pot tr V)%nat.
Proof.
  induction tr as [|[k row] r IH]; cbn [pot]; [lia|].
  rewrite memN_cons. destruct (N.eqb k x), (memN k V); cbn [orb]; lia.
Qed.

Lemma pot_dec tr V x row : memN x V = false -> assocN x tr = Some row ->
  (pot tr (x :: V) + S (List.length row) <= pot tr V)%nat.
Proof.
  intros Hm. induction tr as [|[k row'] r IH]; cbn [pot assocN]; [discriminate|].
  rewrite memN_cons. rewrite (N.eqb_sym k x). destruct (N.eqb_spec x k) as [->|Hne].
  - intro H. injection H as ->. rewrite Hm. cbn [orb]. pose proof (pot_mono r V k). lia.
  - intro H. specialize (IH H). cbn [orb]. destruct (memN k V); lia.
Qed.

Lemma pot_nil d : pot (d_trans d) [] = List.length (trans_states d).
Proof.
  unfold trans_states. induction (d_trans d) as [|[k row] r IH]; cbn [pot flat_map]; [reflexivity|].
  rewrite app_length. cbn [memN existsb fst snd List.length]. rewrite map_length, IH. reflexivity.
Qed.

Lemma flat_map_length_le1 {A B} (f : A -> list B) l :
  (forall x, (List.length (f x) <= 1)%nat) -> (List.length (flat_map f l) <= List.length l)%nat.
Proof.
  intro H. induction l as [|a l IH]; cbn [flat_map List.length]; [lia|].
  rewrite app_length. specialize (H a). lia.
Qed.

Lemma succs_pot d V x : memN x V = false ->
  (List.length (succs d x) + pot (d_trans d) (x :: V) <= pot (d_trans d) V)%nat.
Proof.
  intro Hm. unfold succs. destruct (assocN x (d_trans d)) as [row|] eqn:E.
  - pose proof (pot_dec _ _ _ _ Hm E) as H1.
    pose proof (flat_map_length_le1
      (fun it : N * N => match assocN (fst it) row with Some t => [t] | None => [] end) row) as H2.
    assert (H3 : forall it : N * N,
      (List.length (match assocN (fst it) row with Some t => [t] | None => [] end) <= 1)%nat)
      by (intro it; destruct (assocN (fst it) row); cbn [List.length]; lia).
    specialize (H2 H3). lia.
  - cbn [List.length]. apply pot_mono.
Qed.

Lemma reach_spec d : forall fuel V T,
  (List.length T + pot (d_trans d) V < fuel)%nat ->
  (forall s, In s V \/ In s T -> reachable d s) ->
  (forall s t, In s V -> In t (succs d s) -> In t V \/ In t T) ->
  (forall s, In s (reach fuel d V T) -> reachable d s) /\
  incl V (reach fuel d V T) /\ incl T (reach fuel d V T) /\
  (forall s t, In s (reach fuel d V T) -> In t (succs d s) -> In t (reach fuel d V T)).
Proof.
  induction fuel as [|f IH]; intros V T Hlt Hr Hcl; [lia|]. cbn [reach].
  destruct T as [|x r].
  { split; [intros s Hs; apply Hr; left; exact Hs|]. split; [apply incl_refl|]. split; [intros ? []|].
    intros s t Hs Ht. destruct (Hcl s t Hs Ht) as [H|[]]. exact H. }
  cbn [List.length] in Hlt. destruct (memN x V) eqn:Hm.
  - destruct (IH V r) as [H0 [H1 [H2 H3]]].
    + lia.
    + intros s [Hs|Hs]; apply Hr; [left|right; right]; exact Hs.
    + intros s t Hs Ht. destruct (Hcl s t Hs Ht) as [H|[<-|H]];
        [left; exact H|left; apply memN_In, Hm|right; exact H].
    + split; [exact H0|]. split; [exact H1|]. split; [|exact H3].
      intros y [<-|Hy]; [apply H1, memN_In, Hm|apply H2, Hy].
  - destruct (IH (x :: V) (succs d x ++ r)) as [H0 [H1 [H2 H3]]].
    + rewrite app_length. pose proof (succs_pot d V x Hm). lia.
    + assert (Hx : reachable d x) by (apply Hr; right; left; reflexivity).
      intros s [[<-|Hs]|Hs]; [exact Hx|apply Hr; left; exact Hs|].
      apply in_app_or in Hs. destruct Hs as [Hs|Hs]; [|apply Hr; right; right; exact Hs].
      apply succs_step in Hs. destruct Hs as [i Hi]. exact (reachable_step d x i s Hx Hi).
    + intros s t [<-|Hs] Ht; [right; apply in_or_app; left; exact Ht|].
      destruct (Hcl s t Hs Ht) as [H|[<-|H]];
        [left; right; exact H|left; left; reflexivity|right; apply in_or_app; right; exact H].
    + split; [exact H0|]. split; [intros y Hy; apply H1; right; exact Hy|]. split; [|exact H3].
      intros y [<-|Hy]; [apply H1; left; reflexivity|apply H2, in_or_app; right; exact Hy].
Qed.

Lemma closed_reachable d R :
  In (d_start d) R -> (forall s t, In s R -> In t (succs d s) -> In t R) ->
  forall s, reachable d s -> In s R.
Proof.
  intros Hstart Hcl s [w Hw]. revert s Hw.
  induction w as [|i w IH] using rev_ind; intros s Hw.
  - cbn [run] in Hw. injection Hw as <-. exact Hstart.
  - rewrite run_app in Hw. destruct (run d (d_start d) w) as [u|]; [|discriminate].
    cbn [run] in Hw. destruct (step d u i) as [t|] eqn:E; [|discriminate].
    injection Hw as <-. apply (Hcl u t); [apply IH; reflexivity|].
    apply succs_step. exists i. exact E.
Qed.

Lemma reachable_set_spec d s : In s (reachable_set d) <-> reachable d s.
Proof.
  unfold reachable_set. destruct (reach_spec d (reach_fuel d) [] [d_start d]) as [H0 [_ [H2 H3]]].
  - unfold reach_fuel. rewrite pot_nil. cbn [List.length]. lia.
  - intros x [[]|[<-|[]]]. apply reachable_start.
  - intros ? ? [].
  - split; [apply H0|]. apply closed_reachable; [apply H2; left; reflexivity|exact H3].
Qed.

Lemma co_step_sound d sts C :
  (forall s, In s C -> coreachable d s) -> forall s, In s (co_step d sts C) -> coreachable d s.
Proof.
  intros HC s Hs. unfold co_step in Hs. apply filter_In in Hs. destruct Hs as [_ Hs].
  apply orb_true_iff in Hs. destruct Hs as [Hs|Hs].
  - apply HC, memN_In, Hs.
  - apply existsb_exists in Hs. destruct Hs as [t [Ht Hm]].
    apply succs_step in Ht. destruct Ht as [i Hi].
    eapply coreachable_step; [exact Hi|]. apply HC, memN_In, Hm.
Qed.

Lemma co_iter_sound d sts : forall fuel C,
  (forall s, In s C -> coreachable d s) -> forall s, In s (co_iter fuel d sts C) -> coreachable d s.
Proof.
  induction fuel as [|f IH]; intros C HC; cbn [co_iter]; [exact HC|].
  destruct (Nat.eqb _ _); [exact HC|]. apply IH. apply co_step_sound, HC.
Qed.

Lemma co_step_incl_sts d sts C : incl (co_step d sts C) sts.
Proof. intros s Hs. apply filter_In in Hs. apply Hs. Qed.

Lemma co_step_extensive d sts C : incl C sts -> incl C (co_step d sts C).
Proof.
  intros H s Hs. apply filter_In. split; [apply H, Hs|].
  apply orb_true_iff. left. apply memN_In, Hs.
Qed.

Lemma co_iter_closed d sts : NoDup sts -> forall fuel C,
  NoDup C -> incl C sts -> (List.length sts < fuel + List.length C)%nat ->
  incl C (co_iter fuel d sts C) /\
  incl (co_step d sts (co_iter fuel d sts C)) (co_iter fuel d sts C).
Proof.
  intros Hsts. induction fuel as [|f IH]; intros C Hnd Hincl Hlt.
  - pose proof (NoDup_incl_length Hnd Hincl). lia.
  - cbn [co_iter].
    pose proof (co_step_extensive d sts C Hincl) as Hext.
    pose proof (NoDup_incl_length Hnd Hext) as Hle.
    destruct (Nat.eqb_spec (List.length (co_step d sts C)) (List.length C)) as [E|NE].
    + split; [apply incl_refl|]. apply NoDup_length_incl; [exact Hnd|lia|exact Hext].
    + destruct (IH (co_step d sts C)) as [H1 H2].
      * apply NoDup_filter, Hsts.
      * apply co_step_incl_sts.
      * lia.
      * split; [|exact H2]. intros s Hs. apply H1, Hext, Hs.
Qed.

Lemma coreachable_set_spec d s : In s (states d) -> (In s (coreachable_set d) <-> coreachable d s).
Proof.
  intros Hs. unfold coreachable_set. split.
  { apply co_iter_sound. intros x Hx. apply filter_In in Hx. apply coreachable_accepting, Hx. }
  intros [w Hw].
  destruct (co_iter_closed d (states d) (NoDup_states d) (S (List.length (states d)))
              (filter (is_accepting d) (states d))) as [H1 H2].
  - apply NoDup_filter, NoDup_states.
  - intros x Hx. apply filter_In in Hx. apply Hx.
  - lia.
  - set (R := co_iter _ _ _ _) in *. revert s Hs Hw.
    induction w as [|i r IH]; intros s Hs Hw.
    + apply H1, filter_In. split; [exact Hs|exact Hw].
    + unfold accepts_from in Hw. cbn [run] in Hw.
      destruct (step d s i) as [t|] eqn:E; [|discriminate].
      apply H2. apply filter_In. split; [exact Hs|]. apply orb_true_iff. right.
      apply existsb_exists. exists t. split; [apply succs_step; exists i; exact E|].
      apply memN_In, IH; [eapply step_In_states, E|exact Hw].
Qed.

Theorem trim_dec_spec : forall d, trim_dec d = true <-> trim d.
Proof.
  intro d. unfold trim_dec. rewrite forallb_forall. split.
  - intro H. split; intros s Hs; specialize (H s Hs); apply andb_true_iff in H.
    + apply reachable_set_spec, memN_In, H.
    + apply (coreachable_set_spec d s Hs), memN_In, H.
  - intros [Hr Hc] s Hs. apply andb_true_iff. split; apply memN_In.
    + apply reachable_set_spec, Hr, Hs.
    + apply coreachable_set_spec; [exact Hs|apply Hc, Hs].
Qed.

Definition tbl_inv (d : dfa) (tbl : list (option N * N)) : Prop :=
  forall s t, In s (dom d) -> In t (dom d) -> oassoc s tbl <> oassoc t tbl ->
    exists w, oaccepts_from d s w <> oaccepts_from d t w.

Lemma oassoc_map (f : option N -> N) l s :
  In s l -> oassoc s (map (fun s => (s, f s)) l) = f s.
Proof.
  induction l as [|k l IH]; [intros []|]. intro H. cbn [map oassoc].
  destruct (ostate_eqb s k) eqn:E.
  - apply ostate_eqb_eq in E. subst. reflexivity.
  - apply IH. destruct H as [->|H]; [|exact H]. rewrite ostate_eqb_refl in E. discriminate.
Qed.

Lemma table0_inv d : tbl_inv d (table0 d).
Proof.
  intros s t Hs Ht. unfold table0. rewrite !oassoc_map by assumption.
  intro H. exists []. unfold oaccepts_from. cbn [orun].
  destruct (oacc d s), (oacc d t); congruence.
Qed.

Lemma map_neq_ex (f g : N -> N) l : map f l <> map g l -> exists i, In i l /\ f i <> g i.
Proof.
  induction l as [|a l IH]; cbn [map]; intro H; [contradiction H; reflexivity|].
  destruct (N.eq_dec (f a) (g a)) as [E|E].
  - destruct IH as [i [Hi Hn]]; [intro E'; apply H; rewrite E, E'; reflexivity|].
    exists i. split; [right; exact Hi|exact Hn].
  - exists a. split; [left; reflexivity|exact E].
Qed.

Lemma refine_oassoc d sigma tbl s : In s (dom d) ->
  oassoc s (refine d sigma tbl) =
  index_of (sig d sigma tbl s) (map (sig d sigma tbl) (dom d)) 0.
Proof.
  intro H. unfold refine.
  apply (oassoc_map (fun s => index_of (sig d sigma tbl s) (map (sig d sigma tbl) (dom d)) 0)).
  exact H.
Qed.

Lemma refine_inv d sigma tbl : tbl_inv d tbl -> tbl_inv d (refine d sigma tbl).
Proof.
  intros Hinv s t Hs Ht Hne. rewrite !refine_oassoc in Hne by assumption.
  assert (Hsig : sig d sigma tbl s <> sig d sigma tbl t)
    by (intro E; apply Hne; rewrite E; reflexivity).
  unfold sig in Hsig.
  destruct (N.eq_dec (oassoc s tbl) (oassoc t tbl)) as [E|NE]; [|apply Hinv; assumption].
  rewrite E in Hsig.
  destruct (map_neq_ex (fun i => oassoc (ostep d s i) tbl) (fun i => oassoc (ostep d t i) tbl) sigma)
    as [i [Hi Hn]]; [intro E'; apply Hsig; rewrite E'; reflexivity|].
  destruct (Hinv (ostep d s i) (ostep d t i) (ostep_dom d s i) (ostep_dom d t i) Hn) as [w Hw].
  exists (i :: w). rewrite !oaccepts_from_cons. exact Hw.
Qed.

Lemma nodupb_NoDup l : nodupb l = true <-> NoDup l.
Proof.
  induction l as [|x r IH]; cbn [nodupb].
  - split; [constructor|reflexivity].
  - rewrite andb_true_iff, negb_true_iff, memN_false, IH. split.
    + intros [H1 H2]. constructor; assumption.
    + intro H. inversion H; subst. split; assumption.
Qed.

Lemma nodup_classes_distinct d tbl :
  tbl_inv d tbl -> nodupb (classes d tbl) = true -> pairwise_distinguishable d.
Proof.
  intros Hinv Hnd s t Hs Ht Hne. apply nodupb_NoDup in Hnd. unfold classes in Hnd.
  destruct (Hinv (Some s) (Some t)) as [w Hw].
  - apply Some_In_dom, Hs.
  - apply Some_In_dom, Ht.
  - intro E. apply Hne. eapply (NoDup_map_inj (fun s => oassoc (Some s) tbl)); eassumption.
  - exists w. rewrite !accepts_from_oaccepts_from. exact Hw.
Qed.

Lemma moore_sound d sigma : forall fuel tbl,
  tbl_inv d tbl -> moore fuel d sigma tbl = true -> pairwise_distinguishable d.
Proof.
  induction fuel as [|f IH]; intros tbl Hinv; cbn [moore];
    destruct (nodupb (classes d tbl)) eqn:Hnd;
    try (intros _; eapply nodup_classes_distinct; eassumption); [discriminate|].
  destruct (Nat.eqb _ _); [discriminate|]. apply IH. apply refine_inv, Hinv.
Qed.

Theorem distinct_dec_sound : forall d, distinct_dec d = true -> pairwise_distinguishable d.
Proof. intros d. unfold distinct_dec. apply moore_sound, table0_inv. Qed.

Lemma Forall2_NoDup_inj {A B} (P : A -> B -> Prop) l ys :
  Forall2 P l ys -> NoDup l ->
  (forall x x' y, In x l -> In x' l -> P x y -> P x' y -> x = x') -> NoDup ys.
Proof.
  induction 1 as [|a b l ys Hab HF IH]; intros Hnd Hinj; [constructor|].
  inversion Hnd as [|? ? Hnotin Hnd']; subst. constructor.
  - intro Hb. destruct (Forall2_In_r P l ys b HF Hb) as [x [Hx Hp]].
    apply Hnotin. rewrite (Hinj a x b); [exact Hx|left; reflexivity|right; exact Hx|exact Hab|exact Hp].
  - apply IH; [exact Hnd'|]. intros x x' y Hx Hx'. apply Hinj; right; assumption.
Qed.

Theorem myhill_nerode_size : forall m, trim m -> pairwise_distinguishable m -> minimal_size m.
Proof.
  intros m [Hr Hc] Hd d' Hl.
  set (P := fun s t => exists w, run m (d_start m) w = Some s /\ run d' (d_start d') w = Some t).
  destruct (Forall2_total P (states m)) as [ys Hys].
  { intros s Hs. destruct (Hr s Hs) as [w Hw]. destruct (Hc s Hs) as [v Hv].
    destruct (run d' (d_start d') w) as [t|] eqn:E.
    - exists t, w. split; [exact Hw|exact E].
    - exfalso. pose proof (Hl (w ++ v)) as H.
      rewrite (accepts_app m w v s Hw), Hv, (accepts_app_None d' w v E) in H. discriminate. }
  rewrite (Forall2_length P _ _ Hys). apply NoDup_incl_length.
  - apply (Forall2_NoDup_inj P (states m) ys Hys (NoDup_states m)).
    intros s s' t Hs Hs' [w [Hw1 Hw2]] [w' [Hw1' Hw2']].
    destruct (N.eq_dec s s') as [E|NE]; [exact E|exfalso].
    destruct (Hd s s' Hs Hs' NE) as [v Hv]. apply Hv.
    rewrite <- (accepts_app m w v s Hw1), <- (accepts_app m w' v s' Hw1'), <- !Hl.
    rewrite (accepts_app d' w v t Hw2), (accepts_app d' w' v t Hw2'). reflexivity.
  - intros t Ht. destruct (Forall2_In_r P _ _ t Hys Ht) as [s [_ [w [_ Hw]]]].
    eapply run_In_states; [apply start_In_states|exact Hw].
Qed.

Theorem validate_sound : forall d m, validate d m = true ->
  lang_eq m d /\ trim m /\ pairwise_distinguishable m /\ minimal_size m.
Proof.
  intros d m H. unfold validate in H.
  destruct (equiv_dec d m) eqn:E; try discriminate.
  apply andb_true_iff in H. destruct H as [Ht Hd].
  apply equiv_dec_yes in E. apply trim_dec_spec in Ht. apply distinct_dec_sound in Hd.
  split; [intro w; symmetry; apply E|]. split; [exact Ht|]. split; [exact Hd|].
  apply myhill_nerode_size; assumption.
Qed.

Lemma listN_eqb_eq a b : listN_eqb a b = true <-> a = b.
Proof.
  revert b. induction a as [|x r IH]; intros [|y r']; cbn [listN_eqb]; try (split; congruence).
  rewrite andb_true_iff, N.eqb_eq, IH. split; [intros [-> ->]; reflexivity|intro E; inversion E; auto].
Qed.

Lemma listN_eqb_refl a : listN_eqb a a = true.
Proof. apply listN_eqb_eq. reflexivity. Qed.

Lemma index_of_ge x l : forall i, i <= index_of x l i.
Proof.
  induction l as [|y r IH]; intro i; cbn [index_of]; [lia|].
  destruct (listN_eqb x y); [lia|]. specialize (IH (i + 1)). lia.
Qed.

Lemma index_of_inj l : forall i x y,
  In x l -> In y l -> index_of x l i = index_of y l i -> x = y.
Proof.
  induction l as [|z r IH]; intros i x y Hx Hy; [destruct Hx|]. cbn [index_of].
  destruct (listN_eqb x z) eqn:Ex, (listN_eqb y z) eqn:Ey.
  - apply listN_eqb_eq in Ex, Ey. congruence.
  - intro H. pose proof (index_of_ge y r (i + 1)). lia.
  - intro H. pose proof (index_of_ge x r (i + 1)). lia.
  - apply IH.
    + destruct Hx as [<-|Hx]; [|exact Hx].
      rewrite listN_eqb_refl in Ex. discriminate.
    + destruct Hy as [<-|Hy]; [|exact Hy].
      rewrite listN_eqb_refl in Ey. discriminate.
Qed.

Lemma nodup_length_le (l : list N) : (List.length (nodup N.eq_dec l) <= List.length l)%nat.
Proof.
  apply NoDup_incl_length; [apply NoDup_nodup|]. intros x Hx. apply nodup_In in Hx. exact Hx.
Qed.

Lemma reps_exist {A} (f : A -> N) (D : list A) :
  exists R, incl R D /\ NoDup (map f R) /\ (forall x, In x D -> In (f x) (map f R)).
Proof.
  induction D as [|a D [R [H1 [H2 H3]]]].
  - exists []. split; [apply incl_refl|]. split; [constructor|intros x []].
  - destruct (in_dec N.eq_dec (f a) (map f R)) as [Hin|Hnin].
    + exists R. split; [intros x Hx; right; apply H1, Hx|]. split; [exact H2|].
      intros x [<-|Hx]; [exact Hin|apply H3, Hx].
    + exists (a :: R). split; [intros x [<-|Hx]; [left; reflexivity|right; apply H1, Hx]|].
      split; [cbn [map]; constructor; assumption|].
      intros x [<-|Hx]; [left; reflexivity|right; apply H3, Hx].
Qed.

Lemma reps_length {A} (f : A -> N) D R :
  incl R D -> NoDup (map f R) -> (forall x, In x D -> In (f x) (map f R)) ->
  List.length (nodup N.eq_dec (map f D)) = List.length R.
Proof.
  intros H1 H2 H3. rewrite <- (map_length f R). apply Nat.le_antisymm; apply NoDup_incl_length.
  - apply NoDup_nodup.
  - intros y Hy. apply nodup_In in Hy. apply in_map_iff in Hy. destruct Hy as [x [<- Hx]].
    apply H3, Hx.
  - exact H2.
  - intros y Hy. apply nodup_In. apply in_map_iff in Hy. destruct Hy as [x [<- Hx]].
    apply in_map, H1, Hx.
Qed.

(** a refinement has at least as many classes, and exactly as many only if it is the same
    partition: this is why [moore] may answer [false] as soon as the count stalls
    ([moore_complete]) *)
Lemma refine_count {A} (f g : A -> N) D :
  (forall x y, In x D -> In y D -> g x = g y -> f x = f y) ->
  (List.length (nodup N.eq_dec (map f D)) <= List.length (nodup N.eq_dec (map g D)))%nat /\
  (List.length (nodup N.eq_dec (map f D)) = List.length (nodup N.eq_dec (map g D)) ->
   forall x y, In x D -> In y D -> f x = f y -> g x = g y).
Proof.
  intros Href. destruct (reps_exist f D) as [R [H1 [H2 H3]]].
  rewrite (reps_length f D R H1 H2 H3).
  assert (HgR : NoDup (map g R)).
  { apply NoDup_map_of_inj; [eapply NoDup_map_inv, H2|].
    intros x y Hx Hy E. apply (NoDup_map_inj f R); try assumption.
    apply Href; [apply H1, Hx|apply H1, Hy|exact E]. }
  assert (Hincl : forall z, In z D -> In (g z) (nodup N.eq_dec (map g D)))
    by (intros z Hz; apply nodup_In, in_map, Hz).
  split.
  - rewrite <- (map_length g R). apply NoDup_incl_length; [exact HgR|].
    intros y Hy. apply in_map_iff in Hy. destruct Hy as [x [<- Hx]]. apply Hincl, H1, Hx.
  - intros E x y Hx Hy Hf. destruct (N.eq_dec (g x) (g y)) as [Eg|NE]; [exact Eg|exfalso].
    pose proof (H3 x Hx) as Hr. apply in_map_iff in Hr. destruct Hr as [r [Hfr Hr]].
    assert (Hz : exists z, In z D /\ f z = f r /\ g z <> g r).
    { destruct (N.eq_dec (g x) (g r)) as [Exr|Nxr].
      - exists y. split; [exact Hy|]. split; congruence.
      - exists x. split; [exact Hx|]. split; congruence. }
    destruct Hz as [z [Hz [Hfz Hgz]]].
    assert (Hnd : NoDup (g z :: map g R)).
    { constructor; [|exact HgR]. intro Hin. apply in_map_iff in Hin.
      destruct Hin as [r' [Hg' Hr']].
      assert (Hf' : f r' = f z) by (apply Href; [apply H1, Hr'|exact Hz|exact Hg']).
      assert (r' = r) by (apply (NoDup_map_inj f R); try assumption; congruence).
      subst r'. apply Hgz. symmetry. exact Hg'. }
    assert (Hle : (List.length (g z :: map g R) <= List.length (nodup N.eq_dec (map g D)))%nat).
    { apply NoDup_incl_length; [exact Hnd|]. intros u [<-|Hu]; [apply Hincl, Hz|].
      apply in_map_iff in Hu. destruct Hu as [x' [<- Hx']]. apply Hincl, H1, Hx'. }
    cbn [List.length] in Hle. rewrite map_length in Hle. lia.
Qed.

Lemma refine_refines d sigma tbl s t : In s (dom d) -> In t (dom d) ->
  oassoc s (refine d sigma tbl) = oassoc t (refine d sigma tbl) ->
  sig d sigma tbl s = sig d sigma tbl t.
Proof.
  intros Hs Ht. rewrite !refine_oassoc by assumption.
  apply index_of_inj; apply in_map; assumption.
Qed.

Lemma sig_eq_inv d sigma tbl s t : sig d sigma tbl s = sig d sigma tbl t ->
  oassoc s tbl = oassoc t tbl /\
  forall i, In i sigma -> oassoc (ostep d s i) tbl = oassoc (ostep d t i) tbl.
Proof.
  unfold sig. intro H. injection H as H1 H2. split; [exact H1|].
  apply map_ext_in_iff. exact H2.
Qed.

Definition acc_inv (d : dfa) (tbl : list (option N * N)) : Prop :=
  forall s t, In s (dom d) -> In t (dom d) -> oassoc s tbl = oassoc t tbl -> oacc d s = oacc d t.

Lemma table0_acc_inv d : acc_inv d (table0 d).
Proof.
  intros s t Hs Ht. unfold table0. rewrite !oassoc_map by assumption.
  destruct (oacc d s), (oacc d t); intro H; try reflexivity; discriminate.
Qed.

Lemma refine_acc_inv d sigma tbl : acc_inv d tbl -> acc_inv d (refine d sigma tbl).
Proof.
  intros HB s t Hs Ht E. apply HB; try assumption.
  apply (refine_refines d sigma tbl s t Hs Ht) in E. apply sig_eq_inv in E. apply E.
Qed.

Lemma refine_stable_nerode d tbl : acc_inv d tbl ->
  (forall s t, In s (dom d) -> In t (dom d) -> oassoc s tbl = oassoc t tbl ->
     oassoc s (refine d (alphabet d) tbl) = oassoc t (refine d (alphabet d) tbl)) ->
  forall w s t, In s (dom d) -> In t (dom d) -> oassoc s tbl = oassoc t tbl ->
    oaccepts_from d s w = oaccepts_from d t w.
Proof.
  intros HB Hst. induction w as [|i r IH]; intros s t Hs Ht E.
  - unfold oaccepts_from. cbn [orun]. apply HB; assumption.
  - rewrite !oaccepts_from_cons. destruct (in_dec N.eq_dec i (alphabet d)) as [Hi|Hi].
    + apply IH; try apply ostep_dom.
      pose proof (Hst s t Hs Ht E) as E'. apply refine_refines in E'; try assumption.
      apply sig_eq_inv in E'. apply E', Hi.
    + rewrite !(ostep_not_alphabet d _ i Hi). reflexivity.
Qed.

Lemma nclasses_le d tbl : (nclasses d tbl <= List.length (dom d))%nat.
Proof.
  unfold nclasses. etransitivity; [apply nodup_length_le|]. rewrite map_length. lia.
Qed.

Lemma moore_complete d : pairwise_distinguishable d -> forall fuel tbl,
  acc_inv d tbl -> (List.length (dom d) < nclasses d tbl + fuel)%nat ->
  moore fuel d (alphabet d) tbl = true.
Proof.
  intros Hpd. induction fuel as [|f IH]; intros tbl HB Hlt; cbn [moore];
    destruct (nodupb (classes d tbl)) eqn:Hnd; try reflexivity.
  - pose proof (nclasses_le d tbl). lia.
  - set (tbl' := refine d (alphabet d) tbl).
    destruct (refine_count (fun s => oassoc s tbl) (fun s => oassoc s tbl') (dom d)) as [Hle Heq].
    { intros s t Hs Ht E. apply (refine_refines d (alphabet d) tbl s t Hs Ht) in E.
      apply sig_eq_inv in E. apply E. }
    fold (nclasses d tbl) in Hle, Heq. fold (nclasses d tbl') in Hle, Heq.
    destruct (Nat.eqb_spec (nclasses d tbl') (nclasses d tbl)) as [E|NE].
    + exfalso. specialize (Heq (eq_sym E)).
      assert (Hnd' : NoDup (classes d tbl)).
      { unfold classes. apply NoDup_map_of_inj; [apply NoDup_states|].
        intros x y Hx Hy Exy. destruct (N.eq_dec x y) as [|NExy]; [assumption|exfalso].
        destruct (Hpd x y Hx Hy NExy) as [w Hw]. apply Hw.
        rewrite !accepts_from_oaccepts_from.
        apply (refine_stable_nerode d tbl HB Heq); [apply Some_In_dom, Hx|apply Some_In_dom, Hy|exact Exy]. }
      apply nodupb_NoDup in Hnd'. congruence.
    + apply IH; [apply refine_acc_inv, HB|]. fold tbl'. lia.
Qed.

Theorem distinct_dec_complete : forall d, pairwise_distinguishable d -> distinct_dec d = true.
Proof.
  intros d Hpd. unfold distinct_dec. apply moore_complete; [exact Hpd|apply table0_acc_inv|].
  assert (H : (1 <= nclasses d (table0 d))%nat).
  { unfold nclasses, dom. cbn [map].
    assert (Hin : In (oassoc None (table0 d))
                     (nodup N.eq_dec (oassoc None (table0 d) ::
                        map (fun s => oassoc s (table0 d)) (map Some (states d)))))
      by (apply nodup_In; left; reflexivity).
    destruct (nodup N.eq_dec _); [destruct Hin|cbn [List.length]; lia]. }
  unfold dom. cbn [List.length]. rewrite map_length. lia.
Qed.

Theorem equiv_dec_complete : forall d1 d2, lang_eq d1 d2 -> equiv_dec d1 d2 = EqYes.
Proof.
  intros d1 d2 H. destruct (equiv_dec d1 d2) as [|w|] eqn:E; [reflexivity| |].
  - exfalso. apply (equiv_dec_no d1 d2 w E). apply H.
  - exfalso. apply (equiv_dec_total d1 d2 E).
Qed.

Theorem validate_complete : forall d m,
  lang_eq m d -> trim m -> pairwise_distinguishable m -> validate d m = true.
Proof.
  intros d m Hl Ht Hd. unfold validate.
  rewrite (equiv_dec_complete d m) by (intro w; symmetry; apply Hl).
  rewrite (proj2 (trim_dec_spec m) Ht), (distinct_dec_complete m Hd). reflexivity.
Qed.
