(** The input of a within-word automaton a piece of a within-word expression stands for. *)
From CG Require Import Base.Prelude Model.Dfa Spec.Meaning.

Definition inp_of_wleaf (a : wleaf) : inp :=
  match a with WLit t d l => ILit t d l | WCmd c l => ICmd c l | WAny => IStar end.
