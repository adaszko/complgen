(** Descriptions through [Check.distribute]: the literals of an expression keep their order and
    their texts, a literal that has its own description keeps it, and a literal that had none
    receives nothing, the pending description, or the description of a [DistDescr] node of the
    expression -- no description is invented and none is moved off the literal it was written on. *)
From CG Require Import Base.Prelude Proofs.ListFacts Model.Ast Model.Check Proofs.CheckLemmas.

(** the literal leaves, left to right: (text, description) *)
Fixpoint lits (e : expr) : list (string * option string) :=
  match e with
  | Terminal t d _ _ => [(t, d)]
  | NontermRef _ _ _ | Command _ _ _ _ => []
  | Sequence cs _ | Alternative cs _ | Fallback cs _ => flat_map lits cs
  | Optional c _ | Many1 c _ | DistDescr c _ _ | Subword c _ _ => lits c
  end.

(** the descriptions written behind a parenthesised / composite expression *)
Fixpoint dd_descrs (e : expr) : list string :=
  match e with
  | Terminal _ _ _ _ | NontermRef _ _ _ | Command _ _ _ _ => []
  | Sequence cs _ | Alternative cs _ | Fallback cs _ => flat_map dd_descrs cs
  | Optional c _ | Many1 c _ | Subword c _ _ => dd_descrs c
  | DistDescr c d _ => d :: dd_descrs c
  end.

(** [b] is what the literal [a] may become when the descriptions in [ds] (and the pending [d]) are
    distributed *)
Definition lit_ok (d : option string) (ds : list string) (a b : string * option string) : Prop :=
  fst b = fst a /\
  match snd a with
  | Some x => snd b = Some x
  | None => snd b = None \/ snd b = d \/ exists x, snd b = Some x /\ In x ds
  end.

Lemma lit_ok_mono : forall d ds ds' a b, (forall x, In x ds -> In x ds') -> lit_ok d ds a b -> lit_ok d ds' a b.
Proof.
  intros d ds ds' a b H [H1 H2]. split; auto. destruct (snd a); auto.
  destruct H2 as [H2|[H2|[x [H2 H3]]]]; [left; exact H2|right; left; exact H2|].
  right. right. exists x. split; [exact H2|apply H; exact H3].
Qed.

Lemma distribute_pending : forall e d, snd (distribute e d) = d \/ snd (distribute e d) = None.
Proof.
  assert (G : forall cs, Forall (fun e => forall d, snd (distribute e d) = d \/ snd (distribute e d) = None) cs ->
                         forall d, snd (distribute_list cs d) = d \/ snd (distribute_list cs d) = None).
  { induction 1 as [|c cs Hc H IH]; intros d; simpl; auto.
    specialize (Hc d). destruct (distribute c d) as [c' d1]. simpl in Hc.
    specialize (IH d1). destruct (distribute_list cs d1) as [r' d2]. simpl in *.
    destruct Hc as [-> | ->]; auto. destruct IH as [-> | ->]; auto. }
  induction e using expr_ind'; intros d0; try (simpl; auto; fail);
    try (simpl; specialize (IHe d0); destruct (distribute e d0); exact IHe).
  - simpl. destruct d; simpl; auto. destruct d0; simpl; auto.
  - rewrite distribute_seq. specialize (G cs H d0). destruct (distribute_list cs d0). exact G.
  - rewrite distribute_fb. specialize (G cs H d0). destruct (distribute_list cs d0). exact G.
Qed.

Lemma lit_ok_none : forall ds a b, lit_ok None ds a b -> forall d, lit_ok d ds a b.
Proof.
  intros ds a b [H1 H2] d. split; auto. destruct (snd a); auto.
  destruct H2 as [H2|[H2|H2]]; auto.
Qed.

Lemma lits_ok_mono d ds ds' l m :
  (forall x, In x ds -> In x ds') -> Forall2 (lit_ok d ds) l m -> Forall2 (lit_ok d ds') l m.
Proof. intros H. apply Forall2_impl. intros a b. apply lit_ok_mono. exact H. Qed.

Theorem distribute_lits : forall e d,
  Forall2 (lit_ok d (dd_descrs e)) (lits e) (lits (fst (distribute e d))).
Proof.
  assert (Hlist : forall cs, Forall (fun e => forall d,
                     Forall2 (lit_ok d (dd_descrs e)) (lits e) (lits (fst (distribute e d)))) cs ->
                  forall d, Forall2 (lit_ok d (flat_map dd_descrs cs)) (flat_map lits cs)
                                    (flat_map lits (fst (distribute_list cs d)))).
  { intros cs H. induction H as [|c cs Hc H IH]; intros d; simpl; [constructor|].
    specialize (Hc d). pose proof (distribute_pending c d) as Hp.
    destruct (distribute c d) as [c' d1]. simpl in Hc, Hp.
    specialize (IH d1). destruct (distribute_list cs d1) as [r' d2]. simpl in *.
    apply Forall2_app.
    - eapply lits_ok_mono; [|exact Hc]. intros x Hx. apply in_app_iff. auto.
    - eapply lits_ok_mono with (ds := flat_map dd_descrs cs); [intros x Hx; apply in_app_iff; auto|].
      destruct Hp as [-> | ->]; [exact IH|]. eapply Forall2_impl; [|exact IH]. intros a b Hab. apply lit_ok_none. exact Hab. }
  induction e using expr_ind'; intros d0; try (simpl; constructor; fail);
    try (simpl; specialize (IHe d0); destruct (distribute e d0); exact IHe).
  - simpl. destruct d as [x|]; simpl.
    + constructor; [split; reflexivity|constructor].
    + destruct d0 as [x|]; simpl; (constructor; [|constructor]); split; simpl; auto.
  - rewrite distribute_seq. specialize (Hlist cs H d0).
    destruct (distribute_list cs d0) as [cs' d']. simpl in *. exact Hlist.
  - simpl.
    induction H as [|c cs Hc H IH]; simpl; [constructor|].
    apply Forall2_app; (eapply lits_ok_mono; [|first [exact (Hc d0)|exact IH]]);
      intros x Hx; apply in_app_iff; auto.
  - (* DistDescr: the child is distributed with the node's own description pending *)
    simpl. specialize (IHe (Some d)).
    eapply Forall2_impl; [|exact IHe]. intros a b [H1 H2]. split; auto.
    destruct (snd a); auto. destruct H2 as [H2|[H2|[x [H2 H3]]]]; auto.
    + right. right. exists d. split; [exact H2|left; reflexivity].
    + right. right. exists x. split; [exact H2|right; exact H3].
  - rewrite distribute_fb. specialize (Hlist cs H d0).
    destruct (distribute_list cs d0) as [cs' d']. simpl in *. exact Hlist.
Qed.

Corollary distribute_descriptions_lits : forall e,
  Forall2 (lit_ok None (dd_descrs e)) (lits e) (lits (distribute_descriptions e)).
Proof. intros e. apply distribute_lits. Qed.
