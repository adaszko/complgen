(** C04, fish: the WHOLE emitted script ([Model/EmitFish.script]) is read back by the specification-side
    reader.  Same construction as Proofs/ZshScript.v. *)
From Coq Require Import DecimalString.
From CG Require Import Base.Prelude Model.Ast Model.Dfa Model.Tpl Model.Quote Model.Tables Model.EmitBash Model.EmitData
     Model.EmitFish Spec.ShellDQ Spec.ScriptRead Proofs.TablesSound Proofs.QuoteRT Proofs.BashCodec Proofs.BashScript Proofs.ScriptGen
     Proofs.FishCodec.
From CGgen Require Import Consts TplFish.
Open Scope N_scope.
Open Scope list_scope.

Notation envF := EmitFish.env_cmd.
Notation line_semF := (line_semG Fish).
Notation scansF := (scansE Fish).

Definition fdp : string := "     ".
Lemma fdeep x : stmt_of Fish (append fdp x) = None.
Proof. reflexivity. Qed.
Lemma fblank rest : stmt_of Fish (append nl rest) = None.
Proof. reflexivity. Qed.

(** the command name: name characters, and no closing parenthesis (the registration line writes
    [(_<cmd>)] between double quotes) *)
Definition no_rparen (s : string) : bool := forallb (fun c => negb (Ascii.eqb c ")")) (list_ascii_of_string s).
Definition fname_ok (command : string) : Prop := name_ok command /\ no_rparen command = true.

(** a function name that contains no [_cmd_] is no function of an external command *)
Fixpoint has_sub (p s : string) : bool :=
  is_prefix p s || match s with String _ t => has_sub p t | EmptyString => false end.

Lemma is_prefix_app p b : is_prefix p (append p b) = true.
Proof. induction p; cbn; [reflexivity | rewrite Ascii.eqb_refl; exact IHp]. Qed.

Lemma has_sub_unfold p s :
  has_sub p s = is_prefix p s || match s with String _ t => has_sub p t | EmptyString => false end.
Proof. destruct s; reflexivity. Qed.

Lemma has_sub_app a p b : has_sub p (append a (append p b)) = true.
Proof.
  induction a as [|c a IH]; cbn [append].
  - rewrite has_sub_unfold, is_prefix_app. reflexivity.
  - rewrite has_sub_unfold, IH. apply orb_true_r.
Qed.

Lemma strip_some_eq p s r : strip p s = Some r -> s = append p r.
Proof.
  revert s. induction p as [|c p IH]; intros s H; cbn in H; [inversion H; reflexivity|].
  destruct s as [|d s]; [discriminate|]. destruct (Ascii.eqb_spec c d); [|discriminate]. subst. rewrite (IH _ H). reflexivity.
Qed.

Lemma is_cmd_fn_has_sub cmd n : is_cmd_fn cmd n = true -> has_sub "_cmd_" n = true.
Proof.
  unfold is_cmd_fn. destruct (strip ("_" ++ cmd ++ "_cmd_") n) as [r|] eqn:E; [|discriminate]. intros _.
  apply strip_some_eq in E. rewrite E. rewrite <- (append_assoc "_" cmd "_cmd_").
  rewrite (append_assoc ("_" ++ cmd) "_cmd_" r). apply has_sub_app.
Qed.

Lemma match_fn_not_cmd cmd : is_cmd_fn cmd match_fn_name_fish = false.
Proof.
  destruct (is_cmd_fn cmd match_fn_name_fish) eqn:E; [|reflexivity].
  apply is_cmd_fn_has_sub in E. vm_compute in E. discriminate E.
Qed.

Lemma fheader_reads cmd suf :
  name_ok cmd -> forallb is_name_char (list_ascii_of_string suf) = true ->
  no_nl (append "function _" (append cmd suf)) = true
  /\ forall rest, fish_stmt (append (append "function _" (append cmd suf)) (append nl rest))
                  = Some (SFunc (append "_" (append cmd suf)), rest).
Proof.
  intros Hc Hsuf. split.
  - cbn [append no_nl]. rewrite !no_nl_app, (name_ok_no_nl _ Hc), (name_chars_no_nl _ Hsuf). reflexivity.
  - intros rest. rewrite !append_assoc. unfold fish_stmt.
    do 2 (rewrite alt_skip by reflexivity).
    apply alt_take. exact (function_reads "" cmd suf rest Hc Hsuf I).
Qed.

Lemma fheader_sem cmd suf :
  name_ok cmd -> forallb is_name_char (list_ascii_of_string suf) = true -> strip "_cmd_" suf = None ->
  line_semF cmd (append "function _" (append cmd suf)) (Some (SFunc (append "_" (append cmd suf)))).
Proof.
  intros Hc Hsuf. apply header_semG, fheader_reads; assumption.
Qed.

Lemma fheader_main_sem cmd :
  name_ok cmd -> line_semF cmd (append "function _" cmd) (Some (SFunc (append "_" cmd))).
Proof.
  intros Hc. pose proof (fheader_sem cmd EmptyString Hc eq_refl eq_refl) as H.
  rewrite append_nil_r in H. exact H.
Qed.

Lemma fmatch_header_sem cmd :
  line_semF cmd (append "function " match_fn_name_fish) (Some (SFunc match_fn_name_fish)).
Proof.
  split; [reflexivity|]. split; [intros rest; reflexivity | apply match_fn_not_cmd].
Qed.

(** [    _<cmd><suffix> "$argv[1]" "$argv[2]"] *)
Lemma fcall_sem cmd suf :
  name_ok cmd -> forallb is_name_char (list_ascii_of_string suf) = true ->
  line_semF cmd (append "    _" (append cmd (append suf " ""$argv[1]"" ""$argv[2]""")))
            (Some (SCall (append "_" (append cmd suf)))).
Proof.
  intros Hc Hsuf. split; [|split; [|exact I]].
  - nonl (name_ok_no_nl cmd Hc) (name_chars_no_nl suf Hsuf).
  - intros rest. rewrite !append_assoc. change (stmt_of Fish) with fish_stmt. unfold fish_stmt.
    rewrite alt_skip by reflexivity.
    apply alt_take. exact (call_reads " ""$argv" cmd suf "[1]"" ""$argv[2]""" rest Hc Hsuf eq_refl eq_refl).
Qed.

(** complete --command <cmd> --no-files --arguments "(_<cmd>)" *)
Lemma fregister_sem cmd :
  fname_ok cmd ->
  line_semF cmd (append "complete --command " (append cmd (append " --no-files --arguments ""(_" (append cmd ")"""))))
            (Some (SRegister [append "_" cmd; cmd])).
Proof.
  intros [[Hne Hc] Hq]. pose proof (name_ok_no_nl cmd (conj Hne Hc)) as Hnl.
  split; [|split; [|exact I]].
  - nonl Hnl Hnl.
  - intros rest. rewrite !append_assoc. change (stmt_of Fish) with fish_stmt. unfold fish_stmt.
    do 4 (rewrite alt_skip by reflexivity).
    rewrite pbind_lit.
    change (" --no-files --arguments ""(_" ++ cmd ++ ")""" ++ nl ++ rest)%string
      with (String " " ("--no-files --arguments ""(_" ++ cmd ++ ")""" ++ nl ++ rest))%string.
    rewrite (pbind_some _ _ _ _ _ (name_read cmd " "%char _ Hne Hc eq_refl)).
    erewrite pbind_lit' by reflexivity.
    assert (Hq' : forallb (fun c => negb (Ascii.eqb c ")")) (list_ascii_of_string ("_" ++ cmd)%string) = true) by (cbn; exact Hq).
    erewrite pbind_some.
    2:{ cbv beta.
        match goal with |- context [take_while ?p ?X] =>
          assert (TW : take_while p X = (("_" ++ cmd)%string, String ")" ("""" ++ nl ++ rest)%string))
            by (apply (take_while_app p ("_" ++ cmd)%string (String ")" _) Hq' eq_refl))
        end.
        rewrite TW. reflexivity. }
    erewrite pbind_lit' by reflexivity.
    rewrite (pbind_some _ _ _ _ _ (eol_nl rest)). reflexivity.
Qed.

(** complete --erase <cmd> *)
Lemma ferase_sem cmd : name_ok cmd -> line_semF cmd (append "complete --erase " cmd) None.
Proof.
  intros Hc. apply (skipped_line Fish cmd "complete --erase " cmd (fun _ => eq_refl)), (name_ok_no_nl cmd Hc).
Qed.

(** [    while test $fallback_level -le N] *)
Lemma fwhile_sem cmd n :
  line_semF cmd (append "    while test $fallback_level -le " (sN n)) None.
Proof. apply (skipped_line Fish cmd "    while test $fallback_level -le " (sN n) (fun _ => eq_refl)), no_nl_sN. Qed.

(** [    set state N] *)
Lemma fstate_sem cmd n :
  line_semF cmd (append "    set state " (sN n)) (Some (SSet "state" None [INum n])).
Proof.
  apply (data_line Fish cmd _ (set_line false "state" None [INum n])); [reflexivity | apply freads_set; fv|].
  nonl no_nl_sN no_nl_sN.
Qed.

(** the statements of the matching function of the script (template [write_match_fn_0]) *)
Definition match_fn_stmts : list stmt :=
  [SFunc match_fn_name_fish; SSet "candidates" None []; SSet "descriptions" None []; SSet "matches_case_sensitive" None [];
   SSet "descriptions_case_sensitive" None []; SSet "i" None [INum 1]; SSet "matches_case_insensitive" None [];
   SSet "descriptions_case_insensitive" None []; SSet "i" None [INum 1]; SEnd].

Definition fwrapper_stmts (command : string) (id : N) (t : tables) : list stmt :=
  [SFunc (fn_name command (append "_subword_" (sN id)))]
  ++ flits_stmts true (t_literals t) ++ fmatch_stmts true t ++ fcompletion_stmts true t
  ++ [SCall (fn_name command "_subword")] ++ [SEnd].

Definition fshape_fn_stmts (command : string) (sid : N) (t : tables) : list stmt :=
  [SFunc (fn_name command (append "_subword_shape_" (sN sid)))]
  ++ fmatch_stmts true t ++ fcompletion_stmts true t ++ [SCall (fn_name command "_subword")] ++ [SEnd].

Definition fshape_wrapper_stmts (command : string) (id sid : N) (t : tables) : list stmt :=
  [SFunc (fn_name command (append "_subword_" (sN id)))] ++ flits_stmts true (t_literals t)
  ++ [SCall (fn_name command (append "_subword_shape_" (sN sid)))] ++ [SEnd].

Section Wrappers.
Variable command : string.
Hypothesis Hc : name_ok command.

Lemma fwrapper_scans id t :
  scansF command (append (F.wrapper command id t) nl) (fwrapper_stmts command id t).
Proof.
  pose proof (sub_suffix_ok "_subword_" id eq_refl) as S1.
  unfold F.wrapper, fwrapper_stmts. cbn [sconcat]. rewrite !append_assoc.
  apply scansE_app; [unit_by fdeep ltac:(open_line (fheader_sem command _ Hc S1 eq_refl); constructor)|].
  apply scansE_app; [apply reads_scansG, freads_lits|].
  apply scansE_app; [apply reads_scansG, freads_match|].
  apply scansE_app; [apply reads_scansG, freads_completion|].
  apply scansE_app; [unit_by fdeep ltac:(open_line (fcall_sem command "_subword" Hc eq_refl); constructor)|].
  apply scansE_cons; [plain_unit fdeep | apply (blank_scansG Fish fblank)].
Qed.

Lemma fshape_fn_scans sid t :
  scansF command (append (F.shape_fn command sid t) nl) (fshape_fn_stmts command sid t).
Proof.
  pose proof (sub_suffix_ok "_subword_shape_" sid eq_refl) as S1.
  unfold F.shape_fn, fshape_fn_stmts. cbn [sconcat]. rewrite !append_assoc.
  apply scansE_app; [unit_by fdeep ltac:(open_line (fheader_sem command _ Hc S1 eq_refl); constructor)|].
  apply scansE_app; [apply reads_scansG, freads_match|].
  apply scansE_app; [apply reads_scansG, freads_completion|].
  apply scansE_app; [unit_by fdeep ltac:(open_line (fcall_sem command "_subword" Hc eq_refl); constructor)|].
  apply scansE_cons; [plain_unit fdeep | apply (blank_scansG Fish fblank)].
Qed.

Lemma fshape_wrapper_scans id sid t :
  scansF command (append (F.shape_wrapper command id sid t) nl) (fshape_wrapper_stmts command id sid t).
Proof.
  pose proof (sub_suffix_ok "_subword_" id eq_refl) as S1.
  pose proof (sub_suffix_ok "_subword_shape_" sid eq_refl) as T1.
  unfold F.shape_wrapper, fshape_wrapper_stmts. cbn [sconcat]. rewrite !append_assoc.
  apply scansE_app; [unit_by fdeep ltac:(open_line (fheader_sem command _ Hc S1 eq_refl); constructor)|].
  apply scansE_app; [apply reads_scansG, freads_lits|].
  apply scansE_app; [unit_by fdeep ltac:(open_line (fcall_sem command _ Hc T1); constructor)|].
  apply scansE_cons; [plain_unit fdeep | apply (blank_scansG Fish fblank)].
Qed.
End Wrappers.

Definition fcmd_fns_stmts (command : string) (ics : list (N * string)) : list stmt :=
  flat_map (fun ic => [SFunc (fn_name command (append "_cmd_" (sN (fst ic)))); SBody (snd ic); SEnd]) ics.

Lemma fcmd_fns_scans command (Hc : name_ok command) ics :
  Forall (fun ic => body_okG Fish (snd ic)) ics ->
  scansF command
    (sconcat (map (fun ic : N * string => fmt write_completion_script_0 (("id", sN (fst ic)) :: ("cmd", snd ic) :: envF command)) ics))
    (fcmd_fns_stmts command ics).
Proof.
  apply (cmd_fns_scansG Fish fdp fdeep fblank command
           (fun id => append "function _" (append command (append "_cmd_" (sN id))))
           (fun id => fn_name command (append "_cmd_" (sN id))) _ (fun b => b)).
  - intros ic. unfold cmd_fn_textG. rewrite !append_assoc. reflexivity.
  - discriminate.
  - intros id. pose proof (sub_suffix_ok "_cmd_" id eq_refl) as S1. apply (fheader_reads command _ Hc S1).
  - intros id. apply is_cmd_fn_true.
Qed.

Definition fsub_fn_stmts (command : string) : list stmt :=
  [SFunc (fn_name command "_subword")]
  ++ [SSet "subword_state" None [INum 1]; SSet "char_index" None [INum 1]; SSet "matched" None [INum 0]]
  ++ [SSet "matched_prefix" None []; SSet "fallback_level" None [INum 0]] ++ [SEnd].

Lemma fsub_fn_scans command (Hp : fname_ok command) nc ns :
  scansF command (EmitFish.write_subword_fn command nc ns) (fsub_fn_stmts command).
Proof.
  pose proof (proj1 Hp) as Hc. unfold EmitFish.write_subword_fn, fmt, fsub_fn_stmts. cbn [sconcat].
  apply scans_nl_after; [unit_by fdeep ltac:(open_line (fheader_sem command "_subword" Hc eq_refl eq_refl); constructor)|].
  apply scans_nl_app; [reflexivity | plain_unit fdeep|].
  apply scans_nl_if0; [reflexivity | plain_unit fdeep|].
  apply scans_nl_if0; [reflexivity | plain_unit fdeep|].
  apply scans_nl_app0; [reflexivity | plain_unit fdeep|].
  apply scans_nl_app; [reflexivity | plain_unit fdeep|].
  apply scans_nl_if0; [reflexivity | plain_unit fdeep|].
  apply scans_nl_last; [reflexivity|]. rewrite append_nil_r. plain_unit fdeep.
Qed.

Definition fgroup_stmts (command : string) : alltables -> N -> list N -> res (list stmt) :=
  group_stmtsG (fwrapper_stmts command) (fshape_fn_stmts command) (fshape_wrapper_stmts command).

Definition fsublevel_stmts (ls : list (list (N * list N))) : list stmt :=
  flevel_stmts false "subword_froms_level_" "subwords_level_" ls.

Definition fscript_stmts (command : string) (start : N) (nd : needs) (a : alltables) (groups : list (list N))
  : res (list stmt) :=
  let main := a_main a in
  do gs <- (if n_subwords nd then
              do l <- omap (fun ig : N * list N => fgroup_stmts command a (fst ig) (snd ig)) (number_from 0 groups);
              Ok (List.concat l)
            else Ok []);
  do rows <- (if n_subwords nd then resolve_rows a else Ok []);
  Ok (fcmd_fns_stmts command (number_from 0 (a_commands a)) ++ gs
      ++ match_fn_stmts
      ++ (if n_subwords nd then fsub_fn_stmts command else [])
      ++ [SFunc (append "_" command)] ++ [SSet "COMP_WORDS" None []]
      ++ [SSet "descrs" None []; SSet "descr_literal_ids" None []]
      ++ flits_stmts false (t_literals main)
      ++ [SSet "literal_transitions_inputs" None []; SSet "command_transitions" None [];
          SSet "star_transitions_from" None []; SSet "star_transitions_to" None []]
      ++ fmatch_stmts false main
      ++ (if n_subwords nd then fsubrow_stmts rows else [])
      ++ [SSet "state" None [INum (start + F.st)]; SSet "word_index" None [INum 2]]
      ++ fcompletion_stmts false main
      ++ (if n_subwords nd then fsublevel_stmts (a_csub a) else [])
      ++ [SSet "fallback_level" None [INum 0]] ++ [SEnd] ++ [SRegister [append "_" command; command]]).

Theorem fish_script_read command sig start nd a groups s :
  fname_ok command -> no_nl sig = true ->
  Forall (fun c => body_okG Fish c) (a_commands a) ->
  EmitFish.script command sig start nd a groups = Ok s ->
  exists sts, fscript_stmts command start nd a groups = Ok sts /\ read_stmts Fish command s = sts.
Proof.
  intros Hp Hsig Hbodies H. pose proof (proj1 Hp) as Hc. unfold EmitFish.script in H. unfold fscript_stmts, fgroup_stmts.
  refine (script_readG Fish command _ _ _ _ _ _ (fun _ => True)
            (fun id t _ => fwrapper_scans command Hc id t) (fshape_fn_scans command Hc)
            (fun id sid t _ => fshape_wrapper_scans command Hc id sid t) a groups _ _ _ _ s (fun _ _ _ => I) _ H).
  intros groups_part gs rows Hgn.
  cbn [sconcat]. unfold fmt.
  (* function _<cmd> and the template after it form one unit *)
  rewrite <- (append_assoc (render (envF command) write_completion_script_1)), <- render_app.
  rewrite (append_nil_r (fmtln write_completion_script_25 (envF command))).
  apply scansE_app0; [apply (sig_scansG Fish command sig (fun _ => eq_refl) Hsig)|].
  apply scansE_app0; [apply (blank_scansG Fish fblank)|].
  apply scansE_app; [apply (fcmd_fns_scans command Hc), (Forall_number_from (fun c => body_okG Fish c)), Hbodies|].
  apply scansE_app; [exact Hgn|].
  apply scansE_app; [unit_by fdeep ltac:(open_line (fmatch_header_sem command); constructor)|].
  apply scansE_app; [apply scansE_if; apply (fsub_fn_scans command Hp)|].
  apply scansE_app0; [apply (blank_scansG Fish fblank)|].
  apply scansE_cons; [unit_by fdeep ltac:(open_line (fheader_main_sem command Hc); constructor)|].
  apply scansE_cons; [plain_unit fdeep|].
  apply scansE_cons; [plain_unit fdeep|].
  apply scansE_cons; [plain_unit fdeep|].
  apply scansE_app; [apply reads_scansG, freads_lits|].
  apply scansE_cons; [plain_unit fdeep|].
  apply scansE_cons; [plain_unit fdeep|].
  apply scansE_cons; [plain_unit fdeep|].
  apply scansE_cons; [plain_unit fdeep|].
  apply scansE_app; [apply reads_scansG, freads_match|].
  apply scansE_app; [apply scansE_if, reads_scansG, freads_subrows|].
  apply scansE_app; [unit_by fdeep ltac:(open_line (fstate_sem command (start + F.st)); constructor)|].
  apply scansE_app0; [apply scansE_if0; plain_unit fdeep|].
  apply scansE_app0; [apply scansE_if0; plain_unit fdeep|].
  apply scansE_app0; [apply scansE_if0; plain_unit fdeep|].
  apply scansE_app0; [plain_unit fdeep|].
  apply scansE_app0; [apply (blank_scansG Fish fblank)|].
  apply scansE_app; [apply reads_scansG, freads_completion|].
  apply scansE_app; [apply scansE_if, reads_scansG, freads_sublevels|].
  apply scansE_app; [unit_by fdeep ltac:(open_line (fwhile_sem command (t_maxlevel (a_main a))); constructor)|].
  apply scansE_app0; [apply scansE_if0; plain_unit fdeep|].
  apply scansE_app0; [apply scansE_if0; plain_unit fdeep|].
  apply scansE_app; [plain_unit fdeep|].
  apply scansE_app0; [unit_by fdeep ltac:(open_line (ferase_sem command Hc); constructor)|].
  unit_by fdeep ltac:(open_line (fregister_sem command Hp); constructor).
Qed.

(** C07 on the whole script: the literal list and every description of the completion function read
    back to the texts of the tables *)
Lemma fish_script_constants command sig start nd a groups s :
  fname_ok command -> no_nl sig = true ->
  Forall (fun c => body_okG Fish c) (a_commands a) ->
  EmitFish.script command sig start nd a groups = Ok s ->
  In (SSet "literals" None (map (fun l : N * string * string => IStr (snd (fst l))) (t_literals (a_main a)))) (read_stmts Fish command s)
  /\ forall k d, In (k, d) (number_from 0 (descr_set (t_literals (a_main a)))) ->
                 In (SSet "descrs" (Some (k + 1)) [IStr d]) (read_stmts Fish command s).
Proof.
  intros Hc Hsig Hb H. destruct (fish_script_read _ _ _ _ _ _ _ Hc Hsig Hb H) as [sts [Hs ->]].
  unfold fscript_stmts in Hs.
  apply obind_ok in Hs. destruct Hs as [gs [_ Hs]]. apply obind_ok in Hs. destruct Hs as [rows [_ Hs]].
  apply Ok_inj in Hs. subst sts.
  (* the literals of the completion function are the eighth piece of the statement list *)
  split; [|intros k d Hkd]; do 7 (apply in_or_app; right); apply in_or_app; left.
  - left. reflexivity.
  - right. apply in_or_app. left.
    apply (in_map (fun id : N * string => SSet "descrs" (Some (fst id + 1)) [IStr (snd id)]) _ (k, d) Hkd).
Qed.
