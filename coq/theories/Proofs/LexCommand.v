(** [{{{ command }}}]: the printed form (white space inside the braces chosen by the layout)
    lexes back to the command. *)
From CG Require Import Base.Prelude Base.Facts Model.Ast Model.Lexer Model.Parser Spec.Printer
  Proofs.LexBase Proofs.LexBlanks.
From CGgen Require Import Consts.

Definition RBRACE : ascii := ascii_of_N 125.
Arguments RBRACE : simpl never.

Lemma starts_with_self : forall t r, starts_with t (append t r) = true.
Proof. intros. unfold starts_with. rewrite strip_prefix_self. reflexivity. Qed.

Lemma split_until_here : forall t r, split_until t (append t r) = Some (EmptyString, append t r).
Proof.
  intros. assert (E : forall s, split_until t s =
      if starts_with t s then Some (EmptyString, s)
      else match s with
           | EmptyString => None
           | String c r => match split_until t r with Some (a, b) => Some (String c a, b) | None => None end
           end) by (destruct s; reflexivity).
  rewrite E, starts_with_self. reflexivity.
Qed.

Lemma split_until_app : forall t s a b, split_until t s = Some (a, b) -> s = append a b.
Proof.
  induction s as [|c r IH]; intros a b H.
  - cbn in H. destruct (starts_with t EmptyString); inversion H; reflexivity.
  - cbn [split_until] in H. destruct (starts_with t (String c r)); [inversion H; reflexivity|].
    destruct (split_until t r) as [[x y]|]; [|discriminate]. inversion H; subst. cbn. f_equal. apply IH; auto.
Qed.

Lemma split_until_skip : forall t c s,
    starts_with t (String c s) = false ->
    split_until t (String c s) = match split_until t s with Some (a, b) => Some (String c a, b) | None => None end.
Proof. intros. cbn [split_until]. rewrite H. reflexivity. Qed.

Lemma starts3_head : forall c s, starts_with RBRACE3 (String c s) = true -> c = RBRACE.
Proof.
  intros c s H. unfold starts_with, RBRACE3 in H. cbn [strip_prefix] in H. change "}"%char with RBRACE in H.
  destruct (Ascii.eqb RBRACE c) eqn:E; [|discriminate]. apply Ascii.eqb_eq in E. auto.
Qed.

Lemma starts3_three : forall a b c s s', starts_with RBRACE3 (String a (String b (String c s)))
                                         = starts_with RBRACE3 (String a (String b (String c s'))).
Proof.
  intros. unfold starts_with, RBRACE3. cbn [strip_prefix].
  destruct (Ascii.eqb "}" a), (Ascii.eqb "}" b), (Ascii.eqb "}" c); reflexivity.
Qed.

Lemma starts3_second : forall a b s, starts_with RBRACE3 (String a (String b s)) = true -> b = RBRACE.
Proof.
  intros a b s H. unfold starts_with, RBRACE3 in H. cbn [strip_prefix] in H. change "}"%char with RBRACE in H.
  destruct (Ascii.eqb RBRACE a); [|discriminate].
  destruct (Ascii.eqb RBRACE b) eqn:E; [|discriminate]. apply Ascii.eqb_eq in E. auto.
Qed.

Lemma starts3_third : forall a b c s, starts_with RBRACE3 (String a (String b (String c s))) = true -> c = RBRACE.
Proof.
  intros a b c s H. unfold starts_with, RBRACE3 in H. cbn [strip_prefix] in H. change "}"%char with RBRACE in H.
  destruct (Ascii.eqb RBRACE a); [|discriminate]. destruct (Ascii.eqb RBRACE b); [|discriminate].
  destruct (Ascii.eqb RBRACE c) eqn:E; [|discriminate]. apply Ascii.eqb_eq in E. auto.
Qed.

Lemma tws_not_rbrace : forall w, tws_char w <> RBRACE.
Proof. intros []; vm_compute; discriminate. Qed.

Lemma split_until_ws : forall w s,
    split_until RBRACE3 (append (tws_text w) s)
    = match split_until RBRACE3 s with Some (a, b) => Some (append (tws_text w) a, b) | None => None end.
Proof.
  induction w as [|x w IH]; intros s; cbn [tws_text append].
  - destruct (split_until RBRACE3 s) as [[a b]|]; reflexivity.
  - rewrite split_until_skip.
    + rewrite IH. destruct (split_until RBRACE3 s) as [[a b]|]; reflexivity.
    + destruct (starts_with RBRACE3 (String (tws_char x) (append (tws_text w) s))) eqn:E; auto.
      apply starts3_head in E. exfalso. eapply tws_not_rbrace; eauto.
Qed.

Lemma rev_append_app : forall a b acc, rev_append (append a b) acc = rev_append b (rev_append a acc).
Proof. induction a; cbn; intros; auto. Qed.

Lemma rev_append_acc : forall a acc, rev_append a acc = append (srev a) acc.
Proof.
  unfold srev. induction a; cbn [rev_append]; intros; auto.
  rewrite IHa. rewrite (IHa (String a EmptyString)). rewrite append_assoc. reflexivity.
Qed.

Lemma srev_cons : forall c s, srev (String c s) = append (srev s) (String c EmptyString).
Proof. intros. unfold srev. cbn [rev_append]. apply rev_append_acc. Qed.

Lemma srev_app : forall a b, srev (append a b) = append (srev b) (srev a).
Proof. intros. unfold srev at 1. rewrite rev_append_app. rewrite rev_append_acc. reflexivity. Qed.

Lemma srev_involutive : forall s, srev (srev s) = s.
Proof.
  induction s; [reflexivity|]. rewrite srev_cons, srev_app, IHs. reflexivity.
Qed.

Lemma ends_in_rbrace_cons : forall c x y, ends_in_rbrace (String c (String x y)) = ends_in_rbrace (String x y).
Proof.
  intros. unfold ends_in_rbrace. rewrite (srev_cons c). destruct (srev (String x y)) eqn:E; [|reflexivity].
  exfalso. apply (f_equal srev) in E. rewrite srev_involutive in E. discriminate.
Qed.

Lemma ends_in_rbrace_one : forall c, ends_in_rbrace (String c EmptyString) = Ascii.eqb c RBRACE.
Proof. intros. reflexivity. Qed.

Lemma has_sub_cons : forall t c s, has_sub t (String c s) = false ->
    starts_with t (String c s) = false /\ has_sub t s = false.
Proof. intros t c s H. cbn [has_sub] in H. destruct (starts_with t (String c s)); [discriminate|]. auto. Qed.

Lemma split_until_cmd : forall c w r,
    has_sub RBRACE3 c = false ->
    (ends_in_rbrace c = true -> w <> []) ->
    split_until RBRACE3 (append c (append (tws_text w) (append RBRACE3 r)))
    = Some (append c (tws_text w), append RBRACE3 r).
Proof.
  induction c as [|x c IH]; intros w r H E.
  - cbn [append]. rewrite split_until_ws, split_until_here. rewrite append_nil_r. reflexivity.
  - apply has_sub_cons in H as [H1 H2]. cbn [append]. rewrite split_until_skip.
    + rewrite IH; auto.
      intros Hc. apply E. destruct c as [|y c]; [discriminate|]. rewrite ends_in_rbrace_cons. exact Hc.
    + destruct (starts_with RBRACE3 (String x (append c (append (tws_text w) (append RBRACE3 r))))) eqn:T; auto.
      exfalso. destruct c as [|y [|z c]]; cbn [append] in T.
      * (* one character left: x = }, so white space follows *)
        pose proof (starts3_head _ _ T). subst x.
        destruct w as [|w0 w]; [apply E; reflexivity|]. cbn [tws_text append] in T.
        apply starts3_second in T. eapply tws_not_rbrace; eauto.
      * pose proof (starts3_second _ _ _ T). subst y.
        destruct w as [|w0 w].
        { apply E; [|reflexivity]. rewrite ends_in_rbrace_cons. reflexivity. }
        cbn [tws_text append] in T. apply starts3_third in T. eapply tws_not_rbrace; eauto.
      * rewrite (starts3_three x y z _ c) in T. cbn [append] in H1. rewrite H1 in T. discriminate.
Qed.

Section Strip.
Variables (w2 : N -> N -> bool) (w3 : N -> N -> N -> bool).

(** One white-space character (one, two or three bytes) taken off the front. *)
Definition ws_unit (s : string) : option string :=
  match s with
  | String a r1 =>
      if ascii_ws (N_of_ascii a) then Some r1
      else match r1 with
           | String b r2 =>
               if w2 (N_of_ascii a) (N_of_ascii b) then Some r2
               else match r2 with
                    | String c r3 => if w3 (N_of_ascii a) (N_of_ascii b) (N_of_ascii c) then Some r3 else None
                    | EmptyString => None
                    end
           | EmptyString => None
           end
  | EmptyString => None
  end.

Lemma ws_unit_cut : forall s r, ws_unit s = Some r -> exists a u, s = String a (append u r).
Proof.
  intros s r H. destruct s as [|a s]; [discriminate|]. cbn [ws_unit] in H. exists a.
  destruct (ascii_ws (N_of_ascii a)). { exists EmptyString. inversion H. reflexivity. }
  destruct s as [|b s]; [discriminate|].
  destruct (w2 (N_of_ascii a) (N_of_ascii b)). { exists (String b EmptyString). inversion H. reflexivity. }
  destruct s as [|c s]; [discriminate|].
  destruct (w3 (N_of_ascii a) (N_of_ascii b) (N_of_ascii c)); [|discriminate].
  exists (String b (String c EmptyString)). inversion H. reflexivity.
Qed.

Lemma ws_unit_app : forall p q r, ws_unit p = Some r -> ws_unit (append p q) = Some (append r q).
Proof.
  intros p q r H. destruct p as [|a p]; [discriminate|]. cbn [ws_unit append] in *.
  destruct (ascii_ws (N_of_ascii a)). { inversion H. reflexivity. }
  destruct p as [|b p]; [discriminate|]. cbn [append].
  destruct (w2 (N_of_ascii a) (N_of_ascii b)). { inversion H. reflexivity. }
  destruct p as [|c p]; [discriminate|]. cbn [append].
  destruct (w3 (N_of_ascii a) (N_of_ascii b) (N_of_ascii c)); [|discriminate]. inversion H. reflexivity.
Qed.

Lemma ws_unit_ind : forall P : string -> Prop,
    (forall s, ws_unit s = None -> P s) ->
    (forall s r, ws_unit s = Some r -> P r -> P s) ->
    forall s, P s.
Proof.
  intros P H0 H1. apply (well_founded_induction (well_founded_ltof _ String.length)). intros s IH.
  destruct (ws_unit s) as [r|] eqn:E; [|auto]. apply (H1 s r E), IH.
  destruct (ws_unit_cut _ _ E) as (a & u & ->). unfold ltof. cbn [String.length]. rewrite length_append. lia.
Qed.

Variable f : string -> string.
Hypothesis f_step : forall s, f s = match ws_unit s with Some r => f r | None => s end.

Lemma strip_done : forall s, ws_unit (f s) = None.
Proof.
  induction s as [s E|s r E IH] using ws_unit_ind; rewrite f_step, E.
  - exact E.
  - exact IH.
Qed.

Lemma strip_fixed : forall s, f s = s <-> ws_unit s = None.
Proof.
  intros s. split; intros E.
  - rewrite <- E. apply strip_done.
  - rewrite f_step, E. reflexivity.
Qed.

Lemma strip_idem : forall s, f (f s) = f s.
Proof. intros s. apply strip_fixed, strip_done. Qed.

Lemma strip_suffix : forall s, exists u, s = append u (f s).
Proof.
  induction s as [s E|s r E [u IH]] using ws_unit_ind; rewrite f_step, E.
  - exists EmptyString. reflexivity.
  - destruct (ws_unit_cut _ _ E) as (a & v & ->). exists (String a (append v u)).
    cbn [append]. rewrite append_assoc, <- IH. reflexivity.
Qed.

Lemma strip_prefix_fixed : forall p q, f (append p q) = append p q -> f p = p.
Proof.
  intros p q E. apply strip_fixed in E. apply strip_fixed.
  destruct (ws_unit p) as [r|] eqn:U; [|reflexivity]. rewrite (ws_unit_app _ q _ U) in E. discriminate.
Qed.

End Strip.

Lemma trim_start_step : forall s,
    trim_start s = match ws_unit ws2 ws3 s with Some r => trim_start r | None => s end.
Proof.
  intros s. destruct s as [|a s]; [reflexivity|]. cbn [trim_start ws_unit].
  destruct (ascii_ws (N_of_ascii a)); [reflexivity|]. destruct s as [|b s]; [reflexivity|].
  destruct (ws2 (N_of_ascii a) (N_of_ascii b)); [reflexivity|]. destruct s as [|c s]; [reflexivity|].
  destruct (ws3 (N_of_ascii a) (N_of_ascii b) (N_of_ascii c)); reflexivity.
Qed.

(** The bytes of a character are met in the opposite order. *)
Lemma trim_rev_step : forall s,
    trim_rev s = match ws_unit (fun a b => ws2 b a) (fun a b c => ws3 c b a) s with Some r => trim_rev r | None => s end.
Proof.
  intros s. destruct s as [|a s]; [reflexivity|]. cbn [trim_rev ws_unit].
  destruct (ascii_ws (N_of_ascii a)); [reflexivity|]. destruct s as [|b s]; [reflexivity|].
  destruct (ws2 (N_of_ascii b) (N_of_ascii a)); [reflexivity|]. destruct s as [|c s]; [reflexivity|].
  destruct (ws3 (N_of_ascii c) (N_of_ascii b) (N_of_ascii a)); reflexivity.
Qed.

Lemma tws_ascii_ws : forall w, ascii_ws (N_of_ascii (tws_char w)) = true.
Proof. intros []; reflexivity. Qed.

Lemma trim_start_ws : forall w s, trim_start (append (tws_text w) s) = trim_start s.
Proof.
  induction w as [|x w IH]; intros; cbn [tws_text append]; auto.
  cbn [trim_start]. rewrite tws_ascii_ws. apply IH.
Qed.

(** ASCII white space lies below 128; the second and third byte of a longer white-space character
    are compared with constants from 128 up. *)
Lemma ascii_ws_low : forall n, ascii_ws n = true -> (n < 128)%N.
Proof.
  intros n. unfold ascii_ws. rewrite orb_true_iff, andb_true_iff, !N.leb_le, N.eqb_eq. lia.
Qed.

Lemma low_byte : forall x k, (x < 128)%N -> (128 <= k)%N -> N.eqb x k = false.
Proof. intros x k L H. apply N.eqb_neq. lia. Qed.

Lemma ws2_low : forall a x, (x < 128)%N -> ws2 a x = false.
Proof. intros a x L. unfold ws2. rewrite !(low_byte x) by easy. apply andb_false_r. Qed.

Lemma ws3_low_b : forall a x c, (x < 128)%N -> ws3 a x c = false.
Proof. intros a x c L. unfold ws3. rewrite !(low_byte x) by easy. rewrite !andb_false_r. reflexivity. Qed.

Lemma ws3_low_c : forall a b x, (x < 128)%N -> ws3 a b x = false.
Proof.
  intros a b x L. unfold ws3. rewrite !(low_byte x) by easy. rewrite (proj2 (N.leb_gt 128 x) L).
  cbn [andb orb]. rewrite !andb_false_r. reflexivity.
Qed.

(** So white space after [s] does not complete a character begun in [s]. *)
Lemma ws_unit_before_ws : forall s x q,
    s <> EmptyString -> ws_unit ws2 ws3 s = None -> ascii_ws (N_of_ascii x) = true ->
    ws_unit ws2 ws3 (append s (String x q)) = None.
Proof.
  intros s x q Hne H X. apply ascii_ws_low in X.
  destruct s as [|a s]; [congruence|]. cbn [ws_unit append] in *.
  destruct (ascii_ws (N_of_ascii a)); [discriminate|]. destruct s as [|b s]; cbn [append].
  - rewrite ws2_low by exact X. destruct q as [|y q]; [reflexivity|]. rewrite ws3_low_b by exact X. reflexivity.
  - destruct (ws2 (N_of_ascii a) (N_of_ascii b)); [discriminate|]. destruct s as [|c s]; cbn [append].
    + rewrite ws3_low_c by exact X. reflexivity.
    + destruct (ws3 (N_of_ascii a) (N_of_ascii b) (N_of_ascii c)); [discriminate|reflexivity].
Qed.

Lemma trim_start_fixed_app : forall s w, s <> EmptyString -> trim_start s = s ->
    trim_start (append s (tws_text w)) = append s (tws_text w).
Proof.
  intros s w Hne H. apply (strip_fixed _ _ _ trim_start_step) in H. apply (strip_fixed _ _ _ trim_start_step).
  destruct w as [|x w]; cbn [tws_text].
  - rewrite append_nil_r. exact H.
  - apply ws_unit_before_ws; auto. apply tws_ascii_ws.
Qed.

Lemma trim_rev_ws : forall w y, trim_rev (rev_append (tws_text w) y) = trim_rev y.
Proof.
  induction w as [|x w IH]; intros; cbn [tws_text rev_append]; auto.
  rewrite IH. cbn [trim_rev]. rewrite tws_ascii_ws. reflexivity.
Qed.

Lemma trim_end_fixed_app : forall s w, trim_end s = s -> trim_end (append s (tws_text w)) = s.
Proof.
  intros s w H. unfold trim_end in *. unfold srev at 2. rewrite rev_append_app, trim_rev_ws.
  exact H.
Qed.

Lemma trim_printed : forall c w0 w1,
    trim_start c = c -> trim_end c = c ->
    trim (append (tws_text w0) (append c (tws_text w1))) = c.
Proof.
  intros c w0 w1 H1 H2. unfold trim. rewrite trim_start_ws.
  destruct c as [|a c].
  - cbn [append]. rewrite <- (append_nil_r (tws_text w1)), trim_start_ws. reflexivity.
  - rewrite trim_start_fixed_app by (auto; discriminate). apply trim_end_fixed_app; auto.
Qed.

Theorem command_printed : forall c w0 w1 r p,
    wf_cmd c = true ->
    triple_bracket_command
      (mkin (append LBRACE3 (append (tws_text w0) (append c (append (tws_text (cmd_ws1 c w1)) (append RBRACE3 r))))) p)
    = Ok (c, mkin r (adv_str RBRACE3 (adv_str (tws_text (cmd_ws1 c w1))
                       (adv_str c (adv_str (tws_text w0) (adv_str LBRACE3 p)))))).
Proof.
  intros c w0 w1 r p W. unfold wf_cmd in W.
  apply andb_true_iff in W as [W W3]. apply andb_true_iff in W as [W1 W2].
  apply negb_true_iff in W1. apply String.eqb_eq in W2, W3.
  unfold triple_bracket_command. rewrite tag_p_hit. cbn [obind]. unfold take_until. cbn [rest at_].
  rewrite split_until_ws, split_until_cmd; auto.
  2:{ intros E. unfold cmd_ws1. rewrite E. destruct w1; discriminate. }
  cbn [obind]. rewrite tag_p_hit. cbn [obind].
  rewrite trim_printed by assumption.
  rewrite !adv_str_app. reflexivity.
Qed.
