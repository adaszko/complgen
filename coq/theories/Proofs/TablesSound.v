(** L-tables: what [get_lookup_tables] puts into the tables is exactly the labelled transition
    relation and the per-level candidate relation of the automaton (C04). *)
From CG Require Export Base.Facts.
From CG Require Import Base.Prelude Proofs.ListFacts Model.Ast Model.Dfa Model.Tables Model.EmitBash.
Open Scope N_scope.
Open Scope list_scope.

Lemma omap_ok_in {E A B} (f : A -> outcome E B) l ys :
  omap f l = Ok ys -> forall y, In y ys <-> exists x, In x l /\ f x = Ok y.
Proof.
  intros H y. apply omap_ok in H. split.
  - intro Hy. exact (Forall2_In_r _ _ _ _ H Hy).
  - intros [x [Hx Hf]]. destruct (Forall2_In_l _ _ _ _ H Hx) as [y' [Hy' Hf']]. congruence.
Qed.

Lemma omap_ok_length {E A B} (f : A -> outcome E B) l ys : omap f l = Ok ys -> List.length ys = List.length l.
Proof. intro H. apply omap_ok in H. symmetry. exact (Forall2_length _ _ _ H). Qed.

Lemma omap_rel {E A B C} (R : B -> C -> Prop) (f : A -> outcome E B) (g : A -> outcome E C) l ys :
  (forall x y, f x = Ok y -> exists z, g x = Ok z /\ R y z) ->
  omap f l = Ok ys -> exists zs, omap g l = Ok zs /\ Forall2 R ys zs.
Proof.
  intros Hfg H. apply omap_ok in H. induction H as [|x y l ys Hy _ [zs [Hzs HR]]].
  - exists []. split; [reflexivity | constructor].
  - destruct (Hfg _ _ Hy) as [z [Hz Hr]].
    exists (z :: zs). split; [cbn [omap]; rewrite Hz; cbn [obind]; rewrite Hzs; reflexivity | constructor; assumption].
Qed.

Lemma omap_map_ok {E A B C} (h : B -> C) (f : A -> outcome E C) (g : A -> outcome E B) l ys :
  (forall x y, f x = Ok y -> exists z, g x = Ok z /\ y = h z) ->
  omap f l = Ok ys -> exists zs, omap g l = Ok zs /\ ys = map h zs.
Proof.
  intros Hfg H. destruct (omap_rel (fun y z => y = h z) f g l ys Hfg H) as [zs [Hz HR]].
  exists zs. split; [exact Hz|]. clear -HR. induction HR as [|y z ys zs -> _ ->]; reflexivity.
Qed.

(** ** increasing sets and maps, by membership (no sortedness invariant is needed) *)
Lemma insertN_in x y l : In x (insertN y l) <-> x = y \/ In x l.
Proof.
  induction l as [|z r IH]; cbn.
  - intuition congruence.
  - destruct (N.ltb y z) eqn:E1; cbn; [intuition congruence|].
    destruct (N.eqb y z) eqn:E2; cbn.
    + apply N.eqb_eq in E2. subst. intuition congruence.
    + rewrite IH. intuition congruence.
Qed.

Lemma push_in x y l : In x (push y l) <-> x = y \/ In x l.
Proof. unfold push. rewrite in_app_iff. cbn. intuition congruence. Qed.

Lemma setN_in x l : In x (setN l) <-> In x l.
Proof.
  unfold setN. assert (G : forall acc, In x (fold_left (fun a y => insertN y a) l acc) <-> In x l \/ In x acc).
  { induction l as [|y r IH]; cbn; intros acc; [tauto|]. rewrite IH, insertN_in. intuition. }
  rewrite G. cbn. tauto.
Qed.

Definition mem2 (m : list (N * list N)) (s id : N) : Prop := exists ids, In (s, ids) m /\ In id ids.

Lemma mem2_nil s id : mem2 [] s id <-> False.
Proof. split; [intros [ids [[] _]] | intros []]. Qed.

Lemma mem2_cons k v r s id : mem2 ((k, v) :: r) s id <-> (s = k /\ In id v) \/ mem2 r s id.
Proof.
  unfold mem2. split.
  - intros [ids [[H|H] Hi]]; [injection H as <- <-; auto | right; eauto].
  - intros [[-> H]|[ids [H Hi]]]; [exists v | exists ids]; cbn; auto.
Qed.

Lemma bt_update_mem2 (add : N -> list N -> list N) :
  (forall x y l, In x (add y l) <-> x = y \/ In x l) ->
  forall s0 id0 m s id,
    mem2 (bt_update s0 (fun old => add id0 (match old with Some l => l | None => [] end)) m) s id
    <-> mem2 m s id \/ (s = s0 /\ id = id0).
Proof.
  intros Hadd s0 id0 m s id. induction m as [|[k' v'] r IH]; cbn [bt_update].
  - rewrite mem2_cons, Hadd, mem2_nil. cbn [In]. tauto.
  - destruct (N.ltb s0 k'); [rewrite !mem2_cons, Hadd; cbn [In]; tauto|].
    destruct (N.eqb_spec s0 k') as [<-|Hne]; rewrite !mem2_cons, ?Hadd, ?IH; tauto.
Qed.

Lemma bt_insert_in {V} k v (m : list (N * V)) k0 v0 :
  In (k0, v0) (bt_insert k v m) -> (k0, v0) = (k, v) \/ In (k0, v0) m.
Proof.
  unfold bt_insert. induction m as [|[k' v'] r IH]; cbn.
  - intros [H|[]]. left. congruence.
  - destruct (N.ltb k k'); cbn; [intros [H|H]; [left; congruence | right; exact H]|].
    destruct (N.eqb k k'); cbn.
    + intros [H|H]; [left; congruence | right; right; exact H].
    + intros [H|H]; [right; left; exact H|]. destruct (IH H); auto.
Qed.

Lemma bt_insert_same {V} k v (m : list (N * V)) : In (k, v) (bt_insert k v m).
Proof.
  unfold bt_insert. induction m as [|[k' v'] r IH]; cbn; [auto|].
  destruct (N.ltb k k'); cbn; [auto|]. destruct (N.eqb k k'); cbn; auto.
Qed.

Lemma bt_insert_other {V} k v (m : list (N * V)) k0 v0 :
  k0 <> k -> In (k0, v0) m -> In (k0, v0) (bt_insert k v m).
Proof.
  unfold bt_insert. intros Hne. induction m as [|[k' v'] r IH]; cbn; [tauto|].
  destruct (N.ltb k k'); cbn; [tauto|]. destruct (N.eqb k k') eqn:E; cbn.
  - apply N.eqb_eq in E. subst. intros [H|H]; [inversion H; subst; congruence | auto].
  - intros [H|H]; auto.
Qed.

Lemma bt_of_list_in {V} (l : list (N * V)) k v : In (k, v) (bt_of_list l) -> In (k, v) l.
Proof.
  unfold bt_of_list.
  assert (G : forall acc, In (k, v) (fold_left (fun a kv => bt_insert (fst kv) (snd kv) a) l acc) -> In (k, v) l \/ In (k, v) acc).
  { induction l as [|[k' v'] r IH]; cbn; intros acc H; [auto|].
    destruct (IH _ H) as [H1|H1]; [auto|]. apply bt_insert_in in H1. destruct H1 as [H1|H1]; [left; left; congruence | auto]. }
  intros H. destruct (G [] H) as [H1|[]]. exact H1.
Qed.

Lemma bt_of_list_complete {V} (l : list (N * V)) k v :
  NoDup (map fst l) -> In (k, v) l -> In (k, v) (bt_of_list l).
Proof.
  unfold bt_of_list.
  assert (Keep : forall r acc, ~ In k (map fst r) -> In (k, v) acc ->
                   In (k, v) (fold_left (fun a kv => bt_insert (fst kv) (snd kv) a) r acc)).
  { induction r as [|[k' v'] r IH]; cbn; intros acc Hn Hin; [exact Hin|].
    apply IH; [tauto|]. apply bt_insert_other; [intros ->; tauto | exact Hin]. }
  assert (G : forall acc, NoDup (map fst l) -> In (k, v) l ->
                In (k, v) (fold_left (fun a kv => bt_insert (fst kv) (snd kv) a) l acc)).
  { induction l as [|[k' v'] r IH]; cbn; intros acc Hnd Hin; [tauto|].
    inversion Hnd; subst. destruct Hin as [Hin|Hin].
    - inversion Hin; subst. apply Keep; [assumption | apply bt_insert_same].
    - apply IH; assumption. }
  apply G.
Qed.

Lemma bt_of_list_nonempty {V} (l : list (N * V)) : l <> [] -> bt_of_list l <> [].
Proof.
  destruct l as [|[k v] r]; [congruence|]. intros _ H.
  assert (G : forall (r : list (N * V)) acc, acc <> [] -> fold_left (fun a kv => bt_insert (fst kv) (snd kv) a) r acc <> []).
  { induction r0 as [|[k' v'] r0 IH]; cbn; intros acc Ha; [exact Ha|]. apply IH.
    intros E. pose proof (bt_insert_same k' v' acc) as HI. rewrite E in HI. exact HI. }
  unfold bt_of_list in H. cbn in H. revert H. apply G. cbn. discriminate.
Qed.

(** ** well-formed automata (what the IndexMaps and the intern pool guarantee) *)
Definition dfa_wf (d : dfa) : Prop :=
  NoDup (map fst (d_trans d))
  /\ forall s tos, In (s, tos) (d_trans d) ->
       NoDup (map fst tos) /\ forall i t, In (i, t) tos -> exists x, nthN (d_inputs d) i = Some x.

Lemma iter_transitions_in d s i t :
  In (s, i, t) (iter_transitions d) <-> exists tos, In (s, tos) (d_trans d) /\ In (i, t) tos.
Proof.
  unfold iter_transitions. rewrite in_flat_map. split.
  - intros [[s' tos] [H1 H2]]. cbn in H2. apply in_map_iff in H2. destruct H2 as [[i' t'] [E H2]].
    cbn in E. inversion E; subst. eauto.
  - intros [tos [H1 H2]]. exists (s, tos). split; [exact H1|]. cbn. apply in_map_iff. exists (i, t). auto.
Qed.

Lemma transitions_from_iter d s i t :
  dfa_wf d -> (In (i, t) (transitions_from d s) <-> In (s, i, t) (iter_transitions d)).
Proof.
  intros [Hnd _]. rewrite iter_transitions_in. unfold transitions_from. split.
  - destruct (assocN s (d_trans d)) as [tos|] eqn:E; [|intros []].
    intros H. exists tos. split; [apply assocN_In; exact E | exact H].
  - intros [tos [H1 H2]]. rewrite (in_assocN _ _ _ Hnd H1). exact H2.
Qed.

(** the automaton's step function (Dfa.step) in terms of membership *)
Lemma step_in d s i t : dfa_wf d -> (step d s i = Some t <-> In (i, t) (transitions_from d s)).
Proof.
  intros [Hnd Hrows]. unfold step, transitions_from.
  destruct (assocN s (d_trans d)) as [tos|] eqn:E; [|split; [discriminate | intros []]].
  apply assocN_In in E. destruct (Hrows _ _ E) as [Hnd2 _]. split.
  - apply assocN_In.
  - apply in_assocN. exact Hnd2.
Qed.

(** a transition of the automaton on input [x] *)
Definition trans_on (d : dfa) (s : N) (x : inp) (to : N) : Prop :=
  exists i, step d s i = Some to /\ nthN (d_inputs d) i = Some x.

Lemma trans_on_from d s x to :
  dfa_wf d -> (trans_on d s x to <-> exists i, In (i, to) (transitions_from d s) /\ nthN (d_inputs d) i = Some x).
Proof.
  intros Hwf. unfold trans_on. split; intros [i [H1 H2]]; exists i; split; auto; apply (step_in _ _ _ _ Hwf); exact H1.
Qed.

Definition tbl_has (tbl : list (N * list (N * N))) (s k to : N) : Prop :=
  exists row, In (s, row) tbl /\ In (k, to) row.

Lemma number_from_in {A} (l : list A) n i x :
  In (i, x) (number_from n l) <-> n <= i /\ nth_error l (N.to_nat (i - n)) = Some x.
Proof.
  revert n. induction l as [|y r IH]; cbn; intros n.
  - split; [intros [] | intros [_ H]]. destruct (N.to_nat (i - n)); discriminate.
  - rewrite IH. split.
    + intros [H|[H1 H2]].
      * inversion H; subst. split; [lia|]. replace (i - i) with 0 by lia. reflexivity.
      * split; [lia|]. replace (N.to_nat (i - n)) with (S (N.to_nat (i - (n + 1)))) by lia. exact H2.
    + intros [H1 H2]. destruct (N.eq_dec i n) as [->|Hne].
      * left. replace (n - n) with 0 in H2 by lia. cbn in H2. congruence.
      * right. split; [lia|]. replace (N.to_nat (i - n)) with (S (N.to_nat (i - (n + 1)))) in H2 by lia. exact H2.
Qed.

Lemma Forall_number_from {A} (P : A -> Prop) l n : Forall P l -> Forall (fun ic : N * A => P (snd ic)) (number_from n l).
Proof. intros H. revert n. induction H; intros n; cbn [number_from]; constructor; auto. Qed.

Definition lit_at (ord : list (string * string)) (start id : N) (t ds : string) : Prop :=
  start <= id /\ nth_error ord (N.to_nat (id - start)) = Some (t, ds).

Lemma all_literals_in ord start id t ds :
  In (id, t, ds) (all_literals ord start) <-> lit_at ord start id t ds.
Proof.
  unfold all_literals, lit_at. rewrite in_map_iff. split.
  - intros [[i [t' d']] [E H]]. cbn in E. inversion E; subst. apply number_from_in in H. exact H.
  - intros H. exists (id, (t, ds)). split; [reflexivity|]. apply number_from_in. exact H.
Qed.

(** [lit_id] finds the LAST entry; with pairwise distinct (text, description) pairs that is the
    only one. *)
Definition lit_step (t ds : string) (acc : option N) (e : N * string * string) : option N :=
  match e with (i, t', d') => if String.eqb t t' && String.eqb ds d' then Some i else acc end.

Lemma lit_fold_some t ds lits acc id :
  fold_left (lit_step t ds) lits acc = Some id -> In (id, t, ds) lits \/ acc = Some id.
Proof.
  revert acc. induction lits as [|[[i t'] d'] r IH]; cbn; intros acc H; [auto|].
  destruct (IH _ H) as [H1|H1]; [auto|].
  destruct (String.eqb t t' && String.eqb ds d') eqn:E.
  - apply andb_prop in E. destruct E as [E1 E2]. apply String.eqb_eq in E1, E2. subst.
    inversion H1; subst. auto.
  - auto.
Qed.

Lemma lit_fold_keep t ds lits acc a :
  acc = Some a -> exists j, fold_left (lit_step t ds) lits acc = Some j.
Proof.
  revert acc a. induction lits as [|[[i t'] d'] r IH]; cbn; intros acc a Ha; [eauto|].
  destruct (String.eqb t t' && String.eqb ds d'); [apply (IH _ i); reflexivity | apply (IH _ a); exact Ha].
Qed.

Lemma lit_fold_found t ds lits acc id :
  In (id, t, ds) lits -> exists j, fold_left (lit_step t ds) lits acc = Some j.
Proof.
  revert acc. induction lits as [|[[i t'] d'] r IH]; cbn; intros acc Hin; [tauto|].
  destruct Hin as [Hin|Hin].
  - inversion Hin; subst. rewrite !String.eqb_refl. cbn. apply (lit_fold_keep _ _ _ _ id). reflexivity.
  - apply IH. exact Hin.
Qed.

Lemma lit_id_spec lits t ds id :
  (forall i1 i2, In (i1, t, ds) lits -> In (i2, t, ds) lits -> i1 = i2) ->
  (lit_id lits t ds = Some id <-> In (id, t, ds) lits).
Proof.
  intros Huniq. change (lit_id lits t ds) with (fold_left (lit_step t ds) lits None). split.
  - intros H. destruct (lit_fold_some _ _ _ _ _ H) as [H1|H1]; [exact H1 | discriminate].
  - intros Hin. destruct (lit_fold_found t ds lits None id Hin) as [j Hf]. rewrite Hf. f_equal.
    destruct (lit_fold_some _ _ _ _ _ Hf) as [Hj|Hj]; [|discriminate]. apply (Huniq j id); assumption.
Qed.

Definition keys_of (sel : inp -> option (res N)) (tr : list (inp * N)) : list (N * N) :=
  flat_map (fun xt => match sel (fst xt) with Some (Ok k) => [(k, snd xt)] | _ => [] end) tr.

Lemma keys_of_concat sel tr kvs :
  omap (fun xt : inp * N => match sel (fst xt) with
                            | Some r => do k <- r; Ok [(k, snd xt)]
                            | None => Ok []
                            end) tr = Ok kvs ->
  List.concat kvs = keys_of sel tr.
Proof.
  revert kvs. induction tr as [|xt tr IH]; cbn; intros kvs H.
  - inversion H. reflexivity.
  - apply obind_ok in H. destruct H as [b [Hb H]]. apply obind_ok in H. destruct H as [bs [Hbs H]].
    inversion H; subst. cbn. rewrite (IH _ Hbs). f_equal.
    destruct (sel (fst xt)) as [[k| | |]|]; cbn in Hb; try discriminate; inversion Hb; reflexivity.
Qed.

Lemma keys_of_in sel tr k to :
  In (k, to) (keys_of sel tr) <-> exists x, In (x, to) tr /\ sel x = Some (Ok k).
Proof.
  unfold keys_of. rewrite in_flat_map. split.
  - intros [[x t] [H1 H2]]. cbn in H2. destruct (sel x) as [[k'| | |]|] eqn:E; cbn in H2; try tauto.
    destruct H2 as [H2|[]]. inversion H2; subst. eauto.
  - intros [x [H1 H2]]. exists (x, to). split; [exact H1|]. cbn. rewrite H2. cbn. auto.
Qed.

Lemma rtrans_from_in d s tr x to :
  rtrans_from d s = Ok tr ->
  (In (x, to) tr <-> exists i, In (i, to) (transitions_from d s) /\ nthN (d_inputs d) i = Some x).
Proof.
  intros H. unfold rtrans_from in H. rewrite (omap_ok_in _ _ _ H). split.
  - intros [[i t] [Hin Hf]]. cbn in Hf. apply obind_ok in Hf. destruct Hf as [y [Hy Hf]].
    inversion Hf; subst. unfold get_input in Hy. destruct (nthN (d_inputs d) i) eqn:E; [|discriminate].
    inversion Hy; subst. eauto.
  - intros [i [Hin Hn]]. exists (i, to). split; [exact Hin|]. cbn. unfold get_input. rewrite Hn. reflexivity.
Qed.

Definition row_of (d : dfa) (sel : inp -> option (res N)) (s : N) : res (N * list (N * N)) :=
  do tr <- rtrans_from d s;
  do kvs <- omap (fun xt : inp * N => match sel (fst xt) with
                                     | Some r => do k <- r; Ok [(k, snd xt)]
                                     | None => Ok []
                                     end) tr;
  Ok (s, bt_of_list (List.concat kvs)).

Lemma row_of_ok d sel s y :
  row_of d sel s = Ok y -> exists tr, rtrans_from d s = Ok tr /\ y = (s, bt_of_list (keys_of sel tr)).
Proof.
  unfold row_of. intros H. apply obind_ok in H. destruct H as [tr [Htr H]].
  apply obind_ok in H. destruct H as [kvs [Hkvs H]]. inversion H; subst.
  rewrite (keys_of_concat _ _ _ Hkvs). eauto.
Qed.

(** what [match_table] returns, row by row *)
Lemma match_table_rows d states sel tbl :
  match_table d states sel = Ok tbl ->
  forall s row, In (s, row) tbl <->
    In s states /\ row <> [] /\ exists tr, rtrans_from d s = Ok tr /\ row = bt_of_list (keys_of sel tr).
Proof.
  intros H s row. unfold match_table in H. apply obind_ok in H. destruct H as [rows [Hrows H]].
  change (omap (row_of d sel) states = Ok rows) in Hrows.
  inversion H; subst. rewrite filter_In. split.
  - intros [Hin Hne]. apply (omap_ok_in _ _ _ Hrows) in Hin. destruct Hin as [s' [Hs Hf]].
    apply row_of_ok in Hf. destruct Hf as [tr [Htr E]]. inversion E; subst. split; [exact Hs|]. split.
    + cbn in Hne. destruct (bt_of_list (keys_of sel tr)); [discriminate | discriminate].
    + eauto.
  - intros [Hs [Hne [tr [Htr ->]]]].
    destruct (omap_ok_each _ _ _ Hrows _ Hs) as [y [Hy Hin]].
    apply row_of_ok in Hy. destruct Hy as [tr' [Htr' ->]]. rewrite Htr in Htr'. inversion Htr'; subst tr'.
    split; [exact Hin|]. cbn. destruct (bt_of_list (keys_of sel tr)); [congruence | reflexivity].
Qed.

Lemma match_table_trans d states sel tbl s :
  match_table d states sel = Ok tbl -> In s states -> exists tr, rtrans_from d s = Ok tr.
Proof.
  unfold match_table. intros H Hs. apply obind_ok in H. destruct H as [rows [Hrows _]].
  destruct (omap_ok_each _ _ _ Hrows _ Hs) as [y [Hy _]]. apply obind_ok in Hy. destruct Hy as [tr [Htr _]]. eauto.
Qed.

Lemma has_transition_state d s i to : In (i, to) (transitions_from d s) -> In s (get_all_states d).
Proof.
  unfold transitions_from. destruct (assocN s (d_trans d)) as [tos|] eqn:E; [|intros []].
  intros H. apply assocN_In in E. unfold get_all_states. apply insertN_in. right. apply setN_in.
  apply in_flat_map. exists (s, i, to). split; [|cbn; auto].
  apply iter_transitions_in. eauto.
Qed.

(** Soundness: every entry of a match table is a transition of the automaton on an input that
    [sel] maps to that key. *)
Lemma match_table_sound d sel tbl :
  dfa_wf d -> match_table d (get_all_states d) sel = Ok tbl ->
  forall s k to, tbl_has tbl s k to -> exists x, trans_on d s x to /\ sel x = Some (Ok k).
Proof.
  intros Hwf H s k to [row [Hrow Hin]]. apply (match_table_rows _ _ _ _ H) in Hrow.
  destruct Hrow as [_ [_ [tr [Htr ->]]]]. apply bt_of_list_in in Hin. apply keys_of_in in Hin.
  destruct Hin as [x [Hx Hsel]]. apply (rtrans_from_in _ _ _ _ _ Htr) in Hx.
  exists x. split; [apply (trans_on_from _ _ _ _ Hwf); exact Hx | exact Hsel].
Qed.

(** no two transitions from [s] get the same key (false exactly for the known finding "one
    literal text under two fallback levels in the same state") *)
Definition keys_unique (d : dfa) (sel : inp -> option (res N)) (s : N) : Prop :=
  forall tr, rtrans_from d s = Ok tr -> NoDup (map fst (keys_of sel tr)).

Lemma match_table_complete d sel tbl :
  dfa_wf d -> match_table d (get_all_states d) sel = Ok tbl ->
  forall s x k to, trans_on d s x to -> sel x = Some (Ok k) -> keys_unique d sel s -> tbl_has tbl s k to.
Proof.
  intros Hwf H s x k to Htr Hsel Huniq. apply (trans_on_from _ _ _ _ Hwf) in Htr. destruct Htr as [i [Hi Hn]].
  pose proof (has_transition_state _ _ _ _ Hi) as Hs.
  destruct (match_table_trans _ _ _ _ _ H Hs) as [tr Htr].
  assert (Hk : In (k, to) (bt_of_list (keys_of sel tr))).
  { apply bt_of_list_complete; [apply Huniq; exact Htr|]. apply keys_of_in. exists x. split; [|exact Hsel].
    apply (rtrans_from_in _ _ _ _ _ Htr). eauto. }
  exists (bt_of_list (keys_of sel tr)). split; [|exact Hk].
  apply (match_table_rows _ _ _ _ H). split; [exact Hs|]. split; [intros E; rewrite E in Hk; destruct Hk | eauto].
Qed.

Definition mem3 (L : list (list (N * list N))) (k s id : N) : Prop :=
  exists row, nth_error L (N.to_nat k) = Some row /\ mem2 row s id.

Lemma update_nth_spec {A} n (f : A -> A) l l' :
  update_nth n f l = Some l' ->
  List.length l' = List.length l
  /\ (exists old, nth_error l n = Some old /\ nth_error l' n = Some (f old))
  /\ forall m, m <> n -> nth_error l' m = nth_error l m.
Proof.
  revert n l'. induction l as [|x r IH]; intros n l' H; [destruct n; discriminate|].
  destruct n as [|n]; cbn in H.
  - inversion H; subst. cbn. split; [reflexivity|]. split; [eauto|]. intros [|m] Hm; [congruence | reflexivity].
  - destruct (update_nth n f r) as [r'|] eqn:E; [|discriminate]. inversion H; subst.
    destruct (IH _ _ E) as [Hl [[old [Ho Hn]] Hoth]]. cbn. split; [congruence|]. split; [eauto|].
    intros [|m] Hm; [reflexivity|]. cbn. apply Hoth. congruence.
Qed.

Definition comp_step (sel : inp -> option (N * res N)) (add : N -> list N -> list N)
           (acc : res (list (list (N * list N)))) (fxt : N * inp * N) : res (list (list (N * list N))) :=
  do levels <- acc;
  match fxt with (f, x, _) =>
    match sel x with
    | None => Ok levels
    | Some (lvl, rid) =>
        do id <- rid;
        match update_nth (N.to_nat lvl)
                (bt_update f (fun old => add id (match old with Some l => l | None => [] end))) levels with
        | Some l' => Ok l'
        | None => Panic "completion table: fallback level out of bounds"
        end
    end
  end.

Lemma comp_fold_not_ok sel add rt acc :
  (forall L, acc <> Ok L) -> forall L, fold_left (comp_step sel add) rt acc <> Ok L.
Proof.
  revert acc. induction rt as [|fxt rt IH]; cbn; intros acc H; [exact H|].
  apply IH. intros L. destruct acc; cbn; try discriminate. exfalso. apply (H a). reflexivity.
Qed.

Lemma comp_fold_spec sel add :
  (forall x y l, In x (add y l) <-> x = y \/ In x l) ->
  forall rt L0 L,
    fold_left (comp_step sel add) rt (Ok L0) = Ok L ->
    List.length L = List.length L0
    /\ forall k s id, mem3 L k s id <->
         mem3 L0 k s id \/ exists x to, In (s, x, to) rt /\ sel x = Some (k, Ok id).
Proof.
  intros Hadd. induction rt as [|[[f x] t] rt IH]; cbn [fold_left]; intros L0 L H.
  - inversion H; subst. split; [reflexivity|]. intros k s id. split; [auto|].
    intros [H1|[x [to [[] _]]]]. exact H1.
  - destruct (comp_step sel add (Ok L0) (f, x, t)) as [L1| | |] eqn:E;
      try (exfalso; revert H; apply comp_fold_not_ok; intros L'; discriminate).
    destruct (IH _ _ H) as [Hlen Hmem]. cbn in E.
    destruct (sel x) as [[lvl rid]|] eqn:Hsel.
    + destruct rid as [id0| | |]; cbn in E; try discriminate.
      destruct (update_nth (N.to_nat lvl) _ L0) as [L1'|] eqn:Eu; [|discriminate]. inversion E; subst L1'.
      destruct (update_nth_spec _ _ _ _ Eu) as [Hl1 [[old [Hold Hnew]] Hoth]].
      split; [congruence|]. intros k s id. rewrite Hmem.
      assert (M : mem3 L1 k s id <-> mem3 L0 k s id \/ (k = lvl /\ s = f /\ id = id0)).
      { unfold mem3. destruct (N.eq_dec k lvl) as [->|Hne].
        - rewrite Hnew, Hold. split.
          + intros [row [Hr Hm]]. inversion Hr; subst. apply (bt_update_mem2 add Hadd) in Hm.
            destruct Hm as [Hm|[-> ->]]; [left; eauto | right; auto].
          + intros [[row [Hr Hm]]|[_ [-> ->]]].
            * inversion Hr; subst. eexists; split; [reflexivity|]. apply (bt_update_mem2 add Hadd). auto.
            * eexists; split; [reflexivity|]. apply (bt_update_mem2 add Hadd). auto.
        - rewrite (Hoth (N.to_nat k)) by (intros E2; apply Hne; apply N2Nat.inj; exact E2).
          split; [auto|]. intros [H1|[-> _]]; [exact H1 | congruence]. }
      rewrite M. split.
      * intros [[H1|[-> [-> ->]]]|[x' [to [Hin Hs]]]].
        -- auto.
        -- right. exists x, t. split; [left; reflexivity | exact Hsel].
        -- right. exists x', to. split; [right; exact Hin | exact Hs].
      * intros [H1|[x' [to [[Hin|Hin] Hs]]]].
        -- auto.
        -- inversion Hin; subst. rewrite Hsel in Hs. inversion Hs; subst. left. right. auto.
        -- right. eauto.
    + inversion E; subst L1. split; [exact Hlen|]. intros k s id. rewrite Hmem. split.
      * intros [H1|[x' [to [Hin Hs]]]]; [auto | right; exists x', to; split; [right; exact Hin | exact Hs]].
      * intros [H1|[x' [to [[Hin|Hin] Hs]]]]; [auto | | right; eauto].
        inversion Hin; subst. rewrite Hsel in Hs. discriminate.
Qed.

Lemma mem3_empty n k s id : ~ mem3 (repeat [] n) k s id.
Proof.
  intros [row [Hr [ids [Hin _]]]]. apply nth_error_In in Hr. apply repeat_spec in Hr. subst. destruct Hin.
Qed.

Lemma completion_table_spec rt maxlevel sel add L :
  (forall x y l, In x (add y l) <-> x = y \/ In x l) ->
  completion_table rt maxlevel sel add = Ok L ->
  List.length L = (N.to_nat maxlevel + 1)%nat
  /\ forall k s id, mem3 L k s id <-> exists x to, In (s, x, to) rt /\ sel x = Some (k, Ok id).
Proof.
  intros Hadd H. change (fold_left (comp_step sel add) rt (Ok (repeat [] (N.to_nat maxlevel + 1))) = Ok L) in H.
  destruct (comp_fold_spec sel add Hadd _ _ _ H) as [Hlen Hmem]. split.
  - rewrite Hlen. apply repeat_length.
  - intros k s id. rewrite Hmem. split; [intros [H1|H1]; [exfalso; eapply mem3_empty; exact H1 | exact H1] | auto].
Qed.

Lemma rtrans_in d rt s x to :
  rtrans d = Ok rt ->
  (In (s, x, to) rt <-> exists i, In (s, i, to) (iter_transitions d) /\ nthN (d_inputs d) i = Some x).
Proof.
  intros H. unfold rtrans in H. rewrite (omap_ok_in _ _ _ H). split.
  - intros [[[f i] t] [Hin Hf]]. apply obind_ok in Hf. destruct Hf as [y [Hy Hf]]. inversion Hf; subst.
    unfold get_input in Hy. destruct (nthN (d_inputs d) i) eqn:E; [|discriminate]. inversion Hy; subst. eauto.
  - intros [i [Hin Hn]]. exists (s, i, to). split; [exact Hin|]. unfold get_input. rewrite Hn. reflexivity.
Qed.

(** ** [get_lookup_tables], field by field *)
Definition lit_sel (lits : list (N * string * string)) (x : inp) : option (res N) :=
  match x with ILit t ds _ => Some (lit_id_or_panic lits t ds) | _ => None end.
Definition cmd_sel (cmds : list string) (x : inp) : option (res N) :=
  match x with ICmd c _ => Some (cmd_id_or_panic cmds c) | _ => None end.
Definition compadd_sel (cmds : list string) (x : inp) : option (res N) :=
  match x with ICompadd c _ => Some (cmd_id_or_panic cmds c) | _ => None end.
Definition lit_csel (lits : list (N * string * string)) (x : inp) : option (N * res N) :=
  match x with ILit t ds l => Some (l, lit_id_or_panic lits t ds) | _ => None end.
Definition cmd_csel (cmds : list string) (x : inp) : option (N * res N) :=
  match x with ICmd c l => Some (l, cmd_id_or_panic cmds c) | _ => None end.
Definition compadd_csel (cmds : list string) (x : inp) : option (N * res N) :=
  match x with ICompadd c l => Some (l, cmd_id_or_panic cmds c) | _ => None end.

Lemma opt_when_ok {A} b (r : res A) o :
  opt_when b r = Ok o -> (b = true /\ exists x, r = Ok x /\ o = Some x) \/ (b = false /\ o = None).
Proof.
  destruct b; cbn; intros H.
  - apply obind_ok in H. destruct H as [x [Hx H]]. inversion H; subst. left. eauto.
  - inversion H. auto.
Qed.

Record glt_facts (d : dfa) (cmds : list string) (start : N) (nc ncp ns : bool)
       (ord : list (string * string)) (t : tables) (rt : list (N * inp * N)) : Prop := {
  gf_rt : rtrans d = Ok rt;
  gf_lits : t_literals t = all_literals ord start;
  gf_mlit : match_table d (get_all_states d) (lit_sel (all_literals ord start)) = Ok (t_mlit t);
  gf_mcmd : (nc = true /\ exists m, match_table d (get_all_states d) (cmd_sel cmds) = Ok m /\ t_mcmd t = Some m)
            \/ (nc = false /\ t_mcmd t = None);
  gf_mcompadd : (ncp = true /\ exists m, match_table d (get_all_states d) (compadd_sel cmds) = Ok m /\ t_mcompadd t = Some m)
            \/ (ncp = false /\ t_mcompadd t = None);
  gf_mstar : t_mstar t = if ns then Some (star_transitions rt) else None;
  gf_maxlevel : t_maxlevel t = match get_max_fallback_level rt with Some m => m | None => start end;
  gf_clit : completion_table rt (t_maxlevel t) (lit_csel (all_literals ord start)) insertN = Ok (t_clit t);
  gf_ccmd : (nc = true /\ exists m, completion_table rt (t_maxlevel t) (cmd_csel cmds) insertN = Ok m /\ t_ccmd t = Some m)
            \/ (nc = false /\ t_ccmd t = None);
  gf_ccompadd : (ncp = true /\ exists m, completion_table rt (t_maxlevel t) (compadd_csel cmds) push = Ok m /\ t_ccompadd t = Some m)
            \/ (ncp = false /\ t_ccompadd t = None)
}.

Lemma glt_inv d cmds start nc ncp ns ord t :
  get_lookup_tables d cmds start nc ncp ns ord = Ok t -> exists rt, glt_facts d cmds start nc ncp ns ord t rt.
Proof.
  unfold get_lookup_tables. intros H.
  apply obind_ok in H. destruct H as [mlit [Hmlit H]].
  apply obind_ok in H. destruct H as [mcmd [Hmcmd H]].
  apply obind_ok in H. destruct H as [mcompadd [Hmcompadd H]].
  apply obind_ok in H. destruct H as [rt [Hrt H]].
  apply obind_ok in H. destruct H as [clit [Hclit H]].
  apply obind_ok in H. destruct H as [ccmd [Hccmd H]].
  apply obind_ok in H. destruct H as [ccompadd [Hccompadd H]].
  inversion H; subst; clear H. exists rt.
  apply opt_when_ok in Hmcmd, Hmcompadd, Hccmd, Hccompadd.
  constructor; cbn; try assumption; try reflexivity.
Qed.

Lemma trans_on_rt d rt s x to :
  dfa_wf d -> rtrans d = Ok rt -> (In (s, x, to) rt <-> trans_on d s x to).
Proof.
  intros Hwf Hrt. rewrite (rtrans_in _ _ _ _ _ Hrt), (trans_on_from _ _ _ _ Hwf).
  split; intros [i [H1 H2]]; exists i; split; auto; apply (transitions_from_iter _ _ _ _ Hwf); exact H1.
Qed.

Lemma lit_ids_unique ord start t ds i1 i2 :
  NoDup ord -> In (i1, t, ds) (all_literals ord start) -> In (i2, t, ds) (all_literals ord start) -> i1 = i2.
Proof.
  intros Hnd H1 H2. apply all_literals_in in H1, H2. destruct H1 as [L1 N1], H2 as [L2 N2].
  assert (E : N.to_nat (i1 - start) = N.to_nat (i2 - start)).
  { apply (proj1 (NoDup_nth_error ord) Hnd); [apply nth_error_Some; congruence | congruence]. }
  lia.
Qed.

Lemma lit_id_at ord start t dso l :
  NoDup ord ->
  (lit_id_or_panic (all_literals ord start) t dso = Ok l <-> lit_at ord start l t (unwrap_descr dso)).
Proof.
  intros Hnd. unfold lit_id_or_panic. rewrite <- all_literals_in.
  rewrite <- (lit_id_spec (all_literals ord start) t (unwrap_descr dso) l)
    by (intros i1 i2; apply lit_ids_unique; exact Hnd).
  destruct (lit_id (all_literals ord start) t (unwrap_descr dso)); split; intros H; inversion H; reflexivity.
Qed.

Lemma cmd_id_at cmds c k : cmd_id_or_panic cmds c = Ok k <-> index_of c cmds = Some k.
Proof. unfold cmd_id_or_panic. destruct (index_of c cmds); split; intros H; inversion H; reflexivity. Qed.

(** the completion table of a selector lists, per (level, state), the ids of the transitions the selector picks *)
Lemma completion_table_exact d rt maxlevel sel add L :
  dfa_wf d -> rtrans d = Ok rt -> (forall x y l, In x (add y l) <-> x = y \/ In x l) ->
  completion_table rt maxlevel sel add = Ok L ->
  forall k s id, mem3 L k s id <-> exists x to, trans_on d s x to /\ sel x = Some (k, Ok id).
Proof.
  intros Hwf Hrt Hadd H k s id. rewrite (proj2 (completion_table_spec _ _ _ _ _ Hadd H)).
  split; intros [x [to [Htr Hsel]]]; exists x, to; split; try exact Hsel; apply (trans_on_rt _ _ _ _ _ Hwf Hrt); exact Htr.
Qed.

(** an optional table is there when it was asked for, and then it is the table computed *)
Lemma opt_table {A} b (r : res A) o m :
  (b = true /\ exists x, r = Ok x /\ o = Some x) \/ (b = false /\ o = None) -> o = Some m -> r = Ok m.
Proof. intros [[_ [x [Hx ->]]]|[_ ->]] H; [injection H as <-; exact Hx | discriminate H]. Qed.

Section Tables.
Variables (d : dfa) (cmds : list string) (start : N) (nc ncp ns : bool) (ord : list (string * string)) (t : tables).
Hypothesis Hwf : dfa_wf d.
Hypothesis Hord : NoDup ord.
Hypothesis Hglt : get_lookup_tables d cmds start nc ncp ns ord = Ok t.

(** match, literal: every entry is a literal transition of the automaton ... *)
Theorem mlit_sound s l to :
  tbl_has (t_mlit t) s l to ->
  exists text dso lvl, trans_on d s (ILit text dso lvl) to /\ lit_at ord start l text (unwrap_descr dso).
Proof.
  destruct (glt_inv _ _ _ _ _ _ _ _ Hglt) as [rt F]. intros H.
  destruct (match_table_sound _ _ _ Hwf (gf_mlit _ _ _ _ _ _ _ _ _ F) _ _ _ H) as [x [Htr Hsel]].
  destruct x; cbn in Hsel; try discriminate. injection Hsel as Hid. apply (lit_id_at _ _ _ _ _ Hord) in Hid. eauto.
Qed.

(** ... and every literal transition is an entry, unless two transitions from the same state
    carry the same literal id (known finding: one text under two fallback levels). *)
Theorem mlit_complete s text dso lvl to l :
  trans_on d s (ILit text dso lvl) to -> lit_at ord start l text (unwrap_descr dso) ->
  keys_unique d (lit_sel (all_literals ord start)) s ->
  tbl_has (t_mlit t) s l to.
Proof.
  destruct (glt_inv _ _ _ _ _ _ _ _ Hglt) as [rt F]. intros Htr Hl.
  apply (match_table_complete _ _ _ Hwf (gf_mlit _ _ _ _ _ _ _ _ _ F) s _ l to Htr).
  cbn. f_equal. apply (lit_id_at _ _ _ _ _ Hord), Hl.
Qed.

Theorem mcmd_sound m s c to :
  t_mcmd t = Some m -> tbl_has m s c to ->
  exists cmd lvl, trans_on d s (ICmd cmd lvl) to /\ index_of cmd cmds = Some c.
Proof.
  destruct (glt_inv _ _ _ _ _ _ _ _ Hglt) as [rt F]. intros Hm H.
  destruct (match_table_sound _ _ _ Hwf (opt_table _ _ _ _ (gf_mcmd _ _ _ _ _ _ _ _ _ F) Hm) _ _ _ H) as [x [Htr Hsel]].
  destruct x; cbn in Hsel; try discriminate. injection Hsel as Hid. apply cmd_id_at in Hid. eauto.
Qed.

Theorem mcmd_complete m s cmd lvl to c :
  t_mcmd t = Some m -> trans_on d s (ICmd cmd lvl) to -> index_of cmd cmds = Some c ->
  keys_unique d (cmd_sel cmds) s -> tbl_has m s c to.
Proof.
  destruct (glt_inv _ _ _ _ _ _ _ _ Hglt) as [rt F]. intros Hm Htr Hc.
  apply (match_table_complete _ _ _ Hwf (opt_table _ _ _ _ (gf_mcmd _ _ _ _ _ _ _ _ _ F) Hm) s _ c to Htr).
  cbn. f_equal. apply cmd_id_at, Hc.
Qed.

Theorem mcompadd_sound m s c to :
  t_mcompadd t = Some m -> tbl_has m s c to ->
  exists cmd lvl, trans_on d s (ICompadd cmd lvl) to /\ index_of cmd cmds = Some c.
Proof.
  destruct (glt_inv _ _ _ _ _ _ _ _ Hglt) as [rt F]. intros Hm H.
  destruct (match_table_sound _ _ _ Hwf (opt_table _ _ _ _ (gf_mcompadd _ _ _ _ _ _ _ _ _ F) Hm) _ _ _ H) as [x [Htr Hsel]].
  destruct x; cbn in Hsel; try discriminate. injection Hsel as Hid. apply cmd_id_at in Hid. eauto.
Qed.

Theorem mcompadd_complete m s cmd lvl to c :
  t_mcompadd t = Some m -> trans_on d s (ICompadd cmd lvl) to -> index_of cmd cmds = Some c ->
  keys_unique d (compadd_sel cmds) s -> tbl_has m s c to.
Proof.
  destruct (glt_inv _ _ _ _ _ _ _ _ Hglt) as [rt F]. intros Hm Htr Hc.
  apply (match_table_complete _ _ _ Hwf (opt_table _ _ _ _ (gf_mcompadd _ _ _ _ _ _ _ _ _ F) Hm) s _ c to Htr).
  cbn. f_equal. apply cmd_id_at, Hc.
Qed.

(** match, any word *)
Theorem mstar_exact l s to :
  t_mstar t = Some l -> (In (s, to) l <-> trans_on d s IStar to).
Proof.
  destruct (glt_inv _ _ _ _ _ _ _ _ Hglt) as [rt F]. intros Hl.
  rewrite (gf_mstar _ _ _ _ _ _ _ _ _ F) in Hl. destruct ns; [|discriminate]. inversion Hl; subst l.
  rewrite <- (trans_on_rt _ _ _ _ _ Hwf (gf_rt _ _ _ _ _ _ _ _ _ F)).
  unfold star_transitions. rewrite in_flat_map. split.
  - intros [[[f x] t'] [Hin H]]. destruct x; cbn in H; try tauto. destruct H as [H|[]]. inversion H; subst. exact Hin.
  - intros Hin. exists (s, IStar, to). split; [exact Hin | cbn; auto].
Qed.

(** completion: the literal ids listed for (level, state) are exactly the literal inputs of that
    level leaving that state -- for every valid literal order, no side condition *)
Theorem clit_exact k s l :
  mem3 (t_clit t) k s l <->
  exists text dso to, trans_on d s (ILit text dso k) to /\ lit_at ord start l text (unwrap_descr dso).
Proof.
  destruct (glt_inv _ _ _ _ _ _ _ _ Hglt) as [rt F].
  rewrite (completion_table_exact _ _ _ _ _ _ Hwf (gf_rt _ _ _ _ _ _ _ _ _ F) insertN_in (gf_clit _ _ _ _ _ _ _ _ _ F)). split.
  - intros [x [to [Htr Hsel]]]. destruct x; cbn in Hsel; try discriminate. injection Hsel as -> Hid.
    apply (lit_id_at _ _ _ _ _ Hord) in Hid. eauto.
  - intros [text [dso [to [Htr Hl]]]]. exists (ILit text dso k), to. split; [exact Htr|].
    cbn. do 2 f_equal. apply (lit_id_at _ _ _ _ _ Hord), Hl.
Qed.

Theorem clit_levels : List.length (t_clit t) = (N.to_nat (t_maxlevel t) + 1)%nat.
Proof.
  destruct (glt_inv _ _ _ _ _ _ _ _ Hglt) as [rt F].
  apply (completion_table_spec _ _ _ _ _ insertN_in (gf_clit _ _ _ _ _ _ _ _ _ F)).
Qed.

Theorem ccmd_exact m k s c :
  t_ccmd t = Some m ->
  (mem3 m k s c <-> exists cmd to, trans_on d s (ICmd cmd k) to /\ index_of cmd cmds = Some c).
Proof.
  destruct (glt_inv _ _ _ _ _ _ _ _ Hglt) as [rt F]. intros Hm.
  rewrite (completion_table_exact _ _ _ _ _ _ Hwf (gf_rt _ _ _ _ _ _ _ _ _ F) insertN_in
             (opt_table _ _ _ _ (gf_ccmd _ _ _ _ _ _ _ _ _ F) Hm)). split.
  - intros [x [to [Htr Hsel]]]. destruct x; cbn in Hsel; try discriminate. injection Hsel as -> Hid.
    apply cmd_id_at in Hid. eauto.
  - intros [cmd [to [Htr Hc]]]. exists (ICmd cmd k), to. split; [exact Htr|]. cbn. do 2 f_equal. apply cmd_id_at, Hc.
Qed.

Theorem ccompadd_exact m k s c :
  t_ccompadd t = Some m ->
  (mem3 m k s c <-> exists cmd to, trans_on d s (ICompadd cmd k) to /\ index_of cmd cmds = Some c).
Proof.
  destruct (glt_inv _ _ _ _ _ _ _ _ Hglt) as [rt F]. intros Hm.
  rewrite (completion_table_exact _ _ _ _ _ _ Hwf (gf_rt _ _ _ _ _ _ _ _ _ F) push_in
             (opt_table _ _ _ _ (gf_ccompadd _ _ _ _ _ _ _ _ _ F) Hm)). split.
  - intros [x [to [Htr Hsel]]]. destruct x; cbn in Hsel; try discriminate. injection Hsel as -> Hid.
    apply cmd_id_at in Hid. eauto.
  - intros [cmd [to [Htr Hc]]]. exists (ICompadd cmd k), to. split; [exact Htr|]. cbn. do 2 f_equal. apply cmd_id_at, Hc.
Qed.

(** the literal list: ids are consecutive from the shell's array base, in the given order *)
Theorem literals_exact l text ds :
  In (l, text, ds) (t_literals t) <-> lit_at ord start l text ds.
Proof.
  destruct (glt_inv _ _ _ _ _ _ _ _ Hglt) as [rt F]. rewrite (gf_lits _ _ _ _ _ _ _ _ _ F). apply all_literals_in.
Qed.
End Tables.

Lemma list_eqb_eq {A} (eqb : A -> A -> bool) :
  (forall x y, eqb x y = true -> x = y) -> forall a b, list_eqb eqb a b = true -> a = b.
Proof.
  intros H. induction a as [|x r IH]; destruct b as [|y r']; cbn; intros E; try discriminate; [reflexivity|].
  apply andb_prop in E. destruct E as [E1 E2]. f_equal; [apply H; exact E1 | apply IH; exact E2].
Qed.

Lemma option_eqb_eq {A} (eqb : A -> A -> bool) :
  (forall x y, eqb x y = true -> x = y) -> forall a b, option_eqb eqb a b = true -> a = b.
Proof. intros H [x|] [y|]; cbn; intros E; try discriminate; [f_equal; apply H; exact E | reflexivity]. Qed.

Lemma pairN_eqb_eq (p q : N * N) : N.eqb (fst p) (fst q) && N.eqb (snd p) (snd q) = true -> p = q.
Proof.
  destruct p, q; cbn. intros E. apply andb_prop in E. destruct E as [E1 E2].
  apply N.eqb_eq in E1, E2. congruence.
Qed.

Lemma nested_eqb_eq a b : nested_eqb a b = true -> a = b.
Proof.
  apply list_eqb_eq. intros [s r] [s' r']; cbn. intros E. apply andb_prop in E. destruct E as [E1 E2].
  apply N.eqb_eq in E1. apply (list_eqb_eq _ pairN_eqb_eq) in E2. congruence.
Qed.

Lemma levels_eqb_eq a b : levels_eqb a b = true -> a = b.
Proof.
  apply list_eqb_eq. apply list_eqb_eq. intros [s r] [s' r']; cbn. intros E. apply andb_prop in E.
  destruct E as [E1 E2]. apply N.eqb_eq in E1. apply (list_eqb_eq _ (fun x y => proj1 (N.eqb_eq x y))) in E2. congruence.
Qed.

(** two within-word automata put into one shape group have identical tables, literal texts
    excepted *)
Theorem isomorphic_sound a b :
  isomorphic_to a b = true ->
  t_mlit a = t_mlit b /\ t_mcmd a = t_mcmd b /\ t_mcompadd a = t_mcompadd b /\ t_mstar a = t_mstar b
  /\ t_maxlevel a = t_maxlevel b /\ t_clit a = t_clit b /\ t_ccmd a = t_ccmd b /\ t_ccompadd a = t_ccompadd b.
Proof.
  unfold isomorphic_to. intros E.
  apply andb_prop in E. destruct E as [E G8].
  apply andb_prop in E. destruct E as [E G7]. apply andb_prop in E. destruct E as [E G6].
  apply andb_prop in E. destruct E as [E G5]. apply andb_prop in E. destruct E as [E G4].
  apply andb_prop in E. destruct E as [E G3]. apply andb_prop in E. destruct E as [G1 G2].
  apply nested_eqb_eq in G1. apply (option_eqb_eq _ nested_eqb_eq) in G2, G3.
  apply (option_eqb_eq _ (list_eqb_eq _ pairN_eqb_eq)) in G4. apply N.eqb_eq in G5.
  apply levels_eqb_eq in G6. apply (option_eqb_eq _ levels_eqb_eq) in G7, G8.
  repeat split; assumption.
Qed.

(** the shared table set IS the member's own: only the literal list differs *)
Corollary isomorphic_sound_full a b :
  isomorphic_to a b = true ->
  b = mktables (t_literals b) (t_mlit a) (t_mcmd a) (t_mcompadd a) (t_mstar a) (t_maxlevel a)
               (t_clit a) (t_ccmd a) (t_ccompadd a).
Proof.
  intros E. destruct (isomorphic_sound _ _ E) as [H1 [H2 [H3 [H4 [H5 [H6 [H7 H8]]]]]]].
  destruct a, b; cbn in *. congruence.
Qed.

(** a valid grouping lists exactly the script ids of the within-word automata, in non-empty groups of
    automata with identical tables *)
Lemma valid_grouping_inv a groups :
  valid_grouping a groups = true ->
  (forall id, In id (List.concat groups) <-> In id (map (fun e : N * N * tables => snd (fst e)) (a_subwords a)))
  /\ forall g, In g groups -> g <> [] /\ adjacent_iso a g = true.
Proof.
  unfold valid_grouping. intros V.
  apply andb_prop in V. destruct V as [V Vg]. apply andb_prop in V. destruct V as [V Vin].
  apply andb_prop in V. destruct V as [_ Vcov]. rewrite forallb_forall in Vcov, Vin, Vg. split.
  - intros id. split; intros H; apply memN_In; [apply Vin | apply Vcov]; exact H.
  - intros g Hg. specialize (Vg g Hg). destruct g; [discriminate | split; [discriminate | exact Vg]].
Qed.

Definition sub_csel (ids : list (N * N)) (x : inp) : option (N * res N) :=
  match x with ISub s l => Some (l, sub_id_or_panic ids s) | _ => None end.

Record all_facts (sh : shell) (c : cdfa) (om : list (string * string)) (os : list (N * list (string * string)))
       (nd : needs) (a : alltables) (rt : list (N * inp * N)) : Prop := {
  af_needs : get_needs c = Ok nd;
  af_cmds : get_commands c = Ok (a_commands a);
  af_rt : rtrans (c_main c) = Ok rt;
  af_states : a_states a = get_all_states (c_main c);
  af_main : get_lookup_tables (c_main c) (a_commands a) (array_start sh) (n_top_cmd nd)
              (compadd_switch sh (n_top_compadd nd)) (n_top_star nd) om = Ok (a_main a);
  af_subtrans : subword_transitions (c_main c) (get_all_states (c_main c)) = Ok (a_subtrans a);
  af_csub : completion_table rt (t_maxlevel (a_main a)) (sub_csel (get_subwords rt (array_start sh))) push = Ok (a_csub a);
  af_subs : omap (fun pi : N * N =>
      do sd <- lookup_sub c (fst pi);
      let ord := match assocN (fst pi) os with Some o => o | None => [] end in
      do t <- get_lookup_tables sd (a_commands a) (array_start sh) (n_sub_cmd nd)
                (compadd_switch sh (n_sub_compadd nd)) (n_sub_star nd) ord;
      Ok (fst pi, snd pi, t)) (get_subwords rt (array_start sh)) = Ok (a_subwords a);
  af_subacc : omap (fun pi : N * N =>
      do sd <- lookup_sub c (fst pi);
      Ok (snd pi, map (fun s => s + array_start sh) (d_accepting sd))) (get_subwords rt (array_start sh))
      = Ok (a_subaccepting a)
}.

Lemma all_tables_inv sh c om os nd a :
  all_tables sh c om os = Ok (nd, a) -> exists rt, all_facts sh c om os nd a rt.
Proof.
  unfold all_tables. intros H.
  apply obind_ok in H. destruct H as [nd' [Hnd H]].
  apply obind_ok in H. destruct H as [cmds [Hcmds H]].
  apply obind_ok in H. destruct H as [rt [Hrt H]].
  apply obind_ok in H. destruct H as [main [Hmain H]].
  apply obind_ok in H. destruct H as [subtrans [Hst H]].
  apply obind_ok in H. destruct H as [csub [Hcsub H]].
  apply obind_ok in H. destruct H as [subs [Hsubs H]].
  apply obind_ok in H. destruct H as [subacc [Hsubacc H]].
  inversion H; subst; clear H. exists rt. constructor; cbn; try assumption; reflexivity.
Qed.

Section All.
Variables (sh : shell) (c : cdfa) (om : list (string * string)) (os : list (N * list (string * string)))
          (nd : needs) (a : alltables).
Hypothesis Hwf : dfa_wf (c_main c).
Hypothesis Hall : all_tables sh c om os = Ok (nd, a).

(** match, within-word: state -> (pool index of the within-word automaton, next state) *)
Theorem subtrans_exact s pi to :
  (exists row, In (s, row) (a_subtrans a) /\ In (pi, to) row) <-> exists lvl, trans_on (c_main c) s (ISub pi lvl) to.
Proof.
  destruct (all_tables_inv _ _ _ _ _ _ Hall) as [rt F]. pose proof (af_subtrans _ _ _ _ _ _ _ F) as H.
  unfold subword_transitions in H. apply obind_ok in H. destruct H as [rows [Hrows H]]. injection H as Ha.
  split.
  - intros [row [Hrow Hin]]. rewrite <- Ha in Hrow. apply filter_In in Hrow. destruct Hrow as [Hrow _].
    apply (omap_ok_in _ _ _ Hrows) in Hrow. destruct Hrow as [s' [Hs Hf]].
    apply obind_ok in Hf. destruct Hf as [tr [Htr Hf]]. inversion Hf; subst.
    apply in_flat_map in Hin. destruct Hin as [[x t'] [Hx Hin]]. cbn in Hin.
    destruct x; cbn in Hin; try tauto. destruct Hin as [Hin|[]]. inversion Hin; subst.
    apply (rtrans_from_in _ _ _ _ _ Htr) in Hx. exists level. apply (trans_on_from _ _ _ _ Hwf). exact Hx.
  - intros [lvl Htr]. apply (trans_on_from _ _ _ _ Hwf) in Htr. destruct Htr as [i [Hi Hn]].
    pose proof (has_transition_state _ _ _ _ Hi) as Hs.
    destruct (omap_ok_each _ _ _ Hrows _ Hs) as [y [Hy Hin]].
    apply obind_ok in Hy. destruct Hy as [tr [Htr Hy]]. inversion Hy; subst y; clear Hy.
    assert (Hrow : In (pi, to) (flat_map (fun xt : inp * N => match fst xt with ISub sd _ => [(sd, snd xt)] | _ => [] end) tr)).
    { apply in_flat_map. exists (ISub pi lvl, to). split; [|cbn; auto].
      apply (rtrans_from_in _ _ _ _ _ Htr). eauto. }
    eexists. split; [|exact Hrow]. rewrite <- Ha. apply filter_In. split; [exact Hin|]. cbn.
    destruct (flat_map _ tr); [destruct Hrow | reflexivity].
Qed.

(** completion, within-word: the script ids listed for (level, state) *)
Theorem csub_exact k s id :
  mem3 (a_csub a) k s id <->
  exists rt pi to, rtrans (c_main c) = Ok rt /\ trans_on (c_main c) s (ISub pi k) to
                   /\ assocN pi (get_subwords rt (array_start sh)) = Some id.
Proof.
  destruct (all_tables_inv _ _ _ _ _ _ Hall) as [rt F]. pose proof (af_rt _ _ _ _ _ _ _ F) as Hrt.
  rewrite (completion_table_exact _ _ _ _ _ _ Hwf Hrt push_in (af_csub _ _ _ _ _ _ _ F)). split.
  - intros [x [to [Htr Hsel]]]. destruct x; cbn in Hsel; try discriminate. injection Hsel as -> Hid.
    exists rt, sub, to. split; [exact Hrt|]. split; [exact Htr|].
    unfold sub_id_or_panic in Hid. destruct (assocN sub _); inversion Hid; reflexivity.
  - intros [rt' [pi [to [Hrt' [Htr Hid]]]]]. rewrite Hrt in Hrt'. injection Hrt' as <-.
    exists (ISub pi k), to. split; [exact Htr|]. cbn. unfold sub_id_or_panic. rewrite Hid. reflexivity.
Qed.

(** one table set per within-word automaton met on a transition, computed from THAT automaton *)
Theorem subwords_exact pi id t :
  In (pi, id, t) (a_subwords a) <->
  exists rt sd, rtrans (c_main c) = Ok rt /\ In (pi, id) (get_subwords rt (array_start sh))
    /\ nthN (c_subs c) pi = Some sd
    /\ get_lookup_tables sd (a_commands a) (array_start sh) (n_sub_cmd nd) (compadd_switch sh (n_sub_compadd nd))
         (n_sub_star nd) (match assocN pi os with Some o => o | None => [] end) = Ok t.
Proof.
  destruct (all_tables_inv _ _ _ _ _ _ Hall) as [rt F].
  rewrite (omap_ok_in _ _ _ (af_subs _ _ _ _ _ _ _ F)). split.
  - intros [[pi' id'] [Hin Hf]]. cbn in Hf. apply obind_ok in Hf. destruct Hf as [sd [Hsd Hf]].
    apply obind_ok in Hf. destruct Hf as [t' [Ht Hf]]. inversion Hf; subst.
    exists rt, sd. split; [exact (af_rt _ _ _ _ _ _ _ F)|]. split; [exact Hin|]. split; [|exact Ht].
    unfold lookup_sub in Hsd. destruct (nthN (c_subs c) pi); inversion Hsd; reflexivity.
  - intros [rt' [sd [Hrt [Hin [Hsd Ht]]]]]. rewrite (af_rt _ _ _ _ _ _ _ F) in Hrt. inversion Hrt; subst rt'.
    exists (pi, id). split; [exact Hin|]. cbn. unfold lookup_sub. rewrite Hsd. cbn. rewrite Ht. reflexivity.
Qed.

(** bash: the accepting states printed for a within-word automaton are those of THAT automaton *)
Theorem subaccepting_exact id accs :
  In (id, accs) (a_subaccepting a) <->
  exists rt pi sd, rtrans (c_main c) = Ok rt /\ In (pi, id) (get_subwords rt (array_start sh))
    /\ nthN (c_subs c) pi = Some sd /\ accs = map (fun s => s + array_start sh) (d_accepting sd).
Proof.
  destruct (all_tables_inv _ _ _ _ _ _ Hall) as [rt F].
  rewrite (omap_ok_in _ _ _ (af_subacc _ _ _ _ _ _ _ F)). split.
  - intros [[pi' id'] [Hin Hf]]. cbn in Hf. apply obind_ok in Hf. destruct Hf as [sd [Hsd Hf]].
    inversion Hf; subst. exists rt, pi', sd. split; [exact (af_rt _ _ _ _ _ _ _ F)|]. split; [exact Hin|]. split; [|reflexivity].
    unfold lookup_sub in Hsd. destruct (nthN (c_subs c) pi'); inversion Hsd; reflexivity.
  - intros [rt' [pi [sd [Hrt [Hin [Hsd ->]]]]]]. rewrite (af_rt _ _ _ _ _ _ _ F) in Hrt. inversion Hrt; subst rt'.
    exists (pi, id). split; [exact Hin|]. cbn. unfold lookup_sub. rewrite Hsd. reflexivity.
Qed.
End All.

Lemma NoDup_app_single {A} (l : list A) x : NoDup l -> ~ In x l -> NoDup (l ++ [x]).
Proof.
  induction l as [|y r IH]; cbn; intros Hnd Hn; [constructor; [tauto | constructor]|].
  inversion Hnd; subst. constructor.
  - rewrite in_app_iff. cbn. intuition congruence.
  - apply IH; tauto.
Qed.

(** script ids of within-word automata: one per automaton met on a transition, consecutive from the
    array base in the order of first occurrence *)
Definition sw_step (first : N) (acc : list (N * N)) (fxt : N * inp * N) : list (N * N) :=
  match fxt with
  | (_, ISub s _, _) => if existsb (fun p => N.eqb (fst p) s) acc then acc else acc ++ [(s, first + lenN acc)]
  | _ => acc
  end.

Lemma existsb_fst {V} s (acc : list (N * V)) : existsb (fun p => N.eqb (fst p) s) acc = true <-> In s (map fst acc).
Proof.
  rewrite existsb_exists, in_map_iff. split; intros [p [H1 H2]]; exists p.
  - apply N.eqb_eq in H2. auto.
  - split; [exact H2 | apply N.eqb_eq; exact H1].
Qed.

Definition sw_inv (first : N) (acc : list (N * N)) : Prop :=
  NoDup (map fst acc) /\ map snd acc = map (fun k => first + N.of_nat k) (seq 0 (List.length acc)).

Lemma sw_step_spec first acc fxt :
  sw_inv first acc ->
  sw_inv first (sw_step first acc fxt)
  /\ forall pi, In pi (map fst (sw_step first acc fxt)) <-> In pi (map fst acc) \/ exists f l t, fxt = (f, ISub pi l, t).
Proof.
  intros [Hnd Hids]. destruct fxt as [[f x] t].
  assert (Same : (forall pi l, x = ISub pi l -> In pi (map fst acc)) ->
                 sw_inv first acc
                 /\ forall pi, In pi (map fst acc) <-> In pi (map fst acc) \/ exists f0 l t0, (f, x, t) = (f0, ISub pi l, t0)).
  { intros Hx. split; [split; assumption|]. intros pi. split; [auto|].
    intros [H|[f0 [l [t0 H]]]]; [exact H|]. injection H as _ -> _. eapply Hx. reflexivity. }
  destruct x as [| s lv | | |]; try (apply Same; discriminate). cbn [sw_step].
  destruct (existsb (fun p => N.eqb (fst p) s) acc) eqn:E.
  - apply Same. intros pi l H. injection H as <- _. apply existsb_fst, E.
  - split; [split|].
    + rewrite map_app. apply NoDup_app_single; [exact Hnd|]. intros H. apply (proj2 (existsb_fst s acc)) in H. congruence.
    + rewrite map_app, app_length, Hids. cbn. rewrite Nat.add_1_r, seq_S, map_app. reflexivity.
    + intros pi. rewrite map_app, in_app_iff. cbn [map In fst]. split.
      * intros [H|[<-|[]]]; [auto | right; exists f, lv, t; reflexivity].
      * intros [H|[f0 [l [t0 H]]]]; [auto|]. injection H as _ <- _. auto.
Qed.

Lemma sw_fold first rt : forall acc,
  sw_inv first acc ->
  sw_inv first (fold_left (sw_step first) rt acc)
  /\ forall pi, In pi (map fst (fold_left (sw_step first) rt acc))
                <-> In pi (map fst acc) \/ exists f l t, In (f, ISub pi l, t) rt.
Proof.
  induction rt as [|fxt rt IH]; intros acc Hi; cbn [fold_left].
  - split; [exact Hi|]. intros pi. split; [auto | intros [H|[? [? [? []]]]]; exact H].
  - destruct (sw_step_spec first acc fxt Hi) as [Hi' Hk]. destruct (IH _ Hi') as [Hg Hkg]. split; [exact Hg|].
    intros pi. rewrite Hkg, Hk. split.
    + intros [[H|[f [l [t ->]]]]|[f [l [t H]]]]; [auto | right; exists f, l, t; left; reflexivity | right; exists f, l, t; right; exact H].
    + intros [H|[f [l [t [->|H]]]]]; [auto | left; right; eauto | right; eauto].
Qed.

Lemma get_subwords_spec rt first :
  NoDup (map fst (get_subwords rt first))
  /\ map snd (get_subwords rt first) = map (fun k => first + N.of_nat k) (seq 0 (List.length (get_subwords rt first)))
  /\ forall pi, In pi (map fst (get_subwords rt first)) <-> exists f l t, In (f, ISub pi l, t) rt.
Proof.
  destruct (sw_fold first rt [] (conj (NoDup_nil _) eq_refl)) as [[H1 H2] H3]. split; [exact H1|]. split; [exact H2|].
  intros pi. rewrite (H3 pi). split; [intros [[]|H]; exact H | auto].
Qed.

Lemma get_subwords_ids rt first :
  map snd (get_subwords rt first) = map (fun k => first + N.of_nat k) (seq 0 (List.length (get_subwords rt first)))
  /\ NoDup (map fst (get_subwords rt first)).
Proof. split; apply (get_subwords_spec rt first). Qed.

Lemma get_subwords_origin rt first pi id :
  In (pi, id) (get_subwords rt first) -> exists f l to, In (f, ISub pi l, to) rt.
Proof. intros H. apply (get_subwords_spec rt first). exact (in_map fst _ _ H). Qed.

Lemma get_subwords_covers rt first f s l to :
  In (f, ISub s l, to) rt -> exists id, assocN s (get_subwords rt first) = Some id.
Proof.
  intros H. assert (Hs : In s (map fst (get_subwords rt first))) by (apply get_subwords_spec; eauto).
  apply in_map_iff in Hs. destruct Hs as [[s' id] [E Hin]]. cbn in E. subst s'.
  exists id. apply in_assocN; [apply get_subwords_spec | exact Hin].
Qed.

(** ** a valid literal order gives an id to every literal input of the automaton *)
Lemma opair_eqb_eq a b : opair_eqb a b = true <-> a = b.
Proof.
  destruct a as [t [d|]], b as [t' [d'|]]; unfold opair_eqb; cbn; split; intros H.
  - apply andb_prop in H. destruct H as [H1 H2]. apply String.eqb_eq in H1, H2. congruence.
  - inversion H; subst. rewrite !String.eqb_refl. reflexivity.
  - apply andb_prop in H. destruct H; discriminate.
  - discriminate.
  - apply andb_prop in H. destruct H; discriminate.
  - discriminate.
  - apply andb_prop in H. destruct H as [H1 _]. apply String.eqb_eq in H1. congruence.
  - inversion H; subst. rewrite String.eqb_refl. reflexivity.
Qed.

Lemma literal_pairs_in d t ds lvl : In (ILit t ds lvl) (d_inputs d) -> In (t, ds) (literal_pairs d).
Proof.
  unfold literal_pairs.
  set (F := fun (acc : list (string * option string)) (i : inp) =>
              match i with
              | ILit t ds _ => if existsb (opair_eqb (t, ds)) acc then acc else acc ++ [(t, ds)]
              | _ => acc
              end).
  assert (Mono : forall l acc p, In p acc -> In p (fold_left F l acc)).
  { induction l as [|x l IH]; cbn; intros acc p Hp; [exact Hp|]. apply IH.
    destruct x; cbn; try exact Hp. destruct (existsb _ acc); [exact Hp | apply in_or_app; auto]. }
  assert (G : forall l acc, In (ILit t ds lvl) l -> In (t, ds) (fold_left F l acc)).
  { induction l as [|x l IH]; cbn; intros acc Hin; [tauto|]. destruct Hin as [->|Hin]; [|apply IH; exact Hin].
    apply Mono. cbn. destruct (existsb (opair_eqb (t, ds)) acc) eqn:E.
    - apply existsb_exists in E. destruct E as [p [Hp E]]. apply opair_eqb_eq in E. subst. exact Hp.
    - apply in_or_app. right. cbn. auto. }
  apply G.
Qed.

Lemma pair_eqb_eq a b : pair_eqb a b = true <-> a = b.
Proof.
  destruct a, b; unfold pair_eqb; cbn. rewrite andb_true_iff, !String.eqb_eq. split; [intros []; congruence | intros H; inversion H; auto].
Qed.

Lemma count_pair_pos x l : In x l <-> (0 < count_pair x l)%nat.
Proof.
  unfold count_pair. induction l as [|y r IH]; cbn; [split; [tauto | lia]|].
  destruct (pair_eqb x y) eqn:E; cbn.
  - apply pair_eqb_eq in E. subst. split; [lia | auto].
  - rewrite <- IH. split; [intros [->|H]; [|exact H] | auto].
    assert (pair_eqb x x = true) by (apply pair_eqb_eq; reflexivity). congruence.
Qed.

Theorem valid_order_covers d ord start i text dso lvl :
  valid_literal_order d ord = true -> nthN (d_inputs d) i = Some (ILit text dso lvl) ->
  exists l, lit_at ord start l text (unwrap_descr dso).
Proof.
  unfold valid_literal_order. intros H Hn. apply andb_prop in H. destruct H as [H _].
  apply andb_prop in H. destruct H as [_ H]. rewrite forallb_forall in H.
  assert (Hin : In (text, unwrap_descr dso) (map (fun p => (fst p, unwrap_descr (snd p))) (literal_pairs d))).
  { apply in_map_iff. exists (text, dso). split; [reflexivity|]. apply (literal_pairs_in d text dso lvl).
    unfold nthN in Hn. apply nth_error_In in Hn. exact Hn. }
  assert (Ho : In (text, unwrap_descr dso) ord).
  { apply count_pair_pos. specialize (H _ (in_or_app _ _ _ (or_intror Hin))). apply Nat.eqb_eq in H. rewrite H.
    apply count_pair_pos. exact Hin. }
  apply In_nth_error in Ho. destruct Ho as [n Hn']. exists (start + N.of_nat n). unfold lit_at. split; [lia|].
  replace (N.to_nat (start + N.of_nat n - start)) with n by lia. exact Hn'.
Qed.
