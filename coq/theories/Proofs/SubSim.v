(** The states of an automaton against the points of the specification.

    [simR d R s S]: whatever the automaton [d] accepts from [s] is denoted by a residual in [S],
    leaf by leaf through the relation [R] between leaves and inputs, and whatever a residual in [S]
    denotes is accepted from [s] through [R].  A transition preserves it ([simR_step]) provided the
    inputs a leaf stands for lead, from one state, to one state; when every transition leads to a
    state from which something is accepted (trimness, C03), every input that leaves [s] stands for
    an item expected at [S] ([simR_trans]); when no residual in [S] is empty, every item expected
    at [S] has an input that leaves [s] ([simR_item]).

    On the command line ([rsim] = [simR] through [lrel]): a plain leaf stands for the equal input,
    a within-word leaf [LSub x l] for an input [ISub k l] whose automaton accepts the language of
    [x]; it holds initially by C02 and [SubBridge.sbridge] ([rsim_start]).  Inside a word the
    relation is [fun a x => x = inp_of_wleaf a] ([SubLang.sub_sim]). *)
From CG Require Import Base.Prelude Model.Ast Model.Dfa Spec.Lang Spec.Rx Spec.Meaning Spec.DfaEquiv.
From CG Require Import Proofs.RxFacts Proofs.MeaningFacts Proofs.TablesSound Proofs.LangBridge Proofs.DfaMeaning
     Proofs.DomainFacts Proofs.SubBridge.

Section Sim.
  Context {A : Type}.
  Variables (d : dfa) (R : A -> inp -> Prop).
  Hypothesis Hwf : dfa_wf d.

  Definition simR (s : N) (S : list (rx A)) : Prop :=
    (forall xs, dacc d s xs -> exists k ls, In k S /\ denotes k ls /\ Forall2 R ls xs)
    /\ (forall k ls, In k S -> denotes k ls -> exists xs, Forall2 R ls xs /\ dacc d s xs).

  Theorem simR_step s S i t x S' :
    simR s S -> Dfa.step d s i = Some t -> nthN (d_inputs d) i = Some x ->
    (forall a x' t', R a x -> R a x' -> trans_on d s x' t' -> t' = t) ->
    (forall k, In k S' <-> exists a, In (a, k) (mvs S) /\ R a x) ->
    simR t S'.
  Proof.
    intros [H1 H2] Es Hi Hdet HS'. split.
    - intros xs Hd.
      assert (Hd' : dacc d s (x :: xs)) by (apply dacc_cons; exists i, t; repeat split; assumption).
      apply H1 in Hd'. destruct Hd' as [k [ls [Hk [Hden Hf]]]].
      inversion Hf as [| a x' ls' xs' Hax Hf']; subst.
      apply lf_correct in Hden. destruct Hden as [k' [Hlf Hden']].
      exists k', ls'. split; [| split; assumption].
      apply HS'. exists a. split; [apply mvs_In; exists k; split; assumption | exact Hax].
    - intros k' ls Hk' Hden. apply HS' in Hk'. destruct Hk' as [a [Hmv Ha]].
      apply mvs_In in Hmv. destruct Hmv as [k [Hk Hlf]].
      assert (Hden' : denotes k (a :: ls)) by (eapply lf_sound; eassumption).
      destruct (H2 k _ Hk Hden') as [xs0 [Hf Hd]].
      inversion Hf as [| a' x0 ls' xs Hax0 Hf']; subst.
      apply dacc_cons in Hd. destruct Hd as [j [t' [Es' [Hj Hd']]]].
      assert (t' = t) by (apply (Hdet a x0 t' Ha Hax0); exists j; split; assumption). subst t'.
      exists xs. split; assumption.
  Qed.

  Theorem simR_trans s S x t :
    simR s S -> (forall i t, Dfa.step d s i = Some t -> coreachable d t) ->
    trans_on d s x t -> exists a k, In (a, k) (mvs S) /\ R a x.
  Proof.
    intros [H1 _] Hco [i [Es Hi]]. destruct (Hco i t Es) as [w Hw].
    destruct (accepted_has_inputs d Hwf w t Hw) as [xs [Hd _]].
    assert (Hd' : dacc d s (x :: xs)) by (apply dacc_cons; exists i, t; repeat split; assumption).
    apply H1 in Hd'. destruct Hd' as [k [ls [Hk [Hden Hf]]]].
    inversion Hf as [| a x' ls' xs' Hax Hf']; subst.
    apply lf_correct in Hden. destruct Hden as [k' [Hlf _]].
    exists a, k'. split; [apply mvs_In; exists k; split; assumption | exact Hax].
  Qed.

  (** [zero_free]: an item whose residual denotes nothing lies on no denoted word, and the
      automaton need not read it *)
  Theorem simR_item s S a k :
    simR s S -> (forall r, In r S -> zero_free r = true) ->
    In (a, k) (mvs S) -> exists x t, R a x /\ trans_on d s x t.
  Proof.
    intros [_ H2] G Hmv. apply mvs_In in Hmv. destruct Hmv as [r [Hr Hlf]].
    assert (Hz : zero_free k = true) by (eapply zero_free_lf; [apply G; exact Hr | exact Hlf]).
    destruct (zero_free_inhabited k Hz) as [ls Hls].
    assert (Hden : denotes r (a :: ls)) by (eapply lf_sound; eassumption).
    destruct (H2 r _ Hr Hden) as [xs0 [Hf Hd]].
    inversion Hf as [| a' x0 ls' xs Hax0 Hf']; subst.
    apply dacc_cons in Hd. destruct Hd as [j [t [Es [Hj _]]]].
    exists x0, t. split; [exact Hax0 | exists j; split; assumption].
  Qed.

  Lemma simR_accepting s S : simR s S -> (is_accepting d s = true <-> exists k, In k S /\ nullable k = true).
  Proof.
    intros [H1 H2]. rewrite <- (dacc_nil d). split.
    - intro Hd. destruct (H1 [] Hd) as [k [ls [Hk [Hden Hf]]]]. inversion Hf; subst.
      exists k. split; [assumption | apply nullable_denotes; assumption].
    - intros [k [Hk Hn]]. apply nullable_denotes in Hn. destruct (H2 k [] Hk Hn) as [xs [Hf Hd]].
      inversion Hf; subst. exact Hd.
  Qed.
End Sim.

Section RSim.
  Variable c : cdfa.
  Notation d := (c_main c).
  Hypothesis Hwf : dfa_wf d.
  Hypothesis Hinputs : NoDup (d_inputs d).

  Definition lrel (a : leaf) (x : inp) : Prop := item_equiv (item_of_inp c x) (item_of_leaf' a).

  Lemma nthN_In {A} (l : list A) i x : nthN l i = Some x -> In x l.
  Proof. exact (Facts.nthN_In l i x). Qed.

  Lemma lrel_plain a x : plain_leaf a = true -> (lrel a x <-> x = inp_of_leaf a).
  Proof.
    intro Hp. unfold lrel. split.
    - intro H. destruct a; cbn in Hp; try discriminate; cbn [item_of_leaf' item_of_leaf] in H;
        destruct x; cbn [item_of_inp item_equiv] in H; try contradiction; inversion H; subst; reflexivity.
    - intros ->. destruct a; cbn in Hp; try discriminate; cbn; reflexivity.
  Qed.

  Lemma lrel_sub x0 l x :
    lrel (LSub x0 l) x <-> exists k, x = ISub k l /\ forall v, Lang.waccepts (sub_dfa c k) v <-> wlangI x0 v.
  Proof.
    unfold lrel. cbn [item_of_leaf']. split.
    - intro H. destruct x; cbn [item_of_inp item_equiv] in H; try contradiction. destruct H as [-> H]. eauto.
    - intros [k [-> H]]. cbn [item_of_inp item_equiv]. split; [reflexivity | exact H].
  Qed.

  Definition rsim (s : N) (S : state) : Prop :=
    (forall xs, dacc d s xs -> exists k ls, In k S /\ denotes k ls /\ Forall2 lrel ls xs)
    /\ (forall k ls, In k S -> denotes k ls -> exists xs, Forall2 lrel ls xs /\ dacc d s xs).

  Lemma rsim_accepting s S : rsim s S -> (is_accepting d s = true <-> exists k, In k S /\ nullable k = true).
  Proof. apply (simR_accepting d lrel). Qed.

  Theorem rsim_start (e : expr) :
    sub_tree e = true ->
    (forall w, accepts_items c w <-> Lang.denotes e w) ->
    rsim (d_start d) (start e).
  Proof.
    intros Ht HL. unfold start. split.
    - intros xs [ids [Ha Hf]].
      assert (Hacc : accepts_items c (map (item_of_inp c) xs)).
      { exists ids. split; [exact Ha |]. clear Ha. induction Hf as [| i x ids xs Hi Hf IH]; cbn [map]; constructor; [| assumption].
        exists x. split; [assumption | apply item_equiv_refl']. }
      apply HL in Hacc. apply (sbridge e _ Ht) in Hacc. destruct Hacc as [ls [Hden Hfl]].
      exists (tr e), ls. split; [left; reflexivity | split; [assumption |]].
      clear -Hfl. revert ls Hfl. induction xs as [| x xs IH]; intros ls Hfl; cbn [map] in Hfl; inversion Hfl; subst; constructor.
      + assumption.
      + apply IH. assumption.
    - intros k ls [<- | []] Hden.
      assert (Hacc : accepts_items c (map item_of_leaf' ls)).
      { apply HL. apply (sbridge e _ Ht). exists ls. split; [exact Hden |].
        clear. induction ls; cbn [map]; constructor; [apply leaf_item_refl | assumption]. }
      destruct Hacc as [ids [Ha Hf]].
      assert (G : exists xs, Forall2 lrel ls xs /\ Forall2 (fun i x => nthN (d_inputs d) i = Some x) ids xs).
      { clear Ha Hden. revert ids Hf. induction ls as [| a ls IH]; intros ids Hf; cbn [map] in Hf.
        - inversion Hf; subst. exists []. split; constructor.
        - inversion Hf as [| i it ids' its [x [Hi Heq]] Hf']; subst.
          destruct (IH ids' Hf') as [xs [F1 F2]]. exists (x :: xs). split; constructor; assumption. }
      destruct G as [xs [F1 F2]]. exists xs. split; [exact F1 |]. exists ids. split; assumption.
  Qed.
End RSim.
