(** Trees whose leaves are literals, commands and undefined nonterminals ([toplevel_tree]: no
    within-word expressions, no zsh compadd commands, no description nodes) and the inputs and
    items their leaves stand for.  Also: the translation of a tree all of whose alternatives are
    non-empty contains no [Zero], so every residual [Spec.Meaning] reaches has a continuation. *)
From CG Require Import Base.Prelude Model.Ast Model.Dfa Spec.Lang Spec.Rx Spec.Meaning.
From CG Require Import Proofs.RxFacts Proofs.MeaningFacts Proofs.MeaningLevels Proofs.TreeFacts.

Fixpoint toplevel_tree (e : expr) : bool :=
  match e with
  | Terminal _ _ _ _ | NontermRef _ _ _ => true
  | Command _ z _ _ => negb z
  | Sequence cs _ | Alternative cs _ | Fallback cs _ => forallb toplevel_tree cs
  | Optional c _ | Many1 c _ => toplevel_tree c
  | DistDescr _ _ _ | Subword _ _ _ => false
  end.

(** The item a top-level leaf stands for, as an input of the automaton and as an item of [Lang].
    On [LSub] both return a placeholder; the item of a within-word leaf is
    [SubBridge.item_of_leaf']. *)
Definition inp_of_leaf (a : leaf) : inp :=
  match a with
  | LLit t d l => ILit t d l
  | LCmd c l => ICmd c l
  | LAny => IStar
  | LSub _ l => ISub 0 l
  end.

Definition item_of_leaf (a : leaf) : item :=
  match a with
  | LLit t d l => ILeaf (Lang.WLit t d l)
  | LCmd c l => ILeaf (Lang.WCmd c l)
  | LAny => ILeaf WStar
  | LSub _ l => IWord (fun _ => False) l
  end.

Definition plain_leaf (a : leaf) : bool := match a with LSub _ _ => false | _ => true end.

Lemma inp_of_leaf_inj a b : plain_leaf a = true -> plain_leaf b = true -> inp_of_leaf a = inp_of_leaf b -> a = b.
Proof. destruct a, b; cbn; intros Ha Hb H; try discriminate; inversion H; subst; reflexivity. Qed.

Lemma toplevel_leaves_plain e : toplevel_tree e = true -> forall a, In a (leaves (tr e)) -> plain_leaf a = true.
Proof.
  apply (tr_leaves toplevel_tree (fun a => plain_leaf a = true)).
  intros e0 H. destruct e0; cbn in H |- *; try discriminate; try reflexivity; exact H.
Qed.

Definition tleaf_of (e : expr) : option leaf :=
  match e with
  | Terminal t d l _ => Some (LLit t d l)
  | NontermRef _ _ _ => Some LAny
  | Command c false l _ => Some (LCmd c l)
  | _ => None
  end.

Fixpoint zero_free {A} (r : rx A) : bool :=
  match r with
  | Zero => false
  | Eps | Leaf _ => true
  | Cat r s | Alt r s => zero_free r && zero_free s
  | Plus r => zero_free r
  end.

Lemma zero_free_inhabited {A} (r : rx A) : zero_free r = true -> exists w, denotes r w.
Proof.
  induction r; cbn [zero_free]; intro H; try discriminate.
  - exists []. constructor.
  - exists [a]. constructor.
  - apply andb_true_iff in H. destruct H as [H1 H2]. destruct (IHr1 H1) as [u Hu]. destruct (IHr2 H2) as [v Hv].
    exists (u ++ v). constructor; assumption.
  - apply andb_true_iff in H. destruct H as [H1 _]. destruct (IHr1 H1) as [u Hu]. exists u. apply D_alt_l. assumption.
  - destruct (IHr H) as [u Hu]. exists u. apply D_plus_one. assumption.
Qed.

Lemma zero_free_cat {A} (r s : rx A) : zero_free r = true -> zero_free s = true -> zero_free (cat r s) = true.
Proof. destruct r; destruct s; cbn; intros H1 H2; try discriminate; try reflexivity; try assumption; rewrite ?H1, ?H2; reflexivity. Qed.

Lemma zero_free_alt {A} (r s : rx A) : zero_free r = true -> zero_free s = true -> zero_free (alt r s) = true.
Proof. destruct r; destruct s; cbn; intros H1 H2; try discriminate; try reflexivity; try assumption; rewrite ?H1, ?H2; reflexivity. Qed.

Lemma zero_free_lf {A} (r : rx A) : zero_free r = true -> forall a k, In (a, k) (lf r) -> zero_free k = true.
Proof.
  induction r; cbn [zero_free lf]; intros H a0 k Hin; try discriminate.
  - destruct Hin.
  - destruct Hin as [E | []]. inversion E; subst. reflexivity.
  - apply andb_true_iff in H. destruct H as [H1 H2]. apply in_app_or in Hin. destruct Hin as [Hin | Hin].
    + apply in_map_iff in Hin. destruct Hin as [[a1 k1] [E Hin]]. cbn in E. inversion E; subst.
      apply zero_free_cat; [eapply IHr1; eassumption | assumption].
    + destruct (nullable r1); [| destruct Hin]. eapply IHr2; eassumption.
  - apply andb_true_iff in H. destruct H as [H1 H2]. apply in_app_or in Hin. destruct Hin; [eapply IHr1 | eapply IHr2]; eassumption.
  - apply in_map_iff in Hin. destruct Hin as [[a1 k1] [E Hin]]. cbn in E. inversion E; subst.
    apply zero_free_cat; [eapply IHr; eassumption |]. cbn. rewrite H. reflexivity.
Qed.

Lemma zero_free_fold_cat {A} (l : list (rx A)) : Forall (fun r => zero_free r = true) l -> zero_free (fold_right cat Eps l) = true.
Proof. induction 1; [reflexivity |]. cbn [fold_right]. apply zero_free_cat; assumption. Qed.

Lemma zero_free_fold_alt {A} (l : list (rx A)) :
  l <> [] -> Forall (fun r => zero_free r = true) l -> zero_free (fold_right alt Zero l) = true.
Proof.
  intros Hne H. induction H as [| r l Hr Hl IH]; [contradiction |].
  cbn [fold_right]. destruct l as [| r' l'].
  - cbn [fold_right]. destruct r; cbn in *; try discriminate; reflexivity || assumption.
  - apply zero_free_alt; [assumption | apply IH; discriminate].
Qed.

(** every [|] and [||] has an operand: no [Zero] in the translation, on the command line or inside a word *)
Lemma zero_free_tr e : alts_nonempty e = true -> zero_free (tr e) = true /\ zero_free (trw e) = true.
Proof.
  induction e using expr_ind'; intro Ha; cbn [alts_nonempty] in Ha; try (split; reflexivity).
  - rewrite tr_seq, trw_seq. rewrite forallb_forall in Ha. rewrite Forall_forall in H.
    split; apply zero_free_fold_cat; apply Forall_forall; intros r Hr; apply in_map_iff in Hr; destruct Hr as [c [<- Hc]]; apply (H c Hc (Ha c Hc)).
  - rewrite tr_alt, trw_alt. destruct cs as [| c0 cs0]; [discriminate |]. rewrite forallb_forall in Ha. rewrite Forall_forall in H.
    split; (apply zero_free_fold_alt; [discriminate |]); apply Forall_forall; intros r Hr; apply in_map_iff in Hr; destruct Hr as [c [<- Hc]]; apply (H c Hc (Ha c Hc)).
  - destruct (IHe Ha) as [H1 H2]. cbn [tr trw zero_free]. rewrite H1, H2. split; reflexivity.
  - cbn [tr trw zero_free]. apply (IHe Ha).
  - cbn [tr trw]. apply (IHe Ha).
  - rewrite tr_fb, trw_fb. destruct cs as [| c0 cs0]; [discriminate |]. rewrite forallb_forall in Ha. rewrite Forall_forall in H.
    split; (apply zero_free_fold_alt; [discriminate |]); apply Forall_forall; intros r Hr; apply in_map_iff in Hr; destruct Hr as [c [<- Hc]]; apply (H c Hc (Ha c Hc)).
  - cbn [tr trw zero_free]. split; [reflexivity | apply (IHe Ha)].
Qed.
