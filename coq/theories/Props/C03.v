(** C03 -- minimisation preserves the language and yields the trim minimal automaton.
    The proofs are in Proofs/: MinimizeCorrect (correctness of the result), MinimizeTotal (no
    panic, fuel), HopcroftLoop (the partition and its independence of the orders), DfaEquivProofs
    (the validator), MinimizeImage ([wfb]).  The statements about the partition are over
    definitions of the proof files: [sameb] (HopcroftAbs: same block), [abs] (HopcroftSim: the
    partition a loop state stands for), [universe] (MinimizeImage: the states of [d]), [run_any]
    (HopcroftOrder), [A0] (HopcroftLoop: the initial partition). *)
From CG Require Import Base.Prelude Model.Dfa Model.Minimize Spec.DfaEquiv Spec.MinimizeSpec.
From CG Require Import Proofs.HopcroftAbs Proofs.HopcroftSim Proofs.MinimizeImage.
From CG Require Import Proofs.HopcroftOrder.
From CG Require Proofs.DfaEquivProofs Proofs.HopcroftLoop Proofs.MinimizeCorrect Proofs.MinimizeTotal.

(** The faithful model of [do_minimize] (Hopcroft with the dead state 0, the [find_bounds]
    window over the target-sorted transition image, the intern pool, the work-list rule, block
    minima as representatives, the three post-passes, renumbering in first-occurrence order,
    [hashmap_transitions_from_vec]): on every well-formed trim automaton -- what
    [dfa_from_regex] produces -- whatever it returns accepts exactly the same words, has only
    reachable and co-reachable states, no two states with the same residual language, and no
    automaton of the same language has fewer states. *)
Theorem C03_minimise :
  forall d m, wf d -> trim d -> minimize d = Ok m ->
    (forall w, accepts m w = accepts d w)
    /\ trim m /\ pairwise_distinguishable m /\ minimal_size m.
Proof. exact MinimizeCorrect.minimize_correct. Qed.
Check C03_minimise :
  forall d m, wf d -> trim d -> minimize d = Ok m ->
    (forall w, accepts m w = accepts d w)
    /\ trim m /\ pairwise_distinguishable m /\ minimal_size m.
Print Assumptions C03_minimise.

(** Total correctness: on such automata the model neither panics (no [unwrap] of the Rust code
    can fail) nor runs out of its fuel, which is linear in the number of states
    ([minimize_fuel d = 2 |states| + 2 |accepting| + 8] pops of the work-list). *)
Theorem C03_total :
  forall d, wf d -> trim d ->
    exists m, minimize d = Ok m
      /\ (forall w, accepts m w = accepts d w)
      /\ trim m /\ pairwise_distinguishable m /\ minimal_size m.
Proof.
  intros d W T. destruct (MinimizeTotal.minimize_total d W T) as [m Hm].
  exists m. split; [exact Hm|]. exact (MinimizeCorrect.minimize_correct d m W T Hm).
Qed.
Check C03_total :
  forall d, wf d -> trim d ->
    exists m, minimize d = Ok m
      /\ (forall w, accepts m w = accepts d w)
      /\ trim m /\ pairwise_distinguishable m /\ minimal_size m.
Print Assumptions C03_total.

(** The same with the hypotheses in the executable form the check evaluates on every raw
    automaton Rust produces. *)
Theorem C03_minimise_checked :
  forall d m, wfb d = true -> trim_dec d = true -> minimize d = Ok m ->
    (forall w, accepts m w = accepts d w)
    /\ trim m /\ pairwise_distinguishable m /\ minimal_size m.
Proof.
  intros d m H1 H2. apply MinimizeCorrect.minimize_correct.
  - apply MinimizeImage.wfb_sound. exact H1.
  - apply DfaEquivProofs.trim_dec_spec. exact H2.
Qed.
Check C03_minimise_checked :
  forall d m, wfb d = true -> trim_dec d = true -> minimize d = Ok m ->
    (forall w, accepts m w = accepts d w)
    /\ trim m /\ pairwise_distinguishable m /\ minimal_size m.
Print Assumptions C03_minimise_checked.

(** The partition the Hopcroft loop of the model ends with is the Nerode partition of the
    completed automaton: states of one group accept the same continuations, states of different
    groups are told apart by some word.  This characterisation does not mention the order in
    which the work-list, the partition or the per-input preimages are iterated (hash orders in
    the Rust code); [C03_order_independent] below says every such order reaches it. *)
Theorem C03_partition :
  forall d fuel h, wf d -> all_coreachable d ->
    hopcroft_loop fuel (make_transitions_image d) (initial_partition d) = Ok h ->
    (forall x y, sameb (abs h) x y -> forall w, accepts_from d x w = accepts_from d y w)
    /\ (forall x y, In x (universe d) -> In y (universe d) -> ~ sameb (abs h) x y ->
                    exists w, accepts_from d x w <> accepts_from d y w).
Proof.
  intros d fuel h W C H. exact (proj2 (HopcroftLoop.hopcroft_loop_correct d W C fuel h H)).
Qed.
Check C03_partition :
  forall d fuel h, wf d -> all_coreachable d ->
    hopcroft_loop fuel (make_transitions_image d) (initial_partition d) = Ok h ->
    (forall x y, sameb (abs h) x y -> forall w, accepts_from d x w = accepts_from d y w)
    /\ (forall x y, In x (universe d) -> In y (universe d) -> ~ sameb (abs h) x y ->
                    exists w, accepts_from d x w <> accepts_from d y w).
Print Assumptions C03_partition.

(** Independence of the hash-iteration orders.  [run_any] is the refinement loop in which every
    choice the Rust code leaves to a hash table is free: which element of the work-list is popped
    ([worklist.iter().next()]), in which order the per-input preimages are used
    ([transitions_to_group.values()]) and in which order the overlapping groups are split
    ([partitions.iter()]).  Any two complete runs from the initial partition end in the same
    partition of the states, and the loop of the model is one of these runs
    ([C03_model_is_a_run]); the passes after the loop use the partition only through the map from
    a state to the minimum of its group. *)
Theorem C03_order_independent :
  forall d A1 A2, wf d -> all_coreachable d ->
    run_any (make_transitions_image d) (HopcroftLoop.A0 d) A1 ->
    run_any (make_transitions_image d) (HopcroftLoop.A0 d) A2 ->
    forall x y, In x (universe d) -> In y (universe d) -> (sameb A1 x y <-> sameb A2 x y).
Proof. intros d A1 A2 W C. exact (HopcroftLoop.any_order_unique d W C A1 A2). Qed.
Check C03_order_independent :
  forall d A1 A2, wf d -> all_coreachable d ->
    run_any (make_transitions_image d) (HopcroftLoop.A0 d) A1 ->
    run_any (make_transitions_image d) (HopcroftLoop.A0 d) A2 ->
    forall x y, In x (universe d) -> In y (universe d) -> (sameb A1 x y <-> sameb A2 x y).
Print Assumptions C03_order_independent.

Theorem C03_model_is_a_run :
  forall d fuel h, wf d ->
    hopcroft_loop fuel (make_transitions_image d) (initial_partition d) = Ok h ->
    run_any (make_transitions_image d) (HopcroftLoop.A0 d) (abs h).
Proof.
  intros d fuel h W H. exact (proj2 (HopcroftLoop.initial_run d W fuel h H)).
Qed.
Check C03_model_is_a_run :
  forall d fuel h, wf d ->
    hopcroft_loop fuel (make_transitions_image d) (initial_partition d) = Ok h ->
    run_any (make_transitions_image d) (HopcroftLoop.A0 d) (abs h).
Print Assumptions C03_model_is_a_run.

(** The verified validator: sound and complete.  It is run (extracted) on Rust's own (raw,
    minimised) pairs on every check: that is the direct judgement of the implementation. *)
Theorem C03_validator_sound :
  forall d m, validate d m = true ->
    (forall w, accepts m w = accepts d w)
    /\ trim m /\ pairwise_distinguishable m /\ minimal_size m.
Proof. exact DfaEquivProofs.validate_sound. Qed.
Check C03_validator_sound :
  forall d m, validate d m = true ->
    (forall w, accepts m w = accepts d w)
    /\ trim m /\ pairwise_distinguishable m /\ minimal_size m.
Print Assumptions C03_validator_sound.

Theorem C03_validator_complete :
  forall d m, (forall w, accepts m w = accepts d w) -> trim m -> pairwise_distinguishable m ->
    validate d m = true.
Proof. exact DfaEquivProofs.validate_complete. Qed.
Check C03_validator_complete :
  forall d m, (forall w, accepts m w = accepts d w) -> trim m -> pairwise_distinguishable m ->
    validate d m = true.
Print Assumptions C03_validator_complete.

Theorem C03_validated :
  forall d m, minimize d = Ok m -> validate d m = true ->
    (forall w, accepts m w = accepts d w)
    /\ trim m /\ pairwise_distinguishable m /\ minimal_size m.
Proof. intros d m _. apply DfaEquivProofs.validate_sound. Qed.
Check C03_validated :
  forall d m, minimize d = Ok m -> validate d m = true ->
    (forall w, accepts m w = accepts d w)
    /\ trim m /\ pairwise_distinguishable m /\ minimal_size m.
Print Assumptions C03_validated.

Theorem C03_counterexample :
  forall d m w, equiv_dec d m = EqNo w -> accepts d w <> accepts m w.
Proof. exact DfaEquivProofs.equiv_dec_no. Qed.
Check C03_counterexample :
  forall d m w, equiv_dec d m = EqNo w -> accepts d w <> accepts m w.
Print Assumptions C03_counterexample.

(** Non-vacuity: the raw automaton of [cmd [((b | a | b))... (b | a a) b];] (on it the refinement
    loop with the [break] that /repo commit 5b80bfe removes merged inequivalent states)
    satisfies the hypotheses, the model minimises it to the automaton Rust returns, and the
    validator accepts the pair. *)
Definition ex_raw : dfa :=
  mkdfa 1 [(1, [(0, 2); (1, 2)]); (2, [(0, 3); (1, 4)]); (3, [(0, 5); (1, 4)]);
           (4, [(0, 3); (1, 6)]); (6, [(0, 5); (1, 6)]); (5, [(0, 5); (1, 4)])]
        [1; 5] [ILit "b" None 0; ILit "a" None 0].
Definition ex_min : dfa :=
  mkdfa 0 [(0, [(0, 1); (1, 1)]); (1, [(0, 2); (1, 3)]); (2, [(0, 4); (1, 3)]);
           (3, [(0, 2); (1, 5)]); (5, [(0, 4); (1, 5)]); (4, [(0, 4); (1, 3)])]
        [0; 4] [ILit "b" None 0; ILit "a" None 0].
(** [cmd [a | a a]...;]: every state accepting (the case of /repo commit 101bb53: no group of
    non-accepting states in the initial partition); the last conjunct of the example: the raw
    automaton, which has two equivalent states, is not a valid result. *)
Definition ex_raw2 : dfa :=
  mkdfa 1 [(1, [(0, 2)]); (2, [(0, 2)])] [1; 2] [ILit "a" None 0].
Definition ex_min2 : dfa := mkdfa 0 [(0, [(0, 0)])] [0] [ILit "a" None 0].

Example ex_C03_inhabited :
  wfb ex_raw = true /\ trim_dec ex_raw = true /\ minimize ex_raw = Ok ex_min /\ validate ex_raw ex_min = true
  /\ wfb ex_raw2 = true /\ trim_dec ex_raw2 = true /\ minimize ex_raw2 = Ok ex_min2
  /\ validate ex_raw2 ex_min2 = true /\ validate ex_raw2 ex_raw2 = false.
Proof. vm_compute. repeat split; reflexivity. Qed.
Print Assumptions ex_C03_inhabited.
