(** C14 -- layout does not change the output (checker part): the checker ignores spans.
    The theorems restate lemmas of Proofs/CheckSpans.v (spans) and Proofs/CheckOrder.v (order of the
    statements).

    Everything the layout of a grammar file (whitespace, line breaks, comments) changes in the
    parser's output is the spans.  [ms_grammar f] maps a function over every span of a grammar
    ([ms], [ms_err], [ms_valid] likewise on trees, errors and validated grammars).  No pass of
    the model of [ValidGrammar::from_grammar] inspects a span: the mapping commutes with it. *)
From CG Require Import Base.Prelude Model.Ast Model.Check.
From CG Require Import Proofs.CheckLemmas Proofs.CheckSpans Proofs.CheckOrder.
From Coq Require Import Permutation.
From CGgen Require Import Consts.

Theorem C14_spans_ignored :
  forall (f : span -> span) builtins g sh,
    from_grammar builtins (ms_grammar f g) sh
    = ms_res f (ms_valid f) (from_grammar builtins g sh).
Proof. exact from_grammar_ms. Qed.
Check C14_spans_ignored :
  forall (f : span -> span) builtins g sh,
    from_grammar builtins (ms_grammar f g) sh
    = ms_res f (ms_valid f) (from_grammar builtins g sh).
Print Assumptions C14_spans_ignored.

(** Two grammars equal up to spans are accepted or rejected alike, with the same error class,
    the same command, validated trees equal up to spans and the same names warned about. *)
Theorem C14_layout_check :
  forall builtins g1 g2 sh,
    same_shape g1 g2 ->
    (forall v1, from_grammar builtins g1 sh = Ok v1 ->
                exists v2, from_grammar builtins g2 sh = Ok v2 /\ v_command v1 = v_command v2
                           /\ ms erase (v_expr v1) = ms erase (v_expr v2)
                           /\ map fst (v_undefined v1) = map fst (v_undefined v2)
                           /\ map fst (v_unused v1) = map fst (v_unused v2)
                           /\ map fst (v_unused_specs v1) = map fst (v_unused_specs v2)) /\
    (forall e1, from_grammar builtins g1 sh = Err e1 ->
                exists e2, from_grammar builtins g2 sh = Err e2 /\ ms_err erase e1 = ms_err erase e2).
Proof. exact layout_verdict. Qed.
Check C14_layout_check :
  forall builtins g1 g2 sh,
    same_shape g1 g2 ->
    (forall v1, from_grammar builtins g1 sh = Ok v1 ->
                exists v2, from_grammar builtins g2 sh = Ok v2 /\ v_command v1 = v_command v2
                           /\ ms erase (v_expr v1) = ms erase (v_expr v2)
                           /\ map fst (v_undefined v1) = map fst (v_undefined v2)
                           /\ map fst (v_unused v1) = map fst (v_unused v2)
                           /\ map fst (v_unused_specs v1) = map fst (v_unused_specs v2)) /\
    (forall e1, from_grammar builtins g1 sh = Err e1 ->
                exists e2, from_grammar builtins g2 sh = Err e2 /\ ms_err erase e1 = ms_err erase e2).
Print Assumptions C14_layout_check.

(** The order of the statements does not matter as long as the call variants keep their
    relative order (their order is the order of the alternatives of the root): a permuted
    grammar is accepted alike, with the same command and the same validated expression. *)
Theorem C14_definition_order :
  forall builtins sh g g',
    Permutation g g' -> call_variants g = call_variants g' ->
    forall v, from_grammar builtins g sh = Ok v ->
              exists v', from_grammar builtins g' sh = Ok v' /\ v_command v' = v_command v
                         /\ v_expr v' = v_expr v.
Proof. exact definition_order. Qed.
Check C14_definition_order :
  forall builtins sh g g',
    Permutation g g' -> call_variants g = call_variants g' ->
    forall v, from_grammar builtins g sh = Ok v ->
              exists v', from_grammar builtins g' sh = Ok v' /\ v_command v' = v_command v
                         /\ v_expr v' = v_expr v.
Print Assumptions C14_definition_order.

(** Non-vacuity: [ex_g1], [ex_g2] are the same grammar laid out on one line and on several lines;
    [ex_g3] is a grammar whose statements can be reversed. *)
Definition ex_g1 : grammar :=
  [ CallVariant "cmd" (mkspan 1 1 4)
      (Sequence [NontermRef "A" 0 (mkspan 1 5 8);
                 Subword (Sequence [Terminal "--o=" None 0 (mkspan 1 9 13); NontermRef "U" 0 (mkspan 1 13 16)]
                                   (mkspan 1 9 16)) 0 (mkspan 1 9 16)] (mkspan 1 5 16));
    NontermDef "A" (mkspan 1 18 21) None
      (Fallback [Terminal "x" (Some "d") 0 (mkspan 1 24 25); NontermRef "PATH" 0 (mkspan 1 33 39)] (mkspan 1 24 39)) ].
Definition ex_g2 : grammar :=
  [ CallVariant "cmd" (mkspan 2 3 6)
      (Sequence [NontermRef "A" 0 (mkspan 3 1 4);
                 Subword (Sequence [Terminal "--o=" None 0 (mkspan 4 2 6); NontermRef "U" 0 (mkspan 4 6 9)]
                                   (mkspan 4 2 9)) 0 (mkspan 4 2 9)] (mkspan 3 1 9));
    NontermDef "A" (mkspan 7 1 4) None
      (Fallback [Terminal "x" (Some "d") 0 (mkspan 9 1 2); NontermRef "PATH" 0 (mkspan 11 4 10)] (mkspan 9 1 10)) ].
Definition ex_g3 : grammar :=
  [ NontermDef "B" (mkspan 3 1 2) None (NontermRef "C" 0 (mkspan 3 3 4));
    CallVariant "cmd" (mkspan 1 1 4) (NontermRef "A" 0 (mkspan 1 5 8));
    NontermDef "C" (mkspan 4 1 2) None (Terminal "c" None 0 (mkspan 4 3 4));
    NontermDef "A" (mkspan 2 1 2) None (Optional (NontermRef "B" 0 (mkspan 2 3 4)) (mkspan 2 2 5)) ].
Example ex_C14_order_inhabited :
  Permutation ex_g3 (rev ex_g3) /\ call_variants ex_g3 = call_variants (rev ex_g3)
  /\ rev ex_g3 <> ex_g3 /\ is_ok (from_grammar builtins ex_g3 Fish) = true.
Proof.
  split; [apply Permutation_rev|]. split; [reflexivity|]. split; [intro H; discriminate H|].
  vm_compute. reflexivity.
Qed.
Print Assumptions ex_C14_order_inhabited.

Example ex_C14_inhabited :
  same_shape ex_g1 ex_g2 /\ ex_g1 <> ex_g2
  /\ is_ok (from_grammar builtins ex_g1 Bash) = true
  /\ (exists spans, from_grammar builtins (firstn 1 ex_g1 ++ [NontermDef "A" (mkspan 5 1 2) None (NontermRef "A" 0 (mkspan 5 3 4))])%list Bash
                    = Err (NonterminalDefinitionsCycle spans)).
Proof.
  split; [reflexivity|]. split; [intro H; discriminate H|]. split; [vm_compute; reflexivity|].
  vm_compute. eexists; reflexivity.
Qed.
Print Assumptions ex_C14_inhabited.
