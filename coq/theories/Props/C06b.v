(** C06 -- totality of the WHOLE model pipeline (statements only; proof: Proofs/PipelineTotal.v, a
    composition of the stage theorems parse_total / parse_alts_nonempty (C05b), C06_checker_total,
    C02_compile_valid_total (whose proof gets the minimiser's totality, the content of C03_total,
    from [wf_trim_pool] in Proofs/C02Total.v and [minimize_total] in Proofs/MinimizeTotal.v)).

    [Driver.compile] is the Gallina counterpart of main.rs::aot up to the minimised automaton:
    text -> parse -> check -> regex -> (every within-word automaton compiled, minimised, checked and
    interned) -> subset construction -> minimise -> ambiguity check.  For EVERY input text, shell and
    work-list order it returns a result or an error value: it never reaches a panic site (no
    [unwrap], index or [unreachable!] of the modelled code can fail) and no fuel-bounded loop runs out
    of fuel, provided the one fuel that is a parameter (subset construction, exponential bound)
    covers the regexes of the text. *)
From CG Require Import Base.Prelude Model.Ast Model.Parser Model.Check Model.Regex Model.Driver.
From CG Require Import Proofs.DriverCorrect Proofs.PipelineTotal.
From CGgen Require Import Consts.

Theorem C06_pipeline_total :
  forall pick fuel builtins text sh,
    fuel_covers fuel builtins text sh ->
    (exists vc, compile pick fuel builtins text sh = Ok vc) \/
    (exists e, compile pick fuel builtins text sh = Err e).
Proof. exact compile_total. Qed.
Check C06_pipeline_total :
  forall pick fuel builtins text sh,
    fuel_covers fuel builtins text sh ->
    (exists vc, compile pick fuel builtins text sh = Ok vc) \/
    (exists e, compile pick fuel builtins text sh = Err e).
Print Assumptions C06_pipeline_total.

Theorem C06_pipeline_error_kinds :
  forall pick fuel builtins text sh e,
    fuel_covers fuel builtins text sh ->
    compile pick fuel builtins text sh = Err e ->
    (exists sp, e = DParse sp) \/ (exists ce, e = DCheck ce) \/
    (exists a b, e = DRegex (UnboundedMatchable a b)) \/ (exists ae, e = DAmb ae).
Proof. exact compile_error_kinds. Qed.
Check C06_pipeline_error_kinds :
  forall pick fuel builtins text sh e,
    fuel_covers fuel builtins text sh ->
    compile pick fuel builtins text sh = Err e ->
    (exists sp, e = DParse sp) \/ (exists ce, e = DCheck ce) \/
    (exists a b, e = DRegex (UnboundedMatchable a b)) \/ (exists ae, e = DAmb ae).
Print Assumptions C06_pipeline_error_kinds.

(** Non-vacuity: the pipeline compiles a text with a definition, a sub-word, an option, a repetition,
    a fallback and a command, and rejects a cyclic one with a checker error. *)
Example ex_C06b_inhabited :
  is_ok (compile Subset.pick_first 4096 builtins
           "cmd (a ""d"" | --o=(x|y) <F>) [b]...; <F> ::= c || {{{ echo hi }}};" Bash) = true
  /\ (exists e, compile Subset.pick_first 4096 builtins "cmd <A>; <A> ::= <A>;" Zsh = Err (DCheck e)).
Proof. split; [vm_compute; reflexivity|]. eexists. vm_compute. reflexivity. Qed.
Print Assumptions ex_C06b_inhabited.
