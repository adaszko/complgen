(** C15 end to end -- warnings are complete, precise and harmless, from the SOURCE TEXT.
    Proofs: Proofs/PipelineWarnings.v; the first theorem is assembled here from it,
    [compile_Ok] (DriverFacts.v) and [parse_spans_sound] (SpanSound.v).

    For EVERY text that [Driver.compile] accepts: the messages main.rs prints as warnings
    ([Diag.warning_messages], the three loops of [aot]) are the rendering of the three sets of
    Spec/Warnings.v computed on the parsed grammar: [renders label names located msgs] says there
    is exactly one message with that label per name of the set (the names of [located] are the
    set, each once; the spans of the messages are the spans of [located], in the sorted order),
    and every located name sits at a span where that name occurs in the source -- which
    [stmt_ok text] (C13b) places in the text.  And the automata do not depend on what the "unused"
    warnings are about. *)
From CG Require Import Base.Prelude Model.Ast Model.Lexer Model.Parser Model.Check Model.Regex.
From CG Require Import Model.Dfa Model.Driver Model.Diag Spec.Printer Spec.Spans Spec.Choice Spec.Mistakes Spec.Warnings.
From CG Require Import Proofs.CheckProvenance Proofs.CheckOrder Proofs.SpanSound Proofs.DiagPipeline.
From CG Require Import Proofs.PipelineLayout Proofs.PipelineWarnings Proofs.DriverFacts.
From CGgen Require Import Consts.
Local Open Scope list_scope.

Theorem C15b_warning_messages :
  forall pick fuel builtins text sh v c,
    compile pick fuel builtins text sh = Ok (v, c) ->
    exists g mu mn ms,
      parse text = Ok g /\ Forall (stmt_ok text) g
      /\ warning_messages v = mu ++ mn ++ ms
      /\ renders "Undefined" (undefined_reported builtins g sh) (reported_undefined v) mu
      /\ renders "Unused" (unused_plain g) (v_unused v) mn
      /\ renders "Unused specialization" (unused_for_shell g sh) (v_unused_specs v) ms
      /\ (forall n sp, In (n, sp) (reported_undefined v) -> In (n, sp) (grammar_refs g))
      /\ (forall n sp, In (n, sp) (v_unused v) -> exists rhs, In (NontermDef n sp None rhs) g)
      /\ (forall n sp, In (n, sp) (v_unused_specs v) ->
                       exists shn shsp rhs, In (NontermDef n sp (Some (shn, shsp)) rhs) g /\ is_shell shn sh = true).
Proof.
  intros pick fuel builtins text sh v c H.
  apply compile_Ok in H. destruct H as (g & P & Hv & _).
  destruct (warning_messages_spec builtins g sh v Hv) as (mu & mn & ms & A).
  exists g, mu, mn, ms. split; [exact P|]. split; [|exact A].
  rewrite parse_repaired in P. apply parse_spans_sound; auto.
Qed.
Check C15b_warning_messages :
  forall pick fuel builtins text sh v c,
    compile pick fuel builtins text sh = Ok (v, c) ->
    exists g mu mn ms,
      parse text = Ok g /\ Forall (stmt_ok text) g
      /\ warning_messages v = mu ++ mn ++ ms
      /\ renders "Undefined" (undefined_reported builtins g sh) (reported_undefined v) mu
      /\ renders "Unused" (unused_plain g) (v_unused v) mn
      /\ renders "Unused specialization" (unused_for_shell g sh) (v_unused_specs v) ms
      /\ (forall n sp, In (n, sp) (reported_undefined v) -> In (n, sp) (grammar_refs g))
      /\ (forall n sp, In (n, sp) (v_unused v) -> exists rhs, In (NontermDef n sp None rhs) g)
      /\ (forall n sp, In (n, sp) (v_unused_specs v) ->
                       exists shn shsp rhs, In (NontermDef n sp (Some (shn, shsp)) rhs) g /\ is_shell shn sh = true).
Print Assumptions C15b_warning_messages.

(** Harmless: deleting from the parsed grammar every definition no statement refers to leaves the
    command, the validated expression and the automata unchanged ... *)
Theorem C15b_unused_removed_same_automata :
  forall pick fuel builtins text g sh v c,
    parse text = Ok g -> compile pick fuel builtins text sh = Ok (v, c) ->
    exists v', after_parse pick fuel builtins (remove_unused g) sh = Ok (v', c)
               /\ v_command v' = v_command v /\ v_expr v' = v_expr v.
Proof. intros. eapply unused_removed_same_cdfa; eauto. Qed.
Check C15b_unused_removed_same_automata :
  forall pick fuel builtins text g sh v c,
    parse text = Ok g -> compile pick fuel builtins text sh = Ok (v, c) ->
    exists v', after_parse pick fuel builtins (remove_unused g) sh = Ok (v', c)
               /\ v_command v' = v_command v /\ v_expr v' = v_expr v.
Print Assumptions C15b_unused_removed_same_automata.

(** ... and, text to text, for a printable grammar and any two layouts. *)
Theorem C15b_unused_removed_text :
  forall pick fuel builtins g l l' sh v c,
    wf g -> compile pick fuel builtins (text g l) sh = Ok (v, c) ->
    exists v', compile pick fuel builtins (text (remove_unused g) l') sh = Ok (v', c)
               /\ v_command v' = v_command v.
Proof. intros. eapply unused_removed_same_cdfa_text; eauto. Qed.
Check C15b_unused_removed_text :
  forall pick fuel builtins g l l' sh v c,
    wf g -> compile pick fuel builtins (text g l) sh = Ok (v, c) ->
    exists v', compile pick fuel builtins (text (remove_unused g) l') sh = Ok (v', c)
               /\ v_command v' = v_command v.
Print Assumptions C15b_unused_removed_text.

(** Non-vacuity: a text with an undefined name (used only through a definition), [<_>], an unused
    plain definition and an unused definition for the target shell: three warnings, in this
    order, at 2:13, 3:1 and 4:1; without the unused definitions the automata are the same. *)
Definition ex_text : string :=
"cmd <A> <_>;
<A> ::= x | <FOO>;
<U> ::= <A>;
<S@bash> ::= {{{ echo s }}};
<S@fish> ::= {{{ echo t }}};
".
Example ex_C15b_inhabited :
  match compile Subset.pick_first 4096 builtins ex_text Bash with
  | Ok (v, c) =>
      map (fun m => (m_label m, sline (m_span m), scol (m_span m))) (warning_messages v)
      = [("Undefined", 2, 13); ("Unused", 3, 1); ("Unused specialization", 4, 1)]
      /\ match parse ex_text with
         | Ok g => List.length (remove_unused g) = 2%nat
                   /\ match after_parse Subset.pick_first 4096 builtins (remove_unused g) Bash with
                      | Ok (_, c') => c' = c
                      | _ => False
                      end
         | _ => False
         end
  | _ => False
  end.
Proof. vm_compute. repeat split; reflexivity. Qed.
Print Assumptions ex_C15b_inhabited.
