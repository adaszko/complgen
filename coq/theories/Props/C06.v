(** C06 -- the compiler never crashes or hangs (checker part).
    The theorems restate lemmas of Proofs/CheckTotal.v; [C06_from_grammar_alts_nonempty] is one
    conjunct of [CheckTree.check_tree].

    The model of [ValidGrammar::from_grammar] returns [Ok] or [Err] on every grammar and every
    shell: it never reaches its only panic site (a [DistributiveDescription] met by
    [check_subword_spaces]) and none of its fuel-bounded loops runs out of fuel -- in
    particular the walk of [check_subword_spaces], which follows nonterminal references itself
    (unbounded recursion in the real code), is guarded by the success of the cycle search. *)
From CG Require Import Base.Prelude Model.Ast Model.Check.
From CG Require Import Proofs.TreeFacts Proofs.CheckTree.
From CG Require Import Proofs.CheckLemmas Proofs.CheckTotal.
From CGgen Require Import Consts.

Theorem C06_checker_total :
  forall builtins g sh,
    (exists v, from_grammar builtins g sh = Ok v) \/ (exists e, from_grammar builtins g sh = Err e).
Proof. exact from_grammar_total. Qed.
Check C06_checker_total :
  forall builtins g sh,
    (exists v, from_grammar builtins g sh = Ok v) \/ (exists e, from_grammar builtins g sh = Err e).
Print Assumptions C06_checker_total.

(** (a) the cycle search, with the fuel [S (length defs)], on any list of definitions *)
Theorem C06_cycle_search_total :
  forall defs,
    (exists ord, resolution_order defs = Ok ord) \/ (exists e, resolution_order defs = Err e).
Proof. exact resolution_order_total. Qed.
Check C06_cycle_search_total :
  forall defs,
    (exists ord, resolution_order defs = Ok ord) \/ (exists e, resolution_order defs = Err e).
Print Assumptions C06_cycle_search_total.

(** (b) once the cycle search succeeded, no entry of the resolved table refers to a
    definition ... *)
Theorem C06_resolved_table_closed :
  forall defs2 ord,
    table_dd_free (table0_of defs2) ->
    resolution_order defs2 = Ok ord ->
    let table := resolve_in_order ord (table0_of defs2) in
    forall n rhs, assoc n table = Some rhs -> closed (map fst table) rhs.
Proof. exact resolved_table_closed. Qed.
Check C06_resolved_table_closed :
  forall defs2 ord,
    table_dd_free (table0_of defs2) ->
    resolution_order defs2 = Ok ord ->
    let table := resolve_in_order ord (table0_of defs2) in
    forall n rhs, assoc n table = Some rhs -> closed (map fst table) rhs.
Print Assumptions C06_resolved_table_closed.

(** ... so the walk of [check_subword_spaces] terminates within the fuel it is given. *)
Theorem C06_subword_walk_total :
  forall defs2 ord e,
    table_dd_free (table0_of defs2) -> dd_free e ->
    resolution_order defs2 = Ok ord ->
    let table := resolve_in_order ord (table0_of defs2) in
    spaces table (spaces_fuel table e) e [] false false = Ok tt \/
    exists err, spaces table (spaces_fuel table e) e [] false false = Err err.
Proof. exact spaces_after_search_total. Qed.
Check C06_subword_walk_total :
  forall defs2 ord e,
    table_dd_free (table0_of defs2) -> dd_free e ->
    resolution_order defs2 = Ok ord ->
    let table := resolve_in_order ord (table0_of defs2) in
    spaces table (spaces_fuel table e) e [] false false = Ok tt \/
    exists err, spaces table (spaces_fuel table e) e [] false false = Err err.
Print Assumptions C06_subword_walk_total.

(** The shape the later stages need (hypothesis of [C02_total] / [C03_wf_from_regex]): when no
    [|] and no [||] of the source grammar is empty, none is empty in the validated expression --
    every pass only rebuilds nodes with [map], and the root alternative over the call variants
    has at least two operands.  ([alts_nonempty], [grammar_alts_nonempty]: Proofs/TreeFacts.v.) *)
Theorem C06_from_grammar_alts_nonempty :
  forall builtins g sh v,
    grammar_alts_nonempty g = true -> from_grammar builtins g sh = Ok v ->
    alts_nonempty (v_expr v) = true.
Proof. intros builtins g sh v Hg Hv. apply (check_tree builtins g sh v Hv). exact Hg. Qed.
Check C06_from_grammar_alts_nonempty :
  forall builtins g sh v,
    grammar_alts_nonempty g = true -> from_grammar builtins g sh = Ok v ->
    alts_nonempty (v_expr v) = true.
Print Assumptions C06_from_grammar_alts_nonempty.

(** Non-vacuity: a chain of definitions as deep as there are definitions is accepted; a cycle
    that no root reaches is an error; a [DistributiveDescription] reaching the walk would be a
    panic (so the guard is needed), but [from_grammar] removes it first. *)
Definition ex_sp := mkspan 1 1 2.
Definition ex_chain : grammar :=
  [ CallVariant "cmd" ex_sp (Subword (Sequence [Terminal "a" None 0 ex_sp; NontermRef "A" 0 ex_sp] ex_sp) 0 ex_sp);
    NontermDef "C" ex_sp None (DistDescr (Terminal "c" None 0 ex_sp) "d" ex_sp);
    NontermDef "B" ex_sp None (Optional (NontermRef "C" 0 ex_sp) ex_sp);
    NontermDef "A" ex_sp None (Alternative [NontermRef "B" 0 ex_sp; NontermRef "C" 0 ex_sp] ex_sp) ].
Definition ex_cycle : grammar :=
  [ CallVariant "cmd" ex_sp (Terminal "a" None 0 ex_sp);
    NontermDef "A" ex_sp None (NontermRef "B" 0 ex_sp);
    NontermDef "B" ex_sp None (NontermRef "A" 0 ex_sp) ].
Example ex_C06_inhabited :
  is_ok (from_grammar builtins ex_chain Bash) = true
  /\ (exists spans, from_grammar builtins ex_cycle Zsh = Err (NonterminalDefinitionsCycle spans))
  /\ (exists s, spaces [] 5 (DistDescr (Terminal "c" None 0 ex_sp) "d" ex_sp) [] false false = Panic s)
  /\ spaces [("A", NontermRef "A" 0 ex_sp)] 5 (NontermRef "A" 0 ex_sp) [] false false = OutOfFuel.
Proof. vm_compute. repeat split; try reflexivity; eexists; reflexivity. Qed.
Print Assumptions ex_C06_inhabited.
