(** C04 / C06, capstone -- the whole of [complgen --bash] as one Gallina function
    ([Model/Compiler.v]: [compile_bash] = [Driver.compile] ; [Tables.all_tables Bash] ;
    [EmitBash.script], with the hash-order dependent choices as validated oracles).
    Statements only; proofs in Proofs/CompilerTotal.v and the files it composes.

    The function is tied to the implementation end to end by lib/vf/checks/e2e.py (called from
    c04.py): run on the SOURCE TEXT with the oracles read off Rust's dumps, it returns byte for byte
    the script the real [complgen --bash] binary writes, and rejects exactly the grammars the
    binary rejects, at the same stage with the same error variant. *)
From CG Require Import Base.Prelude Model.Ast Model.Check Model.Dfa Model.Driver Model.Tables Model.EmitBash
  Model.Compiler Spec.Lang Spec.ScriptRead.
From CG Require Import Proofs.PipelineTotal Proofs.BashScript Proofs.BashCodec.
From CG Require Proofs.CompilerTotal Proofs.CompiledFacts Proofs.TreeFacts Proofs.CheckTree Props.C05b Props.C04.
From CGgen Require Import Consts.

(** Totality.  For EVERY oracle value, input text and table of built-ins, [compile_bash] returns a
    script, or a rejection of the grammar ([CDriver]: parse / check / regex / ambiguity error), or
    [CBadOracle] (a literal order or the shape grouping fails its validation) -- it never reaches
    a panic site of the modelled code (no [unwrap], index, intern-pool lookup or fallback-level
    index of parse.rs, check.rs, regex.rs, dfa.rs, tables.rs, bash.rs can fail) and no
    fuel-bounded loop runs out of fuel, provided the one fuel that is a parameter (subset
    construction) covers the regexes of the text. *)
Theorem compile_bash_total :
  forall o builtins text,
    fuel_covers (o_fuel o) builtins text Bash ->
    (exists s, compile_bash o builtins text = Ok s) \/ (exists e, compile_bash o builtins text = Err e).
Proof. exact CompilerTotal.compile_bash_total. Qed.
Check compile_bash_total :
  forall o builtins text,
    fuel_covers (o_fuel o) builtins text Bash ->
    (exists s, compile_bash o builtins text = Ok s) \/ (exists e, compile_bash o builtins text = Err e).
Print Assumptions compile_bash_total.

(** A grammar is rejected by [compile_bash] exactly when the pipeline rejects it, with the same
    error; the oracles for the tables and the emitter play no part in that. *)
Theorem compile_bash_rejects :
  forall o builtins text e,
    compile_bash o builtins text = Err (CDriver e) <->
    compile (pick_table (o_pops o)) (o_fuel o) builtins text Bash = Err e.
Proof.
  intros o builtins text e. unfold compile_bash.
  destruct (compile (pick_table (o_pops o)) (o_fuel o) builtins text Bash) as [[v c]|e'| |]; split; intro H;
    try discriminate; try (inversion H; reflexivity).
  unfold emit_bash in H. destruct (orders_ok _ _ _); [|discriminate].
  destruct (all_tables _ _ _ _) as [[nd a]| | |]; try discriminate.
  destruct (valid_grouping _ _); [|discriminate]. destruct (script _ _ _ _ _ _); discriminate.
Qed.
Check compile_bash_rejects :
  forall o builtins text e,
    compile_bash o builtins text = Err (CDriver e) <->
    compile (pick_table (o_pops o)) (o_fuel o) builtins text Bash = Err e.
Print Assumptions compile_bash_rejects.

(** A script returned by [compile_bash] is the script [EmitBash.script_of_dfa] prints for the
    automaton [Driver.compile] returns, with valid literal orders and a valid shape grouping. *)
Theorem compile_bash_is_script :
  forall o builtins text s,
    compile_bash o builtins text = Ok s ->
    exists v c,
      compile (pick_table (o_pops o)) (o_fuel o) builtins text Bash = Ok (v, c)
      /\ script_of_dfa (v_command v) (o_sig o) c (o_main_lits o) (o_sub_lits o) (o_groups o) = Ok (s, true).
Proof.
  intros o builtins text s. unfold compile_bash.
  destruct (compile (pick_table (o_pops o)) (o_fuel o) builtins text Bash) as [[v c]|e'| |]; try discriminate.
  intro H. exists v, c. split; [reflexivity|]. unfold emit_bash in H. unfold script_of_dfa.
  destruct (orders_ok c (o_main_lits o) (o_sub_lits o)) eqn:Ho; [|discriminate].
  destruct (all_tables Bash c (o_main_lits o) (o_sub_lits o)) as [[nd a]| | |]; try discriminate. cbn [obind fst snd].
  destruct (valid_grouping a (o_groups o)) eqn:Vg; [|discriminate].
  destruct (script (v_command v) (o_sig o) (d_start (c_main c)) nd a (o_groups o)) as [s'| | |]; try discriminate.
  inversion H; subst s'. cbn [obind]. unfold orders_ok in Ho. apply andb_prop in Ho. destruct Ho as [-> _]. reflexivity.
Qed.
Check compile_bash_is_script :
  forall o builtins text s,
    compile_bash o builtins text = Ok s ->
    exists v c,
      compile (pick_table (o_pops o)) (o_fuel o) builtins text Bash = Ok (v, c)
      /\ script_of_dfa (v_command v) (o_sig o) c (o_main_lits o) (o_sub_lits o) (o_groups o) = Ok (s, true).
Print Assumptions compile_bash_is_script.

(** What the script embeds (composition of C02's pipeline correctness with C04's codec round
    trip): the script [compile_bash] returns reads back, with the specification-side reader
    [ScriptRead.read_stmts], to exactly the statements [script_stmts] of the tables of an
    automaton [c] that accepts exactly the item sequences the validated grammar denotes.
    Hypotheses of the reader's theorem (C04_embed_bash): the command name is made of name
    characters, the signature has no newline, no line of a command body is a lone "}". *)
Theorem compile_bash_embeds :
  forall o builtins text s,
    compile_bash o builtins text = Ok s ->
    exists v c nd a,
      compile (pick_table (o_pops o)) (o_fuel o) builtins text Bash = Ok (v, c)
      /\ (forall w, accepts_items c w <-> denotes (v_expr v) w)
      /\ all_tables Bash c (o_main_lits o) (o_sub_lits o) = Ok (nd, a)
      /\ (name_ok (v_command v) -> no_nl (o_sig o) = true ->
          Forall (fun cm : string => body_ok (cmd_body cm)) (a_commands a) ->
          exists sts, script_stmts (v_command v) (d_start (c_main c)) nd a (o_groups o) = Ok sts
                      /\ read_stmts Bash (v_command v) s = sts).
Proof.
  intros o builtins text s H. unfold compile_bash in H.
  destruct (compile (pick_table (o_pops o)) (o_fuel o) builtins text Bash) as [[v c]|e'| |] eqn:Hc; try discriminate.
  unfold emit_bash in H.
  destruct (orders_ok c (o_main_lits o) (o_sub_lits o)); [|discriminate].
  destruct (all_tables Bash c (o_main_lits o) (o_sub_lits o)) as [[nd a]| | |] eqn:Ha; try discriminate.
  destruct (valid_grouping a (o_groups o)); [|discriminate].
  destruct (script (v_command v) (o_sig o) (d_start (c_main c)) nd a (o_groups o)) as [s'| | |] eqn:Hs; try discriminate.
  inversion H; subst s'. exists v, c, nd, a. split; [reflexivity|]. split; [|split; [exact Ha|]].
  - destruct (CompilerTotal.compile_stages _ _ _ _ _ _ _ Hc) as [Halts Hcv].
    exact (proj1 (CompiledFacts.compiled_facts _ _ v c Halts Hcv)).
  - intros Hn Hsig Hb. exact (Props.C04.C04_embed_bash _ _ _ _ _ _ _ Hn Hsig Hb Hs).
Qed.
Check compile_bash_embeds :
  forall o builtins text s,
    compile_bash o builtins text = Ok s ->
    exists v c nd a,
      compile (pick_table (o_pops o)) (o_fuel o) builtins text Bash = Ok (v, c)
      /\ (forall w, accepts_items c w <-> denotes (v_expr v) w)
      /\ all_tables Bash c (o_main_lits o) (o_sub_lits o) = Ok (nd, a)
      /\ (name_ok (v_command v) -> no_nl (o_sig o) = true ->
          Forall (fun cm : string => body_ok (cmd_body cm)) (a_commands a) ->
          exists sts, script_stmts (v_command v) (d_start (c_main c)) nd a (o_groups o) = Ok sts
                      /\ read_stmts Bash (v_command v) s = sts).
Print Assumptions compile_bash_embeds.

(** The other three shells, as far as the emitter models go ([Model/EmitData.v]: the data sections of
    the fish, zsh and pwsh scripts): [compile_data sh] = [Driver.compile .. sh] ; [all_tables sh] ;
    the data blocks.  The same totality, for every shell and every oracle value.  Tied on the data
    sections byte for byte by lib/vf/checks/e2e.py [tie_data]. *)
Theorem compile_data_total :
  forall sh o builtins text,
    fuel_covers (o_fuel o) builtins text sh ->
    (exists bs, compile_data sh o builtins text = Ok bs) \/ (exists e, compile_data sh o builtins text = Err e).
Proof. exact CompilerTotal.compile_data_total. Qed.
Check compile_data_total :
  forall sh o builtins text,
    fuel_covers (o_fuel o) builtins text sh ->
    (exists bs, compile_data sh o builtins text = Ok bs) \/ (exists e, compile_data sh o builtins text = Err e).
Print Assumptions compile_data_total.

(** Non-vacuity: with the first pop order and the literal orders / grouping below, [compile_bash]
    returns a script for a grammar with a within-word automaton, says [CBadOracle] when the literal
    order of that automaton is missing, and rejects a cyclic grammar with the checker's error. *)
Definition ex_o_good : oracles :=
  mkoracles [] 4096 [("c", "")] [(0, [("--o=", ""); ("y", ""); ("x", "")])] [[0]] "sig".
Definition ex_o_good1 : oracles :=
  mkoracles [] 4096 [("c", "")] [(0, [("--o=", ""); ("y", ""); ("x", "")])] [[1]] "sig".
Definition ex_o_bad : oracles := mkoracles [] 4096 [("c", "")] [] [[0]] "sig".
Example ex_C04c_inhabited :
  is_ok (compile_bash ex_o_good builtins "cmd --o=(x|y) c;") = true
  /\ compile_bash ex_o_bad builtins "cmd --o=(x|y) c;" = Err CBadOracle
  /\ (exists e, compile_bash ex_o_good builtins "cmd <A>; <A> ::= <A>;" = Err (CDriver (DCheck e)))
  /\ is_ok (compile_data Zsh ex_o_good1 builtins "cmd --o=(x|y) c;") = true
  /\ is_ok (compile_data Fish ex_o_good1 builtins "cmd --o=(x|y) c;") = true
  /\ is_ok (compile_data Pwsh ex_o_good builtins "cmd --o=(x|y) c;") = true.
Proof.
  split; [vm_compute; reflexivity|]. split; [vm_compute; reflexivity|].
  split; [eexists; vm_compute; reflexivity|]. repeat split; vm_compute; reflexivity.
Qed.
Print Assumptions ex_C04c_inhabited.
