(** C09 -- a typed word never has two readings; [||] is transparent to matching.

    Proved:
    - [C09_dec_correct_partial]: the decision procedure [Ambig.find] that the check runs on
      Rust's minimised automaton is sound -- when it finds nothing, no state has two outgoing
      items that read a common word and differ in target ([Ambig.unambiguous]);
      [C09_dec_witness]: a word it exhibits is genuinely read by both items;
      [C09_dec_complete]: on a transition table without duplicate keys, [find] answers [None] on
      every unambiguous automaton unless a product search ran out of fuel ([gave_up]);
      [C09_dec_correct]: hence [find c = None <-> unambiguous c] whenever no search gave up.
    - [C09_unambiguous]: outside the known mechanisms (= [Ambig.find] finds nothing) the
      automaton is unambiguous.
    - [C09_fallback_transparent_spec]: at the level of the specification [Spec.Meaning] and of the
      model of the level-assignment pass ([Check.propagate]), replacing every [||] by [|] changes
      neither which command lines are matched nor (up to levels and descriptions) which items may
      follow them.
    - [C09_fallback_transparent_check]: the same for the whole model of check.rs on *source*
      grammars: if [Check.from_grammar] accepts a grammar and its [|] variant, the two validated
      trees are matched by the same command lines (every tree-rewriting pass -- descriptions,
      specialisation, resolution of definitions in the computed order, collapsing of within-word
      expressions, level assignment -- commutes with forgetting levels, descriptions and the
      [||]/[|] distinction).
    - [C09_candidates_monotone_partial]: a candidate that no candidate of a lower level undercuts
      is offered ([lowest] never drops a candidate for another reason than an earlier level
      having one).

    - [C09_two_readings_covers_ambiguous_run]: the classifier of command lines that the check
      uses contains the lines on which C01 withholds its judgement.

    Only stated here ([..._statement]), over an abstract compilation function: the same two
    consequences for the *compiled* automaton.  They are theorems elsewhere: Props/C09b.v
    ([C09_fallback_transparent_compiled], for [Driver.compile_valid]) and Props/C09c.v
    ([C09_candidates_monotone_spec], [C09_candidates_monotone_script], for the specification and
    the emitted bash script).  lib/vf/checks/c09.py also compares, on every run, the script of
    the [||] grammar with that of its [|] variant in real bash.

    Proofs: Proofs/AmbigFacts.v and AmbigComplete.v (the decision procedure), MeaningLevels.v and
    MeaningFacts.v (specification), CheckBar.v (check.rs), TwoReadingsFacts.v; the two refutations
    are proved here. *)
From CG Require Import Base.Prelude Model.Ast Model.Check Model.Dfa Spec.Rx Spec.Meaning Spec.TokAut Spec.Ambig
     Proofs.MeaningFacts Proofs.MeaningLevels Proofs.CheckBar Proofs.AmbigFacts Proofs.AmbigComplete.
From CG Require Spec.TwoReadings Proofs.TwoReadingsFacts.

Definition known_C09 (c : cdfa) : bool :=
  match Ambig.find c with Some _ => true | None => false end.

(** [Ambig.find d = None <-> unambiguous d] without side conditions: not provable as it stands
    (the product search has a fuel bound); see [C09_dec_correct] for the conditional form. *)
Definition C09_dec_correct_statement : Prop :=
  forall c, Ambig.find c = None <-> unambiguous c.

Theorem C09_dec_complete :
  forall c, wf_trans (c_main c) -> unambiguous c -> Ambig.find c = None \/ gave_up c.
Proof. exact find_complete. Qed.
Check C09_dec_complete :
  forall c, wf_trans (c_main c) -> unambiguous c -> Ambig.find c = None \/ gave_up c.
Print Assumptions C09_dec_complete.

Theorem C09_dec_correct :
  forall c, wf_trans (c_main c) -> ~ gave_up c -> (Ambig.find c = None <-> unambiguous c).
Proof. exact find_correct. Qed.
Check C09_dec_correct :
  forall c, wf_trans (c_main c) -> ~ gave_up c -> (Ambig.find c = None <-> unambiguous c).
Print Assumptions C09_dec_correct.

Theorem C09_dec_correct_partial : forall c, Ambig.find c = None -> unambiguous c.
Proof. exact find_none_unambiguous. Qed.
Check C09_dec_correct_partial : forall c, Ambig.find c = None -> unambiguous c.
Print Assumptions C09_dec_correct_partial.

Theorem C09_dec_witness :
  forall c s i j w,
    Ambig.find c = Some (mkwit s i j (Some w)) ->
    exists tos t u ii ij,
      In (s, tos) (d_trans (c_main c)) /\ In (i, t) tos /\ In (j, u) tos /\ t <> u
      /\ nthN (d_inputs (c_main c)) i = Some ii /\ nthN (d_inputs (c_main c)) j = Some ij
      /\ matches_item c ii w /\ matches_item c ij w.
Proof. exact find_some_genuine. Qed.
Check C09_dec_witness :
  forall c s i j w,
    Ambig.find c = Some (mkwit s i j (Some w)) ->
    exists tos t u ii ij,
      In (s, tos) (d_trans (c_main c)) /\ In (i, t) tos /\ In (j, u) tos /\ t <> u
      /\ nthN (d_inputs (c_main c)) i = Some ii /\ nthN (d_inputs (c_main c)) j = Some ij
      /\ matches_item c ii w /\ matches_item c ij w.
Print Assumptions C09_dec_witness.

Theorem C09_unambiguous : forall c, known_C09 c = false -> unambiguous c.
Proof.
  intros c H. apply find_none_unambiguous. unfold known_C09 in H.
  destruct (Ambig.find c); [discriminate | reflexivity].
Qed.
Check C09_unambiguous : forall c, known_C09 c = false -> unambiguous c.
Print Assumptions C09_unambiguous.

Theorem C09_fallback_transparent_spec :
  forall en e ws,
    matched en (propagate (bar_of_barbar e) 0) ws = matched en (propagate e 0) ws
    /\ forall a0,
        (exists a, In a (map fst (moves (run en (start (propagate (bar_of_barbar e) 0)) ws))) /\ erase_l a = a0)
        <-> (exists a, In a (map fst (moves (run en (start (propagate e 0)) ws))) /\ erase_l a = a0).
Proof.
  intros en e ws. split; [apply matched_bar_of_barbar | intro a0; apply expected_bar_of_barbar].
Qed.
Check C09_fallback_transparent_spec :
  forall en e ws,
    matched en (propagate (bar_of_barbar e) 0) ws = matched en (propagate e 0) ws
    /\ forall a0,
        (exists a, In a (map fst (moves (run en (start (propagate (bar_of_barbar e) 0)) ws))) /\ erase_l a = a0)
        <-> (exists a, In a (map fst (moves (run en (start (propagate e 0)) ws))) /\ erase_l a = a0).
Print Assumptions C09_fallback_transparent_spec.

Theorem C09_fallback_transparent_check :
  forall builtins g sh v v' en ws,
    from_grammar builtins g sh = Ok v ->
    from_grammar builtins (bar_grammar g) sh = Ok v' ->
    matched en (v_expr v') ws = matched en (v_expr v) ws.
Proof. exact from_grammar_bar_matched. Qed.
Check C09_fallback_transparent_check :
  forall builtins g sh v v' en ws,
    from_grammar builtins g sh = Ok v ->
    from_grammar builtins (bar_grammar g) sh = Ok v' ->
    matched en (v_expr v') ws = matched en (v_expr v) ws.
Print Assumptions C09_fallback_transparent_check.

Theorem C09_candidates_monotone_partial :
  forall cs l c, In (l, c) cs -> (forall l' c', In (l', c') cs -> l <= l') -> In c (lowest cs).
Proof. exact lowest_offers. Qed.
Check C09_candidates_monotone_partial :
  forall cs l c, In (l, c) cs -> (forall l' c', In (l', c') cs -> l <= l') -> In c (lowest cs).
Print Assumptions C09_candidates_monotone_partial.

(** The statements about the compiled automaton, over an abstract compilation function
    [compile : validated tree -> automaton] and an abstract run of the automaton on words
    ([None] = not matched, [Some items] = the items expected next).  Not proved in this form;
    Props/C09b.v and C09c.v prove them for the real pipeline. *)
Definition C09_fallback_transparent_statement
           (compile : expr -> option cdfa)
           (walk : cdfa -> env -> list string -> option (list inp)) : Prop :=
  forall en e d d' ws,
    compile (propagate e 0) = Some d -> compile (propagate (bar_of_barbar e) 0) = Some d' ->
    known_C09 d = false -> known_C09 d' = false ->
    (walk d en ws = None <-> walk d' en ws = None).

Definition C09_candidates_monotone_statement
           (offered : expr -> env -> list string -> string -> list string)
           (earlier_level_has_candidate : expr -> env -> list string -> string -> string -> Prop) : Prop :=
  forall en e ws p c,
    In c (offered (propagate (bar_of_barbar e) 0) en ws p) ->
    ~ earlier_level_has_candidate (propagate e 0) en ws p c ->
    In c (offered (propagate e 0) en ws p).

(** Non-vacuity: the two mechanisms of the property text on hand-built automata, and an
    unambiguous one.  [ex_two_levels] is the automaton of [cmd (a x || a y);]. *)
Definition ex_two_levels : cdfa :=
  mkcdfa (mkdfa 0 [(0, [(0, 1); (2, 2)]); (1, [(1, 3)]); (2, [(3, 3)])] [3]
                [ILit "a" None 0; ILit "x" None 0; ILit "a" None 1; ILit "y" None 1]) [].

Definition ex_sub (v1 v2 : string) : dfa :=
  mkdfa 0 [(0, [(0, 1)]); (1, [(1, 2); (2, 2)])] [2]
        [ILit "--o=" None 0; ILit v1 None 0; ILit v2 None 0].

Definition ex_permuted : cdfa :=
  mkcdfa (mkdfa 0 [(0, [(0, 1); (1, 2)]); (1, [(2, 3)]); (2, [(3, 3)])] [3]
                [ISub 0 0; ISub 1 0; ILit "x" None 0; ILit "y" None 0])
         [ex_sub "a" "b"; ex_sub "b" "a"].

Definition ex_clean : cdfa :=
  mkcdfa (mkdfa 0 [(0, [(0, 1); (1, 2)]); (1, [(2, 3)]); (2, [(3, 3)])] [3]
                [ISub 0 0; ISub 1 0; ILit "x" None 0; ILit "y" None 0])
         [ex_sub "a" "b"; ex_sub "c" "d"].

(** The two mechanisms of the property text refute [unambiguous] on the hand-built automata above
    (the check looks for the same two on Rust's own automata on every run and lists what it finds
    as known findings). *)
Theorem C09_refuted_two_levels : ~ unambiguous ex_two_levels.
Proof.
  intro U.
  assert (E : 1 = 2).
  { apply (U 0 0 2 (ILit "a" None 0) (ILit "a" None 1) "a"%string 1 2); reflexivity. }
  discriminate.
Qed.
Check C09_refuted_two_levels : ~ unambiguous ex_two_levels.
Print Assumptions C09_refuted_two_levels.

Theorem C09_refuted_permuted_subwords : ~ unambiguous ex_permuted.
Proof.
  intro U.
  assert (E : 1 = 2).
  { apply (U 0 0 1 (ISub 0 0) (ISub 1 0) "--o=a"%string 1 2); try reflexivity.
    - exists (ex_sub "a" "b"). split; [reflexivity |]. apply sub_accepts_spec. vm_compute. reflexivity.
    - exists (ex_sub "b" "a"). split; [reflexivity |]. apply sub_accepts_spec. vm_compute. reflexivity. }
  discriminate.
Qed.
Check C09_refuted_permuted_subwords : ~ unambiguous ex_permuted.
Print Assumptions C09_refuted_permuted_subwords.

Example ex_C09_inhabited :
  Ambig.find ex_two_levels = Some (mkwit 0 0 2 (Some "a"))
  /\ Ambig.find ex_permuted = Some (mkwit 0 0 1 (Some "--o=a"))
  /\ known_C09 ex_clean = false.
Proof. vm_compute. repeat split; reflexivity. Qed.
Print Assumptions ex_C09_inhabited.

(** The per-line classifier of lib/vf/checks/c09.py, Part 2 ([Spec.TwoReadings.two_readings]: the
    command line meets a point where a typed word has two readings) contains the lines on which
    C01's judgement is withheld ([Meaning.ambiguous_run]). *)
Theorem C09_two_readings_covers_ambiguous_run :
  forall en ws s, Meaning.ambiguous_run en s ws = true ->
                  TwoReadings.two_readings en s ws = true.
Proof. exact TwoReadingsFacts.ambiguous_run_two_readings. Qed.
Check C09_two_readings_covers_ambiguous_run :
  forall en ws s, Meaning.ambiguous_run en s ws = true ->
                  TwoReadings.two_readings en s ws = true.
Print Assumptions C09_two_readings_covers_ambiguous_run.
