(** C16 -- the --dfa and --regex Graphviz dumps are well-formed and show the real automaton.
    Proofs: Proofs/DotDfaMain.v (--dfa), DotRegex.v and DotRegexTotal.v (--regex), DotParse.v and
    DotLex.v (the codec); the witnesses and examples are computed here.

    [read] is the DOT reader of Spec/DotRead.v (the judge: there is no Graphviz here), [view] keeps
    of a graph what the property talks about (node: name, shape, rendered label; edge: end points,
    rendered label, style; cluster: name, rendered label, members), [gview_equiv] is equality up to
    the order of nodes, of edges and of the members of a cluster. *)
From CG Require Import Base.Prelude Model.Dfa Spec.DotRead Spec.DotSpec Model.Dot
     Proofs.DotLex Proofs.DotParse Proofs.DotDfaMain Proofs.DotRegex Proofs.DotRegexTotal.
From CG Require Model.Regex Model.DotOfRegex.

(** The [current] variant (the code after commit 0e66d33), on the automata [minimize] returns -- well formed
    ([wf_cdfa]) and with start state 0 ([starts_at_zero]: what [renumber_states] guarantees), both
    checked on every run on Rust's MIN automaton: the text [DFA::to_dot] writes is valid DOT and
    denotes exactly the prescribed graph.  No exception. *)
Theorem C16_dfa_dot :
  forall base c, wf_cdfa c = true -> starts_at_zero c = true ->
    exists text g, Dot.of_dfa base c = Ok text /\ DotRead.read text = Some g
                   /\ gview_equiv (view g) (DotSpec.graph_of_dfa base c).
Proof. exact dfa_dot_current_min. Qed.
Check C16_dfa_dot :
  forall base c, wf_cdfa c = true -> starts_at_zero c = true ->
    exists text g, Dot.of_dfa base c = Ok text /\ DotRead.read text = Some g
                   /\ gview_equiv (view g) (DotSpec.graph_of_dfa base c).
Print Assumptions C16_dfa_dot.

(** The same for any well-formed automaton of which 0 is a state (the one class left, latent:
    [get_all_states] inserts state 0 whether it is a state or not). *)
Theorem C16_dfa_dot_no_phantom :
  forall base c, wf_cdfa c = true -> known_phantom c = false ->
    exists text g, Dot.of_dfa base c = Ok text /\ DotRead.read text = Some g
                   /\ gview_equiv (view g) (DotSpec.graph_of_dfa base c).
Proof. exact dfa_dot_current. Qed.
Check C16_dfa_dot_no_phantom :
  forall base c, wf_cdfa c = true -> known_phantom c = false ->
    exists text g, Dot.of_dfa base c = Ok text /\ DotRead.read text = Some g
                   /\ gview_equiv (view g) (DotSpec.graph_of_dfa base c).
Print Assumptions C16_dfa_dot_no_phantom.

(** With the remaining optional hunk (regular states computed without the unconditional state 0):
    every well-formed automaton. *)
Theorem C16_dfa_dot_patched :
  forall base c, wf_cdfa c = true ->
    exists text g, Dot.of_dfa_with patched base c = Ok text /\ DotRead.read text = Some g
                   /\ gview_equiv (view g) (DotSpec.graph_of_dfa base c).
Proof. exact dfa_dot_patched. Qed.
Check C16_dfa_dot_patched :
  forall base c, wf_cdfa c = true ->
    exists text g, Dot.of_dfa_with patched base c = Ok text /\ DotRead.read text = Some g
                   /\ gview_equiv (view g) (DotSpec.graph_of_dfa base c).
Print Assumptions C16_dfa_dot_patched.

(** The [old] variant (the code before commit 0e66d33) is right outside its three classes, and there
    it writes the same text as [patched]. *)
Theorem C16_dfa_dot_old :
  forall base c, wf_cdfa c = true -> known_C16_old base c = false ->
    Dot.of_dfa_with old base c = Dot.of_dfa_with patched base c
    /\ exists text g, Dot.of_dfa_with old base c = Ok text /\ DotRead.read text = Some g
                      /\ gview_equiv (view g) (DotSpec.graph_of_dfa base c).
Proof. intros base c Hwf Hk. split; [now apply dfa_dot_old_agree|now apply dfa_dot_old]. Qed.
Check C16_dfa_dot_old :
  forall base c, wf_cdfa c = true -> known_C16_old base c = false ->
    Dot.of_dfa_with old base c = Dot.of_dfa_with patched base c
    /\ exists text g, Dot.of_dfa_with old base c = Ok text /\ DotRead.read text = Some g
                      /\ gview_equiv (view g) (DotSpec.graph_of_dfa base c).
Print Assumptions C16_dfa_dot_old.

(** The codec shared by both files: the text written for any list of well-formed lines is read back
    as exactly the statements the lines stand for. *)
Theorem C16_lines_codec :
  forall name l, id_ok name -> Forall item_ok l ->
    DotRead.read (render_doc name l)
    = Some (graph_of_ast (mkast false true (Some name) (items_stmts l))).
Proof. exact read_render_doc. Qed.
Check C16_lines_codec :
  forall name l, id_ok name -> Forall item_ok l ->
    DotRead.read (render_doc name l)
    = Some (graph_of_ast (mkast false true (Some name) (items_stmts l))).
Print Assumptions C16_lines_codec.

(** The only non-trivial leaf: a label.  What [make_dot_string_constant] writes ([escape_dot]
    between double quotes) is read back by the quoted-string rule of DOT, whatever follows, as the
    text with its backslashes doubled, which the label renderer shows as the text itself. *)
Theorem C16_label_codec :
  forall s rest,
    DotRead.read_quoted (append dq (append (escape_dot s) (append dq rest))) = Some (double_bs s, rest)
    /\ DotRead.render_label (double_bs s) = s.
Proof. exact label_codec. Qed.
Check C16_label_codec :
  forall s rest,
    DotRead.read_quoted (append dq (append (escape_dot s) (append dq rest))) = Some (double_bs s, rest)
    /\ DotRead.render_label (double_bs s) = s.
Print Assumptions C16_label_codec.

(** The --regex file.  The [current] variant, on an arena as Rust builds them -- [rx_total_b]: children have smaller
    indices, every leaf's position holds an input of its kind, every within-word input names a regex
    of the pool, roots exist, within-word regexes contain no within-word node; [rx_wf_b]: every
    position has its leaf reachable from the root through Cat/Or nodes; both checked on every run on
    Rust's REGEX stage: [Regex::to_dot] returns a text (no panic, the fuel suffices), the text is
    valid DOT, and every position of the regex and of every within-word regex it uses labels a node
    (the latter inside [cluster_R]).  No exception. *)
Theorem C16_regex_dot :
  forall pool r, rx_total_b pool r = true -> rx_wf_b pool r = true ->
    exists text g, Dot.of_regex pool r = Ok text /\ DotRead.read text = Some g
                   /\ regex_ok g (spec_pool pool) (spec_items r).
Proof. exact regex_dot_current_total. Qed.
Check C16_regex_dot :
  forall pool r, rx_total_b pool r = true -> rx_wf_b pool r = true ->
    exists text g, Dot.of_regex pool r = Ok text /\ DotRead.read text = Some g
                   /\ regex_ok g (spec_pool pool) (spec_items r).
Print Assumptions C16_regex_dot.

(** The same stated over the types of the regex package ([Model/Regex.v]: the model of
    [Regex::from_expr] and its intern pool), through the forgetful view [Model/DotOfRegex.v]. *)
Theorem C16_regex_dot_model :
  forall (P : Regex.pool) (R : Regex.regex),
    rx_total_b (DotOfRegex.conv_pool P) (DotOfRegex.conv_regex R) = true ->
    rx_wf_b (DotOfRegex.conv_pool P) (DotOfRegex.conv_regex R) = true ->
    exists text g, DotOfRegex.regex_to_dot P R = Ok text /\ DotRead.read text = Some g
                   /\ regex_ok g (spec_pool (DotOfRegex.conv_pool P)) (spec_items (DotOfRegex.conv_regex R)).
Proof. intros P R. exact (regex_dot_current_total _ _). Qed.
Check C16_regex_dot_model :
  forall (P : Regex.pool) (R : Regex.regex),
    rx_total_b (DotOfRegex.conv_pool P) (DotOfRegex.conv_regex R) = true ->
    rx_wf_b (DotOfRegex.conv_pool P) (DotOfRegex.conv_regex R) = true ->
    exists text g, DotOfRegex.regex_to_dot P R = Ok text /\ DotRead.read text = Some g
                   /\ regex_ok g (spec_pool (DotOfRegex.conv_pool P)) (spec_items (DotOfRegex.conv_regex R)).
Print Assumptions C16_regex_dot_model.

(** The [old] variant, when no literal, description or nonterminal name contains a
    double quote or a backslash. *)
Theorem C16_regex_dot_old :
  forall pool r, rx_total_b pool r = true -> rx_wf_b pool r = true -> known_rx_all pool r = false ->
    exists text g, Dot.of_regex_with old pool r = Ok text /\ DotRead.read text = Some g
                   /\ regex_ok g (spec_pool pool) (spec_items r).
Proof. exact regex_dot_old_total. Qed.
Check C16_regex_dot_old :
  forall pool r, rx_total_b pool r = true -> rx_wf_b pool r = true -> known_rx_all pool r = false ->
    exists text g, Dot.of_regex_with old pool r = Ok text /\ DotRead.read text = Some g
                   /\ regex_ok g (spec_pool pool) (spec_items r).
Print Assumptions C16_regex_dot_old.

(** Whatever the arena, whenever the patched printer returns, the text is valid DOT (coverage is only
    needed for "every item appears"). *)
Theorem C16_regex_dot_valid :
  forall pool r text, pool_flat pool -> Dot.of_regex_with patched pool r = Ok text ->
    exists g, DotRead.read text = Some g
              /\ (rx_cover r -> (forall rid sr, assocN rid pool = Some sr -> rx_cover sr) ->
                  regex_ok g (spec_pool pool) (spec_items r)).
Proof. exact regex_dot_patched. Qed.
Check C16_regex_dot_valid :
  forall pool r text, pool_flat pool -> Dot.of_regex_with patched pool r = Ok text ->
    exists g, DotRead.read text = Some g
              /\ (rx_cover r -> (forall rid sr, assocN rid pool = Some sr -> rx_cover sr) ->
                  regex_ok g (spec_pool pool) (spec_items r)).
Print Assumptions C16_regex_dot_valid.

(** The classes are inhabited: the [old] variant is refuted on [known_labels] (twice: not DOT at
    all; a wrong label), on [known_subacc] and, for --regex, on [known_rx]; the [current] one on
    [known_phantom]. *)

(** a description containing a double quote: the --dfa file is not DOT at all *)
Definition w_quote : cdfa :=
  mkcdfa (mkdfa 0 [(0, [(0, 1)])] [1] [ILit "a" (Some (append "d" (append dq "q"))) 0]) [].

Definition C16_refuted_quotes_dfa_statement : Prop :=
  wf_cdfa w_quote = true /\ known_labels w_quote = true
  /\ (exists text, Dot.of_dfa_with old 0 w_quote = Ok text /\ DotRead.read text = None)
  /\ (exists text g, Dot.of_dfa 0 w_quote = Ok text /\ DotRead.read text = Some g
                     /\ gdiff_ok (compare (view g) (graph_of_dfa 0 w_quote)) = true).
Example C16_refuted_quotes_dfa : C16_refuted_quotes_dfa_statement.
Proof.
  unfold C16_refuted_quotes_dfa_statement.
  split; [vm_compute; reflexivity|]. split; [vm_compute; reflexivity|]. split.
  - eexists. split; [vm_compute; reflexivity|vm_compute; reflexivity].
  - eexists. eexists. split; [vm_compute; reflexivity|]. split; [vm_compute; reflexivity|vm_compute; reflexivity].
Qed.
Check C16_refuted_quotes_dfa : C16_refuted_quotes_dfa_statement.
Print Assumptions C16_refuted_quotes_dfa.

(** a literal made of x, backslash, n: the file reads, but the label shows a line break *)
Definition w_backslash : cdfa :=
  mkcdfa (mkdfa 0 [(0, [(0, 1)])] [1] [ILit (append "x" (append bs "n")) None 0]) [].

Definition C16_refuted_backslash_dfa_statement : Prop :=
  wf_cdfa w_backslash = true /\ known_labels w_backslash = true
  /\ exists text g, Dot.of_dfa_with old 0 w_backslash = Ok text /\ DotRead.read text = Some g
                    /\ gdiff_ok (compare (view g) (graph_of_dfa 0 w_backslash)) = false.
Example C16_refuted_backslash_dfa : C16_refuted_backslash_dfa_statement.
Proof.
  unfold C16_refuted_backslash_dfa_statement.
  split; [vm_compute; reflexivity|]. split; [vm_compute; reflexivity|].
  eexists. eexists. split; [vm_compute; reflexivity|]. split; [vm_compute; reflexivity|vm_compute; reflexivity].
Qed.
Check C16_refuted_backslash_dfa : C16_refuted_backslash_dfa_statement.
Print Assumptions C16_refuted_backslash_dfa.

(** numbering base 1 and a within-word automaton ([cmd --o=(x|y);] for fish/zsh): the dashed edge
    out of the cluster starts at the wrong node *)
Definition w_sub : cdfa :=
  mkcdfa (mkdfa 0 [(0, [(0, 1)])] [1] [ISub 0 0])
         [mkdfa 0 [(0, [(0, 1)]); (1, [(1, 2); (2, 2)])] [2] [ILit "--o=" None 0; ILit "x" None 0; ILit "y" None 0]].

Definition C16_refuted_subword_base_statement : Prop :=
  wf_cdfa w_sub = true /\ known_subacc 1 w_sub = true /\ known_C16_old 0 w_sub = false
  /\ (exists text g, Dot.of_dfa_with old 1 w_sub = Ok text /\ DotRead.read text = Some g
                     /\ gdiff_ok (compare (view g) (graph_of_dfa 1 w_sub)) = false)
  /\ (exists text g, Dot.of_dfa 1 w_sub = Ok text /\ DotRead.read text = Some g
                     /\ gdiff_ok (compare (view g) (graph_of_dfa 1 w_sub)) = true).
Example C16_refuted_subword_base : C16_refuted_subword_base_statement.
Proof.
  unfold C16_refuted_subword_base_statement.
  split; [vm_compute; reflexivity|]. split; [vm_compute; reflexivity|]. split; [vm_compute; reflexivity|]. split.
  - eexists. eexists. split; [vm_compute; reflexivity|]. split; [vm_compute; reflexivity|vm_compute; reflexivity].
  - eexists. eexists. split; [vm_compute; reflexivity|]. split; [vm_compute; reflexivity|vm_compute; reflexivity].
Qed.
Check C16_refuted_subword_base : C16_refuted_subword_base_statement.
Print Assumptions C16_refuted_subword_base.

(** an automaton without state 0 (not produced by [minimize], whose renumbering makes the start
    state 0): a node [_0] that is no state appears *)
Definition w_phantom : cdfa := mkcdfa (mkdfa 1 [(1, [(0, 2)])] [2] [ILit "a" None 0]) [].

Definition C16_refuted_phantom_node_statement : Prop :=
  wf_cdfa w_phantom = true /\ known_phantom w_phantom = true
  /\ exists text g, Dot.of_dfa 0 w_phantom = Ok text /\ DotRead.read text = Some g
                    /\ df_nodes_extra (compare (view g) (graph_of_dfa 0 w_phantom))
                       = [("_0", Some "circle", Some "0")].
Example C16_refuted_phantom_node : C16_refuted_phantom_node_statement.
Proof.
  unfold C16_refuted_phantom_node_statement.
  split; [vm_compute; reflexivity|]. split; [vm_compute; reflexivity|].
  eexists. eexists. split; [vm_compute; reflexivity|]. split; [vm_compute; reflexivity|vm_compute; reflexivity].
Qed.
Check C16_refuted_phantom_node : C16_refuted_phantom_node_statement.
Print Assumptions C16_refuted_phantom_node.

(** a literal containing a double quote: the --regex file is not DOT at all; patched, it is,
    and the literal labels a node *)
Definition w_rx : regex :=
  mkregex 2 [RLit (append "a" (append dq "b")) None] [RTerm 0; REnd 1; RCat [0; 1]].

Definition C16_refuted_quotes_regex_statement : Prop :=
  known_rx [] w_rx = true
  /\ (exists text, Dot.of_regex_with old [] w_rx = Ok text /\ DotRead.read text = None)
  /\ (exists text g, Dot.of_regex [] w_rx = Ok text /\ DotRead.read text = Some g
                     /\ regex_missing g [] [XLit (append "a" (append dq "b")) None] = []).
Example C16_refuted_quotes_regex : C16_refuted_quotes_regex_statement.
Proof.
  unfold C16_refuted_quotes_regex_statement.
  split; [vm_compute; reflexivity|]. split.
  - eexists. split; [vm_compute; reflexivity|vm_compute; reflexivity].
  - eexists. eexists. split; [vm_compute; reflexivity|]. split; [vm_compute; reflexivity|vm_compute; reflexivity].
Qed.
Check C16_refuted_quotes_regex : C16_refuted_quotes_regex_statement.
Print Assumptions C16_refuted_quotes_regex.

(** Non-vacuity of [C16_dfa_dot]: an automaton with a described literal, a within-word automaton,
    a star input and a command, at base 0 (bash/pwsh), and the size of what is read back *)
Definition ex_c : cdfa :=
  mkcdfa (mkdfa 0 [(0, [(0, 1); (1, 2); (3, 1)]); (1, [(4, 1)]); (2, [(2, 1)])] [1]
                [ILit "a" (Some "some description") 0; ISub 0 0; IStar; ICmd "echo {x}" 0; ILit "b" None 1])
         [mkdfa 0 [(0, [(0, 1)]); (1, [(1, 2); (2, 2)])] [2] [ILit "--o=" None 0; ILit "x" None 0; ILit "y" None 0]].

Example ex_C16_inhabited :
  wf_cdfa ex_c = true /\ starts_at_zero ex_c = true
  /\ exists text g, Dot.of_dfa 0 ex_c = Ok text /\ DotRead.read text = Some g
                    /\ List.length (g_nodes g) = 6%nat /\ List.length (g_edges g) = 9%nat
                    /\ List.length (g_subs g) = 1%nat
                    /\ gdiff_ok (compare (view g) (graph_of_dfa 0 ex_c)) = true.
Proof.
  split; [vm_compute; reflexivity|]. split; [vm_compute; reflexivity|].
  eexists. eexists. split; [vm_compute; reflexivity|]. split; [vm_compute; reflexivity|].
  repeat (split; [vm_compute; reflexivity|]). vm_compute; reflexivity.
Qed.
Print Assumptions ex_C16_inhabited.

(** a regex with a within-word regex, a repetition (Star shares its child), a command and a
    description: well formed, the [current] printer returns, and none of the seven items (four of
    the regex, three of the within-word regex) lacks its node *)
Definition ex_pool : rpool :=
  [(0, mkregex 6 [RLit "--o=" None; RLit "x" None; RLit "y" None]
               [RTerm 0; RTerm 1; RTerm 2; ROr [1; 2]; RCat [0; 3]; REnd 3; RCat [4; 5]])].
Definition ex_r : regex :=
  mkregex 9 [RLit "a" (Some "some description"); RSub 0; RNonterm "F"; RCmd "echo {x}"]
          [RTerm 0; RSubword 1; RNt 2; RCat [1; 2]; RCommand 3; ROr [0; 3; 4]; RStar 5; RCat [5; 6]; REnd 4; RCat [7; 8]].

Example ex_C16_regex_inhabited :
  rx_total_b ex_pool ex_r = true /\ rx_wf_b ex_pool ex_r = true
  /\ exists text g, Dot.of_regex ex_pool ex_r = Ok text /\ DotRead.read text = Some g
                    /\ List.length (g_nodes g) = 17%nat /\ List.length (g_subs g) = 1%nat
                    /\ regex_missing g (spec_pool ex_pool) (spec_items ex_r) = [].
Proof.
  split; [vm_compute; reflexivity|]. split; [vm_compute; reflexivity|].
  eexists. eexists. split; [vm_compute; reflexivity|]. split; [vm_compute; reflexivity|].
  repeat (split; [vm_compute; reflexivity|]). vm_compute; reflexivity.
Qed.
Print Assumptions ex_C16_regex_inhabited.
