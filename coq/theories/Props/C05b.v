(** C05 / C06 (parser part) -- facts about the parser model on ARBITRARY input bytes: it is total,
    and its image has a fixed shape.  Statements only; proofs live in Proofs/ParseTotal.v,
    Proofs/ParseShape.v, Proofs/ParseImage.v.  [parse = parse_with pinned] is what [Driver.compile]
    calls; every theorem also holds for any lexer configuration [c]. *)
From CG Require Import Base.Prelude Model.Ast Model.Lexer Model.Parser Spec.Printer Spec.Shape Spec.Image
  Proofs.TreeFacts Proofs.ParseTotal Proofs.ParseShape Proofs.ParseImage.
From CGgen Require Import Consts.

(** The parser never panics and never runs out of the fuel it gives itself: for every text the
    result is a grammar or a [ParseError] span (C06, parser stage). *)
Theorem parse_total :
  forall s, (exists g, parse s = Ok g) \/ (exists sp, parse s = Err sp).
Proof. intros. apply parse_with_total. Qed.
Check parse_total :
  forall s, (exists g, parse s = Ok g) \/ (exists sp, parse s = Err sp).
Print Assumptions parse_total.

Theorem parse_total_cfg :
  forall c s, (exists g, parse_with c s = Ok g) \/ (exists sp, parse_with c s = Err sp).
Proof. exact parse_with_total. Qed.
Check parse_total_cfg :
  forall c s, (exists g, parse_with c s = Ok g) \/ (exists sp, parse_with c s = Err sp).
Print Assumptions parse_total_cfg.

(** The shape of everything the parser produces ([Spec/Shape.v]): every [Sequence], [Alternative],
    [Fallback] has at least two children; every [Subword] is over a [Sequence] of at least two
    factors and contains no [Subword]; levels are 0; [compadd] is false; literals, nonterminal
    names, statement names and shell names are not empty. *)
Theorem parse_image_shape :
  forall s g, parse s = Ok g -> Forall (fun st => stmt_shape st = true) g.
Proof. intros s g H. apply Forall_forall. apply forallb_forall. exact (parse_shape pinned s g H). Qed.
Check parse_image_shape :
  forall s g, parse s = Ok g -> Forall (fun st => stmt_shape st = true) g.
Print Assumptions parse_image_shape.

(** ... in particular every [|] and [||] has an operand: the hypothesis of [C02_total]
    (Props/C02.v) holds for every parsed grammar. *)
Theorem parse_alts_nonempty :
  forall s g, parse s = Ok g -> grammar_alts_nonempty g = true.
Proof. intros s g H. exact (ParseShape.parse_alts_nonempty pinned s g H). Qed.
Check parse_alts_nonempty :
  forall s g, parse s = Ok g -> grammar_alts_nonempty g = true.
Print Assumptions parse_alts_nonempty.

(** The converse inclusion of the round trip ([Spec/Image.v]): every parsed grammar satisfies
    [stmt_img], which is [wf_stmt] without the condition that literals do not start with [#]; so
    the parser's image lies between the printable grammars (each is parsed from its printed text,
    up to spans: [C05_roundtrip_trees] of Props/C05.v) and the printable grammars plus those with
    such a literal; which of the latter are parsed from some text is not settled, hence
    [_partial]. *)
Theorem C05_image_partial :
  forall s g, parse s = Ok g -> forallb stmt_img g = true.
Proof. intros s g H. exact (parse_image pinned s g H). Qed.
Check C05_image_partial :
  forall s g, parse s = Ok g -> forallb stmt_img g = true.
Print Assumptions C05_image_partial.

Theorem C05_wf_is_image_modulo_hash :
  forall st, wf_stmt st = stmt_img st && stmt_nohash st.
Proof. exact wf_stmt_split. Qed.
Check C05_wf_is_image_modulo_hash :
  forall st, wf_stmt st = stmt_img st && stmt_nohash st.
Print Assumptions C05_wf_is_image_modulo_hash.

Theorem C05_image_printable :
  forall s g, parse s = Ok g -> forallb stmt_nohash g = true -> wf g.
Proof. intros s g H N. exact (parse_image_wf pinned s g H N). Qed.
Check C05_image_printable :
  forall s g, parse s = Ok g -> forallb stmt_nohash g = true -> wf g.
Print Assumptions C05_image_printable.

(** Non-vacuity: an accepted text, a rejected one, and the degenerate heads [<A@>] / [<@b>] that
    are plain definitions (the specialisation syntax needs a name and a shell). *)
Example ex_C05b_inhabited :
  match parse "cmd (a | b<C>)... [d];" with
  | Ok g => forallb stmt_shape g && forallb wf_stmt g | _ => false end = true
  /\ match parse "cmd (a | ;" with Err _ => true | _ => false end = true
  /\ match parse "c x; <A@> = y; <@b> = z;" with Ok g => forallb wf_stmt g | _ => false end = true
  /\ match parse "cmd <A>#x;" with
     | Ok g => forallb stmt_img g && negb (forallb stmt_nohash g) | _ => false end = true.
Proof. vm_compute. repeat split; reflexivity. Qed.
Print Assumptions ex_C05b_inhabited.
