(** C16 (continuation) -- the theorems of Props/C16.v on what the pipeline produces: their hypotheses
    ([wf_cdfa], [starts_at_zero]; [rx_total_b], [rx_wf_b]) are proved of every automaton
    [Driver.compile_valid] returns and of every regex [Regex.from_expr] builds from a validated tree,
    so that for every text the model of the compiler accepts, and every numbering base, the --dfa
    text is valid DOT denoting the prescribed graph, and the --regex text is valid DOT in which
    every input labels a node.  Proofs: Proofs/DotPipelineDfa.v, DotPipelineRegex.v (over the
    [do_from_expr] toolkit of DotFromExpr.v) and DotPipeline.v. *)
From CG Require Import Base.Prelude Model.Dfa Model.Dot Spec.DotRead Spec.DotSpec.
From CG Require Import Proofs.DotRegex Proofs.DotPipelineRegex Proofs.DotPipeline.
From CG Require Model.Ast Model.Parser Model.Check Model.Regex Model.Driver Model.DotOfRegex.
From CG Require Proofs.TreeFacts Proofs.DotPipelineDfa Proofs.DotFromExpr.

(** (a) every compiled automaton satisfies the hypotheses of [C16_dfa_dot] *)
Theorem C16_compile_valid_hyps :
  forall pick fuel v c,
    TreeFacts.alts_nonempty (Check.v_expr v) = true ->
    Driver.compile_valid pick fuel v = Ok c ->
    wf_cdfa c = true /\ starts_at_zero c = true.
Proof. exact DotPipelineDfa.compile_valid_dot_wf. Qed.
Check C16_compile_valid_hyps :
  forall pick fuel v c,
    TreeFacts.alts_nonempty (Check.v_expr v) = true ->
    Driver.compile_valid pick fuel v = Ok c ->
    wf_cdfa c = true /\ starts_at_zero c = true.
Print Assumptions C16_compile_valid_hyps.

(** for every text the whole pipeline accepts, every work-list order, shell and numbering base: the
    --dfa file is valid DOT and denotes the prescribed graph *)
Theorem C16_pipeline_dfa_dot :
  forall pick fuel builtins text sh v c base,
    Driver.compile pick fuel builtins text sh = Ok (v, c) ->
    exists out g, Dot.of_dfa base c = Ok out /\ DotRead.read out = Some g
                  /\ gview_equiv (view g) (DotSpec.graph_of_dfa base c).
Proof. exact pipeline_dfa_dot. Qed.
Check C16_pipeline_dfa_dot :
  forall pick fuel builtins text sh v c base,
    Driver.compile pick fuel builtins text sh = Ok (v, c) ->
    exists out g, Dot.of_dfa base c = Ok out /\ DotRead.read out = Some g
                  /\ gview_equiv (view g) (DotSpec.graph_of_dfa base c).
Print Assumptions C16_pipeline_dfa_dot.

(** (b) every regex [from_expr] builds from a tree without nested composite words, into a pool of
    well-built regexes, satisfies -- through the view of Model/DotOfRegex.v -- the hypotheses of
    [C16_regex_dot] *)
Theorem C16_from_expr_hyps :
  forall e pl r pl',
    TreeFacts.flat_subwords e = true -> Forall DotFromExpr.sgood pl ->
    Regex.from_expr e pl = Ok (r, pl') ->
    rx_total_b (DotOfRegex.conv_pool pl') (DotOfRegex.conv_regex r) = true
    /\ rx_wf_b (DotOfRegex.conv_pool pl') (DotOfRegex.conv_regex r) = true.
Proof. exact from_expr_rx_hyps. Qed.
Check C16_from_expr_hyps :
  forall e pl r pl',
    TreeFacts.flat_subwords e = true -> Forall DotFromExpr.sgood pl ->
    Regex.from_expr e pl = Ok (r, pl') ->
    rx_total_b (DotOfRegex.conv_pool pl') (DotOfRegex.conv_regex r) = true
    /\ rx_wf_b (DotOfRegex.conv_pool pl') (DotOfRegex.conv_regex r) = true.
Print Assumptions C16_from_expr_hyps.

(** for every validated tree: [Regex::to_dot] returns, the --regex file is valid DOT and every input
    of the regex and of each within-word regex it uses labels a node (inside its cluster) *)
Theorem C16_pipeline_regex_dot :
  forall builtins g sh v r pl,
    Check.from_grammar builtins g sh = Ok v ->
    Regex.from_expr (Check.v_expr v) [] = Ok (r, pl) ->
    exists out gr, DotOfRegex.regex_to_dot pl r = Ok out /\ DotRead.read out = Some gr
                   /\ regex_ok gr (spec_pool (DotOfRegex.conv_pool pl)) (spec_items (DotOfRegex.conv_regex r)).
Proof. exact validated_regex_dot. Qed.
Check C16_pipeline_regex_dot :
  forall builtins g sh v r pl,
    Check.from_grammar builtins g sh = Ok v ->
    Regex.from_expr (Check.v_expr v) [] = Ok (r, pl) ->
    exists out gr, DotOfRegex.regex_to_dot pl r = Ok out /\ DotRead.read out = Some gr
                   /\ regex_ok gr (spec_pool (DotOfRegex.conv_pool pl)) (spec_items (DotOfRegex.conv_regex r)).
Print Assumptions C16_pipeline_regex_dot.

(** the same from the whole pipeline: the regex [compile] goes through *)
Theorem C16_pipeline_regex_dot_compile :
  forall pick fuel builtins text sh v c,
    Driver.compile pick fuel builtins text sh = Ok (v, c) ->
    exists r pl out gr, Regex.from_valid_expr (Check.v_expr v) = Ok (r, pl)
                        /\ DotOfRegex.regex_to_dot pl r = Ok out /\ DotRead.read out = Some gr
                        /\ regex_ok gr (spec_pool (DotOfRegex.conv_pool pl)) (spec_items (DotOfRegex.conv_regex r)).
Proof. exact pipeline_regex_dot. Qed.
Check C16_pipeline_regex_dot_compile :
  forall pick fuel builtins text sh v c,
    Driver.compile pick fuel builtins text sh = Ok (v, c) ->
    exists r pl out gr, Regex.from_valid_expr (Check.v_expr v) = Ok (r, pl)
                        /\ DotOfRegex.regex_to_dot pl r = Ok out /\ DotRead.read out = Some gr
                        /\ regex_ok gr (spec_pool (DotOfRegex.conv_pool pl)) (spec_items (DotOfRegex.conv_regex r)).
Print Assumptions C16_pipeline_regex_dot_compile.
