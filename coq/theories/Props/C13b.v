(** C13 end to end -- diagnostics point at the construct they complain about, for EVERY input text.
    The proofs are in Proofs/DiagLines.v, DiagSpans.v, DiagPipeline.v; the provenance theorems here
    put together the case analysis of [compile] (DiagPipeline), the parser's span soundness
    (Proofs/SpanSound.v, Props/C05.v) and the checker's provenance (Proofs/CheckProvenance.v,
    Props/C13.v).

    [Driver.compile] is the whole pipeline; [Diag.error_messages] / [Diag.warning_messages] /
    [Diag.render] model what main.rs prints for its errors and warnings ([Model/Diag.v]);
    [pos_ok text sp] ([Spec/Spans.v]): the line and start column of [sp] are the nom_locate position
    reached after some prefix of [text], and a byte follows. *)
From CG Require Import Base.Prelude Model.Ast Model.Lexer Model.Parser Model.Check Model.Regex.
From CG Require Import Model.Driver Model.Diag Spec.Spans Spec.Choice Spec.Mistakes.
From CG Require Import Proofs.CheckProvenance Proofs.SpanSound Proofs.DiagLines Proofs.DiagSpans Proofs.DiagPipeline.
From CGgen Require Import Consts.
Local Open Scope list_scope.

(** (b) Every located message of an error of the pipeline -- syntax error, every error of the
    checker, the regex builder's [UnboundedMatchable] -- and every warning of an accepted grammar
    starts at a byte of the text. *)
Theorem C13_pipeline_positions :
  forall pick fuel builtins text sh,
    (forall e, compile pick fuel builtins text sh = Err e ->
               Forall (fun m => pos_ok text (m_span m)) (error_messages e))
    /\ (forall g v, parse text = Ok g -> from_grammar builtins g sh = Ok v ->
                    Forall (fun m => pos_ok text (m_span m)) (warning_messages v)).
Proof.
  intros. split; [intros e H; eapply error_positions; eauto|intros g v P C; eapply warning_positions; eauto].
Qed.
Check C13_pipeline_positions :
  forall pick fuel builtins text sh,
    (forall e, compile pick fuel builtins text sh = Err e ->
               Forall (fun m => pos_ok text (m_span m)) (error_messages e))
    /\ (forall g v, parse text = Ok g -> from_grammar builtins g sh = Ok v ->
                    Forall (fun m => pos_ok text (m_span m)) (warning_messages v)).
Print Assumptions C13_pipeline_positions.

(** ... at the start of a construct of the right kind: the spans of a checker error are spans the
    parser attached ([stmt_ok]: start and end are positions of the text, the construct is not
    empty) to the constructs [err_provenance] names (the predicate [C13_error_provenance] unfolds:
    command names, definition heads, shell names, right-hand sides, literals, references). *)
Theorem C13_pipeline_error_provenance :
  forall pick fuel builtins text sh ce,
    compile pick fuel builtins text sh = Err (DCheck ce) ->
    exists g, parse text = Ok g /\ Forall (stmt_ok text) g /\ err_provenance g sh ce.
Proof.
  intros pick fuel builtins text sh ce H.
  destruct (compile_err_cases pick fuel builtins text sh _ H)
    as [(sp & E & _)|[(g & ce' & E & P & C)|[(g & v & re & E & _)|[[x E]|[x E]]]]]; try discriminate.
  inversion E; subst. exists g. repeat split; auto.
  - rewrite parse_repaired in P. apply parse_spans_sound; auto.
  - eapply errors_provenance; eauto.
Qed.
Check C13_pipeline_error_provenance :
  forall pick fuel builtins text sh ce,
    compile pick fuel builtins text sh = Err (DCheck ce) ->
    exists g, parse text = Ok g /\ Forall (stmt_ok text) g /\ err_provenance g sh ce.
Print Assumptions C13_pipeline_error_provenance.

Theorem C13_pipeline_warning_provenance :
  forall builtins text sh g v,
    parse text = Ok g -> from_grammar builtins g sh = Ok v ->
    Forall (stmt_ok text) g /\
    (forall n sp, In (n, sp) (v_undefined v) -> In (n, sp) (grammar_refs g)) /\
    (forall n sp, In (n, sp) (v_unused v) -> exists rhs, In (NontermDef n sp None rhs) g) /\
    (forall n sp, In (n, sp) (v_unused_specs v) ->
                  exists shn shsp rhs, In (NontermDef n sp (Some (shn, shsp)) rhs) g /\ is_shell shn sh = true).
Proof.
  intros builtins text sh g v P C. split.
  - rewrite parse_repaired in P. apply parse_spans_sound; auto.
  - eapply warnings_provenance; eauto.
Qed.
Check C13_pipeline_warning_provenance :
  forall builtins text sh g v,
    parse text = Ok g -> from_grammar builtins g sh = Ok v ->
    Forall (stmt_ok text) g /\
    (forall n sp, In (n, sp) (v_undefined v) -> In (n, sp) (grammar_refs g)) /\
    (forall n sp, In (n, sp) (v_unused v) -> exists rhs, In (NontermDef n sp None rhs) g) /\
    (forall n sp, In (n, sp) (v_unused_specs v) ->
                  exists shn shsp rhs, In (NontermDef n sp (Some (shn, shsp)) rhs) g /\ is_shell shn sh = true).
Print Assumptions C13_pipeline_warning_provenance.

(** the two spans of "Ambiguous grammar" are spans of nodes of the validated tree (regex inputs are
    its literals, nonterminals, commands and words), which are spans of nodes of the source *)
Theorem C13_pipeline_unbounded_provenance :
  forall pick fuel builtins text sh a b,
    compile pick fuel builtins text sh = Err (DRegex (UnboundedMatchable a b)) ->
    exists g v, parse text = Ok g /\ from_grammar builtins g sh = Ok v
                /\ In a (all_spans (v_expr v)) /\ In b (all_spans (v_expr v))
                /\ In a (grammar_spans g) /\ In b (grammar_spans g).
Proof.
  intros pick fuel builtins text sh a b H.
  destruct (compile_err_cases pick fuel builtins text sh _ H)
    as [(sp & E & _)|[(g & ce' & E & _)|[(g & v & re & E & P & C & R)|[[x E]|[x E]]]]]; try discriminate.
  inversion E; subst. exists g, v. destruct (unbounded_spans _ _ _ R) as [Ha Hb].
  repeat split; auto; eapply valid_expr_spans; eassumption.
Qed.
Check C13_pipeline_unbounded_provenance :
  forall pick fuel builtins text sh a b,
    compile pick fuel builtins text sh = Err (DRegex (UnboundedMatchable a b)) ->
    exists g v, parse text = Ok g /\ from_grammar builtins g sh = Ok v
                /\ In a (all_spans (v_expr v)) /\ In b (all_spans (v_expr v))
                /\ In a (grammar_spans g) /\ In b (grammar_spans g).
Print Assumptions C13_pipeline_unbounded_provenance.

(** (c) Rendering never panics: the line a message quotes exists ([lines().nth(..).unwrap()]), for
    every message of every error and every warning, whatever the text. *)
Theorem C13_render_total :
  forall pick fuel builtins path text sh,
    (forall e, compile pick fuel builtins text sh = Err e ->
               Forall (fun m => exists r, render path text (m_span m) = Ok r) (error_messages e))
    /\ (forall g v, parse text = Ok g -> from_grammar builtins g sh = Ok v ->
                    Forall (fun m => exists r, render path text (m_span m) = Ok r) (warning_messages v)).
Proof.
  intros. split; [intros e H; eapply render_errors_total; eauto|intros g v P C; eapply render_warnings_total; eauto].
Qed.
Check C13_render_total :
  forall pick fuel builtins path text sh,
    (forall e, compile pick fuel builtins text sh = Err e ->
               Forall (fun m => exists r, render path text (m_span m) = Ok r) (error_messages e))
    /\ (forall g v, parse text = Ok g -> from_grammar builtins g sh = Ok v ->
                    Forall (fun m => exists r, render path text (m_span m) = Ok r) (warning_messages v)).
Print Assumptions C13_render_total.

(** ... and the quoted line is the one the construct starts on: it is line [sline sp] of
    [str::lines], and its byte at column [scol sp] is the construct's first byte [b] (unless that
    byte is itself a line terminator, which only a shell name can start with). *)
Theorem C13_render_shows_construct :
  forall path pre b rest sp,
    sline sp = pline (adv_str pre pos0) -> scol sp = pcol (adv_str pre pos0) -> 1 <= secol sp ->
    exists r, render path (append pre (String b rest)) sp = Ok r
              /\ r_line_no r = sline sp
              /\ nth_error (lines (append pre (String b rest))) (N.to_nat (sline sp - 1)) = Some (r_line r)
              /\ (b <> LF -> b <> CR -> String.get (N.to_nat (scol sp - 1)) (r_line r) = Some b).
Proof. exact render_at. Qed.
Check C13_render_shows_construct :
  forall path pre b rest sp,
    sline sp = pline (adv_str pre pos0) -> scol sp = pcol (adv_str pre pos0) -> 1 <= secol sp ->
    exists r, render path (append pre (String b rest)) sp = Ok r
              /\ r_line_no r = sline sp
              /\ nth_error (lines (append pre (String b rest))) (N.to_nat (sline sp - 1)) = Some (r_line r)
              /\ (b <> LF -> b <> CR -> String.get (N.to_nat (scol sp - 1)) (r_line r) = Some b).
Print Assumptions C13_render_shows_construct.

(** Non-vacuity: an undefined nonterminal on the second line, after an escaped literal and a CR LF
    line end: the warning is rendered with header [f.usage:2:3:], quoting [  <FOO> x;] (CR
    stripped), underlining columns 2..7; and the syntax error of a text cut off after [|], without
    final line feed, is rendered too (the parser reports it at 1:1). *)
Example ex_C13b_inhabited :
  match parse ("cmd a\.b" ++ String CR (String LF "  <FOO> x;" ++ String CR (String LF ""))) with
  | Ok g =>
      match from_grammar builtins g Bash with
      | Ok v =>
          match warning_messages v with
          | [m] =>
              match render "f.usage" ("cmd a\.b" ++ String CR (String LF "  <FOO> x;" ++ String CR (String LF ""))) (m_span m) with
              | Ok r => String.eqb (r_header r) "f.usage:2:3:" && String.eqb (r_line r) "  <FOO> x;"
                        && N.eqb (fst (r_cols r)) 2 && N.eqb (snd (r_cols r)) 7
              | _ => false
              end
          | _ => false
          end
      | _ => false
      end
  | _ => false
  end = true
  /\ match parse "cmd a |" with
     | Err sp => match render "-" "cmd a |" sp with
                 | Ok r => String.eqb (r_header r) "-:1:1:" && String.eqb (r_line r) "cmd a |"
                 | _ => false end
     | _ => false
     end = true.
Proof. vm_compute. split; reflexivity. Qed.
Print Assumptions ex_C13b_inhabited.
