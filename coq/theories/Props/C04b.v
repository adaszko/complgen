(** C04, end to end for bash -- "the data embedded in the emitted bash script describes the same
    automaton as the grammar does".  Statements only; proofs in Proofs/EmbedEndToEnd.v, composing
    C05b (parser), C02 ([C02_driver]: the compiled automaton accepts exactly what the validated
    grammar denotes), C03/C02 ([CompiledFacts], [SubCompiled]: the compiled automata are
    well-formed), the table theorems of C04 and [C04_embed_bash] (the script reads back as its
    statement list).

    Hypotheses of [C04_end_to_end_bash], and which of them are genuine:
    - [compile pick fuel builtins text Bash = Ok (v, c)], [all_tables Bash c om os = Ok (nd, a)],
      [script (v_command v) sig (d_start (c_main c)) nd a groups = Ok s]: the three stages succeeded
      (totality of the first: C06_pipeline_total);
    - [name_ok (v_command v)]: the command name consists of characters that can occur in a bash
      function name -- genuine (the grammar may name its command arbitrarily; C07 leaf);
    - [no_nl sig]: the signature comment is one line -- true of the emitter's own constant;
    - [body_ok (cmd_body cmd)] for the external commands: no line of a command body is a lone "}" --
      genuine (C07 leaf);
    - [NoDup om], [NoDup] of every within-word literal order: the orders list each (text,
      description) once -- what [get_all_literals] produces; validated by the check on every run;
    - [valid_grouping a groups] (only for the per-automaton clause [carries_each_sub]): the shape
      groups read from the script partition the within-word automata into isomorphic classes --
      validated by the check on every run;
    - inside [describes]: the completeness direction of the match tables asks [keys_unique] at the
      state (no two transitions with the same table key: outside C09's known class; see
      C04_refuted_same_text_two_levels).
    Discharged here: [alts_nonempty] (parser, C05b), [dfa_wf] of the main and of every within-word
    automaton (C02/C03), the link between the registration statement and the grammar's command. *)
From CG Require Import Base.Prelude Model.Ast Model.Dfa Model.Check Model.Driver Model.Tables Model.EmitBash.
From CG Require Import Spec.Lang Spec.ScriptRead.
From CG Require Import Proofs.TablesSound Proofs.BashCodec Proofs.BashScript Proofs.TreeFacts Proofs.EmbedEndToEnd.
Open Scope N_scope.
Open Scope list_scope.

(** The three parts: (i) the script reads back as the statement list [script_stmts], which carries
    the tables of [a] (main tables, start state, registration of [v_command v]; within-word rows,
    levels, groups and, under a valid grouping, every within-word automaton's own wrapper);
    (ii) [tables_describe]: those tables are exactly the labelled transition relation and the
    per-level candidates of [c], main and within-word, accepting sets included; (iii) [c] accepts
    exactly what the grammar denotes. *)
Theorem C04_end_to_end_bash :
  forall pick fuel builtins text v c om os nd a groups sig s,
    compile pick fuel builtins text Bash = Ok (v, c) ->
    name_ok (v_command v) -> no_nl sig = true ->
    Forall (fun cmd => body_ok (cmd_body cmd)) (a_commands a) ->
    NoDup om -> (forall pi o, assocN pi os = Some o -> NoDup o) ->
    all_tables Bash c om os = Ok (nd, a) ->
    script (v_command v) sig (d_start (c_main c)) nd a groups = Ok s ->
    (exists sts,
       script_stmts (v_command v) (d_start (c_main c)) nd a groups = Ok sts /\
       read_stmts Bash (v_command v) s = sts /\
       carries_main (v_command v) (d_start (c_main c)) a sts /\
       carries_subs (v_command v) nd a groups sts /\
       (valid_grouping a groups = true -> n_subwords nd = true -> carries_each_sub (v_command v) a sts)) /\
    tables_describe c om os a /\
    (forall w, accepts_items c w <-> denotes (v_expr v) w).
Proof. exact embed_end_to_end. Qed.
Check C04_end_to_end_bash :
  forall pick fuel builtins text v c om os nd a groups sig s,
    compile pick fuel builtins text Bash = Ok (v, c) ->
    name_ok (v_command v) -> no_nl sig = true ->
    Forall (fun cmd => body_ok (cmd_body cmd)) (a_commands a) ->
    NoDup om -> (forall pi o, assocN pi os = Some o -> NoDup o) ->
    all_tables Bash c om os = Ok (nd, a) ->
    script (v_command v) sig (d_start (c_main c)) nd a groups = Ok s ->
    (exists sts,
       script_stmts (v_command v) (d_start (c_main c)) nd a groups = Ok sts /\
       read_stmts Bash (v_command v) s = sts /\
       carries_main (v_command v) (d_start (c_main c)) a sts /\
       carries_subs (v_command v) nd a groups sts /\
       (valid_grouping a groups = true -> n_subwords nd = true -> carries_each_sub (v_command v) a sts)) /\
    tables_describe c om os a /\
    (forall w, accepts_items c w <-> denotes (v_expr v) w).
Print Assumptions C04_end_to_end_bash.

(** (ii) alone, from the validated tree: the C04 table theorems with their well-formedness
    hypotheses discharged for everything [compile_valid] returns. *)
Theorem C04_tables_describe_compiled :
  forall pick fuel v c om os nd a,
    alts_nonempty (v_expr v) = true ->
    compile_valid pick fuel v = Ok c ->
    NoDup om -> (forall pi o, assocN pi os = Some o -> NoDup o) ->
    all_tables Bash c om os = Ok (nd, a) ->
    tables_describe c om os a.
Proof. exact tables_describe_compiled. Qed.
Check C04_tables_describe_compiled :
  forall pick fuel v c om os nd a,
    alts_nonempty (v_expr v) = true ->
    compile_valid pick fuel v = Ok c ->
    NoDup om -> (forall pi o, assocN pi os = Some o -> NoDup o) ->
    all_tables Bash c om os = Ok (nd, a) ->
    tables_describe c om os a.
Print Assumptions C04_tables_describe_compiled.

(** what the statement list carries, whatever the tables are *)
Theorem C04_script_stmts_carry :
  forall command start nd a groups sts,
    script_stmts command start nd a groups = Ok sts ->
    carries_main command start a sts /\ carries_subs command nd a groups sts.
Proof. exact script_stmts_carry. Qed.
Check C04_script_stmts_carry :
  forall command start nd a groups sts,
    script_stmts command start nd a groups = Ok sts ->
    carries_main command start a sts /\ carries_subs command nd a groups sts.
Print Assumptions C04_script_stmts_carry.

(** a valid grouping prints, for every within-word automaton, tables equal to its own *)
Theorem C04_valid_grouping_carries :
  forall c om os nd a command groups sts,
    all_tables Bash c om os = Ok (nd, a) ->
    valid_grouping a groups = true -> n_subwords nd = true ->
    carries_subs command nd a groups sts -> carries_each_sub command a sts.
Proof. exact valid_grouping_carries. Qed.
Check C04_valid_grouping_carries :
  forall c om os nd a command groups sts,
    all_tables Bash c om os = Ok (nd, a) ->
    valid_grouping a groups = true -> n_subwords nd = true ->
    carries_subs command nd a groups sts -> carries_each_sub command a sts.
Print Assumptions C04_valid_grouping_carries.

(** Non-vacuity: a grammar with a description, a composite word and an option goes through the
    whole pipeline; every hypothesis of [C04_end_to_end_bash] holds for it (valid literal orders and
    a valid grouping included). *)
From CG Require Import Model.Subset.
From CGgen Require Import Consts.
Definition ex_text : string := "cmd (a ""d"" | --k=(x|y)) [b];".
Definition ex_om : list (string * string) := [("b", ""); ("a", "d")].
Definition ex_os : list (N * list (string * string)) := [(0, [("--k=", ""); ("y", ""); ("x", "")])].

Example ex_C04b_inhabited :
  exists v c nd a s,
    compile pick_first 50 builtins ex_text Bash = Ok (v, c) /\
    name_ok (v_command v) /\
    all_tables Bash c ex_om ex_os = Ok (nd, a) /\
    Forall (fun cmd => body_ok (cmd_body cmd)) (a_commands a) /\
    NoDup ex_om /\ (forall pi o, assocN pi ex_os = Some o -> NoDup o) /\
    script (v_command v) "# sig" (d_start (c_main c)) nd a [[0]] = Ok s /\
    valid_orders c ex_om ex_os = true /\ valid_grouping a [[0]] = true /\ n_subwords nd = true.
Proof.
  (* everything is evaluated once; the values stay behind the names [v], [c], [nd], [a], [s] *)
  assert (H : match compile pick_first 50 builtins ex_text Bash with
              | Ok (v, c) =>
                  v_command v = "cmd"
                  /\ match all_tables Bash c ex_om ex_os with
                     | Ok (nd, a) =>
                         a_commands a = []
                         /\ match script (v_command v) "# sig" (d_start (c_main c)) nd a [[0]] with
                            | Ok s => valid_orders c ex_om ex_os = true /\ valid_grouping a [[0]] = true /\ n_subwords nd = true
                            | _ => False
                            end
                     | _ => False
                     end
              | _ => False
              end) by (vm_compute; repeat split).
  destruct (compile pick_first 50 builtins ex_text Bash) as [[v c]| | |]; try contradiction. destruct H as [Hn H].
  destruct (all_tables Bash c ex_om ex_os) as [[nd a]| | |] eqn:Ha; try contradiction. destruct H as [Hb H].
  destruct (script (v_command v) "# sig" (d_start (c_main c)) nd a [[0]]) as [s| | |] eqn:Hs; try contradiction.
  exists v, c, nd, a, s.
  split; [reflexivity|]. split; [rewrite Hn; split; [discriminate | reflexivity]|]. split; [exact Ha|].
  split; [rewrite Hb; constructor|].
  split; [repeat constructor; simpl; intuition discriminate|].
  split; [|split; [exact Hs | exact H]].
  intros pi o Ho. simpl in Ho. destruct (N.eqb pi 0); [|discriminate]. inversion Ho; subst.
  repeat constructor; simpl; intuition discriminate.
Qed.
Print Assumptions ex_C04b_inhabited.
