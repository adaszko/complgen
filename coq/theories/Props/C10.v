(** C10 -- output is a pure function of the input.
    A Gallina function is deterministic by construction, so the model's determinism says nothing.
    What is proved here is the soundness of the one comparison through which a per-process random
    hash seed could reach the output: interning of within-word automata (with the comparison
    that /repo commit bb0b710 replaces it did: [C10_unordered_comparison_refuted]).  Everything else C10 rests on (fixed-key hashing of hashbrown/ustr, orders of
    IndexMap/BTreeMap) is checked per run by lib/vf/checks/c10.py, not proved: see DESIGN section 6 C10.
    Order-insensitivity theorems that live elsewhere: minimisation does not depend on the work-list
    order (Props/C03.v), the validated tree does not depend on the order of definitions
    (Props/C14.v). *)
From CG Require Import Base.Prelude Model.Dfa Model.DfaEqb Proofs.DfaEq.

Theorem C10_intern_equality_exact :
  forall a b : dfa, dfa_eqb a b = true <-> a = b.
Proof. exact dfa_eqb_eq. Qed.
Check C10_intern_equality_exact : forall a b : dfa, dfa_eqb a b = true <-> a = b.
Print Assumptions C10_intern_equality_exact.

Theorem C10_interned_same_language :
  forall a b : dfa, dfa_eqb a b = true -> forall w, accepts a w = accepts b w.
Proof. exact dfa_eqb_same_language. Qed.
Check C10_interned_same_language :
  forall a b : dfa, dfa_eqb a b = true -> forall w, accepts a w = accepts b w.
Print Assumptions C10_interned_same_language.

(** The comparison with input pools as sets ([dfa_eqb_unordered], dfa.rs before /repo commit
    bb0b710) is refuted: it identifies the within-word automata of a[b] and b[a], which have the
    same transitions over input ids but whose id 0 is the literal a in one and b in the other;
    which of the two the intern pool keeps then depends on the hash seed. *)
Theorem C10_unordered_comparison_refuted :
  dfa_eqb_unordered wit_ab wit_ba = true /\ dfa_eqb wit_ab wit_ba = false
  /\ accepts wit_ab [0] = true /\ texts wit_ab [0] = [Some (ILit "a" None 0)]
  /\ accepts wit_ba [0] = true /\ texts wit_ba [0] = [Some (ILit "b" None 0)].
Proof. exact unordered_comparison_refuted. Qed.
Check C10_unordered_comparison_refuted :
  dfa_eqb_unordered wit_ab wit_ba = true /\ dfa_eqb wit_ab wit_ba = false
  /\ accepts wit_ab [0] = true /\ texts wit_ab [0] = [Some (ILit "a" None 0)]
  /\ accepts wit_ba [0] = true /\ texts wit_ba [0] = [Some (ILit "b" None 0)].
Print Assumptions C10_unordered_comparison_refuted.

Example ex_C10_inhabited : dfa_eqb wit_ab wit_ab = true /\ wit_ab <> wit_ba.
Proof. split; [reflexivity|discriminate]. Qed.
Print Assumptions ex_C10_inhabited.
