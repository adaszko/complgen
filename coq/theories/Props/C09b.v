(** C09 on the compiled automaton.  Proofs: Proofs/C09Compiled.v and Proofs/EraseLang.v (with
    ReadWords.v, TaccWords.v), composing Proofs/CheckBar.v (the [|] variant of a source grammar has
    the same normal form), [driver_correct_from_grammar] (= [C02_driver]: the compiled automaton
    accepts exactly what the validated tree denotes), [compiled_facts] / [sub_facts] (the compiled
    automata are well-formed and trim) and [find_none_unambiguous] ([Ambig.find] finds nothing =>
    unambiguous); the two theorems with [known_C09] only unfold it here.

    These are the two statements of Props/C09.v over an abstract compile function
    ([C09_fallback_transparent_statement], and the matching half of
    [C09_candidates_monotone_statement]) made concrete: [compile] is [Driver.compile_valid], the
    run of the automaton on typed words is [wpath] (every word is read by the item of the
    transition: a literal reads its text, a composite word what its within-word automaton reads;
    what a command or an undefined nonterminal reads is the parameter [wild]).

    Erasure ([erases], [erased_lang]) forgets levels AND descriptions: the [|] variant of
    [(a || b) "d"] describes both [a] and [b], the [||] original only [a]. *)
From CG Require Import Base.Prelude Model.Ast Model.Dfa Model.Check Model.Subset Model.Ambiguity Model.Driver.
From CG Require Import Spec.Lang Spec.Ambig.
From CG Require Import Proofs.TreeFacts Proofs.MeaningLevels Proofs.CheckBar Proofs.EraseLang Proofs.ReadWords Proofs.C09Compiled.
From CG Require Import Props.C09.
From CGgen Require Import Consts.

(** [||] is transparent to matching, on the automata the pipeline compiles for a grammar [g] and
    for its [|] variant [bar_grammar g] (any pop orders, any fuel):
    (1) they accept the same item words once levels and descriptions are erased;
    (2) read as typed words they match the same command lines and expect the same items, up to
        erasure, after them -- whatever commands and undefined nonterminals read, provided it does
        not depend on their level;
    (3) outside the known mechanisms ([known_C09 = false]), in each of them two walks over the
        same words -- read as the grammar fixes them, [none_wild] -- end in the same state (so
        "the state reached" and "the items expected" are functions of the typed words). *)
Theorem C09_fallback_transparent_compiled :
  forall builtins g sh v v' pick fuel pick' fuel' c c',
    from_grammar builtins g sh = Ok v ->
    from_grammar builtins (bar_grammar g) sh = Ok v' ->
    grammar_alts_nonempty g = true ->
    compile_valid pick fuel v = Ok c -> compile_valid pick' fuel' v' = Ok c' ->
    (forall u, erased_lang (accepts_items c) u <-> erased_lang (accepts_items c') u) /\
    (forall wild, (forall a w, wild (erase_witem a) w <-> wild a w) ->
       forall ws,
         (matched_words wild c ws <-> matched_words wild c' ws) /\
         (forall x, expected wild c ws x ->
            exists x' y, expected wild c' ws x' /\ erases (item_of_inp c x) y /\ erases (item_of_inp c' x') y) /\
         (forall x', expected wild c' ws x' ->
            exists x y, expected wild c ws x /\ erases (item_of_inp c' x') y /\ erases (item_of_inp c x) y)) /\
    (known_C09 c = false -> forall ws s1 s2,
       wpath none_wild c (d_start (c_main c)) ws s1 -> wpath none_wild c (d_start (c_main c)) ws s2 -> s1 = s2) /\
    (known_C09 c' = false -> forall ws s1 s2,
       wpath none_wild c' (d_start (c_main c')) ws s1 -> wpath none_wild c' (d_start (c_main c')) ws s2 -> s1 = s2).
Proof.
  intros builtins g sh v v' pick fuel pick' fuel' c c' Hv Hv' Hga Hc Hc'.
  destruct (fallback_transparent_compiled _ _ _ _ _ _ _ _ _ _ _ Hv Hv' Hga Hc Hc') as [A [B [C D]]].
  assert (Hn : forall d, known_C09 d = false -> find d = None)
    by (intros d Hk; unfold known_C09 in Hk; destruct (find d); [discriminate|reflexivity]).
  split; [exact A|]. split; [exact B|]. split; [intro Hk; exact (C (Hn c Hk))|intro Hk; exact (D (Hn c' Hk))].
Qed.
Check C09_fallback_transparent_compiled :
  forall builtins g sh v v' pick fuel pick' fuel' c c',
    from_grammar builtins g sh = Ok v ->
    from_grammar builtins (bar_grammar g) sh = Ok v' ->
    grammar_alts_nonempty g = true ->
    compile_valid pick fuel v = Ok c -> compile_valid pick' fuel' v' = Ok c' ->
    (forall u, erased_lang (accepts_items c) u <-> erased_lang (accepts_items c') u) /\
    (forall wild, (forall a w, wild (erase_witem a) w <-> wild a w) ->
       forall ws,
         (matched_words wild c ws <-> matched_words wild c' ws) /\
         (forall x, expected wild c ws x ->
            exists x' y, expected wild c' ws x' /\ erases (item_of_inp c x) y /\ erases (item_of_inp c' x') y) /\
         (forall x', expected wild c' ws x' ->
            exists x y, expected wild c ws x /\ erases (item_of_inp c' x') y /\ erases (item_of_inp c x) y)) /\
    (known_C09 c = false -> forall ws s1 s2,
       wpath none_wild c (d_start (c_main c)) ws s1 -> wpath none_wild c (d_start (c_main c)) ws s2 -> s1 = s2) /\
    (known_C09 c' = false -> forall ws s1 s2,
       wpath none_wild c' (d_start (c_main c')) ws s1 -> wpath none_wild c' (d_start (c_main c')) ws s2 -> s1 = s2).
Print Assumptions C09_fallback_transparent_compiled.

(** The tree-level fact behind (1): the two validated trees have the same normal form, and the
    normal form denotes the erased language. *)
Theorem C09_bar_same_normal_form :
  forall builtins g sh v v',
    from_grammar builtins g sh = Ok v -> from_grammar builtins (bar_grammar g) sh = Ok v' ->
    norm (v_expr v') = norm (v_expr v).
Proof. exact from_grammar_bar_norm. Qed.
Check C09_bar_same_normal_form :
  forall builtins g sh v v',
    from_grammar builtins g sh = Ok v -> from_grammar builtins (bar_grammar g) sh = Ok v' ->
    norm (v_expr v') = norm (v_expr v).
Print Assumptions C09_bar_same_normal_form.

Theorem C09_denotes_norm :
  forall e u, denotes (norm e) u <-> erased_lang (denotes e) u.
Proof. exact denotes_norm. Qed.
Check C09_denotes_norm :
  forall e u, denotes (norm e) u <-> erased_lang (denotes e) u.
Print Assumptions C09_denotes_norm.

(** No typed word has two readings with different continuations, on the GRAMMAR side: outside
    the known mechanisms, two readings (item words of the grammar whose items read the typed
    words one by one) of the same command line that can both be continued have the same
    continuations; in particular two expected items at the same point that read the same word
    lead to the same residual language. *)
Theorem C09_unambiguous_compiled :
  forall pick fuel v c,
    alts_nonempty (v_expr v) = true -> compile_valid pick fuel v = Ok c -> known_C09 c = false ->
    (forall ws p q,
       Forall2 (item_reads none_wild) p ws -> Forall2 (item_reads none_wild) q ws ->
       (exists r, denotes (v_expr v) (p ++ r)) -> (exists r, denotes (v_expr v) (q ++ r)) ->
       forall r, denotes (v_expr v) (p ++ r) <-> denotes (v_expr v) (q ++ r)) /\
    (forall ws p q x y w,
       Forall2 (item_reads none_wild) p ws -> Forall2 (item_reads none_wild) q ws ->
       item_reads none_wild x w -> item_reads none_wild y w ->
       (exists r, denotes (v_expr v) (p ++ x :: r)) -> (exists r, denotes (v_expr v) (q ++ y :: r)) ->
       forall r, denotes (v_expr v) (p ++ x :: r) <-> denotes (v_expr v) (q ++ y :: r)).
Proof.
  intros pick fuel v c Ha Hc Hk.
  assert (Hn : find c = None) by (unfold known_C09 in Hk; destruct (find c); [discriminate|reflexivity]).
  split; [apply (readings_same_continuations pick fuel v c Ha Hc Hn)|apply (same_word_same_continuations pick fuel v c Ha Hc Hn)].
Qed.
Check C09_unambiguous_compiled :
  forall pick fuel v c,
    alts_nonempty (v_expr v) = true -> compile_valid pick fuel v = Ok c -> known_C09 c = false ->
    (forall ws p q,
       Forall2 (item_reads none_wild) p ws -> Forall2 (item_reads none_wild) q ws ->
       (exists r, denotes (v_expr v) (p ++ r)) -> (exists r, denotes (v_expr v) (q ++ r)) ->
       forall r, denotes (v_expr v) (p ++ r) <-> denotes (v_expr v) (q ++ r)) /\
    (forall ws p q x y w,
       Forall2 (item_reads none_wild) p ws -> Forall2 (item_reads none_wild) q ws ->
       item_reads none_wild x w -> item_reads none_wild y w ->
       (exists r, denotes (v_expr v) (p ++ x :: r)) -> (exists r, denotes (v_expr v) (q ++ y :: r)) ->
       forall r, denotes (v_expr v) (p ++ x :: r) <-> denotes (v_expr v) (q ++ y :: r)).
Print Assumptions C09_unambiguous_compiled.

(** Compilation of the [|] variant need NOT succeed when that of the [||] grammar does, nor the
    other way round: the description-conflict check of [check_ambiguity_best_effort] sees the
    different distribution of a trailing description ([||] moves it to the first literal, [|]
    copies it into every branch).  Witnesses (same verdicts from the Rust binary):
    [cmd ((x || b) "d" | b);] compiles, its [|] variant is rejected (b "d" against b "");
    [cmd (a || a) "d";] is rejected (a "d" against a ""), its [|] variant compiles. *)
Definition verdict (x : dres cdfa) : string :=
  match x with
  | Ok _ => "ok"
  | Err (DAmb (ConflictingDescriptions _ l a b)) => append "conflicting descriptions " (append l (append "/" (append a (append "/" b))))
  | Err _ => "other error"
  | Panic _ => "panic"
  | OutOfFuel => "fuel"
  end.

Definition compile_c (text : string) : dres cdfa :=
  match compile pick_first 60 builtins text Bash with
  | Ok vc => Ok (snd vc) | Err e => Err e | Panic s => Panic s | OutOfFuel => OutOfFuel
  end.

Example ex_C09b_bar_asymmetry :
  verdict (compile_c "cmd ((x || b) ""d"" | b);") = "ok"
  /\ verdict (compile_bar pick_first 60 builtins "cmd ((x || b) ""d"" | b);" Bash) = "conflicting descriptions b/d/"
  /\ verdict (compile_c "cmd (a || a) ""d"";") = "conflicting descriptions a/d/"
  /\ verdict (compile_bar pick_first 60 builtins "cmd (a || a) ""d"";" Bash) = "ok".
Proof. vm_compute. repeat split; reflexivity. Qed.
Print Assumptions ex_C09b_bar_asymmetry.

(** Non-vacuity of the transparency theorem: a grammar with [||], a composite word and a
    description whose [|] variant compiles too; neither automaton is in the known class.
    ([compile_bar] runs parser, [bar_grammar], checker and [compile_valid]; that its two results
    meet the hypotheses of the theorem is read off its definition, no lemma says so.) *)
Example ex_C09b_inhabited :
  verdict (compile_c "cmd (--k=(x || y) | a ""d"") [b];") = "ok"
  /\ verdict (compile_bar pick_first 60 builtins "cmd (--k=(x || y) | a ""d"") [b];" Bash) = "ok"
  /\ match compile_c "cmd (--k=(x || y) | a ""d"") [b];",
           compile_bar pick_first 60 builtins "cmd (--k=(x || y) | a ""d"") [b];" Bash with
     | Ok c, Ok c' => known_C09 c = false /\ known_C09 c' = false
     | _, _ => False
     end.
Proof. vm_compute. repeat split; reflexivity. Qed.
Print Assumptions ex_C09b_inhabited.
