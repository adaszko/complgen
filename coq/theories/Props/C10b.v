(** C10 (continued) -- the order in which the subset construction pops its work-list is a per-process
    accident of a hash set (src/dfa.rs dfa_from_regex: `unmarked_states`); the model takes it as the
    oracle [pick].  What is proved here: whatever two processes pick, the two raw automata have the
    same input table, accept the same input-id words, and the states they reach on one word stand for
    the same set of regex positions -- i.e. they are the same automaton up to the numbering of states,
    the numbering that [renumber_states] then fixes in transition order.  Together with
    [C03_order_independent] (Props/C03.v: the partition Hopcroft ends with does not depend on its own
    work-list order) this is the proved part of "work-list orders do not leak into the output"; that
    the canonical renumbering turns "same up to numbering" into byte equality is checked per run
    (lib/vf/checks/c10.py, fresh processes), not proved.
    Both theorems are conjuncts of [subset_run] (Proofs/SubsetConstr.v, stated in
    Proofs/SubsetStmt.v), taken once per run. *)
From CG Require Import Base.Prelude Model.Ast Model.Dfa Model.Regex Model.Subset.
From CG Require Import Proofs.SubsetStmt Proofs.SubsetConstr.

Theorem C10_pop_order_same_automaton :
  forall pick1 pick2 fuel1 fuel2 submap r d1 states1 d2 states2 labels,
    dfa_from_regex pick1 fuel1 submap r = Ok (d1, states1) ->
    dfa_from_regex pick2 fuel2 submap r = Ok (d2, states2) ->
    omap (from_input submap) (r_inputs r) = Ok labels ->
    d_inputs d1 = d_inputs d2 /\
    (forall ids, accepts d1 ids = true <-> accepts d2 ids = true) /\
    (forall ids s1 s2,
        run d1 (d_start d1) ids = Some s1 -> run d2 (d_start d2) ids = Some s2 ->
        exists S, In (S, s1) states1 /\ In (S, s2) states2).
Proof.
  intros pick1 pick2 fuel1 fuel2 submap r d1 states1 d2 states2 labels H1 H2 HL.
  pose proof (subset_run pick1 fuel1 submap r d1 states1 labels H1 HL) as P1.
  pose proof (subset_run pick2 fuel2 submap r d2 states2 labels H2 HL) as P2.
  cbv zeta in P1, P2.
  destruct P1 as [I1 [_ [_ [_ [_ [R1 [A1 _]]]]]]].
  destruct P2 as [I2 [_ [_ [_ [_ [R2 [A2 _]]]]]]].
  split; [rewrite I1, I2; reflexivity|]. split.
  - intro ids. rewrite (A1 ids), (A2 ids). tauto.
  - intros ids s1 s2 E1 E2. specialize (R1 ids). specialize (R2 ids). rewrite E1 in R1. rewrite E2 in R2.
    eexists. split; [exact R1 | exact R2].
Qed.
Check C10_pop_order_same_automaton :
  forall pick1 pick2 fuel1 fuel2 submap r d1 states1 d2 states2 labels,
    dfa_from_regex pick1 fuel1 submap r = Ok (d1, states1) ->
    dfa_from_regex pick2 fuel2 submap r = Ok (d2, states2) ->
    omap (from_input submap) (r_inputs r) = Ok labels ->
    d_inputs d1 = d_inputs d2 /\
    (forall ids, accepts d1 ids = true <-> accepts d2 ids = true) /\
    (forall ids s1 s2,
        run d1 (d_start d1) ids = Some s1 -> run d2 (d_start d2) ids = Some s2 ->
        exists S, In (S, s1) states1 /\ In (S, s2) states2).
Print Assumptions C10_pop_order_same_automaton.

(** In the table [states] of a run a state stands for one position set and a position set has one
    state; with this for both runs, the correspondence of the theorem above is one-to-one. *)
Theorem C10_pop_order_states_bijective :
  forall pick fuel submap r d states labels,
    dfa_from_regex pick fuel submap r = Ok (d, states) ->
    omap (from_input submap) (r_inputs r) = Ok labels ->
    NoDup (map fst states) /\ NoDup (map snd states).
Proof.
  intros pick fuel submap r d states labels H HL.
  pose proof (subset_run pick fuel submap r d states labels H HL) as P. cbv zeta in P.
  destruct P as [_ [_ [_ [N1 [N2 _]]]]]. split; assumption.
Qed.
Check C10_pop_order_states_bijective :
  forall pick fuel submap r d states labels,
    dfa_from_regex pick fuel submap r = Ok (d, states) ->
    omap (from_input submap) (r_inputs r) = Ok labels ->
    NoDup (map fst states) /\ NoDup (map snd states).
Print Assumptions C10_pop_order_states_bijective.

(** Non-vacuity: [(a b e | c d f)] compiled under two pop orders.  Both succeed with six states,
    the two automata differ, and the hypotheses of [C10_pop_order_same_automaton] hold of the
    pair (the example stops there: it does not apply the theorem). *)
Definition ex10_sp := mkspan 1 1 2.
Definition ex10_lit (s : string) : expr := Terminal s None 0 ex10_sp.
Definition ex10_e : expr :=
  Alternative [Sequence [ex10_lit "a"; ex10_lit "b"; ex10_lit "e"] ex10_sp;
               Sequence [ex10_lit "c"; ex10_lit "d"; ex10_lit "f"] ex10_sp] ex10_sp.

Example ex_C10b_inhabited :
  exists r pl d1 states1 d2 states2 labels,
    from_expr ex10_e [] = Ok (r, pl) /\
    dfa_from_regex pick_first 50 [] r = Ok (d1, states1) /\
    dfa_from_regex pick_last 50 [] r = Ok (d2, states2) /\
    omap (from_input []) (r_inputs r) = Ok labels /\
    d1 <> d2 /\ List.length states1 = 6%nat /\ List.length states2 = 6%nat.
Proof.
  do 7 eexists.
  split; [vm_compute; reflexivity|].
  split; [vm_compute; reflexivity|].
  split; [vm_compute; reflexivity|].
  split; [vm_compute; reflexivity|].
  split; [discriminate|]. split; vm_compute; reflexivity.
Qed.
Print Assumptions ex_C10b_inhabited.
