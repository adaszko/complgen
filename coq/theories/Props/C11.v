(** C11 -- the definition chosen for a nonterminal is the one for the target shell.
    The theorems restate lemmas of Proofs/CheckChoice.v. *)
From CG Require Import Base.Prelude Model.Ast Model.Check Spec.Choice Proofs.CheckChoice.
From CGgen Require Import Consts.

(** For every grammar whose definitions the checker accepts, every target shell and every
    reference [<x>] (wherever it occurs), the node the model of check.rs puts in its place means
    exactly what the specification prescribes. *)
Theorem C11_choice :
  forall (builtins : shell -> list (string * string)) g sh us fs defs x l sp,
    get_specializations g sh = Ok (us, fs) ->
    collect_plain_defs (all_defs g) [] = Ok defs ->
    meaning (plain_definition g)
            (specialize_ref sh us (builtins sh) fs (map d_name defs) x l sp)
    = Choice.spec builtins g sh x.
Proof. exact choice_correct. Qed.
Check C11_choice :
  forall (builtins : shell -> list (string * string)) g sh us fs defs x l sp,
    get_specializations g sh = Ok (us, fs) ->
    collect_plain_defs (all_defs g) [] = Ok defs ->
    meaning (plain_definition g)
            (specialize_ref sh us (builtins sh) fs (map d_name defs) x l sp)
    = Choice.spec builtins g sh x.
Print Assumptions C11_choice.

Theorem C11_other_shells_ignored :
  forall builtins g sh x n nsp shn shsp rhs,
    is_shell shn sh = false ->
    Choice.spec builtins (NontermDef n nsp (Some (shn, shsp)) rhs :: g) sh x
    = Choice.spec builtins g sh x.
Proof. exact spec_ignores_other_shells. Qed.
Check C11_other_shells_ignored :
  forall builtins g sh x n nsp shn shsp rhs,
    is_shell shn sh = false ->
    Choice.spec builtins (NontermDef n nsp (Some (shn, shsp)) rhs :: g) sh x
    = Choice.spec builtins g sh x.
Print Assumptions C11_other_shells_ignored.

(** Non-vacuity: a grammar with a plain and two shell-specific definitions of PATH is accepted,
    and the three targets get three different meanings (with the regenerated built-in table). *)
Definition ex_sp := mkspan 1 1 2.
Definition ex_g : grammar :=
  [ CallVariant "cmd" ex_sp (NontermRef "PATH" 0 ex_sp);
    NontermDef "PATH" ex_sp None (Command "plain" false 0 ex_sp);
    NontermDef "PATH" ex_sp (Some ("zsh", ex_sp)) (Command "forzsh" false 0 ex_sp);
    NontermDef "DIRECTORY" ex_sp (Some ("fish", ex_sp)) (Command "forfish" false 0 ex_sp) ].

Example ex_C11_inhabited :
  is_ok (get_specializations ex_g Zsh) = true
  /\ is_ok (collect_plain_defs (all_defs ex_g) []) = true
  /\ Choice.spec builtins ex_g Zsh "PATH" = ChCommand "forzsh"
  /\ Choice.spec builtins ex_g Bash "PATH" = ChPlain (Command "plain" false 0 ex_sp)
  /\ Choice.spec builtins ex_g Fish "DIRECTORY" = ChCommand "forfish"
  /\ (exists c, Choice.spec builtins ex_g Bash "DIRECTORY" = ChCommand c)
  /\ Choice.spec builtins ex_g Bash "FOO" = ChAny.
Proof. vm_compute. repeat split; try reflexivity. eexists; reflexivity. Qed.
Print Assumptions ex_C11_inhabited.
