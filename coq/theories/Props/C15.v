(** C15 -- warnings are complete, precise and harmless (checker part).
    The theorems restate lemmas of Proofs/CheckWarnings.v, CheckUndefined.v ([C15_undefined]) and
    CheckOrder.v ([C15_unused_removable]).

    On every grammar the model of [ValidGrammar::from_grammar] accepts, the "unused" maps hold
    exactly the names the specification (Spec/Warnings.v, written from the property text) asks
    for, each once, each with the span of the name of one of its definitions in the source
    grammar; and the accepted command and expression are computed without the bookkeeping. *)
From CG Require Import Base.Prelude Model.Ast Model.Check Spec.Choice Spec.Mistakes Spec.Warnings.
From CG Require Import Proofs.CheckLemmas Proofs.CheckWarnings Proofs.CheckOrder Proofs.CheckUndefined.
From CGgen Require Import Consts.

Theorem C15_unused_plain :
  forall builtins g sh v,
    from_grammar builtins g sh = Ok v ->
    map fst (v_unused v) = unused_plain g /\ NoDup (map fst (v_unused v)) /\
    forall n sp, In (n, sp) (v_unused v) -> exists rhs, In (NontermDef n sp None rhs) g.
Proof. exact unused_plain_exact. Qed.
Check C15_unused_plain :
  forall builtins g sh v,
    from_grammar builtins g sh = Ok v ->
    map fst (v_unused v) = unused_plain g /\ NoDup (map fst (v_unused v)) /\
    forall n sp, In (n, sp) (v_unused v) -> exists rhs, In (NontermDef n sp None rhs) g.
Print Assumptions C15_unused_plain.

Theorem C15_unused_for_shell :
  forall builtins g sh v,
    from_grammar builtins g sh = Ok v ->
    map fst (v_unused_specs v) = unused_for_shell g sh /\ NoDup (map fst (v_unused_specs v)) /\
    forall n sp, In (n, sp) (v_unused_specs v) ->
                 exists shn shsp rhs, In (NontermDef n sp (Some (shn, shsp)) rhs) g /\
                                      is_shell shn sh = true.
Proof. exact unused_for_shell_exact. Qed.
Check C15_unused_for_shell :
  forall builtins g sh v,
    from_grammar builtins g sh = Ok v ->
    map fst (v_unused_specs v) = unused_for_shell g sh /\ NoDup (map fst (v_unused_specs v)) /\
    forall n sp, In (n, sp) (v_unused_specs v) ->
                 exists shn shsp rhs, In (NontermDef n sp (Some (shn, shsp)) rhs) g /\
                                      is_shell shn sh = true.
Print Assumptions C15_unused_for_shell.

(** The "undefined" map holds, each once, exactly the names that the call variants use,
    directly or through chosen plain definitions, and that stand for "any word" for the target
    shell ([Warnings.undefined]; the exemption of [<_>] is applied by main.rs when printing). *)
Theorem C15_undefined :
  forall builtins g sh v,
    from_grammar builtins g sh = Ok v ->
    (forall y, In y (map fst (v_undefined v)) <-> In y (undefined builtins g sh))
    /\ NoDup (map fst (v_undefined v)).
Proof. exact undefined_exact. Qed.
Check C15_undefined :
  forall builtins g sh v,
    from_grammar builtins g sh = Ok v ->
    (forall y, In y (map fst (v_undefined v)) <-> In y (undefined builtins g sh))
    /\ NoDup (map fst (v_undefined v)).
Print Assumptions C15_undefined.

(** The verdict, the command and the validated expression are the result of
    [from_grammar_core], which is [from_grammar] with the three warning maps deleted. *)
Theorem C15_harmless :
  forall builtins g sh,
    outcome_map (fun v => (v_command v, v_expr v)) (from_grammar builtins g sh)
    = from_grammar_core builtins g sh.
Proof. exact warnings_harmless. Qed.
Check C15_harmless :
  forall builtins g sh,
    outcome_map (fun v => (v_command v, v_expr v)) (from_grammar builtins g sh)
    = from_grammar_core builtins g sh.
Print Assumptions C15_harmless.

(** Deleting every definition whose name no statement refers to (exactly the definitions the
    two "unused" warnings are about, plus definitions for other shells) changes neither the
    verdict nor the command nor the validated expression: the definitions warned about are
    dead, the warning is only a warning. *)
Theorem C15_unused_removable :
  forall builtins g sh v,
    from_grammar builtins g sh = Ok v ->
    exists v', from_grammar builtins (remove_unused g) sh = Ok v'
               /\ v_command v' = v_command v /\ v_expr v' = v_expr v.
Proof. exact remove_unused_harmless. Qed.
Check C15_unused_removable :
  forall builtins g sh v,
    from_grammar builtins g sh = Ok v ->
    exists v', from_grammar builtins (remove_unused g) sh = Ok v'
               /\ v_command v' = v_command v /\ v_expr v' = v_expr v.
Print Assumptions C15_unused_removable.

(** Non-vacuity: an accepted grammar with one unused plain definition, one unused definition
    for the target shell, a used definition reached only through another one, and an unused
    definition for another shell (not reported). *)
Definition ex_sp (n : N) := mkspan n 1 2.
Definition ex_g : grammar :=
  [ CallVariant "cmd" (ex_sp 1) (Sequence [NontermRef "A" 0 (ex_sp 1); NontermRef "S" 0 (ex_sp 1)] (ex_sp 1));
    NontermDef "A" (ex_sp 2) None (DistDescr (NontermRef "B" 0 (ex_sp 2)) "d" (ex_sp 2));
    NontermDef "B" (ex_sp 3) None (Terminal "y" None 0 (ex_sp 3));
    NontermDef "U" (ex_sp 4) None (NontermRef "B" 0 (ex_sp 4));
    NontermDef "S" (ex_sp 5) (Some ("bash", ex_sp 5)) (Command "s" false 0 (ex_sp 5));
    NontermDef "T" (ex_sp 6) (Some ("bash", ex_sp 6)) (Command "t" false 0 (ex_sp 6));
    NontermDef "T" (ex_sp 7) (Some ("fish", ex_sp 7)) (Command "t" false 0 (ex_sp 7)) ].

Example ex_C15_inhabited :
  (exists v, from_grammar builtins ex_g Bash = Ok v
             /\ v_unused v = [("U", ex_sp 4)] /\ v_unused_specs v = [("T", ex_sp 6)])
  /\ undefined builtins (ex_g ++ [CallVariant "cmd" (ex_sp 8) (Optional (NontermRef "X" 0 (ex_sp 8)) (ex_sp 8))])%list Bash = ["X"]
  /\ unused_plain ex_g = ["U"] /\ unused_for_shell ex_g Bash = ["T"]
  /\ unused_for_shell ex_g Zsh = []
  /\ List.length (remove_unused ex_g) = 4%nat.
Proof. vm_compute. split; [eexists; split; [reflexivity|split; reflexivity]|repeat split; reflexivity]. Qed.
Print Assumptions ex_C15_inhabited.
