(** C04 -- every emitted script embeds exactly the compiled automaton.
    Statements only; proofs live in Proofs/TablesSound.v (tables) and Proofs/BashCodec.v (script).

    Vocabulary: [trans_on d s x t] = the automaton [d] has a transition from state [s] to [t] on
    input [x] (Dfa.step); [lit_at ord start l text descr] = position [l - start] of the literal
    order [ord] holds (text, descr), i.e. literal id [l] (ids start at the shell's array base);
    [tbl_has m s k t] = the match table [m] maps (state [s], key [k]) to [t]; [mem3 L k s id] = the
    completion table [L] lists [id] for fallback level [k] and state [s].  The literal order is
    a parameter (ties of an unstable sort, DESIGN 4.3): every theorem holds for every duplicate-free
    order, and [C04_valid_order_covers] says a valid order numbers every literal of the automaton. *)
From CG Require Import Base.Prelude Model.Ast Model.Dfa Model.Tpl Model.Quote Model.Tables Model.EmitBash
     Spec.ShellDQ Spec.ScriptRead Proofs.TablesSound Proofs.BashCodec Proofs.BashScript Proofs.BashScriptRead.
From CGgen Require Import TplBash.
Open Scope N_scope.
Open Scope list_scope.

(** the literal list: ids are consecutive from the array base; each id carries its text and its description *)
Theorem C04_literal_list :
  forall (d : dfa) (cmds : list string) (start : N) (nc ncp ns : bool) (ord : list (string * string)) (t : tables),
    get_lookup_tables d cmds start nc ncp ns ord = Ok t ->
    forall (l : N) (text ds : string), In (l, text, ds) (t_literals t) <-> lit_at ord start l text ds.
Proof. exact literals_exact. Qed.
Check C04_literal_list :
  forall (d : dfa) (cmds : list string) (start : N) (nc ncp ns : bool) (ord : list (string * string)) (t : tables),
    get_lookup_tables d cmds start nc ncp ns ord = Ok t ->
    forall (l : N) (text ds : string), In (l, text, ds) (t_literals t) <-> lit_at ord start l text ds.
Print Assumptions C04_literal_list.

(** every literal input gets an id *)
Theorem C04_valid_order_covers :
  forall (d : dfa) (ord : list (string * string)) (start i : N) (text : string) (dso : option string) (lvl : N),
    valid_literal_order d ord = true -> nthN (d_inputs d) i = Some (ILit text dso lvl) ->
    exists l : N, lit_at ord start l text (unwrap_descr dso).
Proof. exact valid_order_covers. Qed.
Check C04_valid_order_covers :
  forall (d : dfa) (ord : list (string * string)) (start i : N) (text : string) (dso : option string) (lvl : N),
    valid_literal_order d ord = true -> nthN (d_inputs d) i = Some (ILit text dso lvl) ->
    exists l : N, lit_at ord start l text (unwrap_descr dso).
Print Assumptions C04_valid_order_covers.

(** next state for (state, literal): every table entry is a transition of the automaton on that literal *)
Theorem C04_match_literal_sound :
  forall (d : dfa) (cmds : list string) (start : N) (nc ncp ns : bool) (ord : list (string * string)) (t : tables),
    dfa_wf d ->
    NoDup ord -> get_lookup_tables d cmds start nc ncp ns ord = Ok t ->
    forall s l to : N, tbl_has (t_mlit t) s l to ->
    exists (text : string) (dso : option string) (lvl : N),
      trans_on d s (ILit text dso lvl) to /\ lit_at ord start l text (unwrap_descr dso).
Proof. exact mlit_sound. Qed.
Check C04_match_literal_sound :
  forall (d : dfa) (cmds : list string) (start : N) (nc ncp ns : bool) (ord : list (string * string)) (t : tables),
    dfa_wf d ->
    NoDup ord -> get_lookup_tables d cmds start nc ncp ns ord = Ok t ->
    forall s l to : N, tbl_has (t_mlit t) s l to ->
    exists (text : string) (dso : option string) (lvl : N),
      trans_on d s (ILit text dso lvl) to /\ lit_at ord start l text (unwrap_descr dso).
Print Assumptions C04_match_literal_sound.

(** ... and every literal transition is in the table, provided no two transitions from that state carry the same literal id (see C04_refuted_same_text_two_levels) *)
Theorem C04_match_literal_complete :
  forall (d : dfa) (cmds : list string) (start : N) (nc ncp ns : bool) (ord : list (string * string)) (t : tables),
    dfa_wf d ->
    NoDup ord -> get_lookup_tables d cmds start nc ncp ns ord = Ok t ->
    forall (s : N) (text : string) (dso : option string) (lvl to l : N),
    trans_on d s (ILit text dso lvl) to -> lit_at ord start l text (unwrap_descr dso) ->
    keys_unique d (lit_sel (all_literals ord start)) s -> tbl_has (t_mlit t) s l to.
Proof. exact mlit_complete. Qed.
Check C04_match_literal_complete :
  forall (d : dfa) (cmds : list string) (start : N) (nc ncp ns : bool) (ord : list (string * string)) (t : tables),
    dfa_wf d ->
    NoDup ord -> get_lookup_tables d cmds start nc ncp ns ord = Ok t ->
    forall (s : N) (text : string) (dso : option string) (lvl to l : N),
    trans_on d s (ILit text dso lvl) to -> lit_at ord start l text (unwrap_descr dso) ->
    keys_unique d (lit_sel (all_literals ord start)) s -> tbl_has (t_mlit t) s l to.
Print Assumptions C04_match_literal_complete.

(** next state for (state, command) *)
Theorem C04_match_command_sound :
  forall (d : dfa) (cmds : list string) (start : N) (nc ncp ns : bool) (ord : list (string * string)) (t : tables),
    dfa_wf d ->
    get_lookup_tables d cmds start nc ncp ns ord = Ok t ->
    forall (m : list (N * list (N * N))) (s c to : N), t_mcmd t = Some m -> tbl_has m s c to ->
    exists (cmd : string) (lvl : N), trans_on d s (ICmd cmd lvl) to /\ index_of cmd cmds = Some c.
Proof. exact mcmd_sound. Qed.
Check C04_match_command_sound :
  forall (d : dfa) (cmds : list string) (start : N) (nc ncp ns : bool) (ord : list (string * string)) (t : tables),
    dfa_wf d ->
    get_lookup_tables d cmds start nc ncp ns ord = Ok t ->
    forall (m : list (N * list (N * N))) (s c to : N), t_mcmd t = Some m -> tbl_has m s c to ->
    exists (cmd : string) (lvl : N), trans_on d s (ICmd cmd lvl) to /\ index_of cmd cmds = Some c.
Print Assumptions C04_match_command_sound.

Theorem C04_match_command_complete :
  forall (d : dfa) (cmds : list string) (start : N) (nc ncp ns : bool) (ord : list (string * string)) (t : tables),
    dfa_wf d ->
    get_lookup_tables d cmds start nc ncp ns ord = Ok t ->
    forall (m : list (N * list (N * N))) (s : N) (cmd : string) (lvl to c : N),
    t_mcmd t = Some m -> trans_on d s (ICmd cmd lvl) to -> index_of cmd cmds = Some c ->
    keys_unique d (cmd_sel cmds) s -> tbl_has m s c to.
Proof. exact mcmd_complete. Qed.
Check C04_match_command_complete :
  forall (d : dfa) (cmds : list string) (start : N) (nc ncp ns : bool) (ord : list (string * string)) (t : tables),
    dfa_wf d ->
    get_lookup_tables d cmds start nc ncp ns ord = Ok t ->
    forall (m : list (N * list (N * N))) (s : N) (cmd : string) (lvl to c : N),
    t_mcmd t = Some m -> trans_on d s (ICmd cmd lvl) to -> index_of cmd cmds = Some c ->
    keys_unique d (cmd_sel cmds) s -> tbl_has m s c to.
Print Assumptions C04_match_command_complete.

(** zsh: next state for (state, compadd command) *)
Theorem C04_match_compadd_sound :
  forall (d : dfa) (cmds : list string) (start : N) (nc ncp ns : bool) (ord : list (string * string)) (t : tables),
    dfa_wf d ->
    get_lookup_tables d cmds start nc ncp ns ord = Ok t ->
    forall (m : list (N * list (N * N))) (s c to : N), t_mcompadd t = Some m -> tbl_has m s c to ->
    exists (cmd : string) (lvl : N), trans_on d s (ICompadd cmd lvl) to /\ index_of cmd cmds = Some c.
Proof. exact mcompadd_sound. Qed.
Check C04_match_compadd_sound :
  forall (d : dfa) (cmds : list string) (start : N) (nc ncp ns : bool) (ord : list (string * string)) (t : tables),
    dfa_wf d ->
    get_lookup_tables d cmds start nc ncp ns ord = Ok t ->
    forall (m : list (N * list (N * N))) (s c to : N), t_mcompadd t = Some m -> tbl_has m s c to ->
    exists (cmd : string) (lvl : N), trans_on d s (ICompadd cmd lvl) to /\ index_of cmd cmds = Some c.
Print Assumptions C04_match_compadd_sound.

Theorem C04_match_compadd_complete :
  forall (d : dfa) (cmds : list string) (start : N) (nc ncp ns : bool) (ord : list (string * string)) (t : tables),
    dfa_wf d ->
    get_lookup_tables d cmds start nc ncp ns ord = Ok t ->
    forall (m : list (N * list (N * N))) (s : N) (cmd : string) (lvl to c : N),
    t_mcompadd t = Some m -> trans_on d s (ICompadd cmd lvl) to -> index_of cmd cmds = Some c ->
    keys_unique d (compadd_sel cmds) s -> tbl_has m s c to.
Proof. exact mcompadd_complete. Qed.
Check C04_match_compadd_complete :
  forall (d : dfa) (cmds : list string) (start : N) (nc ncp ns : bool) (ord : list (string * string)) (t : tables),
    dfa_wf d ->
    get_lookup_tables d cmds start nc ncp ns ord = Ok t ->
    forall (m : list (N * list (N * N))) (s : N) (cmd : string) (lvl to c : N),
    t_mcompadd t = Some m -> trans_on d s (ICompadd cmd lvl) to -> index_of cmd cmds = Some c ->
    keys_unique d (compadd_sel cmds) s -> tbl_has m s c to.
Print Assumptions C04_match_compadd_complete.

(** next state for (state, any word): exactly the star transitions (a swapped from/to would falsify this) *)
Theorem C04_match_star_exact :
  forall (d : dfa) (cmds : list string) (start : N) (nc ncp ns : bool) (ord : list (string * string)) (t : tables),
    dfa_wf d ->
    get_lookup_tables d cmds start nc ncp ns ord = Ok t ->
    forall (l : list (N * N)) (s to : N), t_mstar t = Some l -> In (s, to) l <-> trans_on d s IStar to.
Proof. exact mstar_exact. Qed.
Check C04_match_star_exact :
  forall (d : dfa) (cmds : list string) (start : N) (nc ncp ns : bool) (ord : list (string * string)) (t : tables),
    dfa_wf d ->
    get_lookup_tables d cmds start nc ncp ns ord = Ok t ->
    forall (l : list (N * N)) (s to : N), t_mstar t = Some l -> In (s, to) l <-> trans_on d s IStar to.
Print Assumptions C04_match_star_exact.

(** candidates per (fallback level, state): exactly the literal inputs of that level leaving that state *)
Theorem C04_completion_literal_exact :
  forall (d : dfa) (cmds : list string) (start : N) (nc ncp ns : bool) (ord : list (string * string)) (t : tables),
    dfa_wf d ->
    NoDup ord -> get_lookup_tables d cmds start nc ncp ns ord = Ok t ->
    forall k s l : N, mem3 (t_clit t) k s l <->
    (exists (text : string) (dso : option string) (to : N),
       trans_on d s (ILit text dso k) to /\ lit_at ord start l text (unwrap_descr dso)).
Proof. exact clit_exact. Qed.
Check C04_completion_literal_exact :
  forall (d : dfa) (cmds : list string) (start : N) (nc ncp ns : bool) (ord : list (string * string)) (t : tables),
    dfa_wf d ->
    NoDup ord -> get_lookup_tables d cmds start nc ncp ns ord = Ok t ->
    forall k s l : N, mem3 (t_clit t) k s l <->
    (exists (text : string) (dso : option string) (to : N),
       trans_on d s (ILit text dso k) to /\ lit_at ord start l text (unwrap_descr dso)).
Print Assumptions C04_completion_literal_exact.

(** one candidate table per level 0..max *)
Theorem C04_completion_levels :
  forall (d : dfa) (cmds : list string) (start : N) (nc ncp ns : bool) (ord : list (string * string)) (t : tables),
    get_lookup_tables d cmds start nc ncp ns ord = Ok t ->
    List.length (t_clit t) = (N.to_nat (t_maxlevel t) + 1)%nat.
Proof. exact clit_levels. Qed.
Check C04_completion_levels :
  forall (d : dfa) (cmds : list string) (start : N) (nc ncp ns : bool) (ord : list (string * string)) (t : tables),
    get_lookup_tables d cmds start nc ncp ns ord = Ok t ->
    List.length (t_clit t) = (N.to_nat (t_maxlevel t) + 1)%nat.
Print Assumptions C04_completion_levels.

Theorem C04_completion_command_exact :
  forall (d : dfa) (cmds : list string) (start : N) (nc ncp ns : bool) (ord : list (string * string)) (t : tables),
    dfa_wf d ->
    get_lookup_tables d cmds start nc ncp ns ord = Ok t ->
    forall (m : list (list (N * list N))) (k s c : N), t_ccmd t = Some m ->
    mem3 m k s c <-> (exists (cmd : string) (to : N), trans_on d s (ICmd cmd k) to /\ index_of cmd cmds = Some c).
Proof. exact ccmd_exact. Qed.
Check C04_completion_command_exact :
  forall (d : dfa) (cmds : list string) (start : N) (nc ncp ns : bool) (ord : list (string * string)) (t : tables),
    dfa_wf d ->
    get_lookup_tables d cmds start nc ncp ns ord = Ok t ->
    forall (m : list (list (N * list N))) (k s c : N), t_ccmd t = Some m ->
    mem3 m k s c <-> (exists (cmd : string) (to : N), trans_on d s (ICmd cmd k) to /\ index_of cmd cmds = Some c).
Print Assumptions C04_completion_command_exact.

Theorem C04_completion_compadd_exact :
  forall (d : dfa) (cmds : list string) (start : N) (nc ncp ns : bool) (ord : list (string * string)) (t : tables),
    dfa_wf d ->
    get_lookup_tables d cmds start nc ncp ns ord = Ok t ->
    forall (m : list (list (N * list N))) (k s c : N), t_ccompadd t = Some m ->
    mem3 m k s c <-> (exists (cmd : string) (to : N), trans_on d s (ICompadd cmd k) to /\ index_of cmd cmds = Some c).
Proof. exact ccompadd_exact. Qed.
Check C04_completion_compadd_exact :
  forall (d : dfa) (cmds : list string) (start : N) (nc ncp ns : bool) (ord : list (string * string)) (t : tables),
    dfa_wf d ->
    get_lookup_tables d cmds start nc ncp ns ord = Ok t ->
    forall (m : list (list (N * list N))) (k s c : N), t_ccompadd t = Some m ->
    mem3 m k s c <-> (exists (cmd : string) (to : N), trans_on d s (ICompadd cmd k) to /\ index_of cmd cmds = Some c).
Print Assumptions C04_completion_compadd_exact.

(** next state for (state, within-word automaton) *)
Theorem C04_match_subword_exact :
  forall (sh : shell) (c : cdfa) (om : list (string * string)) (os : list (N * list (string * string))) (nd : needs) (a : alltables),
    dfa_wf (c_main c) -> all_tables sh c om os = Ok (nd, a) ->
    forall s pi to : N,
    (exists row : list (N * N), In (s, row) (a_subtrans a) /\ In (pi, to) row)
    <-> (exists lvl : N, trans_on (c_main c) s (ISub pi lvl) to).
Proof. exact subtrans_exact. Qed.
Check C04_match_subword_exact :
  forall (sh : shell) (c : cdfa) (om : list (string * string)) (os : list (N * list (string * string))) (nd : needs) (a : alltables),
    dfa_wf (c_main c) -> all_tables sh c om os = Ok (nd, a) ->
    forall s pi to : N,
    (exists row : list (N * N), In (s, row) (a_subtrans a) /\ In (pi, to) row)
    <-> (exists lvl : N, trans_on (c_main c) s (ISub pi lvl) to).
Print Assumptions C04_match_subword_exact.

Theorem C04_completion_subword_exact :
  forall (sh : shell) (c : cdfa) (om : list (string * string)) (os : list (N * list (string * string))) (nd : needs) (a : alltables),
    dfa_wf (c_main c) -> all_tables sh c om os = Ok (nd, a) ->
    forall k s id : N, mem3 (a_csub a) k s id <->
    (exists (rt : list (N * inp * N)) (pi to : N),
       rtrans (c_main c) = Ok rt /\ trans_on (c_main c) s (ISub pi k) to
       /\ assocN pi (get_subwords rt (array_start sh)) = Some id).
Proof. exact csub_exact. Qed.
Check C04_completion_subword_exact :
  forall (sh : shell) (c : cdfa) (om : list (string * string)) (os : list (N * list (string * string))) (nd : needs) (a : alltables),
    dfa_wf (c_main c) -> all_tables sh c om os = Ok (nd, a) ->
    forall k s id : N, mem3 (a_csub a) k s id <->
    (exists (rt : list (N * inp * N)) (pi to : N),
       rtrans (c_main c) = Ok rt /\ trans_on (c_main c) s (ISub pi k) to
       /\ assocN pi (get_subwords rt (array_start sh)) = Some id).
Print Assumptions C04_completion_subword_exact.

(** one table set per within-word automaton met on a transition, computed from that very automaton (the theorems above then apply to it) *)
Theorem C04_subword_tables_exact :
  forall (sh : shell) (c : cdfa) (om : list (string * string)) (os : list (N * list (string * string))) (nd : needs) (a : alltables),
    all_tables sh c om os = Ok (nd, a) ->
    forall (pi id : N) (t : tables), In (pi, id, t) (a_subwords a) <->
    (exists (rt : list (N * inp * N)) (sd : dfa),
       rtrans (c_main c) = Ok rt /\ In (pi, id) (get_subwords rt (array_start sh)) /\ nthN (c_subs c) pi = Some sd
       /\ get_lookup_tables sd (a_commands a) (array_start sh) (n_sub_cmd nd) (compadd_switch sh (n_sub_compadd nd))
            (n_sub_star nd) (match assocN pi os with Some o => o | None => [] end) = Ok t).
Proof. exact subwords_exact. Qed.
Check C04_subword_tables_exact :
  forall (sh : shell) (c : cdfa) (om : list (string * string)) (os : list (N * list (string * string))) (nd : needs) (a : alltables),
    all_tables sh c om os = Ok (nd, a) ->
    forall (pi id : N) (t : tables), In (pi, id, t) (a_subwords a) <->
    (exists (rt : list (N * inp * N)) (sd : dfa),
       rtrans (c_main c) = Ok rt /\ In (pi, id) (get_subwords rt (array_start sh)) /\ nthN (c_subs c) pi = Some sd
       /\ get_lookup_tables sd (a_commands a) (array_start sh) (n_sub_cmd nd) (compadd_switch sh (n_sub_compadd nd))
            (n_sub_star nd) (match assocN pi os with Some o => o | None => [] end) = Ok t).
Print Assumptions C04_subword_tables_exact.

(** bash (df274e8): the accepting states embedded for a within-word automaton are those of that automaton *)
Theorem C04_subword_accepting_exact :
  forall (sh : shell) (c : cdfa) (om : list (string * string)) (os : list (N * list (string * string))) (nd : needs) (a : alltables),
    all_tables sh c om os = Ok (nd, a) ->
    forall (id : N) (accs : list N), In (id, accs) (a_subaccepting a) <->
    (exists (rt : list (N * inp * N)) (pi : N) (sd : dfa),
       rtrans (c_main c) = Ok rt /\ In (pi, id) (get_subwords rt (array_start sh)) /\ nthN (c_subs c) pi = Some sd
       /\ accs = map (fun s => s + array_start sh) (d_accepting sd)).
Proof. exact subaccepting_exact. Qed.
Check C04_subword_accepting_exact :
  forall (sh : shell) (c : cdfa) (om : list (string * string)) (os : list (N * list (string * string))) (nd : needs) (a : alltables),
    all_tables sh c om os = Ok (nd, a) ->
    forall (id : N) (accs : list N), In (id, accs) (a_subaccepting a) <->
    (exists (rt : list (N * inp * N)) (pi : N) (sd : dfa),
       rtrans (c_main c) = Ok rt /\ In (pi, id) (get_subwords rt (array_start sh)) /\ nthN (c_subs c) pi = Some sd
       /\ accs = map (fun s => s + array_start sh) (d_accepting sd)).
Print Assumptions C04_subword_accepting_exact.

(** script ids of within-word automata: consecutive from the array base, one per automaton *)
Theorem C04_subword_ids :
  forall (rt : list (N * inp * N)) (first : N),
    map snd (get_subwords rt first) = map (fun k : nat => first + N.of_nat k) (seq 0 (List.length (get_subwords rt first)))
    /\ NoDup (map fst (get_subwords rt first)).
Proof. exact get_subwords_ids. Qed.
Check C04_subword_ids :
  forall (rt : list (N * inp * N)) (first : N),
    map snd (get_subwords rt first) = map (fun k : nat => first + N.of_nat k) (seq 0 (List.length (get_subwords rt first)))
    /\ NoDup (map fst (get_subwords rt first)).
Print Assumptions C04_subword_ids.

(** two within-word automata sharing one table set have identical tables, literal texts excepted *)
Theorem C04_shape_sharing_sound :
  forall a b : tables, isomorphic_to a b = true ->
    t_mlit a = t_mlit b /\ t_mcmd a = t_mcmd b /\ t_mcompadd a = t_mcompadd b /\ t_mstar a = t_mstar b
    /\ t_maxlevel a = t_maxlevel b /\ t_clit a = t_clit b /\ t_ccmd a = t_ccmd b /\ t_ccompadd a = t_ccompadd b.
Proof. exact isomorphic_sound. Qed.
Check C04_shape_sharing_sound :
  forall a b : tables, isomorphic_to a b = true ->
    t_mlit a = t_mlit b /\ t_mcmd a = t_mcmd b /\ t_mcompadd a = t_mcompadd b /\ t_mstar a = t_mstar b
    /\ t_maxlevel a = t_maxlevel b /\ t_clit a = t_clit b /\ t_ccmd a = t_ccmd b /\ t_ccompadd a = t_ccompadd b.
Print Assumptions C04_shape_sharing_sound.

(** all four shells: the shared table set IS the member's own (only the literal list is per word) *)
Theorem C04_shape_sharing_exact :
  forall a b : tables, isomorphic_to a b = true ->
    b = mktables (t_literals b) (t_mlit a) (t_mcmd a) (t_mcompadd a) (t_mstar a) (t_maxlevel a) (t_clit a) (t_ccmd a) (t_ccompadd a).
Proof. exact isomorphic_sound_full. Qed.
Check C04_shape_sharing_exact :
  forall a b : tables, isomorphic_to a b = true ->
    b = mktables (t_literals b) (t_mlit a) (t_mcmd a) (t_mcompadd a) (t_mstar a) (t_maxlevel a) (t_clit a) (t_ccmd a) (t_ccompadd a).
Print Assumptions C04_shape_sharing_exact.

(** Regression (formerly C04_refuted_zsh_compadd_levels, fixed by 5c017d7): for
    cmd --p1=(<ZA> || <ZB>) | --p2=(<ZB> || <ZA>); with <ZA@zsh>, <ZB@zsh> the two within-word automata
    differ only in the fallback level of the two compadd commands; they are no longer isomorphic, so
    they no longer share one table set. *)
Definition zc_sub (pre a b : string) : dfa :=
  mkdfa 0 [(0, [(0, 1)]); (1, [(1, 2); (2, 2)])] [2] [ILit pre None 0; ICompadd a 0; ICompadd b 1].
Definition zc_cdfa : cdfa :=
  mkcdfa (mkdfa 0 [(0, [(0, 1); (1, 1)])] [1] [ISub 0 0; ISub 1 0])
         [zc_sub "--p1=" "_za" "_zb"; zc_sub "--p2=" "_zb" "_za"].
Example ex_C04_zsh_compadd_levels_not_shared :
  match all_tables Zsh zc_cdfa [] [(0, [("--p1=", "")]); (1, [("--p2=", "")])] with
  | Ok (_, a) =>
      match a_subwords a with
      | [(0, 1, t1); (1, 2, t2)] =>
          isomorphic_to t1 t2 = false
          /\ t_ccompadd t1 = Some [[(1, [0])]; [(1, [1])]]
          /\ t_ccompadd t2 = Some [[(1, [1])]; [(1, [0])]]
      | _ => False
      end
  | _ => False
  end.
Proof. vm_compute. repeat split. Qed.
Print Assumptions ex_C04_zsh_compadd_levels_not_shared.

(** KNOWN FINDING (all shells; the mechanism behind C09's "same text under two fallback levels"):
    literal ids are keyed by (text, description), not by level, so for cmd (a x || a y); the two
    transitions from state 0 on [a] (level 0 -> state 1, level 1 -> state 2) collide in the match
    table: only (0, a) -> 2 is embedded. *)
Definition tl_dfa : dfa :=
  mkdfa 0 [(0, [(0, 1); (2, 2)]); (1, [(1, 3)]); (2, [(3, 3)])] [3]
        [ILit "a" None 0; ILit "x" None 0; ILit "a" None 1; ILit "y" None 1].
Theorem C04_refuted_same_text_two_levels :
  exists t,
    valid_literal_order tl_dfa [("y", ""); ("x", ""); ("a", "")] = true
    /\ get_lookup_tables tl_dfa [] 0 false false false [("y", ""); ("x", ""); ("a", "")] = Ok t
    /\ trans_on tl_dfa 0 (ILit "a" None 0) 1
    /\ t_mlit t = [(0, [(2, 2)]); (1, [(1, 3)]); (2, [(0, 3)])].
Proof. vm_compute. eexists. repeat split. exists 0. split; reflexivity. Qed.
Check C04_refuted_same_text_two_levels :
  exists t,
    valid_literal_order tl_dfa [("y", ""); ("x", ""); ("a", "")] = true
    /\ get_lookup_tables tl_dfa [] 0 false false false [("y", ""); ("x", ""); ("a", "")] = Ok t
    /\ trans_on tl_dfa 0 (ILit "a" None 0) 1
    /\ t_mlit t = [(0, [(2, 2)]); (1, [(1, 3)]); (2, [(0, 3)])].
Print Assumptions C04_refuted_same_text_two_levels.

(** bash, codec round trip of the table section every function of the script carries (literal list, match
    tables, completion tables), printed from the templates regenerated from bash.rs: the specification-side
    reader gives back exactly the statements [table_stmts t] -- literal texts, every row, every level, the
    star pairs, max_fallback_level -- and resumes right after the section, for ALL literal texts (C07). *)
Theorem C04_embed_bash_tables :
  forall (t : tables) (cmd : string) (k : nat) (rest : string),
    scan (List.length (table_stmts t) + k) Bash cmd
         (append (write_literals t) (append (write_match_transitions t) (append (write_completion_tables t) rest)))
    = table_stmts t ++ scan k Bash cmd rest.
Proof. exact bash_tables_roundtrip. Qed.
Check C04_embed_bash_tables :
  forall (t : tables) (cmd : string) (k : nat) (rest : string),
    scan (List.length (table_stmts t) + k) Bash cmd
         (append (write_literals t) (append (write_match_transitions t) (append (write_completion_tables t) rest)))
    = table_stmts t ++ scan k Bash cmd rest.
Print Assumptions C04_embed_bash_tables.

(** the same for the within-word transition rows of the completion function *)
Theorem C04_embed_bash_subword_rows :
  forall (m : list (N * list (N * N))) (cmd : string) (k : nat) (rest : string),
    scan (List.length m + k) Bash cmd
         (append (sconcat (map (fun row => fmtln write_completion_script_5
                                  [("state", sN (fst row)); ("state_transitions", join " " (map kv (snd row)))]) m)) rest)
    = row_stmts "subword_transitions" m ++ scan k Bash cmd rest.
Proof. exact bash_subword_rows_roundtrip. Qed.
Check C04_embed_bash_subword_rows :
  forall (m : list (N * list (N * N))) (cmd : string) (k : nat) (rest : string),
    scan (List.length m + k) Bash cmd
         (append (sconcat (map (fun row => fmtln write_completion_script_5
                                  [("state", sN (fst row)); ("state_transitions", join " " (map kv (snd row)))]) m)) rest)
    = row_stmts "subword_transitions" m ++ scan k Bash cmd rest.
Print Assumptions C04_embed_bash_subword_rows.

(** and for its within-word candidate tables *)
Theorem C04_embed_bash_subword_levels :
  forall (levels : list (list (N * list N))) (cmd : string) (k : nat) (rest : string),
    scan (List.length levels + k) Bash cmd
         (append (write_levels write_completion_script_11 write_completion_script_12 levels) rest)
    = level_stmts "subword_transitions_level_" levels ++ scan k Bash cmd rest.
Proof. exact bash_subword_levels_roundtrip. Qed.
Check C04_embed_bash_subword_levels :
  forall (levels : list (list (N * list N))) (cmd : string) (k : nat) (rest : string),
    scan (List.length levels + k) Bash cmd
         (append (write_levels write_completion_script_11 write_completion_script_12 levels) rest)
    = level_stmts "subword_transitions_level_" levels ++ scan k Bash cmd rest.
Print Assumptions C04_embed_bash_subword_levels.

Definition ex_sub0 : dfa :=
  mkdfa 0 [(0, [(0, 1)]); (1, [(1, 2); (2, 2)])] [2] [ILit "--k=" None 0; ILit "x" (Some "dx") 0; ILit "y" None 1].
Definition ex_cdfa0 : cdfa :=
  mkcdfa (mkdfa 0 [(0, [(0, 1); (1, 1); (2, 2)]); (2, [(3, 1)])] [1]
                [ILit "a$" (Some "d") 0; ISub 0 0; ICmd "echo c" 1; IStar]) [ex_sub0].
Definition ex_om0 : list (string * string) := [("a$", "d")].
Definition ex_os0 : list (N * list (string * string)) := [(0, [("--k=", ""); ("y", ""); ("x", "dx")])].

(** bash, THE WHOLE SCRIPT: reading the emitted script with the specification-side reader gives exactly
    the statements [script_stmts] -- for every external command its function with the body verbatim;
    for every within-word automaton its wrapper (accepting states, literal list, and either its own
    tables or the call of the shape function that holds them), the shape functions with their tables;
    the completion function with its literal list, match tables, within-word transitions, start state,
    candidate tables per level, max_fallback_level; and the registration of [_<cmd>] for [<cmd>] --
    and nothing else but the five fixed [local] statements of the skeleton.  Hypotheses: the command
    name is made of name characters, the signature line has no newline, no line of a command body is a
    lone closing brace.  The skeleton enters only through the templates regenerated from bash.rs: every
    line of it is either computed to be skipped / read as one of the fixed statements, or skipped
    because it is indented deeper than any data statement. *)
Theorem C04_embed_bash :
  forall (command sig : string) (start : N) (nd : needs) (a : alltables) (groups : list (list N)) (s : string),
    name_ok command -> no_nl sig = true ->
    Forall (fun c : string => body_ok (cmd_body c)) (a_commands a) ->
    script command sig start nd a groups = Ok s ->
    exists sts : list stmt,
      script_stmts command start nd a groups = Ok sts /\ read_stmts Bash command s = sts.
Proof. exact bash_script_read. Qed.
Check C04_embed_bash :
  forall (command sig : string) (start : N) (nd : needs) (a : alltables) (groups : list (list N)) (s : string),
    name_ok command -> no_nl sig = true ->
    Forall (fun c : string => body_ok (cmd_body c)) (a_commands a) ->
    script command sig start nd a groups = Ok s ->
    exists sts : list stmt,
      script_stmts command start nd a groups = Ok sts /\ read_stmts Bash command s = sts.
Print Assumptions C04_embed_bash.

(** the hypotheses are inhabited and the statement computes: the script of the example automaton below *)
Example ex_C04_embed_bash :
  match script_of_dfa "cmd" "cmd completion script v0" ex_cdfa0 ex_om0 ex_os0 [[0]] with
  | Ok (s, valid) =>
      valid = true
      /\ match all_tables Bash ex_cdfa0 ex_om0 ex_os0 with
         | Ok (nd, a) => script_stmts "cmd" 0 nd a [[0]] = Ok (read_stmts Bash "cmd" s)
                         /\ forallb (fun c => forallb (fun l => negb (String.eqb l "}")) (split_nl (cmd_body c))) (a_commands a) = true
         | _ => False
         end
  | _ => False
  end.
Proof. vm_compute. repeat split. Qed.
Print Assumptions ex_C04_embed_bash.

(** Non-vacuity: the tables of a small automaton with a within-word automaton, a command and two
    fallback levels are computed ([all_tables] = Ok), the automaton is well-formed, the literal
    order valid and duplicate-free, and the printed table section is read back. *)
Definition ex_sub : dfa :=
  mkdfa 0 [(0, [(0, 1)]); (1, [(1, 2); (2, 2)])] [2] [ILit "--k=" None 0; ILit "x" (Some "dx") 0; ILit "y" None 1].
Definition ex_cdfa : cdfa :=
  mkcdfa (mkdfa 0 [(0, [(0, 1); (1, 1); (2, 2)]); (2, [(3, 1)])] [1]
                [ILit "a$" (Some "d") 0; ISub 0 0; ICmd "echo c" 1; IStar]) [ex_sub].
Definition ex_om : list (string * string) := [("a$", "d")].
Definition ex_os : list (N * list (string * string)) := [(0, [("--k=", ""); ("y", ""); ("x", "dx")])].
Example ex_C04_inhabited :
  match all_tables Bash ex_cdfa ex_om ex_os with
  | Ok (nd, a) =>
      valid_orders ex_cdfa ex_om ex_os = true
      /\ t_mlit (a_main a) = [(0, [(0, 1)])]
      /\ t_mcmd (a_main a) = Some [(0, [(0, 2)])]
      /\ t_mstar (a_main a) = Some [(2, 1)]
      /\ a_subtrans a = [(0, [(0, 1)])]
      /\ read_stmts Bash "cmd" (append (write_literals (a_main a)) (append (write_match_transitions (a_main a))
                                                                 (write_completion_tables (a_main a))))
         = table_stmts (a_main a)
  | _ => False
  end.
Proof. vm_compute. repeat split. Qed.
Print Assumptions ex_C04_inhabited.
