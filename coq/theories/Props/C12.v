(** C12 -- inside a word, overlapping alternatives are told apart.
    Proofs: Proofs/C12Proofs.v (any within-word tables) and Proofs/C12Chain.v (the chain family), both
    about every variant other than [Pinned] and instantiated at [Repaired] here; on Model/BashSem.v, the
    interpreter of the emitted bash skeleton, tied to real bash by T2.

    Variants of the skeleton: [Repaired] mirrors /repo HEAD (commits 7d4f01b, ac67eca, 1567cbe: quoted operands, stop
    test only when completing and only for literals with a transition, ...); [Fixed] is the intermediate template with
    only the stop-test repair; [Pinned] is the template before, which violates the first half of the property
    ([C12_refuted_shorter_value], [C12_pinned_known_class]). *)
From CG Require Import Base.Prelude Spec.Meaning Proofs.StripFacts.
From CG Require Import Model.Dfa Model.Glob Model.BashSem Model.ChainTables.
From CG Require Import Proofs.GlobFacts Proofs.SubwordFacts Proofs.C12Proofs Proofs.C12Chain.

(** (a), on ANY within-word tables: in a state [s] where the typed rest [v] is the text of a literal that has a
    transition (to [to]) and [to] is an accepting state of the within-word automaton ([acc]; the test of /repo commit
    df274e8), the repaired matchers consume exactly [v] and end matched in [to] -- whatever longer or shorter literals
    exist, enabled in [s] or not.  The literal array is in decreasing length (dfa.rs).
    [strdom]: no further condition for [Repaired] (operands are quoted); glob-free text for [Fixed].
    [star_first var false T s = false]: the state does not also expect an undefined nonterminal -- a state that does
    accepts whatever is left without looking at the literals ([Repaired], the greedy-shadow fix of C01). *)
Theorem C12_values_recognised :
  forall var fuel tabs e T acc word s st ci v to log,
    var <> Pinned -> strdom var (lits_of T) word -> sorted_desc (lits_of T) ->
    assocN s (t_mlit T) = Some st ->
    sdrop ci word = v -> (ci < String.length word)%nat ->
    first_enabled (lits_of T) st v = Some to ->
    quirky var || memN to acc = true ->
    star_first var false T s = false ->
    sw_loop (S (S fuel)) var false tabs e T acc word s ci log = Ok (true, to, String.length word, log).
Proof. exact fixed_value_recognised. Qed.
Check C12_values_recognised :
  forall var fuel tabs e T acc word s st ci v to log,
    var <> Pinned -> strdom var (lits_of T) word -> sorted_desc (lits_of T) ->
    assocN s (t_mlit T) = Some st ->
    sdrop ci word = v -> (ci < String.length word)%nat ->
    first_enabled (lits_of T) st v = Some to ->
    quirky var || memN to acc = true ->
    star_first var false T s = false ->
    sw_loop (S (S fuel)) var false tabs e T acc word s ci log = Ok (true, to, String.length word, log).
Print Assumptions C12_values_recognised.

(** (b), on ANY within-word tables: when the typed rest is a proper prefix of a literal enabled in [s], the
    repaired matchers stay in [s] in front of it ... *)
Theorem C12_partial_stops :
  forall var fuel tabs e T acc word s st ci log,
    var <> Pinned -> strdom var (lits_of T) word -> sorted_desc (lits_of T) ->
    assocN s (t_mlit T) = Some st ->
    (exists id v to, In (id, v) (lits_of T) /\ assocN id st = Some to
                     /\ String.prefix (sdrop ci word) v = true /\ sdrop ci word <> v) ->
    exists m, sw_loop (S fuel) var true tabs e T acc word s ci log = Ok (m, s, ci, log).
Proof. exact fixed_partial_stops. Qed.
Check C12_partial_stops :
  forall var fuel tabs e T acc word s st ci log,
    var <> Pinned -> strdom var (lits_of T) word -> sorted_desc (lits_of T) ->
    assocN s (t_mlit T) = Some st ->
    (exists id v to, In (id, v) (lits_of T) /\ assocN id st = Some to
                     /\ String.prefix (sdrop ci word) v = true /\ sdrop ci word <> v) ->
    exists m, sw_loop (S fuel) var true tabs e T acc word s ci log = Ok (m, s, ci, log).
Print Assumptions C12_partial_stops.

(** ... and the completion part (every variant) then offers exactly the level-0 literals of [s] that extend the
    typed word. *)
Theorem C12_partial_offers :
  forall var n tabs e T word s ci log,
    e_ignore_case e = false -> printable_str word = true ->
    t_ccmd T = None ->
    filter (String.prefix word) (map (fun id => (stake ci word ++ literal_at T id)%string) (level_row (t_clit T) 0 s)) <> [] ->
    sw_levels (S n) 0 var tabs e T s (stake ci word) (sdrop ci word) [] [] log
    = Ok (filter (String.prefix word) (map (fun id => (stake ci word ++ literal_at T id)%string) (level_row (t_clit T) 0 s)), log).
Proof. exact levels_offer_extensions. Qed.
Check C12_partial_offers :
  forall var n tabs e T word s ci log,
    e_ignore_case e = false -> printable_str word = true ->
    t_ccmd T = None ->
    filter (String.prefix word) (map (fun id => (stake ci word ++ literal_at T id)%string) (level_row (t_clit T) 0 s)) <> [] ->
    sw_levels (S n) 0 var tabs e T s (stake ci word) (sdrop ci word) [] [] log
    = Ok (filter (String.prefix word) (map (fun id => (stake ci word ++ literal_at T id)%string) (level_row (t_clit T) 0 s)), log).
Print Assumptions C12_partial_offers.

(** End to end on /repo HEAD ([Repaired]), on the tables the pipeline emits for  cmd <pre>(<v1>|...|<vn>) <next>;
    ([chain_alltables], compared with Rust's TABLES dump by lib/vf/checks/c12.py for every grammar of the exhaustive
    family): for an arbitrary non-empty literal set in decreasing length -- any prefix chains, any characters --
    (a) a fully typed value followed by the cursor: return code 0 and [next] is offered; *)
Theorem C12_chain_value_recognised :
  forall lits ipre pre next,
    nthN lits ipre = Some pre ->
    (forall l, In l lits -> l <> EmptyString) ->
    sorted_len lits ->
    forall e v,
      e_wordbreaks e = EmptyString \/ e_wordbreaks e = default_wordbreaks ->
      is_value lits pre v ->
      run_from Repaired 0 (chain_alltables lits ipre next) e [(pre ++ v)%string] EmptyString
      = Ok (mkresult 0 [(next ++ " ")%string] []).
Proof.
  intros lits ipre pre next Hpre Hne Hs e v Hw Hv.
  apply (chain_value_recognised lits ipre pre next Hpre Repaired); try assumption; [discriminate|now left].
Qed.
Check C12_chain_value_recognised :
  forall lits ipre pre next,
    nthN lits ipre = Some pre ->
    (forall l, In l lits -> l <> EmptyString) ->
    sorted_len lits ->
    forall e v,
      e_wordbreaks e = EmptyString \/ e_wordbreaks e = default_wordbreaks ->
      is_value lits pre v ->
      run_from Repaired 0 (chain_alltables lits ipre next) e [(pre ++ v)%string] EmptyString
      = Ok (mkresult 0 [(next ++ " ")%string] []).
Print Assumptions C12_chain_value_recognised.

(** (b) a partially typed value under the cursor: exactly the values extending it, in table order. *)
Theorem C12_chain_partial_offers :
  forall lits ipre pre next,
    nthN lits ipre = Some pre ->
    (forall l, In l lits -> printable_str l = true) ->
    (forall l, In l lits -> l <> EmptyString) ->
    sorted_len lits ->
    forall e p,
      e_ignore_case e = false -> e_wordbreaks e = EmptyString ->
      printable_str p = true ->
      (exists v, is_value lits pre v /\ String.prefix p v = true /\ p <> v) ->
      run_from Repaired 0 (chain_alltables lits ipre next) e [] (pre ++ p)
      = Ok (mkresult 0 (map (append pre) (filter (String.prefix p) (values lits ipre))) []).
Proof.
  intros lits ipre pre next Hpre Hpr Hne Hs e p Hi Hw Hp Hex.
  apply (chain_partial_offers lits ipre pre next Hpre Repaired); try assumption; try discriminate; now left.
Qed.
Check C12_chain_partial_offers :
  forall lits ipre pre next,
    nthN lits ipre = Some pre ->
    (forall l, In l lits -> printable_str l = true) ->
    (forall l, In l lits -> l <> EmptyString) ->
    sorted_len lits ->
    forall e p,
      e_ignore_case e = false -> e_wordbreaks e = EmptyString ->
      printable_str p = true ->
      (exists v, is_value lits pre v /\ String.prefix p v = true /\ p <> v) ->
      run_from Repaired 0 (chain_alltables lits ipre next) e [] (pre ++ p)
      = Ok (mkresult 0 (map (append pre) (filter (String.prefix p) (values lits ipre))) []).
Print Assumptions C12_chain_partial_offers.

(** (b) for ANY COMP_WORDBREAKS without glob characters -- bash's default value included ([breaks_ok] holds for it:
    [ex_C12_default_wordbreaks]) --: the reply is the extending values with the typed word removed up to its last
    word-break character ([Meaning.strip]: for `--opt=ab` and the default value, the part after `=`).  The typed word
    must be glob-free here because `${prefix%$shortest_suffix}` and `${matches[@]#$superfluous_prefix}` take it as a
    pattern. *)
Theorem C12_chain_partial_offers_wordbreaks :
  forall lits ipre pre next,
    nthN lits ipre = Some pre ->
    (forall l, In l lits -> plain l = true) ->
    (forall l, In l lits -> printable_str l = true) ->
    (forall l, In l lits -> l <> EmptyString) ->
    sorted_len lits ->
    forall e p,
      e_ignore_case e = false -> breaks_ok (e_wordbreaks e) = true ->
      plain p = true -> printable_str p = true ->
      (exists v, is_value lits pre v /\ String.prefix p v = true /\ p <> v) ->
      run_from Repaired 0 (chain_alltables lits ipre next) e [] (pre ++ p)
      = Ok (mkresult 0 (map (Meaning.strip (e_wordbreaks e) (pre ++ p))
                            (map (append pre) (filter (String.prefix p) (values lits ipre)))) []).
Proof.
  intros lits ipre pre next Hpre Hpl Hpr Hne Hs e p.
  apply (chain_partial_offers_wordbreaks lits ipre pre next Hpre Repaired); try assumption. discriminate.
Qed.
Check C12_chain_partial_offers_wordbreaks :
  forall lits ipre pre next,
    nthN lits ipre = Some pre ->
    (forall l, In l lits -> plain l = true) ->
    (forall l, In l lits -> printable_str l = true) ->
    (forall l, In l lits -> l <> EmptyString) ->
    sorted_len lits ->
    forall e p,
      e_ignore_case e = false -> breaks_ok (e_wordbreaks e) = true ->
      plain p = true -> printable_str p = true ->
      (exists v, is_value lits pre v /\ String.prefix p v = true /\ p <> v) ->
      run_from Repaired 0 (chain_alltables lits ipre next) e [] (pre ++ p)
      = Ok (mkresult 0 (map (Meaning.strip (e_wordbreaks e) (pre ++ p))
                            (map (append pre) (filter (String.prefix p) (values lits ipre)))) []).
Print Assumptions C12_chain_partial_offers_wordbreaks.

Example ex_C12_default_wordbreaks :
  breaks_ok default_wordbreaks = true
  /\ run_from Repaired 0 (chain_alltables ["--opt="; "abcd"; "abc"; "a"] 0 "next") (mkenv default_wordbreaks [] false) [] "--opt=ab"
     = Ok (mkresult 0 ["abcd"; "abc"] []).
Proof. split; vm_compute; reflexivity. Qed.
Print Assumptions ex_C12_default_wordbreaks.

(** The same two statements for every variant with the repaired stop test (for [Fixed]: glob-free literals). *)
Theorem C12_chain_any_repaired_variant :
  forall lits ipre pre next,
    nthN lits ipre = Some pre ->
    forall var, var <> Pinned ->
    (var = Repaired \/ (forall l, In l lits -> plain l = true)) ->
    (forall l, In l lits -> printable_str l = true) ->
    (forall l, In l lits -> l <> EmptyString) ->
    sorted_len lits ->
    (forall e v,
        e_wordbreaks e = EmptyString \/ e_wordbreaks e = default_wordbreaks ->
        is_value lits pre v ->
        run_from var 0 (chain_alltables lits ipre next) e [(pre ++ v)%string] EmptyString
        = Ok (mkresult 0 [(next ++ " ")%string] []))
    /\ (forall e p,
           e_ignore_case e = false -> e_wordbreaks e = EmptyString ->
           (var = Repaired \/ plain p = true) -> printable_str p = true ->
           (exists v, is_value lits pre v /\ String.prefix p v = true /\ p <> v) ->
           run_from var 0 (chain_alltables lits ipre next) e [] (pre ++ p)
           = Ok (mkresult 0 (map (append pre) (filter (String.prefix p) (values lits ipre))) [])).
Proof.
  intros lits ipre pre next Hpre var Hvar Hdom Hpr Hne Hs. split.
  - intros e v Hw Hv. now apply (chain_value_recognised lits ipre pre next Hpre var).
  - intros e p Hi Hw Hp Hpp Hex. now apply (chain_partial_offers lits ipre pre next Hpre var).
Qed.
Check C12_chain_any_repaired_variant :
  forall lits ipre pre next,
    nthN lits ipre = Some pre ->
    forall var, var <> Pinned ->
    (var = Repaired \/ (forall l, In l lits -> plain l = true)) ->
    (forall l, In l lits -> printable_str l = true) ->
    (forall l, In l lits -> l <> EmptyString) ->
    sorted_len lits ->
    (forall e v,
        e_wordbreaks e = EmptyString \/ e_wordbreaks e = default_wordbreaks ->
        is_value lits pre v ->
        run_from var 0 (chain_alltables lits ipre next) e [(pre ++ v)%string] EmptyString
        = Ok (mkresult 0 [(next ++ " ")%string] []))
    /\ (forall e p,
           e_ignore_case e = false -> e_wordbreaks e = EmptyString ->
           (var = Repaired \/ plain p = true) -> printable_str p = true ->
           (exists v, is_value lits pre v /\ String.prefix p v = true /\ p <> v) ->
           run_from var 0 (chain_alltables lits ipre next) e [] (pre ++ p)
           = Ok (mkresult 0 (map (append pre) (filter (String.prefix p) (values lits ipre))) [])).
Print Assumptions C12_chain_any_repaired_variant.

(** The [Pinned] template recognises [v] when no literal of the array -- expected at this point or not -- properly extends
    [v] (and [v]'s text is not shadowed by a disabled duplicate) ... *)
Theorem C12_pinned_outside_known :
  forall fuel tabs e T acc word s st ci v to log,
    all_plain (lits_of T) -> plain word = true -> sorted_desc (lits_of T) ->
    assocN s (t_mlit T) = Some st ->
    sdrop ci word = v -> (ci < String.length word)%nat ->
    first_enabled (lits_of T) st v = Some to ->
    (forall id l, In (id, l) (lits_of T) -> String.prefix v l = true -> l = v /\ assocN id st <> None) ->
    sw_loop (S (S fuel)) Pinned false tabs e T acc word s ci log = Ok (true, to, String.length word, log).
Proof. exact pinned_value_recognised_outside_known. Qed.
Check C12_pinned_outside_known :
  forall fuel tabs e T acc word s st ci v to log,
    all_plain (lits_of T) -> plain word = true -> sorted_desc (lits_of T) ->
    assocN s (t_mlit T) = Some st ->
    sdrop ci word = v -> (ci < String.length word)%nat ->
    first_enabled (lits_of T) st v = Some to ->
    (forall id l, In (id, l) (lits_of T) -> String.prefix v l = true -> l = v /\ assocN id st <> None) ->
    sw_loop (S (S fuel)) Pinned false tabs e T acc word s ci log = Ok (true, to, String.length word, log).
Print Assumptions C12_pinned_outside_known.

(** ... and it refuses [v] as soon as some literal of the array properly extends it (the finding that /repo commit
    ac67eca repairs; the class lib/vf/checks/c12.py attributes violations to on a tree with the [Pinned] template). *)
Theorem C12_pinned_known_class :
  forall fuel tabs e T acc word s st ci v log,
    all_plain (lits_of T) -> plain word = true -> sorted_desc (lits_of T) ->
    assocN s (t_mlit T) = Some st ->
    sdrop ci word = v -> (ci < String.length word)%nat ->
    (exists id l, In (id, l) (lits_of T) /\ String.prefix v l = true /\ l <> v) ->
    sw_loop (S fuel) Pinned false tabs e T acc word s ci log = Ok (false, s, ci, log).
Proof. exact pinned_value_refused. Qed.
Check C12_pinned_known_class :
  forall fuel tabs e T acc word s st ci v log,
    all_plain (lits_of T) -> plain word = true -> sorted_desc (lits_of T) ->
    assocN s (t_mlit T) = Some st ->
    sdrop ci word = v -> (ci < String.length word)%nat ->
    (exists id l, In (id, l) (lits_of T) /\ String.prefix v l = true /\ l <> v) ->
    sw_loop (S fuel) Pinned false tabs e T acc word s ci log = Ok (false, s, ci, log).
Print Assumptions C12_pinned_known_class.

(** the second half of the property holds for [Pinned] on this family, provided no value extends the piece itself *)
Theorem C12_chain_partial_offers_pinned :
  forall lits ipre pre next,
    nthN lits ipre = Some pre -> NoDup lits ->
    (forall l, In l lits -> plain l = true) ->
    (forall l, In l lits -> printable_str l = true) ->
    (forall l, In l lits -> l <> EmptyString) ->
    sorted_len lits ->
    (forall v, is_value lits pre v -> String.prefix pre v = false) ->
    forall e p,
      e_ignore_case e = false -> e_wordbreaks e = EmptyString ->
      plain p = true -> printable_str p = true ->
      (exists v, is_value lits pre v /\ String.prefix p v = true /\ p <> v) ->
      run_from Pinned 0 (chain_alltables lits ipre next) e [] (pre ++ p)
      = Ok (mkresult 0 (map (append pre) (filter (String.prefix p) (values lits ipre))) []).
Proof. exact chain_partial_offers_pinned. Qed.
Check C12_chain_partial_offers_pinned :
  forall lits ipre pre next,
    nthN lits ipre = Some pre -> NoDup lits ->
    (forall l, In l lits -> plain l = true) ->
    (forall l, In l lits -> printable_str l = true) ->
    (forall l, In l lits -> l <> EmptyString) ->
    sorted_len lits ->
    (forall v, is_value lits pre v -> String.prefix pre v = false) ->
    forall e p,
      e_ignore_case e = false -> e_wordbreaks e = EmptyString ->
      plain p = true -> printable_str p = true ->
      (exists v, is_value lits pre v /\ String.prefix p v = true /\ p <> v) ->
      run_from Pinned 0 (chain_alltables lits ipre next) e [] (pre ++ p)
      = Ok (mkresult 0 (map (append pre) (filter (String.prefix p) (values lits ipre))) []).
Print Assumptions C12_chain_partial_offers_pinned.

(** The witness:  cmd --opt=(a | abc | abcd) next;  with  --opt=a  typed and a following word returns 1 with the
    [Pinned] template; [Fixed] and [Repaired] continue with [next]; (b) is the same for [Pinned] and [Repaired]. *)
Definition witness_tables : alltables := chain_alltables ["--opt="; "abcd"; "abc"; "a"] 0 "next".
Definition witness_env : env := mkenv default_wordbreaks [] false.

Theorem C12_refuted_shorter_value :
  run_from Pinned 0 witness_tables witness_env ["--opt=a"] "" = Ok (mkresult 1 [] [])
  /\ run_from Pinned 0 witness_tables witness_env ["--opt=abc"] "" = Ok (mkresult 1 [] [])
  /\ run_from Pinned 0 witness_tables witness_env ["--opt=abcd"] "" = Ok (mkresult 0 ["next "] [])
  /\ run_from Fixed 0 witness_tables witness_env ["--opt=a"] "" = Ok (mkresult 0 ["next "] [])
  /\ run_from Repaired 0 witness_tables witness_env ["--opt=a"] "" = Ok (mkresult 0 ["next "] [])
  /\ run_from Pinned 0 witness_tables witness_env [] "--opt=a" = Ok (mkresult 0 ["abcd"; "abc"; "a"] [])
  /\ run_from Repaired 0 witness_tables witness_env [] "--opt=a" = Ok (mkresult 0 ["abcd"; "abc"; "a"] []).
Proof. vm_compute. repeat split; reflexivity. Qed.
Check C12_refuted_shorter_value :
  run_from Pinned 0 witness_tables witness_env ["--opt=a"] "" = Ok (mkresult 1 [] [])
  /\ run_from Pinned 0 witness_tables witness_env ["--opt=abc"] "" = Ok (mkresult 1 [] [])
  /\ run_from Pinned 0 witness_tables witness_env ["--opt=abcd"] "" = Ok (mkresult 0 ["next "] [])
  /\ run_from Fixed 0 witness_tables witness_env ["--opt=a"] "" = Ok (mkresult 0 ["next "] [])
  /\ run_from Repaired 0 witness_tables witness_env ["--opt=a"] "" = Ok (mkresult 0 ["next "] [])
  /\ run_from Pinned 0 witness_tables witness_env [] "--opt=a" = Ok (mkresult 0 ["abcd"; "abc"; "a"] [])
  /\ run_from Repaired 0 witness_tables witness_env [] "--opt=a" = Ok (mkresult 0 ["abcd"; "abc"; "a"] []).
Print Assumptions C12_refuted_shorter_value.

(** Non-vacuity: the hypotheses of the end-to-end theorems hold for the witness grammar, and its three values
    are values in the sense of the theorems. *)
Example ex_C12_inhabited :
  let lits := ["--opt="; "abcd"; "abc"; "a"] in
  nthN lits 0 = Some "--opt="
  /\ (forall l, In l lits -> plain l = true)
  /\ (forall l, In l lits -> printable_str l = true)
  /\ (forall l, In l lits -> l <> EmptyString)
  /\ sorted_len lits
  /\ is_value lits "--opt=" "a" /\ is_value lits "--opt=" "abc" /\ is_value lits "--opt=" "abcd"
  /\ (exists v, is_value lits "--opt=" v /\ String.prefix "ab" v = true /\ "ab" <> v)
  /\ values lits 0 = ["abcd"; "abc"; "a"].
Proof.
  cbv zeta. repeat split.
  - intros l H. cbn in H. repeat (destruct H as [<-|H]; [reflexivity|]). contradiction.
  - intros l H. cbn in H. repeat (destruct H as [<-|H]; [reflexivity|]). contradiction.
  - intros l H. cbn in H. repeat (destruct H as [<-|H]; [discriminate|]). contradiction.
  - intros b H. cbn in H. repeat (destruct H as [<-|H]; [cbn; lia|]). contradiction.
  - intros b H. cbn in H. repeat (destruct H as [<-|H]; [cbn; lia|]). contradiction.
  - intros b H. cbn in H. repeat (destruct H as [<-|H]; [cbn; lia|]). contradiction.
  - intros b H. cbn in H. contradiction.
  - cbn; tauto.
  - discriminate.
  - cbn; tauto.
  - discriminate.
  - cbn; tauto.
  - discriminate.
  - exists "abc". repeat split; [cbn; tauto|discriminate|discriminate].
Qed.
Print Assumptions ex_C12_inhabited.
