(** C08 -- grammar mistakes are rejected with the right diagnostic; clean grammars pass.
    The theorems restate lemmas of Proofs/CheckMistakes.v and CheckFront.v (statement-level and
    specialisation classes), CheckCycle.v and CheckCycleSpec.v (cycles, verdict on clean grammars),
    CheckSpacesSpec.v (spaces inside a word), AmbWalk.v, AmbLang.v, AmbPipeline.v (ambiguity check),
    TailOnlySpec.v and PhTree.v (placeholder).

    The mistake classes are the predicates of Spec/Mistakes.v ([Mistakes.present builtins g sh] lists
    those present in [g]); the verdict is that of [Check.from_grammar], followed by
    [Regex.from_valid_expr] and [check_ambiguity_best_effort] for the two classes decided after the
    checker.  One theorem per class, each under the hypothesis that the classes the code checks
    earlier are absent:
    - the statement-level classes, in the order the code checks them; the specialisation classes
      (unknown shell, non-command definition for a shell, two definitions for the target shell);
      the cycle class, both directions, together with soundness and completeness of the cycle
      search on arbitrary definition lists; a grammar free of all these classes can only be
      rejected by check_subword_spaces ([C08_clean_accepted_unless_subword_spaces]).
    - [subword_spaces g sh] is rejected with SubwordSpaces ([C08_subword_spaces]).  The model of
      check_subword_spaces is that of /repo d78b2b1: it sees literals through nonterminals in
      space-separated sequences.  The converse is not claimed: juxtaposed literals `foo(bar)` are
      rejected with the same error although nothing is space-separated ([juxtaposed_literals] and
      [C08b_clean_compiles] in Props/C08b.v).
    - The placeholder class, both directions: on a grammar the checker accepts, the regex stage
      rejects the validated tree with UnboundedMatchable iff [placeholder_not_last] holds of the
      source grammar, and succeeds otherwise ([C08_placeholder]); the walk itself is characterised
      on the follow table ([C08_tail_only_decides]).  The model of the walk is that of /repo
      10fac00: it hands the unbounded item only to its own follow set, which is what makes the
      first statement an equivalence.
    - The class decided by the DFA ambiguity check ("the same literal expected at one point with two
      different descriptions") is proved at the level of the accepted language: the check of the
      minimised main automaton fails iff the language of the raw automaton (by C02 the language of
      the validated tree, over input ids) has two words with a common prefix that continue with the
      same literal text under different descriptions, and it never fails for another reason
      ([C08_description_conflict]).  Spec/Mistakes.v has no predicate on the SOURCE grammar for this
      class (it is judged on planted mistakes by lib/vf/checks/c08.py).
    The same classes from the source text, through the parser, are in Props/C08b.v. *)
From CG Require Import Base.Prelude Model.Ast Model.Check Spec.Choice Spec.Mistakes Proofs.CheckMistakes.
From CG Require Import Proofs.CheckLemmas Proofs.CheckCycle Proofs.CheckFront Proofs.CheckCycleSpec.
From CG Require Import Proofs.CheckSpacesSpec.
From CG Require Import Model.Dfa Model.Ambiguity.
From CG Require Proofs.AmbWalk.
From CG Require Model.Subset Model.Minimize Proofs.AmbLang Proofs.AmbPipeline Proofs.TreeFacts.
From CG Require Model.Regex Proofs.RegexNoPanic Proofs.TailOnlySpec Proofs.PhExpr Proofs.PhSpec Proofs.PhTree.

Theorem C08_no_call_variant :
  forall builtins g sh,
    no_call_variant g = true -> from_grammar builtins g sh = Err MissingCallVariants.
Proof. exact no_call_variant_rejected. Qed.
Check C08_no_call_variant :
  forall builtins g sh,
    no_call_variant g = true -> from_grammar builtins g sh = Err MissingCallVariants.
Print Assumptions C08_no_call_variant.

Theorem C08_varying_names :
  forall builtins g sh,
    varying_names g = true ->
    exists spans, from_grammar builtins g sh = Err (VaryingCommandNames spans).
Proof. exact varying_names_rejected. Qed.
Check C08_varying_names :
  forall builtins g sh,
    varying_names g = true ->
    exists spans, from_grammar builtins g sh = Err (VaryingCommandNames spans).
Print Assumptions C08_varying_names.

Theorem C08_slash_in_name :
  forall builtins g sh,
    varying_names g = false -> slash_in_name g = true ->
    exists sp, from_grammar builtins g sh = Err (InvalidCommandName sp).
Proof. exact slash_in_name_rejected. Qed.
Check C08_slash_in_name :
  forall builtins g sh,
    varying_names g = false -> slash_in_name g = true ->
    exists sp, from_grammar builtins g sh = Err (InvalidCommandName sp).
Print Assumptions C08_slash_in_name.

Theorem C08_duplicate_plain :
  forall builtins g sh,
    no_call_variant g = false -> varying_names g = false -> slash_in_name g = false ->
    duplicate_plain g = true ->
    exists a b, from_grammar builtins g sh = Err (DuplicateNonterminalDefinition a b).
Proof. exact duplicate_plain_rejected. Qed.
Check C08_duplicate_plain :
  forall builtins g sh,
    no_call_variant g = false -> varying_names g = false -> slash_in_name g = false ->
    duplicate_plain g = true ->
    exists a b, from_grammar builtins g sh = Err (DuplicateNonterminalDefinition a b).
Print Assumptions C08_duplicate_plain.

(** Specialisation mistakes: when one of the three classes is present (and the earlier
    ones are not) the grammar is rejected with an error whose class is present. *)
Theorem C08_specialization_errors :
  forall builtins g sh,
    no_call_variant g = false -> varying_names g = false -> slash_in_name g = false ->
    duplicate_plain g = false ->
    unknown_shell g || non_command_for_shell g || duplicate_for_shell g sh = true ->
    exists e, from_grammar builtins g sh = Err e /\
              match e with
              | UnknownShell _ => unknown_shell g = true
              | NonCommandSpecialization _ => non_command_for_shell g = true
              | DuplicateNonterminalDefinition _ _ => duplicate_for_shell g sh = true
              | _ => False
              end.
Proof. exact specialization_errors. Qed.
Check C08_specialization_errors :
  forall builtins g sh,
    no_call_variant g = false -> varying_names g = false -> slash_in_name g = false ->
    duplicate_plain g = false ->
    unknown_shell g || non_command_for_shell g || duplicate_for_shell g sh = true ->
    exists e, from_grammar builtins g sh = Err e /\
              match e with
              | UnknownShell _ => unknown_shell g = true
              | NonCommandSpecialization _ => non_command_for_shell g = true
              | DuplicateNonterminalDefinition _ _ => duplicate_for_shell g sh = true
              | _ => False
              end.
Print Assumptions C08_specialization_errors.

(** Conversely [get_specializations] succeeds on grammars free of the three classes whose
    shell-specific definitions only concern names whose plain definition is a command. *)
Theorem C08_specializations_accepted :
  forall g sh,
    duplicate_plain g = false ->
    unknown_shell g = false -> non_command_for_shell g = false -> duplicate_for_shell g sh = false ->
    specs_have_command_plain g = true ->
    exists us fs, get_specializations g sh = Ok (us, fs).
Proof. exact get_specializations_ok. Qed.
Check C08_specializations_accepted :
  forall g sh,
    duplicate_plain g = false ->
    unknown_shell g = false -> non_command_for_shell g = false -> duplicate_for_shell g sh = false ->
    specs_have_command_plain g = true ->
    exists us fs, get_specializations g sh = Ok (us, fs).
Print Assumptions C08_specializations_accepted.

(** The cycle search, on any list of definitions.
    [graph_of defs] has an edge n -> c for every reference in the definition of n to a defined
    name c.  Failure: the error is a cycle error and the graph has a cycle (the reported spans
    are those of a path of the graph that closes on itself: [cycle_report]). *)
Theorem C08_cycle_search_sound :
  forall defs e,
    resolution_order defs = Err e ->
    cycle_report (graph_of defs) (verts_of defs) e /\
    (exists spans, e = NonterminalDefinitionsCycle spans) /\ exists x, reach (graph_of defs) x x.
Proof.
  intros defs e H. split; [apply resolution_order_err; exact H|apply resolution_order_err_cycle; exact H].
Qed.
Check C08_cycle_search_sound :
  forall defs e,
    resolution_order defs = Err e ->
    cycle_report (graph_of defs) (verts_of defs) e /\
    (exists spans, e = NonterminalDefinitionsCycle spans) /\ exists x, reach (graph_of defs) x x.
Print Assumptions C08_cycle_search_sound.

(** Success happens exactly on acyclic graphs ... *)
Theorem C08_cycle_search_complete :
  forall defs, (exists ord, resolution_order defs = Ok ord) <-> acyclic (graph_of defs).
Proof. exact resolution_order_complete. Qed.
Check C08_cycle_search_complete :
  forall defs, (exists ord, resolution_order defs = Ok ord) <-> acyclic (graph_of defs).
Print Assumptions C08_cycle_search_complete.

(** ... and the order lists exactly the definitions that have dependencies, each after all
    the definitions it depends on (those without dependencies of their own are not listed). *)
Theorem C08_resolution_order_topological :
  forall defs ord,
    resolution_order defs = Ok ord ->
    (forall n, In n ord <-> In n (map d_name defs) /\ exists c, edge (graph_of defs) n c) /\
    (forall l1 n l2 c, ord = l1 ++ n :: l2 -> edge (graph_of defs) n c ->
                       In c l1 \/ forall c', ~ edge (graph_of defs) c c').
Proof. exact resolution_order_topological. Qed.
Check C08_resolution_order_topological :
  forall defs ord,
    resolution_order defs = Ok ord ->
    (forall n, In n ord <-> In n (map d_name defs) /\ exists c, edge (graph_of defs) n c) /\
    (forall l1 n l2 c, ord = l1 ++ n :: l2 -> edge (graph_of defs) n c ->
                       In c l1 \/ forall c', ~ edge (graph_of defs) c c').
Print Assumptions C08_resolution_order_topological.

(** The cycle class of the specification (reachability among the chosen plain definitions
    of the source grammar) is rejected with the cycle error, and only it. *)
Theorem C08_cycle :
  forall builtins g sh,
    no_call_variant g = false -> varying_names g = false -> slash_in_name g = false ->
    duplicate_plain g = false ->
    unknown_shell g = false -> non_command_for_shell g = false -> duplicate_for_shell g sh = false ->
    specs_have_command_plain g = true ->
    (cyclic g sh = true <->
     exists spans, from_grammar builtins g sh = Err (NonterminalDefinitionsCycle spans)).
Proof. exact cycle_rejected. Qed.
Check C08_cycle :
  forall builtins g sh,
    no_call_variant g = false -> varying_names g = false -> slash_in_name g = false ->
    duplicate_plain g = false ->
    unknown_shell g = false -> non_command_for_shell g = false -> duplicate_for_shell g sh = false ->
    specs_have_command_plain g = true ->
    (cyclic g sh = true <->
     exists spans, from_grammar builtins g sh = Err (NonterminalDefinitionsCycle spans)).
Print Assumptions C08_cycle.

Theorem C08_clean_accepted_unless_subword_spaces :
  forall builtins g sh,
    no_call_variant g = false -> varying_names g = false -> slash_in_name g = false ->
    duplicate_plain g = false ->
    unknown_shell g = false -> non_command_for_shell g = false -> duplicate_for_shell g sh = false ->
    specs_have_command_plain g = true -> cyclic g sh = false ->
    (exists v, from_grammar builtins g sh = Ok v) \/
    (exists l r trace, from_grammar builtins g sh = Err (SubwordSpaces l r trace)).
Proof. exact clean_verdict. Qed.
Check C08_clean_accepted_unless_subword_spaces :
  forall builtins g sh,
    no_call_variant g = false -> varying_names g = false -> slash_in_name g = false ->
    duplicate_plain g = false ->
    unknown_shell g = false -> non_command_for_shell g = false -> duplicate_for_shell g sh = false ->
    specs_have_command_plain g = true -> cyclic g sh = false ->
    (exists v, from_grammar builtins g sh = Ok v) \/
    (exists l r trace, from_grammar builtins g sh = Err (SubwordSpaces l r trace)).
Print Assumptions C08_clean_accepted_unless_subword_spaces.

(** Spaces inside a word.  [grammar_word_roots_ok g]: every word of the source is a
    juxtaposition ([Subword] over a [Sequence]), which is what the parser builds.  When some word
    of the expansion of a call variant contains two space-separated literals
    ([Mistakes.subword_spaces]: directly or through chosen definitions, at any depth) and no
    earlier class is present, the grammar is rejected with [SubwordSpaces]. *)
Theorem C08_subword_spaces :
  forall builtins g sh,
    no_call_variant g = false -> varying_names g = false -> slash_in_name g = false ->
    duplicate_plain g = false ->
    unknown_shell g = false -> non_command_for_shell g = false -> duplicate_for_shell g sh = false ->
    specs_have_command_plain g = true -> cyclic g sh = false ->
    grammar_word_roots_ok g = true ->
    subword_spaces g sh = true ->
    exists l r trace, from_grammar builtins g sh = Err (SubwordSpaces l r trace).
Proof. exact subword_spaces_rejected. Qed.
Check C08_subword_spaces :
  forall builtins g sh,
    no_call_variant g = false -> varying_names g = false -> slash_in_name g = false ->
    duplicate_plain g = false ->
    unknown_shell g = false -> non_command_for_shell g = false -> duplicate_for_shell g sh = false ->
    specs_have_command_plain g = true -> cyclic g sh = false ->
    grammar_word_roots_ok g = true ->
    subword_spaces g sh = true ->
    exists l r trace, from_grammar builtins g sh = Err (SubwordSpaces l r trace).
Print Assumptions C08_subword_spaces.

(** "The same literal expected at one point with two different descriptions": what the walk of
    [DFA::check_ambiguity_best_effort] (Model/Ambiguity.v, tied by this check) decides.
    [AmbWalk.reachable d u]: [u] is reachable from the start state through transitions;
    [AmbWalk.conflicting d u]: two literal inputs leave [u] with the same text and different
    descriptions; [AmbWalk.star_ambiguous d u]: two or more star inputs leave [u], one of them to a
    non-accepting state; [AmbWalk.lpath d s u q]: [q] lists the inputs along a path from [s] to [u].
    (That the walk neither panics nor runs out of fuel -- [AmbWalk.fine] -- is proved with the
    other totality results.) *)
Theorem C08_ambiguity_accepts :
  forall d, check_ambiguity_best_effort d = Ok tt ->
    forall u, AmbWalk.reachable d u ->
      AmbWalk.inputs_in_range d u /\ ~ AmbWalk.star_ambiguous d u /\ ~ AmbWalk.conflicting d u.
Proof. exact AmbWalk.amb_accepts. Qed.
Check C08_ambiguity_accepts :
  forall d, check_ambiguity_best_effort d = Ok tt ->
    forall u, AmbWalk.reachable d u ->
      AmbWalk.inputs_in_range d u /\ ~ AmbWalk.star_ambiguous d u /\ ~ AmbWalk.conflicting d u.
Print Assumptions C08_ambiguity_accepts.

Theorem C08_ambiguity_rejects :
  forall d e, check_ambiguity_best_effort d = Err e ->
    exists u q, AmbWalk.lpath d (d_start d) u q /\ AmbWalk.reachable d u /\
      ((exists ins, e = AmbiguousDFA q ins /\ AmbWalk.star_ambiguous d u) \/
       (exists t l r, e = ConflictingDescriptions q t l r /\ AmbWalk.conflicting d u)).
Proof. exact AmbWalk.amb_rejects. Qed.
Check C08_ambiguity_rejects :
  forall d e, check_ambiguity_best_effort d = Err e ->
    exists u q, AmbWalk.lpath d (d_start d) u q /\ AmbWalk.reachable d u /\
      ((exists ins, e = AmbiguousDFA q ins /\ AmbWalk.star_ambiguous d u) \/
       (exists t l r, e = ConflictingDescriptions q t l r /\ AmbWalk.conflicting d u)).
Print Assumptions C08_ambiguity_rejects.

Theorem C08_ambiguity_decides :
  forall d, AmbWalk.fine (check_ambiguity_best_effort d) ->
    (check_ambiguity_best_effort d = Ok tt <->
     forall u, AmbWalk.reachable d u -> ~ AmbWalk.star_ambiguous d u /\ ~ AmbWalk.conflicting d u).
Proof. exact AmbWalk.amb_decides. Qed.
Check C08_ambiguity_decides :
  forall d, AmbWalk.fine (check_ambiguity_best_effort d) ->
    (check_ambiguity_best_effort d = Ok tt <->
     forall u, AmbWalk.reachable d u -> ~ AmbWalk.star_ambiguous d u /\ ~ AmbWalk.conflicting d u).
Print Assumptions C08_ambiguity_decides.

(** the sort / dedup / neighbour comparison of one state finds a clash iff there is one *)
Theorem C08_conflict_search :
  forall lits, first_conflict (dedup (sort_by_text lits)) = None <-> ~ AmbWalk.has_clash lits.
Proof. exact AmbWalk.conflict_search_correct. Qed.
Check C08_conflict_search :
  forall lits, first_conflict (dedup (sort_by_text lits)) = None <-> ~ AmbWalk.has_clash lits.
Print Assumptions C08_conflict_search.

(** Non-vacuity: a DFA whose second state has the literal "x" with two descriptions, far from
    each other in the input order, is rejected with the path ["go"]; without it, accepted. *)
Definition ex_amb (de : option string) : dfa :=
  mkdfa 0 [(0, [(0, 1)]); (1, [(1, 2); (2, 2); (3, 2); (4, 1)]); (2, [])] [2]
        [ILit "go" None 0; ILit "x" (Some "one") 0; ILit "a" None 0; ILit "x" de 0; IStar].
Example ex_C08_ambiguity_inhabited :
  check_ambiguity_best_effort (ex_amb (Some "two"))
  = Err (ConflictingDescriptions [ILit "go" None 0] "x" "one" "two")
  /\ check_ambiguity_best_effort (ex_amb (Some "one")) = Ok tt.
Proof. vm_compute. split; reflexivity. Qed.
Print Assumptions ex_C08_ambiguity_inhabited.

(** Non-vacuity: concrete grammars meet each hypothesis, and a clean one is accepted by the model. *)
Definition ex_sp := mkspan 1 1 2.
Definition ex_dup : grammar :=
  [ CallVariant "cmd" ex_sp (NontermRef "A" 0 ex_sp);
    NontermDef "A" ex_sp None (Terminal "x" None 0 ex_sp);
    NontermDef "A" ex_sp None (Terminal "y" None 0 ex_sp) ].
Definition ex_clean : grammar :=
  [ CallVariant "cmd" ex_sp (Sequence [NontermRef "A" 0 ex_sp; NontermRef "U" 0 ex_sp] ex_sp);
    NontermDef "A" ex_sp None (Alternative [Terminal "x" None 0 ex_sp; NontermRef "B" 0 ex_sp] ex_sp);
    NontermDef "B" ex_sp None (Terminal "y" (Some "d") 0 ex_sp) ].
Definition ex_cyc : grammar :=
  [ CallVariant "cmd" ex_sp (Terminal "a" None 0 ex_sp);
    NontermDef "A" ex_sp None (Optional (NontermRef "B" 0 ex_sp) ex_sp);
    NontermDef "B" ex_sp None (DistDescr (NontermRef "A" 0 ex_sp) "d" ex_sp);
    NontermDef "A" ex_sp (Some ("fish", ex_sp)) (Command "x" false 0 ex_sp);
    NontermDef "A" ex_sp None (Command "y" false 0 ex_sp) ].
Definition ex_spec_bad : grammar :=
  [ CallVariant "cmd" ex_sp (NontermRef "A" 0 ex_sp);
    NontermDef "A" ex_sp (Some ("zsh", ex_sp)) (Terminal "x" None 0 ex_sp);
    NontermDef "B" ex_sp (Some ("csh", ex_sp)) (Command "x" false 0 ex_sp) ].
Example ex_C08_cycle_inhabited :
  (* a cycle no call variant reaches, hidden below a description; broken for fish only *)
  let g := firstn 3 ex_cyc in
  no_call_variant g = false /\ varying_names g = false /\ slash_in_name g = false
  /\ duplicate_plain g = false /\ unknown_shell g = false /\ non_command_for_shell g = false
  /\ duplicate_for_shell g Bash = false /\ specs_have_command_plain g = true
  /\ cyclic g Bash = true
  /\ cyclic (firstn 4 ex_cyc) Bash = true /\ cyclic (firstn 4 ex_cyc) Fish = false
  /\ unknown_shell ex_spec_bad = true /\ non_command_for_shell ex_spec_bad = true
  /\ duplicate_plain ex_spec_bad = false.
Proof. vm_compute. repeat split; reflexivity. Qed.
Print Assumptions ex_C08_cycle_inhabited.

(** Regression example for /repo d78b2b1: the grammar  cmd p(<A> <B>); <A> ::= a; <B> ::= b;  has two
    space-separated literals inside a word through definitions that are referenced directly in the
    call variant; it is rejected for every shell with the spans of the two literals, like the same
    mistake written directly or one definition deeper, while the legitimate juxtaposition
    --opt=<X>; <X> ::= foo;  is accepted. *)
Definition ex_f1_word (inner : expr) : expr :=
  Subword (Sequence [Terminal "p" None 0 ex_sp; inner] ex_sp) 0 ex_sp.
Definition ex_f1 : grammar :=
  [ CallVariant "cmd" ex_sp (ex_f1_word (Sequence [NontermRef "A" 0 (mkspan 1 7 10); NontermRef "B" 0 (mkspan 1 11 14)] ex_sp));
    NontermDef "A" ex_sp None (Terminal "a" None 0 (mkspan 2 9 10));
    NontermDef "B" ex_sp None (Terminal "b" None 0 (mkspan 3 9 10)) ].
Definition ex_f1_direct : grammar :=
  [ CallVariant "cmd" ex_sp (ex_f1_word (Sequence [Terminal "a" None 0 ex_sp; Terminal "b" None 0 ex_sp] ex_sp)) ].
Definition ex_f1_deeper : grammar :=
  [ CallVariant "cmd" ex_sp (ex_f1_word (NontermRef "C" 0 ex_sp));
    NontermDef "C" ex_sp None (Sequence [NontermRef "A" 0 ex_sp; NontermRef "B" 0 ex_sp] ex_sp);
    NontermDef "A" ex_sp None (Terminal "a" None 0 ex_sp);
    NontermDef "B" ex_sp None (Terminal "b" None 0 ex_sp) ].
Definition ex_f1_juxtaposed : grammar :=
  [ CallVariant "cmd" ex_sp (Subword (Sequence [Terminal "--opt=" None 0 ex_sp; NontermRef "X" 0 ex_sp] ex_sp) 0 ex_sp);
    NontermDef "X" ex_sp None (Terminal "foo" None 0 ex_sp) ].
Example ex_C08_F1_subword_spaces_behind_root_refs :
  present (fun _ => []) ex_f1 Bash = [MSubwordSpaces]
  /\ forallb (fun sh => match from_grammar (fun _ => []) ex_f1 sh with
                        | Err (SubwordSpaces l r []) =>
                            span_eqb l (mkspan 2 9 10) && span_eqb r (mkspan 3 9 10)
                        | _ => false
                        end) [Bash; Fish; Zsh; Pwsh] = true
  /\ present (fun _ => []) ex_f1_direct Bash = [MSubwordSpaces]
  /\ is_ok (from_grammar (fun _ => []) ex_f1_direct Bash) = false
  /\ present (fun _ => []) ex_f1_deeper Bash = [MSubwordSpaces]
  /\ is_ok (from_grammar (fun _ => []) ex_f1_deeper Bash) = false
  /\ present (fun _ => []) ex_f1_juxtaposed Bash = []
  /\ is_ok (from_grammar (fun _ => []) ex_f1_juxtaposed Bash) = true
  /\ forallb grammar_word_roots_ok [ex_f1; ex_f1_direct; ex_f1_deeper; ex_f1_juxtaposed] = true
  /\ specs_have_command_plain ex_f1 = true.
Proof. vm_compute. repeat split; reflexivity. Qed.
Print Assumptions ex_C08_F1_subword_spaces_behind_root_refs.

Example ex_C08_inhabited :
  no_call_variant ex_dup = false /\ varying_names ex_dup = false /\ slash_in_name ex_dup = false
  /\ duplicate_plain ex_dup = true
  /\ varying_names (CallVariant "other" ex_sp (Terminal "z" None 0 ex_sp) :: ex_dup) = true
  /\ present (fun _ => []) ex_clean Bash = []
  /\ is_ok (from_grammar (fun _ => []) ex_clean Bash) = true.
Proof. vm_compute. repeat split; reflexivity. Qed.
Print Assumptions ex_C08_inhabited.

(** The placeholder class (regex stage).  What the walk of
    [check_ambiguous_inputs_tail_only_subword] (as of /repo 10fac00) decides on the regex of a
    word: no reachable unbounded item has anything but the end marker in its follow set *)
Theorem C08_tail_only_decides :
  forall r, RegexNoPanic.pool_ok r ->
    (Regex.check_tail_only r = Ok tt <->
     forall p, TailOnlySpec.reachable_pos r p -> ~ TailOnlySpec.bad_pos r p).
Proof. exact TailOnlySpec.check_tail_only_decides. Qed.
Check C08_tail_only_decides :
  forall r, RegexNoPanic.pool_ok r ->
    (Regex.check_tail_only r = Ok tt <->
     forall p, TailOnlySpec.reachable_pos r p -> ~ TailOnlySpec.bad_pos r p).
Print Assumptions C08_tail_only_decides.

(** on an accepted grammar whose operators all have operands (true of everything the parser
    returns), the regex stage rejects exactly the grammars with a placeholder that is not last *)
Theorem C08_placeholder :
  forall builtins g sh v,
    from_grammar builtins g sh = Ok v -> PhSpec.grammar_ops_nonempty g = true ->
    (placeholder_not_last builtins g sh = true <->
     exists a b, Regex.from_valid_expr (v_expr v) = Err (Regex.UnboundedMatchable a b)) /\
    ((exists rp, Regex.from_valid_expr (v_expr v) = Ok rp) \/
     exists a b, Regex.from_valid_expr (v_expr v) = Err (Regex.UnboundedMatchable a b)).
Proof. exact PhTree.placeholder_decided. Qed.
Check C08_placeholder :
  forall builtins g sh v,
    from_grammar builtins g sh = Ok v -> PhSpec.grammar_ops_nonempty g = true ->
    (placeholder_not_last builtins g sh = true <->
     exists a b, Regex.from_valid_expr (v_expr v) = Err (Regex.UnboundedMatchable a b)) /\
    ((exists rp, Regex.from_valid_expr (v_expr v) = Ok rp) \/
     exists a b, Regex.from_valid_expr (v_expr v) = Err (Regex.UnboundedMatchable a b)).
Print Assumptions C08_placeholder.

(** Non-vacuity: `cmd x<U>y;` has the class and is rejected by the regex stage; `cmd x(<U>|a(b|c));`
    (a placeholder beside a longer alternative, the shape /repo 10fac00 is about) has not and passes. *)
Definition ex_ph_word (cs : list expr) : grammar :=
  [ CallVariant "cmd" ex_sp (Subword (Sequence cs ex_sp) 0 ex_sp) ].
Definition ex_ph_bad : grammar :=
  ex_ph_word [Terminal "x" None 0 ex_sp; NontermRef "U" 0 ex_sp; Terminal "y" None 0 ex_sp].
Definition ex_ph_n2 : grammar :=
  ex_ph_word [Terminal "x" None 0 ex_sp;
              Alternative [NontermRef "U" 0 ex_sp;
                           Sequence [Terminal "a" None 0 ex_sp;
                                     Alternative [Terminal "b" None 0 ex_sp; Terminal "c" None 0 ex_sp] ex_sp] ex_sp]
                          ex_sp].
Definition regex_verdict (g : grammar) : option bool :=
  match from_grammar (fun _ => []) g Bash with
  | Ok v => Some (is_ok (Regex.from_valid_expr (v_expr v)))
  | _ => None
  end.
Example ex_C08_placeholder_inhabited :
  PhSpec.grammar_ops_nonempty ex_ph_bad = true /\ PhSpec.grammar_ops_nonempty ex_ph_n2 = true
  /\ present (fun _ => []) ex_ph_bad Bash = [MPlaceholderNotLast] /\ regex_verdict ex_ph_bad = Some false
  /\ present (fun _ => []) ex_ph_n2 Bash = [] /\ regex_verdict ex_ph_n2 = Some true.
Proof. vm_compute. repeat split; reflexivity. Qed.
Print Assumptions ex_C08_placeholder_inhabited.

(** The description-conflict class (ambiguity check of the main automaton).
    [AmbLang.lang_conflict d]: there are input-id words [u ++ i :: v1] and [u ++ j :: v2] accepted
    by [d] where [i], [j] are literals with the same text and different descriptions.  The check
    of the minimised automaton fails exactly then, and only with [ConflictingDescriptions]
    ([AmbiguousDFA] cannot occur: the unbounded item is ONE interned input and a state has at most
    one transition per input). *)
Theorem C08_description_conflict :
  forall pick fuel submap e r pl d states m,
    TreeFacts.alts_nonempty e = true ->
    Regex.from_expr e [] = Ok (r, pl) ->
    Subset.dfa_from_regex pick fuel submap r = Ok (d, states) ->
    Minimize.minimize d = Ok m ->
    ((exists ae, check_ambiguity_best_effort m = Err ae) <-> AmbLang.lang_conflict d) /\
    (forall ae, check_ambiguity_best_effort m = Err ae ->
                exists q t l r', ae = ConflictingDescriptions q t l r').
Proof. exact AmbPipeline.main_amb_verdict. Qed.
Check C08_description_conflict :
  forall pick fuel submap e r pl d states m,
    TreeFacts.alts_nonempty e = true ->
    Regex.from_expr e [] = Ok (r, pl) ->
    Subset.dfa_from_regex pick fuel submap r = Ok (d, states) ->
    Minimize.minimize d = Ok m ->
    ((exists ae, check_ambiguity_best_effort m = Err ae) <-> AmbLang.lang_conflict d) /\
    (forall ae, check_ambiguity_best_effort m = Err ae ->
                exists q t l r', ae = ConflictingDescriptions q t l r').
Print Assumptions C08_description_conflict.
