(** C17 -- external commands run only when expected, with the documented arguments and output handling.
    Proofs: Proofs/C17Shapes.v (shapes of the calls), C17Proofs.v (top level), C17Sub.v (inside a word) and
    C17Total.v (termination), on Model/BashSem.v, the interpreter of the emitted bash skeleton, tied to real bash by
    T2; the specifications are Spec/Invocations.v and, with within-word expressions, Spec/InvocationsSub.v; the
    refutations and examples are computed here. *)
From CG Require Import Base.Prelude Model.Dfa Model.Glob Model.BashSem Model.C17Witness Spec.Invocations Spec.InvocationsSub.
From CG Require Import Proofs.GlobFacts Proofs.SubwordFacts Proofs.C12Proofs Proofs.C12Chain Proofs.C17Proofs Proofs.C17Shapes Proofs.C17Total Proofs.C17Sub.

(** For ALL tables, environments and command lines: every invocation the script makes passes ("","") while a
    complete word is matched at top level, (typed prefix, "") at the cursor, and inside a word w a split of w --
    (rest of w, part of w already matched) -- and it names a command function that exists. *)
Theorem C17_invocation_shapes :
  forall tabs e ws p v start r,
    run_from v start tabs e ws p = Ok r ->
    Forall (fun inv => shape ws p inv /\ nthN (a_commands tabs) (fst (fst inv)) <> None) (r_log r).
Proof. exact run_from_shapes. Qed.
Check C17_invocation_shapes :
  forall tabs e ws p v start r,
    run_from v start tabs e ws p = Ok r ->
    Forall (fun inv => shape ws p inv /\ nthN (a_commands tabs) (fst (fst inv)) <> None) (r_log r).
Print Assumptions C17_invocation_shapes.

(** /repo HEAD ([Repaired]: candidates = text before the first tab via printf, quoted operands, no last-word escape,
    arrays reset per level): for every environment without case-insensitive completion ([e_ignore_case e = false])
    and EVERY command line over tables without within-word expressions on which the specification returns a result, return code, COMPREPLY and the whole invocation log are what the specification prescribes -- exactly
    the expected commands, in the expected places, with the expected arguments; candidates are the text before the
    first tab of each line; a word is accepted by a command iff it equals a candidate.  No known-class
    hypothesis (the prefix must be printable ASCII: printf %q). *)
Theorem C17_repaired_toplevel_spec :
  forall start tabs e ws p r esc,
    spec_subword_free tabs -> e_ignore_case e = false -> printable_str p = true ->
    spec_run start tabs e ws p = Ok (r, esc) ->
    run_from Repaired start tabs e ws p = Ok r.
Proof. exact run_from_spec_repaired. Qed.
Check C17_repaired_toplevel_spec :
  forall start tabs e ws p r esc,
    spec_subword_free tabs -> e_ignore_case e = false -> printable_str p = true ->
    spec_run start tabs e ws p = Ok (r, esc) ->
    run_from Repaired start tabs e ws p = Ok r.
Print Assumptions C17_repaired_toplevel_spec.

(** ... and its candidates are the specification's, for every output text *)
Theorem C17_repaired_candidates :
  forall output, command_lines Repaired output = spec_candidates output.
Proof. exact filter_lines_repaired_spec. Qed.
Check C17_repaired_candidates :
  forall output, command_lines Repaired output = spec_candidates output.
Print Assumptions C17_repaired_candidates.

(** /repo HEAD, WITH within-word expressions: for all tables whose within-word literal arrays are non-empty texts in
    decreasing length (dfa.rs; checked on Rust's tables), every environment with [e_ignore_case e = false] and every command
    line (printable prefix) on which the specification returns a result, return code, COMPREPLY and the whole invocation log are what Spec/InvocationsSub.v prescribes.  Inside a word that
    specification is declarative: at a point with [rest] to read, the LONGEST expected literal -- resp. candidate of an
    expected command, run with ([rest], matched part), candidates = text before the first tab -- that is a non-empty
    prefix of [rest] is consumed; when completing, the walk stops where [rest] is a proper prefix of an expected piece;
    a complete word matches iff it is consumed ending in an accepting state; completion runs every command expected at
    the point reached with ([rest], matched part) and offers matched part ++ candidate for the candidates extending
    [rest].  (The script's ordered first-hit loops over the length-sorted literal array and the `sort`ed candidates are
    shown equal to that choice: Proofs/C17Sub.v.) *)
Theorem C17_repaired_subword_spec :
  forall start tabs e ws p r,
    wf_subwords tabs -> e_ignore_case e = false -> printable_str p = true ->
    spec_run_sw start tabs e ws p = Ok r ->
    run_from Repaired start tabs e ws p = Ok r.
Proof. exact run_from_repaired_spec_sw. Qed.
Check C17_repaired_subword_spec :
  forall start tabs e ws p r,
    wf_subwords tabs -> e_ignore_case e = false -> printable_str p = true ->
    spec_run_sw start tabs e ws p = Ok r ->
    run_from Repaired start tabs e ws p = Ok r.
Print Assumptions C17_repaired_subword_spec.

(** the building block: inside a word the interpreter IS the specification, round by round *)
Theorem C17_repaired_within_word :
  forall c tabs e T acc word fuel state ci log,
    wf_sub T ->
    sw_loop fuel Repaired c tabs e T acc word state ci log = spec_sw_loop fuel c tabs e T acc word state ci log.
Proof. intros c tabs e T acc word fuel state ci log H. now apply sw_loop_spec. Qed.
Check C17_repaired_within_word :
  forall c tabs e T acc word fuel state ci log,
    wf_sub T ->
    sw_loop fuel Repaired c tabs e T acc word state ci log = spec_sw_loop fuel c tabs e T acc word state ci log.
Print Assumptions C17_repaired_within_word.

(** /repo HEAD always terminates: for ALL tables whose within-word literals are non-empty (the parser guarantees it),
    every environment and every command line, the interpreter neither runs out of fuel (every round of the within-word
    loop consumes at least one character: an empty candidate is never consumed) nor panics, and a result is a return
    code 0 or 1.  ([Err] remains possible: it flags a query outside the modelled domain -- an extended glob in
    COMP_WORDBREAKS stripping, a non-printable prefix given to printf %q, a command id without function.) *)
Theorem C17_repaired_total :
  forall tabs e start ws p,
    wf_subword_literals tabs ->
    run_from Repaired start tabs e ws p <> OutOfFuel
    /\ (forall site, run_from Repaired start tabs e ws p <> Panic site)
    /\ (forall r, run_from Repaired start tabs e ws p = Ok r -> r_rc r = 0 \/ r_rc r = 1).
Proof. exact run_from_repaired_total. Qed.
Check C17_repaired_total :
  forall tabs e start ws p,
    wf_subword_literals tabs ->
    run_from Repaired start tabs e ws p <> OutOfFuel
    /\ (forall site, run_from Repaired start tabs e ws p <> Panic site)
    /\ (forall r, run_from Repaired start tabs e ws p = Ok r -> r_rc r = 0 \/ r_rc r = 1).
Print Assumptions C17_repaired_total.

(** The [Pinned] and [Fixed] templates: the same equality only on the clean top-level domain -- no within-word
    expressions, every command prints lines without blanks that are not option words of echo, glob-free complete
    words, printable prefix, and the situation of the last-word escape does not arise -- return code, COMPREPLY and the whole invocation log are what the specification
    prescribes: exactly the expected commands, in the expected places, with the expected arguments; candidates are
    the lines; a word is accepted by a command iff it equals a candidate. *)
Theorem C17_toplevel_spec :
  forall v start tabs e ws p r,
    spec_subword_free tabs -> clean_env e -> e_ignore_case e = false ->
    Forall (fun w => plain w = true) ws -> printable_str p = true ->
    spec_run start tabs e ws p = Ok (r, false) ->
    run_from v start tabs e ws p = Ok r.
Proof. exact run_from_spec. Qed.
Check C17_toplevel_spec :
  forall v start tabs e ws p r,
    spec_subword_free tabs -> clean_env e -> e_ignore_case e = false ->
    Forall (fun w => plain w = true) ws -> printable_str p = true ->
    spec_run start tabs e ws p = Ok (r, false) ->
    run_from v start tabs e ws p = Ok r.
Print Assumptions C17_toplevel_spec.

(** `cmd | while read -r f1 _; do echo "$f1"; done` read back with readarray is the identity on clean lines, and so
    is "the text before the first tab". *)
Theorem C17_clean_candidates :
  forall ls, Forall clean_line ls -> filter_lines (unlines ls) = ls /\ spec_candidates (unlines ls) = ls.
Proof. intros ls H. split; [now apply filter_lines_clean|now apply spec_candidates_clean]. Qed.
Check C17_clean_candidates :
  forall ls, Forall clean_line ls -> filter_lines (unlines ls) = ls /\ spec_candidates (unlines ls) = ls.
Print Assumptions C17_clean_candidates.

(** Refutations of the [Pinned] template outside that domain; [C17_repaired_witnesses] says what [Repaired] does on
    the same inputs (w1: cmd ({{{c1}}} x | {{{c2}}} y);  w2: cmd p:({{{c1}}})... next;) *)
Definition lf : string := String (ch 10) EmptyString.
Definition env1 (o1 o2 : string) : env := mkenv default_wordbreaks [(0, o1); (1, o2)] false.
Definition env2 (o : string) : env := mkenv default_wordbreaks [(0, o)] false.

(** `read -r f1 _` cuts at the first space: the candidate "my file" is offered as "my". *)
Theorem C17_refuted_space :
  let e := env1 ("my file" ++ lf ++ "plain" ++ lf) ("cb" ++ lf) in
  run_from Pinned 0 w1 e [] "" = Ok (mkresult 0 ["my"; "plain"; "cb"] [(0, "", ""); (1, "", "")])
  /\ spec_run 0 w1 e [] "" = Ok (mkresult 0 ["my file"; "plain"; "cb"] [(0, "", ""); (1, "", "")], false).
Proof. vm_compute. split; reflexivity. Qed.
Check C17_refuted_space :
  let e := env1 ("my file" ++ lf ++ "plain" ++ lf) ("cb" ++ lf) in
  run_from Pinned 0 w1 e [] "" = Ok (mkresult 0 ["my"; "plain"; "cb"] [(0, "", ""); (1, "", "")])
  /\ spec_run 0 w1 e [] "" = Ok (mkresult 0 ["my file"; "plain"; "cb"] [(0, "", ""); (1, "", "")], false).
Print Assumptions C17_refuted_space.

(** `echo "$f1"` swallows -n and -e (and -n glues: here "a" survives, an empty candidate appears). *)
Theorem C17_refuted_echo_option :
  let e := env1 ("-n" ++ lf ++ "a" ++ lf ++ "-e" ++ lf ++ "b" ++ lf) ("cb" ++ lf) in
  run_from Pinned 0 w1 e [] "" = Ok (mkresult 0 ["a"; ""; "b"; "cb"] [(0, "", ""); (1, "", "")])
  /\ spec_run 0 w1 e [] "" = Ok (mkresult 0 ["-n"; "a"; "-e"; "b"; "cb"] [(0, "", ""); (1, "", "")], false).
Proof. vm_compute. split; reflexivity. Qed.
Check C17_refuted_echo_option :
  let e := env1 ("-n" ++ lf ++ "a" ++ lf ++ "-e" ++ lf ++ "b" ++ lf) ("cb" ++ lf) in
  run_from Pinned 0 w1 e [] "" = Ok (mkresult 0 ["a"; ""; "b"; "cb"] [(0, "", ""); (1, "", "")])
  /\ spec_run 0 w1 e [] "" = Ok (mkresult 0 ["-n"; "a"; "-e"; "b"; "cb"] [(0, "", ""); (1, "", "")], false).
Print Assumptions C17_refuted_echo_option.

(** The `word_index + 1 == cword` escape: an unmatched last word does not make the script return 1 -- it
    completes from the state before that word; and because the escape sits inside the loop over the commands, the
    fully typed candidate "ca" of the second command asked is never recognised (bash asks command 1 before 0). *)
Theorem C17_refuted_last_word :
  let e := env1 ("ca" ++ lf) ("cb" ++ lf) in
  run_from Pinned 0 w1 e ["zz"] "" = Ok (mkresult 0 ["ca"; "cb"] [(1, "", ""); (0, "", ""); (1, "", "")])
  /\ spec_run 0 w1 e ["zz"] "" = Ok (mkresult 1 [] [(1, "", ""); (0, "", "")], true)
  /\ run_from Pinned 0 w1 e ["ca"] "" = Ok (mkresult 0 ["ca"; "cb"] [(1, "", ""); (0, "", ""); (1, "", "")])
  /\ spec_run 0 w1 e ["ca"] "" = Ok (mkresult 0 ["x "] [(1, "", ""); (0, "", "")], true).
Proof. vm_compute. repeat split; reflexivity. Qed.
Check C17_refuted_last_word :
  let e := env1 ("ca" ++ lf) ("cb" ++ lf) in
  run_from Pinned 0 w1 e ["zz"] "" = Ok (mkresult 0 ["ca"; "cb"] [(1, "", ""); (0, "", ""); (1, "", "")])
  /\ spec_run 0 w1 e ["zz"] "" = Ok (mkresult 1 [] [(1, "", ""); (0, "", "")], true)
  /\ run_from Pinned 0 w1 e ["ca"] "" = Ok (mkresult 0 ["ca"; "cb"] [(1, "", ""); (0, "", ""); (1, "", "")])
  /\ spec_run 0 w1 e ["ca"] "" = Ok (mkresult 0 ["x "] [(1, "", ""); (0, "", "")], true).
Print Assumptions C17_refuted_last_word.

(** The typed word is a glob pattern for the candidates: "*" is accepted as the candidate of command 1. *)
Theorem C17_refuted_glob_word :
  let e := env1 ("ca" ++ lf) ("cb" ++ lf) in
  run_from Pinned 0 w1 e ["*"; "y"] "" = Ok (mkresult 0 [] [(1, "", "")])
  /\ spec_run 0 w1 e ["*"; "y"] "" = Ok (mkresult 1 [] [(1, "", ""); (0, "", "")], false).
Proof. vm_compute. split; reflexivity. Qed.
Check C17_refuted_glob_word :
  let e := env1 ("ca" ++ lf) ("cb" ++ lf) in
  run_from Pinned 0 w1 e ["*"; "y"] "" = Ok (mkresult 0 [] [(1, "", "")])
  /\ spec_run 0 w1 e ["*"; "y"] "" = Ok (mkresult 1 [] [(1, "", ""); (0, "", "")], false).
Print Assumptions C17_refuted_glob_word.

(** An empty candidate line inside a word is consumed without progress: on the within-word cycle of w2 the loop
    revisits a configuration, i.e. the real script does not terminate (observed: real bash hangs). *)
Theorem C17_refuted_empty_candidate :
  run_from Pinned 0 w2 (env2 ("x" ++ lf ++ lf ++ "xy" ++ lf)) ["p:q"] "" = OutOfFuel
  /\ run_from Fixed 0 w2 (env2 ("x" ++ lf ++ lf ++ "xy" ++ lf)) ["p:q"] "" = OutOfFuel.
Proof. vm_compute. split; reflexivity. Qed.
Check C17_refuted_empty_candidate :
  run_from Pinned 0 w2 (env2 ("x" ++ lf ++ lf ++ "xy" ++ lf)) ["p:q"] "" = OutOfFuel
  /\ run_from Fixed 0 w2 (env2 ("x" ++ lf ++ lf ++ "xy" ++ lf)) ["p:q"] "" = OutOfFuel.
Print Assumptions C17_refuted_empty_candidate.

(** Inside a word the pinned stop test refuses the fully typed candidate "x" because "xy" extends it; the repair
    of C12 accepts it.  The arguments are the documented ones: (rest "x", matched part "p:"). *)
Theorem C17_refuted_candidate_chain :
  let e := env2 ("x" ++ lf ++ "xy" ++ lf) in
  run_from Pinned 0 w2 e ["p:x"] "" = Ok (mkresult 1 [] [(0, "x", "p:")])
  /\ run_from Fixed 0 w2 e ["p:x"] "" = Ok (mkresult 0 ["next "] [(0, "x", "p:")]).
Proof. vm_compute. split; reflexivity. Qed.
Check C17_refuted_candidate_chain :
  let e := env2 ("x" ++ lf ++ "xy" ++ lf) in
  run_from Pinned 0 w2 e ["p:x"] "" = Ok (mkresult 1 [] [(0, "x", "p:")])
  /\ run_from Fixed 0 w2 e ["p:x"] "" = Ok (mkresult 0 ["next "] [(0, "x", "p:")]).
Print Assumptions C17_refuted_candidate_chain.

(** On the same witnesses /repo HEAD does what the specification says (inside the word of w2: the empty candidate is
    not consumed, the loop ends; the fully typed candidate "x" is accepted although "xy" extends it). *)
Theorem C17_repaired_witnesses :
  run_from Repaired 0 w1 (env1 ("my file" ++ lf ++ "plain" ++ lf) ("cb" ++ lf)) [] ""
  = Ok (mkresult 0 ["my file"; "plain"; "cb"] [(0, "", ""); (1, "", "")])
  /\ run_from Repaired 0 w1 (env1 ("-n" ++ lf ++ "a" ++ lf ++ "-e" ++ lf ++ "b" ++ lf) ("cb" ++ lf)) [] ""
     = Ok (mkresult 0 ["-n"; "a"; "-e"; "b"; "cb"] [(0, "", ""); (1, "", "")])
  /\ run_from Repaired 0 w1 (env1 ("ca" ++ lf) ("cb" ++ lf)) ["zz"] "" = Ok (mkresult 1 [] [(1, "", ""); (0, "", "")])
  /\ run_from Repaired 0 w1 (env1 ("ca" ++ lf) ("cb" ++ lf)) ["ca"] "" = Ok (mkresult 0 ["x "] [(1, "", ""); (0, "", "")])
  /\ run_from Repaired 0 w1 (env1 ("ca" ++ lf) ("cb" ++ lf)) ["*"; "y"] "" = Ok (mkresult 1 [] [(1, "", ""); (0, "", "")])
  /\ run_from Repaired 0 w2 (env2 ("x" ++ lf ++ lf ++ "xy" ++ lf)) ["p:q"] "" = Ok (mkresult 1 [] [(0, "q", "p:")])
  /\ run_from Repaired 0 w2 (env2 ("x" ++ lf ++ "xy" ++ lf)) ["p:x"] "" = Ok (mkresult 0 ["next "] [(0, "x", "p:")]).
Proof. vm_compute. repeat split; reflexivity. Qed.
Check C17_repaired_witnesses :
  run_from Repaired 0 w1 (env1 ("my file" ++ lf ++ "plain" ++ lf) ("cb" ++ lf)) [] ""
  = Ok (mkresult 0 ["my file"; "plain"; "cb"] [(0, "", ""); (1, "", "")])
  /\ run_from Repaired 0 w1 (env1 ("-n" ++ lf ++ "a" ++ lf ++ "-e" ++ lf ++ "b" ++ lf) ("cb" ++ lf)) [] ""
     = Ok (mkresult 0 ["-n"; "a"; "-e"; "b"; "cb"] [(0, "", ""); (1, "", "")])
  /\ run_from Repaired 0 w1 (env1 ("ca" ++ lf) ("cb" ++ lf)) ["zz"] "" = Ok (mkresult 1 [] [(1, "", ""); (0, "", "")])
  /\ run_from Repaired 0 w1 (env1 ("ca" ++ lf) ("cb" ++ lf)) ["ca"] "" = Ok (mkresult 0 ["x "] [(1, "", ""); (0, "", "")])
  /\ run_from Repaired 0 w1 (env1 ("ca" ++ lf) ("cb" ++ lf)) ["*"; "y"] "" = Ok (mkresult 1 [] [(1, "", ""); (0, "", "")])
  /\ run_from Repaired 0 w2 (env2 ("x" ++ lf ++ lf ++ "xy" ++ lf)) ["p:q"] "" = Ok (mkresult 1 [] [(0, "q", "p:")])
  /\ run_from Repaired 0 w2 (env2 ("x" ++ lf ++ "xy" ++ lf)) ["p:x"] "" = Ok (mkresult 0 ["next "] [(0, "x", "p:")]).
Print Assumptions C17_repaired_witnesses.

(** literal prefix + command tail (w2: cmd p:({{{c1}}})... next;), candidates x, xy and q (the last printed with a tab
    and a description): the specification computes the documented calls -- (rest, matched part) = ("xy", "p:") alone
    while matching p:xy (the longest candidate is consumed); ("xq", "p:") then ("q", "p:x") for p:xq; ("x", "p:") twice
    (walk, then completion) for the word p:x under the cursor -- and the hypothesis [wf_subwords] of
    [C17_repaired_subword_spec] holds for w2. *)
Example ex_C17_subword_inhabited :
  let e := env2 ("x" ++ lf ++ "xy" ++ lf ++ "q" ++ String (ch 9) "descr" ++ lf) in
  wf_subwords w2
  /\ spec_run_sw 0 w2 e ["p:xy"] "" = Ok (mkresult 0 ["next "] [(0, "xy", "p:")])
  /\ spec_run_sw 0 w2 e ["p:xq"] "" = Ok (mkresult 0 ["next "] [(0, "xq", "p:"); (0, "q", "p:x")])
  /\ spec_run_sw 0 w2 e ["p:z"] "" = Ok (mkresult 1 [] [(0, "z", "p:")])
  /\ spec_run_sw 0 w2 e [] "p:x" = Ok (mkresult 0 ["x"; "xy"] [(0, "x", "p:"); (0, "x", "p:")])
  /\ spec_run_sw 0 w2 e [] "p:" = Ok (mkresult 0 ["x"; "xy"; "q"] [(0, "", "p:")]).
Proof.
  cbv zeta. split.
  - intros pool sid T H. cbn in H. destruct H as [H|[]]. injection H as _ _ <-. split.
    + intros id l Hin. cbn in Hin. destruct Hin as [Hin|[]]. injection Hin as _ <-. discriminate.
    + cbn. split; [intros id l' []|exact I].
  - vm_compute. repeat split; reflexivity.
Qed.
Print Assumptions ex_C17_subword_inhabited.

(** Non-vacuity of C17_toplevel_spec: w1 with clean outputs is in the domain, the escape does not arise for the
    line [cb] + prefix "", and both sides compute the same non-trivial result. *)
Example ex_C17_inhabited :
  let e := env1 ("ca" ++ lf) ("cb" ++ lf) in
  spec_subword_free w1 /\ clean_env e /\ e_ignore_case e = false
  /\ spec_run 0 w1 e ["cb"] "" = Ok (mkresult 0 ["y "] [(1, "", "")], false)
  /\ run_from Pinned 0 w1 e ["cb"] "" = Ok (mkresult 0 ["y "] [(1, "", "")])
  /\ spec_run 0 w1 e [] "c" = Ok (mkresult 0 ["ca"; "cb"] [(0, "c", ""); (1, "c", "")], false).
Proof.
  cbv zeta. repeat split.
  - intros level state. destruct level as [|[|level]]; reflexivity.
  - intros cid. unfold cmd_output, env1. cbn [e_outputs assocN].
    destruct (N.eqb cid 0) eqn:E0.
    + exists ["ca"]. split; [reflexivity|]. repeat constructor.
    + destruct (N.eqb cid 1) eqn:E1.
      * exists ["cb"]. split; [reflexivity|]. repeat constructor.
      * exists []. split; [reflexivity|constructor].
Qed.
Print Assumptions ex_C17_inhabited.
