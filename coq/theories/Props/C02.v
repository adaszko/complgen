(** C02 -- the compiled automaton recognises exactly the grammar's language, labels included.
    Each theorem is a lemma of Proofs/ under its C02 name: Glushkov and Useful (positions),
    SubsetConstr and SubsetFuel (subset construction), LangJudge over LangRe, LangNfa, LangDen
    (the judge), C02Lang over FromExpr (the language of the raw automaton), CheckTree and
    DistributeLits (what the checker leaves), WfTrim, RegexFuel, RegexNoPanic and C02Total
    (hypotheses of C03, fuel, totality), AmbTotal and DriverCorrect ([Driver.compile_valid]).

    Specification: [Spec.Lang.denotes] (what a validated tree denotes over items carrying text,
    description and || level; a composite word is the set of its within-word item sequences) and
    [Spec.Lang.accepts_items] (what an automaton with its within-word automata accepts). *)
From CG Require Import Base.Prelude Model.Ast Model.Dfa Model.Check Model.Regex Model.Subset Spec.Lang.
From CG Require Import Proofs.RxLang Proofs.Glushkov Proofs.SubsetStmt Proofs.SubsetConstr.
From CG Require Import Proofs.LangJudge Proofs.C02Lang.
From CG Require Import Model.Minimize Spec.DfaEquiv Spec.MinimizeSpec.
From CG Require Import Proofs.Useful Proofs.RegexFuel Proofs.SubsetFuel Proofs.TreeFacts Proofs.CheckTree.
From CG Require Import Proofs.WfTrim Proofs.C02Total Proofs.RegexNoPanic Proofs.DistributeLits.
From CG Require Import Model.Ambiguity Model.Driver Proofs.AmbTotal Proofs.DriverCorrect.

(** (a) L-glushkov for the model's tables: for the tree [t] of an expression (n-ary [Cat] with the
    skip-nullable loop, [Or], [Many1 x = Cat [x; Star x]] sharing [x]) and its end marker [e], a
    position word is in the language iff its head is in [firstpos], consecutive pairs are in
    [followpos], and the end marker follows its last position (empty word: the end marker is in
    [firstpos]). *)
Theorem C02_glushkov :
  forall t e, shape t -> ~ In e (positions t) ->
  forall w, Lrx t w <-> glushkov_word (with_end t e) e w.
Proof. exact glushkov_root. Qed.
Check C02_glushkov :
  forall t e, shape t -> ~ In e (positions t) ->
  forall w, Lrx t w <-> glushkov_word (with_end t e) e w.
Print Assumptions C02_glushkov.

(** (b) L-subset: for EVERY pop order [pick], the model of [dfa_from_regex] returns a deterministic
    automaton whose state after an input-id word is the set of positions that may come next;
    accepting = contains the end marker; every state is reachable. *)
Theorem C02_subset :
  forall pick fuel submap r d states labels,
    dfa_from_regex pick fuel submap r = Ok (d, states) ->
    omap (from_input submap) (r_inputs r) = Ok labels ->
    let reach := reach_from labels (regex_follow r) (intern_all labels) (regex_first r) in
    d_inputs d = intern_all labels /\
    NoDup (map fst (d_trans d)) /\
    Forall (fun row => NoDup (map fst (snd row))) (d_trans d) /\
    NoDup (map fst states) /\ NoDup (map snd states) /\
    (forall ids, match run d (d_start d) ids with
                 | Some s => In (reach ids, s) states
                 | None => reach ids = []
                 end) /\
    (forall ids, accepts d ids = true <-> In (r_end r) (reach ids)) /\
    (forall S s, In (S, s) states -> exists ids, run d (d_start d) ids = Some s) /\
    (forall s, In s (map fst (d_trans d)) <-> In s (map snd states)).
Proof. exact subset_run. Qed.
Check C02_subset :
  forall pick fuel submap r d states labels,
    dfa_from_regex pick fuel submap r = Ok (d, states) ->
    omap (from_input submap) (r_inputs r) = Ok labels ->
    let reach := reach_from labels (regex_follow r) (intern_all labels) (regex_first r) in
    d_inputs d = intern_all labels /\
    NoDup (map fst (d_trans d)) /\
    Forall (fun row => NoDup (map fst (snd row))) (d_trans d) /\
    NoDup (map fst states) /\ NoDup (map snd states) /\
    (forall ids, match run d (d_start d) ids with
                 | Some s => In (reach ids, s) states
                 | None => reach ids = []
                 end) /\
    (forall ids, accepts d ids = true <-> In (r_end r) (reach ids)) /\
    (forall S s, In (S, s) states -> exists ids, run d (d_start d) ids = Some s) /\
    (forall s, In s (map fst (d_trans d)) <-> In s (map snd states)).
Print Assumptions C02_subset.

(** ... hence its language over input ids is the image of the table language of the regex. *)
Theorem C02_subset_language :
  forall pick fuel submap r d states labels,
    dfa_from_regex pick fuel submap r = Ok (d, states) ->
    omap (from_input submap) (r_inputs r) = Ok labels ->
    forall ids,
      accepts d ids = true <->
      exists ps,
        Forall2 (fun p i => exists x, nthN labels p = Some x /\ nthN (d_inputs d) i = Some x) ps ids /\
        glushkov_word (r_tree r) (r_end r) ps.
Proof. exact subset_language. Qed.
Check C02_subset_language :
  forall pick fuel submap r d states labels,
    dfa_from_regex pick fuel submap r = Ok (d, states) ->
    omap (from_input submap) (r_inputs r) = Ok labels ->
    forall ids,
      accepts d ids = true <->
      exists ps,
        Forall2 (fun p i => exists x, nthN labels p = Some x /\ nthN (d_inputs d) i = Some x) ps ids /\
        glushkov_word (r_tree r) (r_end r) ps.
Print Assumptions C02_subset_language.

(** The judge run on the implementation's automata is sound: [Equal] means the automaton and its
    within-word automata accept exactly the item words the validated tree denotes ... *)
Theorem C02_judge_sound :
  forall fuel cd e, equiv_dfa_expr fuel cd e = Equal ->
  forall w, accepts_items cd w <-> denotes e w.
Proof. exact judge_sound. Qed.
Check C02_judge_sound :
  forall fuel cd e, equiv_dfa_expr fuel cd e = Equal ->
  forall w, accepts_items cd w <-> denotes e w.
Print Assumptions C02_judge_sound.

(** ... and a returned word really distinguishes (each letter read as the item it stands for). *)
Theorem C02_judge_differ :
  forall fuel cd e v, equiv_dfa_expr fuel cd e = Differ v ->
  let w := map (sem (sources cd e)) v in
  ~ (accepts_items cd w <-> denotes e w).
Proof. exact judge_differ. Qed.
Check C02_judge_differ :
  forall fuel cd e v, equiv_dfa_expr fuel cd e = Differ v ->
  let w := map (sem (sources cd e)) v in
  ~ (accepts_items cd w <-> denotes e w).
Print Assumptions C02_judge_differ.

(** The same for a within-word automaton against a within-word expression. *)
Theorem C02_wjudge_sound :
  forall fuel d c, equiv_wdfa_expr fuel d c = Equal -> forall v, waccepts d v <-> wdenotes c v.
Proof. exact wjudge_sound. Qed.
Check C02_wjudge_sound :
  forall fuel d c, equiv_wdfa_expr fuel d c = Equal -> forall v, waccepts d v <-> wdenotes c v.
Print Assumptions C02_wjudge_sound.

Theorem C02_wjudge_differ :
  forall fuel d c v, equiv_wdfa_expr fuel d c = Differ v -> ~ (waccepts d v <-> wdenotes c v).
Proof. exact wjudge_differ. Qed.
Check C02_wjudge_differ :
  forall fuel d c v, equiv_wdfa_expr fuel d c = Differ v -> ~ (waccepts d v <-> wdenotes c v).
Print Assumptions C02_wjudge_differ.

(** (c) The model pipeline, inside a word: for every pop order and oracle, the raw automaton of a
    within-word expression accepts exactly what the expression denotes. *)
Theorem C02_subwords :
  forall pick fuel submap c pl r pl1 d states,
    from_expr c pl = Ok (r, pl1) ->
    dfa_from_regex pick fuel submap r = Ok (d, states) ->
    forall v, waccepts d v <-> wdenotes c v.
Proof. exact C02_subwords_model. Qed.
Check C02_subwords :
  forall pick fuel submap c pl r pl1 d states,
    from_expr c pl = Ok (r, pl1) ->
    dfa_from_regex pick fuel submap r = Ok (d, states) ->
    forall v, waccepts d v <-> wdenotes c v.
Print Assumptions C02_subwords.

(** (c) The model pipeline, on the command line: for every pop order [pick] and every oracle
    [submap] whose within-word automata accept the table languages of their within-word regexes
    ([subs_ok]; [C02_minimised] below has it from [subs_minimised]), the raw automaton compiled
    from a validated tree accepts exactly the item words the tree denotes. *)
Theorem C02_language :
  forall pick fuel submap e r pl d states subs,
    from_expr e [] = Ok (r, pl) ->
    dfa_from_regex pick fuel submap r = Ok (d, states) ->
    subs_ok submap pl (mkcdfa d subs) ->
    forall w, accepts_items (mkcdfa d subs) w <-> denotes e w.
Proof. exact C02_language_model. Qed.
Check C02_language :
  forall pick fuel submap e r pl d states subs,
    from_expr e [] = Ok (r, pl) ->
    dfa_from_regex pick fuel submap r = Ok (d, states) ->
    subs_ok submap pl (mkcdfa d subs) ->
    forall w, accepts_items (mkcdfa d subs) w <-> denotes e w.
Print Assumptions C02_language.

(** The same with the regex taken from [from_valid_expr] (the builder followed by
    [check_ambiguities]) on the checker's output; the [from_grammar] hypothesis only says where
    [v] comes from, the proof does not use it. *)
Theorem C02_language_from_grammar :
  forall builtins g sh v pick fuel submap r pl d states subs,
    from_grammar builtins g sh = Ok v ->
    from_valid_expr (v_expr v) = Ok (r, pl) ->
    dfa_from_regex pick fuel submap r = Ok (d, states) ->
    subs_ok submap pl (mkcdfa d subs) ->
    forall w, accepts_items (mkcdfa d subs) w <-> denotes (v_expr v) w.
Proof. exact C02_language_checked. Qed.
Check C02_language_from_grammar :
  forall builtins g sh v pick fuel submap r pl d states subs,
    from_grammar builtins g sh = Ok v ->
    from_valid_expr (v_expr v) = Ok (r, pl) ->
    dfa_from_regex pick fuel submap r = Ok (d, states) ->
    subs_ok submap pl (mkcdfa d subs) ->
    forall w, accepts_items (mkcdfa d subs) w <-> denotes (v_expr v) w.
Print Assumptions C02_language_from_grammar.

(** Any automaton with the same inputs and the same accepted input-id words denotes the same;
    [C02_minimised] below takes the minimised one for it. *)
Theorem C02_minimised_transfer :
  forall pick fuel submap e r pl d states subs d',
    from_expr e [] = Ok (r, pl) ->
    dfa_from_regex pick fuel submap r = Ok (d, states) ->
    subs_ok submap pl (mkcdfa d subs) ->
    d_inputs d' = d_inputs d -> (forall ids, accepts d' ids = accepts d ids) ->
    forall w, accepts_items (mkcdfa d' subs) w <-> denotes e w.
Proof. exact C02_language_transfer. Qed.
Check C02_minimised_transfer :
  forall pick fuel submap e r pl d states subs d',
    from_expr e [] = Ok (r, pl) ->
    dfa_from_regex pick fuel submap r = Ok (d, states) ->
    subs_ok submap pl (mkcdfa d subs) ->
    d_inputs d' = d_inputs d -> (forall ids, accepts d' ids = accepts d ids) ->
    forall w, accepts_items (mkcdfa d' subs) w <-> denotes e w.
Print Assumptions C02_minimised_transfer.

(** Two ways to the hypothesis [subs_ok] of [C02_language]: it holds when the within-word
    automata are the raw automata the model builds for the within-word regexes the oracle names,
    and it survives replacing each of them by an automaton with the same within-word language.
    The theorems below about minimised automata do not go through these two: they have [subs_ok]
    from [subs_minimised] by [subs_minimised_ok] (Proofs/C02Total.v), which uses C03 on each
    within-word automaton. *)
Theorem C02_subs_ok_raw :
  forall submap pl cd,
    (forall rid k, assocN rid submap = Some k ->
       exists rr pick fuel sm states,
         nthN pl rid = Some rr /\ dfa_from_regex pick fuel sm rr = Ok (sub_dfa cd k, states)) ->
    subs_ok submap pl cd.
Proof. exact subs_ok_raw. Qed.
Check C02_subs_ok_raw :
  forall submap pl cd,
    (forall rid k, assocN rid submap = Some k ->
       exists rr pick fuel sm states,
         nthN pl rid = Some rr /\ dfa_from_regex pick fuel sm rr = Ok (sub_dfa cd k, states)) ->
    subs_ok submap pl cd.
Print Assumptions C02_subs_ok_raw.

Theorem C02_subs_ok_equiv :
  forall submap pl d subs subs',
    subs_ok submap pl (mkcdfa d subs) ->
    (forall k v, waccepts (sub_dfa (mkcdfa d subs') k) v <-> waccepts (sub_dfa (mkcdfa d subs) k) v) ->
    forall d', subs_ok submap pl (mkcdfa d' subs').
Proof. exact subs_ok_equiv. Qed.
Check C02_subs_ok_equiv :
  forall submap pl d subs subs',
    subs_ok submap pl (mkcdfa d subs) ->
    (forall k v, waccepts (sub_dfa (mkcdfa d subs') k) v <-> waccepts (sub_dfa (mkcdfa d subs) k) v) ->
    forall d', subs_ok submap pl (mkcdfa d' subs').
Print Assumptions C02_subs_ok_equiv.

(** What the checker guarantees about the tree it returns: no distributive description is left,
    composite words are flat, every leaf carries the index of the innermost || branch it sits in,
    and (when the source has no empty | or ||, which the parser guarantees) neither has the tree. *)
Theorem C02_check_tree :
  forall builtins g sh v, from_grammar builtins g sh = Ok v ->
    dd_free (v_expr v) = true /\
    flat_subwords (v_expr v) = true /\
    levels_ok 0 (v_expr v) = true /\
    (grammar_alts_nonempty g = true -> alts_nonempty (v_expr v) = true).
Proof. exact check_tree. Qed.
Check C02_check_tree :
  forall builtins g sh v, from_grammar builtins g sh = Ok v ->
    dd_free (v_expr v) = true /\
    flat_subwords (v_expr v) = true /\
    levels_ok 0 (v_expr v) = true /\
    (grammar_alts_nonempty g = true -> alts_nonempty (v_expr v) = true).
Print Assumptions C02_check_tree.

(** Descriptions through the checker's distribution pass: literals keep their order and texts, a
    literal keeps the description written on it, and a literal without one receives nothing, or a
    description written behind an enclosing expression: none is invented, none is moved off its
    literal. *)
Theorem C02_distribute_lits :
  forall e, Forall2 (lit_ok None (dd_descrs e)) (lits e) (lits (distribute_descriptions e)).
Proof. exact distribute_descriptions_lits. Qed.
Check C02_distribute_lits :
  forall e, Forall2 (lit_ok None (dd_descrs e)) (lits e) (lits (distribute_descriptions e)).
Print Assumptions C02_distribute_lits.

(** Every position is useful: from each one a chain of followpos edges leads to the end marker. *)
Theorem C02_useful_positions :
  forall t e, shape t -> ors_nonempty t = true -> ~ In e (positions t) ->
    firstpos (with_end t e) <> [] /\
    forall p, In p (positions t) ->
      exists r, chain (followpos (with_end t e)) p r /\
                In (last r p, e) (followpos (with_end t e)).
Proof. exact useful_positions. Qed.
Check C02_useful_positions :
  forall t e, shape t -> ors_nonempty t = true -> ~ In e (positions t) ->
    firstpos (with_end t e) <> [] /\
    forall p, In p (positions t) ->
      exists r, chain (followpos (with_end t e)) p r /\
                In (last r p, e) (followpos (with_end t e)).
Print Assumptions C02_useful_positions.

(** The hypotheses of the C03 theorems hold for every raw automaton the model compiles (main or
    within-word; [pl0] is the pool so far): for every pop order. *)
Theorem C03_wf_from_regex :
  forall pick fuel submap e pl0 r pl d states,
    alts_nonempty e = true -> Forall regex_good pl0 ->
    from_expr e pl0 = Ok (r, pl) ->
    dfa_from_regex pick fuel submap r = Ok (d, states) ->
    wf d /\ trim d.
Proof. exact wf_trim_from_regex. Qed.
Check C03_wf_from_regex :
  forall pick fuel submap e pl0 r pl d states,
    alts_nonempty e = true -> Forall regex_good pl0 ->
    from_expr e pl0 = Ok (r, pl) ->
    dfa_from_regex pick fuel submap r = Ok (d, states) ->
    wf d /\ trim d.
Print Assumptions C03_wf_from_regex.

(** C02 after minimisation, including the nested automata: when every within-word automaton is
    the minimised raw automaton of the pool regex the oracle names ([subs_minimised]), the
    minimised main automaton accepts exactly the item words the tree denotes. *)
Theorem C02_minimised :
  forall pick fuel submap e r pl d states subs m,
    alts_nonempty e = true ->
    from_expr e [] = Ok (r, pl) ->
    dfa_from_regex pick fuel submap r = Ok (d, states) ->
    subs_minimised submap pl subs ->
    minimize d = Ok m ->
    forall w, accepts_items (mkcdfa m subs) w <-> denotes e w.
Proof. exact C02_minimised_model. Qed.
Check C02_minimised :
  forall pick fuel submap e r pl d states subs m,
    alts_nonempty e = true ->
    from_expr e [] = Ok (r, pl) ->
    dfa_from_regex pick fuel submap r = Ok (d, states) ->
    subs_minimised submap pl subs ->
    minimize d = Ok m ->
    forall w, accepts_items (mkcdfa m subs) w <-> denotes e w.
Print Assumptions C02_minimised.

(** Fuel adequacy: the ambiguity walks never run out of [regex_fuel]; the subset construction
    never runs out of any fuel above [2^(n+1)] when the tables mention positions up to [n] only. *)
Theorem C02_fuel_check_ambiguities : forall r pl, check_ambiguities r pl <> OutOfFuel.
Proof. exact check_ambiguities_fuel. Qed.
Check C02_fuel_check_ambiguities : forall r pl, check_ambiguities r pl <> OutOfFuel.
Print Assumptions C02_fuel_check_ambiguities.

Theorem C02_fuel_subset :
  forall pick fuel submap r n,
    tables_bounded r (N.of_nat n) -> (pow2 (S n) < fuel)%nat ->
    dfa_from_regex pick fuel submap r <> OutOfFuel.
Proof. exact dfa_from_regex_fuel. Qed.
Check C02_fuel_subset :
  forall pick fuel submap r n,
    tables_bounded r (N.of_nat n) -> (pow2 (S n) < fuel)%nat ->
    dfa_from_regex pick fuel submap r <> OutOfFuel.
Print Assumptions C02_fuel_subset.

Theorem C02_check_ambiguities_result :
  forall e r pl, flat_subwords e = true -> from_expr e [] = Ok (r, pl) ->
    check_ambiguities r pl = Ok tt \/
    exists a b, check_ambiguities r pl = Err (UnboundedMatchable a b).
Proof. exact check_ambiguities_result. Qed.
Check C02_check_ambiguities_result :
  forall e r pl, flat_subwords e = true -> from_expr e [] = Ok (r, pl) ->
    check_ambiguities r pl = Ok tt \/
    exists a b, check_ambiguities r pl = Err (UnboundedMatchable a b).
Print Assumptions C02_check_ambiguities_result.

(** Totality, from the checker's output: the regex is built (no panic), the ambiguity check
    returns [Ok] or the [UnboundedMatchable] diagnostic (no panic, no fuel exhaustion), and for
    every pop order, every oracle defined on the within-word regexes that occur and every fuel
    above [2^(positions+1)] the raw automaton exists, satisfies C03's
    hypotheses, its minimisation exists and is the trim minimal automaton of the same language,
    and with minimised within-word automata it accepts exactly what the tree denotes. *)
Theorem C02_total :
  forall builtins g sh v,
    from_grammar builtins g sh = Ok v -> grammar_alts_nonempty g = true ->
    exists r pl,
      from_expr (v_expr v) [] = Ok (r, pl) /\
      (check_ambiguities r pl = Ok tt \/
       exists a b, check_ambiguities r pl = Err (UnboundedMatchable a b)) /\
      forall pick fuel submap,
        (forall rid l sp, In (RSub rid l sp) (r_inputs r) -> assocN rid submap <> None) ->
        (pow2 (S (List.length (r_inputs r))) < fuel)%nat ->
        exists d states m,
          dfa_from_regex pick fuel submap r = Ok (d, states) /\
          wf d /\ trim d /\
          minimize d = Ok m /\
          (forall ids, accepts m ids = accepts d ids) /\
          trim m /\ pairwise_distinguishable m /\ minimal_size m /\
          forall subs, subs_minimised submap pl subs ->
            forall w, accepts_items (mkcdfa m subs) w <-> denotes (v_expr v) w.
Proof. exact C02_total_full. Qed.
Check C02_total :
  forall builtins g sh v,
    from_grammar builtins g sh = Ok v -> grammar_alts_nonempty g = true ->
    exists r pl,
      from_expr (v_expr v) [] = Ok (r, pl) /\
      (check_ambiguities r pl = Ok tt \/
       exists a b, check_ambiguities r pl = Err (UnboundedMatchable a b)) /\
      forall pick fuel submap,
        (forall rid l sp, In (RSub rid l sp) (r_inputs r) -> assocN rid submap <> None) ->
        (pow2 (S (List.length (r_inputs r))) < fuel)%nat ->
        exists d states m,
          dfa_from_regex pick fuel submap r = Ok (d, states) /\
          wf d /\ trim d /\
          minimize d = Ok m /\
          (forall ids, accepts m ids = accepts d ids) /\
          trim m /\ pairwise_distinguishable m /\ minimal_size m /\
          forall subs, subs_minimised submap pl subs ->
            forall w, accepts_items (mkcdfa m subs) w <-> denotes (v_expr v) w.
Print Assumptions C02_total.

(** The ambiguity walk of the model is total on automata whose transitions only use input ids of
    the pool: on [wf] automata ([wf_inputs_in_range], Proofs/AmbTotal.v) and on what [minimize]
    returns for a [wf] trim automaton (next theorem). *)
Theorem C02_ambiguity_total :
  forall d, inputs_in_range d ->
    check_ambiguity_best_effort d = Ok tt \/ exists e, check_ambiguity_best_effort d = Err e.
Proof. exact check_ambiguity_total. Qed.
Check C02_ambiguity_total :
  forall d, inputs_in_range d ->
    check_ambiguity_best_effort d = Ok tt \/ exists e, check_ambiguity_best_effort d = Err e.
Print Assumptions C02_ambiguity_total.

Theorem C02_minimised_inputs_in_range :
  forall d m, wf d -> trim d -> minimize d = Ok m -> inputs_in_range m.
Proof. exact minimize_inputs_in_range. Qed.
Check C02_minimised_inputs_in_range :
  forall d m, wf d -> trim d -> minimize d = Ok m -> inputs_in_range m.
Print Assumptions C02_minimised_inputs_in_range.

(** The oracle the driver computes for itself is the one the C02 theorems need: every cached id
    names the minimised raw automaton of its within-word regex, and every within-word regex that
    occurs is cached. *)
Theorem C02_driver_oracle :
  forall pick fuel pl inputs cache subs cache' subs',
    cache_ok pick fuel pl cache subs ->
    compile_subs pick fuel inputs pl cache subs = Ok (cache', subs') ->
    cache_ok pick fuel pl cache' subs' /\
    (forall rid, assocN rid cache <> None -> assocN rid cache' <> None) /\
    (forall rid l sp, In (RSub rid l sp) inputs -> assocN rid cache' <> None).
Proof. intros pick fuel pl. exact (compile_subs_ok pick fuel pl). Qed.
Check C02_driver_oracle :
  forall pick fuel pl inputs cache subs cache' subs',
    cache_ok pick fuel pl cache subs ->
    compile_subs pick fuel inputs pl cache subs = Ok (cache', subs') ->
    cache_ok pick fuel pl cache' subs' /\
    (forall rid, assocN rid cache <> None -> assocN rid cache' <> None) /\
    (forall rid l sp, In (RSub rid l sp) inputs -> assocN rid cache' <> None).
Print Assumptions C02_driver_oracle.

(** C02 for the whole model pipeline, no oracle hypothesis: whatever [compile_valid] returns
    accepts exactly the item words the validated tree denotes (main automaton minimised,
    within-word automata compiled, minimised and interned by the driver itself). *)
Theorem C02_driver :
  forall builtins g sh v pick fuel c,
    from_grammar builtins g sh = Ok v -> grammar_alts_nonempty g = true ->
    compile_valid pick fuel v = Ok c ->
    forall w, accepts_items c w <-> denotes (v_expr v) w.
Proof. exact driver_correct_from_grammar. Qed.
Check C02_driver :
  forall builtins g sh v pick fuel c,
    from_grammar builtins g sh = Ok v -> grammar_alts_nonempty g = true ->
    compile_valid pick fuel v = Ok c ->
    forall w, accepts_items c w <-> denotes (v_expr v) w.
Print Assumptions C02_driver.

(** The same with the side condition on the tree itself ([check_tree] derives it from the one
    on the grammar). *)
Theorem C02_driver_tree :
  forall pick fuel v c,
    alts_nonempty (v_expr v) = true ->
    compile_valid pick fuel v = Ok c ->
    forall w, accepts_items c w <-> denotes (v_expr v) w.
Proof. exact driver_correct. Qed.
Check C02_driver_tree :
  forall pick fuel v c,
    alts_nonempty (v_expr v) = true ->
    compile_valid pick fuel v = Ok c ->
    forall w, accepts_items c w <-> denotes (v_expr v) w.
Print Assumptions C02_driver_tree.

(** Totality: with fuel above [2^(positions+1)] for the main and every within-word regex,
    [compile_valid] returns an automaton, or the [UnboundedMatchable] diagnostic of the regex
    stage, or a diagnostic of the ambiguity check -- never a panic, never fuel exhaustion. *)
Theorem C02_compile_valid_total :
  forall builtins g sh v pick fuel,
    from_grammar builtins g sh = Ok v -> grammar_alts_nonempty g = true ->
    (forall r pl, from_expr (v_expr v) [] = Ok (r, pl) ->
       enough_fuel fuel r /\ Forall (enough_fuel fuel) pl) ->
    (exists c, compile_valid pick fuel v = Ok c) \/
    (exists a b, compile_valid pick fuel v = Err (DRegex (UnboundedMatchable a b))) \/
    (exists e, compile_valid pick fuel v = Err (DAmb e)).
Proof. exact driver_total. Qed.
Check C02_compile_valid_total :
  forall builtins g sh v pick fuel,
    from_grammar builtins g sh = Ok v -> grammar_alts_nonempty g = true ->
    (forall r pl, from_expr (v_expr v) [] = Ok (r, pl) ->
       enough_fuel fuel r /\ Forall (enough_fuel fuel) pl) ->
    (exists c, compile_valid pick fuel v = Ok c) \/
    (exists a b, compile_valid pick fuel v = Err (DRegex (UnboundedMatchable a b))) \/
    (exists e, compile_valid pick fuel v = Err (DAmb e)).
Print Assumptions C02_compile_valid_total.

(** Non-vacuity: [--o=(x|y) [b "d" || c]...] -- a composite word, a description, a || level, an
    option and a repetition.  The model compiles it (two pop orders), the within-word automaton
    the model builds satisfies [subs_ok], and the judge says [Equal] on the result. *)
Definition ex_sp := mkspan 1 1 2.
Definition ex_word : expr :=
  Sequence [Terminal "--o=" None 0 ex_sp;
            Alternative [Terminal "x" None 0 ex_sp; Terminal "y" None 0 ex_sp] ex_sp] ex_sp.
Definition ex_e : expr :=
  Sequence [Subword ex_word 0 ex_sp;
            Optional (Many1 (Fallback [Terminal "b" (Some "d") 0 ex_sp; Terminal "c" None 1 ex_sp] ex_sp)
                            ex_sp) ex_sp] ex_sp.

Example ex_C02_inhabited :
  exists r pl rr dsub sstates d states,
    from_expr ex_e [] = Ok (r, pl) /\
    nthN pl 0 = Some rr /\
    dfa_from_regex pick_last 50 [] rr = Ok (dsub, sstates) /\
    dfa_from_regex pick_first 50 [(0, 0)] r = Ok (d, states) /\
    List.length states = 2%nat /\ List.length sstates = 3%nat /\
    subs_ok [(0, 0)] pl (mkcdfa d [dsub]) /\
    equiv_dfa_expr (pow2 10) (mkcdfa d [dsub]) ex_e = Equal /\
    equiv_wdfa_expr (pow2 10) dsub ex_word = Equal.
Proof.
  do 7 eexists.
  split; [vm_compute; reflexivity|].
  split; [vm_compute; reflexivity|].
  split; [vm_compute; reflexivity|].
  split; [vm_compute; reflexivity|].
  split; [reflexivity|]. split; [reflexivity|].
  split.
  - intros rid k H v. simpl in H.
    destruct (N.eqb rid 0) eqn:E; [|discriminate]. inversion H; subst k.
    apply N.eqb_eq in E. subst rid.
    match goal with
    | |- waccepts ?d v <-> pool_wlang ?pl 0 v =>
        let rr := eval vm_compute in (nthN pl 0) in
        match rr with
        | Some ?x =>
            transitivity (regex_wlang x v);
            [ eapply (waccepts_regex_wlang pick_last 50%nat [] x d); vm_compute; reflexivity
            | unfold pool_wlang; split;
              [ intros Hx; eexists; split; [vm_compute; reflexivity|exact Hx]
              | intros [y [Hy Hx]]; vm_compute in Hy; inversion Hy; subst; exact Hx ] ]
        end
    end.
  - split; vm_compute; reflexivity.
Qed.
Print Assumptions ex_C02_inhabited.

(** Non-vacuity of the driver theorems: the model pipeline compiles the example tree end to end
    (one within-word automaton, compiled, minimised and interned by the driver itself). *)
Example ex_C02_driver_inhabited :
  alts_nonempty ex_e = true /\
  exists c, compile_valid pick_first 50 (mkvalid "cmd" ex_e [] [] []) = Ok c /\
            List.length (c_subs c) = 1%nat /\
            equiv_dfa_expr (pow2 10) c ex_e = Equal.
Proof.
  split; [reflexivity|]. eexists. split; [vm_compute; reflexivity|]. split; vm_compute; reflexivity.
Qed.
Print Assumptions ex_C02_driver_inhabited.
