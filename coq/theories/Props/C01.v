(** C01 -- bash completions produced by the emitted script equal the grammar's meaning.

    What is proved here concerns the specification [Spec.Meaning] (the executable reading of the
    property text that judges real bash in lib/vf/checks/c01.py) and does not depend on a model of
    the emitted script:
    - the one-item derivative the specification is built on is sound and complete for the
      inductive denotation of expressions ([C01_linear_form_correct]);
    - reading a word follows exactly the items the text prescribes: literal first, catch-all last
      ([C01_step_rule]); residuals are sound ([C01_residuals_sound]);
    - the shape of every answer ([C01_answer_shape]): status 1 iff the words cannot be matched;
      every required candidate extends the typed word and comes from the lowest level that has a
      candidate; required is included in allowed; the only extra allowed text is the typed word;
    - matching does not depend on || levels ([C01_matching_ignores_levels]);
    - word-break stripping ([C01_strip_*]);
    - the decided restriction of the quantifier has a declarative reading ([C01_domain_sound]:
      [C01_domain e = true -> in_domain e]) that holds at every point the specification visits
      along an unambiguous line ([C01_domain_along_runs]).

    The script that is modelled is the one of /repo after three repairs (1567cbe, df274e8, and
    a54562b: the within-word matcher tries the undefined nonterminal expected at a point before
    the literals), hence [run_from Repaired] throughout.  [Spec.KnownC01] describes the three
    repaired mechanisms; its predicates stay as classifiers (a repaired mechanism that comes back is
    a violation).  [ex_C01_greedy_shadow_witness] is the regression example of the third one,
    [KnownC01.greedy_shadow] (the repaired script answers [z]).

    [C01_bash_meaning_literal] and [C01_bash_meaning_toplevel] (below) prove the statement about the
    script itself -- [BashSem.run_from Repaired] on [Tables.all_tables Bash (Driver.compile_valid v)]
    against [Meaning.complete] -- for all trees without within-word expressions, and
    [C01_bash_meaning_subword] for trees whose leaves are literals and within-word expressions made
    of literals (the within-word functions of the script interpreted directly), under two side
    conditions on the compiled automaton that have decidable sufficient forms
    ([C01_subword_side_conditions]); [C01_bash_meaning_mixed] covers all of these together: trees
    whose leaves are literals, commands, undefined nonterminals and within-word expressions made of
    literals.  [C01_bash_meaning] proves the general statement [C01_bash_meaning_statement]:
    commands and undefined nonterminals inside words included, over the whole decided domain (which
    asks of them: one source per piece text, one level per command at a within-word point, nothing
    after a nonterminal inside a word), outside [ambiguous_run];
    [C01_bash_meaning_wordbreaks] is the corollary for COMP_WORDBREAKS default and empty.
    For grammars that went through the checker and the regex stage the tail-only conjunct of the
    domain is a consequence ([C01_tail_only_compiled]); [C01_bash_meaning_compiled] states the
    theorem over [C01_domain_core]. *)
From CG Require Import Model.Dfa Model.Tables Model.Glob Model.BashSem Model.Driver.
From CG Require Import Base.Prelude Model.Ast Model.Check Spec.Rx Spec.Meaning Spec.KnownC01 Spec.Domain
     Proofs.RxFacts Proofs.MeaningFacts Proofs.MeaningLevels Proofs.DomainFacts.
From CG Require Import Proofs.TreeFacts Proofs.GlobFacts Proofs.StripFacts Proofs.BashMeaningLit Proofs.LangBridge Proofs.C01Layers.
From CG Require Import Spec.Invocations.
From CG Require Spec.DomainCore Proofs.WordTail Proofs.PhSpec Proofs.PhTree Proofs.CheckTree.
From CG Require Import Proofs.SubTreeFacts Proofs.BashMeaningSub Proofs.SubChecks Proofs.BashMeaningMix Proofs.SubBridge.

(** The full statement: the interpreter of the script of /repo HEAD on the tables of the model
    pipeline against the specification, for every validated tree in the decided domain -- literals,
    commands, undefined nonterminals, within-word expressions over the same kinds of pieces --
    outside [ambiguous_run].  Hypotheses besides the decided domain:
    - [sub_tree]: the shape check.rs leaves behind for bash (no description nodes, no zsh-only
      compadd commands, no within-word expression inside a within-word expression);
    - the literal orders handed to the emitter are valid ([NoDup om], [valid_literal_order],
      [sub_orders_ok]) and the compiled automaton never offers two within-word automata with the
      same language as alternatives with different targets ([subs_deterministic]; both have
      decidable sufficient forms, [C01_subword_side_conditions]);
    - completion-ignore-case is off, both sides see the same COMP_WORDBREAKS, none of whose
      characters is one of \ ? * [ ([breaks_ok]; bash's default qualifies), the typed word is
      printable and free of glob characters, the two environments describe the same commands.
    It is proved: [C01_bash_meaning], below, after the layers and their examples. *)
Definition C01_bash_meaning_statement : Prop :=
  forall pick fuel v c om os nd a (benv : BashSem.env) (en : Meaning.env) ws p,
    Proofs.SubBridge.sub_tree (v_expr v) = true -> Proofs.TreeFacts.alts_nonempty (v_expr v) = true ->
    compile_valid pick fuel v = Ok c ->
    all_tables Bash c om os = Ok (nd, a) -> NoDup om -> valid_literal_order (c_main c) om = true ->
    sub_orders_ok c os -> subs_deterministic c ->
    C01_domain (v_expr v) = true -> C01_env_ok (v_expr v) en = true ->
    BashSem.e_ignore_case benv = false -> BashSem.e_wordbreaks benv = Meaning.e_wordbreaks en ->
    breaks_ok (BashSem.e_wordbreaks benv) = true -> plain p = true -> printable_str p = true ->
    (forall cm cid, Tables.index_of cm (a_commands a) = Some cid ->
                    Spec.Invocations.spec_candidates (cmd_output benv cid) = candidates en cm) ->
    ambiguous_run en (start (v_expr v)) ws = false ->
    match complete (v_expr v) en ws p with
    | None => exists log, run_from Repaired (d_start (c_main c)) a benv ws p = Ok (mkresult 1 [] log)
    | Some (req, al) =>
        exists reply log, run_from Repaired (d_start (c_main c)) a benv ws p = Ok (mkresult 0 reply log)
                          /\ incl req reply /\ incl reply al
    end.

Theorem C01_linear_form_correct :
  forall (r : rx leaf) a w, denotes r (a :: w) <-> exists k, In (a, k) (lf r) /\ denotes k w.
Proof. exact (@lf_correct leaf). Qed.
Check C01_linear_form_correct :
  forall (r : rx leaf) a w, denotes r (a :: w) <-> exists k, In (a, k) (lf r) /\ denotes k w.
Print Assumptions C01_linear_form_correct.

Theorem C01_step_rule :
  forall en s w k, In k (step en s w) <-> exists a, In (a, k) (moves s) /\ chosen en (moves s) w a.
Proof. exact step_spec. Qed.
Check C01_step_rule :
  forall en s w k, In k (step en s w) <-> exists a, In (a, k) (moves s) /\ chosen en (moves s) w a.
Print Assumptions C01_step_rule.

Theorem C01_residuals_sound :
  forall en e ws, matched en e ws = true ->
    exists items k, Forall2 (reads en) items ws
                    /\ forall rest, denotes k rest -> denotes (tr e) (items ++ rest).
Proof. exact matched_sound. Qed.
Check C01_residuals_sound :
  forall en e ws, matched en e ws = true ->
    exists items k, Forall2 (reads en) items ws
                    /\ forall rest, denotes k rest -> denotes (tr e) (items ++ rest).
Print Assumptions C01_residuals_sound.

Theorem C01_answer_shape :
  forall e en ws p,
  match complete e en ws p with
  | None => matched en e ws = false
  | Some (req, al) =>
      matched en e ws = true
      /\ (forall c, In c req <->
                    exists l c0, c = strip (e_wordbreaks en) p c0
                                 /\ In (l, c0) (state_cands en (run en (start e) ws) p)
                                 /\ String.prefix p c0 = true
                                 /\ forall l' c', In (l', c') (state_cands en (run en (start e) ws) p) -> l <= l')
      /\ (forall c, In c al -> In c req \/ c = strip (e_wordbreaks en) p p)
      /\ incl req al
  end.
Proof. exact complete_spec. Qed.
Check C01_answer_shape :
  forall e en ws p,
  match complete e en ws p with
  | None => matched en e ws = false
  | Some (req, al) =>
      matched en e ws = true
      /\ (forall c, In c req <->
                    exists l c0, c = strip (e_wordbreaks en) p c0
                                 /\ In (l, c0) (state_cands en (run en (start e) ws) p)
                                 /\ String.prefix p c0 = true
                                 /\ forall l' c', In (l', c') (state_cands en (run en (start e) ws) p) -> l <= l')
      /\ (forall c, In c al -> In c req \/ c = strip (e_wordbreaks en) p p)
      /\ incl req al
  end.
Print Assumptions C01_answer_shape.

Theorem C01_matching_ignores_levels :
  forall en e ws,
    matched en (propagate (bar_of_barbar e) 0) ws = matched en (propagate e 0) ws.
Proof. exact matched_bar_of_barbar. Qed.
Check C01_matching_ignores_levels :
  forall en e ws,
    matched en (propagate (bar_of_barbar e) 0) ws = matched en (propagate e 0) ws.
Print Assumptions C01_matching_ignores_levels.

Theorem C01_strip_extends :
  forall wb p x, strip wb p (append p x) = append (strip wb p p) x.
Proof. exact strip_extends. Qed.
Check C01_strip_extends : forall wb p x, strip wb p (append p x) = append (strip wb p p) x.
Print Assumptions C01_strip_extends.

Theorem C01_strip_no_break_left : forall wb p, has_break wb (strip wb p p) = false.
Proof. exact strip_no_break_left. Qed.
Check C01_strip_no_break_left : forall wb p, has_break wb (strip wb p p) = false.
Print Assumptions C01_strip_no_break_left.

Theorem C01_strip_without_breaks :
  forall wb p c, has_break wb p = false -> strip wb p c = c.
Proof. exact strip_id. Qed.
Check C01_strip_without_breaks : forall wb p c, has_break wb p = false -> strip wb p c = c.
Print Assumptions C01_strip_without_breaks.

Theorem C01_domain_sound : forall e, C01_domain e = true -> in_domain e.
Proof. exact DomainFacts.C01_domain_sound. Qed.
Check C01_domain_sound : forall e, C01_domain e = true -> in_domain e.
Print Assumptions C01_domain_sound.

Theorem C01_domain_along_runs :
  forall e en ws,
    C01_domain e = true -> ambiguous_run en (start e) ws = false -> matched en e ws = true ->
    point_decl (moves (run en (start e) ws)).
Proof. exact DomainFacts.C01_domain_along_runs. Qed.
Check C01_domain_along_runs :
  forall e en ws,
    C01_domain e = true -> ambiguous_run en (start e) ws = false -> matched en e ws = true ->
    point_decl (moves (run en (start e) ws)).
Print Assumptions C01_domain_along_runs.

(** Layer (a): grammars all of whose leaves are literals.
    The interpreter of the repaired script ([BashSem.run_from Repaired], tied to real bash by
    T2) run on the tables the model pipeline computes ([Tables.all_tables Bash] of
    [Driver.compile_valid v], for every literal order the emitter may choose) returns exactly what
    [Spec.Meaning.complete] prescribes for the validated tree: status 1 and nothing when the words
    cannot be matched, otherwise status 0 and the required candidates as a set (required = allowed:
    no within-word items).  There is no hypothesis about the automaton: C02 (language), C03 (trim)
    and C04 (tables) are composed inside the proof.
    Side conditions: the typed word is printable and free of glob characters; no COMP_WORDBREAKS
    character is one of \ ? * [ (true of bash's default). *)
Theorem C01_bash_meaning_literal :
  forall pick fuel v c om os nd a (benv : BashSem.env) (en : Meaning.env) ws p,
    lit_tree (v_expr v) = true -> alts_nonempty (v_expr v) = true ->
    compile_valid pick fuel v = Ok c ->
    all_tables Bash c om os = Ok (nd, a) -> NoDup om -> valid_literal_order (c_main c) om = true ->
    C01_domain (v_expr v) = true ->
    BashSem.e_ignore_case benv = false -> BashSem.e_wordbreaks benv = Meaning.e_wordbreaks en ->
    breaks_ok (BashSem.e_wordbreaks benv) = true -> plain p = true -> printable_str p = true ->
    match complete (v_expr v) en ws p with
    | None => run_from Repaired (d_start (c_main c)) a benv ws p = Ok (mkresult 1 [] [])
    | Some (req, al) =>
        exists reply, run_from Repaired (d_start (c_main c)) a benv ws p = Ok (mkresult 0 reply [])
                      /\ (forall x, In x reply <-> In x req) /\ (forall x, In x al <-> In x req)
    end.
Proof. exact bash_meaning_literal. Qed.
Check C01_bash_meaning_literal :
  forall pick fuel v c om os nd a (benv : BashSem.env) (en : Meaning.env) ws p,
    lit_tree (v_expr v) = true -> alts_nonempty (v_expr v) = true ->
    compile_valid pick fuel v = Ok c ->
    all_tables Bash c om os = Ok (nd, a) -> NoDup om -> valid_literal_order (c_main c) om = true ->
    C01_domain (v_expr v) = true ->
    BashSem.e_ignore_case benv = false -> BashSem.e_wordbreaks benv = Meaning.e_wordbreaks en ->
    breaks_ok (BashSem.e_wordbreaks benv) = true -> plain p = true -> printable_str p = true ->
    match complete (v_expr v) en ws p with
    | None => run_from Repaired (d_start (c_main c)) a benv ws p = Ok (mkresult 1 [] [])
    | Some (req, al) =>
        exists reply, run_from Repaired (d_start (c_main c)) a benv ws p = Ok (mkresult 0 reply [])
                      /\ (forall x, In x reply <-> In x req) /\ (forall x, In x al <-> In x req)
    end.
Print Assumptions C01_bash_meaning_literal.

(** Its hypotheses are inhabited: [cmd (add || rm "d") [x=y];] goes through the whole model
    pipeline, and both sides compute the same answers (default COMP_WORDBREAKS: "x=" is stripped). *)
Definition exl_sp := mkspan 1 1 2.
Definition exl_e : expr :=
  Sequence [Fallback [Terminal "add" None 0 exl_sp; Terminal "rm" (Some "d") 1 exl_sp] exl_sp;
            Optional (Terminal "x=y" None 0 exl_sp) exl_sp] exl_sp.
Definition exl_v := mkvalid "cmd" exl_e [] [] [].
Definition exl_om := [("x=y", ""); ("add", ""); ("rm", "d")]%string.
Definition exl_benv := BashSem.mkenv bash_default_wordbreaks [] false.
Definition exl_en := Meaning.mkenv bash_default_wordbreaks [].

Example ex_C01_literal_layer_inhabited :
  match compile_valid (fun _ _ => O) 100 exl_v with
  | Ok c =>
      match all_tables Bash c exl_om [] with
      | Ok (nd, a) =>
          lit_tree exl_e = true /\ alts_nonempty exl_e = true /\ valid_literal_order (c_main c) exl_om = true
          /\ C01_domain exl_e = true /\ breaks_ok (BashSem.e_wordbreaks exl_benv) = true
          /\ run_from Repaired (d_start (c_main c)) a exl_benv ["add"] "x=" = Ok (mkresult 0 ["y "] [])
          /\ complete exl_e exl_en ["add"] "x=" = Some (["y "], ["y "])
          /\ run_from Repaired (d_start (c_main c)) a exl_benv [] "" = Ok (mkresult 0 ["add "] [])
          /\ complete exl_e exl_en [] "" = Some (["add "], ["add "])
          /\ run_from Repaired (d_start (c_main c)) a exl_benv ["zz"] "" = Ok (mkresult 1 [] [])
          /\ complete exl_e exl_en ["zz"] "" = None
      | _ => False
      end
  | _ => False
  end.
Proof. vm_compute. repeat split; reflexivity. Qed.
Print Assumptions ex_C01_literal_layer_inhabited.

(** Layer (b): leaves = literals, external commands, undefined nonterminals (no within-word
    expressions).  Same statement as layer (a), for command lines on which no two different commands
    accept the same word ([ambiguous_run = false]); the hypothesis on [cmd_output] says that the
    two environments describe the same commands (command number [cid] of the script prints the
    candidates the specification attributes to that command text).  The invocation log is left
    existential (it is C17's subject). *)
Theorem C01_bash_meaning_toplevel :
  forall pick fuel v c om os nd a (benv : BashSem.env) (en : Meaning.env) ws p,
    toplevel_tree (v_expr v) = true -> alts_nonempty (v_expr v) = true ->
    compile_valid pick fuel v = Ok c ->
    all_tables Bash c om os = Ok (nd, a) -> NoDup om -> valid_literal_order (c_main c) om = true ->
    C01_domain (v_expr v) = true ->
    BashSem.e_ignore_case benv = false -> BashSem.e_wordbreaks benv = Meaning.e_wordbreaks en ->
    breaks_ok (BashSem.e_wordbreaks benv) = true -> plain p = true -> printable_str p = true ->
    (forall cm cid, Tables.index_of cm (a_commands a) = Some cid ->
                    spec_candidates (cmd_output benv cid) = candidates en cm) ->
    ambiguous_run en (start (v_expr v)) ws = false ->
    match complete (v_expr v) en ws p with
    | None => exists log, run_from Repaired (d_start (c_main c)) a benv ws p = Ok (mkresult 1 [] log)
    | Some (req, al) =>
        exists reply log, run_from Repaired (d_start (c_main c)) a benv ws p = Ok (mkresult 0 reply log)
                          /\ (forall x, In x reply <-> In x req) /\ (forall x, In x al <-> In x req)
    end.
Proof. exact bash_meaning_toplevel. Qed.
Check C01_bash_meaning_toplevel :
  forall pick fuel v c om os nd a (benv : BashSem.env) (en : Meaning.env) ws p,
    toplevel_tree (v_expr v) = true -> alts_nonempty (v_expr v) = true ->
    compile_valid pick fuel v = Ok c ->
    all_tables Bash c om os = Ok (nd, a) -> NoDup om -> valid_literal_order (c_main c) om = true ->
    C01_domain (v_expr v) = true ->
    BashSem.e_ignore_case benv = false -> BashSem.e_wordbreaks benv = Meaning.e_wordbreaks en ->
    breaks_ok (BashSem.e_wordbreaks benv) = true -> plain p = true -> printable_str p = true ->
    (forall cm cid, Tables.index_of cm (a_commands a) = Some cid ->
                    spec_candidates (cmd_output benv cid) = candidates en cm) ->
    ambiguous_run en (start (v_expr v)) ws = false ->
    match complete (v_expr v) en ws p with
    | None => exists log, run_from Repaired (d_start (c_main c)) a benv ws p = Ok (mkresult 1 [] log)
    | Some (req, al) =>
        exists reply log, run_from Repaired (d_start (c_main c)) a benv ws p = Ok (mkresult 0 reply log)
                          /\ (forall x, In x reply <-> In x req) /\ (forall x, In x al <-> In x req)
    end.
Print Assumptions C01_bash_meaning_toplevel.

(** Inhabited: [cmd (add || {{{probe}}}) <U> end;] through the whole model pipeline; the probe prints
    "P1" and "aQ<TAB>descr". *)
Definition ext_e : expr :=
  Sequence [Fallback [Terminal "add" None 0 exl_sp; Command "probe" false 1 exl_sp] exl_sp;
            NontermRef "U" 0 exl_sp; Terminal "end" None 0 exl_sp] exl_sp.
Definition ext_v := mkvalid "cmd" ext_e [] [] [].
Definition ext_om := [("end", ""); ("add", "")]%string.
Definition ext_nl := String (ch 10) EmptyString.
Definition ext_out := ("P1" ++ ext_nl ++ "aQ" ++ String (ch 9) "descr" ++ ext_nl)%string.
Definition ext_benv := BashSem.mkenv bash_default_wordbreaks [(0, ext_out)] false.
Definition ext_en := Meaning.mkenv bash_default_wordbreaks [("probe", ["P1"; ("aQ" ++ String (ch 9) "descr")%string])]%string.

Example ex_C01_toplevel_layer_inhabited :
  match compile_valid (fun _ _ => O) 100 ext_v with
  | Ok c =>
      match all_tables Bash c ext_om [] with
      | Ok (nd, a) =>
          toplevel_tree ext_e = true /\ alts_nonempty ext_e = true /\ valid_literal_order (c_main c) ext_om = true
          /\ C01_domain ext_e = true /\ a_commands a = ["probe"]%string
          /\ spec_candidates (cmd_output ext_benv 0) = candidates ext_en "probe"
          /\ ambiguous_run ext_en (start ext_e) ["P1"; "x"]%string = false
          /\ run_from Repaired (d_start (c_main c)) a ext_benv [] "P" = Ok (mkresult 0 ["P1"] [(0, "P", "")])
          /\ complete ext_e ext_en [] "P" = Some (["P1"], ["P1"])
          /\ run_from Repaired (d_start (c_main c)) a ext_benv ["P1"; "x"] "" = Ok (mkresult 0 ["end "] [(0, "", "")])
          /\ complete ext_e ext_en ["P1"; "x"] "" = Some (["end "], ["end "])
          /\ run_from Repaired (d_start (c_main c)) a ext_benv ["zz"] "" = Ok (mkresult 1 [] [(0, "", "")])
          /\ complete ext_e ext_en ["zz"] "" = None
      | _ => False
      end
  | _ => False
  end.
Proof. vm_compute. repeat split; reflexivity. Qed.
Print Assumptions ex_C01_toplevel_layer_inhabited.

(** Layer (c): literals and within-word expressions made of literals. *)
Theorem C01_bash_meaning_subword :
  forall pick fuel v c om os nd a (benv : BashSem.env) (en : Meaning.env) ws p,
    subw_tree (v_expr v) = true -> alts_nonempty (v_expr v) = true ->
    compile_valid pick fuel v = Ok c ->
    all_tables Bash c om os = Ok (nd, a) -> NoDup om -> valid_literal_order (c_main c) om = true ->
    sub_orders_ok c os -> subs_deterministic c ->
    C01_domain (v_expr v) = true ->
    BashSem.e_ignore_case benv = false -> BashSem.e_wordbreaks benv = Meaning.e_wordbreaks en ->
    breaks_ok (BashSem.e_wordbreaks benv) = true -> plain p = true -> printable_str p = true ->
    ambiguous_run en (start (v_expr v)) ws = false ->
    match complete (v_expr v) en ws p with
    | None => run_from Repaired (d_start (c_main c)) a benv ws p = Ok (mkresult 1 [] [])
    | Some (req, al) =>
        exists reply, run_from Repaired (d_start (c_main c)) a benv ws p = Ok (mkresult 0 reply [])
                      /\ (forall x, In x reply <-> In x req) /\ incl req al
    end.
Proof. exact bash_meaning_subword. Qed.
Check C01_bash_meaning_subword :
  forall pick fuel v c om os nd a (benv : BashSem.env) (en : Meaning.env) ws p,
    subw_tree (v_expr v) = true -> alts_nonempty (v_expr v) = true ->
    compile_valid pick fuel v = Ok c ->
    all_tables Bash c om os = Ok (nd, a) -> NoDup om -> valid_literal_order (c_main c) om = true ->
    sub_orders_ok c os -> subs_deterministic c ->
    C01_domain (v_expr v) = true ->
    BashSem.e_ignore_case benv = false -> BashSem.e_wordbreaks benv = Meaning.e_wordbreaks en ->
    breaks_ok (BashSem.e_wordbreaks benv) = true -> plain p = true -> printable_str p = true ->
    ambiguous_run en (start (v_expr v)) ws = false ->
    match complete (v_expr v) en ws p with
    | None => run_from Repaired (d_start (c_main c)) a benv ws p = Ok (mkresult 1 [] [])
    | Some (req, al) =>
        exists reply, run_from Repaired (d_start (c_main c)) a benv ws p = Ok (mkresult 0 reply [])
                      /\ (forall x, In x reply <-> In x req) /\ incl req al
    end.
Print Assumptions C01_bash_meaning_subword.

(** The two side conditions have decidable sufficient forms: the orders are checked one by one; an
    input pool that names at most one within-word automaton per level is deterministic, and so is
    an automaton in which the within-word transitions that leave one state under one level name one
    within-word automaton. *)
Theorem C01_subword_side_conditions :
  forall c os,
    (sub_orders_okb c os = true -> sub_orders_ok c os)
    /\ (NoDup (d_inputs (c_main c)) -> subs_single c = true -> subs_deterministic c)
    /\ (NoDup (d_inputs (c_main c)) -> subs_local c = true -> subs_deterministic c).
Proof. intros c os. split; [apply sub_orders_okb_sound | split; [apply subs_single_sound | apply subs_local_sound]]. Qed.
Check C01_subword_side_conditions :
  forall c os,
    (sub_orders_okb c os = true -> sub_orders_ok c os)
    /\ (NoDup (d_inputs (c_main c)) -> subs_single c = true -> subs_deterministic c)
    /\ (NoDup (d_inputs (c_main c)) -> subs_local c = true -> subs_deterministic c).
Print Assumptions C01_subword_side_conditions.

(** Inhabited: [cmd (add || --k=(x|yz)) end;] through the whole model pipeline. *)
Definition exs_e : expr :=
  Sequence [Fallback [Terminal "add" None 0 exl_sp;
                      Subword (Sequence [Terminal "--k=" None 1 exl_sp;
                                         Alternative [Terminal "x" None 1 exl_sp; Terminal "yz" None 1 exl_sp] exl_sp] exl_sp)
                              1 exl_sp] exl_sp;
            Terminal "end" None 0 exl_sp] exl_sp.
Definition exs_v := mkvalid "cmd" exs_e [] [] [].
Definition exs_om := [("end", ""); ("add", "")]%string.
Definition exs_os := [(0, [("--k=", ""); ("yz", ""); ("x", "")])]%string.
Definition exs_benv := BashSem.mkenv bash_default_wordbreaks [] false.
Definition exs_en := Meaning.mkenv bash_default_wordbreaks [].

Example ex_C01_subword_layer_inhabited :
  match compile_valid (fun _ _ => O) 100 exs_v with
  | Ok c =>
      match all_tables Bash c exs_om exs_os with
      | Ok (nd, a) =>
          subw_tree exs_e = true /\ alts_nonempty exs_e = true /\ valid_literal_order (c_main c) exs_om = true
          /\ nodup_pairs exs_om = true /\ sub_orders_okb c exs_os = true /\ subs_single c = true
          /\ C01_domain exs_e = true
          /\ ambiguous_run exs_en (start exs_e) ["--k=yz"; "end"]%string = false
          /\ run_from Repaired (d_start (c_main c)) a exs_benv [] "--" = Ok (mkresult 0 ["--k="] [])
          /\ complete exs_e exs_en [] "--" = Some (["--k="], ["--k="])
          /\ run_from Repaired (d_start (c_main c)) a exs_benv [] "--k=" = Ok (mkresult 0 ["yz"; "x"] [])
          /\ complete exs_e exs_en [] "--k=" = Some (["x"; "yz"], ["x"; "yz"; ""])
          /\ run_from Repaired (d_start (c_main c)) a exs_benv ["--k=yz"] "" = Ok (mkresult 0 ["end "] [])
          /\ complete exs_e exs_en ["--k=yz"] "" = Some (["end "], ["end "])
          /\ run_from Repaired (d_start (c_main c)) a exs_benv ["--k="] "" = Ok (mkresult 1 [] [])
          /\ complete exs_e exs_en ["--k="] "" = None
      | _ => False
      end
  | _ => False
  end.
Proof. vm_compute. repeat split; reflexivity. Qed.
Print Assumptions ex_C01_subword_layer_inhabited.

(** Layers (b) and (c) together: literals, commands, undefined nonterminals, within-word expressions
    made of literals -- everything but commands and undefined nonterminals inside words. *)
Theorem C01_bash_meaning_mixed :
  forall pick fuel v c om os nd a (benv : BashSem.env) (en : Meaning.env) ws p,
    mix_tree (v_expr v) = true -> alts_nonempty (v_expr v) = true ->
    compile_valid pick fuel v = Ok c ->
    all_tables Bash c om os = Ok (nd, a) -> NoDup om -> valid_literal_order (c_main c) om = true ->
    sub_orders_ok c os -> subs_deterministic c ->
    C01_domain (v_expr v) = true ->
    BashSem.e_ignore_case benv = false -> BashSem.e_wordbreaks benv = Meaning.e_wordbreaks en ->
    breaks_ok (BashSem.e_wordbreaks benv) = true -> plain p = true -> printable_str p = true ->
    (forall cm cid, Tables.index_of cm (a_commands a) = Some cid ->
                    spec_candidates (cmd_output benv cid) = candidates en cm) ->
    ambiguous_run en (start (v_expr v)) ws = false ->
    match complete (v_expr v) en ws p with
    | None => exists log, run_from Repaired (d_start (c_main c)) a benv ws p = Ok (mkresult 1 [] log)
    | Some (req, al) =>
        exists reply log, run_from Repaired (d_start (c_main c)) a benv ws p = Ok (mkresult 0 reply log)
                          /\ (forall x, In x reply <-> In x req) /\ incl req al
    end.
Proof. exact bash_meaning_mixed. Qed.
Check C01_bash_meaning_mixed :
  forall pick fuel v c om os nd a (benv : BashSem.env) (en : Meaning.env) ws p,
    mix_tree (v_expr v) = true -> alts_nonempty (v_expr v) = true ->
    compile_valid pick fuel v = Ok c ->
    all_tables Bash c om os = Ok (nd, a) -> NoDup om -> valid_literal_order (c_main c) om = true ->
    sub_orders_ok c os -> subs_deterministic c ->
    C01_domain (v_expr v) = true ->
    BashSem.e_ignore_case benv = false -> BashSem.e_wordbreaks benv = Meaning.e_wordbreaks en ->
    breaks_ok (BashSem.e_wordbreaks benv) = true -> plain p = true -> printable_str p = true ->
    (forall cm cid, Tables.index_of cm (a_commands a) = Some cid ->
                    spec_candidates (cmd_output benv cid) = candidates en cm) ->
    ambiguous_run en (start (v_expr v)) ws = false ->
    match complete (v_expr v) en ws p with
    | None => exists log, run_from Repaired (d_start (c_main c)) a benv ws p = Ok (mkresult 1 [] log)
    | Some (req, al) =>
        exists reply log, run_from Repaired (d_start (c_main c)) a benv ws p = Ok (mkresult 0 reply log)
                          /\ (forall x, In x reply <-> In x req) /\ incl req al
    end.
Print Assumptions C01_bash_meaning_mixed.

(** Inhabited: [cmd (add || --k=(x|yz) || {{{probe}}}) <U> end;] through the whole model pipeline. *)
Definition exm_e : expr :=
  Sequence [Fallback [Terminal "add" None 0 exl_sp;
                      Subword (Sequence [Terminal "--k=" None 1 exl_sp;
                                         Alternative [Terminal "x" None 1 exl_sp; Terminal "yz" None 1 exl_sp] exl_sp] exl_sp)
                              1 exl_sp;
                      Command "probe" false 2 exl_sp] exl_sp;
            NontermRef "U" 0 exl_sp;
            Terminal "end" None 0 exl_sp] exl_sp.
Definition exm_v := mkvalid "cmd" exm_e [] [] [].

Example ex_C01_mixed_layer_inhabited :
  match compile_valid (fun _ _ => O) 100 exm_v with
  | Ok c =>
      match all_tables Bash c ext_om exs_os with
      | Ok (nd, a) =>
          mix_tree exm_e = true /\ alts_nonempty exm_e = true /\ valid_literal_order (c_main c) ext_om = true
          /\ nodup_pairs ext_om = true /\ sub_orders_okb c exs_os = true /\ subs_single c = true
          /\ C01_domain exm_e = true /\ a_commands a = ["probe"]%string
          /\ spec_candidates (cmd_output ext_benv 0) = candidates ext_en "probe"
          /\ ambiguous_run ext_en (start exm_e) ["--k=yz"; "w"]%string = false
          /\ run_from Repaired (d_start (c_main c)) a ext_benv [] "--" = Ok (mkresult 0 ["--k="] [])
          /\ complete exm_e ext_en [] "--" = Some (["--k="], ["--k="])
          /\ run_from Repaired (d_start (c_main c)) a ext_benv [] "P" = Ok (mkresult 0 ["P1"] [(0, "P", "")])
          /\ complete exm_e ext_en [] "P" = Some (["P1"], ["P1"])
          /\ run_from Repaired (d_start (c_main c)) a ext_benv ["--k=yz"; "w"] "" = Ok (mkresult 0 ["end "] [])
          /\ complete exm_e ext_en ["--k=yz"; "w"] "" = Some (["end "], ["end "])
          /\ run_from Repaired (d_start (c_main c)) a ext_benv ["--k="] "" = Ok (mkresult 1 [] [(0, "", "")])
          /\ complete exm_e ext_en ["--k="] "" = None
      | _ => False
      end
  | _ => False
  end.
Proof. vm_compute. repeat split; reflexivity. Qed.
Print Assumptions ex_C01_mixed_layer_inhabited.

(** Regression example of the third mechanism (repaired): [cmd --x=(abc|<U>) z;] is in the decided
    domain, the line [--x=abcd] is not ambiguous, the specification expects [z] after it (the
    nonterminal matches any text).  A greedy within-word matcher consumes [abc], is stuck on [d]
    and returns status 1: that is the reading [KnownC01.greedy_shadow] describes, and it flags
    exactly that line.  The interpreter of the repaired script tries the nonterminal first and
    answers [z], as the specification does. *)
Definition exg_e : expr :=
  Sequence [Subword (Sequence [Terminal "--x=" None 0 exl_sp;
                               Alternative [Terminal "abc" None 0 exl_sp; NontermRef "U" 0 exl_sp] exl_sp] exl_sp) 0 exl_sp;
            Terminal "z" None 0 exl_sp] exl_sp.
Definition exg_v := mkvalid "cmd" exg_e [] [] [].
Definition exg_om := [("z", "")]%string.
Definition exg_os := [(0, [("--x=", ""); ("abc", "")])]%string.

Example ex_C01_greedy_shadow_witness :
  match compile_valid (fun _ _ => O) 100 exg_v with
  | Ok c =>
      match all_tables Bash c exg_om exg_os with
      | Ok (nd, a) =>
          valid_literal_order (c_main c) exg_om = true /\ sub_orders_okb c exg_os = true
          /\ C01_domain exg_e = true /\ C01_env_ok exg_e exs_en = true
          /\ ambiguous_run exs_en (start exg_e) ["--x=abcd"]%string = false
          /\ greedy_shadow exg_e exs_en ["--x=abcd"]%string = true
          /\ complete exg_e exs_en ["--x=abcd"] "" = Some (["z "], ["z "])
          /\ run_from Repaired (d_start (c_main c)) a exs_benv ["--x=abcd"] "" = Ok (mkresult 0 ["z "] [])
          /\ greedy_shadow exg_e exs_en ["--x=abc"]%string = false
          /\ run_from Repaired (d_start (c_main c)) a exs_benv ["--x=abc"] "" = Ok (mkresult 0 ["z "] [])
          /\ greedy_shadow exg_e exs_en ["--x=q"]%string = false
          /\ run_from Repaired (d_start (c_main c)) a exs_benv ["--x=q"] "" = Ok (mkresult 0 ["z "] [])
      | _ => False
      end
  | _ => False
  end.
Proof. vm_compute. repeat split; reflexivity. Qed.
Print Assumptions ex_C01_greedy_shadow_witness.

(** Non-vacuity: a grammar with two || levels, a within-word expression and a command is inside
    the domain, and the specification computes the answers one expects from the README. *)
Definition ex_sp := mkspan 1 1 2.
Definition ex_e : expr :=
  Sequence [ Fallback [ Alternative [ Terminal "add" None 0 ex_sp;
                                      Subword (Sequence [Terminal "--k=" None 0 ex_sp;
                                                         Alternative [Terminal "x" None 0 ex_sp;
                                                                      Terminal "y" None 0 ex_sp] ex_sp] ex_sp)
                                              0 ex_sp ] ex_sp;
                        Command "probe" false 1 ex_sp ] ex_sp;
             NontermRef "U" 0 ex_sp;
             Terminal "end" None 0 ex_sp ] ex_sp.
Definition ex_en : env := mkenv " =:" [("probe", ["P1"; "aQ" ++ String tab "descr"])]%string.

Example ex_C01_inhabited :
  C01_domain ex_e = true /\ C01_env_ok ex_e ex_en = true
  /\ complete ex_e ex_en [] "" = Some (["add "; "--k="], ["add "; "--k="])
  /\ complete ex_e ex_en [] "a" = Some (["add "], ["add "])
  /\ complete ex_e ex_en [] "P" = Some (["P1"], ["P1"])
  /\ complete ex_e ex_en [] "--k=" = Some (["x"; "y"], ["x"; "y"; ""])
  /\ complete ex_e ex_en ["--k=y"; "whatever"] "" = Some (["end "], ["end "])
  /\ complete ex_e ex_en ["--k="] "" = None
  /\ complete ex_e ex_en ["aQ"; "w"; "end"; "more"] "" = None
  /\ ambiguous_run ex_en (start ex_e) ["--k=y"; "whatever"] = false
  /\ piece_boundary ex_e ex_en ["--k="] = true.
Proof. vm_compute. repeat split; reflexivity. Qed.
Print Assumptions ex_C01_inhabited.

(** [bash_meaning_all] gives [reply] = [req] as sets and [incl req al]; the statement keeps the two
    inclusions. *)
Theorem C01_bash_meaning : C01_bash_meaning_statement.
Proof.
  intros pick fuel v c om os nd a benv en ws p Htree Hne Hc Hall Hord Hvalid Hsords Hdet Hdom Henvok Hic Hwb Hbok Hplain Hprint Henv Hamb.
  pose proof (bash_meaning_all pick fuel v c om os nd a benv en ws p Htree Hne Hc Hall Hord Hvalid Hsords Hdet Hdom Henvok Hic Hwb Hbok
                Hplain Hprint Henv Hamb) as H.
  destruct (complete (v_expr v) en ws p) as [[req al] |]; [| exact H].
  destruct H as [reply [log [Hr [Hiff Hincl]]]]. exists reply, log. split; [exact Hr | split].
  - intros x Hx. apply Hiff. exact Hx.
  - intros x Hx. apply Hincl. apply Hiff. exact Hx.
Qed.
Check C01_bash_meaning : C01_bash_meaning_statement.
Print Assumptions C01_bash_meaning.

(** The two configurations of the quantifier: COMP_WORDBREAKS as bash sets it, and empty. *)
Theorem C01_bash_meaning_wordbreaks :
  forall wb, wb = bash_default_wordbreaks \/ wb = EmptyString ->
  forall pick fuel v c om os nd a outs ens ws p,
    let benv := BashSem.mkenv wb outs false in
    let en := Meaning.mkenv wb ens in
    sub_tree (v_expr v) = true -> alts_nonempty (v_expr v) = true ->
    compile_valid pick fuel v = Ok c ->
    all_tables Bash c om os = Ok (nd, a) -> NoDup om -> valid_literal_order (c_main c) om = true ->
    sub_orders_ok c os -> subs_deterministic c ->
    C01_domain (v_expr v) = true -> C01_env_ok (v_expr v) en = true ->
    plain p = true -> printable_str p = true ->
    (forall cm cid, Tables.index_of cm (a_commands a) = Some cid ->
                    Spec.Invocations.spec_candidates (cmd_output benv cid) = candidates en cm) ->
    ambiguous_run en (start (v_expr v)) ws = false ->
    match complete (v_expr v) en ws p with
    | None => exists log, run_from Repaired (d_start (c_main c)) a benv ws p = Ok (mkresult 1 [] log)
    | Some (req, al) =>
        exists reply log, run_from Repaired (d_start (c_main c)) a benv ws p = Ok (mkresult 0 reply log)
                          /\ incl req reply /\ incl reply al
    end.
Proof.
  intros wb Hwb pick fuel v c om os nd a outs ens ws p benv en Htree Hne Hc Hall Hord Hvalid Hsords Hdet Hdom Henvok Hplain Hprint Henv Hamb.
  apply (C01_bash_meaning pick fuel v c om os nd a benv en ws p); try assumption; try reflexivity.
  unfold benv. cbn [BashSem.e_wordbreaks]. destruct Hwb as [-> | ->]; reflexivity.
Qed.
Check C01_bash_meaning_wordbreaks :
  forall wb, wb = bash_default_wordbreaks \/ wb = EmptyString ->
  forall pick fuel v c om os nd a outs ens ws p,
    let benv := BashSem.mkenv wb outs false in
    let en := Meaning.mkenv wb ens in
    sub_tree (v_expr v) = true -> alts_nonempty (v_expr v) = true ->
    compile_valid pick fuel v = Ok c ->
    all_tables Bash c om os = Ok (nd, a) -> NoDup om -> valid_literal_order (c_main c) om = true ->
    sub_orders_ok c os -> subs_deterministic c ->
    C01_domain (v_expr v) = true -> C01_env_ok (v_expr v) en = true ->
    plain p = true -> printable_str p = true ->
    (forall cm cid, Tables.index_of cm (a_commands a) = Some cid ->
                    Spec.Invocations.spec_candidates (cmd_output benv cid) = candidates en cm) ->
    ambiguous_run en (start (v_expr v)) ws = false ->
    match complete (v_expr v) en ws p with
    | None => exists log, run_from Repaired (d_start (c_main c)) a benv ws p = Ok (mkresult 1 [] log)
    | Some (req, al) =>
        exists reply log, run_from Repaired (d_start (c_main c)) a benv ws p = Ok (mkresult 0 reply log)
                          /\ incl req reply /\ incl reply al
    end.
Print Assumptions C01_bash_meaning_wordbreaks.

(** "Nothing follows an undefined nonterminal inside a word" need not be asked of a compiled grammar:
    [Regex.from_valid_expr] (the first stage of [compile_valid]) accepts a validated tree only if
    every placeholder of every word is last ([C08_placeholder] /
    [PhPool.from_valid_expr_placeholder], an equivalence), which makes
    the residual after [WAny] the empty sentence at every point [Domain.explore] visits
    (Proofs/WordTail.v).  For such grammars the decided domain is [C01_domain_core]: [C01_domain]
    without that conjunct; the diagnostic [C01_tail_only] holds as well.  ([grammar_ops_nonempty]:
    no operator without operands, true of everything the parser returns.) *)
Theorem C01_tail_only_compiled :
  forall builtins g sh v pick fuel c,
    from_grammar builtins g sh = Ok v -> Proofs.PhSpec.grammar_ops_nonempty g = true ->
    compile_valid pick fuel v = Ok c ->
    (Spec.DomainCore.C01_domain_core (v_expr v) = true <-> C01_domain (v_expr v) = true) /\
    (Spec.DomainCore.C01_domain_core (v_expr v) = true -> C01_tail_only (v_expr v) = true).
Proof. exact Proofs.WordTail.compiled_domain. Qed.
Check C01_tail_only_compiled :
  forall builtins g sh v pick fuel c,
    from_grammar builtins g sh = Ok v -> Proofs.PhSpec.grammar_ops_nonempty g = true ->
    compile_valid pick fuel v = Ok c ->
    (Spec.DomainCore.C01_domain_core (v_expr v) = true <-> C01_domain (v_expr v) = true) /\
    (Spec.DomainCore.C01_domain_core (v_expr v) = true -> C01_tail_only (v_expr v) = true).
Print Assumptions C01_tail_only_compiled.

(** [C01_bash_meaning] for grammars that went through the checker: the domain without the tail-only
    conjunct, [alts_nonempty] discharged from the checker's output. *)
Theorem C01_bash_meaning_compiled :
  forall builtins g sh pick fuel v c om os nd a (benv : BashSem.env) (en : Meaning.env) ws p,
    from_grammar builtins g sh = Ok v -> Proofs.PhSpec.grammar_ops_nonempty g = true ->
    sub_tree (v_expr v) = true ->
    compile_valid pick fuel v = Ok c ->
    all_tables Bash c om os = Ok (nd, a) -> NoDup om -> valid_literal_order (c_main c) om = true ->
    sub_orders_ok c os -> subs_deterministic c ->
    Spec.DomainCore.C01_domain_core (v_expr v) = true -> C01_env_ok (v_expr v) en = true ->
    BashSem.e_ignore_case benv = false -> BashSem.e_wordbreaks benv = Meaning.e_wordbreaks en ->
    breaks_ok (BashSem.e_wordbreaks benv) = true -> plain p = true -> printable_str p = true ->
    (forall cm cid, Tables.index_of cm (a_commands a) = Some cid ->
                    Spec.Invocations.spec_candidates (cmd_output benv cid) = candidates en cm) ->
    ambiguous_run en (start (v_expr v)) ws = false ->
    match complete (v_expr v) en ws p with
    | None => exists log, run_from Repaired (d_start (c_main c)) a benv ws p = Ok (mkresult 1 [] log)
    | Some (req, al) =>
        exists reply log, run_from Repaired (d_start (c_main c)) a benv ws p = Ok (mkresult 0 reply log)
                          /\ incl req reply /\ incl reply al
    end.
Proof.
  intros builtins g sh pick fuel v c om os nd a benv en ws p Hv Hg Htree Hc Hall Hord Hvalid Hsords Hdet Hdom.
  destruct (Proofs.CheckTree.check_tree builtins g sh v Hv) as (_ & _ & _ & Halts).
  specialize (Halts (Proofs.PhTree.grammar_ops_alts g Hg)).
  apply (C01_bash_meaning pick fuel v c om os nd a benv en ws p Htree Halts Hc Hall Hord Hvalid Hsords Hdet).
  exact (proj1 (proj1 (Proofs.WordTail.compiled_domain builtins g sh v pick fuel c Hv Hg Hc)) Hdom).
Qed.
Check C01_bash_meaning_compiled :
  forall builtins g sh pick fuel v c om os nd a (benv : BashSem.env) (en : Meaning.env) ws p,
    from_grammar builtins g sh = Ok v -> Proofs.PhSpec.grammar_ops_nonempty g = true ->
    sub_tree (v_expr v) = true ->
    compile_valid pick fuel v = Ok c ->
    all_tables Bash c om os = Ok (nd, a) -> NoDup om -> valid_literal_order (c_main c) om = true ->
    sub_orders_ok c os -> subs_deterministic c ->
    Spec.DomainCore.C01_domain_core (v_expr v) = true -> C01_env_ok (v_expr v) en = true ->
    BashSem.e_ignore_case benv = false -> BashSem.e_wordbreaks benv = Meaning.e_wordbreaks en ->
    breaks_ok (BashSem.e_wordbreaks benv) = true -> plain p = true -> printable_str p = true ->
    (forall cm cid, Tables.index_of cm (a_commands a) = Some cid ->
                    Spec.Invocations.spec_candidates (cmd_output benv cid) = candidates en cm) ->
    ambiguous_run en (start (v_expr v)) ws = false ->
    match complete (v_expr v) en ws p with
    | None => exists log, run_from Repaired (d_start (c_main c)) a benv ws p = Ok (mkresult 1 [] log)
    | Some (req, al) =>
        exists reply log, run_from Repaired (d_start (c_main c)) a benv ws p = Ok (mkresult 0 reply log)
                          /\ incl req reply /\ incl reply al
    end.
Print Assumptions C01_bash_meaning_compiled.

(** Inhabited: [cmd --x=<U> {{{probe}}}=(v|w) end;] -- an undefined nonterminal and a command inside
    words -- through the whole model pipeline. *)
Definition exa_e : expr :=
  Sequence [Subword (Sequence [Terminal "--x=" None 0 exl_sp; NontermRef "U" 0 exl_sp] exl_sp) 0 exl_sp;
            Subword (Sequence [Command "probe" false 0 exl_sp; Terminal "=" None 0 exl_sp;
                               Alternative [Terminal "v" None 0 exl_sp; Terminal "w" None 0 exl_sp] exl_sp] exl_sp) 0 exl_sp;
            Terminal "end" None 0 exl_sp] exl_sp.
Definition exa_v := mkvalid "cmd" exa_e [] [] [].
Definition exa_om := [("end", "")]%string.
Definition exa_os := [(0, [("--x=", "")]); (1, [("w", ""); ("v", ""); ("=", "")])]%string.

Example ex_C01_bash_meaning_inhabited :
  match compile_valid (fun _ _ => O) 100 exa_v with
  | Ok c =>
      match all_tables Bash c exa_om exa_os with
      | Ok (nd, a) =>
          sub_tree exa_e = true /\ alts_nonempty exa_e = true /\ valid_literal_order (c_main c) exa_om = true
          /\ nodup_pairs exa_om = true /\ sub_orders_okb c exa_os = true /\ subs_local c = true
          /\ C01_domain exa_e = true /\ C01_env_ok exa_e ext_en = true /\ a_commands a = ["probe"]%string
          /\ ambiguous_run ext_en (start exa_e) ["--x=abc"; "P1=w"]%string = false
          /\ greedy_shadow exa_e ext_en ["--x=abc"; "P1=w"]%string = false
          /\ complete exa_e ext_en ["--x=abc"] "P" = Some (["P1"], ["P1"])
          /\ (exists log, run_from Repaired (d_start (c_main c)) a ext_benv ["--x=abc"] "P" = Ok (mkresult 0 ["P1"] log))
          /\ complete exa_e ext_en ["--x=abc"; "P1=w"] "e" = Some (["end "], ["end "])
          /\ (exists log, run_from Repaired (d_start (c_main c)) a ext_benv ["--x=abc"; "P1=w"] "e" = Ok (mkresult 0 ["end "] log))
          /\ complete exa_e ext_en ["--x=q"] "aQ=" = Some (["v"; "w"], ["v"; "w"; ""])
          /\ (exists log, run_from Repaired (d_start (c_main c)) a ext_benv ["--x=q"] "aQ=" = Ok (mkresult 0 ["w"; "v"] log))
          /\ complete exa_e ext_en ["--x=q"; "P1="] "" = None
          /\ (exists log, run_from Repaired (d_start (c_main c)) a ext_benv ["--x=q"; "P1="] "" = Ok (mkresult 1 [] log))
      | _ => False
      end
  | _ => False
  end.
Proof. vm_compute. repeat split; try reflexivity; eexists; reflexivity. Qed.
Print Assumptions ex_C01_bash_meaning_inhabited.
