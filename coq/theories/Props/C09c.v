(** C09, second half -- "every candidate the [|] grammar offers is also offered by the [||] grammar whenever no
    candidate of an earlier branch extends the typed prefix" -- as theorems at both levels.
    Proofs: Proofs/C09Mono.v (specification level); the script-level theorem is derived here from
    [complete_bar_monotone] by transfer through C01 ([bash_meaning_mixed] of Proofs/C01Layers.v, about the
    interpreter [BashSem.run_from Repaired] of the script of /repo HEAD, tied to real bash by T2).

    [e] is a validated tree before level assignment, [propagate e 0] the [||] grammar, [propagate (bar_of_barbar e) 0]
    its [|] variant.  [undercut g en ws p] (Spec/Undercut.v, executable, extracted for lib/vf/checks/c09.py) lists
    the candidates of [g] at the cursor that are withheld because a strictly earlier level has a candidate extending
    the typed word [p] -- on the two tiers of Spec/Meaning.v: among the items expected as whole words (levels of the
    [||] branches, [state_cands]) and among the continuations of one within-word expression (levels of its pieces,
    [wcands]); [C09_undercut_meaning] spells that out. *)
From CG Require Import Model.Dfa Model.Tables Model.Glob Model.BashSem Model.Driver.
From CG Require Import Base.Prelude Model.Ast Model.Check Spec.Rx Spec.Meaning Spec.Undercut Spec.KnownC01 Spec.Domain.
From CG Require Import Proofs.MeaningFacts Proofs.MeaningLevels Proofs.C09Mono.
From CG Require Import Proofs.TreeFacts Proofs.GlobFacts Proofs.StripFacts Proofs.LangBridge Proofs.SubTreeFacts Proofs.BashMeaningSub Proofs.SubChecks Proofs.BashMeaningMix Proofs.C01Layers.
From CG Require Import Spec.Invocations.

(** matched or not: the two grammars agree at every cursor position *)
Theorem C09_fallback_transparent_complete :
  forall en e ws p,
    complete (propagate (bar_of_barbar e) 0) en ws p = None <-> complete (propagate e 0) en ws p = None.
Proof. exact complete_bar_none. Qed.
Check C09_fallback_transparent_complete :
  forall en e ws p,
    complete (propagate (bar_of_barbar e) 0) en ws p = None <-> complete (propagate e 0) en ws p = None.
Print Assumptions C09_fallback_transparent_complete.

(** every required (resp. allowed) candidate of the [|] variant is a required (resp. allowed) candidate of the
    [||] grammar, unless an earlier level undercuts it *)
Theorem C09_candidates_monotone_spec :
  forall en e ws p,
    match complete (propagate (bar_of_barbar e) 0) en ws p, complete (propagate e 0) en ws p with
    | None, None => True
    | Some (req', al'), Some (req, al) =>
      (forall c, In c req' -> In c req \/ In c (undercut (propagate e 0) en ws p))
      /\ (forall c, In c al' -> In c al \/ In c (undercut (propagate e 0) en ws p))
    | _, _ => False
    end.
Proof. exact complete_bar_monotone. Qed.
Check C09_candidates_monotone_spec :
  forall en e ws p,
    match complete (propagate (bar_of_barbar e) 0) en ws p, complete (propagate e 0) en ws p with
    | None, None => True
    | Some (req', al'), Some (req, al) =>
      (forall c, In c req' -> In c req \/ In c (undercut (propagate e 0) en ws p))
      /\ (forall c, In c al' -> In c al \/ In c (undercut (propagate e 0) en ws p))
    | _, _ => False
    end.
Print Assumptions C09_candidates_monotone_spec.

(** "unless an earlier level undercuts it": [c] is (what bash shows of) a candidate [c0] of an expected item [a], and
    a candidate [c'] extending the typed word exists at a strictly earlier level -- of the [||] branches (first two
    cases: [a] contributes [c0] itself, or [a] is a within-word expression whose whole level is undercut), or of the
    pieces inside the within-word expression [a] (third case) *)
Theorem C09_undercut_meaning :
  forall e en ws p c,
    In c (undercut e en ws p) ->
    let s := run en (start e) ws in
    exists a c0,
      In a (map fst (moves s)) /\ c = strip (e_wordbreaks en) p c0 /\ In c0 (item_raw en a p) /\
      ((exists l l' c', In (l, c0) (item_cands en a p) /\ In (l', c') (state_cands en s p) /\ l' < l
                        /\ String.prefix p c' = true)
       \/ (exists x l l' c', a = LSub x l /\ In (l', c') (state_cands en s p) /\ l' < l /\ String.prefix p c' = true)
       \/ (exists x l lw lw' c', a = LSub x l /\ In (lw, c0) (proper_wcands en x p) /\ In (lw', c') (proper_wcands en x p)
                                 /\ lw' < lw /\ String.prefix p c' = true)).
Proof. exact undercut_meaning. Qed.
Check C09_undercut_meaning :
  forall e en ws p c,
    In c (undercut e en ws p) ->
    let s := run en (start e) ws in
    exists a c0,
      In a (map fst (moves s)) /\ c = strip (e_wordbreaks en) p c0 /\ In c0 (item_raw en a p) /\
      ((exists l l' c', In (l, c0) (item_cands en a p) /\ In (l', c') (state_cands en s p) /\ l' < l
                        /\ String.prefix p c' = true)
       \/ (exists x l l' c', a = LSub x l /\ In (l', c') (state_cands en s p) /\ l' < l /\ String.prefix p c' = true)
       \/ (exists x l lw lw' c', a = LSub x l /\ In (lw, c0) (proper_wcands en x p) /\ In (lw', c') (proper_wcands en x p)
                                 /\ lw' < lw /\ String.prefix p c' = true)).
Print Assumptions C09_undercut_meaning.

(** The emitted bash scripts of the two grammars.  [bash_setting]: the hypotheses under which C01 identifies the script with the specification (the whole model
    pipeline accepted the validated grammar; literals, commands, undefined nonterminals, within-word expressions made
    of literals; C01's domain; the environment of the script shows the commands what the specification's environment
    says they print; no two different items read a word of the line). *)
Definition bash_setting pick fuel (v : valid_grammar) c om os nd a (benv : BashSem.env) (en : Meaning.env)
           (ws : list string) (p : string) : Prop :=
  mix_tree (v_expr v) = true /\ alts_nonempty (v_expr v) = true /\
  compile_valid pick fuel v = Ok c /\
  all_tables Bash c om os = Ok (nd, a) /\ NoDup om /\ valid_literal_order (c_main c) om = true /\
  sub_orders_ok c os /\ subs_deterministic c /\
  C01_domain (v_expr v) = true /\
  BashSem.e_ignore_case benv = false /\ BashSem.e_wordbreaks benv = Meaning.e_wordbreaks en /\
  breaks_ok (BashSem.e_wordbreaks benv) = true /\ plain p = true /\ printable_str p = true /\
  (forall cm cid, Tables.index_of cm (a_commands a) = Some cid ->
                  spec_candidates (cmd_output benv cid) = candidates en cm) /\
  ambiguous_run en (start (v_expr v)) ws = false.

(** For the [||] grammar [v] and its [|] variant [v'], each compiled to its tables and script: the two scripts return
    the same code, and every entry of the [|] script's COMPREPLY is in the [||] script's COMPREPLY unless an earlier
    level undercuts it. *)
Theorem C09_candidates_monotone_script :
  forall e pick fuel v c om os nd a benv pick' fuel' v' c' om' os' nd' a' benv' en ws p,
    v_expr v = propagate e 0 -> v_expr v' = propagate (bar_of_barbar e) 0 ->
    bash_setting pick fuel v c om os nd a benv en ws p ->
    bash_setting pick' fuel' v' c' om' os' nd' a' benv' en ws p ->
    (exists log log',
        run_from Repaired (d_start (c_main c)) a benv ws p = Ok (mkresult 1 [] log)
        /\ run_from Repaired (d_start (c_main c')) a' benv' ws p = Ok (mkresult 1 [] log'))
    \/ (exists reply log reply' log',
           run_from Repaired (d_start (c_main c)) a benv ws p = Ok (mkresult 0 reply log)
           /\ run_from Repaired (d_start (c_main c')) a' benv' ws p = Ok (mkresult 0 reply' log')
           /\ forall x, In x reply' -> In x reply \/ In x (undercut (v_expr v) en ws p)).
Proof.
  intros e pick fuel v c om os nd a benv pick' fuel' v' c' om' os' nd' a' benv' en ws p Ev Ev' S S'.
  destruct S as (H1 & H2 & H3 & H4 & H5 & H6 & H7 & H8 & H9 & H10 & H11 & H12 & H13 & H14 & H15 & H16).
  destruct S' as (G1 & G2 & G3 & G4 & G5 & G6 & G7 & G8 & G9 & G10 & G11 & G12 & G13 & G14 & G15 & G16).
  pose proof (bash_meaning_mixed pick fuel v c om os nd a benv en ws p H1 H2 H3 H4 H5 H6 H7 H8 H9 H10 H11 H12 H13 H14 H15 H16) as M.
  pose proof (bash_meaning_mixed pick' fuel' v' c' om' os' nd' a' benv' en ws p G1 G2 G3 G4 G5 G6 G7 G8 G9 G10 G11 G12 G13 G14 G15 G16) as M'.
  pose proof (complete_bar_monotone en e ws p) as Mono.
  rewrite Ev in M |- *. rewrite Ev' in M'.
  destruct (complete (propagate (bar_of_barbar e) 0) en ws p) as [[req' al']|];
    destruct (complete (propagate e 0) en ws p) as [[req al]|]; try contradiction.
  - right. destruct M as (reply & log & R & Hr & _). destruct M' as (reply' & log' & R' & Hr' & _).
    exists reply, log, reply', log'. split; [exact R|split; [exact R'|]].
    intros x Hx. apply Hr' in Hx. destruct (proj1 Mono x Hx) as [K|K]; [left; now apply Hr|now right].
  - left. destruct M as (log & R). destruct M' as (log' & R'). now exists log, log'.
Qed.
Check C09_candidates_monotone_script :
  forall e pick fuel v c om os nd a benv pick' fuel' v' c' om' os' nd' a' benv' en ws p,
    v_expr v = propagate e 0 -> v_expr v' = propagate (bar_of_barbar e) 0 ->
    bash_setting pick fuel v c om os nd a benv en ws p ->
    bash_setting pick' fuel' v' c' om' os' nd' a' benv' en ws p ->
    (exists log log',
        run_from Repaired (d_start (c_main c)) a benv ws p = Ok (mkresult 1 [] log)
        /\ run_from Repaired (d_start (c_main c')) a' benv' ws p = Ok (mkresult 1 [] log'))
    \/ (exists reply log reply' log',
           run_from Repaired (d_start (c_main c)) a benv ws p = Ok (mkresult 0 reply log)
           /\ run_from Repaired (d_start (c_main c')) a' benv' ws p = Ok (mkresult 0 reply' log')
           /\ forall x, In x reply' -> In x reply \/ In x (undercut (v_expr v) en ws p)).
Print Assumptions C09_candidates_monotone_script.

(** Non-vacuity of the specification-level theorem, on the two tiers: [cmd (a || ab);] with "a" typed -- the [|]
    variant offers [a ] and [ab ], the [||] grammar only [a ], and [ab ] is what [undercut] lists; and
    [cmd --k=(v || vw || x);] -- with [--k=v] typed the two grammars agree, with [--k=] typed the [||] grammar
    offers only [--k=v], and [--k=vw], [--k=x] are undercut inside the word. *)
Definition ex_sp : span := mkspan 1 1 2.
Definition ex_top : expr := Fallback [Terminal "a" None 0 ex_sp; Terminal "ab" None 0 ex_sp] ex_sp.
Definition ex_word : expr :=
  Subword (Sequence [Terminal "--k=" None 0 ex_sp;
                     Fallback [Terminal "v" None 0 ex_sp; Terminal "vw" None 0 ex_sp; Terminal "x" None 0 ex_sp] ex_sp] ex_sp) 0 ex_sp.
Definition ex_en : Meaning.env := Meaning.mkenv "" [].

Example ex_C09c_inhabited :
  complete (propagate (bar_of_barbar ex_top) 0) ex_en [] "a" = Some (["a "; "ab "], ["a "; "ab "])
  /\ complete (propagate ex_top 0) ex_en [] "a" = Some (["a "], ["a "])
  /\ undercut (propagate ex_top 0) ex_en [] "a" = ["ab "]
  /\ complete (propagate (bar_of_barbar ex_word) 0) ex_en [] "--k=v" = Some (["--k=vw"], ["--k=vw"; "--k=v"])
  /\ complete (propagate ex_word 0) ex_en [] "--k=v" = Some (["--k=vw"], ["--k=vw"; "--k=v"])
  /\ complete (propagate (bar_of_barbar ex_word) 0) ex_en [] "--k=" = Some (["--k=v"; "--k=vw"; "--k=x"], ["--k=v"; "--k=vw"; "--k=x"; "--k="])
  /\ complete (propagate ex_word 0) ex_en [] "--k=" = Some (["--k=v"], ["--k=v"; "--k="])
  /\ undercut (propagate ex_word 0) ex_en [] "--k=" = ["--k=vw"; "--k=x"].
Proof. vm_compute. repeat split; reflexivity. Qed.
Print Assumptions ex_C09c_inhabited.
