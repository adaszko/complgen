(** C15 for the COMMAND (statements only; proofs: Proofs/MainProps.v), about [Model/Main.v] [run]
    (see Props/C06c.v for what it models and how it is tied to the binary).

    - [C15_main_warnings_exact]: on a grammar that reaches the warning loops (parsed, validated for
      the selected shell, turned into a regex) the warnings on stderr are EXACTLY
      [Diag.warning_messages] of the validated grammar -- each once, in that (sorted) order, first
      in the trace -- and nothing after them is a warning.  ([Props/C15.v] / [Props/C15b.v] say which
      nonterminals the three sets hold.)  Its [covers] hypothesis is there for uniformity with
      Props/C06c.v; the proof drops it, since the run is given as [Ok t].
    - [C15_main_without_warnings] / [C15_main_warnings_harmless]: [run_with wm] is the command with
      the three loops printing [wm v] instead; for ANY two choices of the warnings the traces minus
      the warnings are equal, in particular the exit status and the script write; the run with no
      warning at all is the same trace minus its leading warnings.  No fuel hypothesis: both
      runs are given as [Ok _]. *)
From CG Require Import Base.Prelude Model.Ast Model.Parser Model.Check Model.Regex Model.Dfa Model.Driver.
From CG Require Import Model.Diag Model.Compiler Model.Main.
From CG Require Import Proofs.PipelineTotal Proofs.MainRun Proofs.MainProps.
From CGgen Require Import Consts.
Open Scope list_scope.

Theorem C15_main_warnings_exact :
  forall builtins o version a input upath text g sh path v rp t,
    covers builtins o a input ->
    a_version a = false -> a_usage a = Some upath -> input = Some text ->
    parse text = Ok g -> select_shell a = Some (sh, path) ->
    from_grammar builtins g sh = Ok v -> from_valid_expr (v_expr v) = Ok rp ->
    run builtins o version a input = Ok t ->
    warnings_of t = warning_messages v
    /\ exists ws rest, t = ws ++ rest /\ Forall2 (rendered_as upath text) (warning_messages v) ws
                       /\ warnings_of rest = [].
Proof.
  intros builtins o version a input upath text g sh path v rp t _.
  apply run_with_warnings_exact. exact warning_messages_warning.
Qed.
Check C15_main_warnings_exact :
  forall builtins o version a input upath text g sh path v rp t,
    covers builtins o a input ->
    a_version a = false -> a_usage a = Some upath -> input = Some text ->
    parse text = Ok g -> select_shell a = Some (sh, path) ->
    from_grammar builtins g sh = Ok v -> from_valid_expr (v_expr v) = Ok rp ->
    run builtins o version a input = Ok t ->
    warnings_of t = warning_messages v
    /\ exists ws rest, t = ws ++ rest /\ Forall2 (rendered_as upath text) (warning_messages v) ws
                       /\ warnings_of rest = [].
Print Assumptions C15_main_warnings_exact.

Theorem C15_main_without_warnings :
  forall builtins o version wm a input t,
    all_warnings wm ->
    run_with builtins o version wm a input = Ok t ->
    exists ws rest, t = ws ++ rest
                    /\ Forall (fun e => is_warning e = true) ws
                    /\ run_with builtins o version (fun _ => []) a input = Ok rest.
Proof. exact main_without_warnings. Qed.
Check C15_main_without_warnings :
  forall builtins o version wm a input t,
    all_warnings wm ->
    run_with builtins o version wm a input = Ok t ->
    exists ws rest, t = ws ++ rest
                    /\ Forall (fun e => is_warning e = true) ws
                    /\ run_with builtins o version (fun _ => []) a input = Ok rest.
Print Assumptions C15_main_without_warnings.

Theorem C15_main_warnings_harmless :
  forall builtins o version wm1 wm2 a input t1 t2,
    all_warnings wm1 -> all_warnings wm2 ->
    run_with builtins o version wm1 a input = Ok t1 ->
    run_with builtins o version wm2 a input = Ok t2 ->
    strip_warnings t1 = strip_warnings t2
    /\ filter is_exit t1 = filter is_exit t2
    /\ filter is_script_write t1 = filter is_script_write t2.
Proof. exact main_warnings_harmless. Qed.
Check C15_main_warnings_harmless :
  forall builtins o version wm1 wm2 a input t1 t2,
    all_warnings wm1 -> all_warnings wm2 ->
    run_with builtins o version wm1 a input = Ok t1 ->
    run_with builtins o version wm2 a input = Ok t2 ->
    strip_warnings t1 = strip_warnings t2
    /\ filter is_exit t1 = filter is_exit t2
    /\ filter is_script_write t1 = filter is_script_write t2.
Print Assumptions C15_main_warnings_harmless.

Theorem C15_main_run_is_run_with :
  all_warnings warning_messages /\
  forall builtins o version a input, run builtins o version a input = run_with builtins o version warning_messages a input.
Proof. split; [exact warning_messages_warning|reflexivity]. Qed.
Check C15_main_run_is_run_with :
  all_warnings warning_messages /\
  forall builtins o version a input, run builtins o version a input = run_with builtins o version warning_messages a input.
Print Assumptions C15_main_run_is_run_with.

(** Non-vacuity: fish, `cmd a <U>;` + an unused definition: two warnings (Undefined at 1:7, Unused at
    2:1, in that order), then the script write and exit 0; the trace minus warnings has two effects. *)
Definition ex_o : oracles := mkoracles [] 4096 [] [] [] "sig".
Example ex_C15c_inhabited :
  match run builtins ex_o "1.0" (mkargs false (Some "g.usage") None (Some "out.fish") None None None None)
            (Some (String.append "cmd a <U>;" (String (Ascii.ascii_of_nat 10) "<X> ::= b;"))) with
  | Ok ([Stderr (SLocated m1 r1); Stderr (SLocated m2 r2); Write (ToFile p) (KScript (COpaque Fish _ _)); Exit 0%N] as t) =>
      m_warning m1 && m_warning m2 && String.eqb (m_label m1) "Undefined" && String.eqb (m_label m2) "Unused"
      && String.eqb (r_header r1) "g.usage:1:7:" && String.eqb (r_header r2) "g.usage:2:1:" && String.eqb p "out.fish"
      && Nat.eqb (List.length (warnings_of t)) 2 && Nat.eqb (List.length (strip_warnings t)) 2
  | _ => false
  end = true.
Proof. vm_compute. reflexivity. Qed.
Print Assumptions ex_C15c_inhabited.
