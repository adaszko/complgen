(** C13 -- diagnostics point at the construct they complain about (checker part).
    The theorems restate lemmas of Proofs/CheckProvenance.v.

    Every span in an error returned by the model of [ValidGrammar::from_grammar], and every span
    in its three warning maps, is the span the parser attached to a construct of the *source*
    grammar of the right kind ([err_provenance], unfolded in the statement below).  Together
    with the parser's span property (C13, parser part) this places every diagnostic.
    [grammar_refs g] lists (name, span) of every [NontermRef] node of [g], [grammar_terms g] the
    span of every [Terminal] node. *)
From CG Require Import Base.Prelude Model.Ast Model.Check Spec.Choice Spec.Mistakes.
From CG Require Import Proofs.CheckLemmas Proofs.CheckProvenance.
From CGgen Require Import Consts.
Local Open Scope list_scope.

Theorem C13_error_provenance :
  forall builtins g sh e,
    from_grammar builtins g sh = Err e ->
    match e with
    | MissingCallVariants => True
    | VaryingCommandNames spans =>
        forall sp, In sp spans -> exists n e, In (CallVariant n sp e) g
    | InvalidCommandName sp => exists n e, In (CallVariant n sp e) g
    | DuplicateNonterminalDefinition a b =>
        exists n g1 sh1 rhs1 g2 sh2 rhs2 g3,
          g = g1 ++ NontermDef n a sh1 rhs1 :: g2 ++ NontermDef n b sh2 rhs2 :: g3
          /\ same_kind sh sh1 sh2
    | UnknownShell sp =>
        exists n nsp shn rhs, In (NontermDef n nsp (Some (shn, sp)) rhs) g /\ shell_of_string shn = None
    | NonCommandSpecialization sp =>
        exists n nsp sho rhs, In (NontermDef n nsp sho rhs) g /\ sp = expr_span rhs
                              /\ is_command rhs = false
    | NonterminalDefinitionsCycle spans =>
        exists nsp rest, spans = nsp :: rest
                         /\ (exists n rhs, In (NontermDef n nsp None rhs) g)
                         /\ forall sp, In sp rest -> In sp (map snd (grammar_refs g))
    | SubwordSpaces l r trace =>
        In l (grammar_terms g) /\ In r (grammar_terms g)
        /\ forall sp, In sp trace -> In sp (map snd (grammar_refs g))
    end.
Proof. exact errors_provenance. Qed.
Check C13_error_provenance :
  forall builtins g sh e,
    from_grammar builtins g sh = Err e ->
    match e with
    | MissingCallVariants => True
    | VaryingCommandNames spans =>
        forall sp, In sp spans -> exists n e, In (CallVariant n sp e) g
    | InvalidCommandName sp => exists n e, In (CallVariant n sp e) g
    | DuplicateNonterminalDefinition a b =>
        exists n g1 sh1 rhs1 g2 sh2 rhs2 g3,
          g = g1 ++ NontermDef n a sh1 rhs1 :: g2 ++ NontermDef n b sh2 rhs2 :: g3
          /\ same_kind sh sh1 sh2
    | UnknownShell sp =>
        exists n nsp shn rhs, In (NontermDef n nsp (Some (shn, sp)) rhs) g /\ shell_of_string shn = None
    | NonCommandSpecialization sp =>
        exists n nsp sho rhs, In (NontermDef n nsp sho rhs) g /\ sp = expr_span rhs
                              /\ is_command rhs = false
    | NonterminalDefinitionsCycle spans =>
        exists nsp rest, spans = nsp :: rest
                         /\ (exists n rhs, In (NontermDef n nsp None rhs) g)
                         /\ forall sp, In sp rest -> In sp (map snd (grammar_refs g))
    | SubwordSpaces l r trace =>
        In l (grammar_terms g) /\ In r (grammar_terms g)
        /\ forall sp, In sp trace -> In sp (map snd (grammar_refs g))
    end.
Print Assumptions C13_error_provenance.

Theorem C13_warning_provenance :
  forall builtins g sh v,
    from_grammar builtins g sh = Ok v ->
    (forall n sp, In (n, sp) (v_undefined v) -> In (n, sp) (grammar_refs g)) /\
    (forall n sp, In (n, sp) (v_unused v) -> exists rhs, In (NontermDef n sp None rhs) g) /\
    (forall n sp, In (n, sp) (v_unused_specs v) ->
                  exists shn shsp rhs, In (NontermDef n sp (Some (shn, shsp)) rhs) g
                                       /\ is_shell shn sh = true).
Proof. exact warnings_provenance. Qed.
Check C13_warning_provenance :
  forall builtins g sh v,
    from_grammar builtins g sh = Ok v ->
    (forall n sp, In (n, sp) (v_undefined v) -> In (n, sp) (grammar_refs g)) /\
    (forall n sp, In (n, sp) (v_unused v) -> exists rhs, In (NontermDef n sp None rhs) g) /\
    (forall n sp, In (n, sp) (v_unused_specs v) ->
                  exists shn shsp rhs, In (NontermDef n sp (Some (shn, shsp)) rhs) g
                                       /\ is_shell shn sh = true).
Print Assumptions C13_warning_provenance.

(** Non-vacuity: a grammar with spaces inside a word reached through a definition (error with
    two literal spans and a one-step trace), and an accepted one with an undefined name. *)
Definition s (n : N) := mkspan 1 n (n + 1).
Definition ex_spaces : grammar :=
  [ CallVariant "cmd" (s 1) (Subword (Sequence [Terminal "a" None 0 (s 2); NontermRef "A" 0 (s 3)] (s 2)) 0 (s 2));
    NontermDef "A" (s 4) None (Sequence [Terminal "x" None 0 (s 5); Terminal "y" None 0 (s 6)] (s 5)) ].
Definition ex_undef : grammar :=
  [ CallVariant "cmd" (s 1) (NontermRef "A" 0 (s 2));
    NontermDef "A" (s 3) None (Sequence [Terminal "x" None 0 (s 4); NontermRef "U" 0 (s 5)] (s 4)) ].
Example ex_C13_inhabited :
  from_grammar builtins ex_spaces Bash = Err (SubwordSpaces (s 5) (s 6) [s 3])
  /\ (exists v, from_grammar builtins ex_undef Bash = Ok v /\ v_undefined v = [("U", s 5)]).
Proof. vm_compute. split; [reflexivity|eexists; split; reflexivity]. Qed.
Print Assumptions ex_C13_inhabited.
