(** C08 end to end -- grammar mistakes are rejected with the right diagnostic, from the SOURCE TEXT.
    Each class theorem is proved here, by [checker_error_lifts] (Proofs/PipelineMistakes.v: when the checker rejects
    the grammar with an error in a class [P] closed under change of spans, [compile] rejects the
    text, in every layout, with a checker error in [P]) applied
    to the class lemma of Proofs/CheckMistakes.v, CheckFront.v, CheckCycleSpec.v or CheckSpacesSpec.v;
    the bridge and the converses are those of Proofs/PipelineMistakes.v and PipelinePlaceholder.v.

    For every printable grammar [g] ([wf g], the domain of the parser's round trip) and EVERY layout
    [l] of its text: when a mistake class of Spec/Mistakes.v is present in [g] (and the classes the
    checker decides earlier are absent), [Driver.compile] -- parser, checker, regex, automata --
    rejects [text g l] with the error of the matching kind.

    Lifted here: all the classes check.rs decides -- no call variant, varying command names, `/`
    in the name, duplicate plain definition, unknown shell / non-command / duplicate definition
    for a shell, cyclic definitions (both directions), space-separated literals inside a word --
    and the class regex.rs decides (Rust with finding N2 of Props/C08.v repaired): "placeholder inside a word
    that something can follow" ([placeholder_not_last] <=> [DRegex UnboundedMatchable], both
    directions, [C08b_placeholder]).
    NOT lifted, and why:
    - "the same literal with two different descriptions" ([DAmb ConflictingDescriptions]): there is
      no predicate on the grammar for it in Spec/Mistakes.v; what is proved is on the automaton
      ([C08_ambiguity_accepts/rejects/decides] in Props/C08.v);
    - the converse "a grammar free of all classes compiles" is proved up to that class and the
      known converse finding N1 (juxtaposed literals `foo(bar)` rejected as SubwordSpaces):
      [C08b_clean_compiles]; the full statement is kept as [C08b_clean_compiles_statement]. *)
From CG Require Import Base.Prelude Model.Ast Model.Lexer Model.Parser Model.Check Model.Regex.
From CG Require Import Model.Dfa Model.Ambiguity Model.Driver Spec.Printer Spec.Choice Spec.Mistakes.
From CG Require Import Proofs.CheckMistakes Proofs.CheckFront Proofs.CheckCycleSpec Proofs.CheckSpacesSpec.
From CG Require Import Proofs.PipelineLayout Proofs.PipelineTotal Proofs.PipelineMistakes.
From CG Require Proofs.PipelinePlaceholder Proofs.AmbLang.
From CGgen Require Import Consts.

(** the bridge: the text of a printable grammar goes through the pipeline like the grammar itself,
    up to spans *)
Theorem C08b_text_bridge :
  forall pick fuel builtins g l sh,
    wf g ->
    layout_rel (compile pick fuel builtins (text g l) sh) (after_parse pick fuel builtins g sh).
Proof. exact text_bridge. Qed.
Check C08b_text_bridge :
  forall pick fuel builtins g l sh,
    wf g ->
    layout_rel (compile pick fuel builtins (text g l) sh) (after_parse pick fuel builtins g sh).
Print Assumptions C08b_text_bridge.

Theorem C08b_no_call_variant :
  forall pick fuel builtins g l sh,
    wf g -> no_call_variant g = true ->
    compile pick fuel builtins (text g l) sh = Err (DCheck MissingCallVariants).
Proof.
  intros pick fuel builtins g l sh W H.
  destruct (checker_error_lifts pick fuel builtins _ g l sh blind_missing W) as [e [He ->]]; [|exact He].
  eexists. split; [apply no_call_variant_rejected; exact H|reflexivity].
Qed.
Check C08b_no_call_variant :
  forall pick fuel builtins g l sh,
    wf g -> no_call_variant g = true ->
    compile pick fuel builtins (text g l) sh = Err (DCheck MissingCallVariants).
Print Assumptions C08b_no_call_variant.

Theorem C08b_varying_names :
  forall pick fuel builtins g l sh,
    wf g -> varying_names g = true ->
    exists spans, compile pick fuel builtins (text g l) sh = Err (DCheck (VaryingCommandNames spans)).
Proof.
  intros pick fuel builtins g l sh W H.
  destruct (checker_error_lifts pick fuel builtins _ g l sh blind_varying W) as [e [He [spans ->]]]; [|eauto].
  destruct (varying_names_rejected builtins g sh H) as [spans Hs]. eauto.
Qed.
Check C08b_varying_names :
  forall pick fuel builtins g l sh,
    wf g -> varying_names g = true ->
    exists spans, compile pick fuel builtins (text g l) sh = Err (DCheck (VaryingCommandNames spans)).
Print Assumptions C08b_varying_names.

Theorem C08b_slash_in_name :
  forall pick fuel builtins g l sh,
    wf g -> varying_names g = false -> slash_in_name g = true ->
    exists sp, compile pick fuel builtins (text g l) sh = Err (DCheck (InvalidCommandName sp)).
Proof.
  intros pick fuel builtins g l sh W Hv H.
  destruct (checker_error_lifts pick fuel builtins _ g l sh blind_invalid W) as [e [He [sp ->]]]; [|eauto].
  destruct (slash_in_name_rejected builtins g sh Hv H) as [sp Hs]. eauto.
Qed.
Check C08b_slash_in_name :
  forall pick fuel builtins g l sh,
    wf g -> varying_names g = false -> slash_in_name g = true ->
    exists sp, compile pick fuel builtins (text g l) sh = Err (DCheck (InvalidCommandName sp)).
Print Assumptions C08b_slash_in_name.

Theorem C08b_duplicate_plain :
  forall pick fuel builtins g l sh,
    wf g -> no_call_variant g = false -> varying_names g = false -> slash_in_name g = false ->
    duplicate_plain g = true ->
    exists a b, compile pick fuel builtins (text g l) sh = Err (DCheck (DuplicateNonterminalDefinition a b)).
Proof.
  intros pick fuel builtins g l sh W Hn Hv Hs H.
  destruct (checker_error_lifts pick fuel builtins _ g l sh blind_duplicate W) as [e [He [a [b ->]]]]; [|eauto].
  destruct (duplicate_plain_rejected builtins g sh Hn Hv Hs H) as [a [b Hd]]. eauto.
Qed.
Check C08b_duplicate_plain :
  forall pick fuel builtins g l sh,
    wf g -> no_call_variant g = false -> varying_names g = false -> slash_in_name g = false ->
    duplicate_plain g = true ->
    exists a b, compile pick fuel builtins (text g l) sh = Err (DCheck (DuplicateNonterminalDefinition a b)).
Print Assumptions C08b_duplicate_plain.

Theorem C08b_specialization_errors :
  forall pick fuel builtins g l sh,
    wf g -> no_call_variant g = false -> varying_names g = false -> slash_in_name g = false ->
    duplicate_plain g = false ->
    unknown_shell g || non_command_for_shell g || duplicate_for_shell g sh = true ->
    exists e, compile pick fuel builtins (text g l) sh = Err (DCheck e) /\
              match e with
              | UnknownShell _ => unknown_shell g = true
              | NonCommandSpecialization _ => non_command_for_shell g = true
              | DuplicateNonterminalDefinition _ _ => duplicate_for_shell g sh = true
              | _ => False
              end.
Proof.
  intros pick fuel builtins g l sh W Hn Hv Hs Hd H.
  apply (checker_error_lifts pick fuel builtins _ g l sh (blind_spec_errors _ _ _) W).
  apply specialization_errors; assumption.
Qed.
Check C08b_specialization_errors :
  forall pick fuel builtins g l sh,
    wf g -> no_call_variant g = false -> varying_names g = false -> slash_in_name g = false ->
    duplicate_plain g = false ->
    unknown_shell g || non_command_for_shell g || duplicate_for_shell g sh = true ->
    exists e, compile pick fuel builtins (text g l) sh = Err (DCheck e) /\
              match e with
              | UnknownShell _ => unknown_shell g = true
              | NonCommandSpecialization _ => non_command_for_shell g = true
              | DuplicateNonterminalDefinition _ _ => duplicate_for_shell g sh = true
              | _ => False
              end.
Print Assumptions C08b_specialization_errors.

Theorem C08b_cycle :
  forall pick fuel builtins g l sh,
    wf g -> no_call_variant g = false -> varying_names g = false -> slash_in_name g = false ->
    duplicate_plain g = false ->
    unknown_shell g = false -> non_command_for_shell g = false -> duplicate_for_shell g sh = false ->
    specs_have_command_plain g = true ->
    (cyclic g sh = true <->
     exists spans, compile pick fuel builtins (text g l) sh = Err (DCheck (NonterminalDefinitionsCycle spans))).
Proof.
  intros pick fuel builtins g l sh W Hn Hv Hs Hd H1 H2 H3 Hsp. split.
  - intro Hc.
    destruct (checker_error_lifts pick fuel builtins _ g l sh blind_cycle W) as [e [He [spans ->]]]; [|eauto].
    apply (cycle_rejected builtins g sh Hn Hv Hs Hd H1 H2 H3 Hsp) in Hc. destruct Hc as [spans Hc]. eauto.
  - intros [spans Hc]. apply (cycle_rejected builtins g sh Hn Hv Hs Hd H1 H2 H3 Hsp).
    eapply lifted_cycle_converse; eauto.
Qed.
Check C08b_cycle :
  forall pick fuel builtins g l sh,
    wf g -> no_call_variant g = false -> varying_names g = false -> slash_in_name g = false ->
    duplicate_plain g = false ->
    unknown_shell g = false -> non_command_for_shell g = false -> duplicate_for_shell g sh = false ->
    specs_have_command_plain g = true ->
    (cyclic g sh = true <->
     exists spans, compile pick fuel builtins (text g l) sh = Err (DCheck (NonterminalDefinitionsCycle spans))).
Print Assumptions C08b_cycle.

(** printable grammars only have words that are juxtapositions, so the side condition of
    [C08_subword_spaces] disappears *)
Theorem C08b_subword_spaces :
  forall pick fuel builtins g l sh,
    wf g -> no_call_variant g = false -> varying_names g = false -> slash_in_name g = false ->
    duplicate_plain g = false ->
    unknown_shell g = false -> non_command_for_shell g = false -> duplicate_for_shell g sh = false ->
    specs_have_command_plain g = true -> cyclic g sh = false ->
    subword_spaces g sh = true ->
    exists a b t, compile pick fuel builtins (text g l) sh = Err (DCheck (SubwordSpaces a b t)).
Proof.
  intros pick fuel builtins g l sh W Hn Hv Hs Hd H1 H2 H3 Hsp Hc H.
  destruct (checker_error_lifts pick fuel builtins _ g l sh blind_spaces W) as [e [He (a & b & t & ->)]]; [|eauto].
  destruct (subword_spaces_rejected builtins g sh Hn Hv Hs Hd H1 H2 H3 Hsp Hc (wf_word_roots g W) H)
    as (a & b & t & Hr). eauto 6.
Qed.
Check C08b_subword_spaces :
  forall pick fuel builtins g l sh,
    wf g -> no_call_variant g = false -> varying_names g = false -> slash_in_name g = false ->
    duplicate_plain g = false ->
    unknown_shell g = false -> non_command_for_shell g = false -> duplicate_for_shell g sh = false ->
    specs_have_command_plain g = true -> cyclic g sh = false ->
    subword_spaces g sh = true ->
    exists a b t, compile pick fuel builtins (text g l) sh = Err (DCheck (SubwordSpaces a b t)).
Print Assumptions C08b_subword_spaces.

(** Conversely: a printable grammar free of all the classes the checker decides compiles, or is
    rejected for space-separated literals (N1 included), by the regex stage ([C08b_placeholder]
    says when) or by the ambiguity check. *)
Theorem C08b_clean_verdict :
  forall pick fuel builtins g l sh,
    wf g -> fuel_covers fuel builtins (text g l) sh ->
    no_call_variant g = false -> varying_names g = false -> slash_in_name g = false ->
    duplicate_plain g = false ->
    unknown_shell g = false -> non_command_for_shell g = false -> duplicate_for_shell g sh = false ->
    specs_have_command_plain g = true -> cyclic g sh = false ->
    (exists vc, compile pick fuel builtins (text g l) sh = Ok vc) \/
    (exists a b t, compile pick fuel builtins (text g l) sh = Err (DCheck (SubwordSpaces a b t))) \/
    (exists a b, compile pick fuel builtins (text g l) sh = Err (DRegex (UnboundedMatchable a b))) \/
    (exists ae, compile pick fuel builtins (text g l) sh = Err (DAmb ae)).
Proof. exact lifted_clean_verdict. Qed.
Check C08b_clean_verdict :
  forall pick fuel builtins g l sh,
    wf g -> fuel_covers fuel builtins (text g l) sh ->
    no_call_variant g = false -> varying_names g = false -> slash_in_name g = false ->
    duplicate_plain g = false ->
    unknown_shell g = false -> non_command_for_shell g = false -> duplicate_for_shell g sh = false ->
    specs_have_command_plain g = true -> cyclic g sh = false ->
    (exists vc, compile pick fuel builtins (text g l) sh = Ok vc) \/
    (exists a b t, compile pick fuel builtins (text g l) sh = Err (DCheck (SubwordSpaces a b t))) \/
    (exists a b, compile pick fuel builtins (text g l) sh = Err (DRegex (UnboundedMatchable a b))) \/
    (exists ae, compile pick fuel builtins (text g l) sh = Err (DAmb ae)).
Print Assumptions C08b_clean_verdict.

(** The class the regex stage decides: a placeholder inside a word that something can follow.
    Unless the checker rejects the text for space-separated literals first (which includes the
    juxtaposed literals of finding N1), the text ends in [DRegex UnboundedMatchable] exactly when
    the class is present. *)
Theorem C08b_placeholder :
  forall pick fuel builtins g l sh,
    wf g ->
    no_call_variant g = false -> varying_names g = false -> slash_in_name g = false ->
    duplicate_plain g = false ->
    unknown_shell g = false -> non_command_for_shell g = false -> duplicate_for_shell g sh = false ->
    specs_have_command_plain g = true -> cyclic g sh = false ->
    (exists a b t, compile pick fuel builtins (text g l) sh = Err (DCheck (SubwordSpaces a b t))) \/
    (placeholder_not_last builtins g sh = true <->
     exists a b, compile pick fuel builtins (text g l) sh = Err (DRegex (UnboundedMatchable a b))).
Proof. exact PipelinePlaceholder.lifted_placeholder. Qed.
Check C08b_placeholder :
  forall pick fuel builtins g l sh,
    wf g ->
    no_call_variant g = false -> varying_names g = false -> slash_in_name g = false ->
    duplicate_plain g = false ->
    unknown_shell g = false -> non_command_for_shell g = false -> duplicate_for_shell g sh = false ->
    specs_have_command_plain g = true -> cyclic g sh = false ->
    (exists a b t, compile pick fuel builtins (text g l) sh = Err (DCheck (SubwordSpaces a b t))) \/
    (placeholder_not_last builtins g sh = true <->
     exists a b, compile pick fuel builtins (text g l) sh = Err (DRegex (UnboundedMatchable a b))).
Print Assumptions C08b_placeholder.

(** A printable grammar with NO class of Spec/Mistakes.v compiles, or is rejected for one of the two
    reasons that remain: juxtaposed literals (N1) or a description conflict. *)
Theorem C08b_clean_compiles :
  forall pick fuel builtins g l sh,
    wf g -> fuel_covers fuel builtins (text g l) sh ->
    present builtins g sh = [] -> specs_have_command_plain g = true ->
    (exists vc, compile pick fuel builtins (text g l) sh = Ok vc) \/
    (exists a b t, compile pick fuel builtins (text g l) sh = Err (DCheck (SubwordSpaces a b t))) \/
    (exists ae, compile pick fuel builtins (text g l) sh = Err (DAmb ae)).
Proof. exact PipelinePlaceholder.lifted_clean_compiles. Qed.
Check C08b_clean_compiles :
  forall pick fuel builtins g l sh,
    wf g -> fuel_covers fuel builtins (text g l) sh ->
    present builtins g sh = [] -> specs_have_command_plain g = true ->
    (exists vc, compile pick fuel builtins (text g l) sh = Ok vc) \/
    (exists a b t, compile pick fuel builtins (text g l) sh = Err (DCheck (SubwordSpaces a b t))) \/
    (exists ae, compile pick fuel builtins (text g l) sh = Err (DAmb ae)).
Print Assumptions C08b_clean_compiles.

(** The full converse of the property (not proved: N1 and the description-conflict class stand in the way). *)
Definition C08b_clean_compiles_statement : Prop :=
  forall pick fuel builtins g l sh,
    wf g -> fuel_covers fuel builtins (text g l) sh ->
    present builtins g sh = [] -> specs_have_command_plain g = true ->
    exists vc, compile pick fuel builtins (text g l) sh = Ok vc.

(** What stands between [C08b_clean_compiles] and the full converse, stated:
    - finding N1 as a predicate on the grammar: some word is a juxtaposition with two neighbours
      that end / start with a literal AS WRITTEN (references are not followed at the root of a
      word): `foo(bar)`; check_subword_spaces rejects it although nothing is space-separated;
    - the description-conflict class at the level of the language ([AmbLang.lang_conflict], what
      the ambiguity check decides: [C08_description_conflict]) for the main regex and the regexes
      of the words; a predicate on the source grammar for it is still missing. *)
Definition juxtaposed_literals_in (e : expr) : bool :=
  existsb (fun w => match w with Sequence cs _ => adjacent_literals cs | _ => false end) (words_of e).
Definition juxtaposed_literals (g : grammar) : bool :=
  existsb (fun st => match st with
                     | CallVariant _ _ e => juxtaposed_literals_in e
                     | NontermDef _ _ _ rhs => juxtaposed_literals_in rhs
                     end) g.
Definition no_description_conflict (pick : nat -> list (list N) -> nat) (fuel : nat)
           (builtins : shell -> list (string * string)) (g : grammar) (sh : shell) : Prop :=
  forall v r pl x submap d states,
    from_grammar builtins g sh = Ok v -> from_expr (v_expr v) [] = Ok (r, pl) ->
    x = r \/ In x pl ->
    Subset.dfa_from_regex pick fuel submap x = Ok (d, states) -> ~ AmbLang.lang_conflict d.

(** The converse with the two gaps as explicit hypotheses (NOT proved: it needs the converse of
    [C08_subword_spaces] -- the walk of check_subword_spaces errs only on [subword_spaces] or
    [juxtaposed_literals] -- and [C08_description_conflict] for the automata of the words). *)
Definition C08b_clean_compiles_modulo_gaps_statement : Prop :=
  forall pick fuel builtins g l sh,
    wf g -> fuel_covers fuel builtins (text g l) sh ->
    present builtins g sh = [] -> specs_have_command_plain g = true ->
    juxtaposed_literals g = false -> no_description_conflict pick fuel builtins g sh ->
    exists vc, compile pick fuel builtins (text g l) sh = Ok vc.

(** Non-vacuity: a printable grammar with a cycle hidden behind a description, printed with two
    different layouts, is rejected with the cycle error; a printable clean one compiles. *)
Definition ex_sp := mkspan 0 0 0.
Definition ex_cyc : grammar :=
  [ CallVariant "cmd" ex_sp (Terminal "a" None 0 ex_sp);
    NontermDef "A" ex_sp None (Optional (NontermRef "B" 0 ex_sp) ex_sp);
    NontermDef "B" ex_sp None (DistDescr (NontermRef "A" 0 ex_sp) "d" ex_sp) ].
Definition ex_clean : grammar :=
  [ CallVariant "cmd" ex_sp (Sequence [NontermRef "A" 0 ex_sp;
       Subword (Sequence [Terminal "--o=" None 0 ex_sp; NontermRef "U" 0 ex_sp] ex_sp) 0 ex_sp] ex_sp);
    NontermDef "A" ex_sp None (Alternative [Terminal "x" None 0 ex_sp; Terminal "y" (Some "d") 0 ex_sp] ex_sp) ].
Definition lay0 : layout :=
  fun _ => mknl (fun _ => [BWs WSp]) (fun _ => ([BWs WSp], [BWs WSp])) (fun _ => ([], [])) 0
                (fun _ => false) (fun _ => [TSp]) true.
Definition lay1 : layout :=
  fun path => mknl (fun k => match k with 1%nat => [BCom " note"; BWs WLf] | _ => [BWs WTab] end)
                   (fun k => ([BWs WLf], [BWs WSp])) (fun _ => ([BWs WSp], [])) 
                   (match path with [0%nat; 0%nat] => 1%nat | _ => 0%nat end)
                   (fun _ => false) (fun _ => [TSp; TLf]) false.
Example ex_C08b_inhabited :
  forallb wf_stmt ex_cyc = true /\ cyclic ex_cyc Bash = true
  /\ forallb wf_stmt ex_clean = true /\ present builtins ex_clean Bash = []
  /\ text ex_cyc lay0 <> text ex_cyc lay1
  /\ (exists spans, compile Subset.pick_first 4096 builtins (text ex_cyc lay0) Bash
                    = Err (DCheck (NonterminalDefinitionsCycle spans)))
  /\ (exists spans, compile Subset.pick_first 4096 builtins (text ex_cyc lay1) Bash
                    = Err (DCheck (NonterminalDefinitionsCycle spans)))
  /\ is_ok (compile Subset.pick_first 4096 builtins (text ex_clean lay1) Bash) = true.
Proof.
  vm_compute. repeat split; try reflexivity; try (eexists; reflexivity). intro H. discriminate H.
Qed.
Print Assumptions ex_C08b_inhabited.

(** Non-vacuity of the placeholder class: the text of `cmd x<U>y;` is rejected by the regex stage;
    the text of `cmd x(<U>|a(b|c));` (the shape of finding N2) has no class and compiles. *)
Definition ex_ph_word (cs : list expr) : grammar :=
  [ CallVariant "cmd" ex_sp (Subword (Sequence cs ex_sp) 0 ex_sp) ].
Definition ex_ph_bad : grammar :=
  ex_ph_word [Terminal "x" None 0 ex_sp; NontermRef "U" 0 ex_sp; Terminal "y" None 0 ex_sp].
Definition ex_ph_n2 : grammar :=
  ex_ph_word [Terminal "x" None 0 ex_sp;
              Alternative [NontermRef "U" 0 ex_sp;
                           Sequence [Terminal "a" None 0 ex_sp;
                                     Alternative [Terminal "b" None 0 ex_sp; Terminal "c" None 0 ex_sp] ex_sp] ex_sp]
                          ex_sp].
Example ex_C08b_placeholder_inhabited :
  forallb wf_stmt ex_ph_bad = true /\ present builtins ex_ph_bad Bash = [MPlaceholderNotLast]
  /\ (exists a b, compile Subset.pick_first 4096 builtins (text ex_ph_bad lay1) Bash
                  = Err (DRegex (UnboundedMatchable a b)))
  /\ forallb wf_stmt ex_ph_n2 = true /\ present builtins ex_ph_n2 Bash = []
  /\ is_ok (compile Subset.pick_first 4096 builtins (text ex_ph_n2 lay1) Bash) = true.
Proof.
  vm_compute. repeat split; try reflexivity; try (do 2 eexists; reflexivity).
Qed.
Print Assumptions ex_C08b_placeholder_inhabited.

(** Non-vacuity of the N1 predicate: `cmd foo(bar);` has no class of Spec/Mistakes.v, has the N1
    shape and is rejected with SubwordSpaces; `cmd --opt=<X>; <X> ::= foo;` has not and is accepted. *)
Definition ex_n1 : grammar :=
  [ CallVariant "cmd" ex_sp (Subword (Sequence [Terminal "foo" None 0 ex_sp; Terminal "bar" None 0 ex_sp] ex_sp) 0 ex_sp) ].
Definition ex_not_n1 : grammar :=
  [ CallVariant "cmd" ex_sp (Subword (Sequence [Terminal "--opt=" None 0 ex_sp; NontermRef "X" 0 ex_sp] ex_sp) 0 ex_sp);
    NontermDef "X" ex_sp None (Terminal "foo" None 0 ex_sp) ].
Example ex_C08b_n1_inhabited :
  present builtins ex_n1 Bash = [] /\ juxtaposed_literals ex_n1 = true
  /\ (exists a b t, from_grammar builtins ex_n1 Bash = Err (SubwordSpaces a b t))
  /\ present builtins ex_not_n1 Bash = [] /\ juxtaposed_literals ex_not_n1 = false
  /\ is_ok (from_grammar builtins ex_not_n1 Bash) = true.
Proof. vm_compute. repeat split; try reflexivity. do 3 eexists. reflexivity. Qed.
Print Assumptions ex_C08b_n1_inhabited.
