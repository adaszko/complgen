(** C05 -- grammar text parses to the tree its syntax prescribes (print/parse round trip), with the
    parser halves of C13 (spans) and C14 (layout).  The proofs are in Proofs/GrammarRound.v (round
    trip, for any lexer configuration), Proofs/ExprPos.v and Proofs/SpanSound.v; the theorems here
    take them at [repaired] and [pinned]. *)
From CG Require Import Base.Prelude Model.Ast Model.Lexer Model.Parser Spec.Printer Spec.Spans
  Proofs.GrammarRound Proofs.ExprPos Proofs.SpanSound.
From CGgen Require Import Consts.

(** For every printable grammar tree and every layout, the model of [Grammar::parse] with the span
    reset of [terminal] repaired returns the tree with *exactly* the printer's positions as spans.
    (Layouts are valid by construction, see Spec/Printer.v: the statement has no side condition on
    [lay].) *)
Theorem C05_roundtrip :
  forall g lay, wf g -> parse_with repaired (text g lay) = Ok (located g lay).
Proof. intros. apply (roundtrip_cfg repaired); assumption. Qed.
Check C05_roundtrip :
  forall g lay, wf g -> parse_with repaired (text g lay) = Ok (located g lay).
Print Assumptions C05_roundtrip.

(** The same for [Parser.parse], whose reset switches are regenerated from parse.rs: the tree,
    with exactly the spans the reset mechanism predicts. *)
Theorem C05_roundtrip_pinned :
  forall g lay, wf g -> parse (text g lay) = Ok (located_with pinned g lay).
Proof. intros. apply (roundtrip_cfg pinned); assumption. Qed.
Check C05_roundtrip_pinned :
  forall g lay, wf g -> parse (text g lay) = Ok (located_with pinned g lay).
Print Assumptions C05_roundtrip_pinned.

(** Hence, whatever the switches are: same operators, same nesting, same literal and description
    text, same statement kinds and names -- the tree up to spans. *)
Theorem C05_roundtrip_trees :
  forall g lay, wf g -> exists g', parse (text g lay) = Ok g' /\ erase_grammar g' = erase_grammar g.
Proof.
  intros g lay W. exists (located_with pinned g lay). split.
  - apply (roundtrip_cfg pinned); assumption.
  - apply erase_located.
Qed.
Check C05_roundtrip_trees :
  forall g lay, wf g -> exists g', parse (text g lay) = Ok g' /\ erase_grammar g' = erase_grammar g.
Print Assumptions C05_roundtrip_trees.

(** Parser half of C14: whitespace, newlines, form feeds, comments, [=]/[::=], the final [;],
    plain or escaped dots and redundant parentheses never change the tree. *)
Theorem C05_layout_irrelevant :
  forall g l1 l2, wf g ->
    exists g1 g2, parse (text g l1) = Ok g1 /\ parse (text g l2) = Ok g2
                  /\ erase_grammar g1 = erase_grammar g2.
Proof.
  intros g l1 l2 W. exists (located_with pinned g l1), (located_with pinned g l2).
  repeat split; try (apply (roundtrip_cfg pinned); assumption).
  rewrite !erase_located. reflexivity.
Qed.
Check C05_layout_irrelevant :
  forall g l1 l2, wf g ->
    exists g1 g2, parse (text g l1) = Ok g1 /\ parse (text g l2) = Ok g2
                  /\ erase_grammar g1 = erase_grammar g2.
Print Assumptions C05_layout_irrelevant.

(** Parser half of C13: the printer's positions are the nom_locate positions of the text (line + 1
    and column 1 after each LF, column + 1 per other byte), so [C05_roundtrip] says every span is
    where the construct starts and ends in the input. *)
Theorem C13_printer_positions_true :
  forall e lay ctx p, snd (loc repaired lay ctx e p) = adv_str (txt lay ctx e) p.
Proof. exact loc_end_true. Qed.
Check C13_printer_positions_true :
  forall e lay ctx p, snd (loc repaired lay ctx e p) = adv_str (txt lay ctx e) p.
Print Assumptions C13_printer_positions_true.

(** Parser half of C13 for *every* input text, printed or not, accepted or not (lexer with the span
    reset repaired): each span of the tree, and the span of the syntax error, consists of true
    positions of the text ([Spec/Spans.v]: start = position after some prefix, end = position
    after a longer prefix). *)
Theorem C13_spans_sound_any_input :
  forall s g, parse_with repaired s = Ok g -> Forall (stmt_ok s) g.
Proof. exact parse_spans_sound. Qed.
Check C13_spans_sound_any_input :
  forall s g, parse_with repaired s = Ok g -> Forall (stmt_ok s) g.
Print Assumptions C13_spans_sound_any_input.

Theorem C13_error_span_sound_any_input :
  forall s sp, parse_with repaired s = Err sp ->
    exists pre rest, s = append pre rest /\ rest <> EmptyString
                     /\ sp = from_machine (mkin rest (adv_str pre pos0)).
Proof. exact parse_error_sound. Qed.
Check C13_error_span_sound_any_input :
  forall s sp, parse_with repaired s = Err sp ->
    exists pre rest, s = append pre rest /\ rest <> EmptyString
                     /\ sp = from_machine (mkin rest (adv_str pre pos0)).
Print Assumptions C13_error_span_sound_any_input.

(** ... and the lexer with both resets (parse.rs before /repo commit 10a4ba7, which removes them)
    violates it: after the escaped dot, [<FOO>] is reported at 1:3 instead of 1:10. *)
Theorem C13_refuted_after_escape :
  parse_with (mkcfg true true) "cmd a\.b <FOO>;"
  = Ok [CallVariant "cmd" (mkspan 1 1 4)
          (Sequence [Terminal "a.b" None 0 (mkspan 1 5 2); NontermRef "FOO" 0 (mkspan 1 3 8)] (mkspan 1 5 8))]
  /\ parse_with repaired "cmd a\.b <FOO>;"
  = Ok [CallVariant "cmd" (mkspan 1 1 4)
          (Sequence [Terminal "a.b" None 0 (mkspan 1 5 9); NontermRef "FOO" 0 (mkspan 1 10 15)] (mkspan 1 5 15))].
Proof. split; vm_compute; reflexivity. Qed.
Check C13_refuted_after_escape :
  parse_with (mkcfg true true) "cmd a\.b <FOO>;"
  = Ok [CallVariant "cmd" (mkspan 1 1 4)
          (Sequence [Terminal "a.b" None 0 (mkspan 1 5 2); NontermRef "FOO" 0 (mkspan 1 3 8)] (mkspan 1 5 8))]
  /\ parse_with repaired "cmd a\.b <FOO>;"
  = Ok [CallVariant "cmd" (mkspan 1 1 4)
          (Sequence [Terminal "a.b" None 0 (mkspan 1 5 9); NontermRef "FOO" 0 (mkspan 1 10 15)] (mkspan 1 5 15))].
Print Assumptions C13_refuted_after_escape.

(** Non-vacuity: a printable grammar with every operator, an escape, a description with escaped
    quote and backslash, a sub-word, a command and a shell-specific definition; a layout with
    comments, newlines, a form feed and redundant parentheses; the text; and the round trip. *)
Definition ex_sp := mkspan 0 0 0.
Definition ex_g : grammar :=
  [ CallVariant "cmd" ex_sp
      (Sequence
         [ Alternative [Terminal "a.b" (Some "say ""hi"" \") 0 ex_sp; NontermRef "FILE" 0 ex_sp] ex_sp;
           Subword (Sequence [Terminal "--o=" None 0 ex_sp;
                              Fallback [Terminal "x" None 0 ex_sp; Command "ls }" false 0 ex_sp] ex_sp] ex_sp) 0 ex_sp;
           Many1 (Optional (DistDescr (Terminal "y.." None 0 ex_sp) "d" ex_sp) ex_sp) ex_sp;
           Subword (Sequence [Terminal "k" None 0 ex_sp; Terminal "v" None 0 ex_sp; Terminal "w" None 0 ex_sp] ex_sp) 0 ex_sp ] ex_sp);
    NontermDef "FILE" ex_sp (Some ("zsh", ex_sp)) (Command "_files" false 0 ex_sp) ].

Definition ex_gap (k : nat) : gap :=
  match k with
  | 0%nat => [BWs WSp]
  | 1%nat => [BCom " note"; BWs WTab]
  | 2%nat => [BWs WLf; BFf]
  | _ => []
  end.
Definition ex_lay : layout :=
  fun path => mknl ex_gap (fun k => (ex_gap k, ex_gap (S k))) (fun _ => ([BWs WSp], []))
                   (match path with [0%nat; 0%nat] => 1%nat | _ => 0%nat end)
                   (fun k => Nat.eqb k 1) (fun _ => [TSp]) false.

Example ex_C05_inhabited :
  wf ex_g
  /\ parse_with repaired (text ex_g ex_lay) = Ok (located ex_g ex_lay)
  /\ erase_grammar (located ex_g ex_lay) = erase_grammar ex_g
  /\ String.length (text ex_g ex_lay) = 171%nat.
Proof. vm_compute. repeat split; reflexivity. Qed.
Print Assumptions ex_C05_inhabited.

(** Nesting of one operator inside the same operator is part of the tree (the fallback LEVELS of
    `a || (b || (c || d))` differ from those of `a || b || c || d`): the printer writes the inner
    node in parentheses and the parser gives the nesting back -- for ||, | and juxtaposition. *)
Definition ex_t (s : string) : expr := Terminal s None 0 ex_sp.
Definition ex_nested : grammar :=
  [ CallVariant "cmd" ex_sp
      (Fallback [ ex_t "a";
                  Fallback [ex_t "b"; Fallback [ex_t "c"; ex_t "d"] ex_sp] ex_sp;
                  Alternative [Alternative [ex_t "e"; ex_t "f"] ex_sp; ex_t "g"] ex_sp;
                  Sequence [ex_t "h"; Sequence [ex_t "i"; ex_t "j"] ex_sp] ex_sp ] ex_sp) ].
Definition ex_flat : grammar :=
  [ CallVariant "cmd" ex_sp
      (Fallback [ ex_t "a"; ex_t "b"; ex_t "c"; ex_t "d";
                  Alternative [ex_t "e"; ex_t "f"; ex_t "g"] ex_sp;
                  Sequence [ex_t "h"; ex_t "i"; ex_t "j"] ex_sp ] ex_sp) ].
Example ex_C05_nested_same_operator :
  wf ex_nested
  /\ parse_with repaired (text ex_nested ex_lay) = Ok (located ex_nested ex_lay)
  /\ erase_grammar (located ex_nested ex_lay) = erase_grammar ex_nested
  /\ parse_with repaired (text ex_flat ex_lay) = Ok (located ex_flat ex_lay)
  /\ erase_grammar ex_nested <> erase_grammar ex_flat.
Proof. vm_compute. repeat split; try reflexivity. discriminate. Qed.
Print Assumptions ex_C05_nested_same_operator.
